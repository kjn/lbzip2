(* C22 - the command line.  The documented option syntax is written down as a
   state-free lexer [lex] from tokens to option occurrences ([item]) with a meaning
   [run]; [refine] shows that the one-pass loop of the model is [run] after [lex].
   The C22 theorems are then proved on item lists.  Whatever they need of the
   regenerated tables is a boolean check over the keys that occur in a table plus
   its default branch ([short_forall], [long_forall]); through these checks an edit
   of main.c reaches the theorems. *)
From Coq Require Import List NArith Bool String Ascii Lia.
From LBZ Require Import Gen.CliTab Cli.CliModel.
Import ListNotations.
Local Open Scope string_scope.
Local Open Scope N_scope.
Local Open Scope list_scope.

Definition keys_of {A} (rules : list (list A * list stmt)) : list A := flat_map fst rules.

(* [mem] is list membership decided by [eqb]; the model has one such function per key type *)
Definition decides_mem {A} (eqb : A -> A -> bool) (mem : A -> list A -> bool) : Prop :=
  (forall x y, eqb x y = true <-> x = y) /\ forall x l, mem x l = existsb (eqb x) l.

Lemma mem_N_decides : decides_mem N.eqb mem_N.
Proof.
  split; [exact N.eqb_eq|]. induction l as [|y l IH]; cbn; [|rewrite IH]; reflexivity.
Qed.

Lemma mem_str_decides : decides_mem String.eqb mem_str.
Proof.
  split; [exact String.eqb_eq|]. induction l as [|y l IH]; cbn; [|rewrite IH]; reflexivity.
Qed.

Section Keys.
  Context {A : Type} {eqb : A -> A -> bool} {mem : A -> list A -> bool} (M : decides_mem eqb mem).

  Lemma mem_In x l : mem x l = true <-> In x l.
  Proof.
    destruct M as [Heq Hmem]. rewrite Hmem, existsb_exists. split.
    - intros (y & Hy & E). apply Heq in E. subst y. exact Hy.
    - intros H. exists x. split; [exact H | apply Heq; reflexivity].
  Qed.

  Lemma mem_app x l1 l2 : mem x (l1 ++ l2) = mem x l1 || mem x l2.
  Proof. destruct M as [_ Hmem]. rewrite !Hmem. apply existsb_app. Qed.

  Lemma find_rule_none x rules : mem x (keys_of rules) = false -> find_rule mem x rules = None.
  Proof.
    induction rules as [|[ks st] r IH]; cbn; [reflexivity|].
    rewrite mem_app, orb_false_iff. intros [H1 H2]. rewrite H1. auto.
  Qed.

  Lemma not_key keys k x : mem k keys = false -> mem x keys = true -> eqb k x = false.
  Proof.
    intros H1 H2. destruct (eqb k x) eqn:E; [|reflexivity].
    apply M in E. subst. congruence.
  Qed.

  (* finite support: if [kd] is KFail outside [keys], a boolean property of (k, kd k) holds
     for all k as soon as it holds on [keys] (a computation) and for KFail *)
  Lemma table_forall (kd : A -> kind) keys :
    (forall k, mem k keys = false -> kd k = KFail) ->
    forall Pb : A -> kind -> bool,
    forallb (fun k => Pb k (kd k)) keys = true ->
    (forall k, mem k keys = false -> Pb k KFail = true) ->
    forall k, Pb k (kd k) = true.
  Proof.
    intros Hfail Pb Hk Hd k. destruct (mem k keys) eqn:E.
    - rewrite forallb_forall in Hk. apply Hk, mem_In, E.
    - rewrite (Hfail k E). apply Hd, E.
  Qed.
End Keys.

Definition short_keys : list N := keys_of short_rules.
Definition long_keys : list string := keys_of long_rules ++ long_ignored.
Definition name_keys : list string := keys_of name_rules.

Lemma short_kind_default k : mem_N k short_keys = false -> short_kind k = KFail.
Proof.
  intros E. unfold short_kind. rewrite (find_rule_none mem_N_decides _ _ E).
  vm_compute. reflexivity.
Qed.

Lemma long_kind_default r : mem_str r long_keys = false -> long_kind r = KFail.
Proof.
  unfold long_keys. rewrite (mem_app mem_str_decides), orb_false_iff. intros [E1 E2].
  unfold long_kind. rewrite (find_rule_none mem_str_decides _ _ E1), E2.
  vm_compute. reflexivity.
Qed.

Definition short_forall := table_forall mem_N_decides short_kind short_keys short_kind_default.
Definition long_forall := table_forall mem_str_decides long_kind long_keys long_kind_default.

(* the documented syntax classes of the option letters: n and m take a value *)
Definition takes_arg (k : N) : bool := (k =? 110) || (k =? 109).     (* n m *)

Definition syntax_pb (k : N) (kd : kind) : bool :=
  match kd with
  | KEnd => k =? 0
  | KStop AS_USAGE | KStop AS_VERSION => negb (takes_arg k) && negb (k =? 0)
  | KStop _ => false
  | KAct _ => negb (takes_arg k) && negb (k =? 0)
  | KOptArg _ _ _ => takes_arg k
  | KFail => negb (takes_arg k) && negb (k =? 0)
  | KGap => false
  end.

Lemma short_syntax : forall k, syntax_pb k (short_kind k) = true.
Proof.
  apply short_forall.
  - vm_compute. reflexivity.
  - intros k H. unfold syntax_pb, takes_arg.
    rewrite !(not_key mem_N_decides short_keys k _ H); reflexivity.
Qed.

Lemma short_kind_0 : short_kind 0 = KEnd.
Proof. vm_compute. reflexivity. Qed.

Lemma takes_arg_optarg k : takes_arg k = true -> exists v lo hi, short_kind k = KOptArg v lo hi.
Proof.
  intros H. pose proof (short_syntax k) as S. unfold syntax_pb in S. rewrite H in S.
  destruct (short_kind k) as [|[]| | | |]; try discriminate S; eauto.
  apply N.eqb_eq in S. subst k. discriminate H.
Qed.

Definition long_syntax_pb (r : string) (kd : kind) : bool :=
  match kd with
  | KStop AS_STOP => String.eqb r ""
  | KStop AS_USAGE | KStop AS_VERSION => negb (String.eqb r "")
  | KStop AS_CONTINUE => false
  | KAct _ | KFail => negb (String.eqb r "")
  | _ => false
  end.

Lemma long_syntax : forall r, long_syntax_pb r (long_kind r) = true.
Proof.
  apply long_forall.
  - vm_compute. reflexivity.
  - intros r H. cbn. rewrite (not_key mem_str_decides long_keys r "" H); reflexivity.
Qed.

Lemma long_kind_empty : long_kind "" = KStop AS_STOP.
Proof. vm_compute. reflexivity. Qed.

Inductive item :=
| IOperand (a : string)        (* a file operand *)
| ILong (r a : string)         (* the long option --r (r non-empty); a is the whole token *)
| IEndOpts                     (* the token "--" *)
| IShort (k : N)               (* the option letter with byte code k inside a cluster (not n, m) *)
| IArg (k : N) (v : string)    (* -n / -m (code k) with its value v, attached or separate *)
| IArgMissing (k : N).         (* -n / -m as the very last thing on the line *)

Inductive lmode := LGo | LWant (k : N) | LStop.

Fixpoint lex_cluster (str : string) : list item * option N :=
  match str with
  | EmptyString => ([], None)
  | String c rest =>
      let k := code c in
      if k =? 0 then ([], None)
      else if takes_arg k then
        match rest with
        | EmptyString => ([], Some k)
        | _ => ([IArg k rest], None)
        end
      else let '(is, w) := lex_cluster rest in (IShort k :: is, w)
  end.

Definition mode_after (w : option N) : lmode :=
  match w with Some k => LWant k | None => LGo end.

Definition long_part (r1 : string) : option string :=
  match r1 with
  | String c2 r2 => if Ascii.eqb c2 "-" then Some r2 else None
  | EmptyString => None
  end.

Definition dash_part (a : string) : option string :=
  match a with
  | String c1 r1 => if Ascii.eqb c1 "-" then Some r1 else None
  | EmptyString => None
  end.

Fixpoint lex (m : lmode) (args : list string) : list item :=
  match args with
  | [] => match m with LWant k => [IArgMissing k] | _ => [] end
  | a :: rest =>
      match m with
      | LStop => IOperand a :: lex LStop rest
      | LWant k => IArg k a :: lex LGo rest
      | LGo =>
          match dash_part a with
          | None => IOperand a :: lex LGo rest
          | Some r1 =>
              match long_part r1 with
              | Some EmptyString => IEndOpts :: lex LStop rest
              | Some r2 => ILong r2 a :: lex LGo rest
              | None => let '(is, w) := lex_cluster r1 in is ++ lex (mode_after w) rest
              end
          end
      end
  end.

(* the letters and names get their meaning from the regenerated tables *)
Definition do_short (k : N) (s : lstate) : lstate :=
  match short_kind k with
  | KEnd => s
  | KStop st => set_as st s
  | KAct ps => do_effects k ps s
  | KFail => set_err (EUnknownShort k) s
  | _ => set_err EModelGap s
  end.

Definition run_item (s : lstate) (i : item) : lstate :=
  if halted s then s else
  match i with
  | IOperand a => push_op a s
  | ILong r a => do_long r a s
  | IEndOpts => set_as AS_STOP s
  | IShort k => do_short k s
  | IArg k v =>
      match short_kind k with
      | KOptArg var lo hi => do_optarg (k, var, lo, hi) v s
      | _ => set_err EModelGap s
      end
  | IArgMissing k => set_err (EMissingArg k) s
  end.

Definition run (items : list item) (s : lstate) : lstate := fold_left run_item items s.

Lemma run_cons i r s : run (i :: r) s = run r (run_item s i).
Proof. reflexivity. Qed.

Lemma run_app i1 i2 s : run (i1 ++ i2) s = run i2 (run i1 s).
Proof. unfold run. apply fold_left_app. Qed.

Lemma run_halted items s : halted s = true -> run items s = s.
Proof.
  induction items as [|i r IH]; intros H; [reflexivity|].
  rewrite run_cons. unfold run_item. rewrite H. exact (IH H).
Qed.

Lemma steps_halted args s : halted s = true -> fold_left step args s = s.
Proof.
  induction args as [|a r IH]; cbn; [reflexivity|].
  intros H. unfold step at 2. rewrite H. apply IH. exact H.
Qed.

Lemma halted_false s :
  halted s = false <-> l_err s = None /\ (l_as s = AS_CONTINUE \/ l_as s = AS_STOP).
Proof.
  unfold halted. destruct (l_err s), (l_as s); split; try discriminate; auto;
    intros [He [Ha|Ha]]; discriminate.
Qed.

Lemma halted_set_err e s : halted (set_err e s) = true.
Proof. reflexivity. Qed.

Lemma halted_set_want w s : halted (set_want w s) = halted s.
Proof. reflexivity. Qed.

Lemma halted_push a s : halted (push_op a s) = halted s.
Proof. reflexivity. Qed.

Lemma halted_set_cfg c s : halted (set_cfg c s) = halted s.
Proof. reflexivity. Qed.

Lemma halted_set_as st s :
  halted s = false ->
  halted (set_as st s) = match st with AS_USAGE | AS_VERSION => true | _ => false end.
Proof.
  intros H. apply halted_false in H. destruct H as [He _].
  unfold halted. cbn. rewrite He. destruct st; reflexivity.
Qed.

Lemma set_want_none_id s : l_want s = None -> set_want None s = s.
Proof. destruct s; cbn. intros ->. reflexivity. Qed.

Lemma do_optarg_shape w a s :
  (exists c, do_optarg w a s = set_cfg c s) \/ (exists e, do_optarg w a s = set_err e s).
Proof.
  destruct w as [[[k v] lo] hi]. unfold do_optarg. destruct (xstrtol a lo hi); eauto.
Qed.

Lemma do_effects_shape k ps s :
  (exists c, do_effects k ps s = set_cfg c s) \/ (exists e, do_effects k ps s = set_err e s).
Proof. unfold do_effects. destruct (exec_effects k ps (l_cfg s)); eauto. Qed.

Lemma do_optarg_after w a s :
  halted (do_optarg w a s) = false ->
  l_as (do_optarg w a s) = l_as s /\ l_want (do_optarg w a s) = l_want s.
Proof. destruct (do_optarg_shape w a s) as [[c ->]|[e ->]]; [auto | discriminate]. Qed.

Lemma do_long_after r a s :
  halted s = false -> String.eqb r "" = false -> halted (do_long r a s) = false ->
  l_as (do_long r a s) = l_as s /\ l_want (do_long r a s) = l_want s.
Proof.
  intros Hh Hr. unfold do_long. pose proof (long_syntax r) as Hs.
  destruct (long_kind r) as [|st|ps|v lo hi| |]; cbn in Hs; try discriminate.
  - rewrite Hr in Hs. rewrite (halted_set_as st s Hh). destruct st; discriminate.
  - destruct (do_effects_shape 0 ps s) as [[c ->]|[e ->]]; [auto | discriminate].
Qed.

(* the cluster loop against the cluster lexer: [cluster] runs the lexed items and then, if
   the cluster ends in -n/-m without a value, records that the next argument is the value *)
Definition finish_cluster (w : option N) (s' : lstate) : lstate :=
  if halted s' then s' else
  match w with
  | None => s'
  | Some k => match short_kind k with
              | KOptArg v lo hi => set_want (Some (k, v, lo, hi)) s'
              | _ => s'
              end
  end.

Lemma finish_cluster_halted w s : halted s = true -> finish_cluster w s = s.
Proof. unfold finish_cluster. intros ->. reflexivity. Qed.

Lemma finish_cluster_none s : finish_cluster None s = s.
Proof. unfold finish_cluster. destruct (halted s); reflexivity. Qed.

Lemma cluster_refine str : forall s,
  halted s = false -> l_want s = None ->
  cluster str s = finish_cluster (snd (lex_cluster str)) (run (fst (lex_cluster str)) s) /\
  (halted (run (fst (lex_cluster str)) s) = false ->
     l_as (run (fst (lex_cluster str)) s) = l_as s /\ l_want (run (fst (lex_cluster str)) s) = None).
Proof.
  induction str as [|c rest IH]; intros s Hh Hw; cbn [cluster lex_cluster].
  { rewrite short_kind_0. unfold finish_cluster. cbn. rewrite Hh. auto. }
  set (k := code c). pose proof (short_syntax k) as Hsyn.
  destruct (k =? 0) eqn:E0.
  { apply N.eqb_eq in E0. rewrite E0, short_kind_0. unfold finish_cluster. cbn. rewrite Hh. auto. }
  destruct (takes_arg k) eqn:Eta.
  - destruct (takes_arg_optarg k Eta) as (v & lo & hi & Hk). rewrite Hk.
    destruct rest as [|c' rest']; cbn [fst snd].
    + unfold finish_cluster. cbn [run fold_left]. rewrite Hh, Hk. auto.
    + rewrite finish_cluster_none, run_cons. unfold run_item. rewrite Hh, Hk. cbn [run fold_left].
      split; [reflexivity|]. intros Hn. rewrite <- Hw. apply do_optarg_after, Hn.
  - destruct (lex_cluster rest) as [is w]. cbn [fst snd] in *.
    rewrite run_cons. unfold run_item, do_short. rewrite Hh.
    (* an item that halts ends the cluster *)
    assert (Hhalt : forall s1, halted s1 = true ->
              s1 = finish_cluster w (run is s1) /\
              (halted (run is s1) = false -> l_as (run is s1) = l_as s /\ l_want (run is s1) = None)).
    { intros s1 H1. rewrite (run_halted _ _ H1), (finish_cluster_halted _ _ H1).
      split; [reflexivity | congruence]. }
    destruct (short_kind k) as [|st|ps|v lo hi| |]; cbn in Hsyn;
      rewrite ?E0, ?Eta in Hsyn; try discriminate Hsyn.
    + apply Hhalt. rewrite (halted_set_as st s Hh). destruct st; try discriminate Hsyn; reflexivity.
    + unfold do_effects. destruct (exec_effects k ps (l_cfg s)) as [c'|].
      * apply (IH (set_cfg c' s) Hh Hw).
      * apply Hhalt, halted_set_err.
    + apply Hhalt, halted_set_err.
Qed.

Lemma lex_cluster_want str k : snd (lex_cluster str) = Some k -> takes_arg k = true.
Proof.
  induction str as [|c rest IH]; cbn; [discriminate|].
  destruct (code c =? 0); [discriminate|].
  destruct (takes_arg (code c)) eqn:E.
  - destruct rest; cbn; [intros [= <-]; exact E | discriminate].
  - destruct (lex_cluster rest); cbn in *. exact IH.
Qed.

Definition mode_of (s : lstate) : lmode :=
  match l_want s with
  | Some (k, _, _, _) => LWant k
  | None => match l_as s with AS_STOP => LStop | _ => LGo end
  end.

Definition want_ok (s : lstate) : Prop :=
  match l_want s with
  | Some (k, v, lo, hi) => short_kind k = KOptArg v lo hi /\ l_as s = AS_CONTINUE
  | None => True
  end.

Lemma step_stop s a : halted s = false -> l_as s = AS_STOP -> step s a = push_op a s.
Proof. unfold step. intros -> ->. reflexivity. Qed.

Lemma step_want s a w :
  halted s = false -> l_as s = AS_CONTINUE -> l_want s = Some w ->
  step s a = do_optarg w a (set_want None s).
Proof. unfold step. intros -> -> ->. reflexivity. Qed.

Lemma step_go s a :
  halted s = false -> l_as s = AS_CONTINUE -> l_want s = None ->
  step s a = match dash_part a with
             | None => push_op a s
             | Some r1 => match long_part r1 with
                          | Some r2 => do_long r2 a s
                          | None => cluster r1 s
                          end
             end.
Proof.
  unfold step, dash_part, long_part. intros -> -> ->. destruct a as [|c1 [|c2 r2]].
  - reflexivity.
  - destruct (Ascii.eqb c1 "-"); reflexivity.
  - destruct (Ascii.eqb c1 "-"), (Ascii.eqb c2 "-"); reflexivity.
Qed.

(* the one-pass loop is [run] after [lex]; [finalize] hides the one difference: at the end of
   the line a pending -n/-m is still [l_want] on the left and already an error on the right *)
Lemma refine args : forall s ti to, halted s = false -> want_ok s ->
  finalize ti to (fold_left step args s) =
  finalize ti to (run (lex (mode_of s) args) (set_want None s)).
Proof.
  induction args as [|a rest IH]; intros s ti to Hh Hok;
    destruct (proj1 (halted_false s) Hh) as [He Has]; unfold mode_of, want_ok in Hok |- *.
  - destruct (l_want s) as [[[[k v] lo] hi]|] eqn:Ew.
    + cbn [lex run fold_left]. unfold run_item, finalize. rewrite halted_set_want, Hh, He, Ew. reflexivity.
    + rewrite (set_want_none_id s Ew). destruct (l_as s); reflexivity.
  - cbn [fold_left].
    (* after the items of [a] have led from [s] to [s1], the induction hypothesis applies
       with the mode the lexer is in *)
    assert (Next : forall s1 st,
              (halted s1 = false -> l_as s1 = st /\ l_want s1 = None) ->
              finalize ti to (fold_left step rest s1) =
              finalize ti to (run (lex (match st with AS_STOP => LStop | _ => LGo end) rest) s1)).
    { intros s1 st H1. destruct (halted s1) eqn:Hh1.
      - rewrite (steps_halted _ _ Hh1), (run_halted _ _ Hh1). reflexivity.
      - destruct (H1 eq_refl) as [<- Hw1]. rewrite <- (set_want_none_id s1 Hw1) at 3.
        rewrite (IH s1 ti to Hh1); unfold want_ok, mode_of; rewrite Hw1; [reflexivity | exact I]. }
    destruct (l_want s) as [[[[k v] lo] hi]|] eqn:Ew.
    { (* [a] is the value of a pending -n/-m *)
      destruct Hok as [Hk Hc]. rewrite (step_want s a _ Hh Hc Ew).
      cbn [lex]. rewrite run_cons. unfold run_item. rewrite halted_set_want, Hh, Hk.
      apply (Next _ AS_CONTINUE). intros H1. rewrite <- Hc. exact (do_optarg_after _ _ _ H1). }
    rewrite (set_want_none_id s Ew).
    destruct Has as [Has|Has]; rewrite Has.
    2:{ (* after "--" every argument is an operand *)
        rewrite (step_stop s a Hh Has). cbn [lex]. rewrite run_cons. unfold run_item. rewrite Hh.
        apply (Next _ AS_STOP). intros _. split; assumption. }
    rewrite (step_go s a Hh Has Ew). cbn [lex].
    destruct (dash_part a) as [r1|].
    2:{ rewrite run_cons. unfold run_item. rewrite Hh.
        apply (Next _ AS_CONTINUE). intros _. split; assumption. }
    (* "--", a long option, a cluster *)
    destruct (long_part r1) as [[|c3 r3]|].
    + rewrite run_cons. unfold run_item. rewrite Hh. unfold do_long. rewrite long_kind_empty.
      apply (Next _ AS_STOP). intros _. split; [reflexivity | assumption].
    + rewrite run_cons. unfold run_item. rewrite Hh.
      apply (Next _ AS_CONTINUE). intros H1. rewrite <- Has, <- Ew.
      exact (do_long_after (String c3 r3) a s Hh eq_refl H1).
    + destruct (cluster_refine r1 s Hh Ew) as [-> Hc].
      pose proof (lex_cluster_want r1) as Hta.
      destruct (lex_cluster r1) as [is w]. cbn [fst snd] in *.
      rewrite run_app. set (s' := run is s) in *. rewrite Has in Hc.
      destruct w as [kw|]; cbn [mode_after].
      2:{ rewrite finish_cluster_none. exact (Next _ AS_CONTINUE Hc). }
      unfold finish_cluster. destruct (halted s') eqn:H'.
      { rewrite (steps_halted _ _ H'), (run_halted _ _ H'). reflexivity. }
      (* the cluster ends in -n/-m: the value is the next argument *)
      destruct (Hc eq_refl) as [Ha' Hw'].
      destruct (takes_arg_optarg kw (Hta kw eq_refl)) as (v & lo & hi & Hk). rewrite Hk.
      rewrite (IH (set_want (Some (kw, v, lo, hi)) s') ti to H'); [|unfold want_ok; cbn; auto].
      unfold mode_of. cbn [l_want set_want]. rewrite <- (set_want_none_id s' Hw') at 2.
      reflexivity.
Qed.

Definition doc_decomp_names : list string := ["bunzip2"; "lbunzip2"; "bzcat"; "lbzcat"].
Definition doc_cat_names : list string := ["bzcat"; "lbzcat"].

(* the documented defaults: compress to files, level 9, everything else off; the four names *)
Definition doc_init_config (pname : string) : config :=
  mkConfig (mem_str pname doc_decomp_names)
           (if mem_str pname doc_cat_names then OM_STDOUT else OM_REGF)
           9 false false false false false false 0 0.

Definition doc_init_state (pname : string) : lstate :=
  mkL (doc_init_config pname) AS_CONTINUE None None [].

Lemma init_state_spec pname : init_state pname = Some (doc_init_state pname).
Proof.
  destruct (mem_str pname name_keys) eqn:E.
  - apply (mem_In mem_str_decides) in E. unfold name_keys, keys_of in E. cbn in E.
    repeat (destruct E as [E|E]; [subst pname; vm_compute; reflexivity|]). destruct E.
  - (* a name outside the table is none of the documented names, which all occur in it *)
    assert (Hsub : forall l, forallb (fun x => mem_str x name_keys) l = true -> mem_str pname l = false).
    { intros l Hl. destruct (mem_str pname l) eqn:D; [|reflexivity].
      apply (mem_In mem_str_decides) in D. rewrite forallb_forall in Hl. rewrite (Hl _ D) in E. discriminate E. }
    unfold init_state, name_prims, doc_init_state, doc_init_config.
    rewrite (find_rule_none mem_str_decides _ _ E), !Hsub by reflexivity. vm_compute. reflexivity.
Qed.

Theorem opts_setup_lex pname args ti to :
  opts_setup pname args ti to = finalize ti to (run (lex LGo args) (doc_init_state pname)).
Proof. unfold opts_setup. rewrite init_state_spec. apply refine; [reflexivity | exact I]. Qed.

Lemma post_setup_small : compile post_setup = Some [PSetBool BSmall false].
Proof. vm_compute. reflexivity. Qed.

Lemma effective_run c ops : effective (Run c ops) = Run (set_bool BSmall false c) ops.
Proof. unfold effective. rewrite post_setup_small. reflexivity. Qed.

Definition fin_cfg (s : lstate) : config :=
  match c_outmode (l_cfg s), l_ops s with
  | OM_REGF, [] => set_outmode OM_STDOUT (l_cfg s)
  | _, _ => l_cfg s
  end.

Definition tty_check (ti to : bool) (c : config) (ops : list string) : outcome :=
  if c_decompress c then
    match ops with
    | [] => if ti then Fatal ETtyIn else Run c ops
    | _ => Run c ops
    end
  else if is_stdout (c_outmode c) && to then Fatal ETtyOut
  else Run c ops.

Lemma finalize_eq ti to s :
  finalize ti to s =
  match l_err s, l_want s, l_as s with
  | Some e, _, _ => Fatal e
  | None, Some (k, _, _, _), _ => Fatal (EMissingArg k)
  | None, None, AS_USAGE => Usage
  | None, None, AS_VERSION => Version
  | None, None, _ => tty_check ti to (fin_cfg s) (l_ops s)
  end.
Proof. reflexivity. Qed.

Lemma tty_check_run ti to c ops c' ops' :
  tty_check ti to c ops = Run c' ops' -> c' = c /\ ops' = ops.
Proof.
  unfold tty_check.
  destruct (c_decompress c), ops, ti, (is_stdout (c_outmode c) && to);
    try discriminate; intros [= <- <-]; auto.
Qed.

Lemma finalize_run ti to s c ops :
  finalize ti to s = Run c ops -> halted s = false /\ c = fin_cfg s /\ ops = l_ops s.
Proof.
  rewrite finalize_eq. unfold halted.
  destruct (l_err s), (l_want s) as [[[[k v] lo] hi]|], (l_as s); try discriminate;
    intros H; apply tty_check_run in H; auto.
Qed.

Definition toks_of (env : environ) (argv : list string) : list string := env_tokens env ++ argv.

(* the regenerated [env_before_argv] is true: the environment comes first *)
Lemma parse_cli_eq pname env argv ti to :
  parse_cli pname env argv ti to = effective (opts_setup pname (toks_of env argv) ti to).
Proof. reflexivity. Qed.

Lemma parse_cli_run pname env argv ti to cfg ops :
  parse_cli pname env argv ti to = Run cfg ops ->
  let s := run (lex LGo (toks_of env argv)) (doc_init_state pname) in
  halted s = false /\ cfg = set_bool BSmall false (fin_cfg s) /\ ops = l_ops s.
Proof.
  rewrite parse_cli_eq, opts_setup_lex. intros H.
  destruct (finalize ti to (run (lex LGo (toks_of env argv)) (doc_init_state pname))) eqn:F;
    try discriminate.
  rewrite effective_run in H. inversion H; subst.
  destruct (finalize_run _ _ _ _ _ F) as (H1 & H2 & H3). subst. auto.
Qed.

(* [do_short] and [do_long] are one function of what the table says about the key *)
Definition do_kind (kd : kind) (opt : N) (unknown : error) (s : lstate) : lstate :=
  match kd with
  | KEnd => s
  | KStop st => set_as st s
  | KAct ps => do_effects opt ps s
  | KFail => set_err unknown s
  | _ => set_err EModelGap s
  end.

Lemma do_short_kind k s : do_short k s = do_kind (short_kind k) k (EUnknownShort k) s.
Proof. reflexivity. Qed.

Lemma do_long_kind r a s : do_long r a s = do_kind (long_kind r) 0 (EUnknownLong a) s.
Proof.
  unfold do_long. pose proof (long_syntax r) as H.
  destruct (long_kind r); try reflexivity. discriminate H.
Qed.

Inductive modeopt := MD | MZ | MT.    (* -d/--decompress, -z/--compress, -t/--test *)

Definition short_mode (k : N) : option modeopt :=
  if k =? 100 then Some MD else if k =? 122 then Some MZ else if k =? 116 then Some MT else None.

Definition long_mode (r : string) : option modeopt :=
  if String.eqb r "decompress" then Some MD
  else if String.eqb r "compress" then Some MZ
  else if String.eqb r "test" then Some MT else None.

Definition item_mode (i : item) : option modeopt :=
  match i with
  | IShort k => short_mode k
  | ILong r _ => long_mode r
  | _ => None
  end.

Definition expect_dec (m : option modeopt) (d : bool) : bool :=
  match m with
  | Some MD | Some MT => true
  | Some MZ => false
  | None => d
  end.

(* the last of the mode options decides; none: the value before *)
Fixpoint decompress_after (items : list item) (d : bool) : bool :=
  match items with
  | [] => d
  | i :: r => decompress_after r (expect_dec (item_mode i) d)
  end.

Definition dec_effect (opt : N) (p : prim) (d : bool) : bool :=
  match p with
  | PSetBool BDecompress b => b
  | PCallDecompress a => arg_char opt a =? 100
  | PCallOutmode a => if arg_char opt a =? 99 then d else true
  | _ => d
  end.

Fixpoint dec_effects (opt : N) (ps : list prim) (d : bool) : bool :=
  match ps with
  | [] => d
  | p :: r => dec_effects opt r (dec_effect opt p d)
  end.

Definition keeps_stdout (opt : N) (p : prim) : bool :=
  match p with
  | PSetOutmode m => is_stdout m
  | PCallOutmode a => arg_char opt a =? 99
  | _ => true
  end.

Lemma exec_effect_modes opt p c c' :
  exec_effect opt p c = Some c' ->
  c_decompress c' = dec_effect opt p (c_decompress c) /\
  (keeps_stdout opt p = true -> c_outmode c = OM_STDOUT -> c_outmode c' = OM_STDOUT).
Proof.
  destruct p; cbn; try (intros [= <-]; auto; fail).
  - destruct v; intros [= <-]; auto.
  - intros [= <-]. destruct m; split; auto; discriminate.
  - unfold opts_outmode. destruct (c_outmode c), (arg_char opt a =? 99); cbn; try discriminate;
      intros [= <-]; split; auto; discriminate.
  - unfold opts_decompress. intros [= <-]. cbn. destruct (c_outmode c); split; auto; discriminate.
Qed.

Lemma exec_effects_modes opt ps : forall c c',
  exec_effects opt ps c = Some c' ->
  c_decompress c' = dec_effects opt ps (c_decompress c) /\
  (forallb (keeps_stdout opt) ps = true -> c_outmode c = OM_STDOUT -> c_outmode c' = OM_STDOUT).
Proof.
  induction ps as [|p r IH]; cbn; intros c c'.
  - intros [= <-]. auto.
  - destruct (exec_effect opt p c) as [c1|] eqn:E; [|discriminate]. intros H.
    destruct (exec_effect_modes _ _ _ _ E) as [Hd Ho], (IH _ _ H) as [IHd IHo]. split.
    + rewrite IHd, Hd. reflexivity.
    + intros Hk. apply andb_true_iff in Hk. destruct Hk. auto.
Qed.

Definition is_MT (m : option modeopt) : bool := match m with Some MT => true | _ => false end.

(* the table check behind [mode_selection] and [cat_names_stdout]: a rule with mode [m] sets
   `decompress` as [m] says and, unless [m] is -t, leaves standard output selected *)
Definition mode_pb (opt : N) (m : option modeopt) (kd : kind) : bool :=
  match kd with
  | KAct ps => Bool.eqb (dec_effects opt ps true) (expect_dec m true) &&
               Bool.eqb (dec_effects opt ps false) (expect_dec m false) &&
               (is_MT m || forallb (keeps_stdout opt) ps)
  | KStop AS_USAGE | KStop AS_VERSION | KFail | KGap => true
  | _ => match m with None => true | Some _ => false end
  end.

Lemma short_modes : forall k, mode_pb k (short_mode k) (short_kind k) = true.
Proof.
  apply (short_forall (fun k kd => mode_pb k (short_mode k) kd)); [vm_compute|]; reflexivity.
Qed.

Lemma long_modes : forall r, mode_pb 0 (long_mode r) (long_kind r) = true.
Proof.
  apply (long_forall (fun r kd => mode_pb 0 (long_mode r) kd)); [vm_compute|]; reflexivity.
Qed.

Lemma do_kind_modes kd opt unk m s :
  mode_pb opt m kd = true -> halted s = false -> halted (do_kind kd opt unk s) = false ->
  c_decompress (l_cfg (do_kind kd opt unk s)) = expect_dec m (c_decompress (l_cfg s)) /\
  (m <> Some MT -> c_outmode (l_cfg s) = OM_STDOUT ->
   c_outmode (l_cfg (do_kind kd opt unk s)) = OM_STDOUT).
Proof.
  intros Hd Hh. destruct kd as [|st|ps|v lo hi| |]; cbn [do_kind]; try discriminate.
  - destruct m; [discriminate Hd | auto].
  - rewrite (halted_set_as st s Hh).
    destruct st, m; try discriminate; try discriminate Hd; auto.
  - unfold do_effects. destruct (exec_effects opt ps (l_cfg s)) as [c'|] eqn:Ex; [|discriminate].
    intros _. cbn [l_cfg set_cfg]. cbn in Hd.
    rewrite !andb_true_iff, !Bool.eqb_true_iff in Hd. destruct Hd as [[Ht Hf] Hk].
    destruct (exec_effects_modes _ _ _ _ Ex) as [-> Ho]. split.
    + destruct (c_decompress (l_cfg s)); assumption.
    + intros Hm. apply Ho. destruct m as [[]|]; try exact Hk. congruence.
Qed.

Lemma set_argvar_fields v n c :
  c_decompress (set_argvar v n c) = c_decompress c /\ c_outmode (set_argvar v n c) = c_outmode c.
Proof. destruct v; split; reflexivity. Qed.

Lemma run_item_modes s i :
  halted (run_item s i) = false ->
  c_decompress (l_cfg (run_item s i)) = expect_dec (item_mode i) (c_decompress (l_cfg s)) /\
  (item_mode i <> Some MT -> c_outmode (l_cfg s) = OM_STDOUT ->
   c_outmode (l_cfg (run_item s i)) = OM_STDOUT).
Proof.
  unfold run_item. destruct (halted s) eqn:Hh; [congruence|].
  destruct i as [a|r a| |k|k v|k]; cbn [item_mode]; auto; try discriminate.
  - rewrite do_long_kind. exact (do_kind_modes _ _ _ _ _ (long_modes r) Hh).
  - rewrite do_short_kind. exact (do_kind_modes _ _ _ _ _ (short_modes k) Hh).
  - destruct (short_kind k) as [|st|ps|var lo hi| |]; try discriminate.
    unfold do_optarg. destruct (xstrtol v lo hi) as [n|]; [|discriminate].
    intros _. cbn [l_cfg set_cfg]. destruct (set_argvar_fields var n (l_cfg s)) as [-> ->]. auto.
Qed.

Lemma run_modes items : forall s,
  halted (run items s) = false ->
  c_decompress (l_cfg (run items s)) = decompress_after items (c_decompress (l_cfg s)) /\
  (Forall (fun i => item_mode i <> Some MT) items -> c_outmode (l_cfg s) = OM_STDOUT ->
   c_outmode (l_cfg (run items s)) = OM_STDOUT).
Proof.
  induction items as [|i r IH]; intros s H; [auto|]. rewrite run_cons in *.
  assert (Hi : halted (run_item s i) = false).
  { destruct (halted (run_item s i)) eqn:E; [|reflexivity].
    rewrite (run_halted _ _ E) in H. congruence. }
  destruct (run_item_modes _ _ Hi) as [Hd Ho], (IH _ H) as [IHd IHo]. split.
  - rewrite IHd, Hd. reflexivity.
  - intros Hf. inversion Hf; subst. auto.
Qed.

Lemma fin_cfg_dec s : c_decompress (fin_cfg s) = c_decompress (l_cfg s).
Proof. unfold fin_cfg. destruct (c_outmode (l_cfg s)), (l_ops s); reflexivity. Qed.

Theorem mode_selection pname env argv ti to cfg ops :
  parse_cli pname env argv ti to = Run cfg ops ->
  c_decompress cfg = decompress_after (lex LGo (toks_of env argv)) (mem_str pname doc_decomp_names).
Proof.
  intros H. destruct (parse_cli_run _ _ _ _ _ _ _ H) as (Hh & -> & _).
  cbn [set_bool c_decompress]. rewrite fin_cfg_dec. apply run_modes, Hh.
Qed.

Lemma decompress_after_app l1 l2 d :
  decompress_after (l1 ++ l2) d = decompress_after l2 (decompress_after l1 d).
Proof. revert d. induction l1; cbn; auto. Qed.

Lemma decompress_after_none items d :
  Forall (fun i => item_mode i = None) items -> decompress_after items d = d.
Proof. induction 1 as [|i r Hi _ IH]; cbn; [reflexivity|]. rewrite Hi. exact IH. Qed.

Theorem cat_names_stdout pname env argv ti to cfg ops :
  parse_cli pname env argv ti to = Run cfg ops ->
  In pname doc_cat_names ->
  Forall (fun i => item_mode i <> Some MT) (lex LGo (toks_of env argv)) ->
  c_outmode cfg = OM_STDOUT.
Proof.
  intros H Hn Hf. destruct (parse_cli_run _ _ _ _ _ _ _ H) as (Hh & -> & _).
  cbn [set_bool c_outmode].
  assert (Ho : c_outmode (l_cfg (run (lex LGo (toks_of env argv)) (doc_init_state pname))) = OM_STDOUT).
  { apply (proj2 (run_modes _ _ Hh) Hf). apply (mem_In mem_str_decides) in Hn.
    unfold doc_init_state, doc_init_config. cbn [l_cfg c_outmode]. rewrite Hn. reflexivity. }
  unfold fin_cfg. rewrite Ho. exact Ho.
Qed.

Definition doc_noop_long : list string :=
  ["quiet"; "small"; "repetitive-fast"; "repetitive-best"; "exponential"].

Definition is_noop_item (i : item) : bool :=
  match i with
  | IShort k => (k =? 113) || (k =? 115)          (* q s *)
  | ILong r _ => mem_str r doc_noop_long
  | _ => false
  end.

Definition drop_noops (items : list item) : list item :=
  filter (fun i => negb (is_noop_item i)) items.

Definition usm (c : config) : config := set_bool BSmall false c.

Definition sim (s s' : lstate) : Prop :=
  l_as s = l_as s' /\ l_want s = l_want s' /\ l_err s = l_err s' /\ l_ops s = l_ops s' /\
  usm (l_cfg s) = usm (l_cfg s').

Lemma sim_intro s s' :
  l_as s = l_as s' -> l_want s = l_want s' -> l_err s = l_err s' -> l_ops s = l_ops s' ->
  usm (l_cfg s) = usm (l_cfg s') -> sim s s'.
Proof. unfold sim. tauto. Qed.

Lemma sim_refl s : sim s s.
Proof. apply sim_intro; reflexivity. Qed.

Lemma sim_trans s1 s2 s3 : sim s1 s2 -> sim s2 s3 -> sim s1 s3.
Proof. intros (A1 & A2 & A3 & A4 & A5) (B1 & B2 & B3 & B4 & B5). apply sim_intro; congruence. Qed.

Lemma sim_halted s s' : sim s s' -> halted s = halted s'.
Proof. unfold halted. intros (H1 & _ & H3 & _). rewrite H1, H3. reflexivity. Qed.

Lemma usm_inv c1 c2 : usm c1 = usm c2 -> exists b, c2 = set_bool BSmall b c1.
Proof.
  destruct c1, c2. unfold usm. cbn. intros H. injection H. intros. subst.
  eexists. reflexivity.
Qed.

Lemma exec_effect_sim opt p c1 c2 :
  usm c1 = usm c2 ->
  option_map usm (exec_effect opt p c1) = option_map usm (exec_effect opt p c2).
Proof.
  intros H. destruct (usm_inv _ _ H) as [b ->]. clear H. destruct c1.
  destruct p; cbn; try reflexivity.
  - destruct v; reflexivity.
  - unfold opts_outmode. cbn. destruct c_outmode; destruct (arg_char opt a =? 99); reflexivity.
  - unfold opts_decompress. cbn. destruct c_outmode; reflexivity.
Qed.

Lemma exec_effects_sim opt ps : forall c1 c2,
  usm c1 = usm c2 ->
  option_map usm (exec_effects opt ps c1) = option_map usm (exec_effects opt ps c2).
Proof.
  induction ps as [|p r IH]; cbn [exec_effects]; intros c1 c2 H; [exact (f_equal Some H)|].
  pose proof (exec_effect_sim opt p c1 c2 H) as E.
  destruct (exec_effect opt p c1), (exec_effect opt p c2); try discriminate E; [|reflexivity].
  cbn [option_map] in E. apply IH. congruence.
Qed.

Lemma do_effects_sim opt ps s s' : sim s s' -> sim (do_effects opt ps s) (do_effects opt ps s').
Proof.
  intros (H1 & H2 & H3 & H4 & H5). unfold do_effects.
  pose proof (exec_effects_sim opt ps _ _ H5) as E.
  destruct (exec_effects opt ps (l_cfg s)), (exec_effects opt ps (l_cfg s')); try discriminate E;
    apply sim_intro; cbn [l_as l_want l_err l_ops l_cfg set_cfg set_err]; auto.
  cbn [option_map] in E. congruence.
Qed.

Lemma do_kind_sim kd opt unk s s' : sim s s' -> sim (do_kind kd opt unk s) (do_kind kd opt unk s').
Proof.
  intros Hs. pose proof Hs as (H1 & H2 & H3 & H4 & H5).
  destruct kd; cbn [do_kind]; [exact Hs | | apply do_effects_sim, Hs | | |];
    apply sim_intro; cbn; auto.
Qed.

Lemma set_argvar_usm v n c : usm (set_argvar v n c) = set_argvar v n (usm c).
Proof. destruct v; reflexivity. Qed.

Lemma run_item_sim s s' i : sim s s' -> sim (run_item s i) (run_item s' i).
Proof.
  intros Hs. unfold run_item. rewrite <- (sim_halted _ _ Hs).
  destruct (halted s); [exact Hs|].
  pose proof Hs as (H1 & H2 & H3 & H4 & H5).
  destruct i as [a|r a| |k|k v|k].
  - apply sim_intro; cbn; auto. rewrite H4. reflexivity.
  - rewrite !do_long_kind. apply do_kind_sim, Hs.
  - apply sim_intro; cbn; auto.
  - rewrite !do_short_kind. apply do_kind_sim, Hs.
  - destruct (short_kind k) as [| | |var lo hi| |].
    4:{ unfold do_optarg. destruct (xstrtol v lo hi); apply sim_intro; cbn [l_cfg set_cfg]; auto.
        rewrite !set_argvar_usm, H5. reflexivity. }
    all: apply sim_intro; cbn; auto.
  - apply sim_intro; cbn; auto.
Qed.

(* the documented no-ops: the regenerated tables give them no effect other than on `small` *)
Definition only_small (p : prim) : bool :=
  match p with PSetBool BSmall _ => true | _ => false end.

Definition noop_kind (kd : kind) : bool :=
  match kd with KAct ps => forallb only_small ps | _ => false end.

Lemma short_noops k : (k =? 113) || (k =? 115) = true -> noop_kind (short_kind k) = true.
Proof.
  rewrite orb_true_iff, !N.eqb_eq. intros [->| ->]; vm_compute; reflexivity.
Qed.

Lemma long_noops r : mem_str r doc_noop_long = true -> noop_kind (long_kind r) = true.
Proof.
  intros H. apply (mem_In mem_str_decides) in H. cbn in H.
  repeat (destruct H as [H|H]; [subst r; vm_compute; reflexivity|]). destruct H.
Qed.

Lemma exec_only_small opt ps : forall c,
  forallb only_small ps = true -> exists c', exec_effects opt ps c = Some c' /\ usm c' = usm c.
Proof.
  induction ps as [|p r IH]; cbn; intros c H; [eauto|].
  apply andb_true_iff in H. destruct H as [Hp Hr].
  destruct p; try discriminate. destruct v; try discriminate. cbn.
  destruct (IH (set_bool BSmall b c) Hr) as (c' & E & U). exists c'. split; [exact E|].
  change (usm c' = usm c). rewrite U. destruct c; reflexivity.
Qed.

Lemma do_kind_noop kd opt unk s : noop_kind kd = true -> sim (do_kind kd opt unk s) s.
Proof.
  destruct kd as [| |ps| | |]; try discriminate. intros H. cbn [do_kind]. unfold do_effects.
  destruct (exec_only_small opt ps (l_cfg s) H) as (c' & -> & U).
  apply sim_intro; auto.
Qed.

Lemma noop_item_sim s i : is_noop_item i = true -> sim (run_item s i) s.
Proof.
  unfold run_item. destruct (halted s); [intros _; apply sim_refl|].
  destruct i as [a|r a| |k|k v|k]; try discriminate; intros Hn.
  - rewrite do_long_kind. apply do_kind_noop, long_noops, Hn.
  - rewrite do_short_kind. apply do_kind_noop, short_noops, Hn.
Qed.

Lemma run_sim_drop items : forall s s', sim s s' -> sim (run items s) (run (drop_noops items) s').
Proof.
  induction items as [|i r IH]; intros s s' H; [exact H|].
  rewrite run_cons. cbn [drop_noops filter]. fold (drop_noops r).
  destruct (is_noop_item i) eqn:E; cbn [negb].
  - apply IH. apply (sim_trans _ s); [apply noop_item_sim; exact E | exact H].
  - rewrite run_cons. apply IH. apply run_item_sim. exact H.
Qed.

Lemma tty_check_small ti to b c ops :
  effective (tty_check ti to (set_bool BSmall b c) ops) = effective (tty_check ti to c ops).
Proof.
  destruct c. unfold tty_check. cbn.
  destruct c_decompress, ops, ti, (is_stdout c_outmode && to); rewrite ?effective_run; reflexivity.
Qed.

Lemma finalize_sim ti to s s' :
  sim s s' -> effective (finalize ti to s) = effective (finalize ti to s').
Proof.
  intros (H1 & H2 & H3 & H4 & H5). destruct (usm_inv _ _ H5) as [b E].
  assert (Hc : fin_cfg s' = set_bool BSmall b (fin_cfg s)).
  { unfold fin_cfg. rewrite <- H4, E. destruct (l_cfg s) as [d m]. cbn.
    destruct m, (l_ops s); reflexivity. }
  rewrite !finalize_eq, <- H1, <- H2, <- H3, <- H4, Hc.
  destruct (l_err s), (l_want s) as [[[[k v] lo] hi]|], (l_as s); try reflexivity;
    symmetry; apply tty_check_small.
Qed.

Theorem noops_irrelevant pname toks toks' ti to :
  drop_noops (lex LGo toks) = drop_noops (lex LGo toks') ->
  effective (opts_setup pname toks ti to) = effective (opts_setup pname toks' ti to).
Proof.
  intros H. rewrite !opts_setup_lex.
  rewrite (finalize_sim ti to _ _ (run_sim_drop (lex LGo toks) _ _ (sim_refl (doc_init_state pname)))).
  rewrite (finalize_sim ti to _ _ (run_sim_drop (lex LGo toks') _ _ (sim_refl (doc_init_state pname)))).
  rewrite H. reflexivity.
Qed.

Theorem noops_irrelevant_cli pname env argv env' argv' ti to :
  drop_noops (lex LGo (toks_of env argv)) = drop_noops (lex LGo (toks_of env' argv')) ->
  parse_cli pname env argv ti to = parse_cli pname env' argv' ti to.
Proof.
  intros H. rewrite !parse_cli_eq. apply noops_irrelevant, H.
Qed.

Theorem small_is_off pname env argv ti to cfg ops :
  parse_cli pname env argv ti to = Run cfg ops -> c_small cfg = false.
Proof.
  intros H. destruct (parse_cli_run _ _ _ _ _ _ _ H) as (_ & -> & _). reflexivity.
Qed.

Definition toks_of_var (v : option string) : list string :=
  match v with Some s => tokens envsep s | None => [] end.

Theorem env_is_prefix pname env argv ti to :
  parse_cli pname env argv ti to =
  parse_cli pname no_env
    (toks_of_var (env "LBZIP2") ++ toks_of_var (env "BZIP2") ++ toks_of_var (env "BZIP") ++ argv) ti to.
Proof.
  rewrite !parse_cli_eq. unfold toks_of, env_tokens.
  change ev_name with ["LBZIP2"; "BZIP2"; "BZIP"]. cbn [flat_map no_env app].
  rewrite app_nil_r, <- !app_assoc. reflexivity.
Qed.

Lemma envsep_chars c : mem_char c envsep = Ascii.eqb c " " || Ascii.eqb c "009".
Proof. change envsep with (String " " (String "009" EmptyString)). cbn. rewrite orb_false_r. reflexivity. Qed.

Lemma tokens_nonempty sep c r : mem_char c sep = false -> tokens sep (String c r) <> [].
Proof.
  intros H. cbn. rewrite H. destruct r as [|c' r']; [discriminate|].
  destruct (mem_char c' sep); [discriminate|]. destruct (tokens sep (String c' r')); discriminate.
Qed.

Lemma tokens_cons_sep sep x r : mem_char x sep = true -> tokens sep (String x r) = tokens sep r.
Proof. intros H. cbn [tokens]. rewrite H. reflexivity. Qed.

Lemma tokens_cons_nonsep sep x r :
  mem_char x sep = false ->
  tokens sep (String x r) =
  match r with
  | EmptyString => [String x EmptyString]
  | String y _ => if mem_char y sep then String x EmptyString :: tokens sep r
                  else match tokens sep r with
                       | t :: ts => String x t :: ts
                       | [] => [String x EmptyString]
                       end
  end.
Proof. intros H. cbn [tokens]. rewrite H. reflexivity. Qed.

Lemma tokens_sep_app sep c a b :
  mem_char c sep = true ->
  tokens sep (a ++ String c b)%string = tokens sep a ++ tokens sep b.
Proof.
  intros Hc. induction a as [|x a' IH].
  - cbn [append]. rewrite tokens_cons_sep by exact Hc. reflexivity.
  - cbn [append]. destruct (mem_char x sep) eqn:Hx.
    + rewrite !tokens_cons_sep by exact Hx. exact IH.
    + rewrite !(tokens_cons_nonsep sep x) by exact Hx.
      destruct a' as [|y a''].
      * cbn [append]. rewrite Hc. rewrite tokens_cons_sep by exact Hc. reflexivity.
      * cbn [append] in *. destruct (mem_char y sep) eqn:Hy.
        -- rewrite IH. reflexivity.
        -- rewrite IH. pose proof (tokens_nonempty sep y a'' Hy) as Hne.
           destruct (tokens sep (String y a'')); [contradiction|reflexivity].
Qed.

Fixpoint no_sep (sep s : string) : bool :=
  match s with
  | EmptyString => true
  | String c r => negb (mem_char c sep) && no_sep sep r
  end.

Lemma tokens_single sep s : s <> EmptyString -> no_sep sep s = true -> tokens sep s = [s].
Proof.
  induction s as [|c r IH]; [congruence|]. intros _ H. cbn in H.
  apply andb_true_iff in H. destruct H as [Hc Hr]. apply negb_true_iff in Hc.
  cbn [tokens]. rewrite Hc. destruct r as [|c' r']; [reflexivity|].
  cbn in Hr. apply andb_true_iff in Hr. destruct Hr as [Hc' Hr']. apply negb_true_iff in Hc'.
  rewrite Hc'. rewrite IH; [reflexivity | discriminate | cbn; rewrite Hc', Hr'; reflexivity].
Qed.

Lemma tokens_empty sep : tokens sep EmptyString = [].
Proof. reflexivity. Qed.

Theorem name_selects_mode pname env argv ti to cfg ops :
  parse_cli pname env argv ti to = Run cfg ops ->
  Forall (fun i => item_mode i = None) (lex LGo (toks_of env argv)) ->
  c_decompress cfg = mem_str pname doc_decomp_names /\
  (In pname doc_cat_names -> c_outmode cfg = OM_STDOUT).
Proof.
  intros H Hf. split.
  - rewrite (mode_selection _ _ _ _ _ _ _ H). apply decompress_after_none. exact Hf.
  - intros Hn. apply (cat_names_stdout _ _ _ _ _ _ _ H Hn).
    eapply Forall_impl; [|exact Hf]. cbn. intros i Hi. rewrite Hi. discriminate.
Qed.

Theorem last_mode_option_wins pname env argv ti to cfg ops pre i post m :
  parse_cli pname env argv ti to = Run cfg ops ->
  lex LGo (toks_of env argv) = pre ++ i :: post ->
  item_mode i = Some m ->
  Forall (fun j => item_mode j = None) post ->
  c_decompress cfg = match m with MZ => false | MD | MT => true end.
Proof.
  intros H Hl Hi Hp. rewrite (mode_selection _ _ _ _ _ _ _ H), Hl, decompress_after_app.
  cbn. rewrite Hi, (decompress_after_none _ _ Hp). destruct m; reflexivity.
Qed.
