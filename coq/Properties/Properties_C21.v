(* C21 - I/O failures on filters terminate promptly.
   Only statements; every Theorem is [exact <lemma>] (Examples: by computation).

   Setting (IoFail/IoFailModel.v): [run_fault r x generated dfl main_suspended others sch]
   is the state reached from the moment a read()/write() of a stdin->stdout filter run has
   returned -1 with errno [x] in the thread of role [r] (main thread: 4-byte sniff read /
   copy-mode header write; reader thread; writer thread; primary thread in write_header /
   write_trailer), where
     generated       the kernel generated SIGPIPE/SIGXFSZ for that thread together with
                     EPIPE/EFBIG (a real broken pipe does; an injected errno alone does not),
     dfl             SIGPIPE/SIGXFSZ have their default disposition (false: SIG_IGN inherited),
     main_suspended  the main thread is already in sigsuspend() (false: still on its way),
     others          the states of all other threads (running, blocked on a condition
                     variable, blocked in read()/write(), exited), arbitrary,
     sch             an arbitrary schedule: steps of the failing thread, of the main thread,
                     arbitrary state changes of the other threads, and the pipeline events
                     "the other pipeline threads are done", "the failing thread is done",
                     "completion signal raised".
   The operations executed by the failing thread and by the main thread (xread/xwrite error
   branch, the DEF() logging macro and its print condition, bailout(), halt()'s dispatch,
   blocked/handled signal tables, exit codes) are regenerated from /repo/src on every run
   (Gen/IoFailTab.v); the theorems are about that regenerated configuration.

   Declared partiality: wall-clock promptness and kernel signal-delivery latency are not
   modelled; "prompt" is rendered as a bound on the number of steps the failing thread and
   the main thread can take before the process is gone, independent of all other threads. *)
From Coq Require Import List NArith Bool.
From LBZ Require Import Gen.IoFailTab IoFail.IoFailModel IoFail.IoFailProofs.
Import ListNotations.
Local Open Scope N_scope.

(* Whenever the process is gone, it exited with status 1, or was killed by SIGPIPE
   (only for EPIPE with the signal generated and default disposition) or SIGXFSZ
   (likewise for EFBIG); never status 0; stderr is empty iff errno is EPIPE or EFBIG. *)
Theorem C21_outcome :
  forall r x generated dfl main_suspended others sch o,
    k_res (s_core (run_fault r x generated dfl main_suspended others sch)) = Some o ->
    (o = Exited 1
     \/ (o = Killed SIGPIPE /\ x = EPIPE /\ generated = true /\ dfl = true)
     \/ (o = Killed SIGXFSZ /\ x = EFBIG /\ generated = true /\ dfl = true))
    /\ o <> Exited 0
    /\ (k_printed (s_core (run_fault r x generated dfl main_suspended others sch)) = 0
        <-> (x = EPIPE \/ x = EFBIG)).
Proof. exact outcome. Qed.

(* sharper: the outcome and the number of diagnostics are those of the canonical
   schedule [predict] (failing thread first, then the main thread, nobody else moves):
   a function of (role, errno, signal generated, disposition) alone *)
Theorem C21_outcome_exact :
  forall r x generated dfl main_suspended others sch o,
    k_res (s_core (run_fault r x generated dfl main_suspended others sch)) = Some o ->
    Some o = fst (predict r x generated dfl) /\
    k_printed (s_core (run_fault r x generated dfl main_suspended others sch)) = snd (predict r x generated dfl).
Proof. exact outcome_exact. Qed.

(* ... in particular it does not depend on the other threads, the schedule, or on
   whether the main thread had reached sigsuspend() *)
Theorem C21_outcome_independent_of_other_threads :
  forall r x generated dfl sp1 sp2 others1 others2 sch1 sch2 o1 o2,
    k_res (s_core (run_fault r x generated dfl sp1 others1 sch1)) = Some o1 ->
    k_res (s_core (run_fault r x generated dfl sp2 others2 sch2)) = Some o2 ->
    o1 = o2 /\ k_printed (s_core (run_fault r x generated dfl sp1 others1 sch1))
               = k_printed (s_core (run_fault r x generated dfl sp2 others2 sch2)).
Proof. exact others_irrelevant. Qed.

(* No reachable state after the fault is quiescent and non-final: as long as the
   process exists, the failing thread or the main thread can take a step that strictly
   decreases the measure [mu] -- whatever the other threads are doing (sigsuspend()
   returns once SIGUSR1 is raised; _exit() does not wait for anybody). *)
Theorem C21_no_stuck :
  forall r x generated dfl main_suspended others sch,
    k_res (s_core (run_fault r x generated dfl main_suspended others sch)) = None ->
    exists ev, In ev own_events /\
      (mu gen_cfg (s_core (step gen_cfg (fenv_of gen_cfg r x generated dfl) (EvCore ev)
                                (run_fault r x generated dfl main_suspended others sch)))
       < mu gen_cfg (s_core (run_fault r x generated dfl main_suspended others sch)))%nat.
Proof. exact no_stuck. Qed.

(* Steps of the other threads and pipeline events never increase the measure and own
   steps that change anything decrease it: the number of state-changing steps of the
   failing thread and the main thread in ANY schedule is bounded by the initial measure *)
Theorem C21_own_steps_bounded :
  forall r x generated dfl main_suspended others sch,
    (own_effective gen_cfg (fenv_of gen_cfg r x generated dfl)
                   (init_core gen_cfg (fenv_of gen_cfg r x generated dfl) main_suspended) (core_events sch)
     + mu gen_cfg (s_core (run_fault r x generated dfl main_suspended others sch))
     <= mu0 r x generated dfl main_suspended)%nat.
Proof. exact bounded. Qed.

(* ... so under any scheduler that lets the two threads run, the process is gone after
   fewer than [mu_cap] = 64 of their steps *)
Theorem C21_terminates_within :
  forall r x generated dfl main_suspended others sch,
    k_res (s_core (run_fault r x generated dfl main_suspended others sch)) = None ->
    (own_effective gen_cfg (fenv_of gen_cfg r x generated dfl)
                   (init_core gen_cfg (fenv_of gen_cfg r x generated dfl) main_suspended) (core_events sch)
     < mu_cap)%nat.
Proof. exact terminates_within. Qed.

(* Success is never signalled nor reported after a failed read or write: the completion
   signal SIGUSR2 is never raised, halt() never returns normally, and the exit status is
   never EX_OK = 0.  (Stated for every role; the write roles are RCopyHdrWrite, RWriter,
   RPrimaryHdr, RPrimaryTrl.) *)
Theorem C21_no_success_after_failed_write :
  forall r x generated dfl main_suspended others sch,
    k_completed (s_core (run_fault r x generated dfl main_suspended others sch)) = false
    /\ k_m (s_core (run_fault r x generated dfl main_suspended others sch)) <> MReturned
    /\ k_res (s_core (run_fault r x generated dfl main_suspended others sch)) <> Some (Exited EX_OK)
    /\ k_res (s_core (run_fault r x generated dfl main_suspended others sch)) <> Some (Exited 0).
Proof. exact no_success. Qed.

(* the print condition of the logging macro, transcribed from main.c, is exactly
   "not a bail-out, or errno is neither EPIPE nor EFBIG" *)
Theorem C21_silent_set :
  forall bail x, def_log_cond bail x = negb bail || negb (N.eqb x EPIPE || N.eqb x EFBIG).
Proof. exact def_log_cond_spec. Qed.

(* the call structure the model relies on (transcribed call lists) *)
Theorem C21_structure : structure_ok = true.
Proof. exact structure_ok_true. Qed.

(* Final states are reachable (the hypotheses [k_res ... = Some o] above are satisfiable) for
   sub-thread and main-thread failures, with other threads interleaved; the concrete outcomes
   are spelled out for the main-thread roles (no promotion involved) and, for the sub-thread
   roles, given by [predict] (further fully concrete runs: IoFail/IoFailExamples.v). *)

(* writer thread, real broken pipe (EPIPE + SIGPIPE, default action), three other threads that
   change state in between, main not yet suspended: the process is gone, stderr is empty *)
Example C21_example_writer_sigpipe :
  let st := run_fault RWriter EPIPE true true false [ORunning; OBlockedCond; OBlockedIO]
              ([EvCore EvF; EvOther 0 OBlockedCond; EvCore EvF; EvCore EvF; EvCore EvMain; EvOther 2 OExited;
                EvCore EvF; EvCore EvF; EvCore EvF; EvCore EvF; EvCore EvF; EvCore EvOthersDone; EvCore EvComplete]
               ++ repeat (EvCore EvF) 12 ++ repeat (EvCore EvMain) 24) in
  k_res (s_core st) <> None /\ k_res (s_core st) = fst (predict RWriter EPIPE true true)
  /\ k_printed (s_core st) = 0 /\ s_others st = [OBlockedCond; OBlockedCond; OExited].
Proof. vm_compute. repeat split. discriminate. Qed.

(* reader thread, EIO: exactly one diagnostic, exit status 1 *)
Example C21_example_reader_eio :
  let st := run_fault RReader EIO false true true [OBlockedCond]
              (repeat (EvCore EvF) 24 ++ repeat (EvCore EvMain) 24) in
  k_res (s_core st) = Some (Exited 1) /\ k_printed (s_core st) = 1.
Proof. vm_compute. repeat split. Qed.

(* main thread failing in the copy-mode header write with EFBIG + SIGXFSZ, default action *)
Example C21_example_main_sigxfsz :
  let st := run_fault RCopyHdrWrite EFBIG true true false [] (repeat (EvCore EvMain) 24) in
  k_res (s_core st) = Some (Killed SIGXFSZ) /\ k_printed (s_core st) = 0.
Proof. vm_compute. repeat split. Qed.

(* the same with SIGXFSZ ignored: exit status 1, still silent *)
Example C21_example_main_sigxfsz_ignored :
  let st := run_fault RCopyHdrWrite EFBIG true false false [] (repeat (EvCore EvMain) 24) in
  k_res (s_core st) = Some (Exited 1) /\ k_printed (s_core st) = 0.
Proof. vm_compute. repeat split. Qed.

(* main thread failing in the 4-byte sniff read with ENOSPC: diagnostic and exit status 1 *)
Example C21_example_sniff_read :
  let st := run_fault RSniffRead ENOSPC false true false [] (repeat (EvCore EvMain) 24) in
  k_res (s_core st) = Some (Exited 1) /\ k_printed (s_core st) = 1.
Proof. vm_compute. repeat split. Qed.

(* the finite check is not vacuous: it rejects broken variants of the configuration *)
Example C21_checker_rejects_missing_sigusr1 :
  check cfg_no_usr1 (fenv_of cfg_no_usr1 RWriter EIO false true) false = false.
Proof. exact no_usr1_rejected. Qed.

Example C21_checker_rejects_ignored_write_error :
  check cfg_ignore_write (fenv_of cfg_ignore_write RWriter EIO false true) false = false.
Proof. exact ignore_write_rejected. Qed.

Example C21_checker_rejects_return_after_message :
  check cfg_return_after_log (fenv_of cfg_return_after_log RWriter EIO false true) false = false.
Proof. exact return_after_log_rejected. Qed.
