(* C11/C10, decompression scheduler: the LABEL HYPOTHESES of the runs, derived from the models of
   the unlocked functions.  Only statements; every proof is [exact <lemma>].

   The liveness and ownership theorems of Properties_C11x.v / Properties_C10.v are about runs
   whose event labels satisfy
     (H1) SchedX/XOwn.v [ev_prog]           EvParse1 _ (POk bs ..) : x_next st + 32 <= d_bit bs
          (a confirmed block header ends >= 32 bits after the one confirmed before it)
     (H2) SchedX/XLiveDefs.v [ev_scan_prog] EvScan1 s _ true s' _  : d_bit s < d_bit s'
          (a scan() that finds a magic ends strictly after the position it started from)
     (H3) SchedX/XLiveTerm.v [ev_term]      EvParse1 _ (PMore bs _): d_bit (x_parser_bs st) < d_bit bs
          (a parse() call that returns MORE consumed >= 1 bit)
     (H4) SchedX/XLiveTerm.v [ev_term]      EvEmit1 e MORE ..      : snd (e_base e) < K
          (emit() returns MORE fewer than K times for one block)
   which the trace replay asserts on every recorded run of the real binary.  Here they are
   theorems about the function models (positions: a model's position = number of bits of the
   whole input - number of unread bits, so "advances by n" = "n fewer unread bits"):

     L1 -> H1  C11L_parse_confirmed_positions_advance (the form of [ev_prog]), C11L_parse_run_advances,
               C11L_parse_ok_80, C11L_parse_chain_80, C11L_parse_next_header_80,
               C11L_parse_first_header_80, C11L_parse_headers_positions     (80 >= HDR_MIN = 32)
     L1 -> H3  C11L_parse_more, C11L_parse_more_progress, C11L_parse_more_progress_piece,
               C11L_parse_eof_never_more, C11L_parse_eof_short
               PRECISELY: a call returning MORE consumed >= 1 bit IFF it was offered >= 16 bits.
               With < 16 bits offered and eof = false it returns MORE having consumed nothing; with
               eof = true it never returns MORE.  So H3 holds for the calls made on a buffer
               of >= 16 bits (left-over ++ a new input piece of >= 2 bytes), which is every call
               the muxer makes except possibly after the LAST piece, where eof is set.
     L2 -> H2  C11L_scan_ok_position, C11L_scan_ok_advances (>= 80 bits after the effective start,
               hence after the position of the call), C11L_scan_more_consumes_all
     L3 -> H4  C11L_block_output_bounded, C11L_emit_more_calls_filled, C11L_emit_more_calls_bounded,
               C11L_emit_more_count_bounded: K = 255 * MAX_BLOCK_SIZE + 1 = 229500001 for ALL
               buffer sizes 1 <= b < 2^32 - 1; (255 * MAX_BLOCK_SIZE) / b for buffers >= b.
               (The side condition b < 2^32 - 1 is needed: Safe/EmitProofs.v ex_bufsize_2p32.)

   WHAT REMAINS ASSUMED: the identification of the label of a scheduler event with the
   corresponding call of the function model -
     EvParse1 _ (POk bs ..) / (PMore bs ..)  <->  parse_call m eof = PC_ret RC_OK / RC_MORE m'
         with d_bit = total - length (m_buf _) and x_next = the position of the previous OK;
     EvScan1 s _ true s' _                   <->  scan bs skip = ScanOK rest
         with d_bit s / d_bit s' = total - length (flat bs) / (flat rest);
     EvEmit1 e rv ..                         <->  the (snd (e_base e))-th call of
         [decode_emit col idx rand sizes] (sub-block index = number of earlier MORE results)
   and that the hypotheses of the models hold for the real calls ([block_ok]: the retriever
   produced a block of 1..900000 bytes with a valid BWT index, Properties_C08/C09;
   [Forall word_ok]: input words are 4 bytes).  The SchedX theorems are NOT re-plumbed over
   these lemmas; they still take H1-H4 as hypotheses on the labels. *)
From Coq Require Import List NArith ZArith Arith Bool Lia.
From LBZ Require Import Common.Bits Gen.Consts Dec.Prog Dec.Format Dec.ParseVocab Gen.ParseTab Dec.ParseModel
  Dec.ParseProofs Safe.EmitModel Safe.EmitProofs SchedX.XLabels SchedX.XLabelsScan SchedX.XLabelsEmit.
From LBZ Require Gen.ScanTab Scan.ScanModel Scan.ScanTables Scan.ScanProofs.
Import ListNotations.

(* L1: parse()  (the regenerated state machine, Gen/ParseTab.v + Dec/ParseModel.v)      *)
(* [ok_dist s] = the number of 16-bit words the machine must consume from state s before it can
   return OK; 5 (= 48-bit magic + 32-bit CRC) in the state parser_init() and every OK leave *)
Theorem C11L_ok_dist_values :
  ok_dist PS_BLOCK_MAGIC_1 = 5%nat /\ ok_dist PS_BLOCK_MAGIC_2 = 4%nat /\ ok_dist PS_BLOCK_MAGIC_3 = 3%nat /\
  ok_dist PS_BLOCK_CRC_1 = 2%nat /\ ok_dist PS_BLOCK_CRC_2 = 1%nat /\
  (forall s, s <> PS_ACCEPT -> (1 <= ok_dist s)%nat).
Proof. exact ok_dist_values. Qed.

(* one call returning OK *)
Theorem C11L_parse_ok_80 :
  forall m eof m', parse_call m eof = PC_ret RC_OK m' ->
    (16 * ok_dist (m_state m) + length (m_buf m') <= length (m_buf m))%nat /\ m_state m' = PS_BLOCK_MAGIC_1.
Proof. exact parse_call_ok. Qed.

(* whatever a call returns, what it leaves is a suffix of what it was offered *)
Theorem C11L_parse_suffix :
  forall m eof c m', parse_call m eof = PC_ret c m' -> exists consumed, m_buf m = consumed ++ m_buf m'.
Proof. exact parse_call_suffix. Qed.

(* MORE* OK, the buffer being replaced arbitrarily between the calls: n = bits consumed in total *)
Theorem C11L_parse_chain_80 :
  forall m n m', ok_chain m n m' -> (16 * ok_dist (m_state m) <= n)%nat /\ m_state m' = PS_BLOCK_MAGIC_1.
Proof. exact ok_chain_consumes. Qed.

Theorem C11L_parse_first_header_80 :
  forall m0 level mode buf n m', ok_chain (set_buf (parser_init m0 level mode) buf) n m' -> (80 <= n)%nat.
Proof. exact first_header_80. Qed.

(* H1: after an OK, wherever the retriever leaves the bit buffer ([rest] arbitrary), the next OK
   comes after >= 80 further bits consumed by parse() *)
Theorem C11L_parse_next_header_80 :
  forall m eof m1 rest n m2,
    parse_call m eof = PC_ret RC_OK m1 -> ok_chain (set_buf m1 rest) n m2 -> (80 <= n)%nat.
Proof. exact next_header_80. Qed.

Theorem C11L_parse_chain_next_header_80 :
  forall m n m1 rest n' m2, ok_chain m n m1 -> ok_chain (set_buf m1 rest) n' m2 -> (80 <= n')%nat.
Proof. exact chain_header_80. Qed.

(* the same with absolute positions (position = number of input bits consumed so far; the parser
   is resumed after MORE with left-over ++ next piece): [ok_run p m p' m'] = called at p, OK at p' *)
Theorem C11L_parse_run_advances :
  forall p m p' m', ok_run p m p' m' ->
    (p + 16 * ok_dist (m_state m) <= p')%nat /\ m_state m' = PS_BLOCK_MAGIC_1.
Proof. exact ok_run_advances. Qed.

Theorem C11L_parse_first_position :
  forall p m0 level mode buf p' m',
    ok_run p (set_buf (parser_init m0 level mode) buf) p' m' -> (p + 80 <= p')%nat.
Proof. exact first_position_advance. Qed.

(* H1 in the form of [ev_prog]: header confirmed at p1; the retriever consumes [body]; the next
   header is confirmed at p2 >= p1 + |body| + 80 >= p1 + HDR_MIN *)
Theorem C11L_parse_confirmed_positions_advance :
  forall p0 m0 p1 m1 body rest p2 m2,
    ok_run p0 m0 p1 m1 ->
    m_buf m1 = body ++ rest ->
    ok_run (p1 + length body) (set_buf m1 rest) p2 m2 ->
    (p1 + length body + 80 <= p2)%nat /\ (p1 + 32 <= p2)%nat.
Proof. exact confirmed_positions_advance. Qed.

Theorem C11L_parse_run_example :
  let hdr := bits_msb 48 block_magic ++ bits_msb 32 0x9E625BFE%N in
  exists p' m', ok_run 32 (set_buf (parser_init pmem0 9%Z expand_stream_mode) (firstn 40 hdr)) p' m' /\
                p' = 112%nat /\ m_hd_crc m' = 0x9E625BFE%N /\ m_buf m' = [].
Proof. exact ok_run_example. Qed.

(* the driver of Dec/ParseModel.v: the header positions (bits left when the header was complete)
   reported for an accepted input go down by >= 80 from block to block *)
Theorem C11L_parse_headers_positions :
  forall body_end m0 bits hs g,
    (forall b r, body_end b = Some r -> (length r <= length b)%nat) ->
    parse_headers body_end m0 bits = D_ok hs g ->
    desc80 (length bits - 32) (map (fun h => fst (fst h)) hs).
Proof. exact parse_headers_positions. Qed.

(* H3 *)
Theorem C11L_parse_more :
  forall m eof m', parse_call m eof = PC_ret RC_MORE m' ->
    eof = false /\ (length (m_buf m') < 16)%nat /\ parse_entry_ok m' = true /\
    (16 * ok_dist (m_state m) + length (m_buf m') <= length (m_buf m) + 16 * ok_dist (m_state m'))%nat.
Proof. exact parse_call_more. Qed.

Theorem C11L_parse_more_progress :
  forall m eof m', parse_call m eof = PC_ret RC_MORE m' ->
    ((length (m_buf m') < length (m_buf m))%nat <-> (16 <= length (m_buf m))%nat).
Proof. exact parse_more_progress. Qed.

Theorem C11L_parse_more_progress_piece :
  forall m1 s m', parse_call (madd m1 s) false = PC_ret RC_MORE m' ->
    (16 <= length (m_buf m1) + length s)%nat -> (length (m_buf m') < length (m_buf m1) + length s)%nat.
Proof. exact parse_more_progress_piece. Qed.

Theorem C11L_parse_eof_never_more :
  forall m m', parse_call m true <> PC_ret RC_MORE m'.
Proof. exact parse_eof_never_more. Qed.

(* end of input with fewer than 16 bits left: nothing consumed, FINISH between streams, else ERR_EOF *)
Theorem C11L_parse_eof_short :
  forall m c m', parse_call m true = PC_ret c m' -> (length (m_buf m) < 16)%nat ->
    m_buf m' = m_buf m /\
    ((c = RC_FINISH /\ (m_state m = PS_STREAM_MAGIC_1 \/ m_state m = PS_STREAM_MAGIC_2)) \/
     (c = RC_ERR_EOF /\ m_state m <> PS_STREAM_MAGIC_1 /\ m_state m <> PS_STREAM_MAGIC_2)).
Proof. exact parse_eof_short. Qed.

(* non-vacuity: a real block header offered in two pieces (40 bits: MORE after 32; then OK) *)
Theorem C11L_parse_chain_example :
  let hdr := bits_msb 48 block_magic ++ bits_msb 32 0x9E625BFE%N in
  exists n m', ok_chain (set_buf (parser_init pmem0 9%Z expand_stream_mode) (firstn 40 hdr)) n m' /\
               n = 80%nat /\ m_hd_crc m' = 0x9E625BFE%N.
Proof. exact ok_chain_example. Qed.

(* L2: scan()  (Scan/ScanModel.v, specification C14_scan)                              *)
Section ScanLabels.
  Import Gen.ScanTab Scan.ScanModel Scan.ScanTables Scan.ScanProofs.

  Theorem C11L_scan_ok_position :
    forall bs skip rest, Forall word_ok (data bs) -> scan bs skip = ScanOK rest ->
      exists e, first_occ_end (skipn (eff_start bs skip) (flat bs)) e /\
                48 <= e /\
                eff_start bs skip + e + 32 <= length (flat bs) /\
                flat rest = skipn (eff_start bs skip + e + 32) (flat bs).
  Proof. exact scan_ok_position. Qed.

  (* H2 *)
  Theorem C11L_scan_ok_advances :
    forall bs skip rest, Forall word_ok (data bs) -> scan bs skip = ScanOK rest ->
      length (flat rest) + 80 <= length (flat (apply_skip bs skip)) /\
      length (flat rest) + eff_start bs skip + 80 <= length (flat bs).
  Proof. exact scan_ok_advances. Qed.

  Theorem C11L_scan_ok_strict :
    forall bs skip rest, Forall word_ok (data bs) -> scan bs skip = ScanOK rest ->
      length (flat rest) < length (flat bs).
  Proof. exact scan_ok_strict. Qed.

  Theorem C11L_scan_more_consumes_all :
    forall bs skip rest, Forall word_ok (data bs) -> scan bs skip = ScanMORE rest -> flat rest = [].
  Proof. exact scan_more_consumes_all. Qed.

  Theorem C11L_scan_example :
    let bs := {| live := [true; false; true; true; false] ++ P;
                 data := [(1, 2, 3, 4); (5, 6, 7, 8)]%N |} in
    exists rest, scan bs 0 = ScanOK rest /\ length (flat bs) - length (flat rest) = 85.
  Proof. exact scan_ok_example. Qed.
End ScanLabels.

(* L3: emit()  (Safe/EmitModel.v)                                                      *)
Local Open Scope N_scope.

(* MAX_BLOCK_OUTPUT := 255 * MAX_BLOCK_SIZE (MAX_BLOCK_SIZE regenerated from the source, Gen/Consts.v) *)
Theorem C11L_max_block_output : MAX_BLOCK_OUTPUT = 229500000.
Proof. exact max_block_output_value. Qed.

(* the bytes of one block: at most 255 per byte handed over by decode() *)
Theorem C11L_block_output_bounded :
  forall col idx rand, block_ok col idx ->
    exists out, unrle false 256 0 (block_of col idx rand) = Ok out /\
                N.of_nat (length out) <= 255 * N.of_nat (length col) <= MAX_BLOCK_OUTPUT.
Proof. exact block_output_bounded. Qed.

(* [more_calls r] = the number of emit() calls of the run r that returned MORE; it is the
   number counted call by call ([decode_more_count]) *)
Theorem C11L_more_calls_is_count :
  forall col idx rand sizes, block_ok col idx -> sizes_ok sizes ->
    decode_more_count col idx rand sizes = more_calls (decode_emit col idx rand sizes).
Proof. exact decode_more_count_calls. Qed.

(* the buffers of the calls that returned MORE were filled, with bytes of the block's output *)
Theorem C11L_emit_more_calls_filled :
  forall col idx rand sizes out, block_ok col idx -> sizes_ok sizes ->
    unrle false 256 0 (block_of col idx rand) = Ok out ->
    (more_calls (decode_emit col idx rand sizes) <= length sizes)%nat /\
    total (firstn (more_calls (decode_emit col idx rand sizes)) sizes) <= N.of_nat (length out).
Proof. exact emit_more_calls_filled. Qed.

(* H4, any buffer sizes (1 <= b < 2^32 - 1) *)
Theorem C11L_emit_more_calls_bounded :
  forall col idx rand sizes, block_ok col idx -> sizes_ok sizes ->
    N.of_nat (more_calls (decode_emit col idx rand sizes)) <= 255 * N.of_nat (length col) <= MAX_BLOCK_OUTPUT.
Proof. exact emit_more_calls_bounded. Qed.

(* H4, buffers of at least b bytes *)
Theorem C11L_emit_more_count_bounded :
  forall col idx rand sizes b, block_ok col idx -> sizes_ok sizes ->
    1 <= b -> Forall (fun x => b <= x) sizes ->
    N.of_nat (decode_more_count col idx rand sizes) <= MAX_BLOCK_OUTPUT / b <= MAX_BLOCK_OUTPUT.
Proof. exact emit_more_count_bounded. Qed.

Theorem C11L_emit_example :
  decode_more_count ex_col 5 false [1; 1; 1; 1; 1; 1; 1; 1; 1; 1; 1; 1; 1; 1; 1] = 13%nat /\
  decode_more_count ex_col 5 false [4; 4; 4; 4; 4] = 3%nat.
Proof. exact emit_more_count_example. Qed.

Print Assumptions C11L_parse_confirmed_positions_advance.
Print Assumptions C11L_parse_chain_80.
Print Assumptions C11L_parse_more_progress.
Print Assumptions C11L_parse_headers_positions.
Print Assumptions C11L_scan_ok_advances.
Print Assumptions C11L_emit_more_calls_bounded.
Print Assumptions C11L_emit_more_count_bounded.
