(* C06 - Every conforming bzip2 file is decompressed.
   ref_lenient_decode: the most lenient reading of a conforming stream (strict
   delta steps, used tables not over-subscribed, a block may even end in four
   equal bytes).  ref_noexc_decode: the same minus exactly the two documented
   exceptions of lbzip2 (a group coded by an INCOMPLETE table; a block ending in
   four equal bytes without count) - the two policies differ in nothing else
   (C06_exceptions_are_the_only_difference). *)
From Coq Require Import List NArith Arith Bool Lia.
From LBZ Require Import Common.Bits Dec.Prog Dec.Format Dec.Delta Dec.DeltaProofs Dec.Policies Dec.DecProofs Dec.FormatConst Gen.DecTabs Gen.CrcTab.
Import ListNotations.
Local Open Scope N_scope.

Theorem C06_complete :
  forall file o, ref_noexc_decode file = Ok o -> lbz_decode file = Ok o.
Proof. exact lbz_complete. Qed.

(* what is excluded is a sub-case of the reference format, with the same output *)
Theorem C06_noexc_is_conforming :
  forall file o, ref_noexc_decode file = Ok o -> ref_decode file = Ok o /\ ref_lenient_decode file = Ok o.
Proof. exact (fun file o H => conj (noexc_sound file o H) (ref_lenient_ext file o (noexc_sound file o H))). Qed.

Theorem C06_exceptions_are_the_only_difference :
  delta_reader ref_noexc_policy = delta_reader ref_lenient_policy /\
  (forall lens, table_check ref_noexc_policy lens = Ok tt <-> kraft lens = kraft_full) /\
  (forall lens, table_check ref_lenient_policy lens = Ok tt <-> kraft lens <= kraft_full) /\
  runlen_strict ref_noexc_policy = true /\ runlen_strict ref_lenient_policy = false.
Proof. exact policies_differ. Qed.

(* the strict reader accepts => the table-driven reader accepts, same length *)
Theorem C06_delta_windows_complete :
  forall fuel cur bits v r, cur < 32 ->
    run (strict_delta fuel cur) bits = Ok (v, r) -> run (win_delta fuel cur) bits = Ok (v, r).
Proof. exact strict_to_win. Qed.

(* legacy randomised blocks: the regenerated derandomisation table is the format's *)
Theorem C06_rand_table_is_format_constant :
  rand_table = format_rand_table /\ RAND_THRESH = format_rand_thresh.
Proof. exact rand_table_is_format. Qed.

Theorem C06_crc_table_is_crc32_polynomial : crc_table = crc_table_spec.
Proof. exact crc_table_is_poly. Qed.

Example C06_accepts_randomised_6_tables :
  ref_noexc_decode [66; 90; 104; 51; 49; 65; 89; 38; 83; 89; 51; 71; 72; 175; 128; 0; 2; 65; 0; 0; 64; 4; 0; 96; 0; 33; 43; 192; 142; 176; 71; 58; 194; 22; 16; 187; 9; 94; 175; 32; 177; 119; 36; 83; 133; 9; 3; 52; 116; 138; 240] = Ok [100; 100; 100; 100; 100; 100; 100; 100; 100; 100; 100; 100] /\
  lbz_decode [66; 90; 104; 51; 49; 65; 89; 38; 83; 89; 51; 71; 72; 175; 128; 0; 2; 65; 0; 0; 64; 4; 0; 96; 0; 33; 43; 192; 142; 176; 71; 58; 194; 22; 16; 187; 9; 94; 175; 32; 177; 119; 36; 83; 133; 9; 3; 52; 116; 138; 240] = Ok [100; 100; 100; 100; 100; 100; 100; 100; 100; 100; 100; 100].
Proof. vm_compute. split; reflexivity. Qed.

Example C06_exception_incomplete_table :
  (exists o, ref_decode [66; 90; 104; 49; 49; 65; 89; 38; 83; 89; 157; 116; 161; 89; 0; 0; 0; 1; 0; 20; 0; 80; 0; 62; 21; 122; 122; 184; 36; 245; 125; 7; 94; 251; 154; 131; 122; 228; 13; 119; 174; 166; 217; 161; 119; 36; 83; 133; 9; 9; 215; 74; 21; 144] = Ok o) /\ lbz_decode [66; 90; 104; 49; 49; 65; 89; 38; 83; 89; 157; 116; 161; 89; 0; 0; 0; 1; 0; 20; 0; 80; 0; 62; 21; 122; 122; 184; 36; 245; 125; 7; 94; 251; 154; 131; 122; 228; 13; 119; 174; 166; 217; 161; 119; 36; 83; 133; 9; 9; 215; 74; 21; 144] = Err ErrIncomplete.
Proof. vm_compute. split; [eexists; reflexivity|reflexivity]. Qed.

Example C06_exception_four_equal_bytes :
  (exists o, ref_lenient_decode [66; 90; 104; 52; 49; 65; 89; 38; 83; 89; 88; 13; 221; 100; 0; 0; 5; 3; 74; 8; 0; 0; 6; 0; 32; 1; 32; 0; 20; 32; 0; 33; 129; 0; 192; 130; 200; 114; 247; 118; 120; 187; 146; 41; 194; 132; 130; 192; 110; 235; 32] = Ok o) /\ lbz_decode [66; 90; 104; 52; 49; 65; 89; 38; 83; 89; 88; 13; 221; 100; 0; 0; 5; 3; 74; 8; 0; 0; 6; 0; 32; 1; 32; 0; 20; 32; 0; 33; 129; 0; 192; 130; 200; 114; 247; 118; 120; 187; 146; 41; 194; 132; 130; 192; 110; 235; 32] = Err ErrRunlen.
Proof. vm_compute. split; [eexists; reflexivity|reflexivity]. Qed.
