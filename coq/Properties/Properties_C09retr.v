(* C05 / C06 / C08 / C09, the block reader retrieve() of src/decode.c at STATEMENT LEVEL.

   Safe/RetrModel.v is a resumable model of retrieve(): its control-flow graph with one function per state in
   which the C function can be suspended (S_BWT_IDX .. S_PREFIX, the `case (s):` labels inside the NEED macro), the
   bit buffer (v, w), the words of the current input chunk, RESTORE()/SAVE(), the fast path (NEED_FAST, locals) and the
   slow path (NEED, state in *rs) of the symbol loop as separate code, C integer widths, bounds-checked arrays,
   make_tree()/the table decode sequence (Safe/TreeModel.v) and mtf_one() (Safe/SlideModel.v) re-used.  It is tied
   to the current source by checks/retr_part.py (harness/retr_h.c includes decode.c; call-by-call comparison on
   chunked inputs).  The theorems:
   (a) SAFETY for any input bits and any chunking (extends C08 to the whole of retrieve());
   (b) CHUNK INDEPENDENCE: the result depends only on the concatenation of the chunks - this is what the
       process-level theorem of C09 assumes of retrieve() (fast path = slow path; suspension is transparent);
   (c) REFINEMENT of the executable format description Dec/Format.v (read_block under lbz_policy, then unmtf_block):
       the link between the bit-level theorems C05/C06/C07/C15 and the code.
   Limits stated in the theorems themselves: retrieve() answers ERR_EOF when a block would end with fewer than 32 bits
   of input behind it (NEED wants a whole word; in a bzip2 file at least the 80-bit trailer follows); an error code is
   only related to the format description as "no block there either" (retrieve() reports ERR_OVERFLOW as soon as a run
   does not fit, the format description reads the symbols first). *)
From Coq Require Import List NArith Arith Bool Lia.
From LBZ Require Import Common.Bits Gen.Consts Dec.Prog Dec.Format Dec.Policies
  Safe.TreeModel Safe.RetrModel Safe.RetrChunk Safe.RetrInv Safe.RetrSafe Safe.RetrSpec Safe.RetrRefine Safe.RetrProofs.
Import ListNotations.
Local Open Scope N_scope.

(* (a) no out-of-bounds index (selector[], code_len[], mtf[], tree[], the tables inside a tree, imtf_slide[],
   imtf_row[], ftab[], tt[], the constant tables), no shift by the width or more, no failing assert, no read behind
   bs->limit (NEED_FAST), no read of a perm[] entry make_tree() did not write - for every initial state with arbitrary
   array contents, every sequence of input words, cut into any non-empty chunks; and the call(s) at end of input end
   the block with OK or an error code (never MORE; the fuel of the model never runs out) *)
Theorem C09retr_safe :
  forall st chunks, init_ok st -> Forall words_ok chunks -> Forall (fun c => c <> []) chunks ->
    match fst (retr_chunks st chunks) with
    | ROk _ => True
    | RErr _ _ => True
    | RMore _ => False
    | RFault _ => False
    end.
Proof. exact RetrProofs.retr_safe. Qed.

(* (b) two ways of cutting the same words into chunks give the same result: same verdict (OK / the same error code); for
   OK the same randomised flag, origin pointer, tt[] contents, block size, ftab[], the same saved bit buffer and the
   same words left unread ([xsim]) *)
Theorem C09retr_chunk_independent :
  forall st cs1 cs2, init_ok st -> b_eof st = false ->
    Forall words_ok cs1 -> Forall (fun c => c <> []) cs1 -> Forall words_ok cs2 -> Forall (fun c => c <> []) cs2 ->
    concat cs1 = concat cs2 ->
    xsim (retr_chunks st cs1) (retr_chunks st cs2).
Proof. exact RetrProofs.retr_chunk_indep. Qed.

(* the fast path computes what the slow path computes: a run of the machine that honours the test
   (limit - next) >= 32 is matched by the machine that never takes the fast path *)
Theorem C09retr_fast_is_slow :
  forall n p st rF, run_from true n p st = rF -> no_fault rF ->
    exists m rS, run_from false m p st = rS /\ rsim [] rS rF.
Proof. exact fast_to_slow_run. Qed.

(* (c) what retrieve() delivers is the block of the format description, read from the same bits; bits consumed agree *)
Theorem C09retr_refines_format :
  forall st cs f, init_ok st -> b_eof st = false -> Forall words_ok cs -> Forall (fun c => c <> []) cs ->
    (length (init_bits st ++ wbits (concat cs)) < f)%nat ->
    match retr_chunks st cs with
    | (ROk st', lo) =>
        spec_block f (init_bits st ++ wbits (concat cs)) =
          Ok (negb (d_rand (s_core st') =? 0), d_bwt_idx (s_core st'), rev (c_tt (s_core st')),
              strm (s_core st') (b_data st' ++ concat lo)) /\
        d_block_size st' = N.of_nat (length (c_tt (s_core st')))
    | (RErr code _, _) =>
        (exists e, spec_block f (init_bits st ++ wbits (concat cs)) = Err e) \/
        (code = E_ERR_EOF /\
         forall r rest, spec_block f (init_bits st ++ wbits (concat cs)) = Ok (r, rest) -> (length rest < 32)%nat)
    | _ => False
    end.
Proof. exact RetrProofs.retr_refines. Qed.

(* every block of the format with at least 32 bits behind it is delivered *)
Theorem C09retr_complete :
  forall st cs f r rest, init_ok st -> b_eof st = false -> Forall words_ok cs -> Forall (fun c => c <> []) cs ->
    (length (init_bits st ++ wbits (concat cs)) < f)%nat ->
    spec_block f (init_bits st ++ wbits (concat cs)) = Ok (r, rest) -> (32 <= length rest)%nat ->
    exists st' lo, retr_chunks st cs = (ROk st', lo) /\
      r = (negb (d_rand (s_core st') =? 0), d_bwt_idx (s_core st'), rev (c_tt (s_core st'))) /\
      rest = strm (s_core st') (b_data st' ++ concat lo) /\
      d_block_size st' = N.of_nat (length (c_tt (s_core st'))).
Proof. exact RetrProofs.retr_complete. Qed.

(* what the format description rejects is answered with an error code *)
Theorem C09retr_rejects :
  forall st cs f e, init_ok st -> b_eof st = false -> Forall words_ok cs -> Forall (fun c => c <> []) cs ->
    (length (init_bits st ++ wbits (concat cs)) < f)%nat ->
    spec_block f (init_bits st ++ wbits (concat cs)) = Err e ->
    exists code st' lo, retr_chunks st cs = (RErr code st', lo).
Proof. exact RetrProofs.retr_rejects. Qed.

(* the block reader of the format description is the one the bit-level theorems (C05, C06, C15) are about *)
Theorem C09retr_spec_is_read_block :
  forall f bits, spec_block f bits =
    match run (read_block lbz_policy f) bits with
    | Err e => Err e
    | Ok (rb, rest) =>
        match unmtf_block MAX_BLOCK_SIZE (rb_used rb) (rb_mtfv rb) with
        | Err e => Err e
        | Ok col =>
            if N.of_nat (length col) =? 0 then Err ErrEmpty
            else if N.of_nat (length col) <=? rb_idx rb then Err ErrBwtIdx
            else Ok (rb_rand rb, rb_idx rb, col, rest)
        end
    end.
Proof. exact RetrProofs.spec_block_unfold. Qed.

(* ---- the hypotheses are satisfiable; a concrete block ---------------------------------------------------------------- *)
(* the state harness/retr_h.c and the extracted model start from (arrays filled with 0xAA..), any bit buffer *)
Example init_ok_junk : init_ok (init_state junk_core 0 0) /\ init_ok (init_state junk_core (5 * 2 ^ 61) 3).
Proof.
  split.
  - apply (junk_init_ok 0 0 0); [discriminate|reflexivity|reflexivity].
  - apply (junk_init_ok (5 * 2 ^ 61) 3 5); [discriminate|reflexivity|reflexivity].
Qed.

(* the block of "abracadabra" (2 tables; bits behind the block CRC, followed by the 80-bit trailer of the stream) *)
Definition abra_words : list N :=
  [257; 2151415824; 2097185; 537166042; 1292049501; 3373588802; 1083028783; 1610612736].

Example abra_whole :
  match retr_chunks (init_state junk_core 0 0) [abra_words] with
  | (ROk st', lo) => rev (c_tt (s_core st')) = [114; 100; 97; 114; 99; 97; 97; 97; 97; 98; 98] /\
                     d_bwt_idx (s_core st') = 2 /\ d_rand (s_core st') = 0 /\ d_block_size st' = 11 /\ lo = []
  | _ => False
  end.
Proof. vm_compute. repeat split; reflexivity. Qed.

(* one word per call (the call is suspended at every NEED that finds the chunk exhausted): the same block, by (b) *)
Example abra_chunked :
  match retr_chunks (init_state junk_core 0 0) (map (fun w => [w]) abra_words) with
  | (ROk st', lo) => rev (c_tt (s_core st')) = [114; 100; 97; 114; 99; 97; 97; 97; 97; 98; 98] /\
                     d_bwt_idx (s_core st') = 2 /\ d_block_size st' = 11
  | _ => False
  end.
Proof.
  assert (X : xsim (retr_chunks (init_state junk_core 0 0) [abra_words])
                   (retr_chunks (init_state junk_core 0 0) (map (fun w => [w]) abra_words))).
  { apply C09retr_chunk_independent; try (cbn [map abra_words]; repeat constructor; discriminate).
    exact (proj1 init_ok_junk). }
  exact (RetrProofs.xsim_block (retr_chunks (init_state junk_core 0 0) [abra_words])
           (retr_chunks (init_state junk_core 0 0) (map (fun w => [w]) abra_words))
           [114; 100; 97; 114; 99; 97; 97; 97; 97; 98; 98] 2 11 X abra_whole).
Qed.

(* the input cut short inside the block: ERR_EOF *)
Example abra_truncated :
  match fst (retr_chunks (init_state junk_core 0 0) [firstn 3 abra_words]) with
  | RErr code _ => code = E_ERR_EOF
  | _ => False
  end.
Proof. vm_compute. reflexivity. Qed.

(* the limit of (c), on the real code as well (checks/retr_part.py): 10 bits behind the block are not enough for
   retrieve(), whose NEED wants a whole 32-bit word before the last symbol, while the format description has the block *)
Example abra_slack_10_bits :
  (match fst (retr_chunks (init_state junk_core 0 0) [firstn 5 abra_words]) with RErr code _ => code = E_ERR_EOF | _ => False end) /\
  (match spec_block 200 (wbits (firstn 5 abra_words)) with
   | Ok (_, _, col, rest) => col = [114; 100; 97; 114; 99; 97; 97; 97; 97; 98; 98] /\ length rest = 10%nat
   | Err _ => False
   end).
Proof. vm_compute. repeat split; reflexivity. Qed.
