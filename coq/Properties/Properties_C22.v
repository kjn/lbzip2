(* C22 - Invocation name and option sources select the documented mode.
   Only statements; every proof is [exact <lemma>] (or computation for Examples).

   Reading guide.  [parse_cli pname env argv tty_in tty_out] (Cli/CliModel.v) is the model of
   everything main.c does between process start and the first operand: building the argument
   list from LBZIP2, BZIP2, BZIP and argv, opts_setup(), and main()'s `small = 0`.  The
   option tables it interprets (Gen/CliTab.v) are regenerated from src/main.c on every run.
   The documented option syntax is the state-free lexer [lex LGo] of Cli/CliProofs.v: it
   turns a token list into option occurrences
       IShort k        the letter with byte code k in a cluster (not n, m)
       ILong r a       the long option --r
       IArg k v        -n / -m with its value (attached or the next token)
       IOperand a, IEndOpts ("--"), IArgMissing k.
   [toks_of env argv] is the effective token list.  Theorems speak about the outcome
   [Run cfg operands]; the other outcomes (Usage, Version, Fatal e) select no mode. *)
From Coq Require Import List NArith Bool String Ascii.
From LBZ Require Import Gen.CliTab Cli.CliModel Cli.CliProofs.
Import ListNotations.
Local Open Scope string_scope.
Local Open Scope N_scope.
Local Open Scope list_scope.

(* 0. The one-pass argument loop of the model (pending -n/-m value, "--", clusters, immediate
      fail()) is exactly: lex by the documented syntax, then give each occurrence the meaning
      the regenerated tables assign to it, starting from the documented defaults for the
      invocation name (compress, to files, level 9; decompress for bunzip2/lbunzip2/bzcat/lbzcat;
      standard output for bzcat/lbzcat). *)
Theorem C22_model_is_documented_syntax :
  forall pname args tty_in tty_out,
    opts_setup pname args tty_in tty_out =
    finalize tty_in tty_out (run (lex LGo args) (doc_init_state pname)).
Proof. exact opts_setup_lex. Qed.

(* the regenerated switch has exactly the documented syntax classes: '\0' ends a cluster, n and m
   take a value, h L V stop everything, every other letter is a flag or unknown; nothing in the
   table has a shape the model gives no meaning to *)
Theorem C22_short_option_syntax : forall k, syntax_pb k (short_kind k) = true.
Proof. exact short_syntax. Qed.

Theorem C22_long_option_syntax : forall r, long_syntax_pb r (long_kind r) = true.
Proof. exact long_syntax. Qed.

(* (a)+(b) in one statement: decompress is decided by the last occurrence of
   -d/--decompress (true), -z/--compress (false), -t/--test (true) in the effective token list,
   in any spelling and any source, and by the invocation name if there is none *)
Theorem C22_mode :
  forall pname env argv tty_in tty_out cfg ops,
    parse_cli pname env argv tty_in tty_out = Run cfg ops ->
    c_decompress cfg =
    decompress_after (lex LGo (toks_of env argv)) (mem_str pname ["bunzip2"; "lbunzip2"; "bzcat"; "lbzcat"]).
Proof. exact mode_selection. Qed.

(* (a) no -d/-z/-t in any spelling: the name decides, and bzcat/lbzcat write to standard output *)
Theorem C22_name :
  forall pname env argv tty_in tty_out cfg ops,
    parse_cli pname env argv tty_in tty_out = Run cfg ops ->
    Forall (fun i => item_mode i = None) (lex LGo (toks_of env argv)) ->
    c_decompress cfg = mem_str pname ["bunzip2"; "lbunzip2"; "bzcat"; "lbzcat"] /\
    (In pname ["bzcat"; "lbzcat"] -> c_outmode cfg = OM_STDOUT).
Proof. exact name_selects_mode. Qed.

(* bzcat/lbzcat keep writing to standard output whatever else is given, as long as there is no -t *)
Theorem C22_cat_stdout :
  forall pname env argv tty_in tty_out cfg ops,
    parse_cli pname env argv tty_in tty_out = Run cfg ops ->
    In pname ["bzcat"; "lbzcat"] ->
    Forall (fun i => item_mode i <> Some MT) (lex LGo (toks_of env argv)) ->
    c_outmode cfg = OM_STDOUT.
Proof. exact cat_names_stdout. Qed.

(* (b) the last of -d/-z/--decompress/--compress (and -t/--test, which forces decompression)
   wins over the name and over every earlier one, inside clusters too *)
Theorem C22_last_dz :
  forall pname env argv tty_in tty_out cfg ops pre i post m,
    parse_cli pname env argv tty_in tty_out = Run cfg ops ->
    lex LGo (toks_of env argv) = pre ++ i :: post ->
    item_mode i = Some m ->
    Forall (fun j => item_mode j = None) post ->
    c_decompress cfg = match m with MZ => false | MD | MT => true end.
Proof. exact last_mode_option_wins. Qed.

(* (c) the environment is a prefix of the command line: LBZIP2, then BZIP2, then BZIP, each cut
   at spaces and tabs.  Nothing is special about the boundary: a "--" or a trailing "-n" coming
   from a variable acts on argv exactly as it would if typed first on the command line. *)
Theorem C22_env :
  forall pname env argv tty_in tty_out,
    parse_cli pname env argv tty_in tty_out =
    parse_cli pname no_env
      (toks_of_var (env "LBZIP2") ++ toks_of_var (env "BZIP2") ++ toks_of_var (env "BZIP") ++ argv)
      tty_in tty_out.
Proof. exact env_is_prefix. Qed.

(* what "cut at spaces and tabs" means: the separator set, and the three equations that
   determine [tokens] on every string *)
Theorem C22_envsep : forall c, mem_char c envsep = Ascii.eqb c " " || Ascii.eqb c "009".
Proof. exact envsep_chars. Qed.

Theorem C22_tokens_empty : forall sep, tokens sep "" = [].
Proof. exact tokens_empty. Qed.

Theorem C22_tokens_single :
  forall sep s, s <> "" -> no_sep sep s = true -> tokens sep s = [s].
Proof. exact tokens_single. Qed.

Theorem C22_tokens_app :
  forall sep c a b, mem_char c sep = true ->
    tokens sep (a ++ String c b)%string = tokens sep a ++ tokens sep b.
Proof. exact tokens_sep_app. Qed.

(* (d) the documented no-ops: occurrences of -q -s --quiet --small --repetitive-fast
   --repetitive-best --exponential, anywhere (own token, inside a cluster, from the
   environment), never change the outcome: two lines whose occurrence lists agree after
   dropping them give the same effective configuration, operands, or the same help/error. *)
Theorem C22_noops :
  forall pname env argv env' argv' tty_in tty_out,
    drop_noops (lex LGo (toks_of env argv)) = drop_noops (lex LGo (toks_of env' argv')) ->
    parse_cli pname env argv tty_in tty_out = parse_cli pname env' argv' tty_in tty_out.
Proof. exact noops_irrelevant_cli. Qed.

(* --small in particular: main() resets it, whatever was given *)
Theorem C22_small_is_off :
  forall pname env argv tty_in tty_out cfg ops,
    parse_cli pname env argv tty_in tty_out = Run cfg ops -> c_small cfg = false.
Proof. exact small_is_off. Qed.

Definition env1 : environ :=
  fun nm => if String.eqb nm "LBZIP2" then Some " -d  -k" else
            if String.eqb nm "BZIP" then Some (String "009" "-z9") else None.

(* the documented syntax on a line that uses every token class *)
Example C22_example_lex :
  lex LGo ["-dk"; "-n"; "4"; "-qm5k"; "in"; "--best"; "-"; "--"; "-z"] =
  [IShort 100; IShort 107; IArg 110 "4"; IShort 113; IArg 109 "5k"; IOperand "in";
   ILong "best" "--best"; IEndOpts; IOperand "-z"].
Proof. vm_compute. reflexivity. Qed.

(* normal runs exist (hypotheses of the theorems above are satisfiable), for every kind of name *)
Example C22_example_run_bunzip2 :
  parse_cli "bunzip2" no_env ["-kv"; "in"] false false =
  Run (mkConfig true OM_REGF 9 false true true false false false 0 0) ["in"].
Proof. vm_compute. reflexivity. Qed.

Example C22_example_run_bzcat :
  parse_cli "bzcat" no_env ["-s"; "in"] false false =
  Run (mkConfig true OM_STDOUT 9 false false false false false false 0 0) ["in"].
Proof. vm_compute. reflexivity. Qed.

(* environment first, last of d/z wins: LBZIP2 says -d -k, BZIP says -z9, argv says -dn2 *)
Example C22_example_env :
  toks_of env1 ["-dn2"; "f"] = ["-d"; "-k"; "-z9"; "-dn2"; "f"] /\
  parse_cli "lbzip2" env1 ["-dn2"; "f"] false false =
  Run (mkConfig true OM_REGF 9 false true false false false false 2 0) ["f"] /\
  parse_cli "lbzip2" env1 ["f"] false false =
  Run (mkConfig false OM_REGF 9 false true false false false false 0 0) ["f"].
Proof. vm_compute. auto. Qed.

(* premises of C22_last_dz on that line: the last mode option is the d of the cluster -dn2 *)
Example C22_example_last_dz :
  lex LGo (toks_of env1 ["-dn2"; "f"]) =
  [IShort 100; IShort 107; IShort 122; IShort 57] ++ IShort 100 :: [IArg 110 "2"; IOperand "f"] /\
  item_mode (IShort 100) = Some MD /\
  Forall (fun j => item_mode j = None) [IArg 110 "2"; IOperand "f"].
Proof. vm_compute. repeat split; repeat constructor. Qed.

(* no-ops inside a cluster, as own tokens, and from the environment *)
Example C22_example_noops :
  drop_noops (lex LGo (toks_of (fun nm => if String.eqb nm "BZIP2" then Some "--quiet -s" else None)
                               ["-qkvs"; "--exponential"; "in"])) =
  drop_noops (lex LGo (toks_of no_env ["-kv"; "in"])) /\
  parse_cli "lbzip2" no_env ["-kv"; "in"] false false =
  Run (mkConfig false OM_REGF 9 false true true false false false 0 0) ["in"].
Proof. vm_compute. auto. Qed.

(* -t forces decompression, -c after -t is refused, a terminal is refused *)
Example C22_example_test_mode :
  parse_cli "lbzip2" no_env ["-zt"; "in"] false false =
  Run (mkConfig true OM_DISCARD 9 false false false false false false 0 0) ["in"] /\
  parse_cli "lbzip2" no_env ["-tc"] false false = Fatal EIncompat /\
  parse_cli "lbzip2" no_env [] false true = Fatal ETtyOut /\
  parse_cli "bunzip2" no_env [] true false = Fatal ETtyIn.
Proof. vm_compute. auto. Qed.

(* (d) is about option OCCURRENCES.  Deleting the letter q from the text of the (invalid)
   cluster "-q-" yields the token "--", which is a different thing altogether: *)
Example C22_noops_textual_erasure_refuted :
  parse_cli "lbzip2" no_env ["-q-"] false false = Fatal (EUnknownShort 45) /\
  parse_cli "lbzip2" no_env ["--"] false false =
  Run (mkConfig false OM_STDOUT 9 false false false false false false 0 0) [].
Proof. vm_compute. auto. Qed.
