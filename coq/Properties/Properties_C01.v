(* C01 - Compression round-trips exactly.
   Model: the compressor output for an input cut into blocks x_1..x_k is
   write_stream level [w_1..w_k] where w_i carries rle1 x_i, ANY valid BWT primary
   index and ANY acceptable choice of tables/selectors/padding (witness_ok) - in
   this model the heuristics of generate_prefix_code() and the suffix sorter
   (divbwt.c) do not occur, their results are checked (per generated case, on the
   real encoder state) to satisfy witness_ok and the real transmit() is compared
   byte for byte with write_block.  Properties_C02gen.v, _C02gen_total.v and
   _C02enc.v compute the tables, selectors and padding from exact models of
   generate_prefix_code() and encode() and prove them acceptable. *)
From Coq Require Import List NArith Arith Bool Lia.
From LBZ Require Rle.RleModel.
From LBZ Require Import Common.Bits Dec.Prog Dec.Format Dec.Policies Enc.EncModel Gen.Consts
  Enc.HuffProofs Enc.MtfProofs Enc.BwtProofs Enc.RleInvProofs Enc.LayoutA Enc.LayoutB Enc.BlockProofs Enc.StreamProofs Enc.EncCompose
  Dec.CrcProofs.
Import ListNotations.
Local Open Scope N_scope.

(* THE ROUND TRIP: for every level, every way the input is cut into non-empty blocks
   x_1..x_k (default or --sequential mode, any chunking - C04 says which), every valid
   BWT index and every acceptable choice of tables/selectors/padding, the bytes
   written decode - with lbzip2's own decoder model - to exactly x_1 ++ .. ++ x_k.
   Also covers the empty input (k = 0). *)
Theorem C01_roundtrip :
  forall level (ws : list witness) (xs : list (list N)),
    1 <= level <= 9 ->
    Forall2 (fun w x => witness_ok (100000 * level) w = true /\ Forall (fun c => c < 256) x /\ x <> [] /\
                        w_blk w = RleModel.rle1 x /\ w_crc w = N.lxor (crc_bytes mask32 x) mask32) ws xs ->
    lbz_decode (bytes_of_bits (pad_to_byte (write_stream level ws))) = Ok (concat xs).
Proof. exact stream_roundtrip_lbz. Qed.

(* one block: what the block reader reconstructs, and what it decodes to *)
Theorem C01_block_roundtrip :
  forall M level w x fuel rest,
    1 <= level <= 9 -> M = 100000 * level -> witness_ok M w = true -> (64 <= fuel)%nat ->
    Forall (fun c => c < 256) x -> x <> [] -> w_blk w = RleModel.rle1 x ->
    run (read_block ref_noexc_policy fuel) (write_body w ++ rest) = Ok (raw_of w, rest) /\
    decode_block ref_noexc_policy level (raw_of w) = Ok x.
Proof. exact block_roundtrip_both. Qed.

(* non-vacuity: a concrete acceptable witness *)
Example C01_witness_example :
  witness_ok 100 {| w_blk := [98;97;110;97;110;97;97;97;97;97;0;3]; w_idx := 9;
                    w_tables := [[2;3;3;3;3;3;3]; [3;3;3;3;3;3;2]]; w_sels := [1]; w_extra_sel := false;
                    w_pad := 2; w_crc := 12345 |} = true.
Proof. vm_compute. reflexivity. Qed.

Theorem C01_stage_rle : forall x, Forall (fun c => c < 256) x -> unrle true 256 0 (RleModel.rle1 x) = Ok x.
Proof. exact unrle_rle1. Qed.

(* Burrows-Wheeler transform: the linked-list inverse of decode() inverts the sorted-rotations
   transform for EVERY valid primary index (periodic blocks have several) *)
Theorem C01_stage_bwt : forall blk i, blk <> [] -> Forall (fun c => c < 256) blk -> valid_idx blk i ->
  ibwt (bwt_last blk) i = blk.
Proof. exact ibwt_bwt. Qed.

Theorem C01_stage_mtf : forall col limit, col <> [] -> N.of_nat (length col) <= limit ->
  unmtf_block limit (used_bytes col) (mtf_zrle col) = Ok col.
Proof. exact mtf_roundtrip. Qed.

(* prefix coding with any complete table of lengths 1..20 *)
Theorem C01_stage_prefix_code : forall alpha lens s rest, table_ok alpha lens = true -> (N.to_nat s < alpha)%nat ->
  run (decode_sym lens) (sym_bits lens s ++ rest) = Ok (s, rest).
Proof. exact sym_roundtrip. Qed.

(* block header fields: fixed-width fields, in-use bitmap, selectors (unary + MTF), delta-coded tables incl. padding *)
Theorem C01_stage_fields :
  (forall n v rest, v < 2 ^ N.of_nat n -> run (take n) (put n v ++ rest) = Ok (v, rest)) /\
  (forall used rest, Sorted.StronglySorted N.lt used -> Forall (fun c => c < 256) used ->
     run read_bitmap (write_bitmap used ++ rest) = Ok (used, rest)) /\
  (forall nt ks rest, Forall (fun k => (N.to_nat k < nt)%nat) ks ->
     run (repeat_prog (length ks) (read_unary nt 0)) (flat_map unary ks ++ rest) = Ok (ks, rest)) /\
  (forall order sels, NoDup order -> Forall (fun s => In s order) sels ->
     unmtf_selectors order (mtf_encode_sels order sels) = sels) /\
  (forall fuel pad lens rest, lens <> [] -> Forall (fun l => 1 <= l <= 20) lens -> pad <= 3 -> (64 <= fuel)%nat ->
     run (read_table ref_noexc_policy fuel (length lens)) (write_table pad lens ++ rest) = Ok (lens, rest)).
Proof. exact (conj take_put (conj bitmap_roundtrip (conj selectors_read (conj mtf_sels_roundtrip table_roundtrip)))). Qed.
