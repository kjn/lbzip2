(* C11 - Schedulers are deadlock-free, bounded and order-preserving.
   Compression scheduler (compress.c on process.c), both modes, every worker count
   n >= 1, every input shape (Data/collect are arbitrary), every interleaving
   (Reach = reachable by any event list).  Only statements; proofs are [exact].
   Guards, TRANSM_THRESH, task order, capacities, slot formulas, start values and
   the signalling condition are regenerated from /repo/src (Gen/SchedCTab.v). *)
From Coq Require Import List NArith Arith Bool Lia.
From LBZ Require Import SchedC.SchedCIface Gen.SchedCTab SchedC.Pool SchedC.PoolLemmas SchedC.SchedC SchedC.SchedCInv
  SchedC.Tiling SchedC.SchedCOrder SchedC.SchedCLive SchedC.SchedCProg SchedC.SchedCTerm.
Import ListNotations.

Section C11.
  Variables (Data Enc : Type) (data_len : Data -> N) (enc_empty : Enc)
            (collect : Enc -> Data -> Enc * Data * bool).
  Notation reachable := (reachable data_len enc_empty collect).

  (* no queue ever holds more items than the capacity it was allocated with,
     no counter exceeds its total *)
  Theorem C11_capacity : forall n u lvl inp s, reachable n u lvl inp s ->
    length (coll_q s) <= cap_coll n /\ length (trans_q s) <= cap_trans n /\
    length (reord_q s) <= cap_reord n /\ length (output_q s) <= cap_output n /\
    work_units s <= n /\ in_slots s <= total_in n /\ out_slots s <= total_out n.
  Proof. exact (@c11_capacity Data Enc data_len enc_empty collect). Qed.

  (* every work unit, input slot and output slot is either free or held by
     exactly one queue element / running task / I/O thread *)
  Theorem C11_conserve : forall n u lvl inp s, reachable n u lvl inp s ->
    work_units s + units_held s = n /\
    in_slots s + in_held s = total_in n /\
    out_slots s + out_held s = total_out n.
  Proof. exact (@c11_conserve Data Enc data_len enc_empty collect). Qed.

  (* no dequeue from an empty queue, no counter underflow, no push on a full
     deque, no failing assert *)
  Theorem C11_no_undefined_behaviour : forall n u lvl inp s, reachable n u lvl inp s -> bad s = false.
  Proof. exact (@c11_no_ub Data Enc data_len enc_empty collect). Qed.

  (* a terminal state has given back everything *)
  Theorem C11_final : forall n u lvl inp s, 1 <= n -> reachable n u lvl inp s -> final s = true ->
    work_units s = n /\ in_slots s = total_in n /\ out_slots s = total_out n /\
    coll_q s = [] /\ trans_q s = [] /\ reord_q s = [] /\ output_q s = [] /\ unfinished s = None /\
    collect_token s = true /\ eof s = true.
  Proof. exact (@c11_final Data Enc data_len enc_empty collect). Qed.

  (* blocks are handed to the writer in stream order (both modes): the handed blocks
     (written or queued for writing) form the gap-free chain 0.0 -> ... -> [order]
     (each block starts where the previous one ends) with strictly increasing
     positions; by C03_confluent this chain is a prefix of the block sequence of every
     complete run of the default mode. *)
  Theorem C11_order : forall n u lvl inp s, reachable n u lvl inp s ->
    chain pos0 (map (@iv_wb Enc) (@handed Data Enc s)) (order s) /\
    Sorted.StronglySorted (fun a b => plt (wb_pos a) (wb_pos b)) (@handed Data Enc s).
  Proof. exact (@c11_order Data Enc data_len enc_empty collect). Qed.

  (* nothing is lost on the way (both modes): a terminal state has handed over every
     block of the input that was read *)
  Theorem C11_final_order : forall n u lvl inp s, 1 <= n -> reachable n u lvl inp s -> final s = true ->
    order s = mkpos (next_id s) 0 /\ output_q s = [] /\ @handed Data Enc s = written s.
  Proof. exact (@c11_final_order Data Enc data_len enc_empty collect). Qed.

  (* whenever the mutex is free and a task is ready (or the process has finished and
     a worker has not exited yet), a signal is pending for a waiting worker or some
     worker is running unlocked code / has not started: no wake-up is lost.
     Both modes. *)
  Theorem C11_no_lost_wakeup : forall n u lvl inp s, 1 <= n -> reachable n u lvl inp s ->
    lock s = None ->
    (is_some (next_task s) = true \/
     (finished s = true /\ sumf (@exited_of Data Enc) (workers s) < length (workers s))) ->
    0 < wakeups s \/ 0 < sumf (@awake_of Data Enc) (workers s).
  Proof. exact (@c11_no_lost_wakeup Data Enc data_len enc_empty collect). Qed.

  (* select_task() respects the documented static priorities (collect_seq, reorder,
     transmit, collect): nothing of higher priority than the chosen task is ready *)
  Theorem C11_priority : forall (s : state Data Enc) t, next_task s = Some t -> @Inv Data Enc s ->
    forall t', prio t' < prio t -> ready s t' = false.
  Proof using enc_empty collect. exact (@c11_priority Data Enc). Qed.

  (* deadlock freedom (both modes): every reachable non-final state has an enabled
     event that is not an idle (spurious) wake-up *)
  Theorem C11_progress : forall n u lvl inp s, 1 <= n -> reachable n u lvl inp s -> final s = false ->
    exists e s', step data_len enc_empty collect s e = Some s' /\ @productive Data Enc s e = true.
  Proof. exact (@c11_progress Data Enc data_len enc_empty collect). Qed.

  (* termination (both modes): if collect() consumes at least one byte of a non-empty
     input, every event except an idle wake-up strictly decreases the measure (work
     left, workers alive, scheduling noise) in the well-founded lexicographic order
     lt3; with C11_progress: every maximal run is finite up to idle stuttering and
     ends in a final state. *)
  Theorem C11_terminates :
    (forall e d, (0 < data_len d)%N -> (data_len (snd (fst (collect e d))) < data_len d)%N) ->
    forall n u lvl inp s e s', reachable n u lvl inp s ->
      step data_len enc_empty collect s e = Some s' -> @productive Data Enc s e = true ->
      lt3 (@measure Data Enc data_len s') (@measure Data Enc data_len s).
  Proof. exact (@c11_terminates Data Enc data_len enc_empty collect). Qed.

  Theorem C11_measure_well_founded : well_founded lt3.
  Proof. exact lt3_wf. Qed.
End C11.

(* non-vacuity: two workers, one chunk that is split into two blocks (the remainder
   has 20000 bytes after the first collect()), round-robin interleaving: the run is
   complete, both blocks are written in order, everything is returned *)
Definition ex_data := (N * list N)%type.
Definition ex_len (d : ex_data) : N := fst d.
Definition ex_collect (e : unit) (d : ex_data) : unit * ex_data * bool :=
  match snd d with [] => (e, (0%N, []), true) | l :: r => (e, (l, r), true) end.

Example C11_example_run :
  let s := rr ex_len tt ex_collect 40 [TM; TS; TR; TW 0; TW 1]
              (init unit 2 false 1%N [(100000%N, [20000%N; 0%N])]) in
  reachable ex_len tt ex_collect 2 false 1%N [(100000%N, [20000%N; 0%N])] s /\
  final s = true /\ bad s = false /\
  map (@wb_pos unit) (written s) = [mkpos 0 0; mkpos 0 1] /\ order s = mkpos 1 0 /\
  work_units s = 2 /\ in_slots s = 4 /\ out_slots s = 6.
Proof.
  split; [apply rr_reach; constructor|]. vm_compute. repeat split; reflexivity.
Qed.
