(* C18 - Multiple operands are processed independently (front-end part: the
   operand loop; the per-run re-initialisation of the schedulers belongs to the
   scheduler models).  Only statements; every Theorem is [exact <lemma>] or [reflexivity] (the Example: by computation). *)
From Coq Require Import List NArith Arith Bool String Ascii Lia.
From LBZ Require Import Gen.FrontTab Front.FsModel Front.MainLoop Front.FrontSpec Front.FrontLemmas
     Front.FrontNoFault Front.FrontProofs.
Import ListNotations.
Local Open Scope N_scope.

(* The loop is a fold of the per-operand step -- under every fault/signal plan. *)
Theorem C18_fold_step :
  forall codec cf pl op ops s,
    run_ops codec cf pl (op :: ops) s =
    match run_op codec cf pl op s with
    | Ret _ s' => run_ops codec cf pl ops s'
    | Stop o _ s' => (s', o)
    end.
Proof. reflexivity. Qed.

(* Independence: from ANY state at an operand boundary -- whatever the call counters,
   diagnostics, history and `warned` left behind by earlier operands -- processing an
   operand has exactly the effect [op_effect cfg op fs], a function of the configuration,
   the operand and the file system only; `warned` is or-ed. *)
Theorem C18_independent :
  forall codec cf op s, boundary s ->
    let e := op_effect codec cf op (m_fs s) in
    exists s' h,
      m_fs s' = e_fs e /\ m_hist s' = h :: m_hist s /\
      h_op h = op /\ h_before h = m_fs s /\ h_after h = e_fs e /\
      match e_end e with
      | ENext d => run_op codec cf [] op s = Ret tt s' /\ h_disp h = d /\
                   m_warned s' = (m_warned s || e_warn e) /\ boundary s'
      | EStop o w => run_op codec cf [] op s = Stop o w s' /\ h_disp h = DAborted w
      end.
Proof. exact run_op_nf. Qed.

Theorem C18_alone :
  forall codec cf op f,
    run codec cf f [op] [] =
    (e_fs (op_effect codec cf op f),
     match e_end (op_effect codec cf op f) with
     | ENext _ => Exit (if e_warn (op_effect codec cf op f) then 4 else 0)
     | EStop o _ => o
     end).
Proof. exact run_single. Qed.

(* Several operands in one invocation = the first alone, then the others on the
   resulting file system; the exit status is 4 if either part warned; a fatal error in
   the first stops everything with its status. *)
Theorem C18_fold :
  forall codec cf op ops f,
    run codec cf f (op :: ops) [] =
    let '(f1, o1) := run codec cf f [op] [] in
    match o1 with
    | Exit 0 => run codec cf f1 ops []
    | Exit 4 => let '(f2, o2) := run codec cf f1 ops [] in
                (f2, match o2 with Exit 0 => Exit 4 | _ => o2 end)
    | _ => (f1, o1)
    end.
Proof. exact run_cons. Qed.

Theorem C18_exit_status :
  forall codec cf ops f,
    Forall completes (trace codec cf ops f) ->
    snd (run codec cf f ops []) = Exit (if existsb e_warn (trace codec cf ops f) then 4 else 0).
Proof. exact exit_status_run. Qed.

(* A fatal error stops processing with status 1; the operands before it have been
   processed completely (the file system the failing operand starts from is the fold of
   their effects) and later operands are not started. *)
Theorem C18_fatal_stops :
  forall codec cf ops1 op ops2 f f1 o y,
    Forall completes (trace codec cf ops1 f) ->
    f1 = fold_left (fun g o => e_fs (op_effect codec cf o g)) ops1 f ->
    e_end (op_effect codec cf op f1) = EStop o y ->
    run codec cf f (ops1 ++ op :: ops2) [] = (e_fs (op_effect codec cf op f1), o) /\
    ((o = Hang /\ y = WHang) \/ (o = Exit 1 /\ exists tag, y = WFatal tag)).
Proof. exact fatal_stops. Qed.

(* The statement "exit status 4 if any operand was SKIPPED" is not exactly what the code
   does: a processed operand whose mode has setuid/setgid/sticky bits also warns. *)
Theorem C18_exit4_only_if_skipped_refuted :
  exists codec cf f op,
    e_end (op_effect codec cf op f) = ENext DDone /\ snd (run codec cf f [op] []) = Exit 4.
Proof. exact exit4_without_skip. Qed.

Example C18_example :
  let codec := fun (_ : cmode) (d : bytes) => {| c_io := [IoRead; IoWrite (1 :: d)]; c_ok := true |} in
  let cf := {| c_decompress := false; c_force := false; c_keep := true; c_outmode := OmRegf; c_uid := 0; c_gid := 0; c_now := 9 |} in
  let nd := fun d => {| i_kind := KReg; i_mode := 420; i_uid := 0; i_gid := 0; i_atime := 1; i_mtime := 2; i_data := d; i_committed := true |} in
  let f := {| f_names := [("a"%string, DLink 1); ("b"%string, DLink 2)]; f_inodes := [(1, nd [7]); (2, nd [])]; f_stdout := [] |} in
  snd (run codec cf f ["a"; "missing"; "b"]%string []) = Exit 4 /\
  fst (run codec cf f ["a"; "missing"; "b"]%string []) =
  fst (run codec cf (fst (run codec cf (fst (run codec cf f ["a"%string] [])) ["missing"%string] [])) ["b"%string] []).
Proof. vm_compute. split; reflexivity. Qed.
