(* C02gen without the proviso "the model of make_code_lengths() returned no error value".
   Properties_C02gen.v proves the table/selector conjuncts of witness_ok for EVERY admissible function in the place
   of make_code_lengths(), so its composition theorems are conditional on the exact model not failing.  Here:
   the exact model (Enc/GenModel.v: labelling, sort_alphabet, build_tree with the packed depth byte, compute_depths,
   the length assignment loop, with every assert() / array bound / unsigned underflow as an error value) returns NO
   error value on every input generate_prefix_code() can produce:
     MIN_ALPHA_SIZE = 3 <= as <= MAX_ALPHA_SIZE = 258, row of as lengths, frequencies summing to at most
     MCL_SUM_MAX = fib 33 - 259 = 3524319   (lbzip2: sum = 50 * number of groups <= 900050).
   Proof (Enc/GenMclBt.v, GenMclCd.v, GenMclTotal.v): two-queue discipline of build_tree (indices in range, r == 2,
   s == 0, both queues sorted by frequency, the merged nodes are frequency-minimal whatever the tie-breaking by
   depth byte / leaf counter / stale label does); Fibonacci bound: a node of height h has frequency >= fib (h + 2),
   hence every height <= 30 = MAX_HUFF_CODE_LENGTH for sums < fib 33 = 3524578 (the depth byte cannot carry into the
   frequency field); FIFO order makes the parent pointers monotone, so node depths are non-decreasing in index
   order and compute_depths' level-by-level scan passes avail > used and ends with avail == 0; the level counts
   have Kraft sum exactly 2^31 and sum up to as.
   The hypothesis 3 <= as CANNOT be dropped from the model-level statement (gen_input_ok allows as = 2, on which
   make_code_lengths' first assert fails: C02gen_as2_fails) - every real block has as >= 3 (C02gen_block_total).
   The sum bound is needed: on the first 32 Fibonacci numbers the tree is 31 deep and assert(avail == 0) fails
   (C02gen_fib32_fails; sum 5702886, not reachable in lbzip2). *)
From Coq Require Import List NArith Arith Bool Lia.
From LBZ Require Rle.RleModel.
From LBZ Require Import Common.Bits Gen.Consts Dec.Prog Dec.Format Dec.Policies Dec.CrcProofs
  Enc.EncModel Enc.PmModel Enc.PmReal Enc.GenModel Enc.GenEm Enc.GenReorder Enc.GenProofs Enc.GenMcl Enc.GenCompose
  Enc.GenMclDefs Enc.GenMclBt Enc.GenMclCd Enc.GenMclTotal Enc.GenMclBlocks.
Import ListNotations.
Local Open Scope N_scope.

Theorem C02gen_make_code_lengths_total :
  forall old f,
    (length f <= length old)%nat /\ (3 <= length f <= 258)%nat /\ lsum f <= 3524319 ->
    exists l, make_code_lengths old f = GOk l /\ length l = length old.
Proof. exact make_code_lengths_total. Qed.

(* with lbzip2's bound GEN_MAX_NM = MAX_BLOCK_SIZE + GROUP_SIZE = 900050 *)
Theorem C02gen_make_code_lengths_total_lbzip2 :
  forall old f, length old = length f -> (3 <= length f <= 258)%nat -> lsum f <= GEN_MAX_NM ->
    exists l, make_code_lengths old f = GOk l /\ length l = length old.
Proof. exact make_code_lengths_total_lbzip2. Qed.

(* build_tree() alone: on as >= 2 descending leaf weights (depth byte 0, frequencies >= 1 summing to T < fib 33)
   no error value, r == 2, s == 0, and the tree facts BtPost (parents V[i] < i, monotone, <= 2 internal children,
   depth byte = height, root height <= 30) *)
Theorem C02gen_build_tree_total :
  forall (as_ : nat) (W0 : list N) (T : N),
    (2 <= as_)%nat -> length W0 = as_ ->
    (forall i, (i < as_)%nat -> hg (wn W0 i) = 0 /\ 1 <= fq (wn W0 i)) ->
    (forall i j, (i <= j)%nat -> (j < as_)%nat -> fq (wn W0 j) <= fq (wn W0 i)) ->
    T < fib 33 -> sumr (gq W0) 0 as_ = T ->
    exists W V, bt_loop (as_ - 1) W0 (repeat 0 as_) as_ as_ = GOk (W, V, 2%nat, 0%nat) /\ BtPost as_ W0 W V.
Proof. exact build_tree_ok. Qed.

(* compute_depths() and the length assignment loop on such a tree *)
Theorem C02gen_compute_depths_total :
  forall as_ W0 W V old,
    (3 <= as_ <= 258)%nat -> BtPost as_ W0 W V ->
    (forall i, (i < as_)%nat -> N.land (wn W0 i) 65535 <= MAX_ALPHA_SIZE /\
                                (N.to_nat (MAX_ALPHA_SIZE - N.land (wn W0 i) 65535) < length old)%nat) ->
    exists count len, compute_depths V as_ = GOk count /\
      gl_outer (S (N.to_nat MAX_HUFF_CODE_LENGTH)) as_ W count old 0 0 0
        = GOk (len, as_, N.shiftl 1 (MAX_HUFF_CODE_LENGTH + 1)).
Proof. exact cd_gl_total. Qed.

(* THE UNCONDITIONAL THEOREM about the model of generate_prefix_code(): for every symbol vector it can be called on
   with an alphabet of at least MIN_ALPHA_SIZE symbols and every cluster_factor >= 1 the model returns a result -
   no error value of any kind - with the properties gen_result_ok *)
Theorem C02gen_unconditional :
  forall cf mtfv,
    1 <= cf -> gen_input_ok mtfv -> 3 <= last mtfv 0 + 1 ->
    exists r, gen_prefix_code cf mtfv = GOk r /\ gen_result_ok mtfv r.
Proof. exact gen_prefix_code_total. Qed.

(* the symbol vector of every non-empty block qualifies (as = number of byte values in use + 2 >= 3) *)
Theorem C02gen_block_total :
  forall cf blk,
    1 <= cf -> blk <> [] -> N.of_nat (length blk) <= MAX_BLOCK_SIZE -> Forall (fun c => c < 256) blk ->
    exists r, gen_prefix_code cf (blk_syms blk) = GOk r /\ gen_result_ok (blk_syms blk) r.
Proof. exact gen_block_total. Qed.

(* the premise "gen_witness .. = GOk w" of computed_block (Properties_C02gen.C02gen_stream_strict) always holds *)
Theorem C02gen_computed_block_exists :
  forall cf level x c,
    1 <= cf -> 1 <= level <= 9 -> Forall (fun b => b < 256) x -> x <> [] ->
    N.of_nat (length (RleModel.rle1 x)) <= 100000 * level ->
    valid_idxb (RleModel.rle1 x) (c_idx c) = true -> c_pad c <= 3 ->
    exists w, computed_block make_code_lengths cf level x c w.
Proof. exact computed_block_exists. Qed.

(* C01_roundtrip / C02_stream_strict with computed tables and selectors and NO proviso: the input is cut into
   non-empty blocks within the block size of the level; for every choice of valid BWT indices, surplus selectors
   and paddings the computed witnesses exist and the written stream decodes to the input with lbzip2's decoder
   model, the strict reference format and the reference format *)
Theorem C02gen_stream_total :
  forall cf level (xs : list (list N)) (cs : list choice),
    1 <= cf -> 1 <= level <= 9 ->
    Forall2 (fun x c => Forall (fun b => b < 256) x /\ x <> [] /\
                        N.of_nat (length (RleModel.rle1 x)) <= 100000 * level /\
                        valid_idxb (RleModel.rle1 x) (c_idx c) = true /\ c_pad c <= 3) xs cs ->
    exists ws,
      Forall2 (fun xc w => computed_block make_code_lengths cf level (fst xc) (snd xc) w) (combine xs cs) ws /\
      lbz_decode (bytes_of_bits (pad_to_byte (write_stream level ws))) = Prog.Ok (concat xs) /\
      ref_noexc_decode (bytes_of_bits (pad_to_byte (write_stream level ws))) = Prog.Ok (concat xs) /\
      ref_decode (bytes_of_bits (pad_to_byte (write_stream level ws))) = Prog.Ok (concat xs).
Proof. exact gen_stream_total. Qed.

(* as = 2 is admitted by gen_input_ok but not by make_code_lengths (assert(as >= MIN_ALPHA_SIZE)) *)
Example C02gen_as2_fails :
  gen_input_ok [0; 1] /\ gen_prefix_code 1 [0; 1] = GErr (GMcl (MAssert 1)).
Proof.
  split; [|vm_compute; reflexivity].
  unfold gen_input_ok. cbv zeta. split; [vm_compute; split; discriminate|]. split; [vm_compute; split; discriminate|].
  repeat constructor.
Qed.

Fixpoint fibs (n : nat) (a b : N) : list N := match n with O => [] | S k => a :: fibs k b (a + b) end.

(* the deepest tree within lbzip2's bound: 28 Fibonacci frequencies (sum 832039 <= 900050), 27 levels *)
Example C02gen_fib28 :
  lsum (fibs 28 1 1) = 832039 /\
  make_code_lengths (repeat 0 28%nat) (fibs 28 1 1) =
    GOk [27; 27; 26; 25; 24; 23; 22; 21; 20; 19; 18; 17; 16; 15; 14; 13; 12; 11; 10; 9; 8; 7; 6; 5; 4; 3; 2; 1].
Proof. split; vm_compute; reflexivity. Qed.

(* beyond the bound the C code would fail: 32 Fibonacci frequencies (sum 5702886) give a tree 31 deep *)
Example C02gen_fib32_fails :
  lsum (fibs 32 1 1) = 5702886 /\ make_code_lengths (repeat 0 32%nat) (fibs 32 1 1) = GErr (GMcl (MAssert 5)).
Proof. split; vm_compute; reflexivity. Qed.

Print Assumptions C02gen_make_code_lengths_total.
Print Assumptions C02gen_unconditional.
Print Assumptions C02gen_stream_total.
