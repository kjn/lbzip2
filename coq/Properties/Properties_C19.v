(* C19 - -cdf passes non-bzip2 data through unchanged.
   Model: SchedC/Copy.v (work()'s 4-byte sniff with arbitrary read() fragmentation,
   the header write, copy() with reader/writer threads, copy_terminate() at every
   sched_unlock(), halt()).  The 2/2 slots, the 65536-byte block, the raise
   condition, the magic test, the fallback condition and the length of the header
   write are regenerated from /repo/src/process.c (Gen/SchedCTab.v).
   Only statements; proofs are [exact]. *)
From Coq Require Import List NArith ZArith Arith Bool Lia.
From LBZ Require Import SchedC.SchedCIface Gen.SchedCTab SchedC.Pool SchedC.Copy SchedC.CopyProofs.
Import ListNotations.

(* every complete run (any interleaving of main, reader and writer; any
   fragmentation of read()) has written exactly the input, exits 0 and has raised
   SIGUSR2 exactly once *)
Theorem C19_copy : forall force stdout x frag s,
  CReach (cinit force stdout x frag) s -> k_main s = MDone ->
  k_written s = x /\ exit_of s = Exit0 /\ k_raised s = 1.
Proof. exact copy_correct. Qed.

(* with -f writing to standard output an input that does not start with a bzip2
   header never takes the decompression or the "not a valid bzip2 file" path *)
Theorem C19_copy_path : forall x frag s,
  is_magic_input x = false -> fallback_cond true true = true ->
  CReach (cinit true true x frag) s ->
  k_main s <> MDecompress /\ k_main s <> MFail /\ k_force s = true /\ k_stdout s = true.
Proof. exact copy_path. Qed.

Theorem C19_usr2_once : forall force stdout x frag s,
  CReach (cinit force stdout x frag) s -> k_raised s <= 1.
Proof. exact usr2_at_most_once. Qed.

(* no reachable state is stuck before the exit (copy() cannot hang) *)
Theorem C19_progress : forall force stdout x frag s,
  CReach (cinit force stdout x frag) s -> cfinal s = false -> exists e s', cstep s e = Some s'.
Proof. exact copy_progress. Qed.

(* inputs of 0-3 bytes are never taken for a bzip2 stream *)
Theorem C19_short_inputs : forall x, length x < sniff_size -> is_magic_input x = false.
Proof. exact short_not_magic. Qed.

(* the magic test is: "BZh" followed by a digit 1..9 *)
Theorem C19_magic_is_BZh_1_9 : forall x, Forall (fun b => (b < 256)%N) x ->
  (is_magic_input x = true <->
   exists d rest, x = 66%N :: 90%N :: 104%N :: d :: rest /\ (49 <= d <= 57)%N).
Proof. exact magic_input_spec. Qed.

(* an input that does start with such a header goes to the decompressor exactly as
   without -c -f: same four bytes consumed, nothing written first *)
Theorem C19_magic : forall force stdout x frag, is_magic_input x = true ->
  exists s', cstep (cinit force stdout x frag) TM = Some s' /\ k_main s' = MDecompress /\
             k_rest s' = skipn sniff_size x /\ k_written s' = [].
Proof. exact magic_path. Qed.

(* the chunking of the reader does not depend on read() fragmentation, and short
   writes do not change what reaches the output *)
Theorem C19_xread_fills : forall (fuel gran : nat) (frag : list nat) (x : list N), 0 < gran ->
  reader_chunks fuel gran frag x = cut fuel gran x.
Proof. exact (reader_chunks_cut N). Qed.

(* non-vacuity: a 3-byte input ("BZh") read one byte at a time, and a 5-byte
   input whose last byte goes through the reader/writer pipeline *)
Example C19_example_3_bytes :
  exists s, crun (cinit true true [66; 90; 104]%N [1; 1; 1; 1])
                 [TM; TM; TR; TR; TR; TM; TM; TS; TM] = Some s /\ k_main s = MDone /\
            k_written s = [66; 90; 104]%N /\ exit_of s = Exit0.
Proof. eexists. split; [vm_compute; reflexivity|]. repeat split; reflexivity. Qed.

Example C19_example_5_bytes :
  exists s, crun (cinit true true [66; 90; 104; 48; 7]%N [1; 3; 1])
                 [TM; TM; TR; TR; TR; TR; TS; TS; TS; TR; TM; TM; TS; TM] = Some s /\ k_main s = MDone /\
            k_written s = [66; 90; 104; 48; 7]%N /\ exit_of s = Exit0 /\ k_raised s = 1.
Proof. eexists. split; [vm_compute; reflexivity|]. repeat split; reflexivity. Qed.
