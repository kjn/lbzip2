(* C11 (C10, C13 use the same queues), queue primitives: the ring-buffer deque and the
   binary-heap priority queue of src/process.h / src/process.c refine the list / sorted-list
   abstractions that the scheduler models (SchedC/Pool.v: position-sorted list; SchedX/XState.v:
   list with a minimal element taken) are written over.

   Model: Safe/PoolModel.v executes the macro bodies and up_heap()/down_heap() as REGENERATED
   from the current source into Gen/PoolTab.v by lib/gen_pool.py (index expressions with
   explicit 32-bit unsigned wrap-around, order of the side effects, comparison operands);
   array = list of cells, every access bounds-checked ([Bad Oob]), reading a cell that was
   never written is [Bad Uninit], a failing assert() is [Bad AssertFail], the heap loops run
   on fuel S(log2(size+1)) ([Bad Fuel]).  Every "= Good .." below therefore says: no index
   out of bounds, no uninitialised read, no assertion failure, loop ends within the fuel.

   Capacity: any 1 <= capacity <= 2^31 (= UHALF; beyond that `head + i + 1` and `2*j + 1`
   can wrap in 32-bit unsigned arithmetic and the statements are false).

   [key] maps a heap element to its struct position (major, minor); the deque never looks at
   it (its statements hold for every key). *)
From Coq Require Import List NArith Bool Sorted Permutation.
From LBZ Require Import Safe.PoolVocab Gen.PoolTab Safe.PoolModel Safe.PoolLemmas Safe.PoolDeque Safe.PoolHeap
  Safe.PoolProofs.
Import ListNotations.
Local Open Scope N_scope.

(* Deque.  abs_dq s = the [size] cells after [head], wrapping at [modulus];
   dq_inv s = array length = modulus, 1 <= modulus <= 2^31, head < modulus, size <= modulus and those
   cells have been written. *)
Theorem C11_deque_init :
  forall (A : Type) (key : A -> pos) (n : N), 1 <= n <= UHALF ->
    exists s, dq_init key n = Good s /\ dq_inv s /\ abs_dq s = [] /\ f_modulus (q_f s) = n.
Proof. exact @deque_init_refines. Qed.

Theorem C11_deque_refines_list :
  forall (A : Type) (key : A -> pos) (s : qstate A), dq_inv s ->
    let l := abs_dq s in
    let cap := f_modulus (q_f s) in
    N.of_nat (length l) <= cap /\
    (* size(), empty() *)
    q_size key s = Good (N.of_nat (length l)) /\
    q_empty key s = Good (nilb l) /\
    (* dq_get(q, i) = i-th element; dq_set replaces it *)
    (forall i x, nth_error l i = Some x -> dq_get key s (N.of_nat i) = Good x) /\
    (forall i x, (i < length l)%nat ->
       exists s', dq_set key s (N.of_nat i) x = Good s' /\ dq_inv s' /\ abs_dq s' = lset l i x /\ f_modulus (q_f s') = cap) /\
    (* push on a non-full deque appends at the back *)
    (forall x, N.of_nat (length l) < cap ->
       exists s', dq_push key s x = Good s' /\ dq_inv s' /\ abs_dq s' = l ++ [x] /\ f_modulus (q_f s') = cap) /\
    (* unshift on a non-full deque puts the element back at the FRONT *)
    (forall x, N.of_nat (length l) < cap ->
       exists s', dq_unshift key s x = Good s' /\ dq_inv s' /\ abs_dq s' = x :: l /\ f_modulus (q_f s') = cap) /\
    (* shift removes and returns the first element, pop the last *)
    (forall x r, l = x :: r ->
       exists s', dq_shift key s = Good (x, s') /\ dq_inv s' /\ abs_dq s' = r /\ f_modulus (q_f s') = cap) /\
    (forall r x, l = r ++ [x] ->
       exists s', dq_pop key s = Good (x, s') /\ dq_inv s' /\ abs_dq s' = r /\ f_modulus (q_f s') = cap).
Proof. exact @deque_refines_list. Qed.

(* Priority queue.  pq_elems s = the cells [0, size); abs_pq key s = pq_elems sorted by insertion with
   pq_insert (before the first strictly greater key, as SchedC/Pool.v);
   pq_inv key s = size <= array length <= 2^31, cells [0, size) written, and every cell is
   not greater (w.r.t. the regenerated pos_lt) than its children 2i+1, 2i+2. *)
Theorem C11_pqueue_init :
  forall (A : Type) (key : A -> pos) (n : N), n <= UHALF ->
    exists s, pq_init key n = Good s /\ pq_inv key s /\ pq_elems s = [] /\ alen (q_arr s) = n.
Proof. exact @pq_init_spec. Qed.

Theorem C11_pqueue_refines_sorted :
  forall (A : Type) (key : A -> pos) (s : qstate A), pq_inv key s ->
    let l := abs_pq key s in
    let cap := alen (q_arr s) in
    StronglySorted (fun x y => pos_lt (key y) (key x) = false) l /\
    Permutation l (pq_elems s) /\
    N.of_nat (length l) <= cap /\
    q_size key s = Good (N.of_nat (length l)) /\
    q_empty key s = Good (nilb l) /\
    (* enqueue on a non-full queue inserts (in general: up to the order of equal keys;
       with pairwise distinct keys: exactly the ordered insertion) *)
    (forall x, N.of_nat (length l) < cap ->
       exists s', pq_enqueue key s x = Good s' /\ pq_inv key s' /\ alen (q_arr s') = cap /\
         Permutation (abs_pq key s') (x :: l) /\
         (NoDup (map key (x :: l)) -> abs_pq key s' = pq_insert key x l)) /\
    (* on a non-empty queue peek returns, and dequeue removes, an element m that no element is
       less than (ANY such element when keys are equal: the heap guarantees no tie-break);
       with pairwise distinct keys: the head of the sorted list, leaving its tail *)
    (l <> [] ->
       exists m s', pq_peek key s = Good m /\ pq_dequeue key s = Good (m, s') /\ pq_inv key s' /\ alen (q_arr s') = cap /\
         In m l /\ (forall y, In y l -> pos_lt (key y) (key m) = false) /\
         Permutation l (m :: abs_pq key s') /\
         (NoDup (map key l) -> l = m :: abs_pq key s')).
Proof. exact @pqueue_refines_sorted. Qed.

(* the functions behind enqueue/dequeue, array level: up_heap(root, n) with the new element in
   cell n; down_heap(root, n) on a heap of n+1 cells moves the minimum to cell n *)
Theorem C11_up_heap_safe :
  forall (A : Type) (key : A -> pos) (a : arr A) (n : N),
    n < alen a -> alen a <= UHALF -> filled a (n + 1) -> heap_ord key a n ->
    exists a', up_heap key a n = Good a' /\ alen a' = alen a /\ Permutation a' a /\
      skipn (N.to_nat (n + 1)) a' = skipn (N.to_nat (n + 1)) a /\ filled a' (n + 1) /\ heap_ord key a' (n + 1).
Proof. exact @up_heap_spec. Qed.

Theorem C11_down_heap_safe :
  forall (A : Type) (key : A -> pos) (a : arr A) (n : N),
    n < alen a -> alen a <= UHALF -> filled a (n + 1) -> heap_ord key a (n + 1) ->
    exists a', down_heap key a n = Good a' /\ alen a' = alen a /\ Permutation a' a /\
      skipn (N.to_nat (n + 1)) a' = skipn (N.to_nat (n + 1)) a /\ cell a' n = cell a 0 /\
      filled a' (n + 1) /\ heap_ord key a' n.
Proof. exact @down_heap_spec. Qed.

(* capacity 3: push 10, push 11, unshift 9 with head = 0 (new head must be modulus-1 = 2),
   shift (head wraps 2 -> 0), push 12 (write index wraps to cell 0), shift, unshift 8 (head 1 -> 0),
   dq_get 2 (read index wraps), pop *)
Example C11_deque_wrap_run :
  let k := fun x : N => (x, 0) in
  (s0 <-- dq_init k 3 ;; s1 <-- dq_push k s0 10 ;; s2 <-- dq_push k s1 11 ;;
   s3 <-- dq_unshift k s2 9 ;; r4 <-- dq_shift k s3 ;; s5 <-- dq_push k (snd r4) 12 ;;
   r6 <-- dq_shift k s5 ;; s7 <-- dq_unshift k (snd r6) 8 ;; g <-- dq_get k s7 2 ;; r8 <-- dq_pop k s7 ;;
   Good ((f_head (q_f s2), f_head (q_f s3), abs_dq s3), (fst r4, f_head (q_f (snd r4))), abs_dq s5,
         (fst r6, f_head (q_f (snd r6))), (f_head (q_f s7), abs_dq s7, q_arr s7), g, (fst r8, abs_dq (snd r8))))
  = Good ((0, 2, [9; 10; 11]), (9, 0), [10; 11; 12],
          (10, 1), (0, [8; 11; 12], [Some 12; Some 8; Some 11]), 12, (12, [8; 11])).
Proof. vm_compute. reflexivity. Qed.

(* a full deque refuses push and unshift (assert), an empty one shift *)
Example C11_deque_asserts :
  let k := fun x : N => (x, 0) in
  (s0 <-- dq_init k 1 ;; s1 <-- dq_push k s0 5 ;; Good (dq_push k s1 6, dq_unshift k s1 6, dq_shift k s0))
  = Good (Bad AssertFail, Bad AssertFail, Bad AssertFail).
Proof. vm_compute. reflexivity. Qed.

(* the invariant is satisfiable on a wrapped state *)
Example C11_deque_inv_example :
  dq_inv (mkq (mkqf 2 3 1) [Some 12; None; Some 11]) /\ abs_dq (mkq (mkqf 2 3 1) [Some 12; None; Some 11]) = [11; 12].
Proof.
  split; [|reflexivity]. constructor; cbn; try (vm_compute; intuition congruence).
  intros [|[|[|i]]] x; cbn; intro H; inversion H; reflexivity.
Qed.

(* heap: keys with ties; elements are (key, tag) *)
Example C11_pqueue_run :
  let k := fun x : pos * N => fst x in
  (s0 <-- pq_init k 4 ;; s1 <-- pq_enqueue k s0 ((5, 0), 1) ;; s2 <-- pq_enqueue k s1 ((3, 7), 2) ;;
   s3 <-- pq_enqueue k s2 ((3, 2), 3) ;; s4 <-- pq_enqueue k s3 ((5, 0), 4) ;;
   p <-- pq_peek k s4 ;; r5 <-- pq_dequeue k s4 ;; r6 <-- pq_dequeue k (snd r5) ;;
   Good (q_arr s4, p, fst r5, fst r6, abs_pq k (snd r6), pq_enqueue k s4 ((0, 0), 9)))
  = Good ([Some ((3, 2), 3); Some ((5, 0), 1); Some ((3, 7), 2); Some ((5, 0), 4)],
          ((3, 2), 3), ((3, 2), 3), ((3, 7), 2), [((5, 0), 1); ((5, 0), 4)], Bad Oob).
Proof. vm_compute. reflexivity. Qed.

(* equal keys: NO first-in-first-out guarantee.  #1 and #4 have the same key (5,0) and #1 was
   enqueued first, yet after two dequeues the heap returns #4 before #1 (the sorted abstraction
   abs_pq, which inserts after equal keys, lists #1 first).  A model of the scheduler may only
   assume "some element that no element is less than". *)
Example C11_pqueue_ties_not_fifo :
  let k := fun x : pos * N => fst x in
  (s0 <-- pq_init k 4 ;; s1 <-- pq_enqueue k s0 ((5, 0), 1) ;; s2 <-- pq_enqueue k s1 ((3, 7), 2) ;;
   s3 <-- pq_enqueue k s2 ((3, 2), 3) ;; s4 <-- pq_enqueue k s3 ((5, 0), 4) ;;
   r5 <-- pq_dequeue k s4 ;; r6 <-- pq_dequeue k (snd r5) ;; r7 <-- pq_dequeue k (snd r6) ;; r8 <-- pq_dequeue k (snd r7) ;;
   Good (abs_pq k (snd r6), snd (fst r7), snd (fst r8)))
  = Good ([((5, 0), 1); ((5, 0), 4)], 4, 1).
Proof. vm_compute. reflexivity. Qed.
