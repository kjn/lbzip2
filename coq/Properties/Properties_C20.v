(* C20 - Prefix tables are optimal for the symbols they code.
   The optimality theorem of the code in src/encode.c (sort_alphabet / package_merge /
   assign_codes) is proved in Properties_C20pm.v (C20pm_optimal, C20pm_safe_and_complete)
   about the executable model Enc/PmModel.v, which is tied to encode.c by the
   correspondence of checks/pm_part.py.  THIS file holds the format-side facts: every table
   accepted by the strict-format predicate table_ok (which witness_ok demands of every table
   the encoder emits, and which C20pm_safe_and_complete proves of every assign_codes result)
   has lengths 1..20, is a COMPLETE prefix code, and its canonical code decodes uniquely.
   What stays evaluated per generated block rather than proved: that the frequency vector
   handed to assign_codes() is the count vector of the groups that select the table. *)
From Coq Require Import List NArith Arith Bool Lia.
From LBZ Require Import Common.Bits Dec.Prog Dec.Format Enc.EncModel Enc.EncFacts Enc.HuffProofs.
Import ListNotations.
Local Open Scope N_scope.

Definition cost (freqs lens : list N) : N := fold_left N.add (map (fun p => fst p * snd p) (combine freqs lens)) 0.

Theorem C20_table_ok_means_complete_1_20 :
  forall alpha lens, table_ok alpha lens = true ->
    length lens = alpha /\ Forall (fun l => 1 <= l <= 20) lens /\ kraft lens = kraft_full.
Proof. exact table_ok_spec. Qed.

Theorem C20_codes_decodable :
  forall alpha lens s rest, table_ok alpha lens = true -> (N.to_nat s < alpha)%nat ->
    run (decode_sym lens) (sym_bits lens s ++ rest) = Ok (s, rest).
Proof. exact sym_roundtrip. Qed.

Example C20_table_ok_example : table_ok 7 [2; 3; 3; 3; 3; 3; 3] = true /\ table_ok 7 [2; 2; 2; 3; 3; 3; 3] = false.
Proof. vm_compute. split; reflexivity. Qed.
