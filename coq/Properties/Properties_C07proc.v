(* C07 - Damaged input is rejected cleanly: the PROCESS-level part.
   Only statements; every Theorem is [exact <lemma>] (Examples: by computation).

   Setting (IoFail/DataFail.v on the state machine of IoFail/IoFailModel.v, shared with C21):
   [run_data s main_suspended others sch] is the state reached from the moment a thread calls
   the logging function at the data-error call site [s], where
     s               a row of [data_sites] (Gen/DataFailTab.v, regenerated from the source on
                     every run): every call of a bail-out or warning logging function without
                     errno argument in expand.c / parse.c / decode.c / process.c -- at present
                     the three `failf(&ispec, "compressed data error: %s", err2str(..))` of
                     do_parse() and do_reorder() (executed by a WORKER thread running a task of
                     the `expansion` task list) and `failf(&ispec, "not a valid bzip2 file")`
                     of work() (executed by the MAIN thread),
     main_suspended  the main thread is already in sigsuspend() (false: still on its way);
                     irrelevant for the main-thread site,
     others          the states of all other threads (running, blocked on a condition variable,
                     blocked in read()/write(), exited), arbitrary,
     sch             an arbitrary schedule: steps of the failing thread, of the main thread,
                     arbitrary state changes of the other threads, and the pipeline events
                     "the other pipeline threads are done", "the failing thread is done",
                     "completion signal raised".
   The operations executed (the DEF() logging macro with its print condition evaluated at errno 0,
   bailout() of a sub-thread / of the main thread, halt()'s dispatch on SIGUSR1, signal tables,
   exit codes) are the regenerated ones of Gen/IoFailTab.v.  [code] is the value of `enum error`
   handed to err2str(); it only determines the text.

   Abstracted / assumed (see IoFail/DataFail.v): one failure per run; no signals from outside;
   the pipeline cannot signal completion (SIGUSR2) while the failing task has not returned (the
   task still holds its work unit / output slot, and the call is made with the scheduler lock
   held, which the dying thread keeps: syntactic side conditions in [C07_data_structure]);
   wall-clock time; the content of stderr is a counter of diagnostics plus the rendered text of
   the (only) printing call.  That the process reaches the site at all for a given damaged file
   is the codec-level theorem C07_invalid_is_rejected plus the tested link of
   checks/c07proc_part.py (and the scheduler models C16/SchedX), see [C07_rejected_file_exits_1]. *)
From Coq Require Import List NArith Bool String.
From LBZ Require Import Common.Bits Dec.Prog Dec.Format Dec.Policies Dec.ErrMap.
From LBZ Require Import Gen.IoFailTab Gen.DataFailTab Gen.Consts Gen.ErrTab.
From LBZ Require Import IoFail.IoFailModel IoFail.DataFailGeneric IoFail.DataFail IoFail.DataFailProofs IoFail.DataFailCodec.
Import ListNotations.
Local Open Scope N_scope.

(* Whenever the process is gone after a data error, it exited with status 1: never status 0,
   never a signal death; the final state is the one of the canonical schedule; exactly one
   diagnostic has been printed, and its text is the site's format with the (non-empty)
   err2str() text of the code in place of %s -- for every site, every error code the site can
   report, every state and behaviour of the other threads and every schedule. *)
Theorem C07_data_error_outcome :
  forall s code main_suspended others sch o,
    In s data_sites -> E_ERR_MAGIC <= code <= E_ERR_EOF -> site_admits s code = true ->
    k_res (s_core (run_data s main_suspended others sch)) = Some o ->
    o = Exited 1 /\ o <> Exited 0 /\ (forall sg, o <> Killed sg)
    /\ Some o = fst (data_predict s)
    /\ k_printed (s_core (run_data s main_suspended others sch)) = 1
    /\ exists msg, site_message s code = Some msg /\ msg <> ""%string
         /\ ((ds_arg s = ArgNone /\ msg = ds_fmt s)
             \/ exists em, err2str code = Some em /\ em <> ""%string /\ msg = fill (ds_fmt s) [em])
         /\ forall pname sep fsname, exists line, render_line pname sep fsname s code = Some line.
Proof. exact data_outcome. Qed.

(* The diagnostic comes first: as soon as a signal handler has run (SIGUSR1 caught by the main
   thread), or the failing thread has terminated, or the process is gone, the message is on
   stderr. *)
Theorem C07_diagnostic_precedes_exit :
  forall s main_suspended others sch, In s data_sites ->
    (k_caught (s_core (run_data s main_suspended others sch)) <> None \/
     k_f (s_core (run_data s main_suspended others sch)) = FDead \/
     k_res (s_core (run_data s main_suspended others sch)) <> None) ->
    k_printed (s_core (run_data s main_suspended others sch)) = 1.
Proof. exact data_message_first. Qed.

(* No reachable state after the data error is quiescent and non-final: the failing thread or
   the main thread can always take a step that strictly decreases the measure, whatever the
   other threads are doing (no hang). *)
Theorem C07_data_error_no_stuck :
  forall s main_suspended others sch, In s data_sites ->
    k_res (s_core (run_data s main_suspended others sch)) = None ->
    exists ev, In ev own_events /\
      (mu gen_cfg (s_core (step gen_cfg (data_fenv gen_cfg) (EvCore ev) (run_data s main_suspended others sch)))
       < mu gen_cfg (s_core (run_data s main_suspended others sch)))%nat.
Proof. exact data_no_stuck. Qed.

(* Steps of other threads never increase the measure, own steps that change anything decrease it *)
Theorem C07_data_error_own_steps_bounded :
  forall s main_suspended others sch, In s data_sites ->
    (own_effective gen_cfg (data_fenv gen_cfg) (data_init s main_suspended) (core_events sch)
     + mu gen_cfg (s_core (run_data s main_suspended others sch))
     <= mu gen_cfg (data_init s main_suspended))%nat.
Proof. exact data_bounded. Qed.

(* ... so the process is gone after fewer than [data_mu_cap] = 64 state-changing steps of the
   failing thread and the main thread *)
Theorem C07_data_error_terminates_within :
  forall s main_suspended others sch, In s data_sites ->
    k_res (s_core (run_data s main_suspended others sch)) = None ->
    (own_effective gen_cfg (data_fenv gen_cfg) (data_init s main_suspended) (core_events sch) < data_mu_cap)%nat.
Proof. exact data_terminates_within. Qed.

(* Success is never signalled nor reported: SIGUSR2 is never raised, halt() never returns
   normally, the failing thread never goes back to work, and the exit status is neither
   EX_OK = 0 nor EX_WARN = 4 *)
Theorem C07_data_error_never_success :
  forall s main_suspended others sch, In s data_sites ->
    k_completed (s_core (run_data s main_suspended others sch)) = false
    /\ k_m (s_core (run_data s main_suspended others sch)) <> MReturned
    /\ k_f (s_core (run_data s main_suspended others sch)) <> FLive
    /\ k_res (s_core (run_data s main_suspended others sch)) <> Some (Exited EX_OK)
    /\ k_res (s_core (run_data s main_suspended others sch)) <> Some (Exited (final_status true)).
Proof. exact data_no_success. Qed.

(* Warnings.  What the code does: NOTHING in the decompression code warns.  Every data-error
   site is a bail-out, no warn*() function is called in expand.c / parse.c / decode.c /
   process.c, hence `warned` (main(): _exit(warned ? EX_WARN : EX_OK)) is never set by the
   pipeline and exit status 4 cannot come from damaged or trailing data.  Trailing garbage after
   a complete stream is accepted SILENTLY (parse() returns FINISH; codec level: C06 / C15parse);
   there is no "trailing garbage ignored" warning in this version of the source. *)
Theorem C07_no_warning_while_decompressing :
  (forall s, In s data_sites -> ds_bail s = true /\ ds_warn s = false)
  /\ (forall f g fn, In (f, g, fn) decomp_log_calls -> is_warn_fn fn = false)
  /\ final_status false = EX_OK /\ final_status true = EX_WARN /\ EX_WARN <> EX_FAIL.
Proof. exact data_no_warning. Qed.

(* Every error the codec model can report has its call site, and the text printed there is the
   site's format filled with the codec-level diagnostic [message e] of Dec/ErrMap.v
   ("not a valid bzip2 file" itself for the main-thread site of work()). *)
Theorem C07_codec_error_has_site :
  forall e, e <> ErrFuel -> e <> ErrTable ->
    exists s em t, site_for e = Some s /\ In s data_sites /\ on_main s = is_notbz e
      /\ message e = Some em /\ em <> ""%string
      /\ text_for s e = Some t /\ t <> ""%string
      /\ t = (if is_notbz e then em else fill (ds_fmt s) [em]).
Proof. exact codec_link. Qed.

(* Composition with the codec-level theorem C07_invalid_is_rejected: a file the strict reference
   rejects has a genuine verdict e of the decoder model; the site for e exists, and every run
   of the process from that site ends, if it ends, with exit status 1 after printing the
   diagnostic.  NOT proved: that the process reaches this site on this file (tested link). *)
Theorem C07_rejected_file_exits_1 :
  forall file, (forall o, ref_decode file <> Ok o) ->
    exists e, lbz_decode file = Err e /\ e <> ErrFuel /\
      (e <> ErrTable ->
       exists s em t,
         site_for e = Some s /\ In s data_sites /\ on_main s = is_notbz e
         /\ message e = Some em /\ em <> ""%string
         /\ text_for s e = Some t /\ t <> ""%string
         /\ t = (if is_notbz e then em else fill (ds_fmt s) [em])
         /\ forall main_suspended others sch o,
              k_res (s_core (run_data s main_suspended others sch)) = Some o ->
              o = Exited 1 /\ k_printed (s_core (run_data s main_suspended others sch)) = 1).
Proof. exact rejected_file_exits_1. Qed.

(* The static facts about the regenerated tables the model relies on: every site is a
   failf()-like call whose errno argument is the literal 0 (the EPIPE/EFBIG silence rule does not
   apply: def_log_cond true 0 = true), executed by the main thread or by a worker task at a
   point where, replaying the lock operations that precede the call in source order, the
   scheduler lock is held; tasks run between xlock() and the first xunlock()/xwait()
   of worker_thread_proc(); bailout() and halt() print nothing; the main thread calls cleanup()
   (removal of the output file) before _exit(); handlers are installed before work(). *)
Theorem C07_data_structure : data_structure_ok = true.
Proof. exact data_structure_ok_true. Qed.

Definition site_nth (i : nat) : data_site :=
  nth i data_sites (mk_data_site "" "" "" ThSink [] false false false false "" ArgNone [] []).

(* do_reorder() reports a block CRC mismatch on a worker thread while three other threads
   change state and the main thread is not yet suspended: exit status 1, one diagnostic *)
Example C07_example_worker_blkcrc :
  let s := site_nth 2 in
  let st := run_data s false [ORunning; OBlockedCond; OBlockedIO]
              ([EvCore EvF; EvOther 0 OBlockedCond; EvCore EvF; EvCore EvF; EvCore EvMain; EvOther 2 OExited;
                EvCore EvF; EvCore EvF; EvCore EvOthersDone; EvCore EvComplete]
               ++ repeat (EvCore EvF) 12 ++ repeat (EvCore EvMain) 24) in
  In s data_sites /\ ds_func s = "do_reorder"%string /\ site_admits s E_ERR_BLKCRC = true
  /\ k_res (s_core st) = Some (Exited 1) /\ k_printed (s_core st) = 1
  /\ s_others st = [OBlockedCond; OBlockedCond; OExited]
  /\ site_message s E_ERR_BLKCRC = Some "compressed data error: block CRC mismatch"%string.
Proof. vm_compute. repeat split. right; right; left; reflexivity. Qed.

(* work() rejects a file without bzip2 magic on the main thread *)
Example C07_example_not_bzip2 :
  let s := site_nth 3 in
  let st := run_data s false [] (repeat (EvCore EvMain) 24) in
  In s data_sites /\ on_main s = true
  /\ k_res (s_core st) = Some (Exited 1) /\ k_printed (s_core st) = 1
  /\ render_line "lbzip2" "" "stdin" s 0
     = Some ("lbzip2: stdin: not a valid bzip2 file" ++ newline)%string.
Proof. vm_compute. repeat split. right; right; right; left; reflexivity. Qed.

(* the truncated-file site of do_parse() reports ERR_EOF only *)
Example C07_example_eof_site :
  let s := site_nth 0 in
  site_admits s E_ERR_EOF = true /\ site_admits s E_ERR_HEADER = false
  /\ render_line "lbzip2" """" "x.bz2" s E_ERR_EOF
     = Some ("lbzip2: ""x.bz2"": compressed data error: unexpected end of file" ++ newline)%string.
Proof. vm_compute. repeat split. Qed.

(* a warn()-like call would not be fatal: the caller prints, unlocks stderr and goes on; the
   pipeline can then complete normally *)
Example C07_warn_call_would_not_be_fatal :
  let e := data_fenv gen_cfg in
  let k := run_core gen_cfg e (data_init_core false warn_ops false) (repeat EvF 10) in
  k_res k = None /\ k_f k = FLive /\ k_printed k = 1 /\ k_lock k = None
  /\ k_res (run_core gen_cfg e k [EvMain; EvOthersDone; EvFDone; EvComplete; EvMain; EvMain])
     = Some (Exited EX_OK).
Proof. exact warn_call_not_fatal. Qed.

(* the finite check is not vacuous: it rejects broken variants *)
Example C07_checker_rejects_warning_site :
  dcheck gen_cfg (data_fenv gen_cfg) (data_init (worker_site_with warn_ops) false) = false.
Proof. exact warn_site_rejected. Qed.

Example C07_checker_rejects_missing_bailout :
  let c := with_bail_tail gen_cfg [OpUnlockStderr; OpReturn] in
  dcheck c (data_fenv c) (data_init (worker_site_with [OpFail true false]) false) = false.
Proof. exact return_after_log_rejected_data. Qed.

Example C07_checker_rejects_exit_status_0 :
  let c := with_bail_main gen_cfg [OpCleanup; OpUnblock blocked_signals; OpExit 0] in
  dcheck c (data_fenv c) (data_init (worker_site_with [OpFail true false]) true) = false.
Proof. exact exit0_rejected. Qed.
