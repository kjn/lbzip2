(* C01/C02 with EVERYTHING but the BWT primary index computed: encode() itself is modelled.
   Properties_C02gen(_total) compute the prefix tables and the selectors with the model of generate_prefix_code();
   tree_pad (w_pad <= 3) and the surplus selector are free choices there.  Here Enc/EncodeModel.v models encode()
   of src/encode.c from the MTF stage on: the cost arithmetic in uint32_t (header 123 bits + the value RETURNED by
   generate_prefix_code() + selector MTF costs + padding + character map), the packed 32-bit selector MTF
   (p = 0x543210, xor/add/and/ctz), j = (8 - (cost & 7)) & 7, tree_pad = j >> 1, surplus selector j & 1,
   out_expect_len = cost >> 3, with every assert() of encode() and the selectorMTF[] bound as error values.
   Tied to the C by checks/encode_part.py: the extracted model run on (block, real BWT index) must reproduce tree_pad,
   num_selectors, selectorMTF[], out_expect_len and the complete BYTES of the block written by the real transmit().

   What the theorems say (Enc/EncodePmCost.v, EncodeGenCost.v, EncodeSelMtf.v, EncodeLayout.v, EncodeProofs.v):
   - the value returned by assign_codes() is exactly 5 + as + 2 sum|delta| + sum freq * length of the FINAL lengths;
   - the value returned by generate_prefix_code() is exactly the number of bits transmit() spends on the tables
     (without tree_pad) and on the prefix codes; the first selector is tree 0;
   - the packed selector MTF computes move-to-front positions (all 720 x 6 states);
   - on every valid block the model of encode() returns no error value, tree_pad <= 3, and the bit length of
     write_block on the computed witness EQUALS the cost encode() computed, which is 8 * out_expect_len:
     every block ends on a byte boundary, transmit()'s final asserts hold, the stream needs no padding;
   - every value of `a` that transmit() sends / steps through for a table stays within 1..20 (tree_pad rule a < 4);
   - C01 round trip + C02 strictness for streams written with computed tables, selectors, tree_pad, surplus selector.
   What REMAINS witness: the BWT primary index (divbwt.c), constrained by valid_idxb. *)
From Coq Require Import List NArith Arith Bool Lia.
From LBZ Require Rle.RleModel.
From LBZ Require Import Common.Bits Gen.Consts Dec.Prog Dec.Format Dec.Policies Dec.CrcProofs
  Enc.EncModel Enc.PmModel Enc.PmReal Enc.PmProofs Enc.PmCost Enc.GenModel Enc.GenProofs Enc.GenCompose
  Enc.EncodeModel Enc.EncodePmCost Enc.EncodeGenCost Enc.EncodeSelMtf Enc.EncodeLayout Enc.EncodeProofs.
Import ListNotations.
Local Open Scope N_scope.

(* the value returned by assign_codes(): cost of the table + cost of the symbols, over the final lengths, no wrap *)
Theorem C02enc_assign_codes_cost :
  forall f len0 r, pm_input_ok f -> (3 <= length f)%nat -> length len0 = length f ->
    assign_lengths len0 f = Ok r ->
    r_cost r = dot f (r_lengths r) + tree_cost (r_lengths r) /\ r_cost r <= 20 * lsum f + 10583.
Proof. exact assign_lengths_cost. Qed.

(* the value returned by generate_prefix_code(): bits of all transmitted tables + bits of all prefix codes *)
Theorem C02enc_generate_prefix_code_cost :
  forall cf mtfv r, 1 <= cf -> gen_input_ok mtfv -> 3 <= last mtfv 0 + 1 ->
    gen_prefix_code cf mtfv = GOk r ->
    g_cost r = lsum (map tree_cost (g_tables r)) + gbits (tab_of (g_tables r)) (g_sels r) mtfv /\
    g_cost r < 2 ^ 27 /\
    hd 1 (g_sels r) = 0 /\ g_sels_old r <> [] /\ Forall (fun t => t < MAX_TREES) (g_sels_old r).
Proof. exact gen_cost. Qed.

(* the packed selector MTF of encode() = move-to-front positions over [0..5] *)
Theorem C02enc_selector_mtf :
  forall nt sels cost, nt <= 6 -> Forall (fun c => c < nt) sels ->
    sel_mtf_loop nt sels SEL_MTF_INIT cost =
      EOk (mtf_encode_sels [0; 1; 2; 3; 4; 5] sels, selcost (mtf_encode_sels [0; 1; 2; 3; 4; 5] sels) cost) /\
    Forall (fun j => j <= 5) (mtf_encode_sels [0; 1; 2; 3; 4; 5] sels).
Proof. exact sel_mtf_loop_init. Qed.

Theorem C02enc_block_length :
  forall w, w_tables w <> [] -> Forall (fun lens => lens <> []) (w_tables w) ->
    (4 <= hd 0 (hd [] (w_tables w)) -> w_pad w <= hd 0 (hd [] (w_tables w))) ->
    N.of_nat (length (write_block w)) =
      HEADER_COST + (16 + 16 * used_ranges (used_bytes (bwt_last (w_blk w)))) +
      (lsum (mtf_encode_sels sel_order0 (w_sels w)) + N.of_nat (length (w_sels w))) + (if w_extra_sel w then 1 else 0) +
      2 * w_pad w + lsum (map tree_cost (w_tables w)) + gbits (tab_of (w_tables w)) (w_sels w) (block_syms w).
Proof. exact write_block_length_eq. Qed.

(* encode() never errs on a valid block; tree_pad <= 3; the bits written = the cost computed = 8 * out_expect_len *)
Theorem C02enc_encode_total :
  forall cf blk idx crc, 1 <= cf -> block_ok blk ->
    exists r, encode_block_full cf blk idx crc = EOk r /\ encode_facts cf blk idx crc r.
Proof. exact encode_block_full_ok. Qed.

Theorem C02enc_byte_aligned :
  forall cf blk idx crc, 1 <= cf -> block_ok blk ->
    exists r, encode_block_full cf blk idx crc = EOk r /\
      N.of_nat (length (write_block (e_wit r))) = 8 * e_expect_len r /\
      N.of_nat (length (write_block (e_wit r))) = e_cost_bits r /\
      (length (write_block (e_wit r)) mod 8 = 0)%nat.
Proof. exact encode_block_aligned. Qed.

(* the computed witness is the one of Properties_C02gen with the computed padding choices, and it is acceptable *)
Theorem C02enc_block_witness :
  forall cf blk idx crc, 1 <= cf -> block_ok blk ->
    exists w, encode_block cf blk idx crc = EOk w /\
      w_pad w <= 3 /\ w_blk w = blk /\ w_idx w = idx /\ w_crc w = crc /\
      gen_witness make_code_lengths cf blk idx (w_extra_sel w) (w_pad w) crc = GOk w.
Proof. exact encode_block_ok. Qed.

Theorem C02enc_witness_ok :
  forall cf M blk idx crc, 1 <= cf -> M <= MAX_BLOCK_SIZE ->
    blk <> [] -> N.of_nat (length blk) <= M -> Forall (fun c => c < 256) blk ->
    valid_idxb blk idx = true -> crc < 2 ^ 32 ->
    exists w, encode_block cf blk idx crc = EOk w /\ witness_ok M w = true /\ w_blk w = blk /\ w_crc w = crc.
Proof. exact encode_block_witness_ok. Qed.

(* the 5-bit start value and every delta step of a table stay within 1..20 *)
Theorem C02enc_table_walk :
  forall pad lens, pad <= 3 -> lens <> [] -> Forall (fun l => 1 <= l <= 20) lens ->
    Forall (fun a => 1 <= a <= 20) (table_walk pad lens).
Proof. exact table_walk_range. Qed.

(* table_walk lists exactly the values behind the bits of write_table: start value, one entry per 2-bit delta code *)
Theorem C02enc_walk_bits :
  forall pad lens,
    write_table pad lens = put 5 (table_start pad lens) ++ write_deltas (table_start pad lens) lens /\
    length (write_deltas (table_start pad lens) lens) =
      (2 * length (delta_walk (table_start pad lens) lens) + length lens)%nat.
Proof. exact write_table_walk. Qed.

Theorem C02enc_block_walks :
  forall cf blk idx crc, 1 <= cf -> block_ok blk ->
    exists w, encode_block cf blk idx crc = EOk w /\
      forall i lens, nth_error (w_tables w) i = Some lens ->
        Forall (fun a => 1 <= a <= 20) (table_walk (if (i =? 0)%nat then w_pad w else 0) lens).
Proof. exact encode_block_walks. Qed.

(* C01_roundtrip / C02_stream_strict with tables, selectors, tree_pad and surplus selector all COMPUTED: the
   input is cut into non-empty blocks within the block size of the level; for every choice of valid BWT primary
   indices the encoder model yields the witnesses, every block is a whole number of bytes (the stream needs no
   padding), and the stream decodes to the input with lbzip2's decoder model, the strict reference format and the
   reference format. *)
Theorem C02enc_stream_total :
  forall cf level (xs : list (list N)) (idxs : list N),
    1 <= cf -> 1 <= level <= 9 -> Forall2 (enc_input_ok level) xs idxs ->
    exists ws,
      Forall2 (encoded cf) (combine xs idxs) ws /\
      Forall (fun w => w_pad w <= 3 /\ (length (write_block w) mod 8 = 0)%nat) ws /\
      pad_to_byte (write_stream level ws) = write_stream level ws /\
      lbz_decode (bytes_of_bits (write_stream level ws)) = Prog.Ok (concat xs) /\
      ref_noexc_decode (bytes_of_bits (write_stream level ws)) = Prog.Ok (concat xs) /\
      ref_decode (bytes_of_bits (write_stream level ws)) = Prog.Ok (concat xs).
Proof. exact enc_stream_total. Qed.

(* "banana": 1 group, one tree used + the dummy tree; generate_prefix_code() returns 42; 123 + 42 + 1 (selector) = 166,
   j = 2: tree_pad = 1, no surplus selector; + 32 bits of character map: 200 bits = 25 bytes *)
Definition ex_banana : list N := [98; 97; 110; 97; 110; 97].

Example C02enc_example_block :
  block_ok ex_banana /\
  match encode_block_full CLUSTER_FACTOR ex_banana 3 (block_crc ex_banana) with
  | EOk r => e_wit r = {| w_blk := ex_banana; w_idx := 3; w_tables := [[3; 3; 3; 1; 3]; [2; 2; 2; 3; 3]]; w_sels := [0];
                          w_extra_sel := false; w_pad := 1; w_crc := block_crc ex_banana |} /\
             g_cost (e_gen r) = 42 /\ e_selmtf r = [0] /\ e_nsel r = 1 /\ e_cost_bits r = 200 /\ e_expect_len r = 25 /\
             length (write_block (e_wit r)) = 200%nat /\
             table_walk (w_pad (e_wit r)) [3; 3; 3; 1; 3] = [4; 3; 2; 1; 2; 3]
  | EErr _ => False
  end.
Proof.
  split; [split; [discriminate|split; [vm_compute; discriminate|repeat constructor]]|].
  vm_compute. repeat split; reflexivity.
Qed.

(* a block whose padding needs the surplus selector (j = 3: tree_pad = 1 and one dummy selector); the first table
   starts with length 4, so the start value is 4 - tree_pad *)
Example C02enc_example_surplus_selector :
  match encode_block_full CLUSTER_FACTOR [1; 2; 3; 4] 0 0 with
  | EOk r => w_tables (e_wit r) = [[4; 4; 2; 2; 2; 3]; [2; 2; 3; 3; 3; 3]] /\ w_sels (e_wit r) = [0] /\
             w_pad (e_wit r) = 1 /\ w_extra_sel (e_wit r) = true /\ e_nsel r = 2 /\ e_selmtf r = [0; 0] /\
             g_cost (e_gen r) = 41 /\ e_cost_bits r = 200 /\ e_expect_len r = 25 /\
             length (write_block (e_wit r)) = 200%nat /\
             table_walk (w_pad (e_wit r)) [4; 4; 2; 2; 2; 3] = [3; 4; 3; 2; 3]
  | EErr _ => False
  end.
Proof. vm_compute. repeat split; reflexivity. Qed.

Example C02enc_example_stream :
  enc_input_ok 1 ex_banana 3 /\
  lbz_decode (bytes_of_bits (write_stream 1
    [{| w_blk := ex_banana; w_idx := 3; w_tables := [[3; 3; 3; 1; 3]; [2; 2; 2; 3; 3]]; w_sels := [0];
        w_extra_sel := false; w_pad := 1; w_crc := block_crc ex_banana |}]))
  = Prog.Ok ex_banana.
Proof.
  assert (I : enc_input_ok 1 ex_banana 3).
  { split; [repeat constructor|]. split; [discriminate|]. split; [vm_compute; discriminate|vm_compute; reflexivity]. }
  split; [exact I|].
  destruct (C02enc_stream_total CLUSTER_FACTOR 1 [ex_banana] [3] ltac:(vm_compute; discriminate) ltac:(lia)
              ltac:(constructor; [exact I|constructor])) as [ws [F [_ [_ [D _]]]]].
  cbn [combine] in F. inversion F as [|? w ? ws' Hw Hr]; subst. inversion Hr; subst.
  unfold encoded, encode_block in Hw. cbn [fst snd] in Hw.
  assert (E : w = {| w_blk := ex_banana; w_idx := 3; w_tables := [[3; 3; 3; 1; 3]; [2; 2; 2; 3; 3]]; w_sels := [0];
                     w_extra_sel := false; w_pad := 1; w_crc := block_crc ex_banana |}).
  { vm_compute in Hw. inversion Hw. reflexivity. }
  subst w. cbn [concat app] in D. rewrite app_nil_r in D. exact D.
Qed.

Print Assumptions C02enc_assign_codes_cost.
Print Assumptions C02enc_generate_prefix_code_cost.
Print Assumptions C02enc_encode_total.
Print Assumptions C02enc_block_walks.
Print Assumptions C02enc_stream_total.
