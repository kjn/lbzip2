(* C20 - "In every block lbzip2 writes, each prefix table used by at least one group gives the smallest
   possible total coded length for the symbols coded with it, among all complete prefix codes no longer
   than that table's longest code.  No code is longer than 20 bits."

   Theorems about the executable model Enc/PmModel.v of sort_alphabet() / package_merge() / assign_codes()
   of src/encode.c (tied to the C by checks/pm_part.py: real functions vs extracted model on leaf_weight[],
   the whole tree[21][21], length[] and the returned cost).

   Input condition [pm_input_ok f]: 2 <= as <= MAX_ALPHA_SIZE, every frequency < 2^32 and
   MAX_ALPHA_SIZE * sum f < 2^32.  lbzip2 only calls assign_codes with sum f <= number of MTF symbols of a
   block (<= 900001 + a few), far below 2^32 / 258 = 16 647 160.  The bound cannot be dropped to
   "sum f < 2^32": see C20pm_sum_below_2p32_refuted (the 32-bit frequency field of a package weight wraps;
   the real assign_codes then fails its assert(leaf < as)).

   What the theorems do NOT cover: (1) that the vector frequency[t] which generate_prefix_code() hands to
   assign_codes() for a used table t is the vector of counts of the symbols in the groups whose selector is t
   (last E step; every used table is produced by that assign_codes call, make_code_lengths() only serves the
   EM iterations) - this is the witness/correspondence part of checks/c20.py; (2) the canonical code
   assignment code[] (modelled in Enc/EncModel.v, decodability in Properties_C20.v). *)
From Coq Require Import List NArith Arith Bool Lia.
From LBZ Require Import Gen.Consts Dec.Format Enc.EncModel Enc.PmModel Enc.PmReal Enc.PmProofs Enc.PmOptimal.
Import ListNotations.
Local Open Scope N_scope.

(* L1 + L2: the model never returns an error value (no out-of-bounds access to leaf_weight[0..as],
   tree[0..20][0..20], pkg/prev/curr_weight[0..20], count[], length[0..as-1]; no unsigned wrap in
   as - tree[d][0], tree[h][d-1] - tree[h][d], MAX_ALPHA_SIZE - (w & 0xFFFF); both assert()s hold; the
   binary fuel 2^22 per value of width suffices) and the lengths form a complete prefix code with all
   lengths in 1 .. chosen height <= 20. *)
Theorem C20pm_safe_and_complete :
  forall f, pm_input_ok f ->
    exists r, pm_lengths_res f = Ok r /\
      table_ok (length f) (r_lengths r) = true /\
      (1 <= r_height r)%nat /\ (r_height r <= 20)%nat /\
      Forall (fun l => 1 <= l <= N.of_nat (r_height r)) (r_lengths r).
Proof. exact pm_lengths_complete. Qed.

(* L3, the C20 theorem for the model: the computed table is a complete prefix code of depth <= 20 and no
   length vector of the same size with lengths between 1 and the table's longest code and Kraft sum <= 1
   (in particular no complete prefix code) has a smaller total coded length sum f_i * len_i. *)
Theorem C20pm_optimal :
  forall f, pm_input_ok f ->
    exists lens, pm_lengths f = Some lens /\
      table_ok (length f) lens = true /\
      forall lens', length lens' = length f ->
        Forall (fun l => 1 <= l <= max_len lens) lens' ->
        kraft lens' <= kraft_full ->
        pm_cost f lens <= pm_cost f lens'.
Proof. exact pm_lengths_correct. Qed.

(* the same whatever length[0..as-1] contains on entry (the only state the model abstracts) *)
Theorem C20pm_optimal_any_initial_lengths :
  forall f len0, pm_input_ok f -> length len0 = length f ->
    exists r, assign_lengths len0 f = Ok r /\
      table_ok (length f) (r_lengths r) = true /\
      forall lens', length lens' = length f ->
        Forall (fun l => 1 <= l <= max_len (r_lengths r)) lens' ->
        kraft lens' <= kraft_full ->
        pm_cost f (r_lengths r) <= pm_cost f lens'.
Proof. exact assign_lengths_correct. Qed.

(* the explicit stack count[] of package_merge: MAX_CODE_LENGTH + 1 = 21 entries are enough (the loop run
   on a bounds-checked 21-entry array succeeds), i.e. next_depth stays <= 20 *)
Theorem C20pm_stack_depth :
  forall f c, pm_input_ok f -> length c = S MCL ->
    exists s0 s' c', pm_init (make_leaf_weight f) (length f) zero_tree = Ok s0 /\
      pm_widths (length f - 2) (make_leaf_weight f) (N.of_nat (length f)) (set_cnt s0 c) = Ok (set_cnt s' c') /\
      length c' = S MCL.
Proof. exact pm_stack_bound. Qed.

Theorem C20pm_sum_below_2p32_refuted :
  exists f, (2 <= length f)%nat /\ (length f <= N.to_nat MAX_ALPHA_SIZE)%nat /\
            Forall (fun x => x < 2 ^ 32) f /\ lsum f < 2 ^ 32 /\ pm_lengths f = None.
Proof. exact pm_sum_limit_needed. Qed.

(* 1, 2, 4, ..., 2^22: the unrestricted Huffman code would be 22 bits deep, the 20-bit limit binds *)
Definition pow2_23 : list N :=
  [1; 2; 4; 8; 16; 32; 64; 128; 256; 512; 1024; 2048; 4096; 8192; 16384; 32768; 65536; 131072; 262144; 524288;
   1048576; 2097152; 4194304].

Example C20pm_example_limit_binds :
  pm_input_ok pow2_23 /\
  pm_lengths pow2_23 = Some [20; 20; 20; 20; 19; 19; 17; 16; 15; 14; 13; 12; 11; 10; 9; 8; 7; 6; 5; 4; 3; 2; 1] /\
  max_len [20; 20; 20; 20; 19; 19; 17; 16; 15; 14; 13; 12; 11; 10; 9; 8; 7; 6; 5; 4; 3; 2; 1] = 20.
Proof.
  split; [|split; vm_compute; reflexivity].
  unfold pm_input_ok. split; [cbn; lia|]. split; [vm_compute; lia|]. split; [|vm_compute; reflexivity].
  repeat constructor; vm_compute; reflexivity.
Qed.

(* zero frequencies and ties; a competitor of the same depth that is complete but more expensive *)
Example C20pm_example_small :
  pm_input_ok [5; 0; 0; 9; 1; 1; 7] /\
  pm_lengths [5; 0; 0; 9; 1; 1; 7] = Some [3; 3; 3; 2; 3; 3; 3] /\
  kraft [3; 3; 3; 3; 2; 3; 3] = kraft_full /\
  pm_cost [5; 0; 0; 9; 1; 1; 7] [3; 3; 3; 2; 3; 3; 3] = 60 /\
  pm_cost [5; 0; 0; 9; 1; 1; 7] [3; 3; 3; 3; 2; 3; 3] = 68.
Proof.
  split; [|repeat split; vm_compute; reflexivity].
  unfold pm_input_ok. split; [cbn; lia|]. split; [vm_compute; lia|]. split; [|vm_compute; reflexivity].
  repeat constructor; vm_compute; reflexivity.
Qed.

Example C20pm_example_stack : length (repeat 0 (S MCL)) = S MCL /\ S MCL = 21%nat.
Proof. split; reflexivity. Qed.
