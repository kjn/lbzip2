(* C01/C02 without a witness for tables and selectors.
   Properties_C01/C02 are stated for a WITNESS-based encoder model: the prefix tables, the selectors and the
   number of tables chosen by the heuristics of generate_prefix_code() (src/encode.c) are arbitrary values
   constrained by EncModel.witness_ok, which the correspondence evaluates on the real encoder state.  Here the
   heuristic itself is modelled (Enc/GenModel.v: number of trees from nm, dummy completion of the last group,
   generate_initial_trees(), the EM iterations with len_pack / find_best_tree() / frequency counting /
   make_code_lengths(), tree reordering with tmap_old2new / tmap_new2old and assign_codes() per first-seen tree
   (Enc/PmModel.v, C20pm), the dummy second tree with the cl0 bit trick; tied to the C by checks/gen_part.py:
   real function vs extracted model on num_trees, selectors in both numberings, tmap_new2old, every transmitted
   table and the returned cost) and the table/selector conjuncts of witness_ok are THEOREMS about that model.

   Conjuncts of witness_ok discharged here: 2 <= number of tables <= 6; every transmitted table is table_ok
   (as entries, lengths 1..20, Kraft sum exactly 1); number of selectors = ceil(nm / 50); every selector (after
   tmap_old2new) < number of tables; ngroups + surplus selector <= 18002.  Discharged from the block itself:
   block non-empty, <= M, bytes < 256, crc < 2^32.
   What remains witness in this file: the BWT primary index (divbwt.c; valid_idxb), tree_pad <= 3 and the
   surplus selector chosen by encode() from the returned cost (c_pad, c_extra; both computed in
   Properties_C02enc.v) - and that the model of make_code_lengths() returned no error value on the frequency
   vectors of the EM iterations (C02gen_tables_selectors holds for EVERY function in its place; that the exact
   model cannot fail on these inputs - Huffman depth <= 30 for sums <= 900050, queue discipline of build_tree -
   is Properties_C02gen_total.v: C02gen_make_code_lengths_total, C02gen_unconditional, C02gen_stream_total). *)
From Coq Require Import List NArith Arith Bool Lia.
From LBZ Require Rle.RleModel.
From LBZ Require Import Common.Bits Gen.Consts Dec.Prog Dec.Format Dec.Policies Dec.CrcProofs
  Enc.EncModel Enc.PmModel Enc.GenModel Enc.GenEm Enc.GenReorder Enc.GenProofs Enc.GenMcl Enc.GenCompose.
Import ListNotations.
Local Open Scope N_scope.

(* For every symbol vector generate_prefix_code() can be
   called on (2 <= nm <= MAX_BLOCK_SIZE + GROUP_SIZE symbols, all < as = last + 1, 2 <= as <= 258), every
   cluster_factor >= 1 (encoder_init asserts 0 < cluster_factor) and every function [mcl] in the place of
   make_code_lengths() that keeps the row length and returns only its own error values: the model returns
   either such an error value of [mcl], or - never any other error value, i.e. no out-of-bounds access to
   code[0], length[][], frequency[][], len_pack[], selector[], tmap_old2new[], tmap_new2old[], no read of a
   tmap_old2new entry that was not written, no failing assert() of generate_prefix_code /
   generate_initial_trees / assign_codes (cum == nm, nm > 0, as >= nt, a < b, cum > 0, cum <= nm, as >= nt-1,
   as == 0, nm == 0, t < nt, sp - selector == num_selectors, nt >= 1, leaf < as, next_code, leaf == as) - a
   result with the properties gen_result_ok. *)
Theorem C02gen_tables_selectors :
  forall mcl cf mtfv,
    mcl_wf is_mcl_err mcl -> 1 <= cf -> gen_input_ok mtfv ->
    match gen_prefix_code_with mcl cf mtfv with
    | GOk r => gen_result_ok mtfv r
    | GErr e => exists m, e = GMcl m
    end.
Proof. exact gen_witness_ok. Qed.

Theorem C02gen_tables_selectors_total :
  forall mcl cf mtfv,
    (forall old f, exists l, mcl old f = GOk l /\ length l = length old) ->
    1 <= cf -> gen_input_ok mtfv ->
    exists r, gen_prefix_code_with mcl cf mtfv = GOk r /\ gen_result_ok mtfv r.
Proof. exact gen_witness_ok_total. Qed.

Theorem C02gen_make_code_lengths_admissible : mcl_wf is_mcl_err make_code_lengths.
Proof. exact make_code_lengths_wf. Qed.

(* the dummy second tree: the bit trick computes floor(log2(as)), the loop bound (2 << cl0) - as stays inside
   the row, and (2 << cl0) - as codes of cl0 bits followed by codes of cl0 + 1 bits form a complete code *)
Theorem C02gen_dummy_tree :
  forall a, (2 <= a <= 258)%nat ->
    cl0_of (N.of_nat a) = N.log2 (N.of_nat a) /\ dummy_count (N.of_nat a) <= N.of_nat a /\
    table_ok a (dummy_row a) = true.
Proof. exact dummy_fact. Qed.

Theorem C02gen_witness_ok :
  forall E mcl cf M blk idx extra pad crc w,
    mcl_wf E mcl -> 1 <= cf -> M <= MAX_BLOCK_SIZE ->
    blk <> [] -> N.of_nat (length blk) <= M -> Forall (fun c => c < 256) blk ->
    valid_idxb blk idx = true -> pad <= 3 -> crc < 2 ^ 32 ->
    gen_witness mcl cf blk idx extra pad crc = GOk w ->
    witness_ok M w = true /\ w_blk w = blk /\ w_crc w = crc.
Proof. exact gen_witness_is_ok. Qed.

(* C01_roundtrip / C02_stream_strict with computed tables and selectors: the input is cut into non-empty
   blocks x_1..x_k, block i is written with the tables/selectors the model of generate_prefix_code() computes
   on the symbols of rle1 x_i, a valid BWT index and any padding choice; the stream decodes to x_1 ++ .. ++ x_k
   with lbzip2's decoder model, the strict reference format and the reference format. *)
Theorem C02gen_stream_strict :
  forall cf level (xs : list (list N)) (cs : list choice) (ws : list witness),
    1 <= cf -> 1 <= level <= 9 -> length cs = length xs ->
    Forall2 (fun xc w => computed_block make_code_lengths cf level (fst xc) (snd xc) w) (combine xs cs) ws ->
    lbz_decode (bytes_of_bits (pad_to_byte (write_stream level ws))) = Prog.Ok (concat xs) /\
    ref_noexc_decode (bytes_of_bits (pad_to_byte (write_stream level ws))) = Prog.Ok (concat xs) /\
    ref_decode (bytes_of_bits (pad_to_byte (write_stream level ws))) = Prog.Ok (concat xs).
Proof. exact gen_stream_roundtrip_real. Qed.

Theorem C02gen_stream_strict_any_mcl :
  forall mcl cf level (xs : list (list N)) (cs : list choice) (ws : list witness),
    mcl_wf is_mcl_err mcl -> 1 <= cf -> 1 <= level <= 9 -> length cs = length xs ->
    Forall2 (fun xc w => computed_block mcl cf level (fst xc) (snd xc) w) (combine xs cs) ws ->
    lbz_decode (bytes_of_bits (pad_to_byte (write_stream level ws))) = Prog.Ok (concat xs) /\
    ref_noexc_decode (bytes_of_bits (pad_to_byte (write_stream level ws))) = Prog.Ok (concat xs) /\
    ref_decode (bytes_of_bits (pad_to_byte (write_stream level ws))) = Prog.Ok (concat xs).
Proof. exact gen_stream_roundtrip. Qed.

(* 208 symbols over an alphabet of 7: nt = 2 from the thresholds, two classes, both trees used *)
Definition ex_syms : list N := repeat 0 70 ++ repeat 1 30 ++ repeat 4 60 ++ repeat 5 45 ++ [2; 3; 6].

Example C02gen_example_two_trees :
  gen_input_ok ex_syms /\
  gen_prefix_code CLUSTER_FACTOR ex_syms =
    GOk {| g_num_trees := 2; g_sels_old := [0; 0; 1; 1; 1];
           g_o2n := [Some 0; Some 1; None; None; None; None]; g_n2o := [0; 1]; g_sels := [0; 0; 1; 1; 1];
           g_tables := [[1; 2; 4; 4; 4; 5; 5]; [5; 5; 4; 4; 1; 2; 4]]; g_cost := 338 |}.
Proof.
  split; [|vm_compute; reflexivity].
  unfold gen_input_ok. cbv zeta. split; [vm_compute; split; discriminate|]. split; [vm_compute; split; discriminate|].
  apply Forall_forall. intros s Hs.
  assert (C : forallb (fun s => s <? last ex_syms 0 + 1) ex_syms = true) by (vm_compute; reflexivity).
  rewrite forallb_forall in C. apply N.ltb_lt. apply C. exact Hs.
Qed.

(* "banana": one group, one tree used, the dummy second tree (as = 5: cl0 = 2, three codes of 2 bits, two of 3) *)
Definition ex_banana : list N := [98; 97; 110; 97; 110; 97].

Example C02gen_example_block :
  computed_block make_code_lengths CLUSTER_FACTOR 1 ex_banana {| c_idx := 3; c_extra := false; c_pad := 2 |}
    {| w_blk := ex_banana; w_idx := 3; w_tables := [[3; 3; 3; 1; 3]; [2; 2; 2; 3; 3]]; w_sels := [0];
       w_extra_sel := false; w_pad := 2; w_crc := N.lxor (crc_bytes mask32 ex_banana) mask32 |} /\
  blk_syms (RleModel.rle1 ex_banana) = [3; 0; 3; 3; 1; 4].
Proof.
  split; [|vm_compute; reflexivity].
  unfold computed_block. cbn [c_idx c_extra c_pad].
  split; [repeat constructor|]. split; [discriminate|]. split; [vm_compute; discriminate|].
  split; [vm_compute; reflexivity|]. split; [vm_compute; discriminate|]. vm_compute. reflexivity.
Qed.

Example C02gen_example_stream :
  lbz_decode (bytes_of_bits (pad_to_byte (write_stream 1
    [{| w_blk := ex_banana; w_idx := 3; w_tables := [[3; 3; 3; 1; 3]; [2; 2; 2; 3; 3]]; w_sels := [0];
        w_extra_sel := false; w_pad := 2; w_crc := N.lxor (crc_bytes mask32 ex_banana) mask32 |}])))
  = Prog.Ok ex_banana.
Proof.
  assert (F : Forall2 (fun xc w => computed_block make_code_lengths CLUSTER_FACTOR 1 (fst xc) (snd xc) w)
                (combine [ex_banana] [{| c_idx := 3; c_extra := false; c_pad := 2 |}])
                [{| w_blk := ex_banana; w_idx := 3; w_tables := [[3; 3; 3; 1; 3]; [2; 2; 2; 3; 3]]; w_sels := [0];
                    w_extra_sel := false; w_pad := 2; w_crc := N.lxor (crc_bytes mask32 ex_banana) mask32 |}]).
  { cbn [combine]. constructor; [cbn [fst snd]; exact (proj1 C02gen_example_block)|constructor]. }
  pose proof (C02gen_stream_strict CLUSTER_FACTOR 1 [ex_banana] [{| c_idx := 3; c_extra := false; c_pad := 2 |}]
                _ ltac:(vm_compute; discriminate) ltac:(lia) eq_refl F) as H.
  destruct H as [H _]. cbn [concat app] in H. rewrite app_nil_r in H. exact H.
Qed.
