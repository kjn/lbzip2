(* C13 - Peak memory is bounded by the worker count (compression scheduler).
   [mem s]: sum of the sizes of all heap objects that compress.c / process.c hold in
   model state s (input chunk buffers of in_granul bytes, struct in_blk, struct
   work_blk, encoders of encoder_alloc_size(bs100k*100000) bytes, output buffers,
   queue roots); sizes and slot formulas are regenerated from /repo/src.
   PARTIAL by design: resident set size also contains thread stacks, allocator
   slack, libc buffers and the binary - none is modelled; the bound OB on one
   output buffer is a hypothesis of C13_bound_partial (a codec property, which
   C13_output_buffer_bounded proves of the encode() model); the decompression
   scheduler is the SchedX area.  Only statements; proofs are [exact]. *)
From Coq Require Import List NArith Arith Bool Lia.
From LBZ Require Import SchedC.SchedCIface Gen.SchedCTab SchedC.Pool SchedC.SchedC SchedC.SchedCInv SchedC.SchedCMemDef SchedC.SchedCMem.
Import ListNotations.
Local Open Scope N_scope.

(* for every worker count, mode, level, input (any length, any content, any
   splitting into blocks) and interleaving: live heap <= B n level *)
Theorem C13_bound_partial :
  forall (Data Enc : Type) (data_len : Data -> N) (enc_empty : Enc) (collect : Enc -> Data -> Enc * Data * bool)
         (buf_size : Enc -> N) (OB : N),
    (forall e, buf_size e <= OB) ->
    forall n u level inp s, reachable data_len enc_empty collect n u level inp s ->
      @mem Data Enc buf_size s <= B OB n level.
Proof. exact c13_bound. Qed.

(* B is a fixed linear function of the number of workers; nothing in it mentions
   the input *)
Theorem C13_B_linear : forall (OB level : N), exists a b, forall n : nat, B OB n level = a * N.of_nat n + b.
Proof. exact B_linear. Qed.

(* non-vacuity: the bound for the default level and 4 workers, with a 1 MB bound
   on an output buffer, is about 36 MB *)
Example C13_example_value : B 1000000 4 9 = 36256500.
Proof. vm_compute. reflexivity. Qed.

(* The hypothesis OB of C13_bound_partial can be discharged for the buffers the compressor really
   allocates: do_transmit() allocates (size + 3) / 4 words where size is the value returned by encode(),
   i.e. out_expect_len; for the model of encode() (Enc/EncodeModel.v, tied to the C byte for byte) that
   value is below 2^25 for EVERY block, input and cluster factor - a fixed number that mentions neither
   the input length nor the ratio (the real maximum is about 1.1 MB; the theorem only needs a constant). *)
From LBZ Require Enc.EncModel Enc.EncodeModel Enc.EncodeProofs.

Theorem C13_output_buffer_bounded :
  forall cf blk idx crc, (1 <= cf)%N -> EncodeProofs.block_ok blk ->
    exists r, EncodeModel.encode_block_full cf blk idx crc = EncodeModel.EOk r /\ (EncodeModel.e_expect_len r < 2 ^ 25)%N.
Proof. exact EncodeProofs.encode_block_expect_len. Qed.
