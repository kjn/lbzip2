(* C05 - Decompression never accepts malformed data or emits wrong bytes.
   Statements only.  lbz_decode is the model of `lbzip2 -d` (Dec/Format.v with
   Dec/Policies.lbz_policy over the regenerated tables of src/decode.c);
   ref_decode is the strict bzip2 1.0.x format (every single code-length step in
   1..20, CRCs, declared block size, primary index inside the block, trailing
   data ignored only if it does not begin with a full BZh1..BZh9 header). *)
From Coq Require Import List NArith Arith Bool Lia.
From LBZ Require Import Common.Bits Dec.Prog Dec.Format Dec.Delta Dec.DeltaProofs Dec.Policies Dec.DecProofs.
Import ListNotations.
Local Open Scope N_scope.

Theorem C05_sound :
  forall file o, lbz_decode file = Ok o -> ref_decode file = Ok o.
Proof. exact lbz_sound. Qed.

(* the heart of it: on every bit string, whenever lbzip2's 6-bit table-driven
   delta reader (regenerated L[], R[], Rmin[], Rmax[] and range constants)
   yields a code length, the bit-by-bit reader that checks 1..20 after every
   single step yields the same length from the same bits *)
Theorem C05_delta_steps_checked :
  forall fuel cur bits v r, cur < 32 ->
    run (win_delta fuel cur) bits = Ok (v, r) -> run (strict_delta fuel cur) bits = Ok (v, r).
Proof. exact win_to_strict. Qed.

(* ... and that strict reader only ever returns lengths in MIN..MAX_CODE_LENGTH *)
Theorem C05_strict_lengths_in_range :
  forall fuel cur bits v r, run (strict_delta fuel cur) bits = Ok (v, r) ->
    in_len_range v = true.
Proof. exact strict_lengths_in_range. Qed.

(* the regenerated delta tables are prefix-consistent ("peek 6, consume L[k]" is a
   bit-by-bit reader) and the selector table is "position of the first zero bit" *)
Theorem C05_tables_consistent : tables_prefix_consistent = true /\ sel_table_ok = true.
Proof. exact (conj tables_prefix_consistent_true sel_table_ok_true). Qed.

(* non-vacuity: a real bzip2 -1 stream of "hello hello hello" is accepted *)
Example C05_accepts_real_stream :
  lbz_decode [66; 90; 104; 49; 49; 65; 89; 38; 83; 89; 158; 98; 91; 254; 0; 0; 2; 145; 0; 64; 0; 2; 68; 160; 0; 33; 20; 96; 102; 130; 145; 239; 35; 71; 11; 185; 34; 156; 40; 72; 79; 49; 45; 255; 0] = Ok [104; 101; 108; 108; 111; 32; 104; 101; 108; 108; 111; 32; 104; 101; 108; 108; 111].
Proof. vm_compute. reflexivity. Qed.

(* finding F1 (repaired in the source): a code length that leaves 1..20 and
   comes back, and a start value of 0, are rejected *)
Example C05_excursion_rejected : lbz_decode [66; 90; 104; 57; 49; 65; 89; 38; 83; 89; 169; 238; 48; 204; 0; 0; 0; 0; 2; 16; 0; 80; 0; 62; 19; 65; 52; 17; 132; 124; 10; 24; 187; 146; 41; 194; 132; 133; 79; 113; 134; 96] = Err ErrDelta.
Proof. vm_compute. reflexivity. Qed.
Example C05_start0_rejected : lbz_decode [66; 90; 104; 54; 49; 65; 89; 38; 83; 89; 26; 94; 132; 88; 0; 0; 8; 129; 0; 48; 0; 64; 0; 60; 9; 32; 42; 104; 62; 115; 182; 27; 119; 107; 162; 53; 152; 181; 184; 187; 146; 41; 194; 132; 128; 210; 244; 34; 192] = Err ErrDelta.
Proof. vm_compute. reflexivity. Qed.
