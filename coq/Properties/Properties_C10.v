(* C10 - Speculative block discovery never influences the output.
   Only statements; every Theorem is [exact <lemma>] (Examples: by computation).
   The guards, thresholds, task order and the booleans describing the re-enqueue
   sites of expand.c are regenerated (Gen/SchedXTab.v) on every run.  The
   statements are about [gen_cfg], i.e. about the source the values are regenerated from: the lemmas
   they are obtained from need `requeue_retr_checks_head = true` (and the two
   sibling tests), discharged by [reflexivity] on the regenerated values, so this
   file compiles only when the source has the tests (repair of finding F4; the violation on
   the source without them is exhibited in notes/XF4Refuted_before_fix.v). *)
From Coq Require Import List NArith Bool.
From LBZ Require Import Gen.Consts SchedX.XState Gen.SchedXTab SchedX.XSet SchedX.XModel SchedX.XInvDefs
  SchedX.XF4 SchedX.XOracle SchedX.XSeq SchedX.XC10 SchedX.XOwn SchedX.XC11b.
Import ListNotations.
Local Open Scope N_scope.

(* (I4) No bit stream is ever attached outside the live input: the asserts of
   can_attach()/attach() hold in every reachable state, for every worker count,
   slot configuration, input fragmentation, scanner behaviour and interleaving;
   queued retrieve and scan jobs never lie below head_offs. *)
Theorem C10_no_stale_attach :
  forall n tin tout ultra st, reach gen_cfg (init_state n tin tout ultra) st ->
    x_bad_attach st = false /\ retr_inv st = true /\
    Forall (fun s => x_head_offs st <= d_off s) (x_scan_q st).
Proof. exact C10_no_stale_attach_gen. Qed.

(* (I5) mutual exclusion of the sequential part: the parse token, a running parser
   and a legitimate (parser-created or adopted) retriever exclude one another. *)
Theorem C10_one_master :
  forall n tin tout ultra st, reach gen_cfg (init_state n tin tout ultra) st ->
    (b2n (x_parse_token st) + nparse st + length (filter (jm (x_unords st)) (all_jobs st)) <= 1)%nat.
Proof. exact C10_one_master_gen. Qed.

(* The property.  [O] holds the unlocked computations as functions of the stream and
   a bit position (parser, retrieve/decode for EVERY position, emit); the scanner has
   no oracle: scan events are unconstrained, so the statement holds for every scanner.
   [SeqDec O 0 0 L R]: the sequential decoding (parser, block at the parser's position,
   parser from the end of that block, ...) hands the buffers L to the writer and succeeds
   iff R.  For every worker count, slot configuration, input fragmentation and
   interleaving, every run whose labels are consistent with O satisfies:
   the buffers handed to the writer are a prefix of L; if the run fails, the sequential
   decoding fails; if it terminates normally it has written exactly L and R = true
   (hence: it fails exactly when the sequential decoding fails). *)
Theorem C10_speculation_free :
  forall (O : oracle) n tin tout ultra st L R,
    oreach O gen_cfg (init_state n tin tout ultra) st -> SeqDec O 0 0 L R ->
    (exists l', L = x_written st ++ l') /\
    (x_failed st <> None -> R = false) /\
    (completed st -> x_written st = L /\ R = true).
Proof. exact C10_speculation_free_gen. Qed.

(* The same with the hypothesis a caller can observe.  [terminated st]: nothing failed and
   can_terminate() holds (the workers may exit); that the order is then empty (every confirmed
   block has been written) is a theorem: the ownership invariant of order_q (SchedX/XOwn.v).
   [opreach]: as [oreach], and every POk label lies at least HDR_MIN = 32 bits after the base of the
   block confirmed before it (SchedX/XOwn.v ev_prog).  That holds of parse() (parse.c): a block header
   is 80 bits and OK is returned only when all of it has been consumed - possibly over several calls
   that return MORE when the header straddles input blocks, which is why the hypothesis refers to the
   previous base and not to the parser's position at the start of the last call; every trace replay
   checks it.  The model's parse1 admits POk labels without progress, and with them the statement is
   false of the model (Properties_C11x.C11x_order_empty_without_progress_refuted). *)
Theorem C10_speculation_free_terminated :
  forall (O : oracle) n tin tout ultra st L R,
    opreach O gen_cfg (init_state n tin tout ultra) st -> SeqDec O 0 0 L R ->
    (exists l', L = x_written st ++ l') /\
    (x_failed st <> None -> R = false) /\
    (terminated st -> x_written st = L /\ R = true).
Proof. exact C10_speculation_free_term_gen. Qed.

(* non-vacuity: the scenario of finding F4 runs in the model up to the critical
   event; with the test in place the stale job is dropped instead of re-queued *)
Example C10_example_f4_scenario_repaired :
  exists st, run gen_cfg f4_init f4_events = Some st /\ retr_inv st = true /\ x_work_units st = 1.
Proof. eexists. split; [vm_compute; reflexivity|split; vm_compute; reflexivity]. Qed.

(* non-vacuity of C10_speculation_free: a stream on which the parser reports end of input
   at once; the sequential decoding writes nothing and succeeds, and so does the run *)
Definition O_empty : oracle :=
  mkoracle (fun _ _ => HFinish false) (fun _ => dbs0) (fun _ => 0) (fun _ => 0) (fun _ => 0) (fun _ _ => 0) (fun _ _ => 0).

Example C10_example_empty_stream :
  SeqDec O_empty 0 0 [] true /\
  exists st, oreach O_empty gen_cfg (init_state 2 8 32 false) st /\ completed st /\ x_written st = [].
Proof.
  split; [exact (SD_finish O_empty 0 0 false eq_refl)|].
  eexists. split.
  - eapply (oreach_step O_empty gen_cfg _ _ (EvParse1 (Some 0) (PFinish (mkdbs 16 1) 0)) _).
    + eapply (oreach_step O_empty gen_cfg _ _ EvParse0 _).
      * eapply (oreach_step O_empty gen_cfg _ _ EvEof _).
        -- eapply (oreach_step O_empty gen_cfg _ _ (EvInput 2 0) _); [apply oreach_init|exact I|vm_compute; reflexivity].
        -- exact I.
        -- vm_compute; reflexivity.
      * exact I.
      * vm_compute; reflexivity.
    + vm_compute. reflexivity.
    + vm_compute; reflexivity.
  - vm_compute. repeat split; reflexivity.
Qed.

(* the same run satisfies the hypotheses of C10_speculation_free_terminated *)
Example C10_example_empty_stream_terminated :
  exists st, opreach O_empty gen_cfg (init_state 2 8 32 false) st /\ terminated st /\ x_written st = [].
Proof.
  eexists. split.
  - eapply (opreach_step O_empty gen_cfg _ _ (EvParse1 (Some 0) (PFinish (mkdbs 16 1) 0)) _).
    + eapply (opreach_step O_empty gen_cfg _ _ EvParse0 _).
      * eapply (opreach_step O_empty gen_cfg _ _ EvEof _).
        -- eapply (opreach_step O_empty gen_cfg _ _ (EvInput 2 0) _); [apply opreach_init|exact I|exact I|vm_compute; reflexivity].
        -- exact I.
        -- exact I.
        -- vm_compute; reflexivity.
      * exact I.
      * exact I.
      * vm_compute; reflexivity.
    + vm_compute. reflexivity.
    + exact I.
    + vm_compute; reflexivity.
  - vm_compute. repeat split; reflexivity.
Qed.
