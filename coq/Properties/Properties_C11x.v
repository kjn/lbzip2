(* C11, decompression part - the scheduler of expand.c is bounded, conserves its
   resources and preserves the stream order.  Only statements: each proof applies a theorem
   of SchedX, stated there for every configuration, to [gen_cfg] and the regenerated
   capacities / guards; see Properties_C10.v. *)
From Coq Require Import List NArith Bool.
From LBZ Require Import Gen.Consts SchedX.XState Gen.SchedXTab SchedX.XSet SchedX.XModel SchedX.XInvDefs
  SchedX.XCount SchedX.XOracle SchedX.XSeq SchedX.XC10 SchedX.XC11 SchedX.XOwn SchedX.XOwnRefuted SchedX.XC11b
  SchedX.XScanOwn SchedX.XLiveDefs SchedX.XTie SchedX.XTieDrop SchedX.XLiveRun SchedX.XLive SchedX.XLiveTerm.
Import ListNotations.
Local Open Scope N_scope.

(* every worker unit, output slot and input slot is free or held by exactly one queue
   element, running task or buffer on its way to the writer - for every worker count,
   slot configuration, input shape and interleaving *)
Theorem C11x_conserve :
  forall n tin tout ultra st, reach gen_cfg (init_state n tin tout ultra) st -> x_failed st = None ->
    x_work_units st + units_held st = x_num_worker st /\
    x_out_slots st + slots_held st = x_total_out st /\
    x_in_slots st + in_held st = x_total_in st.
Proof. exact C11x_conserve_gen. Qed.

(* queues never exceed the capacities given to pqueue_init/deque_init in init(): the four queues
   input_q, retr_q, emit_q, reord_q, along every run (C11x_capacity below needs [preach]) *)
Theorem C11x_capacity_partial :
  forall n tin tout ultra st, reach gen_cfg (init_state n tin tout ultra) st -> x_failed st = None ->
    let cap f := f (x_total_in st) (x_num_worker st) (x_total_out st) in
    N.of_nat (length (x_input_q st)) <= cap cap_input_q /\
    N.of_nat (length (x_retr_q st)) <= cap cap_retr_q /\
    N.of_nat (length (x_emit_q st)) <= cap cap_emit_q /\
    N.of_nat (length (x_reord_q st)) <= cap cap_reord_q.
Proof. exact C11x_capacity_gen. Qed.

(* All seven queues stay within the capacities regenerated from init().
   - scan_q: at most one scan job (queued or running) per live input block (SchedX/XScanOwn.v).
   - unord_q: it grows only where do_scan() records a candidate, and the source tests
     `size(unord_q) >= unord_cap` there (regenerated boolean scan_checks_unord_cap; repair of
     finding F9 - without the test the bound is false, notes/XF9Refuted_before_fix.v:
     the unord block of a speculative job that the master overtakes stays queued, owning nothing).
   - order_q: every head is owned by the master retriever of its block, by an emit-stage job of
     its block or by the block's last buffer in reord_q; heads have distinct bit positions, so
     length order_q <= held work units + length reord_q (SchedX/XOwn.v, XOwnProofs.v).
   [preach]: every POk label of the run lies at least HDR_MIN = 32 bits after the base of the block
   confirmed before it ([x_next]; 0 initially).  A block header is 80 bits (48-bit magic, 32-bit CRC) and
   parse() (parse.c) returns OK only when it has consumed all of it, so every run of the program is such
   a run - and every trace replay checks it (checks/schedx_part.py, harness/schedx_driver.ml).  NOTE: the
   hypothesis is deliberately NOT "the call that returns OK consumed >= 32 bits": when a header straddles
   input blocks parse() returns MORE in between and the last call may consume only a few bits (observed on
   traces with 4..16-byte input blocks), so a statement under that hypothesis would be vacuous on such
   runs.  The model's parse1 also admits POk labels without any progress, and for
   those the order_q part is false of the model (C11x_order_empty_without_progress_refuted below).  The
   scan_q and unord_q parts need no such hypothesis (C11x_capacity_scan_unord). *)
Theorem C11x_capacity :
  forall n tin tout ultra st, preach gen_cfg (init_state n tin tout ultra) st -> x_failed st = None ->
    let cap f := f (x_total_in st) (x_num_worker st) (x_total_out st) in
    N.of_nat (length (x_input_q st)) <= cap cap_input_q /\
    N.of_nat (length (x_scan_q st)) <= cap cap_scan_q /\
    N.of_nat (length (x_retr_q st)) <= cap cap_retr_q /\
    N.of_nat (length (x_emit_q st)) <= cap cap_emit_q /\
    N.of_nat (length (unord_q st)) <= cap cap_unord_q /\
    N.of_nat (length (x_order_q st)) <= cap cap_order_q /\
    N.of_nat (length (x_reord_q st)) <= cap cap_reord_q.
Proof. exact C11x_capacity_all_gen. Qed.

Theorem C11x_capacity_scan_unord :
  forall n tin tout ultra st, reach gen_cfg (init_state n tin tout ultra) st -> x_failed st = None ->
    N.of_nat (length (x_scan_q st)) <= cap_scan_q (x_total_in st) (x_num_worker st) (x_total_out st) /\
    N.of_nat (length (unord_q st)) <= cap_unord_q (x_total_in st) (x_num_worker st) (x_total_out st).
Proof. exact C11x_capacity_scan_unord_gen. Qed.

(* when can_terminate() holds and nothing failed, every confirmed block has been written:
   order_q is empty (so the run is `completed` in the sense of C10/C09) *)
Theorem C11x_terminate_order_empty :
  forall n tin tout ultra st, preach gen_cfg (init_state n tin tout ultra) st -> x_failed st = None ->
    can_terminate st = true -> x_order_q st = [].
Proof. exact terminate_order_empty_gen. Qed.

(* the head of order_q always has an owner that can make progress towards it: the master
   retriever of its block, an emit-stage job of its block at or after the head's buffer, or the
   block's last buffer in reord_q (the lemma the liveness argument starts from) *)
Theorem C11x_order_head_owned :
  forall n tin tout ultra st h rest,
    preach gen_cfg (init_state n tin tout ultra) st -> x_failed st = None -> x_order_q st = h :: rest ->
    (snd (h_base h) = 0 /\ exists j, In j (all_jobs st) /\ jm (x_unords st) j = true /\ fst (r_base j) = fst (h_base h)) \/
    (exists e, In e (estage st) /\ fst (e_base e) = fst (h_base h) /\ snd (h_base h) <= snd (e_base e)) \/
    (exists o, In o (x_reord_q st) /\ o_status o <> MORE /\ fst (o_base o) = fst (h_base h) /\ snd (h_base h) <= snd (o_base o)).
Proof. exact order_head_owned_gen. Qed.

(* Why [preach]: with a POk label at the position of the block confirmed before (and a retriever that
   ends where it began) the MODEL reaches a non-failed state in which can_terminate() holds and order_q is
   not empty.  This is a permissiveness of the model's label constraints (parse1 checks
   `d_bit parser_bs <= d_bit bs`, not `<`), not a behaviour of the program. *)
Theorem C11x_order_empty_without_progress_refuted :
  exists st, reach gen_cfg (init_state 2 8 32 false) st /\ x_failed st = None /\ can_terminate st = true /\
    x_order_q st <> [].
Proof. exact terminate_order_empty_needs_progress. Qed.

(* when can_terminate() holds, every unit and slot has been given back and the
   pipeline is empty *)
Theorem C11x_final :
  forall n tin tout ultra st, reach gen_cfg (init_state n tin tout ultra) st -> x_failed st = None ->
    can_terminate st = true ->
    x_work_units st = x_num_worker st /\ x_out_slots st = x_total_out st /\
    x_retr_q st = [] /\ x_emit_q st = [] /\ x_running st = [] /\ x_reord_q st = [] /\ x_outq st = 0 /\
    x_parsing_done st = true /\ x_parse_token st = true.
Proof. exact C11x_final_gen. Qed.

(* blocks reach the writer in stream order: what has been handed to the writer is
   always a prefix of the sequential list of output buffers (whatever the scanner did) *)
Theorem C11x_order :
  forall (O : oracle) n tin tout ultra st L R,
    oreach O gen_cfg (init_state n tin tout ultra) st -> SeqDec O 0 0 L R ->
    exists l', L = x_written st ++ l'.
Proof. intros O n tin tout ultra st L R H1 H2. exact (proj1 (C10_speculation_free_gen O n tin tout ultra st L R H1 H2)). Qed.

(* Tie-breaking of the priority queues (the binary heap returns SOME minimal element).
   [sreach]: runs whose POk labels satisfy [ev_prog] (as in preach) and whose scan labels satisfy
   [ev_scan_prog]: a scan() call that reports a magic ends strictly after the position it started from
   (scan() consumes the 48 bits of the magic and 32 more; checked on every replayed trace).
   Along such runs the keys of scan_q, unord_q, emit_q and reord_q are pairwise distinct, so it does not
   matter which minimal element a peek()/dequeue() returns: the model's "first minimal element in list
   order" is THE minimal element.  (For scan_q plain reach suffices: SchedX/XTie.v scan_keys_distinct.) *)
Theorem C11x_queue_keys_distinct :
  forall n tin tout ultra st, 0 < n -> sreach gen_cfg (init_state n tin tout ultra) st -> x_failed st = None ->
    NoDup (map d_pos (x_scan_q st)) /\ NoDup (map u_base (unord_q st)) /\
    NoDup (map e_base (x_emit_q st)) /\ NoDup (map o_base (x_reord_q st)).
Proof. intros n tin tout ultra st. apply queue_keys_distinct_sreach; [exact gen_cfg_safe|exact gen_cfg_drops]. Qed.

(* retr_q is different: its key is the CURRENT position of a job, and two jobs CAN have equal keys - in
   the model and in the program: e.g. the master retriever of a block and the retriever of a spurious
   candidate inside that block both run to the end of the same input block and wait there with the same
   number of buffered bits. *)
Theorem C11x_retr_keys_can_tie :
  exists st j1 j2, sreach gen_cfg (init_state 3 8 8 false) st /\ x_failed st = None /\
    x_retr_q st = [j1; j2] /\ r_base j1 <> r_base j2 /\ rkey j1 = rkey j2.
Proof. exact retr_keys_tie_witness. Qed.

(* The model is tie-insensitive for retr_q.  do_retrieve(): the model's retr0 takes ANY minimal element
   (the label names it).  can_retrieve(): tied jobs stand at the same word offset, so the guard evaluates
   the same whichever of them peek() returns. *)
Theorem C11x_can_retrieve_tie :
  forall n tin tout ultra st x, reach gen_cfg (init_state n tin tout ultra) st ->
    In x (x_retr_q st) -> is_minimal rkey pos_lt x (x_retr_q st) = true ->
    can_attach st (r_cur x) = can_attach st (r_cur (peek_retr pos_lt st)).
Proof. intros n tin tout ultra st x R. apply can_retrieve_tie. exact (XInv4.inv_reach _ _ _ _ _ _ gen_cfg_safe R). Qed.

(* advance(): "while peek(retr_q) lies below head_offs: dequeue, drop" removes exactly the jobs below
   head_offs and keeps exactly the others, for EVERY rule [pick] that returns some minimal element -
   in particular for the binary heap - and hence agrees with the model's loop (same queue left, the same
   jobs dropped up to order). *)
Theorem C11x_advance_any_tiebreak :
  forall n tin tout ultra st (pick : list rjob -> option rjob) hd,
    reach gen_cfg (init_state n tin tout ultra) st ->
    (forall q j, pick q = Some j -> In j q /\ forall y, In y q -> pos_lt (rkey y) (rkey j) = false) ->
    (forall q, q <> [] -> exists j, pick q = Some j) ->
    snd (adv_retr_g pick (length (x_retr_q st)) hd (x_retr_q st)) = snd (adv_retr (length (x_retr_q st)) hd (x_retr_q st)) /\
    Permutation.Permutation (fst (adv_retr_g pick (length (x_retr_q st)) hd (x_retr_q st)))
                            (fst (adv_retr (length (x_retr_q st)) hd (x_retr_q st))).
Proof. intros n tin tout ultra st pick hd. apply advance_any_tiebreak_reach. exact gen_cfg_safe. Qed.

(* ... and so are the unord blocks that the dropped jobs give back (drop_unord_link() of jobs with
   different unord blocks commute) *)
Theorem C11x_advance_unords_any_tiebreak :
  forall n tin tout ultra st (pick : list rjob -> option rjob) hd,
    reach gen_cfg (init_state n tin tout ultra) st ->
    (forall q j, pick q = Some j -> In j q /\ forall y, In y q -> pos_lt (rkey y) (rkey j) = false) ->
    (forall q, q <> [] -> exists j, pick q = Some j) ->
    drop_links (fst (adv_retr_g pick (length (x_retr_q st)) hd (x_retr_q st))) (x_unords st) =
    drop_links (fst (adv_retr (length (x_retr_q st)) hd (x_retr_q st))) (x_unords st).
Proof. exact C11x_advance_unords_any_tiebreak_gen. Qed.

(* Deadlock freedom.  Every state of an [sreach] run that has not failed and is not final has an enabled event of the system
   - worker task, reader thread, writer thread - that is not a stutter ([productive]: an input block
   handed over after source_close() does not count, and the end of input counts only when the reader
   thread really is able to move: it has an input slot or request_close is set; source_thread_proc()).
   First part: if no worker is inside an unlocked computation (x_running = []) the enabled event is a
   FIRST segment - a task that is ready -, an output slot returned by the writer, or the reader.
   Second part: a worker inside parse()/retrieve()/decode()/emit()/scan() can always complete its second
   locked segment (SchedX/XLiveRun.v), so some productive event is enabled in every such state.
   Hypotheses on the configuration: at least one worker and one input slot, and more than EMIT_THRESH
   output slots (every configuration of set_memory_constraints() except `-n1` with --small, which has
   2 = EMIT_THRESH output slots: there the first disjunct of can_emit() is never true and the proof would
   need "no speculation with one worker"; C11x_progress_dec below).
   The deadlock of the source with `pos_eq` in can_emit(): notes/XF8Refuted_before_fix.v (finding F8). *)
Theorem C11x_progress :
  forall n tin tout ultra st, 1 <= n -> 1 <= tin -> EMIT_THRESH < tout ->
    sreach gen_cfg (init_state n tin tout ultra) st -> x_failed st = None -> final st = false ->
    (x_running st = [] ->
     exists e st', step gen_cfg st e = Some st' /\ productive st e = true /\
       match e with EvParse1 _ _ | EvRetr1 _ _ _ _ | EvRetr2 _ | EvEmit1 _ _ _ _ _ | EvScan1 _ _ _ _ _ => False | _ => True end) /\
    exists e st', step gen_cfg st e = Some st' /\ productive st e = true.
Proof. intros n tin tout ultra st. apply progress_sreach; [exact gen_cfg_safe|exact gen_cfg_drops]. Qed.

(* the configurations of `lbzip2 -d`: all but one worker with --small *)
Theorem C11x_progress_dec :
  forall n small ultra st, 1 <= n -> (small = true -> 2 <= n) ->
    sreach gen_cfg (init_dec n small ultra) st -> x_failed st = None -> final st = false ->
    exists e st', step gen_cfg st e = Some st' /\ productive st e = true.
Proof. intros n small ultra st. apply progress_dec_sreach; [exact gen_cfg_safe|exact gen_cfg_drops]. Qed.

(* the invariants behind it, for use elsewhere: all of inv / own / cnt / lin / ltk / lld / llm / lrs / lrd
   hold along the run (SchedX/XLive.v livep) *)
Theorem C11x_live_invariants :
  forall n tin tout ultra st, 0 < n -> sreach gen_cfg (init_state n tin tout ultra) st -> livep st.
Proof. intros n tin tout ultra st. apply livep_sreach; [exact gen_cfg_safe|exact gen_cfg_drops]. Qed.

(* non-vacuity: a run that satisfies the label hypotheses, with a spurious candidate, two retrievers
   waiting for input - not failed, not final *)
Example C11x_progress_example :
  exists st, sreach gen_cfg (init_state 3 8 8 false) st /\ x_failed st = None /\ final st = false /\ x_running st = [].
Proof.
  assert (E : exists s, srun gen_cfg (init_state 3 8 8 false) tie_events = Some s /\ x_failed s = None /\ final s = false /\ x_running s = [])
    by (eexists; split; [vm_compute; reflexivity|repeat split; reflexivity]).
  destruct E as (s & RUN & A & B & C). exists s. split; [|auto]. eapply srun_sreach; [constructor|exact RUN].
Qed.

(* Termination.  [treach T K]: runs of an input of at most T words whose labels satisfy, besides ev_prog and ev_scan_prog,
   [ev_term T K]: EvInput keeps tail_offs <= T; a parser call that returns MORE has consumed at least one
   bit (parse() reads 16 bits at a time and returns MORE only when it has used up what it had; checked on
   every replayed trace); emit() of one block returns MORE at most K times.  (The model's labels are unconstrained: without these a parser
   that returns MORE at the end of the input for ever, or an emit() that returns MORE for ever, is a run.)
   Every event that is not a stutter strictly decreases the measure - failed flag, input left, blocks left to
   confirm, scanning left, retrieving left, parser position, emitting left, buffers, scheduling noise - in the
   well-founded lexicographic order mlt (SchedX/XLiveTerm.v).  With C11x_progress: every maximal run is finite
   up to stuttering and ends in a final or a failed state. *)
Theorem C11x_terminates :
  forall T K n tin tout ultra st e st',
    0 < n -> treach T K gen_cfg (init_state n tin tout ultra) st ->
    ev_prog st e -> ev_scan_prog e -> ev_term T K st e -> step gen_cfg st e = Some st' -> productive st e = true ->
    mlt (measure T K st') (measure T K st).
Proof. intros T K n tin tout ultra st e st'. apply terminates_step; [exact gen_cfg_safe|exact gen_cfg_drops]. Qed.

Theorem C11x_measure_well_founded : well_founded mlt.
Proof. exact mlt_wf. Qed.

(* non-vacuity: a complete run (two input blocks, a block whose retrieval waits for input and whose output
   takes two buffers, a spurious candidate that is overtaken, a parser call that returns MORE, end of input)
   that satisfies every label hypothesis and ends in a final state *)
Example C11x_terminates_example :
  exists st, treach 6 1 gen_cfg (init_state 3 8 8 false) st /\ x_failed st = None /\ final st = true.
Proof. exact term_example. Qed.
