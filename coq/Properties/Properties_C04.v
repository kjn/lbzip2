(* C04 - Block boundaries follow the greedy run-length packing rule.
   Only statements; every Theorem is [exact <lemma>] up to plumbing (Examples: by computation).  MAX_RUN_LENGTH is regenerated
   from /repo/src/encode.c on every run (Gen/Consts.v); the model of collect() and of
   the two drivers (Rle/RleModel.v) is tied to the source by the correspondence
   check of checks/c04.py. *)
From Coq Require Import List NArith ZArith Bool Lia.
From LBZ Require Import Gen.Consts Gen.RleGen Rle.RleModel Rle.RleProofs.
Import ListNotations.
Local Open Scope N_scope.

(* runs are split at 259 ... *)
Theorem C04_max_run_is_259 : MAX_RUN_LENGTH = 259.
Proof. exact max_run_is_259. Qed.

(* ... so the count written after four copies is a byte *)
Theorem C04_rle1_output_is_bytes :
  forall x, Forall (fun b => b < 256) x -> Forall (fun b => b < 256) (rle1 x).
Proof. exact rle1_bytes. Qed.

(* |rle1| is monotone in the prefix: "the longest prefix that fits" is well defined *)
Theorem C04_rle1_len_monotone : forall p q, rle1_len p <= rle1_len (p ++ q).
Proof. exact rle1_len_mono. Qed.

(* a fourth equal byte is taken only when both it and its count fit *)
Theorem C04_fourth_byte_needs_room_for_count :
  forall M p c t, runs_rev p = (c, 3) :: t -> rle1_len p + 1 = M ->
    fits M p = true /\ fits M (p ++ [c]) = false.
Proof. exact fourth_byte_needs_two. Qed.

(* greedy_spec cuts at the LONGEST prefix that fits *)
Theorem C04_greedy_spec_takes_longest_prefix :
  forall M x G, greedy_spec M x = Some G -> GreedyCut M x G.
Proof. exact greedy_spec_sound. Qed.

Theorem C04_greedy_spec_total :
  forall M x, 0 < M -> exists G, greedy_spec M x = Some G.
Proof. exact greedy_spec_total. Qed.

Theorem C04_greedy_spec_partitions_input :
  forall M x G, GreedyCut M x G -> concat G = x.
Proof. exact GreedyCut_concat. Qed.

(* One call of collect().  From a state reached by consuming p without filling the block (Inv), a call
   on buffer l consumes l1 (l = l1 ++ rest) and either exhausts the buffer keeping
   the invariant, or reports the block full with exactly rle1 (p ++ l1) in the
   block, p ++ l1 fitting and the next input byte (if it is known) not fitting. *)
Theorem C04_one_collect_call :
  forall M p s l, 0 < M -> Inv M p s -> Post M p l (collect s l).
Proof. exact (fun M p s l H => collect_spec M H p s l). Qed.

(* The full statement.  For every capacity M > 0, every mode and every list of buffers (every way of
   splitting the input over successive calls, empty buffers allowed): the blocks,
   the number of input bytes each stands for, and the block CRCs are those of the
   greedy rule (sequential: over the concatenation; default: per buffer). *)
Theorem C04_collect_greedy :
  forall M sequential bufs, 0 < M ->
    exists G obs,
      spec_blocks sequential M bufs = Some G /\
      collect_run sequential M bufs = Some obs /\
      map ob_bytes obs = map rle1 G /\
      map ob_weight obs = map (fun g => N.of_nat (length g)) G /\
      map ob_crc obs = map crc_of G.
Proof. exact collect_run_greedy_fields. Qed.

(* the two modes of the program at level lvl (capacity and input-buffer size are
   both lvl * 100000) *)
Theorem C04_modes :
  forall lvl x, 1 <= lvl -> lvl <= 9 ->
    let M := lvl * 100000 in
    (forall bufs, concat bufs = x ->
       exists G, greedy_spec M x = Some G /\ collect_run true M bufs = Some (map spec_blk G)) /\
    (exists pieces G, cut M x = Some pieces /\ concat pieces = x /\
       all_but_last_full (N.to_nat M) pieces /\
       greedy_each M pieces = Some G /\ collect_run false M pieces = Some (map spec_blk G)).
Proof. intros lvl x H1 H9. apply modes_spec. lia. Qed.

(* what the statement above takes from the code around collect(), regenerated from
   compress.c / process.c on every run: capacity of the encoder in both drivers and the
   size of an input buffer are level * 100000; do_collect_seq creates an encoder
   only when there is no unfinished one and finishes a block when collect() says so *)
Theorem C04_source_facts :
  COLLECT_CAP_UNIT = 100000 /\ COLLECT_SEQ_CAP_UNIT = 100000 /\ IN_GRANUL_UNIT = 100000 /\
  COLLECT_INIT_CALLS = 1 /\ COLLECT_SEQ_INIT_CALLS = 1 /\
  SEQ_INIT_GUARDED = true /\ SEQ_DONE_FROM_COLLECT = true.
Proof. exact driver_consts. Qed.

(* capacity 5; runs of 3, 4 and 5 equal bytes meeting the end of the block *)
Example C04_ex_run3 :
  greedy_spec 5 [1; 2; 7; 7; 7; 9] = Some [[1; 2; 7; 7; 7]; [9]] /\
  option_map (map ob_bytes) (collect_run true 5 [[1; 2]; [7; 7]; []; [7; 9]]) = Some [[1; 2; 7; 7; 7]; [9]].
Proof. split; vm_compute; reflexivity. Qed.

(* the fourth 7 would need two bytes (copy + count): the block closes at M-1 = 4 *)
Example C04_ex_run4_lookahead :
  greedy_spec 5 [1; 7; 7; 7; 7; 9] = Some [[1; 7; 7; 7]; [7; 9]] /\
  option_map (map ob_bytes) (collect_run true 5 [[1; 7; 7; 7; 7; 9]]) = Some [[1; 7; 7; 7]; [7; 9]] /\
  option_map (map ob_bytes) (collect_run true 5 [[1; 7; 7; 7]; [7; 9]]) = Some [[1; 7; 7; 7]; [7; 9]] /\
  option_map (map ob_weight) (collect_run true 5 [[1; 7]; [7]; [7]; [7]; [9]]) = Some [4; 2].
Proof. repeat split; vm_compute; reflexivity. Qed.

(* a run of 5 costs 5 bytes and absorbs further equal bytes for free *)
Example C04_ex_run5 :
  greedy_spec 5 [7; 7; 7; 7; 7; 7; 7; 9] = Some [[7; 7; 7; 7; 7; 7; 7]; [9]] /\
  option_map (map ob_bytes) (collect_run true 5 [[7; 7; 7]; [7; 7; 7]; [7; 9]]) = Some [[7; 7; 7; 7; 3]; [9]] /\
  option_map (map ob_bytes) (collect_run false 5 [[7; 7; 7]; [7; 7; 7]; [7; 9]]) = Some [[7; 7; 7]; [7; 7; 7]; [7; 9]].
Proof. repeat split; vm_compute; reflexivity. Qed.

(* the invariant of C04_one_collect_call is satisfiable on a non-trivial state:
   three equal bytes pending at M-1, and the call that then sees a fourth one
   reports "full" without consuming it *)
Example C04_ex_invariant :
  let s := fst (collect (encoder_init 5) [1; 7; 7; 7]) in
  Inv 5 [1; 7; 7; 7] s /\ rle_state s = 3%Z /\ nblock s = 4 /\
  fst (collect_call s [7; 9]) = (true, 0) /\ fst (collect_call s [8; 9]) = (true, 1).
Proof. vm_compute. repeat split; reflexivity. Qed.

Example C04_ex_cut : cut 3 [1; 2; 3; 4; 5; 6; 7] = Some [[1; 2; 3]; [4; 5; 6]; [7]].
Proof. vm_compute. reflexivity. Qed.
