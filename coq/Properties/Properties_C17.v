(* C17 - File operands follow the documented naming and safety rules.
   Only statements; every Theorem is [exact <lemma>] (Examples: by computation).
   [run codec cfg fs operands plan] is the operand loop of main() over the abstract
   file system (Front/MainLoop.v); the suffix table, permission masks, exit codes and
   stat fields it uses are regenerated from src/main.c (Gen/FrontTab.v).  [codec] is
   any function (how work() transforms content); the theorems hold for all of them. *)
From Coq Require Import List NArith Arith Bool String Ascii Lia.
From LBZ Require Import Gen.FrontTab Front.FsModel Front.MainLoop Front.FrontSpec Front.FrontLemmas
     Front.FrontNoFault Front.FrontProofs Front.FrontSafety.
Import ListNotations.
Local Open Scope N_scope.

(* Bridge: without injected faults the loop is the fold of the per-operand effect
   function [op_effect]; the theorems below are about op_effect. *)
Theorem C17_run_is_fold :
  forall codec cf f ops, run codec cf f ops [] = run_effect codec cf ops f false.
Proof. exact run_is_fold. Qed.

(* Without -f no existing file that is not an operand is modified or removed -- under
   EVERY fault/signal plan (output creation is exclusive and nothing else is unlinked). *)
Theorem C17_no_clobber :
  forall codec cf f0 ops pl p d,
    c_force cf = false ->
    nlook f0 p = Some d -> ~ In p ops ->
    let f := fst (run codec cf f0 ops pl) in
    nlook f p = Some d /\ (forall i, d = DLink i -> ilook f i = ilook f0 i).
Proof. exact no_clobber. Qed.

(* Admission (output to files, no -f): an operand that is not a regular file, or has
   more than one link without -k, or cannot be lstat()ed, is skipped with a warning and
   nothing changes. *)
Theorem C17_admission :
  forall codec cf op f,
    c_outmode cf = OmRegf -> c_force cf = false ->
    ~ (exists st, sys_lstat f op = SOk st /\ st_kind st = SReg /\ (c_keep cf = true \/ st_nlink st <= 1)) ->
    exists t, op_effect codec cf op f = {| e_fs := f; e_warn := true; e_end := ENext (DSkipped t) |}.
Proof. exact admission. Qed.

(* When compressing, a name with a compressed suffix is always skipped with a warning (also with -f). *)
Theorem C17_compressed_suffix :
  forall codec cf op f,
    c_decompress cf = false ->
    (ends_with op ".bz2" || ends_with op ".tbz" || ends_with op ".tbz2" || ends_with op ".tz2") = true ->
    exists t, op_effect codec cf op f = {| e_fs := f; e_warn := true; e_end := ENext (DSkipped t) |}.
Proof. exact suffix_skip_doc. Qed.

Theorem C17_naming_compress : forall s, out_name false s = Some (s ++ ".bz2")%string.
Proof. exact out_name_compress. Qed.
Theorem C17_naming_bz2 : forall x, out_name true (x ++ ".bz2") = Some x.
Proof. exact out_name_bz2. Qed.
Theorem C17_naming_tbz2 : forall x, out_name true (x ++ ".tbz2") = Some (x ++ ".tar")%string.
Proof. exact out_name_tbz2. Qed.
Theorem C17_naming_tbz : forall x, out_name true (x ++ ".tbz") = Some (x ++ ".tar")%string.
Proof. exact out_name_tbz. Qed.
Theorem C17_naming_tz2 : forall x, out_name true (x ++ ".tz2") = Some (x ++ ".tar")%string.
Proof. exact out_name_tz2. Qed.
Theorem C17_naming_other :
  forall s, (ends_with s ".bz2" || ends_with s ".tbz" || ends_with s ".tbz2" || ends_with s ".tz2") = false ->
            out_name true s = Some (s ++ ".out")%string.
Proof. exact out_name_other. Qed.
Theorem C17_output_name_differs : forall dec s q, out_name dec s = Some q -> q <> s.
Proof. exact out_name_neq. Qed.

(* A processed operand (output to files): the output is a regular file under the name
   given by the rules, holds everything work() wrote, was closed successfully, carries the
   input's permission bits (mode & 0777), owner and access/modification times; no other
   inode changed and no other name changed. *)
Theorem C17_metadata :
  forall codec cf op f,
    c_outmode cf = OmRegf -> e_end (op_effect codec cf op f) = ENext DDone ->
    let f' := e_fs (op_effect codec cf op f) in
    exists iin st ndin q iout nd,
      sys_open_rd f op = SOk iin /\ sys_fstat f iin = SOk st /\ ilook f iin = Some ndin /\
      out_name (c_decompress cf) op = Some q /\
      nlook f' q = Some (DLink iout) /\ ilook f iout = None /\ ilook f' iout = Some nd /\
      i_kind nd = KReg /\ i_committed nd = true /\
      expected_output codec cf (i_data ndin) = Some (i_data nd) /\
      i_mode nd = N.land (st_mode st) 511 /\
      i_atime nd = st_atime st /\ i_mtime nd = st_mtime st /\
      i_uid nd = st_uid st /\ i_gid nd = st_gid st /\
      (forall j, j <> iout -> ilook f' j = ilook f j) /\
      (forall p, p <> q -> p <> op -> nlook f' p = nlook f p) /\
      (c_force cf = false -> nlook f q = None) /\
      e_warn (op_effect codec cf op f) = negb (N.land (st_mode st) 3584 =? 0).
Proof. exact metadata. Qed.

(* The input is removed unless -k, -c or -t is given. *)
Theorem C17_removal :
  forall codec cf op f,
    e_end (op_effect codec cf op f) = ENext DDone ->
    let f' := e_fs (op_effect codec cf op f) in
    match c_outmode cf with
    | OmRegf => nlook f' op = if c_keep cf then nlook f op else None
    | _ => f_names f' = f_names f /\ f_inodes f' = f_inodes f
    end.
Proof. exact removal. Qed.

(* Exit status: absent a fatal error it is 4 iff some operand warned, else 0. *)
Theorem C17_exit :
  forall codec cf ops f,
    Forall completes (trace codec cf ops f) ->
    snd (run codec cf f ops []) = Exit (if existsb e_warn (trace codec cf ops f) then 4 else 0).
Proof. exact exit_status_run. Qed.

(* corner names, evaluated on the regenerated suffix table *)
Example C17_name_dot_bz2 : out_name true ".bz2" = Some ""%string /\ is_compressed_name ".bz2" = true.
Proof. split; reflexivity. Qed.
Example C17_name_a_tbz2 : out_name true "a.tbz2" = Some "a.tar"%string.
Proof. reflexivity. Qed.
Example C17_name_x_tz2_bz2 : out_name true "x.tz2.bz2" = Some "x.tz2"%string.
Proof. reflexivity. Qed.
Example C17_name_short :
  out_name true "z2" = Some "z2.out"%string /\ out_name true "bz2" = Some "bz2.out"%string /\
  out_name true "" = Some ".out"%string /\ is_compressed_name "bz2" = false /\ is_compressed_name "tbz" = false.
Proof. repeat split. Qed.
Example C17_name_case : out_name true "A.BZ2" = Some "A.BZ2.out"%string /\ is_compressed_name "A.BZ2" = false.
Proof. split; reflexivity. Qed.

(* non-vacuity: a concrete file system on which an operand is processed *)
Definition ex_codec (m : cmode) (d : bytes) : cres :=
  {| c_io := [IoWrite [66; 90; 104; 57]; IoRead; IoRead; IoWrite (rev d)]; c_ok := true |}.
Definition ex_cfg : cfg :=
  {| c_decompress := false; c_force := false; c_keep := false; c_outmode := OmRegf; c_uid := 0; c_gid := 0; c_now := 99 |}.
Definition ex_fs : fs :=
  {| f_names := [("a"%string, DLink 1); ("b.bz2"%string, DLink 2); ("l"%string, DSym "a"%string); ("a2"%string, DLink 3); ("a2.lnk"%string, DLink 3)];
     f_inodes := [(1, {| i_kind := KReg; i_mode := 2532 (* 04744 *); i_uid := 7; i_gid := 8; i_atime := 10; i_mtime := 20;
                        i_data := [1; 2; 3]; i_committed := true |});
                  (2, {| i_kind := KReg; i_mode := 420; i_uid := 0; i_gid := 0; i_atime := 1; i_mtime := 2;
                        i_data := [5]; i_committed := true |});
                  (3, {| i_kind := KReg; i_mode := 420; i_uid := 0; i_gid := 0; i_atime := 1; i_mtime := 2;
                        i_data := [6]; i_committed := true |})];
     f_stdout := [] |}.

Example C17_example_run :
  let '(f', o) := run ex_codec ex_cfg ex_fs ["a"; "b.bz2"; "l"; "a2"; "nope"]%string [] in
  o = Exit 4 /\
  nlook f' "a"%string = None /\ nlook f' "b.bz2"%string = Some (DLink 2) /\ nlook f' "l"%string = Some (DSym "a"%string) /\
  nlook f' "a2"%string = Some (DLink 3) /\
  exists j nd, nlook f' "a.bz2"%string = Some (DLink j) /\ ilook f' j = Some nd /\
               i_data nd = [66; 90; 104; 57; 3; 2; 1] /\ i_mode nd = 484 (* 0744 *) /\
               i_uid nd = 7 /\ i_gid nd = 8 /\ i_atime nd = 10 /\ i_mtime nd = 20 /\ i_committed nd = true.
Proof. vm_compute. repeat split; try reflexivity. eexists; eexists; repeat split; reflexivity. Qed.
