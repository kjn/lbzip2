(* C08 - No undefined behaviour for any input.  PARTIAL by nature: a theorem can
   carry the index/shift/overflow discipline of ARRAY-LEVEL models of the code
   (arrays = lists of the declared C length, every access bounds-checked, C integer
   widths explicit); each model is tied to the C by a call-by-call correspondence
   harness that includes the real function (harness/safe_h_*.c), and the whole
   program is run under ASan/UBSan as SUPPORT (testing).  Not covered by any
   theorem: divbwt.c, main.c string handling, libc, the scheduler's pointer
   attach (that is C10/C11: finding F4). *)
From Coq Require Import List NArith Arith Bool Lia.
From LBZ Require Import Common.Bits Dec.Prog Dec.Format Gen.Consts Gen.DecTabs
  Safe.Bounds Safe.SlideModel Safe.SlideProofs Safe.EmitModel Safe.EmitProofs.
Import ListNotations.

(* retrieve(): everything used as an index is within the regenerated array sizes:
   alpha_size <= MAX_ALPHA_SIZE (code_len[], perm[]), num_trees <= MAX_TREES (tree[],
   mtf[]), num_selectors <= MAX_SELECTORS (selector[]), bytes in use < 256 *)
Theorem C08_retrieve_index_bounds :
  forall pol fuel bits rb r, run (read_block pol fuel) bits = Ok (rb, r) ->
    (1 <= length (rb_used rb) <= 256)%nat /\ Forall (fun c => (c < 256)%N) (rb_used rb) /\
    (N.of_nat (length (rb_used rb)) + 2 <= MAX_ALPHA_SIZE)%N /\
    (2 <= rb_ntrees rb <= MAX_TREES)%N /\ length (rb_tables rb) = N.to_nat (rb_ntrees rb) /\
    (1 <= rb_nsel rb <= MAX_SELECTORS)%N.
Proof. exact read_block_index_bounds. Qed.

(* `run += RUN(s) << shift++` guarded by run <= MAX_BLOCK_SIZE: the shift count stays
   below 32 and nothing exceeds 32 bits, for any symbol sequence *)
Theorem C08_run_accumulation_no_overflow :
  forall run shift s run' shift', (s <= 1)%N -> run_inv run shift -> acc_run run shift s = Some (run', shift') ->
    (shift < 32)%N /\ (N.shiftl (s + 1) shift < 2 ^ 32)%N /\ (run' < 2 ^ 32)%N /\ run_inv run' shift'.
Proof. exact acc_run_safe. Qed.

(* mtf_one() on the 8192-byte slide with 16 row pointers: from the state retrieve() sets up,
   for ANY sequence of positions < 256, no access leaves the slide; and it computes exactly
   the list move-to-front the abstract decoder uses *)
Theorem C08_slide_safe :
  forall junk flags cs st alpha,
    len junk = SLIDE_LENGTH -> length flags = 256%nat -> slide_init_c junk flags = Some (st, alpha) ->
    Forall (fun c => (c < 256)%N) cs -> no_oob (slide_run_c cs st).
Proof. exact slide_safe_from_init. Qed.

Theorem C08_slide_refines_list_mtf :
  forall syms limit st order run shift size acc,
    Sim_c st order -> Forall (fun s => (s <= N.of_nat (length order))%N) syms ->
    unmtf_slide limit st (hd 0%N order) run shift size acc syms = sl_of_result (unmtf limit order run shift size acc syms).
Proof. exact unmtf_slide_refines. Qed.

(* decode(): for every column of 1..MAX_BLOCK_SIZE bytes, every primary index inside it, randomised
   or not: no out-of-bounds access to tt[]/ftab[], `i << 8` and the prefix sums fit 32 bits, both
   asserts hold, every list pointer stays inside the block *)
Theorem C08_decode_safe :
  forall col idx rand crc0, block_ok col idx ->
    exists tt' ft' st,
      decode_model col (ftab_of col) (N.of_nat (length col)) idx rand crc0 = Good (tt', ft', st) /\
      length tt' = length col /\ length ft' = 256%nat /\ nth 255 ft' 0%N = N.of_nat (length col) /\
      (forall q, (q < length col)%nat ->
         if rand then N.shiftr (nth q tt' 0%N) 8 = N.of_nat (S q)
         else (N.shiftr (nth q tt' 0%N) 8 < N.of_nat (length col))%N) /\
      rle_state st = 0%N /\ rle_avail st = N.of_nat (length col) /\ rle_crc st = M1 /\
      (exists ws, Walk tt' (rle_index st) ws /\ length ws = length col).
Proof. exact decode_safe. Qed.

(* emit(): for every sequence of output buffer sizes in [1, 2^32-2]: no out-of-bounds read of
   tt[]/crc_table[], never more bytes written than the buffer holds, the exit assertion holds *)
Theorem C08_emit_safe :
  forall col idx rand sizes, block_ok col idx -> sizes_ok sizes ->
    match decode_emit col idx rand sizes with
    | RFinished _ chunks _ => chunks_fit chunks sizes
    | RPending chunks _ => Forall2 (fun c b => N.of_nat (length c) = b) chunks sizes
    | RFault _ => False
    end.
Proof. exact emit_safe. Qed.

(* ... and EVERY accumulation site in retrieve() (the fast path on local variables and the slow resumable
   path) sits under such a guard with a limit <= MAX_BLOCK_SIZE: the list of guards is regenerated from
   the source, one entry per `run += RUN(s) << shift++` *)
Theorem C08_every_run_accumulation_is_guarded :
  forallb run_guard_ok run_acc_guards = true /\ (2 <= length run_acc_guards)%nat.
Proof. exact run_acc_guards_ok. Qed.

Theorem C08_guarded_accumulation_no_overflow :
  forall g lim run shift s, In g run_acc_guards -> g = Some lim -> (s <= 1)%N -> run_inv run shift -> (run <= lim)%N ->
    (shift < 32)%N /\ (N.shiftl (s + 1) shift < 2 ^ 32)%N /\ (run + N.shiftl (s + 1) shift < 2 ^ 32)%N.
Proof. exact guarded_site_safe. Qed.

(* make_tree() and the table-driven prefix decoding (start[]/base[]/count[]/perm[]): for every
   length vector the delta reader can deliver (3..258 lengths in 1..20), whatever the previous
   contents of the tables: no out-of-bounds access, no undefined shift, no assertion failure; the
   verdict is exactly the Kraft test of the abstract decoder; and for a complete table, every
   64-bit buffer value with bit 0 clear (NEED() keeps at most 63 valid bits) decodes without any
   bad index to exactly the symbol and length of canonical bit-by-bit decoding *)
From LBZ Require Import Safe.TreeModel Safe.TreeProofs Dec.Policies.

Theorem C08_make_tree_safe :
  forall lens pad T, tree_pre lens pad T ->
    exists vd T', make_tree (N.of_nat (length lens)) (lens ++ pad) T = Done (vd, T') /\ tree_wf T'.
Proof. exact make_tree_safe. Qed.

Theorem C08_make_tree_verdict_is_kraft :
  forall lens pad T vd T', tree_pre lens pad T ->
    make_tree (N.of_nat (length lens)) (lens ++ pad) T = Done (vd, T') ->
    verdict_result vd = complete_only lens.
Proof. exact make_tree_verdict_policy. Qed.

Theorem C08_table_decode_safe_and_canonical :
  forall lens pad T T' v, tree_pre lens pad T ->
    make_tree (N.of_nat (length lens)) (lens ++ pad) T = Done (VBuilt, T') ->
    (v < 2 ^ 64 - 1)%N ->
    exists a k rest,
      tree_decode (N.of_nat (length lens)) T' v =
        Done (isym (N.of_nat (length lens)) a, N.of_nat k, ((v * 2 ^ N.of_nat k) mod 2 ^ 64)%N) /\
      (1 <= k <= 20)%nat /\ (a < N.of_nat (length lens))%N /\
      run (decode_sym lens) (bits_msb 64 v) = Ok (a, rest) /\
      rest = bits_msb (64 - k) v /\ length rest = (64 - k)%nat.
Proof. exact tree_decode_correct. Qed.

(* The scheduler's arrays (pqueue / deque storage allocated by init() with the regenerated
   capacities): no queue of the compressor ever holds more elements than it was allocated
   with, for every worker count, mode, input and interleaving; no dequeue from an empty queue,
   no push on a full deque, no failing assert (bad = false).  For the decompressor the same for
   input_q, retr_q, emit_q, reord_q (scan_q / unord_q / order_q: Properties_C11x.C11x_capacity) and
   the asserts guarding attach() (a pointer computed from a released input block: finding F4)
   never fire. *)
From LBZ Require SchedC.SchedCIface Gen.SchedCTab SchedC.SchedC SchedC.SchedCInv.
From LBZ Require Gen.SchedXTab SchedX.XState SchedX.XModel SchedX.XInvDefs SchedX.XC10 SchedX.XC11.

Theorem C08_compressor_queues_in_bounds :
  forall (Data Enc : Type) (data_len : Data -> N) (enc_empty : Enc) (collect : Enc -> Data -> Enc * Data * bool)
         n u lvl inp s, SchedCInv.reachable data_len enc_empty collect n u lvl inp s ->
    (length (SchedC.SchedC.coll_q s) <= SchedC.SchedC.cap_coll n /\ length (SchedC.SchedC.trans_q s) <= SchedC.SchedC.cap_trans n /\
     length (SchedC.SchedC.reord_q s) <= SchedC.SchedC.cap_reord n /\ length (SchedC.SchedC.output_q s) <= SchedC.SchedC.cap_output n)%nat /\
    SchedC.SchedC.bad s = false.
Proof.
  intros Data Enc data_len enc_empty collect n u lvl inp s R. split.
  - destruct (SchedCInv.c11_capacity R) as (A & B & C & D & _). repeat split; assumption.
  - exact (SchedCInv.c11_no_ub R).
Qed.

Theorem C08_decompressor_queues_in_bounds_partial :
  forall n tin tout ultra st,
    XInvDefs.reach XModel.gen_cfg (XModel.init_state n tin tout ultra) st ->
    XState.x_bad_attach st = false /\
    (XState.x_failed st = None ->
     let cap f := f (XState.x_total_in st) (XState.x_num_worker st) (XState.x_total_out st) in
     (N.of_nat (length (XState.x_input_q st)) <= cap SchedXTab.cap_input_q /\
      N.of_nat (length (XState.x_retr_q st)) <= cap SchedXTab.cap_retr_q /\
      N.of_nat (length (XState.x_emit_q st)) <= cap SchedXTab.cap_emit_q /\
      N.of_nat (length (XState.x_reord_q st)) <= cap SchedXTab.cap_reord_q)%N).
Proof.
  intros n tin tout ultra st R. split.
  - exact (proj1 (XC10.C10_no_stale_attach_gen n tin tout ultra st R)).
  - intros NF. exact (XC11.C11x_capacity_gen n tin tout ultra st R NF).
Qed.
