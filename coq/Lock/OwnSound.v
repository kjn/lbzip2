(* C12 (heap part) - soundness of the ownership checker:  own_check p = true  implies that in
   every reachable configuration of OwnLang.v every thread about to touch an object is entitled
   to it ([may_access]); entitlement is exclusive, so no two threads are about to touch one object.
   Built like LocksetSound.v ([flow] constructs [wt], [wtk] is preserved by every step), with the
   concretisation [J] of the variable map: SOwn variables point to objects the thread holds and
   are pairwise separate, SShr m variables to objects published under m; steps of OTHER threads
   never change an object a thread holds or a published object. *)
From Coq Require Import List PArith Bool Arith Lia.
From LBZ Require Import Lock.OwnLang Lock.OwnCheck Lock.MutexSet.

Lemma status_eqb_eq x y : status_eqb x y = true -> x = y.
Proof.
  destruct x, y; simpl; intros H; try discriminate; try reflexivity.
  apply Pos.eqb_eq in H. subst. reflexivity.
Qed.

Lemma get_del_eq S p : get (del S p) p = SOwn.
Proof.
  induction S as [|[x s] S IH]; simpl; auto.
  destruct (Pos.eqb x p) eqn:E; simpl; auto. rewrite E. exact IH.
Qed.

Lemma get_del_neq S p x : x <> p -> get (del S p) x = get S x.
Proof.
  intros Hne. induction S as [|[y s] S IH]; simpl; auto.
  destruct (Pos.eqb y p) eqn:E; simpl.
  - apply Pos.eqb_eq in E. subst y.
    destruct (Pos.eqb p x) eqn:E2; [apply Pos.eqb_eq in E2; congruence | exact IH].
  - destruct (Pos.eqb y x); auto.
Qed.

Lemma get_set S p s x : get (set S p s) x = if Pos.eqb x p then s else get S x.
Proof.
  unfold set. simpl. rewrite Pos.eqb_sym.
  destruct (Pos.eqb_spec x p) as [->|Hne]; [reflexivity | apply get_del_neq, Hne].
Qed.

Lemma get_notin S p : ~ In p (map fst S) -> get S p = SOwn.
Proof.
  induction S as [|[x s] S IH]; simpl; auto. intros H.
  destruct (Pos.eqb_spec x p) as [->|Hne]; [destruct H; auto | auto].
Qed.

Lemma get_fold_in (f : var -> status) l p :
  In p l -> get (fold_right (fun x acc => set acc x (f x)) [] l) p = f p.
Proof.
  induction l as [|x l IH]; [intros []|]. intros Hin. cbn [fold_right].
  rewrite get_set. destruct (Pos.eqb_spec p x) as [->|Hne]; [reflexivity|].
  apply IH. destruct Hin as [->|H]; [congruence | exact H].
Qed.

Lemma get_fold_notin (f : var -> status) l p :
  ~ In p l -> get (fold_right (fun x acc => set acc x (f x)) [] l) p = SOwn.
Proof.
  induction l as [|x l IH]; [reflexivity|]. intros Hn. cbn [fold_right].
  rewrite get_set. destruct (Pos.eqb_spec p x) as [->|Hne]; [destruct Hn; left; reflexivity|].
  apply IH. intros H. apply Hn. right. exact H.
Qed.

Lemma get_notin_keys S1 S2 p : ~ In p (keys S1 S2) -> get S1 p = SOwn /\ get S2 p = SOwn.
Proof. unfold keys. rewrite in_app_iff. intros H. split; apply get_notin; tauto. Qed.

Lemma get_meet S1 S2 p : get (meet_smap S1 S2) p = status_meet (get S1 p) (get S2 p).
Proof.
  unfold meet_smap.
  destruct (in_dec Pos.eq_dec p (keys S1 S2)) as [H|H].
  - apply get_fold_in. exact H.
  - rewrite get_fold_notin by exact H. destruct (get_notin_keys _ _ _ H) as [-> ->]. reflexivity.
Qed.

Definition stle (x y : status) : Prop := x = SDead \/ x = y.

Lemma status_le_spec x y : status_le x y = true -> stle x y.
Proof.
  unfold status_le, stle. destruct x; auto; intros H; right; apply status_eqb_eq; exact H.
Qed.

Lemma stle_refl x : stle x x.
Proof. right. reflexivity. Qed.

Lemma stle_trans x y z : stle x y -> stle y z -> stle x z.
Proof. unfold stle. intros [H1|H1] [H2|H2]; subst; auto. Qed.

Lemma stle_meet_l x y : stle (status_meet x y) x.
Proof. unfold status_meet, stle. destruct (status_eqb x y); auto. Qed.

Lemma stle_meet_r x y : stle (status_meet x y) y.
Proof.
  unfold status_meet, stle. destruct (status_eqb x y) eqn:E; auto.
  apply status_eqb_eq in E. auto.
Qed.

Lemma stle_own x : stle SOwn x -> x = SOwn.
Proof. intros [H|H]; [discriminate | auto]. Qed.

Definition sle (a b : astate) : Prop :=
  (forall x, In x (fst a) -> In x (fst b)) /\ (forall p, stle (get (snd a) p) (get (snd b) p)).

Lemma le_state_spec a b : le_state a b = true -> sle a b.
Proof.
  unfold le_state, sle. intros H. apply andb_true_iff in H. destruct H as [H1 H2].
  split; [apply subset_spec; exact H1|].
  intros p. unfold le_smap in H2. rewrite forallb_forall in H2.
  destruct (in_dec Pos.eq_dec p (keys (snd a) (snd b))) as [Hin|Hn].
  - apply status_le_spec. apply H2. exact Hin.
  - destruct (get_notin_keys _ _ _ Hn) as [-> ->]. apply stle_refl.
Qed.

Lemma sle_refl a : sle a a.
Proof. split; auto. intros p. apply stle_refl. Qed.

Lemma sle_trans a b c : sle a b -> sle b c -> sle a c.
Proof. intros [H1 H2] [H3 H4]. split; auto. intros p. eapply stle_trans; eauto. Qed.

Lemma sle_meet_l a b : sle (meet_state a b) a.
Proof.
  split; simpl.
  - intros x Hx. apply In_inter in Hx. tauto.
  - intros p. rewrite get_meet. apply stle_meet_l.
Qed.

Lemma sle_meet_r a b : sle (meet_state a b) b.
Proof.
  split; simpl.
  - intros x Hx. apply In_inter in Hx. tauto.
  - intros p. rewrite get_meet. apply stle_meet_r.
Qed.

(* [ole], [ole_b], [meet_opt] are [optle sle], [optleb le_state], [optmeet meet_state] of MutexSet.v *)
Definition ole (x y : option astate) : Prop :=
  match y with
  | None => True
  | Some b => exists a, x = Some a /\ sle a b
  end.

Lemma ole_b_spec x y : ole_b x y = true -> ole x y.
Proof. exact (optleb_le sle le_state le_state_spec x y). Qed.

Lemma ole_refl x : ole x x.
Proof. exact (optle_refl sle sle_refl x). Qed.

Lemma ole_refl_eq x y : x = y -> ole x y.
Proof. intros ->. apply ole_refl. Qed.

Lemma ole_trans x y z : ole x y -> ole y z -> ole x z.
Proof. exact (optle_trans sle sle_trans x y z). Qed.

Lemma ole_pre x a a' : ole x (Some a) -> sle a a' -> ole x (Some a').
Proof. exact (optle_pre sle sle_trans x a a'). Qed.

Lemma ole_meet_l x y : ole (meet_opt x y) x.
Proof. exact (optle_meet_l sle meet_state sle_refl sle_meet_l x y). Qed.

Lemma ole_meet_r x y : ole (meet_opt x y) y.
Proof. exact (optle_meet_r sle meet_state sle_refl sle_meet_r x y). Qed.

Definition ole4 (e e' : exits) : Prop :=
  ole (ex_norm e) (ex_norm e') /\ ole (ex_ret e) (ex_ret e') /\
  ole (ex_brk e) (ex_brk e') /\ ole (ex_cnt e) (ex_cnt e').

Lemma ole4_refl e : ole4 e e.
Proof. repeat split; apply ole_refl. Qed.

Lemma ole4_meet_l e1 e2 : ole4 (meet_exits e1 e2) e1.
Proof. repeat split; apply ole_meet_l. Qed.

Lemma ole4_meet_r e1 e2 : ole4 (meet_exits e1 e2) e2.
Proof. repeat split; apply ole_meet_r. Qed.

Lemma ole4_trans e1 e2 e3 : ole4 e1 e2 -> ole4 e2 e3 -> ole4 e1 e3.
Proof. intros [A [B [C D]]] [A' [B' [C' D']]]. repeat split; eapply ole_trans; eauto. Qed.

Definition lpost (act : action) (L : lockset) : lockset :=
  match act with ALock m => add m L | AUnlock m => remove m L | ATau => L end.

Section Judgment.
Variable ql : queue -> option mutex.

(* leaf rules may forget part of the pre-state (b below a), as wt_loop does with I *)
Inductive wt : astate -> stmt -> exits -> Prop :=
| wt_skip a e : ole (ex_norm e) (Some a) -> wt a Skip e
| wt_seq a s1 s2 e1 e2 e :
    wt a s1 e1 ->
    (forall a1, ex_norm e1 = Some a1 -> wt a1 s2 e2) ->
    (forall a1, ex_norm e1 = Some a1 -> ole4 e e2) ->
    ole (ex_ret e) (ex_ret e1) -> ole (ex_brk e) (ex_brk e1) -> ole (ex_cnt e) (ex_cnt e1) ->
    wt a (Seq s1 s2) e
| wt_if a s1 s2 e1 e2 e : wt a s1 e1 -> wt a s2 e2 -> ole4 e e1 -> ole4 e e2 -> wt a (If s1 s2) e
| wt_loop a I s eb e :
    wt I s eb -> sle I a -> ole (Some I) (ex_norm eb) -> ole (Some I) (ex_cnt eb) ->
    ole (ex_norm e) (ex_brk eb) -> ole (ex_ret e) (ex_ret eb) -> wt a (Loop s) e
| wt_break a e : ole (ex_brk e) (Some a) -> wt a Break e
| wt_continue a e : ole (ex_cnt e) (Some a) -> wt a Continue e
| wt_return a e : ole (ex_ret e) (Some a) -> wt a Return e
| wt_noreturn a e : wt a NoReturn e
| wt_scope a s eb e :
    wt a s eb ->
    ole (ex_norm e) (ex_norm eb) -> ole (ex_norm e) (ex_ret eb) ->
    ole (ex_norm e) (ex_brk eb) -> ole (ex_norm e) (ex_cnt eb) -> wt a (Scope s) e
| wt_wait a b m e :
    ole (ex_norm e) (Some (add m (remove m (fst b)), snd b)) -> sle b a -> wt a (Wait m) e
| wt_atom a b s a' e : xfer ql s b = Some a' -> sle b a -> ole (ex_norm e) (Some a') -> wt a s e.

Lemma wt_strengthen a s e : wt a s e -> forall a', sle a a' -> wt a' s e.
Proof. induction 1; intros a2 Hle; solve [econstructor; eauto using ole_pre, sle_trans]. Qed.

(* weaker exits are accepted as well: every rule ends in [ole]s on its exits *)
Lemma wt_weaken_exits a s e : wt a s e -> forall e', ole4 e' e -> wt a s e'.
Proof.
  induction 1; intros e' Hle; pose proof Hle as [Hn [Hr [Hb Hc]]];
    solve [econstructor; eauto using ole_trans, ole4_trans].
Qed.

Inductive wtk : astate -> cont -> Prop :=
| wtk_nil a : wtk a []
| wtk_stmt a s k e :
    wt a s e ->
    (forall x, ex_norm e = Some x -> wtk x k) ->
    (forall x, ex_ret e = Some x -> wtk x (unwind_ret k)) ->
    (forall x, ex_brk e = Some x -> wtk x (unwind_break k)) ->
    (forall x, ex_cnt e = Some x -> wtk x (unwind_cont k)) ->
    wtk a (IS s :: k)
| wtk_iscope a k : wtk a k -> wtk a (IScope :: k)
| wtk_iloop a s k : wtk a (IS (Loop s) :: k) -> wtk a (ILoop s :: k).

Lemma wtk_strengthen a k : wtk a k -> forall a', sle a a' -> wtk a' k.
Proof. induction 1; intros a' Hle; econstructor; eauto using wt_strengthen. Qed.

Lemma ole_wtk x y k :
  ole x y -> (forall a, x = Some a -> wtk a k) -> forall b, y = Some b -> wtk b k.
Proof. intros Hle Hx b ->. destruct Hle as [a [-> Hab]]. eapply wtk_strengthen; eauto. Qed.

Lemma ole_wtk_some a y k : ole (Some a) y -> wtk a k -> forall b, y = Some b -> wtk b k.
Proof. intros Hle Hk. apply (ole_wtk _ _ _ Hle). intros ? [= <-]. exact Hk. Qed.

Definition holds (L : lockset) (own : mutex -> option nat) (i : nat) : Prop :=
  forall m, In m L -> own m = Some i.

Lemma holds_lpost i act own L : holds L own i -> holds (lpost act L) (owner_after i act own) i.
Proof.
  intros Hh m Hm. destruct act as [|m'|m']; simpl in *; auto.
  - apply In_add in Hm. unfold upd. destruct (Pos.eqb_spec m m'); auto. destruct Hm; [contradiction | auto].
  - apply In_remove in Hm. destruct Hm as [Hm Hne].
    destruct (own m') as [j|]; auto. destruct (Nat.eqb j i); auto.
    unfold upd. destruct (Pos.eqb_spec m m'); [contradiction | auto].
Qed.

Definition pts (i : nat) (h : heap_t) (s : status) (o : obj) : Prop :=
  match s with SOwn => h o = OHeld i | SShr m => h o = OShared m | SDead => True end.

Record J (i : nat) (S : smap) (e : env) (h : heap_t) : Prop := mkJ {
  J_pts : forall p o, e p = Some o -> pts i h (get S p) o;
  J_sep : forall p p' o, e p = Some o -> e p' = Some o -> get S p = SOwn -> get S p' = SOwn -> p = p'
}.

Lemma J_weaken i S S' e h : (forall p, stle (get S p) (get S' p)) -> J i S' e h -> J i S e h.
Proof.
  intros Hle [A B]. split.
  - intros p o E. destruct (Hle p) as [-> | ->]; [exact I | auto].
  - intros p p' o E E' G G'. pose proof (Hle p) as Hp. pose proof (Hle p') as Hp'.
    rewrite G in Hp. rewrite G' in Hp'. apply stle_own in Hp. apply stle_own in Hp'. eauto.
Qed.

Lemma J_kill i S e h p : J i S e h -> J i (set S p SDead) e h.
Proof.
  apply J_weaken. intros x. rewrite get_set.
  destruct (Pos.eqb x p); [left; reflexivity | apply stle_refl].
Qed.

Lemma conc_weaken i a0 a own e h :
  sle a0 a -> holds (fst a) own i -> J i (snd a) e h -> holds (fst a0) own i /\ J i (snd a0) e h.
Proof. intros [HL HS] Hh HJ. split; [intros m Hm; apply Hh, HL, Hm | eapply J_weaken; eauto]. Qed.

Lemma eupd_eq e p x : eupd e p x p = x.
Proof. unfold eupd. rewrite Pos.eqb_refl. reflexivity. Qed.

Lemma eupd_neq e p x y : y <> p -> eupd e p x y = e y.
Proof. intros H. unfold eupd. destruct (Pos.eqb y p) eqn:E; auto. apply Pos.eqb_eq in E. congruence. Qed.

Lemma hupd_eq h o x : hupd h o x o = x.
Proof. unfold hupd. rewrite Nat.eqb_refl. reflexivity. Qed.

Lemma hupd_neq h o x o' : o' <> o -> hupd h o x o' = h o'.
Proof. intros H. unfold hupd. destruct (Nat.eqb o' o) eqn:E; auto. apply Nat.eqb_eq in E. congruence. Qed.

Lemma held_spec h i o : held h i o = true <-> h o = OHeld i.
Proof.
  unfold held. destruct (h o); split; intros H; try discriminate.
  - apply Nat.eqb_eq in H. subst. reflexivity.
  - inversion H. apply Nat.eqb_refl.
Qed.

Lemma pts_hupd i h s o o' x : pts i h s o' -> (o' = o -> s = SDead) -> pts i (hupd h o x) s o'.
Proof.
  intros P D. destruct (Nat.eq_dec o' o) as [E|N]; [rewrite (D E); exact I|].
  destruct s; simpl; rewrite ?hupd_neq by exact N; exact P.
Qed.

(* variable p gets status s and a new value; the heap may change where only dead variables,
   and p, point *)
Lemma J_set i S e h p s e' h' :
  J i S e h ->
  (forall q, q <> p -> e' q = e q) ->
  (forall q o, q <> p -> e q = Some o -> pts i h (get S q) o -> pts i h' (get S q) o) ->
  (forall o, e' p = Some o ->
     pts i h' s o /\ (s = SOwn -> forall q, q <> p -> e q = Some o -> get S q <> SOwn)) ->
  J i (set S p s) e' h'.
Proof.
  intros [A B] He Hf Hp. split.
  - intros q o E. rewrite get_set. destruct (Pos.eqb_spec q p) as [->|N].
    + apply Hp, E.
    + rewrite He in E by exact N. auto.
  - intros q q' o E E' G G'. rewrite get_set in G, G'.
    destruct (Pos.eqb_spec q p) as [->|N], (Pos.eqb_spec q' p) as [->|N']; auto.
    + rewrite He in E' by exact N'. destruct (proj2 (Hp o E) G q' N' E' G').
    + rewrite He in E by exact N. destruct (proj2 (Hp o E') G' q N E G).
    + rewrite He in E, E' by assumption. eauto.
Qed.

Lemma J_bind i S e h p s x :
  J i S e h ->
  (forall o, x = Some o ->
     pts i h s o /\ (s = SOwn -> forall q, q <> p -> e q = Some o -> get S q <> SOwn)) ->
  J i (set S p s) (eupd e p x) h.
Proof.
  intros HJ Hx. apply (J_set _ _ _ _ _ _ _ _ HJ); auto.
  - intros q N. apply eupd_neq, N.
  - rewrite eupd_eq. exact Hx.
Qed.

(* p is bound to an object that no live variable points to, and that becomes held *)
Lemma J_new i S e h p o :
  J i S e h -> (forall s, pts i h s o -> s = SDead) ->
  J i (set S p SOwn) (eupd e p (Some o)) (hupd h o (OHeld i)).
Proof.
  intros HJ Ho. apply (J_set _ _ _ _ _ _ _ _ HJ).
  - intros q N. apply eupd_neq, N.
  - intros q o' _ E P. apply pts_hupd; [exact P | intros ->; apply Ho, P].
  - rewrite eupd_eq. intros ? [= <-]. split; [apply hupd_eq|].
    intros _ q _ E G. pose proof (J_pts _ _ _ _ HJ q o E) as P. rewrite G in P.
    discriminate (Ho _ P).
Qed.

(* p (SOwn) gives its object away: p becomes dead, or a pointer to the published object *)
Lemma J_give i S e h p st s' :
  J i S e h -> get S p = SOwn ->
  s' = SDead \/ (exists m, s' = SShr m /\ st = OShared m) ->
  J i (set S p s') e (give h i (e p) st).
Proof.
  intros HJ G Hs. unfold give. destruct (e p) as [o|] eqn:E.
  - pose proof (J_pts _ _ _ _ HJ p o E) as Ho. rewrite G in Ho. simpl in Ho.
    rewrite (proj2 (held_spec h i o) Ho). apply (J_set _ _ _ _ _ _ _ _ HJ); auto.
    + (* no other live variable points to o *)
      intros q o' N E' P. apply pts_hupd; [exact P|]. intros ->.
      destruct (get S q) eqn:Gq; simpl in P; [|congruence|reflexivity].
      destruct N. eapply (J_sep _ _ _ _ HJ); eauto.
    + rewrite E. intros ? [= <-]. split.
      * destruct Hs as [->|[m [-> ->]]]; simpl; [exact I | apply hupd_eq].
      * intros ->. destruct Hs as [Hs|[m [Hs _]]]; discriminate.
  - apply (J_set _ _ _ _ _ _ _ _ HJ); auto. rewrite E. discriminate.
Qed.

Lemma give_shr i S e h p m st : J i S e h -> get S p = SShr m -> give h i (e p) st = h.
Proof.
  intros HJ G. unfold give. destruct (e p) as [o|] eqn:E; auto.
  pose proof (J_pts _ _ _ _ HJ p o E) as P. rewrite G in P. unfold held. rewrite P. reflexivity.
Qed.

(* p := r, r dead afterwards *)
Lemma J_move i S e h p r :
  J i S e h -> J i (set (set S r SDead) p (get S r)) (eupd e p (e r)) h.
Proof.
  intros HJ. apply J_bind; [apply J_kill, HJ|]. intros o Er. split; [apply HJ, Er|].
  intros Gr q _ Eq Gq. rewrite get_set in Gq.
  destruct (Pos.eqb_spec q r) as [->|N]; [discriminate|]. apply N. eapply (J_sep _ _ _ _ HJ); eauto.
Qed.

Lemma xfer_sound i s k e h act k' e' h' a a' own :
  lstep i (IS s :: k) e h act k' e' h' ->
  xfer ql s a = Some a' ->
  holds (fst a) own i -> J i (snd a) e h ->
  k' = k /\ holds (fst a') (owner_after i act own) i /\ J i (snd a') e' h'.
Proof.
  intros Hstep Hx Hh HJ. destruct a as [L S]. simpl in Hh, HJ.
  (* only Lock and Unlock change the locks *)
  assert (Hfin : forall S', act = ATau -> k' = k -> Some (L, S') = Some a' -> J i S' e' h' ->
                 k' = k /\ holds (fst a') (owner_after i act own) i /\ J i (snd a') e' h')
    by (intros S' -> -> [= <-] HJ'; auto).
  inversion Hstep; subst; simpl in Hx; try discriminate.
  - injection Hx as <-. split; auto. split; auto. apply (holds_lpost i (ALock m)), Hh.
  - injection Hx as <-. split; auto. split; auto. apply (holds_lpost i (AUnlock m)), Hh.
  - eapply Hfin; eauto. apply J_new; auto. intros [] P; simpl in P; congruence.
  - destruct (q_held ql (L, S) q); [|discriminate].
    eapply Hfin; eauto. apply J_new; auto. intros [] P; simpl in P; congruence.
  - (* Deq, the slot held NULL *) destruct (q_held ql (L, S) q); [|discriminate].
    eapply Hfin; eauto. apply J_bind; auto. discriminate.
  - destruct (get S p) eqn:G; try discriminate.
    eapply Hfin; eauto. apply J_give; auto.
  - unfold acc_ok in Hx. simpl in Hx.
    destruct (get S p) eqn:G; [| destruct (mem m L); [|discriminate] | discriminate]; eapply Hfin; eauto.
    + apply J_give; auto.
    + rewrite (give_shr _ _ _ _ _ _ _ HJ G). apply J_kill, HJ.
  - destruct (acc_ok (L, S) p); [|discriminate]. eapply Hfin; eauto.
  - destruct (Pos.eqb_spec p r) as [->|N]; eapply Hfin; eauto using J_move.
    eapply J_weaken; [|apply (J_move _ _ _ _ r r HJ)].
    intros x. rewrite !get_set. destruct (Pos.eqb_spec x r) as [->|]; apply stle_refl.
  - eapply Hfin; eauto. apply J_bind; auto. discriminate.
  - destruct (get S p) eqn:G; [| destruct (Pos.eqb m0 m); [|discriminate] | discriminate]; eapply Hfin; eauto.
    + apply J_give; auto. right. eauto.
    + rewrite (give_shr _ _ _ _ _ _ _ HJ G). exact HJ.
  - eapply Hfin; eauto. apply J_bind; auto.
    intros ? [= <-]. split; [assumption | discriminate].
  - (* Borrow, nothing published *) eapply Hfin; eauto. apply J_bind; auto. discriminate.
  - destruct (q_held ql (L, S) q); [|discriminate]. eapply Hfin; eauto.
  - destruct (mem m L); [|discriminate]. eapply Hfin; eauto.
Qed.

Lemma lstep_preserves i k e h act k' e' h' :
  lstep i k e h act k' e' h' ->
  forall a own, wtk a k -> holds (fst a) own i -> J i (snd a) e h ->
  exists a', wtk a' k' /\ holds (fst a') (owner_after i act own) i /\ J i (snd a') e' h'.
Proof.
  intros Hstep a own Hk Hh HJ.
  (* control steps keep the abstract state, the environment and the heap *)
  assert (Hctl : act = ATau -> e' = e -> h' = h -> wtk a k' ->
                 exists a', wtk a' k' /\ holds (fst a') (owner_after i act own) i /\ J i (snd a') e' h')
    by (intros -> -> -> Hk'; exists a; auto).
  inversion Hk as [ | ? s k0 e0 Hw Kn Kr Kb Kc | | ]; subst;
    [inversion Hstep | inversion Hw; subst | inversion Hstep; subst; apply Hctl; auto ..].
  (* one-step statements *)
  all: try (edestruct conc_weaken as [Hh0 HJ0]; [eassumption | exact Hh | exact HJ |];
            edestruct xfer_sound as [-> HhJ]; [exact Hstep | eassumption | exact Hh0 | exact HJ0 |];
            exists a'; split; [eapply ole_wtk; eauto | exact HhJ]; fail).
  all: inversion Hstep; subst; try (apply Hctl; [reflexivity ..|]).
  (* statements whose rule is an [ole] of one exit to the pre-state *)
  all: try (eapply ole_wtk; eauto; fail).
  (* If: one sub-statement with the same exits *)
  all: try (eapply wtk_stmt with (e := e0); eauto using wt_weaken_exits; fail).
  - (* Seq: a return, break or continue of s1 skips s2; s2 is typed at the exits of the whole *)
    eapply wtk_stmt with (e := e1); simpl; eauto 3 using ole_wtk.
    intros x Hx. eapply wtk_stmt with (e := e0); [eapply wt_weaken_exits; eauto | ..]; assumption.
  - (* Loop: the body re-enters the loop at the invariant I, break leaves to k0 *)
    assert (HL : wtk I (ILoop s0 :: k0)).
    { apply wtk_iloop. eapply wtk_stmt with (e := e0); eauto.
      eapply wt_loop with (I := I); eauto using sle_refl. }
    eapply wtk_stmt with (e := eb); simpl; eauto 3 using wt_strengthen, ole_wtk, ole_wtk_some.
  - (* Scope: every exit of the body leaves the scope *)
    eapply wtk_stmt with (e := eb); simpl; eauto 3 using ole_wtk, wtk_iscope.
  - (* Wait m = Unlock m; Lock m *)
    edestruct conc_weaken as [Hh0 HJ0]; [eassumption | exact Hh | exact HJ |].
    exists (remove m (fst b), snd b). split; [|split; [apply (holds_lpost i (AUnlock m)), Hh0 | exact HJ0]].
    eapply wtk_stmt with (e := e0); eauto.
    eapply wt_atom with (b := (remove m (fst b), snd b)); [reflexivity | apply sle_refl | assumption].
Qed.
End Judgment.

Lemma flow_Loop ql s a :
  exists inv, flow ql (Loop s) a =
    match flow ql s inv with
    | None => None
    | Some eb =>
        if le_state inv a && ole_b (Some inv) (ex_norm eb) && ole_b (Some inv) (ex_cnt eb)
        then Some (mkExits (ex_brk eb) (ex_ret eb) None None)
        else None
    end.
Proof. eexists. reflexivity. Qed.

Lemma flow_sound ql s : forall a e, flow ql s a = Some e -> wt ql a s e.
Proof.
  induction s; intros a e H.
  (* statements without sub-statements: their rule, at the exits [flow] returns *)
  all: try (injection H as <-; econstructor; cbn [ex_norm norm_only]; eauto using ole_refl, sle_refl; fail).
  all: try (cbn [flow] in H; destruct (xfer ql _ a) as [a'|] eqn:X; [|discriminate];
            injection H as <-; eapply wt_atom; eauto using ole_refl, sle_refl; fail).
  - cbn [flow] in H.
    destruct (flow ql s1 a) as [e1|] eqn:E1; [|discriminate].
    destruct (ex_norm e1) as [a1|] eqn:N1.
    + destruct (flow ql s2 a1) as [e2|] eqn:E2; [|discriminate]. injection H as <-.
      eapply wt_seq with (e1 := e1) (e2 := e2); simpl; auto using ole_meet_l.
      * intros x Hx. replace x with a1 by congruence. auto.
      * intros x _. repeat split; simpl; auto using ole_refl, ole_meet_r.
    + injection H as <-.
      eapply wt_seq with (e1 := e1) (e2 := no_exits); auto using ole_refl; congruence.
  - cbn [flow] in H.
    destruct (flow ql s1 a) as [e1|] eqn:E1; [|discriminate].
    destruct (flow ql s2 a) as [e2|] eqn:E2; [|discriminate]. injection H as <-.
    eapply wt_if with (e1 := e1) (e2 := e2); auto using ole4_meet_l, ole4_meet_r.
  - (* Loop: [flow] has verified that its candidate is an invariant *)
    destruct (flow_Loop ql s a) as [inv E]. rewrite E in H. clear E.
    destruct (flow ql s inv) as [eb|] eqn:E1; [|discriminate].
    destruct (le_state inv a && ole_b (Some inv) (ex_norm eb) && ole_b (Some inv) (ex_cnt eb)) eqn:C; [|discriminate].
    injection H as <-. rewrite !andb_true_iff in C. destruct C as [[C1 C2] C3].
    eapply wt_loop with (I := inv) (eb := eb); simpl; auto using le_state_spec, ole_b_spec, ole_refl.
  - cbn [flow] in H.
    destruct (flow ql s a) as [eb|] eqn:E1; [|discriminate]. injection H as <-.
    eapply wt_scope with (eb := eb); simpl; eauto using ole_trans, ole_meet_l, ole_meet_r.
Qed.

Lemma nth_set_nth {A} (l : list A) : forall i j x t y,
  nth_error l i = Some t -> nth_error (set_nth i x l) j = Some y ->
  (j = i /\ y = x) \/ (j <> i /\ nth_error l j = Some y).
Proof.
  induction l as [|z l IH]; intros [|i] [|j] x t y Hi Hj; simpl in *; try discriminate; auto.
  - left. split; congruence.
  - destruct (IH i j x t y Hi Hj) as [[-> ->]|[Hne Hj0]]; auto.
Qed.

(* a step of thread i changes only objects that are free, queued, or held by i: what the
   live variables of another thread j point to stays *)
Lemma pts_give i j h x st s o : j <> i -> pts j h s o -> pts j (give h i x st) s o.
Proof.
  intros N P. unfold give. destruct x as [o'|]; auto. destruct (held h i o') eqn:Hh; auto.
  apply held_spec in Hh. apply pts_hupd; auto. intros ->. destruct s; simpl in P; congruence.
Qed.

Lemma pts_other i j k e h act k' e' h' s o :
  lstep i k e h act k' e' h' -> j <> i -> pts j h s o -> pts j h' s o.
Proof.
  intros Hs N P. destruct Hs; auto using pts_give.
  all: apply pts_hupd; auto; intros ->; destruct s; simpl in P; congruence.
Qed.

Lemma own_after_other i j act (o : mutex -> option nat) m :
  j <> i -> enabled act o -> o m = Some j -> owner_after i act o m = Some j.
Proof.
  intros Hne Hen Hm. destruct act; simpl in *; auto.
  - unfold upd. destruct (Pos.eqb_spec m m0); [congruence | auto].
  - destruct (o m0) as [j'|] eqn:Eo; auto. destruct (Nat.eqb_spec j' i); auto.
    unfold upd. destruct (Pos.eqb_spec m m0); [congruence | auto].
Qed.

Section Global.
Variable p : program.
Hypothesis Hchk : own_check p = true.

Definition inv (c : config) : Prop :=
  forall i t, nth_error (threads c) i = Some t ->
    exists a, wtk (qlock p) a (th_cont t) /\ holds (fst a) (owner c) i /\
              J i (snd a) (th_env t) (heap c).

Lemma inv_init c : initial p c -> inv c.
Proof.
  intros [Hown [Hheap Hthr]] i t Hi.
  destruct (Hthr i t Hi) as [Henv [n [b [body [Hin Hc]]]]].
  unfold own_check in Hchk. rewrite forallb_forall in Hchk.
  specialize (Hchk _ Hin). simpl in Hchk. unfold check_thread in Hchk.
  destruct (flow (qlock p) body init_state) as [e|] eqn:E; [|discriminate].
  exists init_state. split; [|split].
  - rewrite Hc. eapply wtk_stmt with (e := e); [apply flow_sound; exact E | | | |]; intros; apply wtk_nil.
  - intros m [].
  - split; [intros x o E' | intros x y o E']; rewrite Henv in E'; discriminate.
Qed.

Lemma inv_step c c' : step c c' -> inv c -> inv c'.
Proof.
  intros Hstep Hinv. destruct Hstep as [c i t act k' e' h' Hi Hts Hen].
  intros j tj' Hj. simpl in Hj.
  destruct (nth_set_nth _ _ _ _ _ _ Hi Hj) as [[-> ->]|[Hne Hj0]].
  - destruct (Hinv i t Hi) as [a [Hk [Hh HJ]]].
    apply (lstep_preserves (qlock p) _ _ _ _ _ _ _ _ Hts a (owner c) Hk Hh HJ).
  - destruct (Hinv j tj' Hj0) as [a [Hk [Hh HJ]]].
    exists a. simpl. split; [exact Hk|]. split.
    + intros m Hm. apply own_after_other; auto.
    + destruct HJ as [A B]. split; [|exact B]. intros x o E. eapply pts_other; eauto.
Qed.

Lemma inv_reachable c : reachable p c -> inv c.
Proof.
  induction 1.
  - apply inv_init. assumption.
  - eapply inv_step; eauto.
Qed.

Lemma wtk_head_atom a s k :
  wtk (qlock p) a (IS s :: k) -> atomic s = true ->
  exists a0 a', sle a0 a /\ xfer (qlock p) s a0 = Some a'.
Proof.
  intros Hk Hat. inversion Hk as [ | ? ? ? e Hw | | ]; subst.
  inversion Hw; subst; simpl in Hat; try discriminate. exists b, a'. auto.
Qed.

Lemma acc_ok_entitled c i t a x o :
  holds (fst a) (owner c) i -> J i (snd a) (th_env t) (heap c) ->
  acc_ok a x = true -> th_env t x = Some o -> may_access p c i o.
Proof.
  intros Hh HJ Hok E. unfold acc_ok in Hok. pose proof (J_pts _ _ _ _ HJ x o E) as P.
  destruct (get (snd a) x); try discriminate.
  - left. exact P.
  - right. right. exists m. split; [exact P|]. apply Hh. apply mem_In. exact Hok.
Qed.

Lemma inv_entitled c : inv c ->
  forall i t o, nth_error (threads c) i = Some t -> about_to_access t (heap c) o -> may_access p c i o.
Proof.
  intros Hinv i t o Hi Ha. destruct (Hinv i t Hi) as [a [Hk [Hh HJ]]].
  unfold about_to_access in Ha.
  destruct (th_cont t) as [|[s| |s] k] eqn:Ek; try contradiction.
  destruct s; try contradiction;
    destruct (wtk_head_atom _ _ _ Hk eq_refl) as [a0 [a' [Hle Hx]]];
    destruct (conc_weaken _ _ _ _ _ _ Hle Hh HJ) as [Hh0 HJ0]; destruct a0 as [L S]; simpl in Hx.
  - destruct (acc_ok (L, S) p0) eqn:A; [|discriminate]. eapply acc_ok_entitled; eauto.
  - destruct (acc_ok (L, S) p0) eqn:A; [|discriminate]. eapply acc_ok_entitled; eauto.
  - unfold q_held in Hx. simpl in Hx. destruct (qlock p q) as [m|] eqn:Q; [|discriminate].
    destruct (mem m L) eqn:M; [|discriminate].
    right. left. exists q, m. repeat split; auto. apply Hh0. apply mem_In. exact M.
  - destruct (mem m L) eqn:M; [|discriminate].
    right. right. exists m. split; auto. apply Hh0. apply mem_In. exact M.
Qed.
End Global.

(* entitlement is exclusive: an object has one state and a mutex one owner *)
Theorem may_access_exclusive p c i j o : may_access p c i o -> may_access p c j o -> i = j.
Proof.
  intros [H1|[[q [m [H1 [H2 H3]]]]|[m [H1 H2]]]] [H4|[[q' [m' [H4 [H5 H6]]]]|[m' [H4 H5]]]]; try congruence.
  all: rewrite H1 in H4; inversion H4; subst; try (rewrite H2 in H5; inversion H5; subst); congruence.
Qed.

Theorem own_sound p :
  own_check p = true ->
  forall c, reachable p c ->
  forall i t o, nth_error (threads c) i = Some t -> about_to_access t (heap c) o -> may_access p c i o.
Proof.
  intros Hc c Hr. apply inv_entitled; auto. apply inv_reachable; auto.
Qed.

Theorem own_no_race p :
  own_check p = true -> forall c, reachable p c -> ~ heap_race c.
Proof.
  intros Hc c Hr [i [j [ti [tj [o [Hne [Hi [Hj [Ai Aj]]]]]]]]].
  apply Hne. eapply (may_access_exclusive p c i j o); eapply own_sound; eauto.
Qed.

Theorem own_entitled_all scs :
  own_check_all scs = true ->
  forall name p, In (name, p) scs ->
  forall c, reachable p c ->
  forall i t o, nth_error (threads c) i = Some t -> about_to_access t (heap c) o -> may_access p c i o.
Proof.
  unfold own_check_all. intros H name p Hin. rewrite forallb_forall in H.
  apply own_sound. apply (H _ Hin).
Qed.

Theorem own_sound_all scs :
  own_check_all scs = true ->
  forall name p, In (name, p) scs ->
  forall c, reachable p c -> ~ heap_race c.
Proof.
  unfold own_check_all. intros H name p Hin. rewrite forallb_forall in H.
  apply own_no_race. apply (H _ Hin).
Qed.

Print Assumptions own_sound.
Print Assumptions own_no_race.
