(* C12 (heap part) - non-vacuity: the seeded defect pattern in miniature.

   producer:  p = malloc; lock; enqueue(q, p); unlock; p->f        (touches p AFTER hand-over)
   consumer:  lock; r = dequeue(q); unlock; r->f
   The checker rejects it, and a concrete interleaving reaches a configuration in which
   both threads are about to touch the same object (the consumer holds it, the producer
   does not and owns no mutex).  With the access moved before the hand-over the skeleton
   is accepted. *)
From Coq Require Import List PArith Bool Arith.
From LBZ Require Import Lock.OwnLang Lock.OwnCheck Lock.OwnSound.
From LBZ Require Lock.Ownership.
Local Open Scope positive_scope.

Definition consumer : stmt :=
  Seq (Lock 1) (Seq (Deq 2 1) (Seq (Unlock 1) (Access 2 2))).

Definition producer_racy : stmt :=
  Seq (New 1) (Seq (Lock 1) (Seq (Enq 1 1) (Seq (Unlock 1) (Access 1 1)))).

Definition producer_ok : stmt :=
  Seq (New 1) (Seq (Access 1 1) (Seq (Lock 1) (Seq (Enq 1 1) (Unlock 1)))).

Definition racy : program :=
  mkProgram [("producer"%string, false, producer_racy); ("consumer"%string, true, consumer)] [(1, 1)].
Definition handover_ok : program :=
  mkProgram [("producer"%string, false, producer_ok); ("consumer"%string, true, consumer)] [(1, 1)].

Lemma racy_rejected : own_check racy = false.
Proof. vm_compute. reflexivity. Qed.

Lemma handover_accepted : own_check handover_ok = true.
Proof. vm_compute. reflexivity. Qed.

Lemma deq_unlocked_rejected :
  own_check (mkProgram [("t"%string, false, Seq (Deq 1 1) (Access 1 1))] [(1, 1)]) = false.
Proof. vm_compute. reflexivity. Qed.
Lemma peek_unlocked_rejected :
  own_check (mkProgram [("t"%string, false, AccQ 1 1)] [(1, 1)]) = false.
Proof. vm_compute. reflexivity. Qed.
Lemma shared_unlocked_rejected :
  own_check (mkProgram [("t"%string, false, Seq (Borrow 1 1) (Access 1 1))] [(1, 1)]) = false.
Proof. vm_compute. reflexivity. Qed.
Lemma shared_locked_accepted :
  own_check (mkProgram [("t"%string, false,
     Seq (New 1) (Seq (Lock 1) (Seq (Share 1 1) (Seq (Access 1 1) (Seq (Unlock 1)
     (Seq (Lock 1) (Seq (Access 1 2) (Unlock 1))))))))] [(1, 1)]) = true.
Proof. vm_compute. reflexivity. Qed.
(* a pointer copy kills the source; a loop that hands over must re-acquire *)
Lemma copy_then_use_rejected :
  own_check (mkProgram [("t"%string, false, Seq (New 1) (Seq (Move 2 1) (Access 1 1)))] []) = false.
Proof. vm_compute. reflexivity. Qed.
Lemma loop_handover_rejected :
  own_check (mkProgram [("t"%string, false,
     Seq (New 1) (Loop (Seq (Access 1 1) (Seq (Lock 1) (Seq (Enq 1 1) (Unlock 1))))))] [(1, 1)]) = false.
Proof. vm_compute. reflexivity. Qed.
Lemma loop_reacquire_accepted :
  own_check (mkProgram [("t"%string, false,
     Loop (Seq (New 1) (Seq (Access 1 1) (Seq (Lock 1) (Seq (Enq 1 1) (Unlock 1))))))] [(1, 1)]) = true.
Proof. vm_compute. reflexivity. Qed.

Inductive steps : config -> config -> Prop :=
| steps_nil c : steps c c
| steps_cons c c' c'' : step c c' -> steps c' c'' -> steps c c''.

Lemma reachable_steps p c c' : reachable p c -> steps c c' -> reachable p c'.
Proof.
  intros Hr Hs. induction Hs; auto. apply IHHs. eapply reach_step; eauto.
Qed.

Definition env0 : env := fun _ => None.
Definition cfg0 : config :=
  mkCfg [mkThread [IS producer_racy] env0; mkThread [IS consumer] env0] (fun _ => None) (fun _ => OFree).

Lemma cfg0_initial : initial racy cfg0.
Proof.
  split; [reflexivity|]. split; [reflexivity|].
  intros i t Hi. destruct i as [|[|i]]; simpl in Hi; inversion Hi; subst; simpl.
  - split; [reflexivity|]. exists "producer"%string, false, producer_racy. split; [left; reflexivity | reflexivity].
  - split; [reflexivity|]. exists "consumer"%string, true, consumer. split; [right; left; reflexivity | reflexivity].
  - destruct i; discriminate.
Qed.

Ltac st n C :=
  eapply steps_cons;
  [ eapply step_thread with (i := n); [reflexivity | C | simpl; auto] | ];
  cbn [set_nth th_cont th_env threads owner heap].

Definition racy_final (c : config) : Prop :=
  exists e0 e1, threads c = [mkThread [IS (Access 1 1)] e0; mkThread [IS (Access 2 2)] e1] /\
    e0 1 = Some 0%nat /\ e1 2 = Some 0%nat /\ heap c 0%nat = OHeld 1 /\ (forall m, owner c m = None).

Lemma racy_run : exists c, steps cfg0 c /\ racy_final c.
Proof.
  eexists. split.
  - unfold cfg0, producer_racy, consumer.
    st 0%nat ltac:(apply ls_seq).
    st 0%nat ltac:(apply (ls_new 0 1 0%nat); reflexivity).
    st 0%nat ltac:(apply ls_seq).
    st 0%nat ltac:(apply ls_lock).
    st 0%nat ltac:(apply ls_seq).
    st 0%nat ltac:(apply ls_enq).
    st 0%nat ltac:(apply ls_seq).
    st 0%nat ltac:(apply ls_unlock).
    st 1%nat ltac:(apply ls_seq).
    st 1%nat ltac:(apply ls_lock).
    st 1%nat ltac:(apply ls_seq).
    st 1%nat ltac:(apply (ls_deq 1 2 1 0%nat); reflexivity).
    st 1%nat ltac:(apply ls_seq).
    st 1%nat ltac:(apply ls_unlock).
    apply steps_nil.
  - eexists. eexists. split; [reflexivity|]. split; [reflexivity|]. split; [reflexivity|].
    split; [reflexivity|]. intros m. cbn. unfold upd.
    destruct (Pos.eqb m 1) eqn:E; reflexivity.
Qed.

Theorem racy_has_race : exists c, reachable racy c /\ heap_race c.
Proof.
  destruct racy_run as [c [Hs [e0 [e1 [Ht [H0 [H1 [Hh Ho]]]]]]]].
  exists c. split.
  - eapply reachable_steps; [apply reach_init; apply cfg0_initial | exact Hs].
  - exists 0%nat, 1%nat, (mkThread [IS (Access 1 1)] e0), (mkThread [IS (Access 2 2)] e1), 0%nat.
    rewrite Ht. repeat split; auto.
Qed.

Theorem racy_not_entitled :
  exists c t o, reachable racy c /\ nth_error (threads c) 0 = Some t /\
                about_to_access t (heap c) o /\ ~ may_access racy c 0 o.
Proof.
  destruct racy_run as [c [Hs [e0 [e1 [Ht [H0 [H1 [Hh Ho]]]]]]]].
  exists c, (mkThread [IS (Access 1 1)] e0), 0%nat. split; [|split; [|split]].
  - eapply reachable_steps; [apply reach_init; apply cfg0_initial | exact Hs].
  - rewrite Ht. reflexivity.
  - exact H0.
  - intros [H|[[q [m [H _]]]|[m [H _]]]]; rewrite Hh in H; discriminate.
Qed.

(* Relation to the abstract model of Lock/Ownership.v: for one mutex m and one queue q
   protected by it, the projection of a configuration to the abstract [Ownership.state]
   maps entitlement there to entitlement here. *)
Definition proj (c : config) (m : mutex) (q : queue) : Ownership.state :=
  Ownership.mkState (owner c m)
    (fun o => match heap c o with
              | OHeld t => Ownership.Held t
              | OInQ q' => if Pos.eqb q' q then Ownership.Queued else Ownership.Freed
              | _ => Ownership.Freed
              end).

Theorem ownership_model_instance p c m q t o :
  qlock p q = Some m ->
  Ownership.may_access (proj c m q) t o -> OwnLang.may_access p c t o.
Proof.
  intros Hq [H|[Hl H]]; unfold proj in *; simpl in *.
  - left. destruct (heap c o) as [|t'|q'|m']; try discriminate.
    + inversion H; subst. reflexivity.
    + destruct (Pos.eqb q' q); discriminate.
  - right. left. destruct (heap c o) as [|t'|q'|m']; try discriminate.
    destruct (Pos.eqb q' q) eqn:E; [|discriminate]. apply Pos.eqb_eq in E. subst.
    exists q, m. auto.
Qed.

Print Assumptions racy_has_race.
Print Assumptions ownership_model_instance.
