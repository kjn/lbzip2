(* C12 - non-vacuity: a two-thread program with an unprotected counter has a reachable
   race and is rejected; with the lock around the access it is accepted. *)
From LBZ Require Import Lock.LockLang Lock.Lockset Lock.LocksetSound.
Local Open Scope positive_scope.

Definition ex_specs : list spec :=
  [mkSpec "worker" 1 true false None true false].
Definition ex_classes : classes :=
  mkClasses [("demo"%string, ex_specs)] (fun _ => true) (fun _ => false).

Definition racy : program := [(1, Some (Seq (Rd 7 1) (Wr 7 2)))].
Definition locked : program := [(1, Some (Seq (Lock 3) (Seq (Rd 7 1) (Seq (Wr 7 2) (Unlock 3)))))].

Definition two (k : cont) : config :=
  mkCfg [mkThread 0 k true; mkThread 0 k true] (fun _ => None).

Lemma racy_rejected : check racy ex_classes = false.
Proof. vm_compute. reflexivity. Qed.

Lemma locked_accepted : check locked ex_classes = true.
Proof. vm_compute. reflexivity. Qed.

Definition k_start : cont := [IS (Call 1)].
Definition k_body : cont := [IS (Seq (Rd 7 1) (Wr 7 2)); IRet].
Definition k_rd : cont := [IS (Rd 7 1); IS (Wr 7 2); IRet].
Definition k_wr : cont := [IS (Wr 7 2); IRet].

Definition cfg2 (k0 k1 : cont) : config :=
  mkCfg [mkThread 0 k0 true; mkThread 0 k1 true] (fun _ => None).

Lemma step_at p specs c i t a k' c' :
  nth_error (threads c) i = Some t ->
  tstep p (spec_main specs (th_spec t)) (th_cont t) a k' ->
  enabled a (owner c) ->
  c' = mkCfg (set_nth i (mkThread (th_spec t) k' (conc_after a (th_conc t))) (threads c)) (owner_after i a (owner c)) ->
  step p specs c c'.
Proof. intros H1 H2 H3 ->. eapply step_thread; eauto. Qed.

Lemma racy_has_race :
  exists cfg, reachable (par_sem racy ex_specs) cfg /\ race ex_classes ex_specs cfg.
Proof.
  exists (cfg2 k_wr k_rd).
  split.
  - (* thread 0: call, seq, read; thread 1: call, seq *)
    assert (R0 : reachable (par_sem racy ex_specs) (cfg2 k_start k_start)).
    { apply reach_init. split; [reflexivity|]. split.
      - intros i t Hi. exists (mkSpec "worker" 1 true false None true false).
        destruct i as [|[|i]]; simpl in Hi; inversion Hi; subst; try (destruct i; discriminate); repeat split.
      - intros i j ti tj Hi Hj _ Hm. destruct i as [|[|i]]; simpl in Hi; inversion Hi; subst;
          try (destruct i; discriminate); discriminate. }
    assert (S1 : reachable (par_sem racy ex_specs) (cfg2 k_body k_start)).
    { eapply reach_step; [exact R0|].
      eapply step_at with (i := 0%nat) (a := ATau); [reflexivity | apply ts_call_int; reflexivity | exact I | reflexivity]. }
    assert (S2 : reachable (par_sem racy ex_specs) (cfg2 k_rd k_start)).
    { eapply reach_step; [exact S1|].
      eapply step_at with (i := 0%nat) (a := ATau); [reflexivity | apply ts_seq | exact I | reflexivity]. }
    assert (S3 : reachable (par_sem racy ex_specs) (cfg2 k_wr k_start)).
    { eapply reach_step; [exact S2|].
      eapply step_at with (i := 0%nat) (a := AAcc false 7 1); [reflexivity | apply ts_rd | exact I | reflexivity]. }
    assert (S4 : reachable (par_sem racy ex_specs) (cfg2 k_wr k_body)).
    { eapply reach_step; [exact S3|].
      eapply step_at with (i := 1%nat) (a := ATau); [reflexivity | apply ts_call_int; reflexivity | exact I | reflexivity]. }
    eapply reach_step; [exact S4|].
    eapply step_at with (i := 1%nat) (a := ATau); [reflexivity | apply ts_seq | exact I | reflexivity].
  - exists 0%nat, 1%nat, (mkThread 0 k_wr true), (mkThread 0 k_rd true), true, false, 7, 2, 1.
    repeat split; try reflexivity; try discriminate.
    intros [[H _] | [[H _] | [H _]]]; discriminate.
Qed.

Lemma locked_race_free :
  forall cfg, reachable (par_sem locked ex_specs) cfg -> ~ race ex_classes ex_specs cfg.
Proof. exact (lockset_sound_all locked ex_classes locked_accepted "demo"%string ex_specs (or_introl eq_refl)). Qed.
