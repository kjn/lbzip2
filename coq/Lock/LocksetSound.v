(* C12 - soundness of the lockset analysis:  check p cl = true  implies that no reachable
   configuration of [par_sem] has a race.  [flow] constructs derivations of a judgment [wt];
   its lifting [wtk] to continuations is preserved by every thread step while the abstract
   state under-approximates the mutexes the thread owns; a mutex has one owner, so two threads
   at conflicting accesses cannot both own the common mutex the pair check found. *)
From Coq Require Import List PArith Bool Arith Lia.
From LBZ Require Import Lock.LockLang Lock.Lockset Lock.MutexSet.

Definition sle (a b : astate) : Prop :=
  (forall x, In x (fst a) -> In x (fst b)) /\ (snd b = true -> snd a = true).

Lemma le_state_spec a b : le_state a b = true -> sle a b.
Proof.
  unfold le_state, sle. rewrite andb_true_iff. intros [H1 H2]. split; [apply subset_spec; exact H1|].
  destruct (snd a), (snd b); auto.
Qed.

Lemma sle_refl a : sle a a.
Proof. split; auto. Qed.

Lemma sle_trans a b c : sle a b -> sle b c -> sle a c.
Proof. intros [H1 H2] [H3 H4]. split; auto. Qed.

Lemma sle_meet_l a b : sle (meet_state a b) a.
Proof.
  split; simpl.
  - intros x Hx. apply In_inter in Hx. tauto.
  - intros ->. reflexivity.
Qed.

Lemma sle_meet_r a b : sle (meet_state a b) b.
Proof.
  split; simpl.
  - intros x Hx. apply In_inter in Hx. tauto.
  - intros ->. apply orb_true_r.
Qed.

(* [ole], [ole_b], [meet_opt] are [optle sle], [optleb le_state], [optmeet meet_state] of MutexSet.v *)
Definition ole (x y : option astate) : Prop :=
  match y with
  | None => True
  | Some b => exists a, x = Some a /\ sle a b
  end.

Lemma ole_b_spec x y : ole_b x y = true -> ole x y.
Proof. exact (optleb_le sle le_state le_state_spec x y). Qed.

Lemma ole_refl x : ole x x.
Proof. exact (optle_refl sle sle_refl x). Qed.

Lemma ole_trans x y z : ole x y -> ole y z -> ole x z.
Proof. exact (optle_trans sle sle_trans x y z). Qed.

Lemma ole_pre x a a' : ole x (Some a) -> sle a a' -> ole x (Some a').
Proof. exact (optle_pre sle sle_trans x a a'). Qed.

Lemma ole_meet_l x y : ole (meet_opt x y) x.
Proof. exact (optle_meet_l sle meet_state sle_refl sle_meet_l x y). Qed.

Lemma ole_meet_r x y : ole (meet_opt x y) y.
Proof. exact (optle_meet_r sle meet_state sle_refl sle_meet_r x y). Qed.

Definition ole4 (e e' : exits) : Prop :=
  ole (ex_norm e) (ex_norm e') /\ ole (ex_ret e) (ex_ret e') /\
  ole (ex_brk e) (ex_brk e') /\ ole (ex_cnt e) (ex_cnt e').

Lemma ole4_refl e : ole4 e e.
Proof. repeat split; apply ole_refl. Qed.

Lemma ole4_meet_l e1 e2 : ole4 (meet_exits e1 e2) e1.
Proof. repeat split; apply ole_meet_l. Qed.

Lemma ole4_meet_r e1 e2 : ole4 (meet_exits e1 e2) e2.
Proof. repeat split; apply ole_meet_r. Qed.

Lemma ole4_trans e1 e2 e3 : ole4 e1 e2 -> ole4 e2 e3 -> ole4 e1 e3.
Proof. intros [A [B [C D]]] [A' [B' [C' D']]]. repeat split; eapply ole_trans; eauto. Qed.

Section Judgment.
Variable F : list fact.
Variable p : program.
Variable ismain : bool.
Variable sp : nat.

Definition covered (v : var) (w : bool) (a : astate) : Prop :=
  exists f, In f F /\ f_spec f = sp /\ f_var f = v /\ f_write f = w /\
            (forall x, In x (f_locks f) -> In x (fst a)) /\ (snd a = true -> f_conc f = true).

Lemma covered_mono v w a a' : sle a a' -> covered v w a -> covered v w a'.
Proof.
  intros [H1 H2] [f [Hin [Hs [Hv [Hw [Hl Hc]]]]]]. exists f. repeat split; auto.
Qed.

Inductive wt : astate -> stmt -> exits -> Prop :=
| wt_skip a e : ole (ex_norm e) (Some a) -> wt a Skip e
| wt_seq a s1 s2 e1 e2 e :
    wt a s1 e1 ->
    (forall a1, ex_norm e1 = Some a1 -> wt a1 s2 e2) ->
    (forall a1, ex_norm e1 = Some a1 -> ole4 e e2) ->
    ole (ex_ret e) (ex_ret e1) -> ole (ex_brk e) (ex_brk e1) -> ole (ex_cnt e) (ex_cnt e1) ->
    wt a (Seq s1 s2) e
| wt_if a s1 s2 e1 e2 e : wt a s1 e1 -> wt a s2 e2 -> ole4 e e1 -> ole4 e e2 -> wt a (If s1 s2) e
| wt_ifmain a s1 s2 e : wt a (if ismain then s1 else s2) e -> wt a (IfMain s1 s2) e
| wt_loop a I s eb e :
    sle I a -> wt I s eb -> ole (Some I) (ex_norm eb) -> ole (Some I) (ex_cnt eb) ->
    ole (ex_norm e) (ex_brk eb) -> ole (ex_ret e) (ex_ret eb) -> wt a (Loop s) e
| wt_break a e : ole (ex_brk e) (Some a) -> wt a Break e
| wt_continue a e : ole (ex_cnt e) (Some a) -> wt a Continue e
| wt_return a e : ole (ex_ret e) (Some a) -> wt a Return e
| wt_noreturn a e : wt a NoReturn e
| wt_lock a m e : ole (ex_norm e) (Some (add m (fst a), snd a)) -> wt a (Lock m) e
| wt_unlock a m e : ole (ex_norm e) (Some (remove m (fst a), snd a)) -> wt a (Unlock m) e
| wt_wait a m e : ole (ex_norm e) (Some (add m (remove m (fst a)), snd a)) -> wt a (Wait m) e
| wt_rd a v st e : covered v false a -> ole (ex_norm e) (Some a) -> wt a (Rd v st) e
| wt_wr a v st e : covered v true a -> ole (ex_norm e) (Some a) -> wt a (Wr v st) e
| wt_call_int a f b eb e :
    lookup p f = Some (Some b) -> wt a b eb ->
    ole (ex_norm e) (ex_norm eb) -> ole (ex_norm e) (ex_ret eb) ->
    ole (ex_norm e) (ex_brk eb) -> ole (ex_norm e) (ex_cnt eb) -> wt a (Call f) e
| wt_call_ext a f e : lookup p f = None -> ole (ex_norm e) (Some a) -> wt a (Call f) e
| wt_callany a fs e : (forall f, In f fs -> wt a (Call f) e) -> wt a (CallAny fs) e
| wt_create a e : ole (ex_norm e) (Some (fst a, true)) -> wt a Create e
| wt_join a (l : bool) e : ole (ex_norm e) (Some (fst a, if l then false else snd a)) -> wt a (Join l) e.

Definition apost (act : action) (a : astate) : astate :=
  match act with
  | ALock m => (add m (fst a), snd a)
  | AUnlock m => (remove m (fst a), snd a)
  | ACreate => (fst a, true)
  | AJoin l => (fst a, if l then false else snd a)
  | _ => a
  end.

Lemma apost_mono act a a' : sle a a' -> sle (apost act a) (apost act a').
Proof.
  intros [H1 H2]. destruct act as [ |m|m| | |[]]; split; simpl; auto; intros x Hx.
  - apply In_add in Hx. apply In_add. intuition.
  - apply In_remove in Hx. apply In_remove. intuition.
Qed.

(* a more precise pre-state is accepted as well: every rule's post-state is an [apost] *)
Lemma wt_strengthen a s e : wt a s e -> forall a', sle a a' -> wt a' s e.
Proof.
  induction 1; intros a' Hle.
  all: try solve [econstructor; eauto using ole_pre, covered_mono].
  - eapply wt_loop with (I := I); eauto using sle_trans.
  - apply wt_lock. eapply ole_pre; eauto. apply (apost_mono (ALock m)), Hle.
  - apply wt_unlock. eapply ole_pre; eauto. apply (apost_mono (AUnlock m)), Hle.
  - apply wt_wait. eapply ole_pre; eauto.
    apply (apost_mono (ALock m) (apost (AUnlock m) a) (apost (AUnlock m) a')), apost_mono, Hle.
  - apply wt_create. eapply ole_pre; eauto. apply (apost_mono ACreate), Hle.
  - apply wt_join. eapply ole_pre; eauto. apply (apost_mono (AJoin l)), Hle.
Qed.

(* weaker exits are accepted as well: every rule ends in [ole]s on its exits *)
Lemma wt_weaken_exits a s e : wt a s e -> forall e', ole4 e' e -> wt a s e'.
Proof.
  induction 1; intros e' Hle; pose proof Hle as [Hn [Hr [Hb Hc]]];
    solve [econstructor; eauto using ole_trans, ole4_trans].
Qed.

Inductive wtk : astate -> cont -> Prop :=
| wtk_nil a : wtk a []
| wtk_stmt a s k e :
    wt a s e ->
    (forall x, ex_norm e = Some x -> wtk x k) ->
    (forall x, ex_ret e = Some x -> wtk x (unwind_ret k)) ->
    (forall x, ex_brk e = Some x -> wtk x (unwind_break k)) ->
    (forall x, ex_cnt e = Some x -> wtk x (unwind_cont k)) ->
    wtk a (IS s :: k)
| wtk_iret a k : wtk a k -> wtk a (IRet :: k)
| wtk_iloop a s k : wtk a (IS (Loop s) :: k) -> wtk a (ILoop s :: k).

Lemma wtk_strengthen a k : wtk a k -> forall a', sle a a' -> wtk a' k.
Proof. induction 1; intros a' Hle; econstructor; eauto using wt_strengthen. Qed.

Lemma ole_wtk x y k :
  ole x y -> (forall a, x = Some a -> wtk a k) -> forall b, y = Some b -> wtk b k.
Proof. intros Hle Hx b ->. destruct Hle as [a [-> Hab]]. eapply wtk_strengthen; eauto. Qed.

Lemma ole_wtk_some a y k : ole (Some a) y -> wtk a k -> forall b, y = Some b -> wtk b k.
Proof. intros Hle Hk. apply (ole_wtk _ _ _ Hle). intros ? [= <-]. exact Hk. Qed.

Lemma tstep_preserves k act k' :
  tstep p ismain k act k' -> forall a, wtk a k -> wtk (apost act a) k'.
Proof.
  intros Hstep a Hk.
  destruct Hstep; inversion Hk as [ | ? ? ? e Hw Kn Kr Kb Kc | | ]; subst; simpl; auto;
    inversion Hw; subst; try congruence.
  (* statements whose rule is an [ole] of the normal (break, ...) exit to the post-state *)
  all: try (eapply ole_wtk; eauto; fail).
  (* statements that push one sub-statement with the same exits *)
  all: try (eapply wtk_stmt with (e := e); eauto using wt_weaken_exits; fail).
  - (* Seq: a return, break or continue of s1 skips s2; s2 is typed at the exits of the whole *)
    eapply wtk_stmt with (e := e1); simpl; eauto 3 using ole_wtk.
    intros x Hx. eapply wtk_stmt with (e := e); [eapply wt_weaken_exits; eauto | ..]; assumption.
  - (* Loop: the body re-enters the loop at the invariant I, break leaves to k *)
    assert (HL : wtk I (ILoop s :: k)).
    { apply wtk_iloop. eapply wtk_stmt with (e := e); eauto.
      eapply wt_loop with (I := I); eauto using sle_refl. }
    eapply wtk_stmt with (e := eb); simpl; eauto 3 using wt_strengthen, ole_wtk, ole_wtk_some.
  - (* Wait m = Unlock m; Lock m *)
    eapply wtk_stmt with (e := e); eauto. apply wt_lock. assumption.
  - (* Call of a transcribed function: every exit of the body returns *)
    replace b with b0 by congruence.
    eapply wtk_stmt with (e := eb); simpl; eauto 3 using ole_wtk, wtk_iret.
Qed.

Lemma wtk_access a t w v st :
  wtk a (th_cont t) -> next_access t = Some (w, v, st) -> covered v w a.
Proof.
  unfold next_access. destruct (th_cont t) as [|[[]| |] k]; try discriminate.
  all: intros Hk [= <- <- <-]; inversion Hk as [ | ? ? ? e Hw | | ]; inversion Hw; assumption.
Qed.

Definition holds (a : astate) (H : mutex -> Prop) (c : bool) : Prop :=
  (forall m, In m (fst a) -> H m) /\ (c = true -> snd a = true).

Lemma holds_sle a a' H c : holds a' H c -> sle a a' -> holds a H c.
Proof. intros [H1 H2] [H3 H4]. split; auto. Qed.

Lemma holds_apost i act a o c :
  holds a (fun m => o m = Some i) c ->
  holds (apost act a) (fun m => owner_after i act o m = Some i) (conc_after act c).
Proof.
  intros [H1 H2]. destruct act as [ |m|m| | |[]]; split; simpl; auto; intros x Hx.
  - apply In_add in Hx. unfold upd. destruct (Pos.eqb_spec x m); auto. destruct Hx; [contradiction | auto].
  - apply In_remove in Hx. destruct Hx as [Hx N].
    destruct (o m) as [j|]; auto. destruct (Nat.eqb j i); auto.
    unfold upd. destruct (Pos.eqb_spec x m); [contradiction | auto].
Qed.
End Judgment.

Lemma covered_incl F F' sp v w a : incl F F' -> covered F sp v w a -> covered F' sp v w a.
Proof. intros Hi [f [Hin R]]. exists f. split; auto. Qed.

Lemma wt_incl F F' p ismain sp a s e : incl F F' -> wt F p ismain sp a s e -> wt F' p ismain sp a s e.
Proof. intros Hi H. induction H; solve [econstructor; eauto using covered_incl]. Qed.

Lemma lockset_eqb_eq a b : lockset_eqb a b = true -> a = b.
Proof.
  revert b. induction a as [|x a IH]; destruct b as [|y b]; simpl; try discriminate; auto.
  intros H. apply andb_true_iff in H. destruct H as [H1 H2]. apply Pos.eqb_eq in H1. subst. f_equal. auto.
Qed.

Lemma add_fact_incl f acc : incl acc (add_fact f acc).
Proof. unfold add_fact. destruct (existsb (fact_same f) acc); [apply incl_refl | apply incl_tl, incl_refl]. Qed.

Lemma add_fact_has f acc :
  exists g, In g (add_fact f acc) /\ f_spec g = f_spec f /\ f_var g = f_var f /\ f_write g = f_write f /\
            f_locks g = f_locks f /\ f_conc g = f_conc f.
Proof.
  unfold add_fact. destruct (existsb (fact_same f) acc) eqn:E.
  - apply existsb_exists in E. destruct E as [g [Hin Hs]]. exists g. split; auto.
    unfold fact_same in Hs. repeat (apply andb_true_iff in Hs; destruct Hs as [Hs ?]).
    apply Nat.eqb_eq in Hs. apply Pos.eqb_eq in H2. apply eqb_prop in H1. apply eqb_prop in H0.
    apply lockset_eqb_eq in H. repeat split; congruence.
  - exists f. split; [left; reflexivity | repeat split].
Qed.

Lemma covered_add_fact sp v w a st acc :
  covered (add_fact (mkFact sp v w (fst a) (snd a) st) acc) sp v w a.
Proof.
  destruct (add_fact_has (mkFact sp v w (fst a) (snd a) st) acc) as [g [Hin [A [B [C [D E]]]]]].
  exists g. simpl in *. rewrite D, E. repeat split; auto.
Qed.

Section FlowSound.
Variable p : program.
Variable ismain : bool.
Variable sp : nat.

Definition res_sound (s : stmt) (a : astate) (acc : list fact) (r : res) : Prop :=
  forall e acc', r = Some (e, acc') -> incl acc acc' /\ wt acc' p ismain sp a s e.

Section StmtSound.
Variable callf : stmt -> astate -> list fact -> res.
Hypothesis callf_sound : forall b a acc, res_sound b a acc (callf b a acc).

Lemma flow_call_sound f a acc : res_sound (Call f) a acc (flow_call p callf f a acc).
Proof.
  unfold res_sound, flow_call. intros e acc' H.
  destruct (lookup p f) as [[b|]|] eqn:L; [|discriminate|].
  - destruct (callf b a acc) as [[eb acc1]|] eqn:C; [|discriminate].
    inversion H; subst. destruct (callf_sound b a acc eb acc' C) as [Hi Hw].
    split; auto. eapply wt_call_int; simpl; eauto using ole_trans, ole_meet_l, ole_meet_r.
  - inversion H; subst. split; [apply incl_refl|]. apply wt_call_ext; auto. apply ole_refl.
Qed.

Lemma flow_calls_sound fs : forall a e0 acc e acc',
  flow_calls p callf fs a e0 acc = Some (e, acc') ->
  incl acc acc' /\ ole4 e e0 /\ forall f, In f fs -> wt acc' p ismain sp a (Call f) e.
Proof.
  induction fs as [|f fs IH]; simpl; intros a e0 acc e acc' H.
  - inversion H; subst. split; [apply incl_refl|]. split; [apply ole4_refl|]. intros f [].
  - destruct (flow_call p callf f a acc) as [[ef acc1]|] eqn:C; [|discriminate].
    destruct (flow_call_sound f a acc ef acc1 C) as [Hi1 Hw1].
    destruct (IH a (meet_exits e0 ef) acc1 e acc' H) as [Hi2 [Hle Hw2]].
    split; [eapply incl_tran; eauto|]. split; [eapply ole4_trans; [exact Hle | apply ole4_meet_l]|].
    intros g [<-|Hg]; [|apply Hw2; exact Hg].
    eapply wt_weaken_exits; [eapply wt_incl; eauto | eapply ole4_trans; [exact Hle | apply ole4_meet_r]].
Qed.

Lemma flow_stmt_Loop s a acc :
  exists inv, flow_stmt p ismain sp callf (Loop s) a acc =
    match flow_stmt p ismain sp callf s inv acc with
    | None => None
    | Some (eb, acc') =>
        if le_state inv a && ole_b (Some inv) (ex_norm eb) && ole_b (Some inv) (ex_cnt eb)
        then Some (mkExits (ex_brk eb) (ex_ret eb) None None, acc')
        else None
    end.
Proof. eexists. reflexivity. Qed.

Lemma flow_stmt_sound s : forall a acc, res_sound s a acc (flow_stmt p ismain sp callf s a acc).
Proof.
  unfold res_sound.
  induction s; intros a acc e acc' H.
  (* statements without sub-statements: their rule, at the exits [flow_stmt] returns *)
  all: try (injection H as <- <-; split; [auto using incl_refl, add_fact_incl|];
            constructor; auto using ole_refl, covered_add_fact; fail).
  - cbn [flow_stmt] in H.
    destruct (flow_stmt p ismain sp callf s1 a acc) as [[e1 acc1]|] eqn:E1; [|discriminate].
    destruct (IHs1 _ _ _ _ E1) as [Hi1 Hw1].
    destruct (ex_norm e1) as [a1|] eqn:N1.
    + destruct (flow_stmt p ismain sp callf s2 a1 acc1) as [[e2 acc2]|] eqn:E2; [|discriminate].
      destruct (IHs2 _ _ _ _ E2) as [Hi2 Hw2]. inversion H; subst.
      split; [eapply incl_tran; eauto|].
      eapply wt_seq with (e1 := e1) (e2 := e2); simpl; eauto using wt_incl, ole_meet_l.
      * intros x Hx. replace x with a1 by congruence. exact Hw2.
      * intros x _. repeat split; simpl; auto using ole_refl, ole_meet_r.
    + inversion H; subst. split; auto.
      eapply wt_seq with (e1 := e) (e2 := no_exits); auto using ole_refl; congruence.
  - cbn [flow_stmt] in H.
    destruct (flow_stmt p ismain sp callf s1 a acc) as [[e1 acc1]|] eqn:E1; [|discriminate].
    destruct (IHs1 _ _ _ _ E1) as [Hi1 Hw1].
    destruct (flow_stmt p ismain sp callf s2 a acc1) as [[e2 acc2]|] eqn:E2; [|discriminate].
    destruct (IHs2 _ _ _ _ E2) as [Hi2 Hw2]. inversion H; subst.
    split; [eapply incl_tran; eauto|].
    eapply wt_if with (e1 := e1) (e2 := e2); eauto using wt_incl, ole4_meet_l, ole4_meet_r.
  - cbn [flow_stmt] in H.
    destruct ismain; [destruct (IHs1 _ _ _ _ H) | destruct (IHs2 _ _ _ _ H)];
      split; auto; apply wt_ifmain; assumption.
  - (* Loop: [flow_stmt] has verified that its candidate is an invariant *)
    destruct (flow_stmt_Loop s a acc) as [inv E]. rewrite E in H. clear E.
    destruct (flow_stmt p ismain sp callf s inv acc) as [[eb acc1]|] eqn:E1; [|discriminate].
    destruct (IHs _ _ _ _ E1) as [Hi Hw].
    destruct (le_state inv a && ole_b (Some inv) (ex_norm eb) && ole_b (Some inv) (ex_cnt eb)) eqn:C; [|discriminate].
    inversion H; subst. rewrite !andb_true_iff in C. destruct C as [[C1 C2] C3].
    split; auto.
    eapply wt_loop with (I := inv) (eb := eb); simpl; auto using le_state_spec, ole_b_spec, ole_refl.
  - apply (flow_call_sound f a acc e acc' H).
  - cbn [flow_stmt] in H. destruct fs as [|f0 fs0]; [discriminate|].
    destruct (flow_calls_sound (f0 :: fs0) a no_exits acc e acc' H) as [Hi [_ Hw]].
    split; auto. apply wt_callany. exact Hw.
Qed.
End StmtSound.

Lemma flow_sound fuel : forall s a acc, res_sound s a acc (flow p ismain sp fuel s a acc).
Proof.
  induction fuel as [|n IH]; intros s a acc; simpl.
  - intros e acc' H. discriminate.
  - apply flow_stmt_sound. exact IH.
Qed.
End FlowSound.

Lemma collect_sound p : forall rest i acc F,
  collect p i rest acc = Some F ->
  incl acc F /\
  forall j s, nth_error rest j = Some s ->
    exists e, wt F p (sp_is_main s) (i + j) ([], sp_start_conc s) (Call (sp_entry s)) e.
Proof.
  induction rest as [|s0 rest IH]; intros i acc F H; cbn [collect] in H.
  - inversion H; subst. split; [apply incl_refl|]. intros [|j] s Hj; discriminate.
  - destruct (flow p (sp_is_main s0) i (S (S (List.length p))) (Call (sp_entry s0)) ([], sp_start_conc s0) acc)
      as [[e acc1]|] eqn:E; [|discriminate].
    destruct (flow_sound p (sp_is_main s0) i _ _ _ _ e acc1 E) as [Hi Hw].
    destruct (IH (S i) acc1 F H) as [Hi2 Hrest].
    split; [eapply incl_tran; eauto|].
    intros [|j] s Hj; simpl in Hj.
    + inversion Hj; subst. exists e. rewrite Nat.add_0_r. eapply wt_incl; eauto.
    + rewrite Nat.add_succ_r. apply Hrest. exact Hj.
Qed.

Lemma nth_set_nth {A} (l : list A) : forall i j x t y,
  nth_error l i = Some t -> nth_error (set_nth i x l) j = Some y ->
  (j = i /\ y = x) \/ (j <> i /\ nth_error l j = Some y).
Proof.
  induction l as [|z l IH]; intros [|i] [|j] x t y Hi Hj; simpl in *; try discriminate; auto.
  - left. split; congruence.
  - destruct (IH i j x t y Hi Hj) as [[-> ->]|[Hne Hj0]]; auto.
Qed.

Section Global.
Variable p : program.
Variable cl : classes.
Variable specs : list spec.
Variable F : list fact.
Hypothesis Hpairs : pairs_ok cl specs F = true.
Hypothesis Hentry : forall i s, nth_error specs i = Some s ->
  exists e, wt F p (sp_is_main s) i ([], sp_start_conc s) (Call (sp_entry s)) e.

Definition inv (c : config) : Prop :=
  (forall i t, nth_error (threads c) i = Some t ->
     exists a, wtk F p (spec_main specs (th_spec t)) (th_spec t) a (th_cont t) /\
               holds a (fun m => owner c m = Some i) (th_conc t)) /\
  (forall i j ti tj, nth_error (threads c) i = Some ti -> nth_error (threads c) j = Some tj ->
     th_spec ti = th_spec tj -> spec_multi specs (th_spec ti) = false -> i = j).

Lemma inv_init c : initial specs c -> inv c.
Proof.
  intros [Hown [Hthr Huniq]]. split; [|exact Huniq].
  intros i t Hi. destruct (Hthr i t Hi) as [s [Hs [Hc Hconc]]].
  destruct (Hentry _ _ Hs) as [e He].
  exists ([], sp_start_conc s). split.
  - rewrite Hc. unfold spec_main. rewrite Hs.
    eapply wtk_stmt with (e := e); eauto; intros; apply wtk_nil.
  - split; simpl; [intros m [] | congruence].
Qed.

Lemma own_after_other i j act (o : mutex -> option nat) m :
  j <> i -> enabled act o -> o m = Some j -> owner_after i act o m = Some j.
Proof.
  intros Hne Hen Hm. destruct act; simpl in *; auto.
  - unfold upd. destruct (Pos.eqb_spec m m0); [congruence | auto].
  - destruct (o m0) as [j'|] eqn:Eo; auto. destruct (Nat.eqb_spec j' i); auto.
    unfold upd. destruct (Pos.eqb_spec m m0); [congruence | auto].
Qed.

Lemma inv_step c c' : step p specs c c' -> inv c -> inv c'.
Proof.
  intros Hstep [Hthr Huniq]. destruct Hstep as [c i t act k' Hi Hts Hen].
  split; simpl.
  - intros j tj' Hj. destruct (nth_set_nth _ _ _ _ _ _ Hi Hj) as [[-> ->]|[Hne Hj0]]; simpl.
    + destruct (Hthr i t Hi) as [a [Hk Hh]]. exists (apost act a).
      split; [eapply tstep_preserves; eauto | apply holds_apost, Hh].
    + destruct (Hthr j tj' Hj0) as [a [Hk [H1 H2]]]. exists a. split; [exact Hk|]. split; [|exact H2].
      intros m Hm. apply own_after_other; auto.
  - (* the step keeps the class of every thread *)
    intros j1 j2 t1 t2 H1 H2 Hsp Hmulti.
    destruct (nth_set_nth _ _ _ _ _ _ Hi H1) as [[-> ->]|[_ G1]],
             (nth_set_nth _ _ _ _ _ _ Hi H2) as [[-> ->]|[_ G2]]; simpl in *; eauto.
Qed.

Lemma inv_reachable c : reachable (par_sem p specs) c -> inv c.
Proof.
  induction 1.
  - apply inv_init. assumption.
  - eapply inv_step; eauto.
Qed.

Lemma pair_ok_cases f g :
  pair_ok cl specs f g = true -> f_var f = f_var g -> (f_write f || f_write g = true) ->
  cl_tracked cl (f_var f) = true ->
  common_lock f g = true \/
  (f_spec f = f_spec g /\ spec_multi specs (f_spec f) = false) \/
  fexempt cl specs f g = true.
Proof.
  unfold pair_ok. intros H Hv Hw Ht.
  rewrite Hv, Pos.eqb_refl in H. rewrite Hw in H. rewrite <- Hv in H. rewrite Ht in H.
  destruct (common_lock f g); auto.
  destruct (Nat.eqb (f_spec f) (f_spec g) && negb (spec_multi specs (f_spec f))) eqn:E; auto.
  apply andb_true_iff in E. destruct E as [E1 E2]. apply Nat.eqb_eq in E1. apply negb_true_iff in E2. auto.
Qed.

Lemma fexempt_spec f g ti tj :
  f_spec f = th_spec ti -> f_spec g = th_spec tj ->
  (th_conc ti = true -> f_conc f = true) -> (th_conc tj = true -> f_conc g = true) ->
  fexempt cl specs f g = true -> exempt cl specs ti tj (f_var f).
Proof.
  unfold fexempt, exempt. intros <- <- Hi Hj H.
  apply orb_true_iff in H. destruct H as [H|H]; [apply orb_true_iff in H; destruct H as [H|H]|];
    apply andb_true_iff in H; destruct H as [A B].
  - left. split; [|exact B]. destruct (th_conc ti); [rewrite Hi in A by reflexivity; discriminate | reflexivity].
  - right. left. split; [|exact B]. destruct (th_conc tj); [rewrite Hj in A by reflexivity; discriminate | reflexivity].
  - right. right. split; [exact A|]. rewrite orb_true_iff, !andb_true_iff in B. exact B.
Qed.

Lemma inv_access c : inv c ->
  forall i t w v st, nth_error (threads c) i = Some t -> next_access t = Some (w, v, st) ->
  exists f, In f F /\ f_spec f = th_spec t /\ f_var f = v /\ f_write f = w /\
            (forall m, In m (f_locks f) -> owner c m = Some i) /\
            (th_conc t = true -> f_conc f = true).
Proof.
  intros [Hthr _] i t w v st Hi Ha. destruct (Hthr i t Hi) as [a [Hk [Ho Hc]]].
  destruct (wtk_access F p _ _ a t w v st Hk Ha) as [f [Hf [Hfs [Hfv [Hfw [Hfl Hfc]]]]]].
  exists f. repeat split; auto.
Qed.

Lemma inv_no_race c : inv c -> ~ race cl specs c.
Proof.
  intros Hinv [i [j [ti [tj [wi [wj [v [si [sj [Hij [Hi [Hj [Ai [Aj [Hw [Htr Hnex]]]]]]]]]]]]]]]].
  destruct (inv_access c Hinv i ti wi v si Hi Ai) as [f [Hf [Hfs [Hfv [Hfw [Hfl Hfc]]]]]].
  destruct (inv_access c Hinv j tj wj v sj Hj Aj) as [g [Hg [Hgs [Hgv [Hgw [Hgl Hgc]]]]]].
  unfold pairs_ok in Hpairs. rewrite forallb_forall in Hpairs.
  specialize (Hpairs f Hf). rewrite forallb_forall in Hpairs. specialize (Hpairs g Hg).
  destruct (pair_ok_cases f g Hpairs) as [Hc | [[Hs Hm] | Hx]]; try congruence.
  - (* a common mutex: it has one owner *)
    unfold common_lock in Hc. apply existsb_exists in Hc. destruct Hc as [m [Hm1 Hm2]].
    apply mem_In in Hm2. specialize (Hfl m Hm1). specialize (Hgl m Hm2). congruence.
  - (* one single-instance class *)
    apply Hij. apply (proj2 Hinv i j ti tj Hi Hj); congruence.
  - (* ordered by creation/joining or the sig_atomic_t rule *)
    apply Hnex. rewrite <- Hfv. apply fexempt_spec with (g := g); auto.
Qed.
End Global.

Theorem check_scenario_sound p cl specs :
  check_scenario p cl specs = true ->
  forall c, reachable (par_sem p specs) c -> ~ race cl specs c.
Proof.
  unfold check_scenario. intros H c Hr.
  destruct (collect p 0 specs []) as [F|] eqn:E; [|discriminate].
  destruct (collect_sound p specs 0 [] F E) as [_ Hent].
  eapply inv_no_race with (F := F) (p := p); eauto.
  eapply inv_reachable; eauto.
Qed.

Theorem lockset_sound_all p cl :
  check p cl = true ->
  forall name specs, In (name, specs) (cl_scenarios cl) ->
  forall c, reachable (par_sem p specs) c -> ~ race cl specs c.
Proof.
  unfold check. intros H name specs Hin. rewrite forallb_forall in H.
  apply (check_scenario_sound p cl specs (H _ Hin)).
Qed.

(* the analysis under-approximates the held set along every execution: whenever a
   thread of a reachable configuration is about to access v, some recorded fact for its
   class and that variable lists only mutexes the thread owns *)
Theorem held_set_underapproximated p specs F :
  collect p 0 specs [] = Some F ->
  forall c, reachable (par_sem p specs) c ->
  forall i t w v st, nth_error (threads c) i = Some t -> next_access t = Some (w, v, st) ->
  exists f, In f F /\ f_spec f = th_spec t /\ f_var f = v /\ f_write f = w /\
            (forall m, In m (f_locks f) -> owner c m = Some i) /\
            (th_conc t = true -> f_conc f = true).
Proof.
  intros E c Hr. apply (inv_access p specs F). eapply inv_reachable; eauto.
  apply (collect_sound p specs 0 [] F E).
Qed.

Theorem mutex_one_owner (c : config) m i j : owner c m = Some i -> owner c m = Some j -> i = j.
Proof. congruence. Qed.
