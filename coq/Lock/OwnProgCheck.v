(* C12 (heap part) - the ownership checker run on the regenerated hand-over skeleton
   (by computation). *)
From Coq Require Import List.
From LBZ Require Import Common.Bits Lock.OwnLang Lock.OwnCheck Lock.OwnSound Gen.OwnProg.
Local Open Scope string_scope.

(* [flow] looks for a loop invariant by iteration and, having found one, analyses the loop body
   once more to verify it - although the last round of the iteration has just analysed the body in
   that very state.  With nested loops the repeated work multiplies.  [flow_c] below is [flow]
   with the iteration handing on what its last round computed; it returns the same result
   ([flow_c_eq]) and is what is evaluated on the regenerated skeleton. *)
Section Cached.
Variable ql : queue -> option mutex.

(* the iteration of [flow]'s Loop case, for any analysis [f] of the body *)
Definition loop_inv (f : astate -> option exits) : nat -> astate -> astate :=
  fix iter (n : nat) (I : astate) {struct n} : astate :=
    match n with
    | O => I
    | S n' => match f I with
              | None => I
              | Some eb =>
                  let I' := match meet_opt (Some I) (meet_opt (ex_norm eb) (ex_cnt eb)) with
                            | Some x => x | None => I end in
                  if le_state I I' then I else iter n' I'
              end
    end.

Lemma flow_Loop_eq s a : flow ql (Loop s) a =
  let inv := loop_inv (flow ql s) loop_bound a in
  match flow ql s inv with
  | None => None
  | Some eb =>
      if le_state inv a && ole_b (Some inv) (ex_norm eb) && ole_b (Some inv) (ex_cnt eb)
      then Some (mkExits (ex_brk eb) (ex_ret eb) None None)
      else None
  end.
Proof. unfold loop_inv. reflexivity. Qed.

(* the same iteration, returning with the invariant the result of [f] on it when the last round
   has computed it *)
Definition loop_inv_c (f : astate -> option exits) : nat -> astate -> astate * option (option exits) :=
  fix iter (n : nat) (I : astate) {struct n} : astate * option (option exits) :=
    match n with
    | O => (I, None)
    | S n' => match f I with
              | None => (I, Some None)
              | Some eb =>
                  let I' := match meet_opt (Some I) (meet_opt (ex_norm eb) (ex_cnt eb)) with
                            | Some x => x | None => I end in
                  if le_state I I' then (I, Some (Some eb)) else iter n' I'
              end
    end.

Lemma loop_inv_c_spec f n : forall I,
  fst (loop_inv_c f n I) = loop_inv f n I /\
  (snd (loop_inv_c f n I) = None \/ snd (loop_inv_c f n I) = Some (f (loop_inv f n I))).
Proof.
  induction n as [|n IH]; intro I; cbn [loop_inv_c loop_inv]; [auto|].
  destruct (f I) as [eb|] eqn:E; [|rewrite E; auto].
  destruct (le_state I _); [rewrite E; auto | apply IH].
Qed.

Fixpoint flow_c (s : stmt) (a : astate) {struct s} : option exits :=
  match s with
  | Seq s1 s2 =>
      match flow_c s1 a with
      | None => None
      | Some e1 =>
          match ex_norm e1 with
          | None => Some e1
          | Some a1 =>
              match flow_c s2 a1 with
              | None => None
              | Some e2 =>
                  Some (mkExits (ex_norm e2) (meet_opt (ex_ret e1) (ex_ret e2))
                                (meet_opt (ex_brk e1) (ex_brk e2)) (meet_opt (ex_cnt e1) (ex_cnt e2)))
              end
          end
      end
  | If s1 s2 =>
      match flow_c s1 a with
      | None => None
      | Some e1 => match flow_c s2 a with
                   | None => None
                   | Some e2 => Some (meet_exits e1 e2)
                   end
      end
  | Loop s1 =>
      let ir := loop_inv_c (flow_c s1) loop_bound a in
      match (match snd ir with Some r => r | None => flow_c s1 (fst ir) end) with
      | None => None
      | Some eb =>
          if le_state (fst ir) a && ole_b (Some (fst ir)) (ex_norm eb) && ole_b (Some (fst ir)) (ex_cnt eb)
          then Some (mkExits (ex_brk eb) (ex_ret eb) None None)
          else None
      end
  | Scope s1 =>
      match flow_c s1 a with
      | None => None
      | Some eb =>
          Some (mkExits (meet_opt (meet_opt (ex_norm eb) (ex_ret eb)) (meet_opt (ex_brk eb) (ex_cnt eb)))
                        None None None)
      end
  | _ => flow ql s a
  end.

Lemma flow_c_eq s : forall a, flow_c s a = flow ql s a.
Proof.
  induction s; intro a; try reflexivity.
  - cbn [flow_c flow]. rewrite IHs1. destruct (flow ql s1 a) as [e1|]; [|reflexivity].
    destruct (ex_norm e1); [rewrite IHs2|]; reflexivity.
  - cbn [flow_c flow]. rewrite IHs1, IHs2. reflexivity.
  - rewrite flow_Loop_eq. cbn [flow_c].
    destruct (loop_inv_c_spec (flow_c s) loop_bound a) as [Hi Hr].
    assert (Hf : forall n I, loop_inv (flow_c s) n I = loop_inv (flow ql s) n I).
    { induction n as [|n IHn]; intro I; cbn [loop_inv]; [reflexivity|]. rewrite IHs.
      destruct (flow ql s I); [|reflexivity]. destruct (le_state I _); [reflexivity|apply IHn]. }
    rewrite Hi, Hf. destruct Hr as [-> | ->]; rewrite ?Hf, IHs; reflexivity.
  - cbn [flow_c flow]. rewrite IHs. reflexivity.
Qed.
End Cached.

Definition own_check_all_c (scs : list (string * program)) : bool :=
  forallb (fun sc => forallb (fun t => match flow_c (qlock (snd sc)) (snd t) init_state with
                                       | Some _ => true | None => false end)
                             (pr_threads (snd sc))) scs.

Lemma own_check_c_program : own_check_all_c scenarios = true.
Proof. vm_compute. reflexivity. Qed.

Lemma own_check_program : own_check_all scenarios = true.
Proof.
  apply forallb_forall. intros sc Hsc. apply forallb_forall. intros t Ht.
  unfold check_thread. rewrite <- flow_c_eq.
  apply (forallb_In _ _ (own_check_all_c scenarios) eq_refl own_check_c_program) in Hsc.
  exact (forallb_In _ _ _ eq_refl Hsc t Ht).
Qed.

(* the scenarios and thread bodies the translator must have produced (a thread that
   silently dropped out of the skeleton would otherwise not be checked) *)
Definition thread_table : list (string * list (string * bool)) :=
  map (fun sc => (fst sc, map (fun t => (fst (fst t), snd (fst t))) (pr_threads (snd sc)))) scenarios.

Lemma thread_table_expected :
  thread_table =
  [("compression", [("worker_thread_proc", true); ("source_thread_proc", false); ("sink_thread_proc", false)]);
   ("expansion", [("worker_thread_proc", true); ("source_thread_proc", false); ("sink_thread_proc", false)]);
   ("pseudo_process", [("source_thread_proc", false); ("sink_thread_proc", false)])].
Proof. vm_compute. reflexivity. Qed.

Lemma queue_locks_total :
  forallb (fun q => match assoc queue_lock_table (fst q) with Some _ => true | None => false end) queue_names = true.
Proof. vm_compute. reflexivity. Qed.

Theorem program_no_heap_race :
  forall name p, In (name, p) scenarios ->
  forall c, reachable p c -> ~ heap_race c.
Proof. exact (own_sound_all scenarios own_check_program). Qed.

Theorem program_accesses_entitled :
  forall name p, In (name, p) scenarios ->
  forall c, reachable p c ->
  forall i t o, nth_error (threads c) i = Some t -> about_to_access t (heap c) o -> may_access p c i o.
Proof. exact (own_entitled_all scenarios own_check_program). Qed.
