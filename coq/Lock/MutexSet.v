(* What the soundness proofs of the two checkers (LocksetSound.v, OwnSound.v) share.
   Lockset.v and OwnCheck.v define mem/add/remove/inter/subset, meet_opt and ole_b with
   the same bodies; the lemmas here are about those bodies and apply to both files'
   constants by conversion. *)
From Coq Require Import List PArith Bool.

Lemma mem_In (m : positive) l : existsb (Pos.eqb m) l = true <-> In m l.
Proof.
  rewrite existsb_exists. split.
  - intros [x [Hin Heq]]. apply Pos.eqb_eq in Heq. subst. exact Hin.
  - intros Hin. exists m. split; [exact Hin | apply Pos.eqb_refl].
Qed.

Lemma In_add (x m : positive) l :
  In x (if existsb (Pos.eqb m) l then l else m :: l) <-> x = m \/ In x l.
Proof.
  destruct (existsb (Pos.eqb m) l) eqn:E.
  - apply mem_In in E. split; [intros; right; assumption | intros [->|H]; assumption].
  - simpl. split; intros [H|H]; auto.
Qed.

Lemma In_remove (x m : positive) l :
  In x (filter (fun y => negb (Pos.eqb y m)) l) <-> In x l /\ x <> m.
Proof. rewrite filter_In, negb_true_iff, Pos.eqb_neq. tauto. Qed.

Lemma In_inter (x : positive) a b :
  In x (filter (fun y => existsb (Pos.eqb y) b) a) <-> In x a /\ In x b.
Proof. rewrite filter_In, mem_In. tauto. Qed.

Lemma subset_spec (a b : list positive) :
  forallb (fun y => existsb (Pos.eqb y) b) a = true <-> (forall x, In x a -> In x b).
Proof. rewrite forallb_forall. split; intros H x Hx; apply mem_In, H, Hx. Qed.

(* an order lifted to optional states: None (unreachable) is the top element *)
Section OptLattice.
Context {A : Type} (le : A -> A -> Prop) (leb : A -> A -> bool) (meet : A -> A -> A).
Hypothesis le_refl : forall a, le a a.
Hypothesis le_trans : forall a b c, le a b -> le b c -> le a c.
Hypothesis leb_le : forall a b, leb a b = true -> le a b.
Hypothesis meet_l : forall a b, le (meet a b) a.
Hypothesis meet_r : forall a b, le (meet a b) b.

Definition optle (x y : option A) : Prop :=
  match y with
  | None => True
  | Some b => exists a, x = Some a /\ le a b
  end.

Definition optleb (x y : option A) : bool :=
  match y with
  | None => true
  | Some b => match x with Some a => leb a b | None => false end
  end.

Definition optmeet (x y : option A) : option A :=
  match x, y with
  | None, _ => y
  | _, None => x
  | Some a, Some b => Some (meet a b)
  end.

Lemma optleb_le x y : optleb x y = true -> optle x y.
Proof. destruct y as [b|], x as [a|]; simpl; eauto; discriminate. Qed.

Lemma optle_refl x : optle x x.
Proof. destruct x as [a|]; simpl; eauto. Qed.

Lemma optle_trans x y z : optle x y -> optle y z -> optle x z.
Proof.
  destruct z as [c|]; simpl; auto. intros Hxy [b [-> Hbc]].
  destruct Hxy as [a [-> Hab]]. eauto.
Qed.

Lemma optle_pre x a a' : optle x (Some a) -> le a a' -> optle x (Some a').
Proof. intros [b [-> Hb]] H. simpl. eauto. Qed.

Lemma optle_meet_l x y : optle (optmeet x y) x.
Proof. destruct x as [a|], y as [b|]; simpl; eauto. Qed.

Lemma optle_meet_r x y : optle (optmeet x y) y.
Proof. destruct x as [a|], y as [b|]; simpl; eauto. Qed.
End OptLattice.
