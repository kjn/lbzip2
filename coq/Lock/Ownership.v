(* C12 - heap objects (partial).  Blocks, decoder states and I/O buffers are not
   protected by a mutex while a task works on them; they are protected by ownership:
   an object is either linked into a scheduler queue (touched only under the scheduler
   lock) or held by the one task that dequeued / allocated it.  This file states that
   discipline on a small abstract model and proves that it excludes conflicting
   accesses.  That compress.c / expand.c FOLLOW the discipline is shown in
   OwnLang.v / OwnCheck.v / OwnSound.v on the regenerated hand-over skeleton
   (Gen/OwnProg.v); this one-mutex, one-queue model is an instance of the state used
   there (OwnExamples.ownership_model_instance). *)
From Coq Require Import List Arith Bool.
Import ListNotations.

Inductive ostate := Queued | Held (t : nat) | Freed.

Record state := mkState { lock : option nat; obj : nat -> ostate }.

Definition set_obj (s : state) (o : nat) (x : ostate) : state :=
  mkState (lock s) (fun o' => if Nat.eqb o' o then x else obj s o').

Inductive ev :=
| Acquire (t : nat) | Release (t : nat)
| Alloc (t o : nat)            (* fresh object, private to t *)
| Deq (t o : nat) | Enq (t o : nat) | Free (t o : nat)
| Access (t o : nat).

Definition may_access (s : state) (t o : nat) : Prop :=
  obj s o = Held t \/ (lock s = Some t /\ obj s o = Queued).

Inductive ostep : state -> ev -> state -> Prop :=
| o_acq s t : lock s = None -> ostep s (Acquire t) (mkState (Some t) (obj s))
| o_rel s t : lock s = Some t -> ostep s (Release t) (mkState None (obj s))
| o_alloc s t o : obj s o = Freed -> ostep s (Alloc t o) (set_obj s o (Held t))
| o_deq s t o : lock s = Some t -> obj s o = Queued -> ostep s (Deq t o) (set_obj s o (Held t))
| o_enq s t o : lock s = Some t -> obj s o = Held t -> ostep s (Enq t o) (set_obj s o Queued)
| o_free s t o : may_access s t o -> ostep s (Free t o) (set_obj s o Freed)
| o_access s t o : may_access s t o -> ostep s (Access t o) s.

Theorem ownership_exclusive s t u o : may_access s t o -> may_access s u o -> t = u.
Proof.
  intros [H1 | [H1 H2]] [H3 | [H3 H4]]; try congruence.
Qed.

Definition thread_of (e : ev) : nat :=
  match e with
  | Acquire t | Release t | Alloc t _ | Deq t _ | Enq t _ | Free t _ | Access t _ => t
  end.

Theorem ownership_stable s e s' t o :
  ostep s e s' -> obj s o = Held t -> thread_of e <> t -> obj s' o = Held t.
Proof.
  intros Hs Ho Hne. destruct Hs; simpl in *; auto;
    destruct (Nat.eqb o o0) eqn:E; auto; apply Nat.eqb_eq in E; subst; try congruence.
  destruct H as [H | [_ H]]; congruence.
Qed.
