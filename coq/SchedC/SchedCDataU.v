(* C03, scheduler part, --sequential ("ultra") mode: one encoder block may span
   several input chunks.  The specification is a sequential collector machine that
   folds [collect] over the delivered chunks; every block anywhere in the system is
   a block emitted by that machine, emitted blocks are determined by their start
   position, and (SchedCOrder) a complete run has written the gap-free chain of
   blocks from 0.0 to the end of the delivered input.  Hence the written sequence
   is a function of the chunk list and the level alone. *)
From Coq Require Import List NArith Arith Bool Lia Permutation Sorted.
From LBZ Require Import SchedC.SchedCIface Gen.SchedCTab SchedC.Pool SchedC.PoolLemmas SchedC.SchedC SchedC.SchedCInv
  SchedC.Tiling SchedC.SchedCOrder SchedC.SchedCData.
Import ListNotations.

Section DataU.
  Variable Data : Type.
  Variable Enc : Type.
  Variable data_len : Data -> N.
  Variable enc_empty : Enc.
  Variable collect : Enc -> Data -> Enc * Data * bool.
  Variable inp0 : list Data.            (* what the successive xread(in_granul) calls return *)
  Variable lvl0 : N.

  Notation state := (state Data Enc).
  Notation cont := (cont Data Enc).
  Notation wpcs := (wpc cont).
  Notation step := (step data_len enc_empty collect).
  Notation reachable := (reachable data_len enc_empty collect).
  Notation deliv := (@delivered Data data_len lvl0).
  Notation ndeliv := (deliv inp0).

  (* chunk j as the reader delivers it (nothing after the first short chunk) *)
  Definition chunkD (j : N) : option Data :=
    if N.to_nat j <? ndeliv then nth_error inp0 (N.to_nat j) else None.

  (* encoder under construction (start position, contents), position of the
     next input, the input at that position (None: end of input) *)
  Record mst := mkmst { m_enc : option (pos * Enc); m_pos : pos; m_data : option Data }.

  Definition m_start (m : mst) : pos * Enc :=
    match m_enc m with Some pe => pe | None => (m_pos m, enc_empty) end.

  (* one call of collect() (or the final flush); the block it completes, if any *)
  Definition mstep (m : mst) : mst * option (wblk Enc) :=
    match m_data m with
    | Some d =>
        let '(p0, e0) := m_start m in
        let '(e, d', full) := collect e0 d in
        let more := (0 <? data_len d')%N in
        let p' := if more then pos_minor_succ (m_pos m) else pos_major_succ (m_pos m) in
        let dat' := if more then Some d' else chunkD (major (m_pos m) + 1) in
        if full then (mkmst None p' dat', Some (mkwblk p0 p' e))
        else (mkmst (Some (p0, e)) p' dat', None)
    | None =>
        match m_enc m with
        | Some (p0, e0) => (mkmst None (m_pos m) None, Some (mkwblk p0 (m_pos m) e0))
        | None => (m, None)
        end
    end.

  Definition m0 : mst := mkmst None pos0 (chunkD 0).
  Definition mnext (m : mst) : mst := fst (mstep m).
  Definition M (k : nat) : mst := Nat.iter k mnext m0.

  Definition SpecWU (wb : wblk Enc) : Prop := exists k, snd (mstep (M k)) = Some wb.

  Fixpoint spec_blocks (k : nat) : list (wblk Enc) :=
    match k with
    | O => []
    | S j => spec_blocks j ++ match snd (mstep (M j)) with Some wb => [wb] | None => [] end
    end.

  Definition MI (m : mst) : Prop :=
    (minor (m_pos m) = 0%N -> m_data m = chunkD (major (m_pos m))) /\
    (forall p0 e, m_enc m = Some (p0, e) -> plt p0 (m_pos m)).

  Definition sp (m : mst) : pos := fst (m_start m).

  Lemma sp_le m : MI m -> ple (sp m) (m_pos m).
  Proof.
    intros [_ H]. unfold sp, m_start. destruct (m_enc m) as [[p0 e0]|]; cbn.
    - right. eapply H; eauto.
    - apply ple_refl.
  Qed.

  Lemma mstep_spec m : MI m ->
    MI (mnext m) /\
    match snd (mstep m) with
    | Some wb => wb_pos wb = sp m /\ plt (wb_pos wb) (wb_next wb) /\ sp (mnext m) = wb_next wb
    | None => sp (mnext m) = sp m
    end.
  Proof.
    intros I. pose proof (sp_le _ I) as L. destruct I as [I1 I2]. unfold MI, mnext, mstep, sp in *.
    destruct (m_data m) as [d|] eqn:Ed.
    - destruct (m_start m) as [p0 e0] eqn:Es. cbn [fst] in L.
      destruct (collect e0 d) as [[e d'] f].
      assert (L1 : plt p0 (pos_minor_succ (m_pos m))) by (eapply ple_plt_trans; [exact L|apply plt_minor_succ]).
      assert (L2 : plt p0 (pos_major_succ (m_pos m))) by (eapply ple_plt_trans; [exact L|apply plt_major_succ]).
      destruct (0 <? data_len d')%N; destruct f;
        cbn [fst snd m_pos m_data m_enc m_start wb_pos wb_next pos_minor_succ pos_major_succ minor major] in *;
        repeat split; auto; try discriminate; try (intros Z; exfalso; lia); intros p1 e1 [= <- <-]; assumption.
    - unfold m_start in *. destruct (m_enc m) as [[p0 e0]|] eqn:Ee; cbn [fst snd m_pos m_data m_enc wb_pos wb_next] in *.
      + repeat split; eauto; discriminate.
      + rewrite Ee. cbn. repeat split; auto. intros Z. rewrite <- I1 by exact Z. exact Ed.
  Qed.

  Lemma dead m : m_data m = None -> m_enc m = None -> mstep m = (m, None).
  Proof. intros H1 H2. unfold mstep. rewrite H1, H2. reflexivity. Qed.

  Lemma M_succ k : M (S k) = mnext (M k).
  Proof. reflexivity. Qed.

  Lemma mi_M k : MI (M k).
  Proof.
    induction k; [split; cbn; [reflexivity|discriminate]|]. rewrite M_succ. apply mstep_spec; auto.
  Qed.

  Lemma sp_mono_n k n : ple (sp (M k)) (sp (M (n + k))).
  Proof.
    induction n; cbn [plus]; [apply ple_refl|]. eapply ple_trans; [exact IHn|].
    rewrite M_succ. destruct (mstep_spec _ (mi_M (n + k))) as [_ H].
    destruct (snd (mstep (M (n + k)))); [destruct H as (<- & H & ->); right; exact H|rewrite H; apply ple_refl].
  Qed.

  Lemma dead_n k n : m_data (M k) = None -> m_enc (M k) = None -> M (n + k) = M k.
  Proof.
    intros H1 H2. induction n; cbn [plus]; auto. rewrite M_succ, IHn. unfold mnext. rewrite dead; auto.
  Qed.

  Lemma emit_order k n wb1 wb2 :
    snd (mstep (M k)) = Some wb1 -> snd (mstep (M (n + S k))) = Some wb2 -> plt (wb_pos wb1) (wb_pos wb2).
  Proof.
    intros E1 E2. destruct (mstep_spec _ (mi_M k)) as [_ H1]. destruct (mstep_spec _ (mi_M (n + S k))) as [_ H2].
    rewrite E1 in H1. rewrite E2 in H2. destruct H1 as (_ & L & E). destruct H2 as (-> & _).
    eapply plt_ple_trans; [exact L|]. rewrite <- E, <- M_succ. apply sp_mono_n.
  Qed.

  Lemma specWU_fun wb1 wb2 : SpecWU wb1 -> SpecWU wb2 -> wb_pos wb1 = wb_pos wb2 -> wb1 = wb2.
  Proof.
    intros (k1 & E1) (k2 & E2) P.
    destruct (lt_eq_lt_dec k1 k2) as [[L| ->]|L].
    - exfalso. replace k2 with ((k2 - S k1) + S k1) in E2 by lia.
      pose proof (emit_order _ _ _ _ E1 E2) as Z. rewrite P in Z. eapply plt_irrefl; eauto.
    - congruence.
    - exfalso. replace k1 with ((k1 - S k2) + S k2) in E1 by lia.
      pose proof (emit_order _ _ _ _ E2 E1) as Z. rewrite P in Z. eapply plt_irrefl; eauto.
  Qed.

  Notation RInv := (@RInv Data Enc data_len inp0 lvl0).

  Lemma deliver_chunk s d rest : RInv s -> rd s = RRead -> input s = d :: rest -> data_len d <> 0%N ->
    chunkD (next_id s) = Some d.
  Proof.
    intros [Dl Dc Din] Hr Hin Hl. unfold chunkD. rewrite Hr in Dc. cbn [rd_more] in Dc. rewrite Hin in Dc.
    cbn [delivered] in Dc. apply N.eqb_neq in Hl. rewrite Hl in Dc.
    assert (Lt : N.to_nat (next_id s) < ndeliv) by lia. apply Nat.ltb_lt in Lt. rewrite Lt.
    rewrite Din in Hin. apply skipn_nth in Hin. tauto.
  Qed.

  Lemma eof_chunk s : RInv s -> Inv2 s -> eof s = true -> chunkD (next_id s) = None /\ N.to_nat (next_id s) = ndeliv.
  Proof.
    intros [Dl Dc Din] J E. rewrite (j_eof J) in E. destruct (rd s); try discriminate. cbn [rd_more] in Dc.
    unfold chunkD. rewrite Dc, Nat.add_0_r, Nat.ltb_irrefl. auto.
  Qed.

  Definition enc_rel (wbo : option (wblk Enc)) (eo : option (pos * Enc)) : Prop :=
    match wbo, eo with
    | None, None => True
    | Some w, Some (p0, e) => wb_pos w = p0 /\ wb_enc w = e
    | _, _ => False
    end.

  Definition Fresh (ib : iblk Data) : Prop :=
    minor (ib_pos ib) = 0%N /\ chunkD (major (ib_pos ib)) = Some (ib_data ib).

  (* the head of coll_q (or the next chunk to be read) is the collector's next input *)
  Definition Front (cq : list (iblk Data)) (nid : N) (wbo : option (wblk Enc)) (m : mst) : Prop :=
    m_pos m = head_pos cq nid /\
    (forall y r, cq = y :: r -> m_data m = Some (ib_data y)) /\
    enc_rel wbo (m_enc m) /\
    Forall Fresh (tl cq).

  (* what a worker inside do_collect_seq() holds, relative to the specification *)
  Definition FKc (cq : list (iblk Data)) (nid : N) (p : wpcs) (m : mst) : Prop :=
    match p with
    | PRun (KSeq wbo (Some ib)) =>
        m_pos m = ib_pos ib /\ m_data m = Some (ib_data ib) /\ enc_rel wbo (m_enc m) /\ Forall Fresh cq
    | PRun (KSeq wbo None) =>
        match wbo with
        | Some wb => m_data m = None /\ m_pos m = wb_next wb /\ enc_rel (Some wb) (m_enc m) /\ cq = []
        | None => False
        end
    | PRun (KSeqFin wb f) => Front cq nid (if f then None else Some wb) m /\ (f = true -> SpecWU wb)
    | _ => True
    end.

  (* while the collect token is there, the specification stands at the head of coll_q *)
  Definition FK (s : state) (m : mst) : Prop :=
    (collect_token s = true -> Front (coll_q s) (next_id s) (unfinished s) m) /\
    (forall i p, nth_error (workers s) i = Some p -> FKc (coll_q s) (next_id s) p m).

  Lemma fkc_noseq cq nid p m : seq_of p = 0 -> FKc cq nid p m.
  Proof. destruct p as [| | | |[]]; cbn; auto; discriminate. Qed.

  Lemma enc_rel_start wbo (ib : iblk Data) m : enc_rel wbo (m_enc m) -> m_pos m = ib_pos ib ->
    m_start m = (wb_pos (match wbo with Some wb => wb | None => new_wblk enc_empty ib end),
                 wb_enc (match wbo with Some wb => wb | None => new_wblk enc_empty ib end)).
  Proof.
    unfold enc_rel, m_start. intros R P. destruct wbo as [w|]; destruct (m_enc m) as [[p0 e0]|]; try tauto.
    - destruct R as [<- <-]. reflexivity.
    - cbn. rewrite P. reflexivity.
  Qed.


  (* one call of collect() by the scheduler's collector is one step of the specification *)
  Lemma mstep_collect m (ib : iblk Data) wbo wb0 e d f :
    m_pos m = ib_pos ib -> m_data m = Some (ib_data ib) -> enc_rel wbo (m_enc m) ->
    wb0 = match wbo with Some wb => wb | None => new_wblk enc_empty ib end ->
    collect (wb_enc wb0) (ib_data ib) = (e, d, f) ->
    mstep m =
      let more := (0 <? data_len d)%N in
      let p' := if more then pos_minor_succ (ib_pos ib) else pos_major_succ (ib_pos ib) in
      let dat' := if more then Some d else chunkD (major (ib_pos ib) + 1) in
      if f then (mkmst None p' dat', Some (mkwblk (wb_pos wb0) p' e))
      else (mkmst (Some (wb_pos wb0, e)) p' dat', None).
  Proof.
    intros P D R W C. unfold mstep. rewrite D, (enc_rel_start _ ib _ R P), <- W, C, P. reflexivity.
  Qed.

  Lemma front_deliver cq nid wbo m ibn : Front cq nid wbo m -> MI m -> ib_pos ibn = mkpos nid 0 -> Fresh ibn ->
    Front (cq ++ [ibn]) (nid + 1) wbo m.
  Proof.
    intros (F1 & F2 & F3 & F4) [MI1 _] P [_ Fr]. unfold Front. split; [|split; [|split]]; auto.
    - rewrite (@head_pos_app _ _ _ nid) by exact P. exact F1.
    - intros y r E. destruct cq as [|y0 cq].
      + cbn in E. injection E as <- <-. cbn in F1. rewrite MI1 by (rewrite F1; reflexivity).
        rewrite F1. rewrite P in Fr. exact Fr.
      + cbn in E. injection E as <- <-. eapply F2; reflexivity.
    - destruct cq as [|y0 cq]; cbn [app tl] in *; [constructor|]. apply Forall_app. split; auto.
      constructor; [|constructor]. split; auto. rewrite P. reflexivity.
  Qed.

  Lemma fkc_deliver cq nid p m ibn : FKc cq nid p m -> MI m -> ib_pos ibn = mkpos nid 0 -> Fresh ibn ->
    Adj (head_pos cq nid) p -> FKc (cq ++ [ibn]) (nid + 1) p m.
  Proof.
    intros F Mi P Fr A. destruct p as [| | | |[t|ib0|w|wbo [ib|]|wb f|w]]; cbn in *; auto.
    - destruct F as (F1 & F2 & F3 & F4). repeat split; auto. apply Forall_app. split; auto.
    - destruct wbo as [wb|]; [|tauto]. exfalso. destruct F as (F1 & F2 & F3 & ->).
      specialize (A _ eq_refl). cbn in A. destruct Mi as [MI1 _]. rewrite F2, A in MI1.
      specialize (MI1 eq_refl). cbn in MI1. destruct Fr as [_ Fr]. rewrite P in Fr. cbn in Fr. congruence.
    - destruct F as [F Sp]. split; auto. apply front_deliver; auto.
  Qed.

  Lemma fk_step s e s' : Inv s -> Inv2 s -> TInv s -> ultra s = true -> RInv s -> (exists k, FK s (M k)) ->
    step s e = Some s' -> exists k, FK s' (M k).
  Proof.
    intros I J T Eul R (k & F1 & F2) H. apply step_Step in H. unfold FK.
    pose proof (t_tile T) as Ut. pose proof (t_seq T Eul) as U.
    Step_cases H.
    6-7: (exfalso; apply (i_ready I), ready_collect_iff in Hi; destruct Hi; congruence).
    11-12: destruct (u_adj U Hi).
    (* outside do_collect_seq() nothing that the specification looks at changes *)
    all: try solve [ exists k; split; simp; [exact F1|];
                     first [exact F2|intros j p0 Hj; apply nth_upd_cases in Hj as [[_ ->]|[_ Hj]]; [exact Logic.I|eauto]] ].
    all: try (assert (Hos : seq_of _ = 1 -> _) by (exact (only_seq I Hi)); specialize (Hos eq_refl);
              destruct Hos as (Htok & Hunf & Hoth)).
    all: try (pose proof (F2 _ _ Hi) as Fi; cbn [FKc] in Fi).
    - (* seq0 *)
      pose proof (i_ready I Hi) as Rd. pose proof (proj1 (proj2 (proj1 (ready_seq_iff s) Rd))) as Tk.
      destruct (F1 Tk) as (G1 & G2 & G3 & G4).
      exists k. split; simp; [discriminate|]. intros j p0 Hj. apply nth_upd_cases in Hj as [[_ ->]|[_ Hj]];
        [|apply fkc_noseq; exact (noseq I Tk Hj)].
      destruct (coll_q s) as [|ib q] eqn:Eq; cbn [FKc tl].
      + destruct (unfinished s) as [wb|] eqn:Eu.
        * repeat split; auto.
          -- destruct (mi_M k) as [MI1 _]. rewrite MI1 by (rewrite G1; reflexivity). rewrite G1. cbn [head_pos major].
             apply (eof_chunk s); auto. apply ready_seq_iff in Rd. rewrite Eq, Eu in Rd. intuition congruence.
          -- rewrite G1. symmetry. rewrite <- Eq. apply (u_unf U). exact Eu.
        * apply ready_collect_seq in Rd. rewrite Eq, Eu in Rd. tauto.
      + cbn [tl] in *. repeat split; auto. eapply G2; reflexivity.
    - (* seq requeue *)
      destruct Fi as (G1 & G2 & G3 & G4). destruct (u_adj U Hi) as [Us1 Us2].
      assert (Enx : wb_next wb0 = ib_pos ib) by (subst wb0; destruct wbo; [apply Us2; reflexivity|reflexivity]).
      pose proof (mstep_collect _ _ _ _ _ _ _ G1 G2 G3 Hw Hc) as Em.
      apply N.ltb_lt in Hl. rewrite Hl in Em. cbn zeta in Em.
      exists (S k). split; simp; [congruence|]. intros j p0 Hj. apply nth_upd_cases in Hj as [[_ ->]|[Nj Hj]];
        [|apply fkc_noseq; exact (Hoth _ _ Hj Nj)].
      rewrite pq_insert_first.
      2:{ destruct (coll_q s) as [|y q0]; [exact Logic.I|]. cbn [ib_pos]. cbn in Us1. rewrite <- Us1.
          unfold pos_minor_succ, pos_major_succ, plt. cbn. lia. }
      cbn [FKc]. rewrite M_succ. unfold mnext. split.
      + rewrite Em. unfold Front. destruct f; cbn [fst m_pos m_data m_enc head_pos ib_pos tl].
        * repeat split; auto. intros y r E. injection E as <- <-. reflexivity.
        * repeat split; auto. intros y r E. injection E as <- <-. reflexivity.
      + intros ->. exists k. rewrite Em. cbn [snd]. rewrite Enx. reflexivity.
    - (* seq release *)
      destruct Fi as (G1 & G2 & G3 & G4). destruct (u_adj U Hi) as [Us1 Us2].
      assert (Enx : wb_next wb0 = ib_pos ib) by (subst wb0; destruct wbo; [apply Us2; reflexivity|reflexivity]).
      pose proof (mstep_collect _ _ _ _ _ _ _ G1 G2 G3 Hw Hc) as Em.
      rewrite Hl in Em. change (0 <? 0)%N with false in Em. cbn zeta in Em.
      exists (S k). split; simp; [congruence|]. intros j p0 Hj. apply nth_upd_cases in Hj as [[_ ->]|[Nj Hj]];
        [|apply fkc_noseq; exact (Hoth _ _ Hj Nj)].
      cbn [FKc]. rewrite M_succ. unfold mnext. split.
      + rewrite Em. unfold Front.
        assert (Hd : forall y r, coll_q s = y :: r -> chunkD (major (ib_pos ib) + 1) = Some (ib_data y)).
        { intros y r E. rewrite E in G4, Us1. inversion G4 as [|? ? [Fy1 Fy2] _]; subst. cbn in Us1.
          rewrite <- Us1 in Fy2. exact Fy2. }
        assert (Ht : Forall Fresh (tl (coll_q s))) by (destruct (coll_q s); [constructor|inversion G4; auto]).
        destruct f; cbn [fst m_pos m_data m_enc]; repeat split; auto.
      + intros ->. exists k. rewrite Em. cbn [snd]. rewrite Enx. reflexivity.
    - (* seq flush *)
      destruct Fi as (G1 & G2 & G3 & G4). pose proof (u_adj U Hi _ eq_refl) as Ufl.
      exists (S k). split; simp; [intros _|intros j p0 Hj; apply nth_upd_cases in Hj as [[_ ->]|[Nj Hj]];
                                           [exact Logic.I|apply fkc_noseq; exact (Hoth _ _ Hj Nj)]].
      rewrite Hunf, M_succ. unfold mnext, mstep. rewrite G1. unfold enc_rel in G3.
      destruct (m_enc (M k)) as [[p0 e0]|]; [|tauto]. cbn [fst]. unfold Front. cbn [m_pos m_data m_enc].
      rewrite G4 in *. cbn [tl]. repeat split; auto; try congruence.
    - (* seqfin done *)
      destruct Fi as (G1 & G2).
      exists k. split; simp; [intros _; rewrite Hunf; exact G1|].
      intros j p0 Hj. apply nth_upd_cases in Hj as [[_ ->]|[Nj Hj]]; [exact Logic.I|apply fkc_noseq; exact (Hoth _ _ Hj Nj)].
    - (* seqfin more *)
      destruct Fi as (G1 & G2).
      exists k. split; simp; [intros _; exact G1|].
      intros j p0 Hj. apply nth_upd_cases in Hj as [[_ ->]|[Nj Hj]]; [exact Logic.I|apply fkc_noseq; exact (Hoth _ _ Hj Nj)].
    - (* deliver *)
      assert (Elast : pq_insert (@ib_pos Data) (mkiblk (mkpos (next_id s) 0) d) (coll_q s) =
                      coll_q s ++ [mkiblk (mkpos (next_id s) 0) d]).
      { apply pq_insert_last; intros y Hy; cbn [ib_pos].
        destruct (tiling_in _ _ _ _ Ut (in_items_coll Hy)) as (_ & A & B); cbn in A, B; eapply plt_ple_trans; eauto. }
      assert (Fr : Fresh (mkiblk (mkpos (next_id s) 0) d)).
      { split; [reflexivity|]. cbn [ib_pos ib_data major]. eapply deliver_chunk; eauto. }
      exists k. split; simp; rewrite Elast.
      + intros Tk. apply front_deliver; auto. apply mi_M.
      + intros j p0 Hj. apply fkc_deliver; [exact (F2 _ _ Hj)|apply mi_M|reflexivity|exact Fr|exact (u_adj U Hj)].
  Qed.

  Lemma spec_flush s k i wb : FK s (M k) -> nth_error (workers s) i = Some (PRun (KSeq (Some wb) None)) -> SpecWU wb.
  Proof.
    intros [_ F] Hi. destruct (F _ _ Hi) as (F1 & F2 & F3 & F4). exists k. unfold mstep. rewrite F1. unfold enc_rel in F3.
    destruct (m_enc (M k)) as [[p0 e0]|]; [|tauto]. destruct F3 as [<- <-]. rewrite F2. destruct wb; reflexivity.
  Qed.

  Lemma spec_done s k i wb : FK s (M k) -> nth_error (workers s) i = Some (PRun (KSeqFin wb true)) -> SpecWU wb.
  Proof. intros [_ F] Hi. destruct (F _ _ Hi) as (_ & Sp). auto. Qed.

  Lemma winv_step s e s' : USeq s -> (exists k, FK s (M k)) -> Forall SpecWU (all_wb s) -> step s e = Some s' ->
    Forall SpecWU (all_wb s').
  Proof.
    intros U (k & F) Dwb H. apply (all_wb_step SpecWU H Dwb).
    - intros i ib e0 d f Hi. destruct (u_adj U Hi).
    - intros i wb Hi. eapply spec_flush; eauto.
    - intros i wb Hi. eapply spec_done; eauto.
  Qed.

  Lemma fk_init n : FK (@init Data Enc n true lvl0 inp0) (M 0).
  Proof.
    split; cbn.
    - intros _. unfold Front. cbn. repeat split; auto. discriminate.
    - intros i p H. apply nth_error_In, repeat_spec in H. subst p. exact Logic.I.
  Qed.

  Record SInv (s : state) : Prop := {
    s_rinv : RInv s;
    s_fk : exists k, FK s (M k);
    s_wb : Forall SpecWU (all_wb s)
  }.

  Lemma reach_sinv n s : reachable n true lvl0 inp0 s -> SInv s.
  Proof.
    revert s. apply reachable_ind.
    - constructor; [constructor; reflexivity|exists 0; apply fk_init|unfold all_wb; cbn; induction n; cbn; auto].
    - intros s e s' R [Rd F W] H. destruct (reachable_inv R) as (I & J & _ & Eu & _). pose proof (reach_tinv R) as T.
      constructor; [eapply rinv_step|eapply fk_step|eapply winv_step]; eauto. apply (t_seq T Eu).
  Qed.

  Lemma written_specified_seq n s wb : reachable n true lvl0 inp0 s -> In wb (written s) -> SpecWU wb.
  Proof.
    intros R. apply Forall_forall, written_all_wb, (s_wb _ (reach_sinv _ _ R)).
  Qed.

  (* C03 (scheduler part, --sequential mode): two complete runs on the same chunk list -
     whatever the worker counts and interleavings - have written the same sequence of blocks *)
  Theorem c03_confluent_seq_sect n1 n2 s1 s2 : 1 <= n1 -> 1 <= n2 ->
    reachable n1 true lvl0 inp0 s1 -> reachable n2 true lvl0 inp0 s2 ->
    final s1 = true -> final s2 = true ->
    written s1 = written s2.
  Proof.
    intros N1 N2 R1 R2 F1 F2. apply (confluent_of_spec SpecWU true specWU_fun N1 N2 R1 R2 F1 F2).
    all: eapply written_all_wb, s_wb, reach_sinv; eassumption.
  Qed.

  Lemma spec_blocks_chain k : chain pos0 (map (@iv_wb Enc) (spec_blocks k)) (sp (M k)).
  Proof.
    induction k; [reflexivity|]. cbn [spec_blocks]. rewrite map_app. apply chain_app. exists (sp (M k)). split; auto.
    rewrite M_succ. destruct (mstep_spec _ (mi_M k)) as [_ H]. destruct (snd (mstep (M k))) as [wb|].
    - destruct H as (A & B & C). cbn. unfold iv_wb. rewrite C. repeat split; auto.
    - cbn. symmetry. exact H.
  Qed.

  Lemma spec_blocks_spec k : Forall SpecWU (spec_blocks k).
  Proof.
    induction k; [constructor|]. cbn [spec_blocks]. apply Forall_app. split; auto.
    destruct (snd (mstep (M k))) as [wb|] eqn:E; constructor; [exists k; exact E|constructor].
  Qed.

  Lemma spec_blocks_dead k n : m_data (M k) = None -> m_enc (M k) = None -> spec_blocks (n + k) = spec_blocks k.
  Proof.
    intros H1 H2. induction n; [reflexivity|]. cbn [plus spec_blocks]. rewrite IHn, (dead_n _ n H1 H2), dead by auto.
    apply app_nil_r.
  Qed.

  (* a complete --sequential run has written the complete output of the specification *)
  Theorem written_is_spec_seq n s : 1 <= n -> reachable n true lvl0 inp0 s -> final s = true ->
    exists k, written s = spec_blocks k /\ forall j, spec_blocks (j + k) = spec_blocks k.
  Proof.
    intros N1 R F. destruct (reach_sinv _ _ R) as [D (k & K) W]. destruct (reachable_inv R) as (I & J & _).
    destruct (c11_final_order N1 R F) as (Eo & Q & H).
    destruct (c11_final N1 R F) as (_ & _ & _ & Cq & _ & _ & _ & Un & Tok & Eof).
    destruct K as [K _]. destruct (K Tok) as (K1 & _ & K3 & _). rewrite Cq in K1. rewrite Un in K3.
    cbn in K1. unfold enc_rel in K3. destruct (m_enc (M k)) as [[p0 e0]|] eqn:Ee; [tauto|].
    assert (Kd : m_data (M k) = None).
    { destruct (mi_M k) as [MI1 _]. rewrite MI1 by (rewrite K1; reflexivity). rewrite K1. cbn [major].
      apply (eof_chunk s); auto. }
    exists k. split; [|intros j; apply spec_blocks_dead; auto].
    pose proof (t_hand (reach_tinv R)) as C. rewrite H, Eo in C.
    eapply (chain_unique_by_pos SpecWU specWU_fun); [exact C| | |apply spec_blocks_spec].
    - replace (mkpos (next_id s) 0) with (sp (M k)); [apply spec_blocks_chain|].
      unfold sp, m_start. rewrite Ee. cbn. exact K1.
    - apply (written_all_wb _ _ W).
  Qed.

End DataU.

(* C03, scheduler part, --sequential mode *)
Theorem c03_confluent_seq :
  forall (Data Enc : Type) (data_len : Data -> N) (enc_empty : Enc) (collect : Enc -> Data -> Enc * Data * bool)
         (chunks : list Data) (level : N) (n1 n2 : nat) s1 s2,
    1 <= n1 -> 1 <= n2 ->
    reachable data_len enc_empty collect n1 true level chunks s1 ->
    reachable data_len enc_empty collect n2 true level chunks s2 ->
    final s1 = true -> final s2 = true ->
    written s1 = written s2.
Proof. exact c03_confluent_seq_sect. Qed.

(* both modes *)
Theorem c03_confluent :
  forall (Data Enc : Type) (data_len : Data -> N) (enc_empty : Enc) (collect : Enc -> Data -> Enc * Data * bool)
         (chunks : list Data) (level : N) (ultra : bool) (n1 n2 : nat) s1 s2,
    1 <= n1 -> 1 <= n2 ->
    reachable data_len enc_empty collect n1 ultra level chunks s1 ->
    reachable data_len enc_empty collect n2 ultra level chunks s2 ->
    final s1 = true -> final s2 = true ->
    written s1 = written s2.
Proof.
  intros Data Enc data_len enc_empty collect chunks level [|].
  - apply c03_confluent_seq.
  - apply c03_confluent_default.
Qed.

(* non-vacuity: three chunks, encoder capacity 90000 bytes, chunk size 100000 (level 1):
   the second block spans chunks 0 and 1, the third spans chunks 1 and 2 and is flushed
   at the end of the input.  One worker, three workers and two workers under different
   round-robin interleavings: all runs are complete and write the same three blocks,
   which are the output of the sequential specification. *)
Definition exu_cap : N := 90000.
Definition exu_collect (e : N) (d : N) : N * N * bool :=
  let take := N.min d (exu_cap - e) in ((e + take)%N, (d - take)%N, (e + take =? exu_cap)%N).
Definition exu_input : list N := [100000; 100000; 30000]%N.

Example c03_seq_example_runs :
  let len := fun d : N => d in
  let s1 := rr len 0%N exu_collect 80 [TM; TS; TR; TW 0] (init N 1 true 1%N exu_input) in
  let s2 := rr len 0%N exu_collect 80 [TW 2; TW 1; TW 0; TR; TS; TM] (init N 3 true 1%N exu_input) in
  let s3 := rr len 0%N exu_collect 80 [TR; TW 1; TS; TW 0; TR; TM; TR] (init N 2 true 1%N exu_input) in
  final s1 = true /\ final s2 = true /\ final s3 = true /\
  written s1 = written s2 /\ written s1 = written s3 /\
  written s1 = [mkwblk (mkpos 0 0) (mkpos 0 1) 90000%N;
                mkwblk (mkpos 0 1) (mkpos 1 1) 90000%N;
                mkwblk (mkpos 1 1) (mkpos 3 0) 50000%N] /\
  written s1 = spec_blocks N N len 0%N exu_collect exu_input 1%N 10.
Proof. vm_compute. repeat split; reflexivity. Qed.

Print Assumptions c03_confluent_seq.
Print Assumptions c03_confluent.
Print Assumptions written_is_spec_seq.
Print Assumptions c03_seq_example_runs.

