(* Termination of the compression scheduler, both modes: every event except an idle
   (spurious) wake-up strictly decreases a lexicographic measure. *)
From Coq Require Import List NArith Arith Bool Lia.
From LBZ Require Import SchedC.SchedCIface Gen.SchedCTab SchedC.Pool SchedC.PoolLemmas SchedC.SchedC SchedC.SchedCInv
  SchedC.Tiling SchedC.SchedCOrder SchedC.SchedCLive SchedC.SchedCProg.
Import ListNotations.

Section Term.
  Variable Data : Type.
  Variable Enc : Type.
  Variable data_len : Data -> N.
  Variable enc_empty : Enc.
  Variable collect : Enc -> Data -> Enc * Data * bool.
  (* collect() on a non-empty input consumes at least one byte (it is only called on
     encoders that are not full) *)
  Hypothesis collect_shrinks : forall e d, (0 < data_len d)%N ->
    (data_len (snd (fst (collect e d))) < data_len d)%N.

  Notation state := (state Data Enc).
  Notation cont := (cont Data Enc).
  Notation wpcs := (wpc cont).
  Notation step := (step data_len enc_empty collect).
  Notation reachable := (reachable data_len enc_empty collect).

  Definition dl (d : Data) : nat := N.to_nat (data_len d).

  (* A: work that remains to be done *)
  Definition w_ib (ib : iblk Data) : nat := 40 * dl (ib_data ib) + 2.
  Definition w_pc (p : wpcs) : nat :=
    match p with
    | PRun (KCollect ib) => 40 * dl (ib_data ib)
    | PRun (KSeq wbo ibo) => (match wbo with Some _ => 15 | None => 0 end) +
                             (match ibo with Some ib => 40 * dl (ib_data ib) | None => 0 end)
    | PRun (KSeqFin _ _) => 18
    | PRun (KEncode _) => 14
    | PRun (KTransmit _) => 10
    | _ => 0
    end.
  Definition w_rd (r : rpc cont) : nat := match r with RIdle => 3 | RRead => 2 | REof => 1 | _ => 0 end.
  Definition w_wr (w : spc cont (wblk Enc)) : nat := match w with SHold _ => 4 | SIdle => 1 | _ => 0 end.

  Definition work (s : state) : nat :=
    sumf (fun d => 40 * dl d + 6) (input s) + w_rd (rd s) +
    sumf w_ib (coll_q s) + 12 * length (trans_q s) + 8 * length (reord_q s) + 6 * length (output_q s) +
    (match unfinished s with Some _ => 16 | None => 0 end) +
    w_wr (wr s) + sumf w_pc (workers s) + (if finish s then 0 else 1).

  (* B: workers that have not exited;  C: scheduling noise *)
  Definition alive (s : state) : nat := sumf (fun p : wpcs => match p with PExit => 0 | _ => 1 end) (workers s).
  Definition n_pc (p : wpcs) : nat := match p with PNew => 3 | PTop => 2 | PRun (KStart _) => 1 | _ => 0 end.
  Definition noise (s : state) : nat := sumf n_pc (workers s) + 3 * wakeups s.

  Definition lt3 (a b : nat * nat * nat) : Prop :=
    let '(a1, a2, a3) := a in let '(b1, b2, b3) := b in
    a1 < b1 \/ (a1 = b1 /\ (a2 < b2 \/ (a2 = b2 /\ a3 < b3))).

  Definition measure (s : state) : nat * nat * nat := (work s, alive s, noise s).

  (* every input block in the system is non-empty *)
  Definition NE (s : state) : Prop :=
    Forall (fun ib => 0 < dl (ib_data ib)) (coll_q s) /\
    (forall i ib, nth_error (workers s) i = Some (PRun (KCollect ib)) -> 0 < dl (ib_data ib)) /\
    (forall i wbo ib, nth_error (workers s) i = Some (PRun (KSeq wbo (Some ib))) -> 0 < dl (ib_data ib)).

  Local Arguments Nat.mul : simpl never.

  Lemma lt3_work a b c a' b' c' : a' < a -> lt3 (a', b', c') (a, b, c).
  Proof. cbn. auto. Qed.
  Lemma lt3_alive a b c a' b' c' : a' = a -> b' < b -> lt3 (a', b', c') (a, b, c).
  Proof. cbn. auto. Qed.
  Lemma lt3_noise a b c a' b' c' : a' = a -> b' = b -> c' < c -> lt3 (a', b', c') (a, b, c).
  Proof. cbn. auto. Qed.

  Lemma measure_decreases s e s' : Inv s -> NE s -> step s e = Some s' -> productive s e = true ->
    lt3 (measure s') (measure s).
  Proof.
    intros I (Nq & Nw & Ns) H Pr. unfold measure. step_cases H.
    (* a waiter only wakes productively if a signal is pending *)
    2: (unfold productive in Pr; rewrite Hi in Pr; apply Nat.ltb_lt in Pr).
    (* scheduling noise: a worker starts, wakes up, takes the task found, goes to sleep *)
    1-3, 5: (apply lt3_noise; unfold work, alive, noise; simp; sums w_pc; sums (fun p : wpcs => match p with PExit => 0 | _ => 1 end); sums n_pc; lia).
    (* a worker exits *)
    1: (apply lt3_alive; unfold work, alive; simp; sums w_pc; sums (fun p : wpcs => match p with PExit => 0 | _ => 1 end); lia).
    (* every other event does some of the work that is left *)
    all: apply lt3_work.
    1-7: pose proof (i_ready I Hi) as R.
    1: apply ready_collect_iff in R. 3: apply ready_collect_seq in R.
    4: apply ready_transmit_spec in R. 6: apply ready_reorder_spec in R.
    1, 4, 6: (exfalso; rewrite Hq in R; tauto).
    all: unfold work; simp;
         rewrite ?sumf_insert, ?pq_insert_length, ?app_length; try rewrite Hq; try rewrite Hr; try rewrite Hw; try rewrite Hin;
         cbn [w_rd w_wr length]; rewrite ?sumf_cons; unfold w_ib; cbn [ib_data]; try sums w_pc.
    all: try lia.
    (* collect(): the chunk was not empty, the remainder is strictly shorter *)
    all: try (pose proof (Nw _ _ Hi)); try (pose proof (Ns _ _ _ Hi));
         try (match type of Hc with collect ?e0 ?d0 = _ => pose proof (collect_shrinks e0 d0) as Sh end;
              rewrite Hc in Sh; cbn [fst snd] in Sh; try destruct wbo; unfold dl in *; lia).
    - (* collect_seq starts: the guard says that something is taken *)
      destruct R as [R _]. destruct (coll_q s) as [|y q0]; destruct (unfinished s) as [u|];
        cbn [tl w_pc] in *; rewrite ?sumf_cons in *; unfold w_ib in *; try lia. destruct R; congruence.
    - destruct (data_len d <? in_granul (lvl s))%N; cbn [w_rd]; lia.
    - rewrite Hf. lia.
  Qed.

  Lemma ne_step s e s' : NE s -> step s e = Some s' -> NE s'.
  Proof.
    intros (Nq & Nw & Ns) H. step_cases H.
    all: split; [|split]; simp; auto.
    all: try solve [ intros j ib0 Hj; apply nth_upd_cases in Hj; destruct Hj as [[-> Hj]|[? Hj]]; [discriminate Hj|eauto] ].
    all: try solve [ intros j wbo0 ib0 Hj; apply nth_upd_cases in Hj; destruct Hj as [[-> Hj]|[? Hj]]; [discriminate Hj|eauto] ].
    all: try solve [ rewrite Hq in Nq; inversion Nq; auto ].
    all: try solve [ apply Forall_forall; intros y Hy; apply pq_insert_in in Hy; destruct Hy as [->|Hy];
                     [cbn; unfold dl; lia|rewrite Forall_forall in Nq; auto] ].
    - intros j ib0 Hj. apply nth_upd_cases in Hj. destruct Hj as [[-> Hj]|[? Hj]]; [|eauto].
      injection Hj as <-. rewrite Hq in Nq. inversion Nq; auto.
    - destruct (coll_q s); cbn [tl]; [constructor|inversion Nq; auto].
    - intros j wbo0 ib0 Hj. apply nth_upd_cases in Hj. destruct Hj as [[-> Hj]|[? Hj]]; [|eauto].
      injection Hj as _ Hc0. destruct (coll_q s) as [|y q0]; [discriminate Hc0|]. injection Hc0 as <-. inversion Nq; auto.
  Qed.

  Lemma ne_reach n u l inp s : reachable n u l inp s -> NE s.
  Proof.
    revert s. apply reachable_ind; [|intros s e s' _; apply ne_step].
    split; [|split]; cbn; [constructor| |]; intros; match goal with H : nth_error _ _ = _ |- _ =>
      apply nth_error_In in H; apply repeat_spec in H; discriminate end.
  Qed.

  (* C11_terminates (both modes): every productive event strictly decreases the
     measure (work left, workers alive, scheduling noise), lexicographically *)
  Theorem c11_terminates n u l inp s e s' : reachable n u l inp s ->
    step s e = Some s' -> productive s e = true -> lt3 (measure s') (measure s).
  Proof. intros R. apply measure_decreases; [apply (reachable_inv R)|apply (ne_reach _ _ _ _ _ R)]. Qed.

  Lemma lt3_wf : well_founded lt3.
  Proof.
    assert (A : forall a b c, Acc lt3 (a, b, c)).
    { induction a as [a IHa] using lt_wf_ind. induction b as [b IHb] using lt_wf_ind.
      induction c as [c IHc] using lt_wf_ind. constructor. intros [[a' b'] c'] H. cbn in H.
      destruct H as [H|[-> [H|[-> H]]]]; auto. }
    intros [[a b] c]. apply A.
  Qed.
End Term.
