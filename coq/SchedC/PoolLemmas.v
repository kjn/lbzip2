(* Lemmas about the Pool building blocks: worker-list updates, counting over the
   worker list, ordered insertion, positions. *)
From Coq Require Import List NArith Arith Bool Lia Permutation Sorted.
From LBZ Require Import SchedC.SchedCIface SchedC.Pool.
Import ListNotations.

Definition plt (a b : pos) : Prop :=
  (major a < major b)%N \/ (major a = major b /\ (minor a < minor b)%N).
Definition ple (a b : pos) : Prop := a = b \/ plt a b.

Lemma pos_lt_spec a b : pos_lt a b = true <-> plt a b.
Proof.
  unfold pos_lt, plt. rewrite orb_true_iff, andb_true_iff, !N.ltb_lt, N.eqb_eq. tauto.
Qed.

Lemma pos_lt_false a b : pos_lt a b = false <-> ~ plt a b.
Proof. rewrite <- pos_lt_spec. destruct (pos_lt a b); intuition congruence. Qed.

Lemma pos_eq_spec a b : pos_eq a b = true <-> a = b.
Proof.
  unfold pos_eq. rewrite andb_true_iff, !N.eqb_eq. destruct a, b; cbn. split.
  - intros [-> ->]; reflexivity.
  - intros H; inversion H; auto.
Qed.

Lemma plt_irrefl a : ~ plt a a.
Proof. unfold plt. lia. Qed.

Lemma plt_trans a b c : plt a b -> plt b c -> plt a c.
Proof. unfold plt. lia. Qed.

Lemma plt_asym a b : plt a b -> ~ plt b a.
Proof. unfold plt. lia. Qed.

Lemma plt_total a b : plt a b \/ a = b \/ plt b a.
Proof.
  destruct a as [a1 a2], b as [b1 b2]. unfold plt; cbn.
  destruct (N.lt_trichotomy a1 b1) as [|[|]]; destruct (N.lt_trichotomy a2 b2) as [|[|]]; subst; auto; lia.
Qed.

Lemma ple_refl a : ple a a. Proof. left; reflexivity. Qed.
Lemma ple_trans a b c : ple a b -> ple b c -> ple a c.
Proof. unfold ple. intros [->|H1] [->|H2]; auto. right. eapply plt_trans; eauto. Qed.
Lemma plt_ple_trans a b c : plt a b -> ple b c -> plt a c.
Proof. intros H [->|H2]; auto. eapply plt_trans; eauto. Qed.
Lemma ple_plt_trans a b c : ple a b -> plt b c -> plt a c.
Proof. intros [->|H1] H; auto. eapply plt_trans; eauto. Qed.
Lemma not_plt_ple a b : ~ plt a b -> ple b a.
Proof. intros H. destruct (plt_total a b) as [|[->|]]; [tauto|left; auto|right; auto]. Qed.

Lemma ple_antisym a b : ple a b -> ple b a -> a = b.
Proof. intros [->|H1] [E|H2]; auto. exfalso. eapply plt_asym; eauto. Qed.

Lemma pos_le_spec a b : pos_le a b = true <-> ple a b.
Proof.
  unfold pos_le. rewrite negb_true_iff, pos_lt_false. split.
  - apply not_plt_ple.
  - intros [->|H] C; [eapply plt_irrefl; eauto|eapply plt_asym; eauto].
Qed.

Lemma plt_minor_succ p : plt p (mkpos (major p) (minor p + 1)).
Proof. unfold plt; cbn. lia. Qed.
Lemma plt_major_succ p : plt p (mkpos (major p + 1) 0).
Proof. unfold plt; cbn. lia. Qed.

Section Upd.
  Context {A : Type}.

  Lemma upd_length (l : list A) i x : length (upd l i x) = length l.
  Proof. revert i; induction l; destruct i; cbn; auto. Qed.

  Lemma nth_error_upd_eq (l : list A) i x y : nth_error l i = Some y -> nth_error (upd l i x) i = Some x.
  Proof. revert i; induction l; destruct i; cbn; intros; try discriminate; auto. Qed.

  Lemma nth_error_upd_neq (l : list A) i j x : i <> j -> nth_error (upd l i x) j = nth_error l j.
  Proof. revert i j; induction l; destruct i, j; cbn; intros; auto; try congruence. Qed.

  Lemma nth_error_split_upd (l : list A) i y :
    nth_error l i = Some y ->
    exists l1 l2, l = l1 ++ y :: l2 /\ length l1 = i /\ forall x, upd l i x = l1 ++ x :: l2.
  Proof.
    revert i; induction l as [|a l IH]; destruct i; cbn; intros H; try discriminate.
    - inversion H; subst. exists [], l. auto.
    - destruct (IH _ H) as (l1 & l2 & -> & <- & U). exists (a :: l1), l2. cbn.
      repeat split; auto. intros x. rewrite U. reflexivity.
  Qed.

  Lemma nth_error_upd (l : list A) i j x :
    nth_error (upd l i x) j = if Nat.eqb i j then (match nth_error l i with Some _ => Some x | None => None end)
                              else nth_error l j.
  Proof.
    destruct (Nat.eqb_spec i j) as [->|N].
    - destruct (nth_error l j) eqn:E.
      + eapply nth_error_upd_eq; eauto.
      + apply nth_error_None. rewrite upd_length. apply nth_error_None; auto.
    - apply nth_error_upd_neq; auto.
  Qed.
End Upd.

Lemma Forall_flat_upd {A B} (P : B -> Prop) (f : A -> list B) ws i p p' :
  nth_error ws i = Some p -> Forall P (flat_map f ws) -> Forall P (f p') -> Forall P (flat_map f (upd ws i p')).
Proof.
  intros H F Fp. destruct (nth_error_split_upd _ _ _ H) as (l1 & l2 & -> & _ & U). rewrite U.
  rewrite flat_map_app in *. cbn [flat_map] in *. rewrite !Forall_app in *. tauto.
Qed.

Lemma Forall_flat_nth {A B} (P : B -> Prop) (f : A -> list B) ws i p :
  nth_error ws i = Some p -> Forall P (flat_map f ws) -> Forall P (f p).
Proof.
  intros H F. destruct (nth_error_split_upd _ _ _ H) as (l1 & l2 & -> & _ & _).
  rewrite flat_map_app in F. cbn [flat_map] in F. rewrite !Forall_app in F. tauto.
Qed.

Lemma skipn_nth {A} (l : list A) k d rest : skipn k l = d :: rest -> nth_error l k = Some d /\ skipn (S k) l = rest.
Proof.
  revert l. induction k; intros l H.
  - destruct l; [discriminate|]. cbn in H. injection H as -> ->. auto.
  - destruct l; [discriminate|]. cbn in H. apply IHk in H. cbn. auto.
Qed.

Definition sumf {A} (f : A -> nat) (l : list A) : nat := list_sum (map f l).

Lemma sumf_app {A} (f : A -> nat) l1 l2 : sumf f (l1 ++ l2) = sumf f l1 + sumf f l2.
Proof. unfold sumf. rewrite map_app, list_sum_app. reflexivity. Qed.

Lemma sumf_cons {A} (f : A -> nat) x l : sumf f (x :: l) = f x + sumf f l.
Proof. reflexivity. Qed.

Lemma sumf_upd {A} (f : A -> nat) l i y x :
  nth_error l i = Some y -> sumf f (upd l i x) + f y = sumf f l + f x.
Proof.
  intros H. destruct (nth_error_split_upd _ _ _ H) as (l1 & l2 & -> & _ & U).
  rewrite U, !sumf_app, !sumf_cons. lia.
Qed.

Lemma sumf_repeat {A} (f : A -> nat) x n : sumf f (repeat x n) = n * f x.
Proof. induction n; cbn [repeat]; [reflexivity|]. rewrite sumf_cons, IHn. lia. Qed.

Lemma sumf_zero_all {A} (f : A -> nat) l : sumf f l = 0 -> forall x, In x l -> f x = 0.
Proof.
  induction l as [|a l IHl]; intros H x I; [destruct I|]. rewrite sumf_cons in H. destruct I as [->|I]; [lia|]. apply IHl; auto; lia.
Qed.

Lemma sumf_all_zero {A} (f : A -> nat) l : (forall x, In x l -> f x = 0) -> sumf f l = 0.
Proof.
  induction l as [|a l IHl]; intros H; [reflexivity|]. rewrite sumf_cons, H, IHl; [reflexivity| |left; reflexivity].
  intros; apply H; right; auto.
Qed.

Lemma sumf_pos_ex {A} (f : A -> nat) l : 0 < sumf f l -> exists i x, nth_error l i = Some x /\ 0 < f x.
Proof.
  induction l as [|a l IHl]; [unfold sumf; cbn; lia|]. rewrite sumf_cons. intros H.
  destruct (f a) eqn:E.
  - destruct IHl as (i & x & H1 & H2); [lia|]. exists (S i), x. auto.
  - exists 0, a. cbn. split; auto. lia.
Qed.

Lemma sumf_ge_nth {A} (f : A -> nat) l i x : nth_error l i = Some x -> f x <= sumf f l.
Proof.
  intros H. destruct (nth_error_split_upd _ _ _ H) as (l1 & l2 & -> & _ & _).
  rewrite sumf_app, sumf_cons. lia.
Qed.

Lemma sumf_upd_ge {A} (f : A -> nat) l i y x : nth_error l i = Some y -> f x <= sumf f (upd l i x).
Proof. intros H. apply (sumf_ge_nth f _ i). eapply nth_error_upd_eq; eauto. Qed.

Definition b2n (b : bool) : nat := if b then 1 else 0.

Lemma n_waiting_sumf {K} (ws : list (wpc K)) : n_waiting ws = sumf (fun p => b2n (is_wait p)) ws.
Proof.
  unfold n_waiting, sumf. induction ws as [|p ws IH]; cbn; auto.
  destruct (is_wait p); cbn; rewrite IH; reflexivity.
Qed.

Lemma forallb_nth {A} (f : A -> bool) l : forallb f l = true <-> forall i x, nth_error l i = Some x -> f x = true.
Proof.
  rewrite forallb_forall. split; intros H.
  - intros i x E. apply H. eapply nth_error_In; eauto.
  - intros x I. destruct (In_nth_error _ _ I) as [i E]. eauto.
Qed.

Lemma filter_perm_length {A} (f : A -> bool) l l' : Permutation l l' -> length (filter f l) = length (filter f l').
Proof.
  induction 1; cbn; auto.
  - destruct (f x); cbn; lia.
  - destruct (f x); destruct (f y); cbn; lia.
  - lia.
Qed.

Section PQ.
  Context {A : Type} (key : A -> pos).

  Lemma pq_insert_perm x q : Permutation (pq_insert key x q) (x :: q).
  Proof.
    induction q as [|y q IH]; cbn; auto. destruct (pos_lt (key x) (key y)); auto.
    rewrite IH. apply perm_swap.
  Qed.

  Lemma pq_insert_length x q : length (pq_insert key x q) = S (length q).
  Proof. rewrite (Permutation_length (pq_insert_perm x q)). reflexivity. Qed.

  Lemma pq_insert_in x q y : In y (pq_insert key x q) <-> y = x \/ In y q.
  Proof.
    split; intros H.
    - apply (Permutation_in _ (pq_insert_perm x q)) in H. destruct H; auto.
    - apply (Permutation_in _ (Permutation_sym (pq_insert_perm x q))). destruct H; [left|right]; auto.
  Qed.

  Lemma Forall_insert (P : A -> Prop) x q : Forall P (pq_insert key x q) <-> P x /\ Forall P q.
  Proof.
    rewrite !Forall_forall. split.
    - intros H. split; [apply H; apply pq_insert_in; auto|intros y Hy; apply H; apply pq_insert_in; auto].
    - intros [H1 H2] y Hy. apply pq_insert_in in Hy. destruct Hy as [->|Hy]; auto.
  Qed.

  Lemma sumf_insert (f : A -> nat) x q : sumf f (pq_insert key x q) = f x + sumf f q.
  Proof.
    induction q as [|y q IH]; [reflexivity|]. cbn [pq_insert].
    destruct (pos_lt (key x) (key y)); [reflexivity|]. rewrite !sumf_cons, IH. lia.
  Qed.

  (* sorted by key, strictly: keys are distinct *)
  Definition ksorted (q : list A) : Prop := StronglySorted (fun a b => plt (key a) (key b)) q.

  Lemma ksorted_insert x q :
    ksorted q -> (forall y, In y q -> key y <> key x) -> ksorted (pq_insert key x q).
  Proof.
    unfold ksorted. induction q as [|y q IH]; cbn; intros S D.
    - repeat constructor.
    - inversion S as [|? ? S1 S2]; subst.
      destruct (pos_lt (key x) (key y)) eqn:E.
      + constructor; auto. constructor.
        * apply pos_lt_spec; auto.
        * rewrite Forall_forall in *. intros z Hz. eapply plt_trans; [apply pos_lt_spec; eauto|auto].
      + constructor.
        * apply IH; auto.
        * rewrite Forall_forall in *. intros z Hz. apply pq_insert_in in Hz. destruct Hz as [->|Hz]; auto.
          apply pos_lt_false in E. destruct (plt_total (key y) (key x)) as [|[Q|]]; auto; [|tauto].
          exfalso. eapply D; eauto.
    Qed.

  Lemma ksorted_tail x q : ksorted (x :: q) -> ksorted q.
  Proof. intros S; inversion S; auto. Qed.

  Lemma ksorted_head_min x q y : ksorted (x :: q) -> In y q -> plt (key x) (key y).
  Proof. intros S I; inversion S as [|? ? _ F]; subst. rewrite Forall_forall in F; auto. Qed.

  Lemma pq_insert_last x q : (forall y, In y q -> plt (key y) (key x)) -> pq_insert key x q = q ++ [x].
  Proof.
    induction q as [|y q IH]; intros H; [reflexivity|]. cbn.
    assert (E : pos_lt (key x) (key y) = false).
    { apply pos_lt_false. apply plt_asym. apply H. left; reflexivity. }
    rewrite E. f_equal. apply IH. intros z Hz. apply H. right; auto.
  Qed.

  Lemma pq_insert_first x q :
    match q with y :: _ => plt (key x) (key y) | [] => True end -> pq_insert key x q = x :: q.
  Proof.
    destruct q as [|y q]; intros H; [reflexivity|]. cbn. apply pos_lt_spec in H. rewrite H. reflexivity.
  Qed.

  Lemma sorted_head_at (q : list A) o x :
    ksorted q -> In x q -> key x = o -> (forall y, In y q -> ple o (key y)) ->
    exists h t, q = h :: t /\ key h = o.
  Proof.
    intros S I E B. destruct q as [|h t]; [destruct I|]. exists h, t. split; auto.
    destruct I as [->|I]; auto.
    pose proof (ksorted_head_min _ _ _ S I) as L. rewrite E in L.
    pose proof (B h (or_introl eq_refl)) as Bh.
    exfalso. eapply plt_irrefl. eapply plt_ple_trans; eauto.
  Qed.

  Lemma ksorted_nodup_keys q : ksorted q -> NoDup (map key q).
  Proof.
    induction q as [|x q IH]; cbn; intros S; constructor.
    - intros I. apply in_map_iff in I. destruct I as (y & E & I).
      pose proof (ksorted_head_min _ _ _ S I) as L. rewrite E in L. eapply plt_irrefl; eauto.
    - apply IH. eapply ksorted_tail; eauto.
  Qed.
End PQ.
