(* C03, scheduler part: every block in the system is a block of the specification,
   and a specified block is determined by its position; so the sequence written by
   a complete run is a function of the chunk list and the level alone - not of the
   worker count or the interleaving.  This file: the reader, how blocks move through the
   scheduler (both modes), and the specification of the default mode, where a
   block is cut out of one chunk. *)
From Coq Require Import List NArith Arith Bool Lia Permutation Sorted.
From LBZ Require Import SchedC.SchedCIface Gen.SchedCTab SchedC.Pool SchedC.PoolLemmas SchedC.SchedC SchedC.SchedCInv
  SchedC.Tiling SchedC.SchedCOrder.
Import ListNotations.

Section Data.
  Variable Data : Type.
  Variable Enc : Type.
  Variable data_len : Data -> N.
  Variable enc_empty : Enc.
  Variable collect : Enc -> Data -> Enc * Data * bool.
  Variable inp0 : list Data.            (* what the successive xread(in_granul) calls return *)
  Variable lvl0 : N.

  Notation state := (state Data Enc).
  Notation cont := (cont Data Enc).
  Notation wpcs := (wpc cont).
  Notation step := (step data_len enc_empty collect).
  Notation reachable := (reachable data_len enc_empty collect).

  (* the specification: what is left of chunk d0 after i blocks, and the block at a position *)
  Definition rem_step (d : Data) : Data := snd (fst (collect enc_empty d)).
  Definition remN (d0 : Data) (i : N) : Data := N.iter i rem_step d0.

  Lemma remN_succ d0 i : remN d0 (i + 1) = rem_step (remN d0 i).
  Proof. unfold remN. rewrite N.add_1_r. apply N.iter_succ. Qed.

  Definition chunk_at (j : N) : option Data := nth_error inp0 (N.to_nat j).

  Definition blockspec (p : pos) (d0 : Data) : wblk Enc :=
    let '(e, d', _) := collect enc_empty (remN d0 (minor p)) in
    mkwblk p (if (0 <? data_len d')%N then pos_minor_succ p else pos_major_succ p) e.

  Definition SpecI (ib : iblk Data) : Prop :=
    exists d0, chunk_at (major (ib_pos ib)) = Some d0 /\ ib_data ib = remN d0 (minor (ib_pos ib)).
  Definition SpecW (wb : wblk Enc) : Prop :=
    exists d0, chunk_at (major (wb_pos wb)) = Some d0 /\ wb = blockspec (wb_pos wb) d0.

  Lemma specW_fun wb1 wb2 : SpecW wb1 -> SpecW wb2 -> wb_pos wb1 = wb_pos wb2 -> wb1 = wb2.
  Proof.
    intros (d1 & C1 & E1) (d2 & C2 & E2) P. rewrite P in *. rewrite C1 in C2. injection C2 as <-.
    congruence.
  Qed.

  Definition ibs_pc (p : wpcs) : list (iblk Data) :=
    match p with PRun (KCollect ib) => [ib] | PRun (KSeq _ (Some ib)) => [ib] | _ => [] end.
  Definition wbs_pc (p : wpcs) : list (wblk Enc) :=
    match p with PRun (KEncode wb) | PRun (KTransmit wb) => [wb] | _ => [] end.

  Definition all_ib (s : state) : list (iblk Data) := coll_q s ++ flat_map ibs_pc (workers s).
  Definition all_wb (s : state) : list (wblk Enc) :=
    trans_q s ++ reord_q s ++ output_q s ++ written s ++ flat_map wbs_pc (workers s).

  (* number of chunks the reader delivers: up to and including the first short one *)
  Fixpoint delivered (l : list Data) : nat :=
    match l with
    | [] => 0
    | d :: r => if (data_len d =? 0)%N then 0
                else S (if (data_len d <? in_granul lvl0)%N then 0 else delivered r)
    end.

  Definition rd_more (r : rpc cont) : bool := match r with RIdle | RRead => true | _ => false end.

  Record RInv (s : state) : Prop := {
    r_lvl : lvl s = lvl0;
    r_cnt : delivered inp0 = N.to_nat (next_id s) + (if rd_more (rd s) then delivered (input s) else 0);
    r_in : input s = skipn (N.to_nat (next_id s)) inp0
  }.

  Lemma rinv_step s e s' : RInv s -> step s e = Some s' -> RInv s'.
  Proof.
    intros [Dl Dc Din] H. step_cases H.
    all: constructor; simp; auto.
    all: try solve [ rewrite ?Hr in *; cbn [rd_more] in *; lia ].
    - destruct Hin as [Hin|(d0 & r0 & Hin & Hz)]; rewrite Hr in Dc; cbn [rd_more] in Dc; rewrite Hin in Dc;
        cbn [delivered] in Dc; rewrite ?Hz in Dc; cbn in Dc; cbn [rd_more]; lia.
    - rewrite Hr in Dc; cbn [rd_more] in Dc; rewrite Hin in Dc; cbn [delivered] in Dc;
        apply N.eqb_neq in Hl; rewrite Hl, Dl in *;
        destruct (data_len d <? in_granul lvl0)%N; cbn [rd_more] in *; lia.
    - rewrite Din in Hin. destruct (skipn_nth _ _ _ _ Hin) as [_ E]. rewrite <- E. f_equal. lia.
  Qed.

  Lemma reach_rinv n u s : reachable n u lvl0 inp0 s -> RInv s.
  Proof.
    revert s. apply reachable_ind; [constructor; reflexivity|]. intros s e s' _. apply rinv_step.
  Qed.

  Lemma final_next_id n u s : reachable n u lvl0 inp0 s -> final s = true -> N.to_nat (next_id s) = delivered inp0.
  Proof.
    intros R F. pose proof (r_cnt _ (reach_rinv _ _ _ R)) as C.
    unfold final in F. rewrite !andb_true_iff in F. destruct F as [[_ F] _].
    destruct (rd s); try discriminate. cbn in C. lia.
  Qed.

  (* blocks only move, except where a collector finishes one *)
  Lemma all_wb_step (P : wblk Enc -> Prop) s e s' : step s e = Some s' -> Forall P (all_wb s) ->
    (forall i ib e d f, nth_error (workers s) i = Some (PRun (KCollect ib)) -> collect enc_empty (ib_data ib) = (e, d, f) ->
       P (mkwblk (ib_pos ib) (if (0 <? data_len d)%N then pos_minor_succ (ib_pos ib) else pos_major_succ (ib_pos ib)) e)) ->
    (forall i wb, nth_error (workers s) i = Some (PRun (KSeq (Some wb) None)) -> P wb) ->
    (forall i wb, nth_error (workers s) i = Some (PRun (KSeqFin wb true)) -> P wb) ->
    Forall P (all_wb s').
  Proof.
    intros H F Nc Nf Nd. unfold all_wb in *. rewrite !Forall_app in F. destruct F as (A & B & C & D & E).
    step_cases H; simp.
    (* what the acting worker holds, and what it has produced *)
    all: try (pose proof (Forall_flat_nth _ _ _ _ _ Hi E) as Fw; cbn [wbs_pc] in Fw).
    13: pose proof (Nc _ _ _ _ _ Hi Hc) as New; apply N.ltb_lt in Hl; rewrite Hl in New.
    14: pose proof (Nc _ _ _ _ _ Hi Hc) as New; rewrite Hl in New; cbn in New.
    18: pose proof (Nf _ _ Hi) as New. 19: pose proof (Nd _ _ Hi) as New.
    all: clear Nc Nf Nd; try rewrite Hq in *.
    all: rewrite !Forall_app; repeat split; try assumption.
    all: try (eapply Forall_flat_upd; [exact Hi|exact E|cbn [wbs_pc]]).
    all: rewrite ?Forall_insert, ?Forall_app, ?Forall_cons_iff in *; repeat split; try tauto; constructor.
  Qed.

  Lemma chain_unique_by_pos (P : wblk Enc -> Prop) :
    (forall a b, P a -> P b -> wb_pos a = wb_pos b -> a = b) ->
    forall p q l1 l2, chain p (map (@iv_wb Enc) l1) q -> chain p (map (@iv_wb Enc) l2) q ->
    Forall P l1 -> Forall P l2 -> l1 = l2.
  Proof.
    intros Pf p q l1. revert p. induction l1 as [|w1 l1 IH]; intros p l2 C1 C2 F1 F2.
    - destruct l2 as [|w2 l2]; auto. cbn in C1, C2. subst q. destruct C2 as (E & L & C2).
      apply chain_le in C2. exfalso. rewrite <- E in C2. eapply plt_irrefl. eapply plt_ple_trans; eauto.
    - destruct l2 as [|w2 l2].
      + cbn in C1, C2. subst q. destruct C1 as (E & L & C1).
        apply chain_le in C1. exfalso. rewrite <- E in C1. eapply plt_irrefl. eapply plt_ple_trans; eauto.
      + cbn in C1, C2. destruct C1 as (P1 & _ & C1). destruct C2 as (P2 & _ & C2).
        inversion F1 as [|? ? S1 F1']; subst. inversion F2 as [|? ? S2 F2']; subst.
        assert (w1 = w2) by (apply Pf; auto; unfold iv_wb in *; cbn in *; congruence). subst w2.
        f_equal. eapply IH; eauto.
  Qed.

  Lemma confluent_of_spec (P : wblk Enc -> Prop) u n1 n2 s1 s2 :
    (forall a b, P a -> P b -> wb_pos a = wb_pos b -> a = b) ->
    1 <= n1 -> 1 <= n2 -> reachable n1 u lvl0 inp0 s1 -> reachable n2 u lvl0 inp0 s2 ->
    final s1 = true -> final s2 = true -> Forall P (written s1) -> Forall P (written s2) ->
    written s1 = written s2.
  Proof.
    intros Pf N1 N2 R1 R2 F1 F2 W1 W2.
    assert (E : next_id s1 = next_id s2).
    { apply N2Nat.inj. rewrite (final_next_id _ _ _ R1 F1), (final_next_id _ _ _ R2 F2). reflexivity. }
    destruct (c11_final_order N1 R1 F1) as (Eo1 & _ & H1). destruct (c11_final_order N2 R2 F2) as (Eo2 & _ & H2).
    pose proof (t_hand (reach_tinv R1)) as C1. pose proof (t_hand (reach_tinv R2)) as C2.
    rewrite H1, Eo1, E in C1. rewrite H2, Eo2 in C2. eapply chain_unique_by_pos; eauto.
  Qed.

  Lemma written_all_wb (P : wblk Enc -> Prop) s : Forall P (all_wb s) -> Forall P (written s).
  Proof. unfold all_wb. rewrite !Forall_app. intros (_ & _ & _ & W & _). exact W. Qed.

  Record DInv (s : state) : Prop := {
    d_ib : Forall SpecI (all_ib s);
    d_wb : Forall SpecW (all_wb s)
  }.

  Lemma dinv_step s e s' : Inv s -> TInv s -> ultra s = false -> RInv s -> DInv s -> step s e = Some s' -> DInv s'.
  Proof.
    intros I T Eu [_ _ Din] [Dib Dwb] H. destruct (t_def T Eu) as [Ot _].
    assert (Held : forall i ib, nth_error (workers s) i = Some (PRun (KCollect ib)) -> SpecI ib).
    { intros i ib Hi. pose proof (Forall_flat_nth SpecI ibs_pc _ _ _ Hi) as F. cbn in F.
      unfold all_ib in Dib. rewrite Forall_app in Dib. apply Forall_inv in F; tauto. }
    constructor.
    2: { (* a block is cut out of the chunk its collector holds *)
      apply (all_wb_step _ _ _ _ H Dwb).
      - intros i ib e0 d f Hi Hc. destruct (Held _ _ Hi) as (d0 & C & E). exists d0. cbn [wb_pos]. split; auto.
        unfold blockspec. rewrite <- E, Hc. reflexivity.
      - intros i wb Hi. pose proof (noseq I Ot Hi) as Z. discriminate Z.
      - intros i wb Hi. pose proof (noseq I Ot Hi) as Z. discriminate Z. }
    unfold all_ib in *. rewrite Forall_app in Dib. destruct Dib as [A E]. step_cases H; simp.
    8: { exfalso. apply (i_ready I), ready_seq_iff in Hi. destruct Hi. congruence. }
    15-19: (exfalso; pose proof (noseq I Ot Hi) as Z; discriminate Z).
    all: try (pose proof (Held _ _ Hi) as (d0 & C & E0)); try rewrite Hq in *.
    all: rewrite Forall_app; split; try assumption.
    all: try (eapply Forall_flat_upd; [exact Hi|exact E|cbn [ibs_pc]]).
    all: rewrite ?Forall_insert, ?Forall_cons_iff in *; repeat split; try tauto; try (constructor; fail).
    - (* remainder of the chunk *)
      exists d0. cbn [ib_pos ib_data pos_minor_succ major minor]. split; auto.
      rewrite remN_succ, <- E0. unfold rem_step. rewrite Hc. reflexivity.
    - (* deliver *)
      rewrite Din in Hin. destruct (skipn_nth _ _ _ _ Hin) as [E0 _]. exists d. cbn. split; auto.
  Qed.

  Lemma reach_dinv n s : reachable n false lvl0 inp0 s -> DInv s.
  Proof.
    revert s. apply reachable_ind.
    - constructor; [unfold all_ib|unfold all_wb]; cbn; induction n; cbn; auto.
    - intros s e s' R D H. destruct (reachable_inv R) as (I & _ & _ & Eu & _).
      eapply dinv_step; eauto using reach_tinv, reach_rinv.
  Qed.

  Lemma written_specified n s wb : reachable n false lvl0 inp0 s -> In wb (written s) -> SpecW wb.
  Proof.
    intros R. apply Forall_forall, written_all_wb, (d_wb _ (reach_dinv _ _ R)).
  Qed.

  (* C03 (scheduler part, default mode): two complete runs on the same chunk list -
     whatever the worker counts, levels of concurrency and interleavings - have
     written the same sequence of blocks *)
  Theorem c03_confluent_default n1 n2 s1 s2 : 1 <= n1 -> 1 <= n2 ->
    reachable n1 false lvl0 inp0 s1 -> reachable n2 false lvl0 inp0 s2 ->
    final s1 = true -> final s2 = true ->
    written s1 = written s2.
  Proof.
    intros N1 N2 R1 R2 F1 F2. apply (confluent_of_spec SpecW false n1 n2); auto using specW_fun.
    all: eapply written_all_wb, d_wb, reach_dinv; eassumption.
  Qed.
End Data.

Arguments all_wb {Data Enc} s.
Arguments written_all_wb {Data Enc} P s _.
Arguments all_wb_step {Data Enc data_len enc_empty collect} P {s e s'} _ _ _ _ _.
Arguments chain_unique_by_pos {Enc} P _ {p q l1 l2} _ _ _ _.
Arguments confluent_of_spec {Data Enc data_len enc_empty collect inp0 lvl0} P u {n1 n2 s1 s2} _ _ _ _ _ _ _ _ _.
