(* C13: heap ledger of the compression scheduler.  Every object compress.c and
   process.c allocate is attached to the model item that owns it (a held input
   slot, a held work unit, a held output slot, a queue root); [mem s] is the sum of
   the live allocations in state s.  The conservation invariants of C11 bound it by
   [B n l], a function of the worker count and the compression level only (linear
   in the worker count: [B_linear]). *)
From Coq Require Import List NArith Arith Bool Lia.
From LBZ Require Import SchedC.SchedCIface Gen.SchedCTab SchedC.Pool SchedC.PoolLemmas SchedC.SchedC SchedC.SchedCInv
  SchedC.SchedCMemDef.
Import ListNotations.
Local Open Scope N_scope.

Section Mem.
  Variable Data : Type.
  Variable Enc : Type.
  Variable data_len : Data -> N.
  Variable enc_empty : Enc.
  Variable collect : Enc -> Data -> Enc * Data * bool.
  Variable buf_size : Enc -> N.           (* 4 * ((wblk->size + 3) / 4): the output buffer of a block *)
  Variable OB : N.                        (* bound on it (codec property, not proved here) *)
  Hypothesis buf_size_le : forall e, buf_size e <= OB.

  Notation state := (state Data Enc).
  Notation cont := (cont Data Enc).
  Notation wpcs := (wpc cont).
  Notation reachable := (reachable data_len enc_empty collect).
  Notation IBUF := SchedCMemDef.IBUF. Notation ENC := SchedCMemDef.ENC. Notation IB := SchedCMemDef.IB.
  Notation UB := SchedCMemDef.UB. Notation OBS := (SchedCMemDef.OBS OB). Notation roots := SchedCMemDef.roots.
  Notation mem_wb_out := (@SchedCMemDef.mem_wb_out Enc buf_size). Notation mem_buf := (@SchedCMemDef.mem_buf Enc buf_size).
  Notation sumN := SchedCMemDef.sumN. Notation mem_pc := (@SchedCMemDef.mem_pc Data Enc buf_size).
  Notation mem := (@SchedCMemDef.mem Data Enc buf_size). Notation B := (SchedCMemDef.B OB).
  Notation in_of := (@in_of Data Enc).
  Notation units_of := (@units_of Data Enc).
  Notation out_of := (@out_of Data Enc).

  Lemma sumN_le {A} (f : A -> N) (c : N) l : (forall x, f x <= c) -> sumN f l <= N.of_nat (length l) * c.
  Proof.
    intros H. induction l as [|x l IH]; cbn [sumN fold_right length]; [lia|].
    fold (sumN f l). specialize (H x). rewrite Nat2N.inj_succ, N.mul_succ_l. lia.
  Qed.

  Lemma mem_pc_le l (p : wpcs) :
    mem_pc l p <= N.of_nat (in_of p) * IB l + N.of_nat (units_of p) * UB l + N.of_nat (out_of p) * OBS.
  Proof.
    unfold OBS. destruct p as [| | | |[t|ib|wb|wbo [ib|]|wb d|wb]];
      cbn [mem_pc SchedCInv.in_of SchedCInv.units_of SchedCInv.out_of];
      change (N.of_nat 1) with 1; change (N.of_nat 0) with 0;
      match goal with |- context [buf_size ?e] => pose proof (buf_size_le e) | _ => idtac end; lia.
  Qed.

  Lemma sum_pc_le l (ws : list wpcs) :
    sumN (mem_pc l) ws <= N.of_nat (sumf in_of ws) * IB l + N.of_nat (sumf units_of ws) * UB l +
                          N.of_nat (sumf out_of ws) * OBS.
  Proof.
    induction ws as [|p ws IH]; [cbn; lia|].
    cbn [sumN fold_right]. fold (sumN (mem_pc l) ws). rewrite !sumf_cons, !Nat2N.inj_add, !N.mul_add_distr_r.
    pose proof (mem_pc_le l p). lia.
  Qed.

  Theorem c13_bound n u l inp s : reachable n u l inp s -> mem s <= B n l.
  Proof.
    intros R. destruct (reachable_inv R) as (I & _ & En & _ & El).
    pose proof (i_units I) as Hu. pose proof (i_in I) as Hi. pose proof (i_out I) as Ho.
    rewrite En in *. unfold mem, B. rewrite El, En.
    pose proof (sum_pc_le l (workers s)) as Hw.
    assert (Hr : sumN mem_wb_out (reord_q s) <= N.of_nat (length (reord_q s)) * OBS).
    { apply sumN_le. intros wb. unfold mem_wb_out, OBS. pose proof (buf_size_le (wb_enc wb)). lia. }
    assert (Hq : sumN mem_buf (output_q s) <= N.of_nat (length (output_q s)) * OBS).
    { apply sumN_le. intros wb. unfold mem_buf, OBS. pose proof (buf_size_le (wb_enc wb)). lia. }
    assert (Hh : (match wr s with SHold wb => mem_buf wb | _ => 0 end) <= N.of_nat (wr_out (wr s)) * OBS).
    { destruct (wr s); cbn [SchedCInv.wr_out]; change (N.of_nat 1) with 1; change (N.of_nat 0) with 0; try lia.
      unfold mem_buf, OBS. pose proof (buf_size_le (wb_enc b)). lia. }
    assert (Hd : (match rd s with RRead => IBUF l | _ => 0 end) <= N.of_nat (rd_in (rd s)) * IB l).
    { destruct (rd s); cbn [SchedCInv.rd_in]; change (N.of_nat 1) with 1; change (N.of_nat 0) with 0; try lia. unfold IB. lia. }
    assert (Hf : (match unfinished s with Some _ => UB l | None => 0 end) = N.of_nat (b2n (is_some (unfinished s))) * UB l).
    { destruct (unfinished s); cbn [is_some b2n]; change (N.of_nat 1) with 1; change (N.of_nat 0) with 0; lia. }
    rewrite Hf.
    apply (f_equal N.of_nat) in Hu, Hi, Ho. rewrite !Nat2N.inj_add in Hu, Hi, Ho.
    rewrite <- Hu, <- Hi, <- Ho. rewrite !N.mul_add_distr_r. lia.
  Qed.

  (* linear in the worker count: from the regenerated slot formulas and capacities *)
  Theorem B_linear l : exists a b, forall n, B n l = a * N.of_nat n + b.
  Proof.
    exists (2 * IB l + UB l + 2 * OBS + 2 * sizeof_ptr + sizeof_ptr + 2 * sizeof_ptr + 2 * sizeof_block + sizeof_ptr),
           (2 * OBS + 2 * sizeof_ptr + 2 * sizeof_block).
    intros n. unfold B, roots, cap_coll, cap_trans, cap_reord, cap_output, total_in, total_out.
    unfold cap_coll_q, cap_trans_q, cap_reord_q, init_in_slots, init_out_slots, init_work_units,
      total_in_slots_compress, total_out_slots_compress.
    rewrite !Nat2N.inj_add, !Nat2N.inj_mul. change (N.of_nat 2) with 2. lia.
  Qed.
End Mem.
