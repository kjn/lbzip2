(* Order preservation of the compression scheduler, both modes: the live items tile
   the stream from [order] to the position of the next chunk to be read, and the
   blocks handed to the writer are the chain from 0.0 to [order].  In --sequential
   mode the queued chunks are consecutive and the block under construction ends
   where they begin. *)
From Coq Require Import List NArith Arith Bool Lia Permutation Sorted.
From LBZ Require Import SchedC.SchedCIface Gen.SchedCTab SchedC.Pool SchedC.PoolLemmas SchedC.SchedC SchedC.SchedCInv
  SchedC.Tiling.
Import ListNotations.
Set Implicit Arguments.
Unset Strict Implicit.

Arguments cnt : simpl never.

Section Items.
  Variables Data Enc : Type.

  Notation state := (state Data Enc).
  Notation cont := (cont Data Enc).
  Notation wpcs := (wpc cont).

  Definition iv_ib (ib : iblk Data) : ival := (ib_pos ib, pos_major_succ (ib_pos ib)).
  Definition iv_wb (wb : wblk Enc) : ival := (wb_pos wb, wb_next wb).
  Definition opt_wb (o : option (wblk Enc)) : list ival := match o with Some wb => [iv_wb wb] | None => [] end.
  Definition opt_ib (o : option (iblk Data)) : list ival := match o with Some ib => [iv_ib ib] | None => [] end.

  Definition items_pc (p : wpcs) : list ival :=
    match p with
    | PRun (KCollect ib) => [iv_ib ib]
    | PRun (KEncode wb) | PRun (KTransmit wb) | PRun (KSeqFin wb _) => [iv_wb wb]
    | PRun (KSeq wbo ibo) => opt_wb wbo ++ opt_ib ibo
    | _ => []
    end.

  Definition items (s : state) : list ival :=
    map iv_ib (coll_q s) ++ map iv_wb (trans_q s) ++ map iv_wb (reord_q s) ++ opt_wb (unfinished s) ++
    flat_map items_pc (workers s).

  Definition handed (s : state) : list (wblk Enc) := written s ++ output_q s.

  Lemma in_items_coll (s : state) ib : In ib (coll_q s) -> In (iv_ib ib) (items s).
  Proof. intros H. unfold items. rewrite !in_app_iff. auto using in_map. Qed.

  Lemma in_items_trans (s : state) wb : In wb (trans_q s) -> In (iv_wb wb) (items s).
  Proof. intros H. unfold items. rewrite !in_app_iff. auto using in_map. Qed.

  Lemma in_items_reord (s : state) wb : In wb (reord_q s) -> In (iv_wb wb) (items s).
  Proof. intros H. unfold items. rewrite !in_app_iff. auto using in_map. Qed.

  Lemma in_items_unf (s : state) wb : unfinished s = Some wb -> In (iv_wb wb) (items s).
  Proof. intros E. unfold items. rewrite E, !in_app_iff. cbn. auto 7. Qed.

  Lemma in_items_pc (s : state) i p x : nth_error (workers s) i = Some p -> In x (items_pc p) -> In x (items s).
  Proof.
    intros Hi Hx. unfold items. rewrite !in_app_iff, in_flat_map. do 4 right. eauto using nth_error_In.
  Qed.

  Lemma items_pc_none (ws : list wpcs) : (forall p, In p ws -> items_pc p = []) -> flat_map items_pc ws = [].
  Proof.
    induction ws as [|p ws IH]; intros H; [reflexivity|]. cbn. rewrite (H p), IH; auto using in_eq, in_cons.
  Qed.

  Lemma cnt_flat_upd (ws : list wpcs) i p p' x : nth_error ws i = Some p ->
    cnt x (flat_map items_pc (upd ws i p')) + cnt x (items_pc p) = cnt x (flat_map items_pc ws) + cnt x (items_pc p').
  Proof.
    intros H. destruct (nth_error_split_upd _ _ _ H) as (l1 & l2 & -> & _ & U). rewrite U.
    rewrite !flat_map_app. cbn [flat_map]. rewrite !cnt_app. lia.
  Qed.

  Lemma cnt_map_insert {A} (f : A -> ival) (key : A -> pos) y q x :
    cnt x (map f (pq_insert key y q)) = cnt x [f y] + cnt x (map f q).
  Proof.
    unfold cnt.
    assert (P : Permutation (map f (pq_insert key y q)) (map f (y :: q))) by (apply Permutation_map, pq_insert_perm).
    rewrite (proj1 (Permutation_count_occ ival_dec _ _) P x).
    cbn [map]. change (f y :: map f q) with ([f y] ++ map f q). apply count_occ_app.
  Qed.

  Definition head_pos (q : list (iblk Data)) (nid : N) : pos :=
    match q with y :: _ => ib_pos y | [] => mkpos nid 0 end.

  Fixpoint consec (q : list (iblk Data)) (nid : N) : Prop :=
    match q with
    | [] => True
    | y :: r => pos_major_succ (ib_pos y) = head_pos r nid /\ consec r nid
    end.

  Lemma head_pos_app q x nid nid' : ib_pos x = mkpos nid 0 -> head_pos (q ++ [x]) nid' = head_pos q nid.
  Proof. intros H. destruct q; cbn; auto. Qed.

  Lemma consec_app q x nid nid' : consec q nid -> ib_pos x = mkpos nid 0 ->
    pos_major_succ (ib_pos x) = mkpos nid' 0 -> consec (q ++ [x]) nid'.
  Proof.
    intros C Hx Hs. induction q as [|y q IH]; cbn in *; [auto|].
    destruct C as [C1 C2]. split; [|apply IH; auto].
    destruct q as [|z q]; cbn in *; congruence.
  Qed.

  (* what a worker inside do_collect_seq() holds, relative to the position h where
     the queued input begins: the block under construction ends at the chunk being
     collected, which ends at h; a block whose chunk is used up ends at h.
     do_collect() does not run in this mode. *)
  Definition Adj (h : pos) (p : wpcs) : Prop :=
    match p with
    | PRun (KCollect _) => False
    | PRun (KSeqFin wb _) => wb_next wb = h
    | PRun (KSeq wbo (Some ib)) => pos_major_succ (ib_pos ib) = h /\ forall wb, wbo = Some wb -> wb_next wb = ib_pos ib
    | PRun (KSeq wbo None) => forall wb, wbo = Some wb -> wb_next wb = h
    | _ => True
    end.

  Lemma adj_noseq h h' p : seq_of p = 0 -> Adj h p -> Adj h' p.
  Proof. destruct p as [| | | |[]]; cbn; auto; discriminate. Qed.

  Record USeq (s : state) : Prop := {
    u_cons : consec (coll_q s) (next_id s);
    u_unf : forall wb, unfinished s = Some wb -> wb_next wb = head_pos (coll_q s) (next_id s);
    u_adj : forall i p, nth_error (workers s) i = Some p -> Adj (head_pos (coll_q s) (next_id s)) p
  }.

  Record TInv (s : state) : Prop := {
    t_tile : Tiling (order s) (items s) (mkpos (next_id s) 0);
    t_hand : chain pos0 (map iv_wb (handed s)) (order s);
    t_def : ultra s = false -> collect_token s = true /\ unfinished s = None;
    t_seq : ultra s = true -> USeq s
  }.

  (* do_collect_seq() only runs in --sequential mode *)
  Lemma tinv_useq (s : state) i p : Inv s -> TInv s -> nth_error (workers s) i = Some p -> seq_of p = 1 -> USeq s.
  Proof.
    intros I T Hi Hp. apply (t_seq T). destruct (ultra s) eqn:Eu; [reflexivity|].
    destruct (t_def T Eu) as [Et _]. rewrite (noseq I Et Hi) in Hp. discriminate.
  Qed.

  Lemma tinv_init n u l inp : TInv (init Enc n u l inp).
  Proof.
    assert (E : flat_map items_pc (repeat (@PNew cont) n) = []).
    { apply items_pc_none. intros p Hp. apply repeat_spec in Hp. subst p. reflexivity. }
    constructor; cbn; auto.
    - exists []. split; [intros x|reflexivity]. unfold items. cbn. rewrite E. reflexivity.
    - intros _. constructor; cbn; auto; [discriminate|].
      intros i p H. apply nth_error_In, repeat_spec in H. subst p. exact Logic.I.
  Qed.
End Items.

Arguments iv_ib {Data} ib.
Arguments iv_wb {Enc} wb.
Arguments items_pc {Data Enc} p.

(* counting form of [items] in the state after an event *)
Ltac cnt_items :=
  unfold items; simp;
  repeat rewrite ?cnt_app, ?cnt_map_insert, ?cnt_cons, ?cnt_nil, ?map_cons;
  cbn [map opt_wb opt_ib items_pc app iv_wb iv_ib wb_pos wb_next ib_pos].
Ltac cnt_norm := unfold iv_ib, iv_wb, pos_major_succ, pos_minor_succ; cbn [wb_pos wb_next ib_pos major minor].
(* the occurrences of x among the items of the acting worker, before and after *)
Ltac cnt_upd x :=
  match goal with
  | Hi : nth_error ?ws ?i = Some _ |- context [upd ?ws ?i ?p'] => generalize (cnt_flat_upd p' x Hi)
  end.

Section Order.
  Variables (Data Enc : Type) (data_len : Data -> N) (enc_empty : Enc).
  Variable collect : Enc -> Data -> Enc * Data * bool.

  Notation state := (state Data Enc).
  Notation cont := (cont Data Enc).
  Notation step := (step data_len enc_empty collect).
  Notation Step := (Step data_len enc_empty collect).
  Notation reachable := (reachable data_len enc_empty collect).

  Lemma tile_step s e s' : Inv s -> TInv s -> Step s e s' -> Tiling (order s') (items s') (mkpos (next_id s') 0).
  Proof.
    intros I T H. pose proof (t_tile T) as Ti. Step_cases H; simp.
    (* the events that cut, join or drop intervals, last first *)
    24: { (* deliver: a new last interval *)
      eapply (@tiling_snoc (order s) (items s) (mkpos (next_id s) 0)); [exact Ti| |].
      - unfold plt. cbn. lia.
      - intros x. cnt_items. repeat rewrite ?cnt_cons, ?cnt_nil. cnt_norm. intros; lia. }
    16, 17: pose proof (u_adj (tinv_useq I T Hi eq_refl) Hi) as [_ Us]; subst wb0;
      assert (Iib : In (iv_ib ib) (items s)) by (apply (in_items_pc Hi); cbn; rewrite in_app_iff; right; left; reflexivity);
      destruct wbo as [w|]; [specialize (Us _ eq_refl);
        assert (Iw : In (wb_pos w, ib_pos ib) (items s)) by (rewrite <- Us; apply (in_items_pc Hi); left; reflexivity)|].
    16: { (* an unfinished block continues: the cut between it and the chunk moves *)
      eapply (@tiling_recut (order s) (items s) _ _ (wb_pos w) (ib_pos ib) (pos_major_succ (ib_pos ib))
                [(wb_pos w, pos_minor_succ (ib_pos ib)); (pos_minor_succ (ib_pos ib), pos_major_succ (ib_pos ib))]);
        [exact Ti|exact Iw|exact Iib| |].
      - destruct (tiling_in _ _ _ _ Ti Iw) as (_ & A & _). cbn in *. repeat split; auto.
        + eapply plt_trans; [exact A|apply plt_minor_succ].
        + unfold plt. cbn. lia.
      - intros x. cnt_upd x. cnt_items. repeat rewrite ?cnt_app, ?cnt_cons, ?cnt_nil. cnt_norm. rewrite ?Us. cnt_norm. intros; lia. }
    16: { (* a new block starts at ib.pos *)
      eapply (@tiling_split (order s) (items s) _ _ (ib_pos ib) (pos_minor_succ (ib_pos ib)) (pos_major_succ (ib_pos ib)));
        [exact Ti|apply plt_minor_succ| |exact Iib|].
      - unfold pos_minor_succ, pos_major_succ, plt. cbn. lia.
      - intros x. cnt_upd x. cnt_items. cbn [new_wblk wb_pos wb_next].
        repeat rewrite ?cnt_app, ?cnt_cons, ?cnt_nil. cnt_norm. intros; lia. }
    16: { (* the chunk is used up: it is absorbed by the unfinished block *)
      eapply (@tiling_recut (order s) (items s) _ _ (wb_pos w) (ib_pos ib) (pos_major_succ (ib_pos ib))
                [(wb_pos w, pos_major_succ (ib_pos ib))]); [exact Ti|exact Iw|exact Iib| |].
      - destruct (tiling_in _ _ _ _ Ti Iw) as (_ & A & _). cbn in *. repeat split; auto.
        eapply plt_trans; [exact A|apply plt_major_succ].
      - intros x. cnt_upd x. cnt_items. repeat rewrite ?cnt_app, ?cnt_cons, ?cnt_nil. cnt_norm. rewrite ?Us. cnt_norm. intros; lia. }
    13: { (* collect: the remainder of the chunk is queued again *)
      eapply (@tiling_split (order s) (items s) _ _ (ib_pos ib) (pos_minor_succ (ib_pos ib)) (pos_major_succ (ib_pos ib)));
        [exact Ti|apply plt_minor_succ| |apply (in_items_pc Hi); left; reflexivity|].
      - unfold pos_minor_succ, pos_major_succ, plt. cbn. lia.
      - intros x. cnt_upd x. cnt_items. repeat rewrite ?cnt_cons, ?cnt_nil. cnt_norm. intros; lia. }
    12: { (* reorder: the head of reord_q is the block at [order] *)
      pose proof (i_ready I Hi) as R. apply ready_reorder_spec in R. rewrite Hq in R.
      eapply (@tiling_pop (order s) (items s) _ (wb_next wb)); [exact Ti| |].
      - rewrite <- R. apply (@in_items_reord _ _ s). rewrite Hq. left; reflexivity.
      - intros x. cnt_upd x. cnt_items. rewrite Hq, <- R. cbn [map]. repeat rewrite ?cnt_cons, ?cnt_nil.
        unfold iv_wb. intros; lia. }
    (* all other events only move items between queues and workers *)
    all: eapply tiling_congr; [|exact Ti]; intros x; try cnt_upd x; cnt_items.
    17: destruct (only_seq I Hi eq_refl) as (_ & Eu & _); rewrite Eu.
    8: destruct (coll_q s), (unfinished s).
    all: rewrite ?Hq; cbn [map tl new_wblk wb_pos wb_next opt_wb opt_ib app];
         repeat rewrite ?cnt_app, ?cnt_cons, ?cnt_nil; cnt_norm; intros; lia.
  Qed.

  Lemma hand_step s e s' : Inv s -> TInv s -> Step s e s' -> chain pos0 (map iv_wb (handed s')) (order s').
  Proof.
    intros I T H. pose proof (t_hand T) as Th. Step_cases H; simp; try exact Th; unfold handed in *; simp.
    - (* reorder: the block at [order] is appended, [order] moves to its end *)
      pose proof (i_ready I Hi) as R. apply ready_reorder_spec in R. rewrite Hq in R.
      rewrite app_assoc, map_app. apply chain_app. exists (order s). split; auto.
      cbn [map chain iv_wb]. repeat split; auto.
      apply (tiling_in _ _ _ (iv_wb wb) (t_tile T)), in_items_reord. rewrite Hq. left; reflexivity.
    - (* the writer takes the head of output_q *)
      rewrite Hq in Th. rewrite <- app_assoc. exact Th.
  Qed.

  Lemma def_step s e s' : Inv s -> TInv s -> Step s e s' -> ultra s = false ->
    collect_token s' = true /\ unfinished s' = None.
  Proof.
    intros I T H Eu. destruct (t_def T Eu) as [Et Ef]. Step_cases H; simp; auto.
    - apply (i_ready I), ready_seq_iff in Hi. destruct Hi. congruence.
    - pose proof (noseq I Et Hi) as Z. discriminate Z.
  Qed.

  Lemma useq_step s e s' : Inv s -> TInv s -> Step s e s' -> ultra s = true -> USeq s'.
  Proof.
    intros I T H Eu. destruct (t_seq T Eu) as [Uc Uf Ua]. Step_cases H; simp.
    (* do_collect() does not run *)
    6-7: apply (i_ready I), ready_collect_iff in Hi; destruct Hi; congruence.
    11-12: destruct (Ua _ _ Hi).
    (* a chunk that is read lies after all queued ones *)
    20: assert (Elast : pq_insert (@ib_pos Data) (mkiblk (mkpos (next_id s) 0) d) (coll_q s) =
                        coll_q s ++ [mkiblk (mkpos (next_id s) 0) d]).
    20: { apply pq_insert_last. intros y Hy. cbn [ib_pos].
          destruct (tiling_in _ _ _ _ (t_tile T) (in_items_coll Hy)) as (_ & A & B). cbn in A, B.
          eapply plt_ple_trans; eauto. }
    20: rewrite Elast.
    (* a remainder goes back to the head of coll_q *)
    12: pose proof (Ua _ _ Hi) as [Us1 Us2]; rewrite pq_insert_first.
    13: { destruct (coll_q s) as [|y q0]; [exact Logic.I|]. cbn [ib_pos]. cbn in Us1. rewrite <- Us1.
          unfold pos_minor_succ, pos_major_succ, plt. cbn. lia. }
    all: constructor; simp; auto.
    (* workers other than the acting one keep what they hold; the new continuation *)
    all: try solve [ intros j p0 Hj; apply nth_upd_cases in Hj as [[_ ->]|[_ Hj]]; [cbn; auto|eauto] ].
    - (* seq0: the head of coll_q and the unfinished block are taken *)
      destruct (coll_q s); cbn in *; tauto.
    - discriminate.
    - apply (i_ready I), ready_seq_iff in Hi as R. destruct R as (_ & Et & _).
      intros j p0 Hj. apply nth_upd_cases in Hj as [[_ ->]|[_ Hj]].
      + destruct (coll_q s) as [|ib q]; cbn in *; [exact Uf|]. split; [tauto|exact Uf].
      + eapply adj_noseq; [exact (noseq I Et Hj)|eauto].
    - (* seq requeue *)
      cbn [consec ib_pos]. split; [|exact Uc]. rewrite <- Us1. reflexivity.
    - destruct (only_seq I Hi eq_refl) as (_ & Eun & _). congruence.
    - destruct (only_seq I Hi eq_refl) as (_ & _ & Oth).
      intros j p0 Hj. apply nth_upd_cases in Hj as [[_ ->]|[N Hj]].
      + cbn. f_equal. subst wb0. destruct wbo; [apply Us2|]; reflexivity.
      + eapply adj_noseq; [exact (Oth _ _ Hj N)|eauto].
    - (* seq release *)
      destruct (Ua _ _ Hi) as [Us1 Us2].
      intros j p0 Hj. apply nth_upd_cases in Hj as [[_ ->]|[_ Hj]]; [|eauto].
      cbn. rewrite <- Us1. f_equal. subst wb0. destruct wbo; [apply Us2|]; reflexivity.
    - (* seqfin more: the block becomes the unfinished work *)
      intros wb1 [= <-]. exact (Ua _ _ Hi).
    - (* deliver *)
      eapply consec_app; eauto.
    - intros wb1 E1. rewrite (@head_pos_app _ _ _ (next_id s)) by reflexivity. eauto.
    - intros j p0 Hj. rewrite (@head_pos_app _ _ _ (next_id s)) by reflexivity. eauto.
  Qed.

  Lemma tinv_step s e s' : Inv s -> TInv s -> step s e = Some s' -> TInv s'.
  Proof.
    intros I T H. destruct (step_params H) as (_ & Eu & _). apply step_Step in H.
    constructor; [eapply tile_step|eapply hand_step|rewrite Eu; eapply def_step|rewrite Eu; eapply useq_step]; eauto.
  Qed.

  Lemma reach_tinv n u l inp s : reachable n u l inp s -> TInv s.
  Proof.
    revert s. apply reachable_ind; [apply tinv_init|].
    intros s e s' R T H. eapply tinv_step; eauto. apply (reachable_inv R).
  Qed.

  (* C11_order: what has been handed to the writer is the gap-free chain of blocks
     from position 0.0 to [order], in strictly increasing order *)
  Theorem c11_order n u l inp s : reachable n u l inp s ->
    chain pos0 (map iv_wb (handed s)) (order s) /\
    StronglySorted (fun a b => plt (wb_pos a) (wb_pos b)) (handed s).
  Proof.
    intros R. pose proof (t_hand (reach_tinv R)) as C. split; [exact C|].
    apply chain_sorted in C. revert C. induction (handed s) as [|wb h IH]; intros C; [constructor|].
    cbn [map] in C. apply StronglySorted_inv in C. destruct C as [S1 S2]. constructor; auto. rewrite Forall_map in S2. exact S2.
  Qed.

  (* no block is lost: in a terminal state everything up to the end of the input
     that was read has been handed over *)
  Theorem c11_final_order n u l inp s : 1 <= n -> reachable n u l inp s -> final s = true ->
    order s = mkpos (next_id s) 0 /\ output_q s = [] /\ handed s = written s.
  Proof.
    intros N R F. pose proof (t_tile (reach_tinv R)) as Ti.
    destruct (c11_final N R F) as (_ & _ & _ & C & Tq & Rq & Oq & U & _).
    assert (W : flat_map items_pc (workers s) = []).
    { unfold final in F. rewrite !andb_true_iff, forallb_forall in F. destruct F as [[F _] _].
      apply items_pc_none. intros p Hp. specialize (F p Hp). destruct p; try discriminate. reflexivity. }
    unfold items in Ti. rewrite C, Tq, Rq, U, W in Ti.
    split; [apply tiling_nil; exact Ti|]. split; auto. unfold handed. rewrite Oq. apply app_nil_r.
  Qed.
End Order.
