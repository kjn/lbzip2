(* Safety invariants of the compression scheduler model, for every worker count,
   both modes, every input and every interleaving. *)
From Coq Require Import List NArith Arith Bool Lia Permutation.
From LBZ Require Import SchedC.SchedCIface Gen.SchedCTab SchedC.Pool SchedC.PoolLemmas SchedC.SchedC.
Import ListNotations.
Set Implicit Arguments.
Unset Strict Implicit.

(* the scripts unfold the state updates of an event and nothing else *)
Arguments select : simpl never.
Arguments finished : simpl never.
Arguments ready : simpl never.
Arguments signal : simpl never.
Arguments broadcast : simpl never.
Arguments pq_insert : simpl never.
Arguments upd : simpl never.
Arguments sumf : simpl never.
Arguments total_in : simpl never.
Arguments total_out : simpl never.
Arguments cap_output : simpl never.

Section Sched.
  Variables Data Enc : Type.

  Notation state := (state Data Enc).
  Notation cont := (cont Data Enc).
  Notation wpcs := (wpc cont).

  (* sched_unlock() and the return of a task body as compositions of field updates *)
  Definition unlock_wakeups (s : state) : nat :=
    if unlock_signal (is_some (select s)) (finished s) then signal (wakeups s) (workers s) else wakeups s.

  Lemma sched_unlock_eq (s : state) :
    sched_unlock s = set_lock None (set_wakeups (unlock_wakeups s) (set_next_task (select s) s)).
  Proof.
    unfold sched_unlock, unlock_wakeups. destruct (unlock_signal _ _); destruct s; reflexivity.
  Qed.

  Lemma task_return_eq (s : state) i :
    task_return s i = set_next_task (select s) (set_workers (upd (workers s) i PTop) s).
  Proof. reflexivity. Qed.

  Lemma lock_free_true (s : state) : lock_free s = true <-> lock s = None.
  Proof. unfold lock_free. destruct (lock s); cbn; split; congruence. Qed.

  Lemma holds_true (s : state) t : holds s t = true <-> lock s = Some t.
  Proof.
    unfold holds. destruct (lock s) as [u|]; [|split; discriminate].
    destruct u, t; cbn; rewrite ?Nat.eqb_eq; split; congruence.
  Qed.


  Lemma select_view (s1 s2 : state) : view s1 = view s2 -> select s1 = select s2.
  Proof. unfold select, ready. intros ->. reflexivity. Qed.

  Lemma finished_view (s1 s2 : state) : view s1 = view s2 -> finished s1 = finished s2.
  Proof. unfold finished. intros ->. reflexivity. Qed.

  Lemma ready_view (s1 s2 : state) t : view s1 = view s2 -> ready s1 t = ready s2 t.
  Proof. unfold ready. intros ->. reflexivity. Qed.

  Lemma select_ready (s : state) t : select s = Some t -> ready s t = true.
  Proof. unfold select, select_first. intros H. apply find_some in H. tauto. Qed.

  Definition units_of (p : wpcs) : nat :=
    match p with
    | PRun (KCollect _) | PRun (KEncode _) | PRun (KSeq _ _) | PRun (KSeqFin _ _) | PRun (KTransmit _) => 1
    | _ => 0
    end.
  Definition in_of (p : wpcs) : nat :=
    match p with PRun (KCollect _) | PRun (KSeq _ (Some _)) => 1 | _ => 0 end.
  Definition out_of (p : wpcs) : nat := match p with PRun (KTransmit _) => 1 | _ => 0 end.
  Definition seq_of (p : wpcs) : nat := match p with PRun (KSeq _ _) | PRun (KSeqFin _ _) => 1 | _ => 0 end.
  Definition hold_of (p : wpcs) : nat := match p with PTop | PRun (KStart _) => 1 | _ => 0 end.
  Definition wait_of (p : wpcs) : nat := b2n (is_wait p).
  Definition rd_in (r : rpc cont) : nat := match r with RRead => 1 | _ => 0 end.
  Definition wr_out (w : spc cont (wblk Enc)) : nat := match w with SHold _ => 1 | _ => 0 end.

  Record Inv (s : state) : Prop := {
    i_bad : bad s = false;
    i_len : length (workers s) = nw s;
    i_hold : sumf hold_of (workers s) = b2n (is_some (lock s));
    i_lock : forall t, lock s = Some t -> exists i p, t = TW i /\ nth_error (workers s) i = Some p /\ hold_of p = 1;
    i_nt : next_task s = select s;
    i_units : work_units s + length (trans_q s) + sumf units_of (workers s) + b2n (is_some (unfinished s)) = nw s;
    i_in : in_slots s + length (coll_q s) + rd_in (rd s) + sumf in_of (workers s) = total_in (nw s);
    i_out : out_slots s + sumf out_of (workers s) + length (reord_q s) + length (output_q s) + wr_out (wr s)
            = total_out (nw s);
    i_ready : forall i t, nth_error (workers s) i = Some (PRun (KStart t)) -> ready s t = true;
    i_tok : sumf seq_of (workers s) = b2n (negb (collect_token s));
    i_unf : collect_token s = false -> unfinished s = None;
    i_wake : wakeups s <= sumf wait_of (workers s)
  }.

  Lemma nth_upd_cases (ws : list wpcs) i p' j q :
    nth_error (upd ws i p') j = Some q -> (j = i /\ q = p') \/ (j <> i /\ nth_error ws j = Some q).
  Proof.
    rewrite nth_error_upd. destruct (Nat.eqb_spec i j) as [->|N].
    - destruct (nth_error ws j); [|discriminate]. intros H; injection H as <-. auto.
    - intros H. right; split; auto.
  Qed.

  Lemma two_le_sum (f : wpcs -> nat) ws i j p q :
    nth_error ws i = Some p -> nth_error ws j = Some q -> i <> j -> f p + f q <= sumf f ws.
  Proof.
    intros Hi Hj N.
    destruct (nth_error_split_upd _ _ _ Hi) as (l1 & l2 & -> & <- & _).
    rewrite sumf_app, sumf_cons.
    destruct (Nat.lt_ge_cases j (length l1)) as [Lt|Ge].
    - rewrite nth_error_app1 in Hj by auto. pose proof (sumf_ge_nth f _ _ _ Hj). lia.
    - rewrite nth_error_app2 in Hj by auto.
      destruct (j - length l1) as [|k] eqn:E; [lia|]. cbn in Hj.
      pose proof (sumf_ge_nth f _ _ _ Hj). lia.
  Qed.

  Lemma q_nonempty_map {A} (f : A -> pos) q : negb (q_empty (map f q)) = true <-> q <> [].
  Proof. destruct q; cbn; split; congruence. Qed.

  Lemma is_some_true {A} (o : option A) : is_some o = true <-> o <> None.
  Proof. destruct o; cbn; split; congruence. Qed.

  Lemma ready_collect_iff (s : state) :
    ready s T_collect = true <-> ultra s = false /\ coll_q s <> [] /\ 0 < work_units s.
  Proof.
    unfold ready, task_guard, can_collect. cbn [view g_ultra g_coll_q g_work_units].
    rewrite !andb_true_iff, q_nonempty_map, negb_true_iff, Nat.ltb_lt. tauto.
  Qed.

  Lemma ready_seq_iff (s : state) : ready s T_collect_seq = true <->
    ultra s = true /\ collect_token s = true /\
    (coll_q s <> [] \/ eof s = true /\ unfinished s <> None) /\ (0 < work_units s \/ unfinished s <> None).
  Proof.
    unfold ready, task_guard, can_collect_seq.
    cbn [view g_ultra g_coll_q g_work_units g_collect_token g_eof g_unfinished_work].
    rewrite !andb_true_iff, !orb_true_iff, andb_true_iff, q_nonempty_map, Nat.ltb_lt, !is_some_true. tauto.
  Qed.

  Lemma ready_collect_seq (s : state) : ready s T_collect_seq = true ->
    (coll_q s <> [] \/ unfinished s <> None) /\ (0 < work_units s \/ unfinished s <> None).
  Proof. rewrite ready_seq_iff. tauto. Qed.

  Lemma ready_transmit_spec (s : state) : ready s T_transmit = true <->
    match trans_q s with
    | [] => False
    | wb :: _ => TRANSM_THRESH < out_slots s \/ (0 < out_slots s /\ wb_pos wb = order s)
    end.
  Proof.
    unfold ready, task_guard, can_transmit. cbn [view g_trans_q g_out_slots g_order].
    destruct (trans_q s) as [|wb q]; cbn [map q_empty negb andb peek_pos hd]; [split; [discriminate|tauto]|].
    rewrite orb_true_iff, andb_true_iff, !Nat.ltb_lt, pos_eq_spec. tauto.
  Qed.

  Lemma ready_reorder_spec (s : state) : ready s T_reorder = true <->
    match reord_q s with [] => False | wb :: _ => wb_pos wb = order s end.
  Proof.
    unfold ready, task_guard, can_reorder. cbn [view g_reord_q g_order].
    destruct (reord_q s) as [|wb q]; cbn [map q_empty negb andb peek_pos hd]; [split; [discriminate|tauto]|].
    apply pos_eq_spec.
  Qed.

  Lemma finished_iff (s : state) : finished s = true <->
    eof s = true /\ coll_q s = [] /\ work_units s = nw s /\ out_slots s = total_out (nw s).
  Proof.
    unfold finished, can_terminate. cbn [view g_eof g_coll_q g_work_units g_num_worker g_out_slots g_total_out_slots].
    rewrite !andb_true_iff, !Nat.eqb_eq. destruct (coll_q s); cbn; intuition congruence.
  Qed.

  (* who holds the mutex: the part of Inv about [lock], the workers and the guards *)
  Record Lck (l : option tid) (ws : list wpcs) (r : task -> bool) : Prop := {
    l_hold : sumf hold_of ws = b2n (is_some l);
    l_lock : forall t, l = Some t -> exists i p, t = TW i /\ nth_error ws i = Some p /\ hold_of p = 1;
    l_ready : forall i t, nth_error ws i = Some (PRun (KStart t)) -> r t = true
  }.

  Lemma inv_lck (s : state) : Inv s -> Lck (lock s) (workers s) (ready s).
  Proof. intros I. split; apply I. Qed.

  Lemma lck_others l ws r i p : Lck l ws r -> l = None \/ l = Some (TW i) -> nth_error ws i = Some p ->
    hold_of p = b2n (is_some l) /\ forall j q, nth_error ws j = Some q -> j <> i -> hold_of q = 0.
  Proof.
    intros [Kh Kl _] Hl Hi.
    assert (E : hold_of p = b2n (is_some l)).
    { destruct Hl as [->| ->]; cbn in *.
      - pose proof (sumf_ge_nth hold_of _ _ _ Hi). lia.
      - destruct (Kl _ eq_refl) as (i' & p' & [= <-] & Hi' & Hp). congruence. }
    split; [exact E|]. intros j q Hj N.
    pose proof (two_le_sum hold_of Hi Hj (not_eq_sym N)). lia.
  Qed.

  Lemma lck_to_holder l ws r r' i p p' : Lck l ws r -> l = None \/ l = Some (TW i) -> nth_error ws i = Some p ->
    hold_of p' = 1 -> (forall t, p' = PRun (KStart t) -> r' t = true) ->
    Lck (Some (TW i)) (upd ws i p') r'.
  Proof.
    intros K Hl Hi Hp' Hr. destruct (lck_others K Hl Hi) as [E O].
    pose proof (sumf_upd hold_of _ _ _ p' Hi) as S. split.
    - rewrite (l_hold K) in S. cbn. lia.
    - intros t [= <-]. exists i, p'. erewrite nth_error_upd_eq by eassumption. auto.
    - intros j t Hj. apply nth_upd_cases in Hj as [[_ <-]|[N Hj]]; [auto|].
      specialize (O _ _ Hj N). discriminate O.
  Qed.

  Lemma lck_to_none l ws r r' i p p' : Lck l ws r -> l = None \/ l = Some (TW i) -> nth_error ws i = Some p ->
    hold_of p' = 0 -> Lck None (upd ws i p') r'.
  Proof.
    intros K Hl Hi Hp'. destruct (lck_others K Hl Hi) as [E O].
    pose proof (sumf_upd hold_of _ _ _ p' Hi) as S. split.
    - rewrite (l_hold K) in S. cbn. lia.
    - discriminate.
    - intros j t Hj. apply nth_upd_cases in Hj as [[_ <-]|[N Hj]]; [discriminate Hp'|].
      specialize (O _ _ Hj N). discriminate O.
  Qed.

  Lemma lck_frame l ws r i p p' : Lck l ws r -> nth_error ws i = Some p -> hold_of p = 0 -> hold_of p' = 0 ->
    Lck l (upd ws i p') r.
  Proof.
    intros [Kh Kl Kr] Hi Hp Hp'. pose proof (sumf_upd hold_of _ _ _ p' Hi) as S. split.
    - lia.
    - intros t E. destruct (Kl _ E) as (i0 & p0 & -> & H0 & Hp0). exists i0, p0.
      rewrite nth_error_upd_neq; auto. intros ->. congruence.
    - intros j t Hj. apply nth_upd_cases in Hj as [[_ <-]|[N Hj]]; [discriminate Hp'|eauto].
  Qed.

  Lemma lck_free_any ws r r' : Lck None ws r -> Lck None ws r'.
  Proof.
    intros [Kh Kl _]. split; auto. intros i t Hi. pose proof (sumf_ge_nth hold_of _ _ _ Hi). cbn in *. lia.
  Qed.

  (* the collect token is away exactly while one worker is inside do_collect_seq() *)
  Lemma noseq (s : state) i p : Inv s -> collect_token s = true -> nth_error (workers s) i = Some p -> seq_of p = 0.
  Proof.
    intros I T H. pose proof (i_tok I) as E. rewrite T in E. cbn in E.
    pose proof (sumf_ge_nth seq_of _ _ _ H). lia.
  Qed.

  Lemma only_seq (s : state) i p : Inv s -> nth_error (workers s) i = Some p -> seq_of p = 1 ->
    collect_token s = false /\ unfinished s = None /\
    forall j q, nth_error (workers s) j = Some q -> j <> i -> seq_of q = 0.
  Proof.
    intros I Hi Hp. pose proof (i_tok I) as T. pose proof (sumf_ge_nth seq_of _ _ _ Hi) as G.
    destruct (collect_token s) eqn:E; cbn in T; [lia|]. split; auto. split; [apply (i_unf I); auto|].
    intros j q Hj N. pose proof (two_le_sum seq_of Hi Hj (not_eq_sym N)). lia.
  Qed.

  Lemma signal_eq w (ws : list wpcs) : signal w ws = Nat.min (S w) (sumf wait_of ws).
  Proof. unfold signal. rewrite n_waiting_sumf. reflexivity. Qed.

  Lemma broadcast_eq (ws : list wpcs) : broadcast ws = sumf wait_of ws.
  Proof. unfold broadcast. rewrite n_waiting_sumf. reflexivity. Qed.

  Lemma unlock_wakeups_le (s : state) n :
    sumf wait_of (workers s) = n -> wakeups s <= n -> unlock_wakeups s <= n.
  Proof. intros <-. unfold unlock_wakeups. rewrite signal_eq. destruct (unlock_signal _ _); lia. Qed.

  Lemma view_irrel_ready (s s' : state) :
    view s' = view s -> (forall j t, nth_error (workers s') j = Some (PRun (KStart t)) ->
                                     nth_error (workers s) j = Some (PRun (KStart t))) ->
    Inv s -> forall i t, nth_error (workers s') i = Some (PRun (KStart t)) -> ready s' t = true.
  Proof.
    intros V W I i t H. rewrite (ready_view t V). eapply (i_ready I); eauto.
  Qed.

  Lemma dec_ok x y b : dec_or_bad x = (y, b) -> 0 < x -> x = S y /\ b = false.
  Proof. destruct x; cbn; intros H L; [lia|]. injection H as <- <-. auto. Qed.

  Lemma seq0_guard (s : state) : ready s T_collect_seq = true ->
    collect_token s = true /\
    snd (match unfinished s with Some _ => (work_units s, false) | None => dec_or_bad (work_units s) end)
      || match unfinished s, coll_q s with None, [] => true | _, _ => false end = false /\
    fst (match unfinished s with Some _ => (work_units s, false) | None => dec_or_bad (work_units s) end) + 1
      = work_units s + b2n (is_some (unfinished s)).
  Proof.
    rewrite ready_seq_iff. intros (_ & T & R1 & R2). split; [exact T|].
    destruct (unfinished s); cbn; [split; [reflexivity|lia]|].
    destruct (work_units s); [destruct R2; [lia|congruence]|].
    destruct (coll_q s); cbn; [destruct R1 as [|[_ ?]]; congruence|split; [reflexivity|lia]].
  Qed.

  Lemma inv_init n u l inp : Inv (init Enc n u l inp).
  Proof.
    unfold init. set (s0 := init0 Enc n u l inp).
    constructor; cbn [nw ultra lvl lock next_task wakeups eof work_units in_slots out_slots coll_q trans_q reord_q
                      order next_id collect_token unfinished workers rd input wr output_q written finish bad
                      set_next_task s0 init0]; rewrite ?sumf_repeat;
      unfold init_work_units, init_in_slots, init_out_slots; try (cbn; lia); try discriminate.
    - apply repeat_length.
    - apply select_view. reflexivity.
    - intros i t H. apply nth_error_In, repeat_spec in H. discriminate.
  Qed.

  Lemma finished_facts (s : state) : Inv s -> finished s = true ->
    eof s = true /\ coll_q s = [] /\ work_units s = nw s /\ out_slots s = total_out (nw s) /\
    trans_q s = [] /\ reord_q s = [] /\ output_q s = [] /\ unfinished s = None /\ wr_out (wr s) = 0 /\
    sumf units_of (workers s) = 0 /\ sumf out_of (workers s) = 0.
  Proof.
    intros I F. apply finished_iff in F. destruct F as (F1 & F2 & F3 & F4).
    pose proof (i_units I). pose proof (i_out I).
    repeat split; auto; try (apply length_zero_iff_nil); try lia.
    destruct (unfinished s); [cbn in *; lia|auto].
  Qed.

  Lemma finished_not_ready (s : state) t : Inv s -> finished s = true -> ready s t = false.
  Proof.
    intros I F. destruct (finished_facts I F) as (E & C & W & O & T & R & Q & U & _).
    apply not_true_is_false.
    destruct t; [rewrite ready_collect_iff|rewrite ready_seq_iff|rewrite ready_transmit_spec, T|rewrite ready_reorder_spec, R];
      tauto.
  Qed.

  Definition rd_done (r : rpc cont) : bool := match r with RDone => true | _ => false end.
  Definition wr_done (w : spc cont (wblk Enc)) : bool := match w with SDone => true | _ => false end.

  Record Inv2 (s : state) : Prop := {
    j_eof : eof s = rd_done (rd s);
    j_exit : forall i, nth_error (workers s) i = Some PExit -> finished s = true;
    j_wr : wr_done (wr s) = true -> finish s = true /\ output_q s = [];
    j_finish : finish s = true -> forallb (@is_exit _) (workers s) = true
  }.

  Lemma inv2_init n u l inp : Inv2 (init Enc n u l inp).
  Proof.
    constructor; cbn; try discriminate; [reflexivity|].
    intros i H. apply nth_error_In, repeat_spec in H. discriminate.
  Qed.

  (* C11_final: a terminal state has returned everything *)
  Lemma final_returns_all (s : state) : Inv s -> Inv2 s -> 0 < nw s -> final s = true ->
    work_units s = nw s /\ in_slots s = total_in (nw s) /\ out_slots s = total_out (nw s) /\
    coll_q s = [] /\ trans_q s = [] /\ reord_q s = [] /\ output_q s = [] /\ unfinished s = None /\
    collect_token s = true /\ eof s = true /\ bad s = false.
  Proof.
    intros I J N F. unfold final in F. rewrite !andb_true_iff in F. destruct F as [[F1 F2] F3].
    rewrite forallb_nth in F1.
    assert (exists p, nth_error (workers s) 0 = Some p) as [p Hp].
    { destruct (workers s) eqn:E; [|eexists; reflexivity]. pose proof (i_len I) as L. rewrite E in L. cbn in L. lia. }
    pose proof (F1 _ _ Hp) as Ep. destruct p; try discriminate.
    pose proof (j_exit J Hp) as Fin.
    destruct (finished_facts I Fin) as (E & C & W & O & T & R & Q & U & Wo & Us & _).
    assert (Z : forall f, (forall p, is_exit p = true -> f p = 0) -> sumf f (workers s) = 0).
    { intros f Hf. apply sumf_all_zero. intros x Hx. apply Hf. destruct (In_nth_error _ _ Hx) as [k Hk]. eauto. }
    pose proof (i_in I) as Iin. rewrite C in Iin. cbn [length] in Iin.
    rewrite (Z in_of) in Iin by (intros q Hq; destruct q; try discriminate; reflexivity).
    destruct (rd s); try discriminate. cbn [rd_in] in Iin.
    pose proof (i_tok I) as Itok. rewrite (Z seq_of) in Itok by (intros q Hq; destruct q; try discriminate; reflexivity).
    repeat split; auto; try lia.
    - destruct (collect_token s); [auto|cbn in Itok; lia].
    - apply (i_bad I).
  Qed.
End Sched.

Arguments units_of {Data Enc} p.
Arguments in_of {Data Enc} p.
Arguments out_of {Data Enc} p.
Arguments seq_of {Data Enc} p.
Arguments hold_of {Data Enc} p.
Arguments wait_of {Data Enc} p.
Arguments rd_in {Data Enc} r.
Arguments wr_out {Data Enc} w.
Arguments rd_done {Data Enc} r.
Arguments unlock_wakeups {Data Enc} s : simpl never.

(* the fields of the state after an event, in terms of the state before it *)
Ltac simp :=
  rewrite ?sched_unlock_eq, ?task_return_eq; unfold set_pc;
  cbn [nw ultra lvl lock next_task wakeups eof work_units in_slots out_slots coll_q trans_q reord_q order
       next_id collect_token unfinished workers rd input wr output_q written finish bad
       set_lock set_next_task set_wakeups set_eof set_work_units set_in_slots set_out_slots set_coll_q
       set_trans_q set_reord_q set_order set_next_id set_collect_token set_unfinished set_workers set_rd
       set_input set_wr set_output_q set_written set_finish set_bad].

Section Step.
  Variables (Data Enc : Type) (data_len : Data -> N) (enc_empty : Enc).
  Variable collect : Enc -> Data -> Enc * Data * bool.

  Notation state := (state Data Enc).
  Notation step := (step data_len enc_empty collect).

  Inductive Step (s : state) : tid -> state -> Prop :=
  | St_new i : nth_error (workers s) i = Some PNew -> lock s = None ->
      Step s (TW i) (set_lock (Some (TW i)) (set_pc i PTop s))
  | St_wake i : nth_error (workers s) i = Some PWait -> lock s = None ->
      Step s (TW i) (set_wakeups (pred (wakeups s)) (set_lock (Some (TW i)) (set_pc i PTop s)))
  | St_S i t : nth_error (workers s) i = Some PTop -> lock s = Some (TW i) -> next_task s = Some t ->
      Step s (TW i) (set_pc i (PRun (KStart t)) s)
  | St_X i : nth_error (workers s) i = Some PTop -> lock s = Some (TW i) -> next_task s = None ->
      finished s = true ->
      Step s (TW i) (set_lock None (set_wakeups (broadcast (upd (workers s) i PExit)) (set_pc i PExit s)))
  | St_W i : nth_error (workers s) i = Some PTop -> lock s = Some (TW i) -> next_task s = None ->
      finished s = false ->
      Step s (TW i) (set_lock None (set_pc i PWait s))
  | St_collect0_bad i : nth_error (workers s) i = Some (PRun (KStart T_collect)) -> lock s = Some (TW i) ->
      coll_q s = [] -> Step s (TW i) (set_bad true s)
  | St_collect0 i ib q wu b : nth_error (workers s) i = Some (PRun (KStart T_collect)) -> lock s = Some (TW i) ->
      coll_q s = ib :: q -> dec_or_bad (work_units s) = (wu, b) ->
      Step s (TW i) (sched_unlock (set_pc i (PRun (KCollect ib))
                       (set_bad (bad s || b) (set_work_units wu (set_coll_q q s)))))
  | St_seq0 i wub b2 : nth_error (workers s) i = Some (PRun (KStart T_collect_seq)) -> lock s = Some (TW i) ->
      wub = match unfinished s with Some _ => (work_units s, false) | None => dec_or_bad (work_units s) end ->
      b2 = match unfinished s, coll_q s with None, [] => true | _, _ => false end ->
      Step s (TW i) (sched_unlock (set_pc i (PRun (KSeq (unfinished s) (match coll_q s with [] => None | ib :: _ => Some ib end)))
                       (set_bad (bad s || (snd wub || b2))
                          (set_collect_token false (set_coll_q (tl (coll_q s))
                             (set_work_units (fst wub) (set_unfinished None s)))))))
  | St_transmit0_bad i : nth_error (workers s) i = Some (PRun (KStart T_transmit)) -> lock s = Some (TW i) ->
      trans_q s = [] -> Step s (TW i) (set_bad true s)
  | St_transmit0 i wb q os b : nth_error (workers s) i = Some (PRun (KStart T_transmit)) -> lock s = Some (TW i) ->
      trans_q s = wb :: q -> dec_or_bad (out_slots s) = (os, b) ->
      Step s (TW i) (sched_unlock (set_pc i (PRun (KTransmit wb))
                       (set_bad (bad s || b) (set_out_slots os (set_trans_q q s)))))
  | St_reorder_bad i : nth_error (workers s) i = Some (PRun (KStart T_reorder)) -> lock s = Some (TW i) ->
      reord_q s = [] -> Step s (TW i) (set_bad true s)
  | St_reorder i wb q : nth_error (workers s) i = Some (PRun (KStart T_reorder)) -> lock s = Some (TW i) ->
      reord_q s = wb :: q ->
      Step s (TW i) (task_return (set_bad (bad s || (cap_output (nw s) <=? length (output_q s)))
                                    (set_output_q (output_q s ++ [wb]) (set_order (wb_next wb) (set_reord_q q s)))) i)
  | St_collect_requeue i ib e d f : nth_error (workers s) i = Some (PRun (KCollect ib)) -> lock s = None ->
      collect enc_empty (ib_data ib) = (e, d, f) -> (0 < data_len d)%N ->
      Step s (TW i) (sched_unlock (set_pc i (PRun (KEncode (mkwblk (ib_pos ib) (pos_minor_succ (ib_pos ib)) e)))
                       (set_coll_q (pq_insert (@ib_pos _) (mkiblk (pos_minor_succ (ib_pos ib)) d) (coll_q s)) s)))
  | St_collect_release i ib e d f : nth_error (workers s) i = Some (PRun (KCollect ib)) ->
      collect enc_empty (ib_data ib) = (e, d, f) -> data_len d = 0%N ->
      Step s (TW i) (set_pc i (PRun (KEncode (mkwblk (ib_pos ib) (pos_major_succ (ib_pos ib)) e)))
                       (set_in_slots (S (in_slots s)) s))
  | St_encode i wb : nth_error (workers s) i = Some (PRun (KEncode wb)) -> lock s = None ->
      Step s (TW i) (task_return (set_lock (Some (TW i)) (set_trans_q (pq_insert (@wb_pos _) wb (trans_q s)) s)) i)
  | St_seq_requeue i wbo ib wb0 e d f : nth_error (workers s) i = Some (PRun (KSeq wbo (Some ib))) -> lock s = None ->
      wb0 = match wbo with Some wb => wb | None => new_wblk enc_empty ib end ->
      collect (wb_enc wb0) (ib_data ib) = (e, d, f) -> (0 < data_len d)%N ->
      Step s (TW i) (sched_unlock (set_pc i (PRun (KSeqFin (mkwblk (wb_pos wb0) (pos_minor_succ (wb_next wb0)) e) f))
                       (set_coll_q (pq_insert (@ib_pos _) (mkiblk (pos_minor_succ (ib_pos ib)) d) (coll_q s)) s)))
  | St_seq_release i wbo ib wb0 e d f : nth_error (workers s) i = Some (PRun (KSeq wbo (Some ib))) ->
      wb0 = match wbo with Some wb => wb | None => new_wblk enc_empty ib end ->
      collect (wb_enc wb0) (ib_data ib) = (e, d, f) -> data_len d = 0%N ->
      Step s (TW i) (set_pc i (PRun (KSeqFin (mkwblk (wb_pos wb0) (pos_major_succ (wb_next wb0)) e) f))
                       (set_in_slots (S (in_slots s)) s))
  | St_seq_flush i wb : nth_error (workers s) i = Some (PRun (KSeq (Some wb) None)) -> lock s = None ->
      Step s (TW i) (sched_unlock (set_pc i (PRun (KEncode wb)) (set_collect_token true s)))
  | St_seqfin_done i wb : nth_error (workers s) i = Some (PRun (KSeqFin wb true)) -> lock s = None ->
      Step s (TW i) (sched_unlock (set_pc i (PRun (KEncode wb)) (set_collect_token true s)))
  | St_seqfin_more i wb : nth_error (workers s) i = Some (PRun (KSeqFin wb false)) -> lock s = None ->
      Step s (TW i) (task_return (set_lock (Some (TW i)) (set_unfinished (Some wb) (set_collect_token true s))) i)
  | St_transmit1 i wb : nth_error (workers s) i = Some (PRun (KTransmit wb)) -> lock s = None ->
      Step s (TW i) (task_return (set_lock (Some (TW i))
                       (set_reord_q (pq_insert (@wb_pos _) wb (reord_q s)) (set_work_units (S (work_units s)) s))) i)
  | St_r_take m : rd s = RIdle -> in_slots s = S m ->
      Step s TR (set_rd RRead (set_in_slots m s))
  | St_r_empty : rd s = RRead -> (input s = [] \/ exists d rest, input s = d :: rest /\ data_len d = 0%N) ->
      Step s TR (set_rd REof (set_in_slots (S (in_slots s)) s))
  | St_r_deliver d rest : rd s = RRead -> input s = d :: rest -> data_len d <> 0%N -> lock s = None ->
      Step s TR (sched_unlock
                   (set_input rest (set_rd (if (data_len d <? in_granul (lvl s))%N then REof else RIdle)
                      (set_next_id (next_id s + 1)
                         (set_coll_q (pq_insert (@ib_pos _) (mkiblk (mkpos (next_id s) 0) d) (coll_q s)) s)))))
  | St_r_eof : rd s = REof -> lock s = None ->
      Step s TR (sched_unlock (set_rd RDone (set_eof true s)))
  | St_w_take wb q : wr s = SIdle -> output_q s = wb :: q ->
      Step s TS (set_wr (SHold wb) (set_written (written s ++ [wb]) (set_output_q q s)))
  | St_w_exit : wr s = SIdle -> output_q s = [] -> finish s = true ->
      Step s TS (set_wr SDone s)
  | St_w_done wb : wr s = SHold wb -> lock s = None ->
      Step s TS (sched_unlock (set_wr SIdle (set_out_slots (S (out_slots s)) s)))
  | St_m_finish : forallb (@is_exit _) (workers s) = true -> finish s = false -> rd s = RDone ->
      Step s TM (set_finish true s).

  Ltac fin H := cbn [option_map fst] in H; injection H as <-.
  Ltac free L := destruct (lock_free _) eqn:L; [apply lock_free_true in L|discriminate].
  Ltac held L := destruct (holds _ _) eqn:L; [apply holds_true in L|discriminate].

  Lemma step_Step s e s' : step s e = Some s' -> Step s e s'.
  Proof.
    unfold step, SchedC.step_obs. intros H.
    destruct e as [i| | |].
    - unfold worker_step in H.
      destruct (nth_error (workers s) i) as [p|] eqn:En; [|discriminate].
      destruct p as [| | | |k].
      + free L.
        fin H. apply St_new; auto.
      + held L.
        destruct (next_task s) eqn:Nt.
        * fin H. eapply St_S; eauto.
        * destruct (finished s) eqn:F; fin H.
          -- apply St_X; auto.
          -- apply St_W; auto.
      + free L.
        fin H. apply St_wake; auto.
      + discriminate.
      + unfold seg_step in H. destruct k as [t|ib|wb|wbo ibo|wb done|wb].
        * held L.
          destruct (seg_start s i t) as [s1 r] eqn:Es. fin H.
          unfold seg_start in Es. destruct t.
          -- destruct (coll_q s) as [|ib q] eqn:Eq.
             ++ injection Es as <- <-. apply St_collect0_bad; auto.
             ++ destruct (dec_or_bad (work_units s)) as [wu b] eqn:Ed. injection Es as <- <-.
                eapply St_collect0; eauto.
          -- injection Es as <- <-. eapply St_seq0; eauto.
             destruct (unfinished s); destruct (coll_q s); reflexivity.
          -- destruct (trans_q s) as [|wb q] eqn:Eq.
             ++ injection Es as <- <-. apply St_transmit0_bad; auto.
             ++ destruct (dec_or_bad (out_slots s)) as [os b] eqn:Ed. injection Es as <- <-.
                eapply St_transmit0; eauto.
          -- destruct (reord_q s) as [|wb q] eqn:Eq.
             ++ injection Es as <- <-. apply St_reorder_bad; auto.
             ++ injection Es as <- <-. eapply St_reorder; eauto.
        * cbn [new_wblk wb_enc wb_pos wb_next] in H.
          destruct (collect enc_empty (ib_data ib)) as [[e d] f] eqn:Ec.
          destruct (0 <? data_len d)%N eqn:El.
          -- free L.
             fin H. eapply St_collect_requeue; eauto. apply N.ltb_lt; auto.
          -- fin H. eapply St_collect_release; eauto.
             apply N.ltb_ge in El. lia.
        * free L.
          fin H. apply St_encode; auto.
        * destruct ibo as [ib|].
          -- set (wb0 := match wbo with Some wb => wb | None => new_wblk enc_empty ib end).
             assert (Hw : match wbo, Some ib with
                          | Some wb, _ => Some wb | None, Some ib => Some (new_wblk enc_empty ib) | None, None => None
                          end = Some wb0) by (destruct wbo; reflexivity).
             rewrite Hw in H.
             destruct (collect (wb_enc wb0) (ib_data ib)) as [[e d] f] eqn:Ec.
             destruct (0 <? data_len d)%N eqn:El.
             ++ free L.
                fin H. eapply St_seq_requeue; eauto. apply N.ltb_lt; auto.
             ++ fin H. eapply St_seq_release; eauto.
                apply N.ltb_ge in El. lia.
          -- destruct wbo as [wb|]; [|discriminate].
             free L.
             fin H. apply St_seq_flush; auto.
        * free L.
          destruct done; fin H.
          -- apply St_seqfin_done; auto.
          -- apply St_seqfin_more; auto.
        * free L.
          fin H. apply St_transmit1; auto.
    - unfold reader_step in H. destruct (rd s) eqn:Er; try discriminate.
      + destruct (in_slots s) eqn:Ei; [discriminate|]. fin H. eapply St_r_take; eauto.
      + destruct (input s) as [|d rest] eqn:Ein.
        * fin H. apply St_r_empty; auto.
        * destruct (data_len d =? 0)%N eqn:Ez.
          -- fin H. apply St_r_empty; auto. right. exists d, rest. split; auto.
             apply N.eqb_eq; auto.
          -- free L.
             fin H. eapply St_r_deliver; eauto. apply N.eqb_neq; auto.
      + free L.
        fin H. apply St_r_eof; auto.
    - unfold writer_step in H. destruct (wr s) eqn:Ew; try discriminate.
      + destruct (output_q s) as [|wb q] eqn:Eo.
        * destruct (finish s) eqn:Ef; [|discriminate]. fin H. apply St_w_exit; auto.
        * fin H. eapply St_w_take; eauto.
      + free L.
        fin H. eapply St_w_done; eauto.
    - unfold main_step in H.
      destruct (forallb (@is_exit _) (workers s)) eqn:E1; [|discriminate].
      destruct (finish s) eqn:E2; [discriminate|].
      destruct (rd s) eqn:E3; try discriminate.
      fin H. apply St_m_finish; auto.
  Qed.
End Step.

Arguments Step {Data Enc} data_len enc_empty collect s _ _.

(* case analysis of [H : Step s e s'] (step_cases: of [H : step s e = Some s']): one goal per constructor of Step, in
   that order.  i: the acting worker; Hi: its continuation; L: what is known of the
   mutex; Hq: the shape of the queue that is popped; Hr / Hw: the reader's / writer's
   program counter; Hc: the result of collect(); Hl: whether a remainder is left. *)
Ltac Step_cases H :=
  destruct H as [i Hi L|i Hi L|i t Hi L Hn|i Hi L Hn Hf|i Hi L Hn Hf
                |i Hi L Hq|i ib q wu b Hi L Hq Hd|i wub b2 Hi L Hw Hb|i Hi L Hq|i wb q os b Hi L Hq Hd
                |i Hi L Hq|i wb q Hi L Hq
                |i ib e d f Hi L Hc Hl|i ib e d f Hi Hc Hl|i wb Hi L
                |i wbo ib wb0 e d f Hi L Hw Hc Hl|i wbo ib wb0 e d f Hi Hw Hc Hl|i wb Hi L
                |i wb Hi L|i wb Hi L|i wb Hi L
                |m Hr Hs|Hr Hin|d rest Hr Hin Hl L|Hr L|wb q Hw Hq|Hw Hq Hf|wb Hw L|Hall Hf Hr].
Ltac step_cases H := apply step_Step in H; Step_cases H.

(* how the sum of f over the workers changes when the acting worker moves on *)
Ltac sums f :=
  match goal with
  | Hi : nth_error ?ws ?i = Some _ |- context [upd ?ws ?i ?p'] =>
      let S := fresh "S" in pose proof (sumf_upd f _ _ _ p' Hi) as S; cbn in S
  end.

Section Reach.
  Variables (Data Enc : Type) (data_len : Data -> N) (enc_empty : Enc).
  Variable collect : Enc -> Data -> Enc * Data * bool.

  Notation state := (state Data Enc).
  Notation cont := (cont Data Enc).
  Notation step := (step data_len enc_empty collect).
  Notation Step := (Step data_len enc_empty collect).
  Notation Reach := (Reach data_len enc_empty collect).

  Lemma step_params s e s' : step s e = Some s' -> nw s' = nw s /\ ultra s' = ultra s /\ lvl s' = lvl s.
  Proof. intros H. apply step_Step in H. destruct H; simp; auto. Qed.

  Lemma lck_step s e s' : Inv s -> Step s e s' -> Lck (lock s') (workers s') (ready s').
  Proof.
    intros I H. pose proof (inv_lck I) as K. Step_cases H; simp; try rewrite L in *.
    3: { (* S: the task taken is the one select_task() found ready *)
         eapply lck_to_holder; [exact K|auto|exact Hi|reflexivity|]. intros t0 [= <-]. apply select_ready.
         transitivity (select s); [apply select_view; reflexivity|]. rewrite <- (i_nt I). assumption. }
    all: first [ exact K                                                (* mutex, workers, guards untouched *)
               | eapply lck_to_holder; [exact K|auto|exact Hi|reflexivity|intros ? [=]]   (* the actor holds the mutex *)
               | eapply lck_to_none; [exact K|auto|exact Hi|reflexivity]                  (* it has released it *)
               | eapply lck_frame; [exact K|exact Hi|reflexivity..]                       (* unlocked code of a worker *)
               | eapply lck_free_any; exact K ].                                          (* reader, writer *)
  Qed.

  Lemma step_len s e s' : Step s e s' -> length (workers s') = length (workers s).
  Proof. destruct 1; simp; rewrite ?upd_length; reflexivity. Qed.

  (* every event leaves next_task and what the guards see alone, or ends with select_task() *)
  Lemma step_nt s e s' : Inv s -> Step s e s' -> next_task s' = select s'.
  Proof. intros I. destruct 1; simp; rewrite ?(i_nt I); apply select_view; reflexivity. Qed.

  Lemma step_wake s e s' : Inv s -> Step s e s' -> wakeups s' <= sumf wait_of (workers s').
  Proof.
    intros I H. pose proof (i_wake I) as W. Step_cases H; simp.
    all: try (apply unlock_wakeups_le; [reflexivity|simp]).
    all: rewrite ?broadcast_eq; try sums (@wait_of Data Enc); lia.
  Qed.

  Lemma step_counts s e s' : Inv s -> Step s e s' ->
    bad s' = false /\
    work_units s' + length (trans_q s') + sumf units_of (workers s') + b2n (is_some (unfinished s')) = nw s' /\
    in_slots s' + length (coll_q s') + rd_in (rd s') + sumf in_of (workers s') = total_in (nw s') /\
    out_slots s' + sumf out_of (workers s') + length (reord_q s') + length (output_q s') + wr_out (wr s')
      = total_out (nw s') /\
    sumf seq_of (workers s') = b2n (negb (collect_token s')) /\
    (collect_token s' = false -> unfinished s' = None).
  Proof.
    intros I H. pose proof (i_bad I) as Ibad. pose proof (i_units I) as Iunits. pose proof (i_in I) as Iin.
    pose proof (i_out I) as Iout. pose proof (i_tok I) as Itok. pose proof (i_unf I) as Iunf.
    Step_cases H; simp.
    (* a task body finds what its guard promised *)
    6-12: pose proof (i_ready I Hi) as R.
    6-7: apply ready_collect_iff in R. 8: apply seq0_guard in R as (Et & Eb & Eu).
    9-10: apply ready_transmit_spec in R. 11-12: apply ready_reorder_spec in R. 9-12: rewrite Hq in R.
    7: destruct (dec_ok Hd) as [Ew ->]; [tauto|rewrite Ew in *].
    8: subst wub b2; rewrite Eb, Et in *.
    10: destruct (dec_ok Hd) as [Ew ->]; [lia|rewrite Ew in *].
    12: assert (Ecap : cap_output (nw s) <=? length (output_q s) = false)
          by (apply Nat.leb_gt; change (cap_output (nw s)) with (total_out (nw s)); rewrite Hq in Iout; cbn in Iout; lia);
        rewrite Ecap.
    (* a worker inside do_collect_seq() has the token *)
    18-20: destruct (only_seq I Hi eq_refl) as (Et & Eu & _); rewrite Et, ?Eu in *.
    6, 9, 11: (exfalso; tauto).
    all: try (sums (@units_of Data Enc); sums (@in_of Data Enc); sums (@out_of Data Enc); sums (@seq_of Data Enc)).
    all: try rewrite Hq in *; try rewrite Hr in *; try rewrite Hw in *; try rewrite Hs in *;
         cbn [length rd_in wr_out b2n is_some negb] in Iunits, Iin, Iout, Itok.
    all: rewrite ?pq_insert_length, ?app_length, ?Ibad; cbn [length b2n is_some negb rd_in wr_out orb].
    all: repeat split; first [assumption|lia|intros E; first [discriminate E|auto]|idtac].
    - destruct (coll_q s); cbn [tl length in_of] in *; lia.
    - destruct (data_len d <? in_granul (lvl s))%N; cbn [rd_in]; lia.
  Qed.

  Lemma inv_step s e s' : Inv s -> step s e = Some s' -> Inv s'.
  Proof.
    intros I H. destruct (step_params H) as (En & _). apply step_Step in H.
    destruct (lck_step I H) as [Kh Kl Kr]. destruct (step_counts I H) as (C1 & C2 & C3 & C4 & C5 & C6).
    constructor; eauto using step_nt, step_wake.
    rewrite (step_len H), (i_len I). auto.
  Qed.

  Lemma reach_inv s0 s : Inv s0 -> Reach s0 s -> Inv s.
  Proof. intros I0 R. induction R; auto. eapply inv_step; eauto. Qed.

  (* once the process has finished it stays finished: no guard is ready, nothing is
     held, the reader is done *)
  Lemma finished_step s e s' : Inv s -> Inv2 s -> Step s e s' -> finished s = true -> finished s' = true.
  Proof.
    intros I J H F. destruct (finished_facts I F) as (E & _ & _ & _ & _ & _ & _ & _ & W & U & _).
    pose proof (fun t => finished_not_ready t I F) as Nr. rewrite (j_eof J) in E.
    Step_cases H; simp; try (rewrite <- F; apply finished_view; reflexivity); exfalso.
    all: first [ pose proof (i_ready I Hi) as Z; rewrite Nr in Z; discriminate Z
               | pose proof (sumf_ge_nth units_of _ _ _ Hi) as Z; rewrite U in Z; cbn in Z; lia
               | rewrite Hr in E; discriminate E
               | rewrite Hw in W; discriminate W ].
  Qed.

  Lemma exit_step s e s' j : Step s e s' -> nth_error (workers s') j = Some PExit ->
    nth_error (workers s) j = Some PExit \/ finished s = true.
  Proof.
    intros H. Step_cases H; simp; intros Hj; auto.
    all: apply nth_upd_cases in Hj as [[_ E]|[_ Hj]]; auto; discriminate E.
  Qed.

  Lemma inv2_step s e s' : Inv s -> Inv2 s -> step s e = Some s' -> Inv2 s'.
  Proof.
    intros I J H. apply step_Step in H. constructor.
    - pose proof (j_eof J) as E. Step_cases H; simp; try exact E; try rewrite E, Hr; try reflexivity.
      destruct (data_len d <? in_granul (lvl s))%N; reflexivity.
    - intros j Hj. apply (finished_step I J H). destruct (exit_step H Hj) as [Hj'|F]; [exact (j_exit J Hj')|exact F].
    - (* the writer is done: the workers have exited, so only it and main can move *)
      pose proof (j_wr J) as Jw. pose proof (j_finish J) as Jf.
      Step_cases H; simp; try exact Jw; intros F; try discriminate F; auto.
      + destruct (Jw F) as [F2 _]. specialize (Jf F2). rewrite forallb_nth in Jf.
        specialize (Jf _ _ Hi). discriminate Jf.
      + destruct (Jw F). auto.
    - pose proof (j_finish J) as Jf.
      Step_cases H; simp; try exact Jf; auto.
      all: intros F; specialize (Jf F); rewrite forallb_nth in Jf; specialize (Jf _ _ Hi); discriminate Jf.
  Qed.

  Lemma rr_round_reach s0 order s : Reach s0 s -> Reach s0 (rr_round data_len enc_empty collect order s).
  Proof.
    revert s. unfold rr_round. induction order as [|e o IH]; intros s R; cbn; auto.
    apply IH. destruct (step s e) eqn:E; auto. econstructor; eauto.
  Qed.

  Lemma rr_reach s0 fuel order s : Reach s0 s -> Reach s0 (rr data_len enc_empty collect fuel order s).
  Proof. revert s. induction fuel; intros s R; cbn; auto. apply IHfuel. apply rr_round_reach; auto. Qed.

  Definition reachable (n : nat) (u : bool) (l : N) (inp : list Data) (s : state) : Prop :=
    Reach (@init Data Enc n u l inp) s.

  (* induction over the reachable states; a later invariant may use the earlier ones
     of the state before the step *)
  Lemma reachable_ind n u l inp (P : state -> Prop) :
    P (init Enc n u l inp) ->
    (forall s e s', reachable n u l inp s -> P s -> step s e = Some s' -> P s') ->
    forall s, reachable n u l inp s -> P s.
  Proof. intros H0 HS s R. induction R; eauto. Qed.

  Lemma reachable_inv n u l inp s : reachable n u l inp s ->
    Inv s /\ Inv2 s /\ nw s = n /\ ultra s = u /\ lvl s = l.
  Proof.
    revert s. apply reachable_ind.
    - split; [apply inv_init|split; [apply inv2_init|auto]].
    - intros s e s' _ (I & J & P) H. destruct (step_params H) as (-> & -> & ->).
      split; [eapply inv_step|split; [eapply inv2_step|]]; eauto.
  Qed.

  Definition units_held (s : state) : nat :=
    length (trans_q s) + sumf units_of (workers s) + b2n (is_some (unfinished s)).
  Definition in_held (s : state) : nat :=
    length (coll_q s) + rd_in (rd s) + sumf in_of (workers s).
  Definition out_held (s : state) : nat :=
    sumf out_of (workers s) + length (reord_q s) + length (output_q s) + wr_out (wr s).

  Lemma c11_conserve n u l inp s : reachable n u l inp s ->
    work_units s + units_held s = n /\ in_slots s + in_held s = total_in n /\ out_slots s + out_held s = total_out n.
  Proof.
    intros R. destruct (reachable_inv R) as (I & _ & <- & _). unfold units_held, in_held, out_held.
    pose proof (i_units I). pose proof (i_in I). pose proof (i_out I). lia.
  Qed.

  Lemma c11_capacity n u l inp s : reachable n u l inp s ->
    length (coll_q s) <= cap_coll n /\ length (trans_q s) <= cap_trans n /\
    length (reord_q s) <= cap_reord n /\ length (output_q s) <= cap_output n /\
    work_units s <= n /\ in_slots s <= total_in n /\ out_slots s <= total_out n.
  Proof.
    intros R. destruct (c11_conserve R) as (A & B & C). unfold units_held, in_held, out_held in *.
    change (cap_coll n) with (total_in n). change (cap_trans n) with n.
    change (cap_reord n) with (total_out n). change (cap_output n) with (total_out n).
    repeat split; lia.
  Qed.

  Lemma c11_no_ub n u l inp s : reachable n u l inp s -> bad s = false.
  Proof. intros R. apply (reachable_inv R). Qed.

  Lemma c11_final n u l inp s : 1 <= n -> reachable n u l inp s -> final s = true ->
    work_units s = n /\ in_slots s = total_in n /\ out_slots s = total_out n /\
    coll_q s = [] /\ trans_q s = [] /\ reord_q s = [] /\ output_q s = [] /\ unfinished s = None /\
    collect_token s = true /\ eof s = true.
  Proof.
    intros N R F. destruct (reachable_inv R) as (I & J & <- & _).
    destruct (final_returns_all I J N F) as (A & B & C & D & E & G & H & K & L & M & _).
    repeat split; auto.
  Qed.

End Reach.
