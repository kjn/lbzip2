(* Deadlock freedom of the compression scheduler, both modes: every reachable
   non-final state has an enabled event that is not an idle wake-up.  The argument:
   if nothing else can move, every worker waits, so the first live item (the one at
   [order]) sits in a queue, and the guard of the task that would take it cannot
   be false. *)
From Coq Require Import List NArith Arith Bool Lia Permutation Sorted.
From LBZ Require Import SchedC.SchedCIface Gen.SchedCTab SchedC.Pool SchedC.PoolLemmas SchedC.SchedC SchedC.SchedCInv
  SchedC.Tiling SchedC.SchedCOrder SchedC.SchedCLive.
Import ListNotations.
Set Implicit Arguments.
Unset Strict Implicit.

(* side condition on the regenerated task list: every task is scheduled *)
Lemma all_tasks_listed : forall t, In t task_order.
Proof. intros []; cbn; tauto. Qed.

Section Queues.
  Variables Data Enc : Type.

  Notation state := (state Data Enc).
  Notation cont := (cont Data Enc).
  Notation wpcs := (wpc cont).

  (* output slots that are free or held by blocks not ahead of [order] *)
  Definition le_order_pc (o : pos) (p : wpcs) : nat :=
    match p with PRun (KTransmit wb) => b2n (pos_le (wb_pos wb) o) | _ => 0 end.
  Definition le_order_q (o : pos) (q : list (wblk Enc)) : nat :=
    length (filter (fun wb => pos_le (wb_pos wb) o) q).
  Definition reserve (s : state) : nat :=
    out_slots s + length (output_q s) + wr_out (wr s) +
    sumf (le_order_pc (order s)) (workers s) + le_order_q (order s) (reord_q s).

  (* side conditions on the regenerated constants *)
  Lemma thresh_le_total n : TRANSM_THRESH <= total_out n.
  Proof. unfold TRANSM_THRESH, total_out, total_out_slots_compress. lia. Qed.
  Lemma thresh_pos : 1 <= TRANSM_THRESH.
  Proof. unfold TRANSM_THRESH. lia. Qed.
  Lemma total_in_pos n : 1 <= n -> 0 < total_in n.
  Proof. unfold total_in, total_in_slots_compress. lia. Qed.

  Lemma pos_le_mono a o o' : pos_le a o = true -> plt o o' -> pos_le a o' = true.
  Proof. rewrite !pos_le_spec. intros H L. right. eapply ple_plt_trans; eauto. Qed.

  Lemma le_order_q_mono o o' q : plt o o' -> le_order_q o q <= le_order_q o' q.
  Proof.
    intros L. unfold le_order_q. induction q as [|wb q IH]; cbn; [lia|].
    destruct (pos_le (wb_pos wb) o) eqn:E.
    - rewrite (pos_le_mono E L). cbn. lia.
    - destruct (pos_le (wb_pos wb) o'); cbn; lia.
  Qed.

  Lemma le_order_pc_mono o o' (ws : list wpcs) : plt o o' -> sumf (le_order_pc o) ws <= sumf (le_order_pc o') ws.
  Proof.
    intros L. induction ws as [|p ws IH]; [unfold sumf; cbn; lia|]. rewrite !sumf_cons.
    assert (le_order_pc o p <= le_order_pc o' p); [|lia].
    destruct p as [| | | |[]]; cbn; try lia.
    destruct (pos_le (wb_pos wb) o) eqn:E; [rewrite (pos_le_mono E L); cbn; lia|cbn; lia].
  Qed.

  Lemma le_order_q_insert o wb q :
    le_order_q o (pq_insert (@wb_pos Enc) wb q) = b2n (pos_le (wb_pos wb) o) + le_order_q o q.
  Proof.
    unfold le_order_q. rewrite (filter_perm_length _ _ _ (pq_insert_perm (@wb_pos Enc) wb q)). cbn.
    destruct (pos_le (wb_pos wb) o); reflexivity.
  Qed.

  (* the key of an item that is inserted is fresh, because the live items of the
     state after the insertion tile the stream *)
  Lemma tiling_insert_fresh {A} (f : A -> ival) (key : A -> pos) x q p l e :
    (forall z, fst (f z) = key z) -> Tiling p l e ->
    (forall z, cnt z (map f (pq_insert key x q)) <= cnt z l) ->
    forall y, In y q -> key y <> key x.
  Proof.
    intros K T C y Hy E.
    assert (Ix : In (f x) l).
    { apply cnt_pos_in. specialize (C (f x)). rewrite cnt_map_insert, cnt_self in C. lia. }
    assert (Iy : In (f y) l).
    { apply cnt_pos_in. specialize (C (f y)). rewrite cnt_map_insert in C.
      assert (0 < cnt (f y) (map f q)) by (apply cnt_pos_in; apply in_map; auto). lia. }
    assert (Ef : f y = f x).
    { destruct (f x) as [a b] eqn:Ex; destruct (f y) as [a' b'] eqn:Ey.
      pose proof (K x) as Kx. pose proof (K y) as Ky. rewrite Ex in Kx. rewrite Ey in Ky. cbn in Kx, Ky.
      assert (a' = a) by congruence. subst. rewrite H in Iy.
      pose proof (tiling_distinct _ _ _ _ _ _ T Iy Ix). congruence. }
    specialize (C (f x)). rewrite cnt_map_insert, cnt_self in C.
    assert (0 < cnt (f x) (map f q)) by (apply cnt_pos_in; rewrite <- Ef; apply in_map; auto).
    pose proof (tiling_once _ _ _ (f x) T). lia.
  Qed.

  (* the start of the block a work unit is held for *)
  Definition unit_pos (p : wpcs) : option pos :=
    match p with
    | PRun (KCollect ib) | PRun (KSeq None (Some ib)) => Some (ib_pos ib)
    | PRun (KEncode wb) | PRun (KTransmit wb) | PRun (KSeqFin wb _) | PRun (KSeq (Some wb) _) => Some (wb_pos wb)
    | _ => None
    end.
  Definition holder_pos (s : state) (p : pos) : Prop :=
    (exists wb, In wb (trans_q s) /\ wb_pos wb = p) \/
    (exists wb, unfinished s = Some wb /\ wb_pos wb = p) \/
    (exists i pc, nth_error (workers s) i = Some pc /\ unit_pos pc = Some p).

  Record QInv (s : state) : Prop := {
    q_sc : ksorted (@ib_pos Data) (coll_q s);
    q_st : ksorted (@wb_pos Enc) (trans_q s);
    q_sr : ksorted (@wb_pos Enc) (reord_q s);
    q_res : TRANSM_THRESH <= reserve s;
    (* a collector that found nothing to do has tripped the assert *)
    q_kseq : forall i, nth_error (workers s) i <> Some (PRun (KSeq None None));
    (* when no work unit is free, each queued chunk comes after a block under way *)
    q_unit : work_units s = 0 -> forall ib, In ib (coll_q s) -> exists p, holder_pos s p /\ plt p (ib_pos ib)
  }.

  Lemma holder_in_items (s : state) p : holder_pos s p -> exists b, In (p, b) (items s).
  Proof.
    intros [(wb & I & <-)|[(wb & E & <-)|(j & pc & Hj & E)]].
    - exists (wb_next wb). apply (in_items_trans I).
    - exists (wb_next wb). apply (in_items_unf E).
    - destruct pc as [| | | |[t|ib|wb|[wb|] [ib|]|wb d|wb]]; try discriminate E; injection E as <-;
        eexists; apply (in_items_pc Hj); left; reflexivity.
  Qed.

  Lemma holder_below_end (s : state) p : TInv s -> holder_pos s p -> plt p (mkpos (next_id s) 0).
  Proof.
    intros T Hp. destruct (holder_in_items Hp) as [b Ib].
    destruct (tiling_in _ _ _ _ (t_tile T) Ib) as (_ & A & B). cbn in A, B. eapply plt_ple_trans; eauto.
  Qed.

  Lemma some_holder (s : state) : Inv s -> QInv s -> 0 < nw s -> work_units s = 0 -> exists p, holder_pos s p.
  Proof.
    intros I Q N W. pose proof (i_units I) as U. rewrite W in U.
    destruct (trans_q s) as [|wb q] eqn:Eq; [|exists (wb_pos wb); left; exists wb; rewrite Eq; cbn; auto].
    destruct (unfinished s) as [wb|] eqn:Eu; [exists (wb_pos wb); right; left; eauto|]. cbn in U.
    destruct (sumf_pos_ex units_of (workers s)) as (j & pc & Hj & Hp); [lia|].
    assert (exists p, unit_pos pc = Some p) as [p Ep]; [|exists p; right; right; eauto].
    destruct pc as [| | | |[t|ib|wb|[wb|] [ib|]|wb d|wb]]; cbn in Hp; try lia; cbn; eauto.
    destruct (q_kseq Q Hj).
  Qed.

  Lemma holder_trans (s : state) wb : In wb (trans_q s) -> holder_pos s (wb_pos wb).
  Proof. left. eauto. Qed.
  Lemma holder_unf (s : state) wb : unfinished s = Some wb -> holder_pos s (wb_pos wb).
  Proof. right. left. eauto. Qed.
  Lemma holder_worker (s : state) i pc p : nth_error (workers s) i = Some pc -> unit_pos pc = Some p -> holder_pos s p.
  Proof. right. right. eauto. Qed.

  Lemma holder_move (s s' : state) :
    (forall wb, In wb (trans_q s) -> holder_pos s' (wb_pos wb)) ->
    (forall wb, unfinished s = Some wb -> holder_pos s' (wb_pos wb)) ->
    (forall j pc q, nth_error (workers s) j = Some pc -> unit_pos pc = Some q -> holder_pos s' q) ->
    forall p, holder_pos s p -> holder_pos s' p.
  Proof. intros Ht Hu Hw p [(wb & I & <-)|[(wb & E & <-)|(j & pc & Hj & E)]]; eauto. Qed.

  Lemma holder_upd (s s' : state) i p p' : workers s' = upd (workers s) i p' -> nth_error (workers s) i = Some p ->
    (forall q, unit_pos p = Some q -> holder_pos s' q) ->
    forall j pc q, nth_error (workers s) j = Some pc -> unit_pos pc = Some q -> holder_pos s' q.
  Proof.
    intros Ew Hi Hp j pc q Hj E. destruct (Nat.eq_dec j i) as [->|N]; [apply Hp; congruence|].
    apply (@holder_worker s' j pc); auto. rewrite Ew, nth_error_upd_neq; auto.
  Qed.

  Lemma qinv_init n u l inp : QInv (init Enc n u l inp).
  Proof.
    constructor; cbn; try constructor.
    - unfold reserve. cbn. rewrite sumf_repeat. pose proof (thresh_le_total n). unfold le_order_q, init_out_slots. cbn. lia.
    - intros i H. apply nth_error_In, repeat_spec in H. discriminate.
    - intros _ ib [].
  Qed.
End Queues.

Section Prog.
  Variables (Data Enc : Type) (data_len : Data -> N) (enc_empty : Enc).
  Variable collect : Enc -> Data -> Enc * Data * bool.

  Notation state := (state Data Enc).
  Notation cont := (cont Data Enc).
  Notation wpcs := (wpc cont).
  Notation step := (step data_len enc_empty collect).
  Notation Step := (Step data_len enc_empty collect).
  Notation reachable := (reachable data_len enc_empty collect).

  Lemma sorted_step s e s' : TInv s' -> QInv s -> Step s e s' ->
    ksorted (@ib_pos Data) (coll_q s') /\ ksorted (@wb_pos Enc) (trans_q s') /\ ksorted (@wb_pos Enc) (reord_q s').
  Proof.
    intros T' [Qc Qt Qr _ _ _] H. pose proof (t_tile T') as Ti.
    Step_cases H; simp; repeat split; try assumption.
    all: try (rewrite Hq in *; eapply ksorted_tail; eassumption).
    1: destruct (coll_q s); [constructor|eapply ksorted_tail; eassumption].
    all: apply ksorted_insert; [assumption|];
      first [eapply (tiling_insert_fresh (f:=@iv_ib Data))|eapply (tiling_insert_fresh (f:=@iv_wb Enc))];
      [reflexivity|exact Ti|]; intros z; unfold items; simp; rewrite !cnt_app; lia.
  Qed.

  Lemma reserve_step s e s' : Inv s -> TInv s -> QInv s -> Step s e s' -> TRANSM_THRESH <= reserve s'.
  Proof.
    intros I T Q H. pose proof (q_res Q) as R. unfold reserve in *. Step_cases H; simp.
    12: { (* reorder: [order] advances, blocks not ahead of it stay so *)
      pose proof (i_ready I Hi) as G. apply ready_reorder_spec in G. rewrite Hq in G.
      assert (Lt : plt (order s) (wb_next wb)).
      { rewrite <- G. apply (tiling_in _ _ _ (iv_wb wb) (t_tile T)), in_items_reord. rewrite Hq. left; reflexivity. }
      pose proof (le_order_q_mono q Lt). pose proof (le_order_pc_mono (upd (workers s) i PTop) Lt).
      sums (le_order_pc (Data:=Data) (Enc:=Enc) (order s)). rewrite Hq in R. unfold le_order_q in R at 1. cbn [filter] in R.
      rewrite G, (proj2 (pos_le_spec _ _) (ple_refl _)) in R. cbn [length] in R.
      fold (le_order_q (order s) q) in R. rewrite app_length. cbn [length]. lia. }
    10: { (* transmit: a slot is taken beyond the threshold, or for the block at [order] *)
      pose proof (i_ready I Hi) as G. apply ready_transmit_spec in G. rewrite Hq in G.
      sums (le_order_pc (Data:=Data) (Enc:=Enc) (order s)).
      destruct (dec_ok Hd) as [Eo ->]; [destruct G as [G|[G _]]; lia|]. rewrite Eo in *.
      destruct G as [G|[_ G]]; [lia|]. rewrite G, (proj2 (pos_le_spec _ _) (ple_refl _)) in S. cbn in S. lia. }
    all: try sums (le_order_pc (Data:=Data) (Enc:=Enc) (order s)); rewrite ?le_order_q_insert, ?app_length;
         try rewrite Hq in *; try rewrite Hw in *; cbn [length wr_out] in *; lia.
  Qed.

  Lemma kseq_step s e s' : Inv s' -> QInv s -> Step s e s' ->
    forall j, nth_error (workers s') j <> Some (PRun (KSeq None None)).
  Proof.
    intros I' Q H. pose proof (q_kseq Q) as K. pose proof (i_bad I') as B. revert B.
    Step_cases H; simp; intros B; try exact K.
    all: intros j Hj; apply nth_upd_cases in Hj as [[_ E]|[_ Hj]]; [try discriminate E|exact (K _ Hj)].
    injection E as Eu Ec. subst b2. destruct (coll_q s), (unfinished s); try discriminate.
    rewrite !orb_true_r in B. discriminate B.
  Qed.

  Lemma holder_step s e s' : Inv s -> Step s e s' -> work_units s' <= work_units s ->
    forall p, holder_pos s p -> holder_pos s' p.
  Proof.
    intros I H. Step_cases H; simp; intros W; try (exfalso; lia).
    16, 17: subst wb0; destruct wbo.
    all: apply holder_move; simp; intros.
    all: try (apply holder_trans; simp; rewrite ?pq_insert_in; auto; fail).
    all: try (apply holder_unf; simp; auto; fail).
    all: try (eapply holder_worker; simp; eassumption).
    all: try (eapply holder_upd; simp; try reflexivity; try eassumption; cbn; intros ? E;
              first [discriminate E|injection E as <-; eapply holder_worker; simp; [eapply nth_error_upd_eq; exact Hi|reflexivity]]).
    - (* seq0: the unfinished block goes to the collector *)
      eapply holder_worker; simp; [eapply nth_error_upd_eq; exact Hi|]. rewrite H. reflexivity.
    - (* transmit: so does the head of trans_q *)
      rewrite Hq in H. destruct H as [<-|H]; [|apply holder_trans; simp; exact H].
      eapply holder_worker; simp; [eapply nth_error_upd_eq; exact Hi|reflexivity].
    - (* encode: the block goes to trans_q *)
      eapply holder_upd; simp; try reflexivity; try eassumption. cbn. intros ? [= <-].
      apply holder_trans. simp. apply pq_insert_in. auto.
    - (* a block that is not full becomes the unfinished one *)
      destruct (only_seq I Hi eq_refl) as (_ & Eu & _). congruence.
    - eapply holder_upd; simp; try reflexivity; try eassumption. cbn. intros ? [= <-]. apply holder_unf. reflexivity.
  Qed.

  Lemma unit_step s e s' : Inv s -> TInv s -> QInv s -> 0 < nw s -> Step s e s' ->
    work_units s' = 0 -> forall ib, In ib (coll_q s') -> exists p, holder_pos s' p /\ plt p (ib_pos ib).
  Proof.
    intros I T Q N H W ib0 Hib. pose proof (q_unit Q) as U. pose proof (q_sc Q) as Sc.
    (* if no unit is taken and the chunk was queued before: its old witness *)
    assert (Old : work_units s = 0 -> In ib0 (coll_q s) -> exists p, holder_pos s' p /\ plt p (ib_pos ib0)).
    { intros W0 Hin. destruct (U W0 ib0 Hin) as (p & Hp & Lp). exists p. split; [|exact Lp].
      eapply holder_step; eauto. lia. }
    pose proof (holder_step I H) as Tr.
    revert W Hib Old Tr. Step_cases H; simp; intros W Hib Old Tr; try discriminate W.
    all: try (apply pq_insert_in in Hib; destruct Hib as [->|Hib]).
    all: try (apply Old; assumption).
    - (* collect: the taker of the head is before the rest *)
      exists (ib_pos ib). split; [eapply holder_worker; simp; [eapply nth_error_upd_eq; exact Hi|reflexivity]|].
      rewrite Hq in Sc. eapply ksorted_head_min; eauto.
    - (* collect_seq: likewise, unless it continues the unfinished block *)
      destruct (coll_q s) as [|ib q] eqn:Ec; [destruct Hib|]. cbn [tl] in Hib.
      destruct (unfinished s) as [w|] eqn:Eu; subst wub; cbn in W.
      + apply Old; [exact W|right; exact Hib].
      + exists (ib_pos ib). split; [eapply holder_worker; simp; [eapply nth_error_upd_eq; exact Hi|reflexivity]|].
        eapply ksorted_head_min; eauto.
    - (* a remainder is queued behind the block that was cut from its chunk *)
      exists (ib_pos ib). split; [eapply holder_worker; simp; [eapply nth_error_upd_eq; exact Hi|reflexivity]|].
      apply plt_minor_succ.
    - exists (wb_pos wb0). split; [eapply holder_worker; simp; [eapply nth_error_upd_eq; exact Hi|reflexivity]|].
      cbn. eapply ple_plt_trans; [|apply plt_minor_succ]. subst wb0. destruct wbo as [w|]; [|apply ple_refl].
      pose proof (u_adj (tinv_useq I T Hi eq_refl) Hi) as [_ Us]. rewrite <- (Us _ eq_refl). right.
      apply (tiling_in _ _ _ (iv_wb w) (t_tile T)), (in_items_pc Hi). left; reflexivity.
    - (* a chunk that is read comes after every block under way *)
      destruct (some_holder I Q N W) as (p & Hp). exists p. split; [|cbn; eapply holder_below_end; eauto].
      apply Tr; [lia|exact Hp].
  Qed.

  Lemma qinv_step s e s' : Inv s -> TInv s -> QInv s -> 0 < nw s -> step s e = Some s' -> QInv s'.
  Proof.
    intros I T Q N H. pose proof (inv_step I H) as I'. pose proof (tinv_step I T H) as T'. apply step_Step in H.
    destruct (sorted_step T' Q H) as (S1 & S2 & S3).
    constructor; eauto using reserve_step, kseq_step, unit_step.
  Qed.

  Lemma reach_qinv n u l inp s : 1 <= n -> reachable n u l inp s -> QInv s.
  Proof.
    intros N. revert s. apply reachable_ind; [apply qinv_init|].
    intros s e s' R Q H. destruct (reachable_inv R) as (I & _ & En & _).
    eapply qinv_step; eauto using reach_tinv. lia.
  Qed.

  (* an event that is not an idle (spurious) wake-up *)
  Definition productive (s : state) (e : tid) : bool :=
    match e with
    | TW i => match nth_error (workers s) i with Some PWait => 0 <? wakeups s | _ => true end
    | _ => true
    end.

  Lemma worker_enabled (s : state) i pc : lock s = None -> nth_error (workers s) i = Some pc ->
    pc <> PRun (KSeq None None) -> awake_of pc = 1 \/ pc = PWait ->
    exists s', step s (TW i) = Some s'.
  Proof.
    intros L Hi Nk Hp. unfold SchedC.step, SchedC.step_obs, worker_step. rewrite Hi.
    pose proof (proj2 (lock_free_true s) L) as Lf.
    destruct pc as [| | | |[t|ib|wb|wbo ibo|wb d|wb]]; cbn in Hp; try (destruct Hp; discriminate); try lia;
      unfold seg_step; cbn [new_wblk wb_enc wb_pos wb_next]; rewrite ?Lf; try (eexists; reflexivity).
    - destruct (collect enc_empty (ib_data ib)) as [[e d] f]. destruct (0 <? data_len d)%N; rewrite ?Lf; eexists; reflexivity.
    - destruct ibo as [ib|].
      + set (wb0 := match wbo with Some wb => wb | None => new_wblk enc_empty ib end).
        assert (Hw : match wbo, Some ib with
                     | Some wb, _ => Some wb | None, Some ib => Some (new_wblk enc_empty ib) | None, None => None
                     end = Some wb0) by (destruct wbo; reflexivity).
        rewrite Hw. destruct (collect (wb_enc wb0) (ib_data ib)) as [[e d] f].
        destruct (0 <? data_len d)%N; rewrite ?Lf; eexists; reflexivity.
      + destruct wbo as [wb|]; [|congruence]. eexists; reflexivity.
    - destruct d; eexists; reflexivity.
  Qed.

  Lemma all_wait (ws : list wpcs) : sumf wait_of ws = length ws -> forall pc, In pc ws -> pc = PWait.
  Proof.
    induction ws as [|p ws IH]; intros H pc I; [destruct I|]. rewrite sumf_cons in H. cbn [length] in H.
    assert (B : forall l : list wpcs, sumf wait_of l <= length l).
    { induction l as [|q l IHl]; [unfold sumf; cbn; lia|]. rewrite sumf_cons. cbn [length].
      destruct q as [| | | |[]]; cbn; lia. }
    pose proof (B ws). destruct I as [<-|I]; [|apply IH; auto; destruct p as [| | | |[]]; cbn in *; lia].
    destruct p as [| | | |[]]; cbn in *; try lia. reflexivity.
  Qed.

  Lemma select_none_not_ready (s : state) t : select s = None -> ready s t <> true.
  Proof.
    unfold select, select_first. intros H. rewrite (find_none _ _ H t (all_tasks_listed t)). discriminate.
  Qed.

  Lemma quiescent_false (s : state) : Inv s -> Inv2 s -> TInv s -> QInv s -> NL s -> 1 <= nw s ->
    lock s = None -> sumf awake_of (workers s) = 0 -> wakeups s = 0 ->
    (rd s = RIdle /\ in_slots s = 0 \/ rd s = RDone) ->
    (wr s = SIdle /\ output_q s = [] /\ finish s = false \/ wr s = SDone) ->
    ~ (forallb (@is_exit _) (workers s) = true /\ finish s = false /\ rd s = RDone) ->
    final s = false -> False.
  Proof.
    intros I J T Q Hnl N L Aw Wk Hrd Hwr Hmain NF.
    pose proof (sum_classes (workers s)) as Cl. pose proof (i_hold I) as Ih. rewrite L in Ih. cbn in Ih.
    pose proof (i_len I) as Il.
    destruct (Nat.eq_dec (sumf exited_of (workers s)) 0) as [Ex|Ex].
    2:{ (* some worker has exited: the process has finished, so all have, and main or the writer can go on *)
      destruct (sumf_pos_ex exited_of (workers s) ltac:(lia)) as (j & pc & Hj & Hp).
      assert (pc = PExit) by (destruct pc as [| | | |[]]; cbn in Hp; try lia; reflexivity). subst pc.
      pose proof (j_exit J Hj) as Fin. destruct (finished_facts I Fin) as (Fe & _).
      assert (Wz : sumf wait_of (workers s) = 0).
      { destruct (Nat.eq_dec (sumf wait_of (workers s)) 0) as [|Wn]; auto. exfalso.
        destruct (Hnl L) as [U|U]; [right; split; [exact Fin|lia]|lia|lia]. }
      assert (Hall : forallb (@is_exit _) (workers s) = true).
      { apply forallb_nth. intros k pc Hk.
        pose proof (sumf_ge_nth hold_of _ _ _ Hk). pose proof (sumf_ge_nth wait_of _ _ _ Hk).
        pose proof (sumf_ge_nth awake_of _ _ _ Hk).
        destruct pc as [| | | |[]]; cbn in *; try lia; reflexivity. }
      assert (Erd : rd s = RDone).
      { rewrite (j_eof J) in Fe. destruct (rd s); try discriminate. reflexivity. }
      destruct (finish s) eqn:Ef; [|apply Hmain; auto].
      destruct Hwr as [(_ & _ & Hf)|Hwd]; [congruence|].
      unfold final in NF. rewrite Hall, Erd, Hwd in NF. discriminate NF. }
    (* nobody has exited: every worker waits, nothing is ready, not finished *)
    assert (Wn : sumf wait_of (workers s) = length (workers s)) by lia.
    pose proof (all_wait Wn) as Allw.
    assert (Hn : is_some (next_task s) = false).
    { destruct (is_some (next_task s)) eqn:E1; auto. exfalso. destruct (Hnl L (or_introl E1)); lia. }
    assert (Hf : finished s <> true).
    { intros E2. destruct (Hnl L) as [U|U]; [right; split; [exact E2|lia]|lia|lia]. }
    assert (Sel : select s = None).
    { rewrite <- (i_nt I). destruct (next_task s); [discriminate Hn|reflexivity]. }
    destruct Hwr as [(Ew & Eq & Efin)|Hwd].
    2:{ destruct (j_wr J) as [F _]; [rewrite Hwd; reflexivity|].
        pose proof (j_finish J F) as Hall. rewrite forallb_forall in Hall.
        destruct (workers s) as [|pc ws] eqn:Ews; [cbn in Il; lia|].
        specialize (Hall pc (or_introl eq_refl)). rewrite (Allw pc (or_introl eq_refl)) in Hall. discriminate Hall. }
    (* workers hold nothing *)
    assert (Zf : forall f : wpcs -> nat, f PWait = 0 -> sumf f (workers s) = 0).
    { intros f Hf0. apply sumf_all_zero. intros x Hx. rewrite (Allw x Hx). exact Hf0. }
    pose proof (i_units I) as Hu. pose proof (i_in I) as Hi. pose proof (i_out I) as Ho. pose proof (i_tok I) as Htk.
    rewrite (Zf units_of eq_refl) in Hu. rewrite (Zf in_of eq_refl) in Hi.
    rewrite (Zf out_of eq_refl), Ew, Eq in Ho. cbn [length wr_out] in Ho. rewrite (Zf seq_of eq_refl) in Htk.
    assert (Tok : collect_token s = true) by (destruct (collect_token s); [reflexivity|cbn in Htk; lia]).
    assert (Wi : flat_map items_pc (workers s) = []).
    { apply items_pc_none. intros p Hp. rewrite (Allw p Hp). reflexivity. }
    pose proof (t_tile T) as Ti.
    assert (Bnd : forall x, In x (items s) -> ple (order s) (fst x)) by (intros x Hx; apply (tiling_in _ _ _ _ Ti Hx)).
    (* the reader has stopped for lack of a slot, or for good *)
    assert (Rd : length (coll_q s) = 0 -> eof s = true).
    { intros Ec. rewrite (j_eof J). destruct Hrd as [(Erd & Ein)|Erd]; [|rewrite Erd; reflexivity].
      rewrite Erd, Ein, Ec in Hi. pose proof (total_in_pos N). cbn in Hi. lia. }
    assert (Hdec : items s = [] \/ items s <> []) by (destruct (items s); [left; reflexivity|right; discriminate]).
    destruct Hdec as [Eit|Nit].
    { (* nothing in flight: the process has finished *)
      unfold items in Eit. rewrite Wi, app_nil_r in Eit.
      destruct (coll_q s) eqn:Ec; [|discriminate Eit]. destruct (trans_q s) eqn:Et; [|discriminate Eit].
      destruct (reord_q s) eqn:Er; [|discriminate Eit]. destruct (unfinished s) eqn:Eu; [discriminate Eit|].
      apply Hf, finished_iff. rewrite Ec. cbn in *. repeat split; auto; lia. }
    destruct (tiling_nonempty_head _ _ _ Ti Nit) as [b Hb].
    unfold items in Hb. rewrite Wi, app_nil_r, !in_app_iff, !in_map_iff in Hb.
    destruct Hb as [(ib & Eib & Iib)|[(wb & Ewb & Iwb)|[(wb & Ewb & Iwb)|Hb]]].
    - (* the item at [order] is a queued chunk: a work unit must be free *)
      assert (Ep : ib_pos ib = order s) by (unfold iv_ib in Eib; congruence).
      destruct (sorted_head_at _ _ _ _ (q_sc Q) Iib Ep) as (h & t & Ec & Eh).
      { intros y Hy. apply (Bnd (iv_ib y)), in_items_coll, Hy. }
      assert (W0 : work_units s = 0).
      { pose proof (select_none_not_ready (t:=T_collect) Sel) as N1. pose proof (select_none_not_ready (t:=T_collect_seq) Sel) as N2.
        rewrite ready_collect_iff in N1. rewrite ready_seq_iff in N2. rewrite Ec in *.
        destruct (work_units s); [reflexivity|exfalso]. destruct (ultra s).
        - apply N2. repeat split; auto; left; [discriminate|lia].
        - apply N1. repeat split; [discriminate|lia]. }
      destruct (q_unit Q W0 (ib:=h)) as (p & Hp & Hlt); [rewrite Ec; left; reflexivity|]. rewrite Eh in Hlt.
      destruct (holder_in_items Hp) as [b' Ib]. apply Bnd in Ib. eapply plt_irrefl, plt_ple_trans; eauto.
    - (* it waits in trans_q: an output slot must be available *)
      assert (Ep : wb_pos wb = order s) by (unfold iv_wb in Ewb; congruence).
      destruct (sorted_head_at _ _ _ _ (q_st Q) Iwb Ep) as (h & t & Et & Eh).
      { intros y Hy. apply (Bnd (iv_wb y)), in_items_trans, Hy. }
      pose proof (select_none_not_ready (t:=T_transmit) Sel) as Nr. rewrite ready_transmit_spec, Et in Nr.
      pose proof (q_res Q) as Res. unfold reserve in Res.
      rewrite (Zf (le_order_pc (order s)) eq_refl), Eq, Ew in Res. cbn in Res. pose proof thresh_pos as Tp.
      assert (Hle : 0 < le_order_q (order s) (reord_q s)) by (destruct (out_slots s); [lia|exfalso; apply Nr; right; split; [lia|exact Eh]]).
      unfold le_order_q in Hle.
      destruct (filter (fun wb0 => pos_le (wb_pos wb0) (order s)) (reord_q s)) as [|w2 r2] eqn:Ef; [cbn in Hle; lia|].
      assert (I2 : In w2 (filter (fun wb0 => pos_le (wb_pos wb0) (order s)) (reord_q s))) by (rewrite Ef; left; reflexivity).
      apply filter_In in I2. destruct I2 as [I2 L2]. apply pos_le_spec in L2.
      assert (E2 : wb_pos w2 = order s) by (apply ple_antisym; [exact L2|apply (Bnd (iv_wb w2)), in_items_reord, I2]).
      (* two live items start at [order] *)
      pose proof (in_items_trans Iwb) as A1. pose proof (in_items_reord I2) as A2.
      unfold iv_wb in A1, A2. rewrite Ep in A1. rewrite E2 in A2.
      pose proof (tiling_distinct _ _ _ _ _ _ Ti A1 A2) as Eb.
      pose proof (tiling_once _ _ _ (order s, wb_next wb) Ti) as Once.
      assert (2 <= cnt (order s, wb_next wb) (items s)); [|lia].
      unfold items. rewrite !cnt_app.
      assert (0 < cnt (order s, wb_next wb) (map iv_wb (trans_q s))).
      { apply cnt_pos_in. apply in_map_iff. exists wb. split; auto. unfold iv_wb. congruence. }
      assert (0 < cnt (order s, wb_next wb) (map iv_wb (reord_q s))).
      { apply cnt_pos_in. apply in_map_iff. exists w2. split; auto. unfold iv_wb. congruence. }
      lia.
    - (* it waits in reord_q: reorder is ready *)
      assert (Ep : wb_pos wb = order s) by (unfold iv_wb in Ewb; congruence).
      destruct (sorted_head_at _ _ _ _ (q_sr Q) Iwb Ep) as (h & t & Er & Eh).
      { intros y Hy. apply (Bnd (iv_wb y)), in_items_reord, Hy. }
      apply (select_none_not_ready (t:=T_reorder) Sel). rewrite ready_reorder_spec, Er. exact Eh.
    - (* it is the unfinished block of --sequential mode: more input must be on its way *)
      destruct (unfinished s) as [w|] eqn:Eu; [|destruct Hb].
      destruct (ultra s) eqn:Eul; [|destruct (t_def T Eul); congruence].
      apply (select_none_not_ready (t:=T_collect_seq) Sel). rewrite ready_seq_iff, Eu.
      repeat split; auto; [|right; discriminate].
      destruct (coll_q s) eqn:Ec; [right; split; [apply Rd; reflexivity|discriminate]|left; discriminate].
  Qed.

  Lemma reader_stuck (s : state) : lock s = None -> (forall k, rd s <> RRun k) -> step s TR = None ->
    rd s = RIdle /\ in_slots s = 0 \/ rd s = RDone.
  Proof.
    intros L Hr. unfold SchedC.step, SchedC.step_obs, reader_step. rewrite (proj2 (lock_free_true s) L).
    destruct (rd s) as [| |k| |]; [destruct (in_slots s)|destruct (input s) as [|d r]; [|destruct (data_len d =? 0)%N]|destruct (Hr k)|..];
      cbn; auto; discriminate.
  Qed.

  Lemma writer_stuck (s : state) : lock s = None -> (forall k, wr s <> SRun k) -> step s TS = None ->
    wr s = SIdle /\ output_q s = [] /\ finish s = false \/ wr s = SDone.
  Proof.
    intros L Hw. unfold SchedC.step, SchedC.step_obs, writer_step. rewrite (proj2 (lock_free_true s) L).
    destruct (wr s) as [|b|k|]; [destruct (output_q s); [destruct (finish s)|]| |destruct (Hw k)|]; cbn; auto; discriminate.
  Qed.

  Lemma main_stuck (s : state) : step s TM = None ->
    ~ (forallb (@is_exit _) (workers s) = true /\ finish s = false /\ rd s = RDone).
  Proof.
    unfold SchedC.step, SchedC.step_obs, main_step. intros H (H1 & H2 & H3). rewrite H1, H2, H3 in H. discriminate H.
  Qed.

  Theorem progress_inv (s : state) : Inv s -> Inv2 s -> TInv s -> QInv s -> NL s -> 1 <= nw s ->
    (forall k, rd s <> RRun k) -> (forall k, wr s <> SRun k) ->
    final s = false -> exists e s', step s e = Some s' /\ productive s e = true.
  Proof.
    intros I J T Q Hnl N Hrr Hsr NF.
    destruct (lock s) as [t|] eqn:L.
    { (* the holder of the mutex can always go on *)
      destruct (i_lock I L) as (i & p & -> & Hi & Hp). exists (TW i).
      unfold SchedC.step, SchedC.step_obs, worker_step, productive. rewrite Hi.
      pose proof (proj2 (holds_true s (TW i)) L) as Hh.
      destruct p as [| | | |[t|ib|wb|wbo ibo|wb d|wb]]; try discriminate Hp.
      - rewrite Hh. destruct (next_task s); [|destruct (finished s)]; eexists; split; reflexivity.
      - unfold seg_step. rewrite Hh. destruct (seg_start s i t). eexists; split; reflexivity. }
    pose proof (sum_classes (workers s)) as Cl. pose proof (i_hold I) as Ih. rewrite L in Ih. cbn in Ih.
    pose proof (i_len I) as Il. pose proof (i_wake I) as Iw.
    (* an awake worker *)
    destruct (Nat.eq_dec (sumf awake_of (workers s)) 0) as [Aw|Aw].
    2:{ destruct (sumf_pos_ex awake_of (workers s) ltac:(lia)) as (j & pc & Hj & Hp).
        assert (Hp1 : awake_of pc = 1) by (destruct pc as [| | | |[]]; cbn in *; lia).
        assert (Nk : pc <> PRun (KSeq None None)) by (intros ->; exact (q_kseq Q Hj)).
        destruct (worker_enabled L Hj Nk (or_introl Hp1)) as [s' Hs].
        exists (TW j), s'. split; auto. unfold productive. rewrite Hj. destruct pc; auto; discriminate. }
    (* a signalled waiter *)
    destruct (Nat.eq_dec (wakeups s) 0) as [Wk|Wk].
    2:{ destruct (sumf_pos_ex wait_of (workers s) ltac:(lia)) as (j & pc & Hj & Hp).
        assert (pc = PWait) by (destruct pc as [| | | |[]]; cbn in Hp; try lia; reflexivity). subst pc.
        destruct (worker_enabled L Hj ltac:(discriminate) (or_intror eq_refl)) as [s' Hs].
        exists (TW j), s'. split; auto. unfold productive. rewrite Hj. apply Nat.ltb_lt. lia. }
    (* the reader, the writer, main; if all three are blocked the state is quiescent *)
    destruct (step s TR) as [s'|] eqn:Er; [exists TR, s'; auto|].
    destruct (step s TS) as [s'|] eqn:Es; [exists TS, s'; auto|].
    destruct (step s TM) as [s'|] eqn:Em; [exists TM, s'; auto|].
    exfalso. eapply (quiescent_false I J T Q Hnl N L Aw Wk); eauto using reader_stuck, writer_stuck, main_stuck.
  Qed.

  Lemma norun n u l inp s : reachable n u l inp s -> (forall k, rd s <> RRun k) /\ (forall k, wr s <> SRun k).
  Proof.
    revert s. apply reachable_ind; [split; discriminate|].
    intros s e s' _ [A B] H. apply step_Step in H.
    destruct H; simp; split; intros k; try apply A; try apply B; try discriminate.
    all: destruct (data_len d <? in_granul (lvl s))%N; discriminate.
  Qed.

  (* C11_progress: every reachable non-final state has an enabled productive event:
     the compression scheduler cannot deadlock *)
  Theorem c11_progress n u l inp s : 1 <= n -> reachable n u l inp s -> final s = false ->
    exists e s', step s e = Some s' /\ productive s e = true.
  Proof.
    intros N R NF. destruct (norun R) as [Hrr Hsr]. destruct (reachable_inv R) as (I & J & En & _).
    apply progress_inv; eauto using reach_tinv, reach_qinv, c11_no_lost_wakeup. lia.
  Qed.
End Prog.

(* the static priorities documented in process.c ("JOB SCHEDULING") and DESIGN.md:
   collect_seq, then reorder (hand a finished block to the writer as early as
   possible), then transmit, then collect *)
Definition prio (t : task) : nat :=
  match t with T_collect_seq => 0 | T_reorder => 1 | T_transmit => 2 | T_collect => 3 end.

(* side condition on the regenerated task_list[] order *)
Lemma task_order_by_prio : map prio task_order = [0; 1; 2; 3].
Proof. reflexivity. Qed.

Lemma find_first_sorted (f : task -> bool) l t :
  StronglySorted (fun a b => prio a < prio b) l -> find f l = Some t ->
  forall t', In t' l -> prio t' < prio t -> f t' = false.
Proof.
  induction l as [|x l IH]; intros S H t' I L; [destruct I|].
  apply StronglySorted_inv in S. destruct S as [S1 S2]. rewrite Forall_forall in S2.
  cbn [find] in H. destruct (f x) eqn:Ex.
  - injection H as Ht. subst x. destruct I as [It|It].
    + subst t'. lia.
    + specialize (S2 _ It). lia.
  - destruct I as [It|It].
    + subst t'. exact Ex.
    + eapply IH; eauto.
Qed.

(* select_task() picks the ready task of highest static priority *)
Theorem c11_priority Data Enc (s : state Data Enc) t : next_task s = Some t -> Inv s ->
  forall t', prio t' < prio t -> ready s t' = false.
Proof.
  intros H I t' L. rewrite (i_nt I) in H. unfold select, select_first in H.
  eapply find_first_sorted; eauto; [|apply all_tasks_listed].
  unfold task_order. repeat constructor; cbn; lia.
Qed.
