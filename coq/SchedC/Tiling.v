(* Interval chains: the live items of the compression scheduler, ordered by
   position, tile the stream from [order] to the position of the next chunk to be
   read.  Multisets of intervals are compared by occurrence counts, so that moving
   an item between queues and worker continuations is linear arithmetic. *)
From Coq Require Import List NArith Arith Bool Lia Sorted.
From LBZ Require Import SchedC.SchedCIface SchedC.Pool SchedC.PoolLemmas.
Import ListNotations.

Definition ival := (pos * pos)%type.

Lemma pos_eq_dec (a b : pos) : {a = b} + {a <> b}.
Proof. decide equality; apply N.eq_dec. Defined.

Lemma ival_dec (a b : ival) : {a = b} + {a <> b}.
Proof. decide equality; apply pos_eq_dec. Defined.

Definition cnt (x : ival) (l : list ival) : nat := count_occ ival_dec l x.

Lemma cnt_app x l1 l2 : cnt x (l1 ++ l2) = cnt x l1 + cnt x l2.
Proof. apply count_occ_app. Qed.

Lemma cnt_cons x y l : cnt x (y :: l) = (if ival_dec y x then 1 else 0) + cnt x l.
Proof. unfold cnt. cbn. destruct (ival_dec y x); reflexivity. Qed.

Lemma cnt_nil x : cnt x [] = 0.
Proof. reflexivity. Qed.

Lemma cnt_pos_in x l : 0 < cnt x l <-> In x l.
Proof. unfold cnt. split; intros H; [apply (count_occ_In ival_dec); lia|apply (count_occ_In ival_dec) in H; lia]. Qed.

Lemma cnt_self x : cnt x [x] = 1.
Proof. rewrite cnt_cons. destruct (ival_dec x x); [reflexivity|congruence]. Qed.

Fixpoint chain (p : pos) (l : list ival) (q : pos) : Prop :=
  match l with
  | [] => p = q
  | (a, b) :: r => a = p /\ plt a b /\ chain b r q
  end.

Lemma chain_app p l1 l2 q : chain p (l1 ++ l2) q <-> exists m, chain p l1 m /\ chain m l2 q.
Proof.
  revert p. induction l1 as [|[a b] l1 IH]; intros p; cbn.
  - split; [intros H; exists p; auto|intros (m & -> & H); auto].
  - rewrite IH. split.
    + intros (H1 & H2 & m & H3 & H4). exists m. auto.
    + intros (m & (H1 & H2 & H3) & H4). repeat split; auto. exists m; auto.
Qed.

Lemma chain_le p l q : chain p l q -> ple p q.
Proof.
  revert p. induction l as [|[a b] l IH]; cbn; intros p H.
  - subst. apply ple_refl.
  - destruct H as (-> & H1 & H2). right. eapply plt_ple_trans; eauto.
Qed.

Lemma chain_in_bounds p l q a b : chain p l q -> In (a, b) l -> ple p a /\ plt a b /\ ple b q.
Proof.
  revert p. induction l as [|[a' b'] l IH]; cbn; intros p H I; [tauto|].
  destruct H as (-> & H1 & H2). destruct I as [E|I].
  - injection E as -> ->. repeat split; auto. apply ple_refl. eapply chain_le; eauto.
  - destruct (IH _ H2 I) as (A & B & C). repeat split; auto.
    right. eapply plt_ple_trans; eauto.
Qed.

Lemma chain_head_unique p l q a b : chain p l q -> In (a, b) l -> a = p ->
  exists r, l = (a, b) :: r.
Proof.
  destruct l as [|[a' b'] l]; cbn; intros H I E; [tauto|].
  destruct H as (-> & H1 & H2). destruct I as [I|I].
  - injection I as -> ->. eexists; reflexivity.
  - exfalso. destruct (chain_in_bounds _ _ _ _ _ H2 I) as (A & _). subst a.
    eapply plt_irrefl. eapply plt_ple_trans; eauto.
Qed.

Lemma chain_start_unique p l q a b b' : chain p l q -> In (a, b) l -> In (a, b') l -> b = b'.
Proof.
  revert p. induction l as [|[x y] l IH]; cbn; intros p H I1 I2; [tauto|].
  destruct H as (-> & H1 & H2).
  destruct I1 as [E1|I1]; destruct I2 as [E2|I2].
  - congruence.
  - injection E1 as -> ->. exfalso. destruct (chain_in_bounds _ _ _ _ _ H2 I2) as (A & _).
    eapply plt_irrefl. eapply plt_ple_trans; eauto.
  - injection E2 as -> ->. exfalso. destruct (chain_in_bounds _ _ _ _ _ H2 I1) as (A & _).
    eapply plt_irrefl. eapply plt_ple_trans; eauto.
  - eapply IH; eauto.
Qed.

Definition Tiling (p : pos) (l : list ival) (q : pos) : Prop :=
  exists l', (forall x, cnt x l' = cnt x l) /\ chain p l' q.

Lemma tiling_congr p l1 l2 q : (forall x, cnt x l1 = cnt x l2) -> Tiling p l1 q -> Tiling p l2 q.
Proof. intros E (l' & C & H). exists l'. split; auto. intros x. rewrite C. apply E. Qed.

Lemma tiling_in p l q x : Tiling p l q -> In x l -> ple p (fst x) /\ plt (fst x) (snd x) /\ ple (snd x) q.
Proof.
  intros (l' & C & H) I. destruct x as [a b]. apply (chain_in_bounds p l' q); auto.
  apply cnt_pos_in. rewrite C. apply cnt_pos_in; auto.
Qed.

Lemma tiling_nil p q : Tiling p [] q -> p = q.
Proof.
  intros (l' & C & H). destruct l' as [|x l']; [exact H|].
  specialize (C x). rewrite cnt_cons in C. destruct (ival_dec x x); [cbn in C; lia|congruence].
Qed.

Lemma tiling_nonempty_head p l q : Tiling p l q -> l <> [] -> exists b, In (p, b) l.
Proof.
  intros (l' & C & H) N. destruct l' as [|[a b] l'].
  - destruct l as [|x l]; [congruence|]. specialize (C x). rewrite cnt_cons, cnt_nil in C.
    destruct (ival_dec x x); [lia|congruence].
  - cbn in H. destruct H as (-> & _). exists b. apply cnt_pos_in. rewrite <- C, cnt_cons.
    destruct (ival_dec (p, b) (p, b)); [lia|congruence].
Qed.

Lemma tiling_distinct p l q a b b' : Tiling p l q -> In (a, b) l -> In (a, b') l -> b = b'.
Proof.
  intros (l' & C & H) I1 I2. apply (chain_start_unique p l' q a); auto; apply cnt_pos_in; rewrite C; apply cnt_pos_in; auto.
Qed.

Lemma tiling_once p l q x : Tiling p l q -> cnt x l <= 1.
Proof.
  intros (l' & C & H). rewrite <- C. clear C. revert p H. induction l' as [|[a b] l' IH]; intros p H.
  - cbn. lia.
  - cbn in H. destruct H as (-> & H1 & H2). rewrite cnt_cons. destruct (ival_dec (p, b) x) as [<-|N].
    + assert (cnt (p, b) l' = 0); [|lia].
      destruct (cnt (p, b) l') eqn:E; auto. exfalso.
      assert (I : In (p, b) l') by (apply cnt_pos_in; lia).
      destruct (chain_in_bounds _ _ _ _ _ H2 I) as (A & _). cbn in A.
      eapply plt_irrefl. eapply plt_ple_trans; eauto.
    + specialize (IH _ H2). lia.
Qed.

Lemma tiling_snoc p l q q' l2 : Tiling p l q -> plt q q' ->
  (forall x, cnt x l2 = cnt x l + cnt x [(q, q')]) -> Tiling p l2 q'.
Proof.
  intros (l' & C & H) L E. exists (l' ++ [(q, q')]). split.
  - intros x. rewrite cnt_app, C, E. reflexivity.
  - apply chain_app. exists q. split; auto. cbn. auto.
Qed.

Lemma tiling_split p l q l2 a b c : Tiling p l q -> plt a b -> plt b c -> In (a, c) l ->
  (forall x, cnt x l2 + cnt x [(a, c)] = cnt x l + cnt x [(a, b); (b, c)]) -> Tiling p l2 q.
Proof.
  intros (l' & C & H) L1 L2 I E.
  assert (I' : In (a, c) l') by (apply cnt_pos_in; rewrite C; apply cnt_pos_in; auto).
  destruct (in_split _ _ I') as (l1 & l3 & ->).
  apply chain_app in H. destruct H as (m & H1 & H2). cbn in H2. destruct H2 as (-> & _ & H3).
  exists (l1 ++ (m, b) :: (b, c) :: l3). split.
  - intros x. specialize (C x). specialize (E x).
    repeat rewrite ?cnt_app, ?cnt_cons, ?cnt_nil in *. lia.
  - apply chain_app. exists m. split; auto. cbn. auto.
Qed.

Lemma tiling_pop p l q b l2 : Tiling p l q -> In (p, b) l ->
  (forall x, cnt x l2 + cnt x [(p, b)] = cnt x l) -> Tiling b l2 q.
Proof.
  intros (l' & C & H) I E.
  assert (I' : In (p, b) l') by (apply cnt_pos_in; rewrite C; apply cnt_pos_in; auto).
  destruct (chain_head_unique _ _ _ _ _ H I' eq_refl) as (r & ->).
  cbn in H. destruct H as (_ & _ & H). exists r. split; auto.
  intros x. specialize (C x). specialize (E x). repeat rewrite ?cnt_cons, ?cnt_nil in *. lia.
Qed.

Lemma chain_adjacent p l q a b c : chain p l q -> In (a, b) l -> In (b, c) l ->
  exists l1 r, l = l1 ++ (a, b) :: (b, c) :: r /\ chain p l1 a /\ plt a b /\ plt b c /\ chain c r q.
Proof.
  intros H I1 I2. destruct (in_split _ _ I1) as (l1 & l3 & ->).
  apply chain_app in H. destruct H as (m & H1 & H2). cbn in H2. destruct H2 as (-> & Lab & H3).
  apply in_app_or in I2. destruct I2 as [I2|[I2|I2]].
  - exfalso. destruct (chain_in_bounds _ _ _ _ _ H1 I2) as (_ & Lbc & Lc).
    eapply plt_irrefl. eapply plt_trans; [exact Lab|]. eapply plt_ple_trans; eauto.
  - injection I2 as <- <-. exfalso. eapply plt_irrefl; eauto.
  - destruct (chain_head_unique _ _ _ _ _ H3 I2 eq_refl) as (r & ->).
    cbn in H3. destruct H3 as (_ & Lbc & H4). exists l1, r. auto.
Qed.

(* replace adjacent (a,b),(b,c) by another chain from a to c: the single interval
   (a,c), or the same two with the cut moved *)
Lemma tiling_recut p l q l2 a b c new : Tiling p l q -> In (a, b) l -> In (b, c) l -> chain a new c ->
  (forall x, cnt x l2 + cnt x [(a, b); (b, c)] = cnt x l + cnt x new) -> Tiling p l2 q.
Proof.
  intros (l' & C & H) I1 I2 N E.
  destruct (chain_adjacent p l' q a b c) as (l1 & r & -> & H1 & _ & _ & H2); auto;
    try (apply cnt_pos_in; rewrite C; apply cnt_pos_in; assumption).
  exists (l1 ++ new ++ r). split.
  - intros x. specialize (C x). specialize (E x). repeat rewrite ?cnt_app, ?cnt_cons, ?cnt_nil in *. lia.
  - apply chain_app. exists a. split; auto. apply chain_app. exists c. auto.
Qed.

Lemma chain_sorted p l q : chain p l q -> Sorted.StronglySorted (fun a b => plt (fst a) (fst b)) l.
Proof.
  revert p. induction l as [|[a b] l IH]; intros p H; constructor.
  - cbn in H. destruct H as (_ & _ & H). eapply IH; eauto.
  - cbn in H. destruct H as (-> & H1 & H2). apply Forall_forall. intros [c d] I.
    destruct (chain_in_bounds _ _ _ _ _ H2 I) as (A & _). cbn. eapply plt_ple_trans; eauto.
Qed.
