(* No wake-up is lost: whenever the mutex is free and there is something to do,
   a signal is pending for a waiting worker or a worker is on its way back to the
   scheduler on its own. *)
From Coq Require Import List NArith Arith Bool Lia.
From LBZ Require Import SchedC.SchedCIface Gen.SchedCTab SchedC.Pool SchedC.PoolLemmas SchedC.SchedC SchedC.SchedCInv.
Import ListNotations.
Set Implicit Arguments.
Unset Strict Implicit.

Section Live.
  Variable Data : Type.
  Variable Enc : Type.
  Variable data_len : Data -> N.
  Variable enc_empty : Enc.
  Variable collect : Enc -> Data -> Enc * Data * bool.

  Notation state := (state Data Enc).
  Notation cont := (cont Data Enc).
  Notation wpcs := (wpc cont).
  Notation step := (step data_len enc_empty collect).
  Notation reachable := (reachable data_len enc_empty collect).

  (* a worker that will come back to the scheduler on its own *)
  Definition awake_of (p : wpcs) : nat :=
    match p with PNew => 1 | PRun (KStart _) => 0 | PRun _ => 1 | _ => 0 end.
  Definition exited_of (p : wpcs) : nat := match p with PExit => 1 | _ => 0 end.

  (* C11_no_lost_wakeup: whenever the mutex is free and there is something to do
     (a task is ready, or the process has finished and a worker has not yet exited),
     some worker is on its way: a pending signal for a waiter, or a worker that is
     running unlocked code / has not started yet *)
  Definition NL (s : state) : Prop :=
    lock s = None ->
    (is_some (next_task s) = true \/ (finished s = true /\ sumf exited_of (workers s) < length (workers s))) ->
    0 < wakeups s \/ 0 < sumf awake_of (workers s).

  Lemma classes (p : wpcs) : hold_of p + wait_of p + awake_of p + exited_of p = 1.
  Proof. destruct p as [| | | |[]]; reflexivity. Qed.

  Lemma sum_classes (ws : list wpcs) :
    sumf hold_of ws + sumf wait_of ws + sumf awake_of ws + sumf exited_of ws = length ws.
  Proof.
    induction ws as [|p ws IH]; [reflexivity|]. rewrite !sumf_cons. cbn [length]. pose proof (classes p). lia.
  Qed.

  (* sched_unlock() signals if there is something to do (the regenerated condition) *)
  Lemma nl_unlock (X : state) : wakeups X <= sumf wait_of (workers X) ->
    (sumf wait_of (workers X) = 0 -> 0 < sumf awake_of (workers X)) -> NL (sched_unlock X).
  Proof.
    intros W A. unfold NL. rewrite sched_unlock_eq. simp. intros _ Pr.
    change (finished _) with (finished X) in Pr.
    assert (E : unlock_signal (is_some (select X)) (finished X) = true).
    { destruct Pr as [->|[-> _]]; [reflexivity|apply orb_true_r]. }
    unfold unlock_wakeups. rewrite E, signal_eq.
    destruct (sumf wait_of (workers X)); [right; auto|left; lia].
  Qed.

  (* while the reader or the writer still has to call sched_unlock(), a worker is left *)
  Lemma io_pending (s : state) : Inv s -> Inv2 s -> 0 < nw s -> lock s = None ->
    rd_done (rd s) = false \/ wr_out (wr s) = 1 ->
    sumf wait_of (workers s) = 0 -> 0 < sumf awake_of (workers s).
  Proof.
    intros I J Npos L Hio Wz. pose proof (sum_classes (workers s)) as Cl. pose proof (i_hold I) as Ih.
    rewrite L, (i_len I) in *. cbn in Ih.
    destruct (sumf awake_of (workers s)); [exfalso|lia].
    destruct (sumf_pos_ex exited_of (workers s)) as (j & pj & Hj & Hp); [lia|].
    destruct pj; try (cbn in Hp; lia).
    destruct (finished_facts I (j_exit J Hj)) as (Fe & _ & _ & _ & _ & _ & _ & _ & Fw & _).
    rewrite (j_eof J) in Fe. destruct Hio; congruence.
  Qed.

  Lemma nl_step s e s' : Inv s -> Inv2 s -> 0 < nw s -> NL s -> step s e = Some s' -> NL s'.
  Proof.
    intros I J Npos Hnl H. pose proof (i_wake I) as Iw. step_cases H.
    (* events that end with sched_unlock(): a worker is awake afterwards *)
    all: try (apply nl_unlock; simp; [try sums (@wait_of Data Enc); lia|]).
    all: try (intros _; eapply Nat.lt_le_trans; [|eapply (sumf_upd_ge awake_of); exact Hi]; cbn; lia).
    all: try (apply io_pending; auto; first [left; rewrite Hr; reflexivity|right; rewrite Hw; reflexivity]).
    (* events without the mutex that the scheduler does not see; the last two are
       the releases of an input buffer by a collector *)
    all: try exact Hnl.
    all: unfold NL; simp; intros Lk Pr; try discriminate Lk; try (rewrite L in Lk; discriminate Lk).
    - (* exit: every waiter is woken; who has neither exited nor waits is awake *)
      sums (@hold_of Data Enc); sums (@wait_of Data Enc); sums awake_of; sums exited_of.
      pose proof (sum_classes (upd (workers s) i PExit)) as Cl. pose proof (i_hold I) as Ih.
      rewrite upd_length in *. rewrite L in Ih. cbn in Ih. rewrite broadcast_eq.
      destruct Pr as [Pr|[_ Pr]]; [rewrite Hn in Pr; discriminate Pr|]. lia.
    - (* wait: nothing was ready and the process has not finished *)
      destruct Pr as [Pr|[Pr _]]; [rewrite Hn in Pr; discriminate Pr|].
      change (finished _) with (finished s) in Pr. congruence.
    - sums awake_of; sums exited_of. rewrite upd_length in Pr.
      destruct (Hnl Lk) as [U|U]; [|left; exact U|right; lia].
      destruct Pr as [Pr|[Pr1 Pr2]]; [left; exact Pr|right; split; [exact Pr1|lia]].
    - sums awake_of; sums exited_of. rewrite upd_length in Pr.
      destruct (Hnl Lk) as [U|U]; [|left; exact U|right; lia].
      destruct Pr as [Pr|[Pr1 Pr2]]; [left; exact Pr|right; split; [exact Pr1|lia]].
  Qed.

  Theorem c11_no_lost_wakeup n u l inp s : 1 <= n -> reachable n u l inp s -> NL s.
  Proof.
    intros N. revert s. apply reachable_ind.
    - intros _ _. right. change (workers (init Enc n u l inp)) with (repeat (@PNew cont) n).
      rewrite sumf_repeat. cbn [awake_of]. lia.
    - intros s e s' R Hnl H. destruct (reachable_inv R) as (I & J & <- & _). eapply nl_step; eauto.
  Qed.
End Live.

Arguments awake_of {Data Enc} p.
Arguments exited_of {Data Enc} p.
