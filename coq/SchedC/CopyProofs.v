(* Proofs about the -cdf pipeline model (Copy.v): xread() and xwrite() under any
   fragmentation; then the pipeline.  Its events are listed once, with their guards
   as premises ([CStep]).  The invariant has three parts, each kept by every kind
   of event: what the place of main() determines ([Ctl]), the conservation of the
   input and output slots and the one SIGUSR2 ([Slots]), and
   written ++ queued ++ just read ++ unread = input ([Data]).  The C19 statements
   are read off it; progress also needs the guards in the other direction
   ([reader_enabled], [writer_enabled], [main_enabled]). *)
From Coq Require Import List NArith ZArith Arith Bool Lia.
From LBZ Require Import SchedC.SchedCIface Gen.SchedCTab SchedC.Pool SchedC.Copy.
Import ListNotations.

Section XReadProofs.
  Variable A : Type.

  (* xread() stores exactly the next min(vacant, remaining) bytes, whatever the
     fragmentation of read() *)
  Theorem xread_fills (vacant : nat) (frag : list nat) (rest acc : list A) :
    exists frag',
      xread vacant frag rest acc =
      (acc ++ firstn vacant rest, vacant - length (firstn vacant rest), frag', skipn vacant rest).
  Proof.
    revert vacant rest acc. induction frag as [|f fr IH]; intros vacant rest acc.
    - exists []. destruct vacant; [cbn; rewrite app_nil_r|]; reflexivity.
    - destruct vacant as [|v]; [exists (f :: fr); cbn; rewrite app_nil_r; reflexivity|].
      cbn [xread]. destruct rest as [|a rest].
      + exists fr. rewrite firstn_nil, app_nil_r. reflexivity.
      + set (l := a :: rest). set (n := S v).
        set (k := Nat.min (Nat.min n (Nat.max 1 f)) (length l)).
        assert (Hk : k <= n /\ k <= length l) by (subst k l n; cbn [length]; lia).
        clearbody k l n. assert (Hl : length (firstn k l) = k) by (apply firstn_length_le; lia).
        destruct (IH (n - k) (skipn k l) (acc ++ firstn k l)) as [fr' ->]. exists fr'.
        (* one read() returned l1; the rest of the loop sees l2 *)
        pose proof (firstn_skipn k l) as E.
        set (l1 := firstn k l) in *. set (l2 := skipn k l) in *. clearbody l1 l2. subst l.
        rewrite firstn_app, skipn_app, Hl, (firstn_all2 (n:=n) l1), (skipn_all2 (n:=n) l1), app_length, Hl,
          <- app_assoc by lia.
        rewrite Nat.sub_add_distr. reflexivity.
  Qed.

  Lemma xread_got vacant frag (rest : list A) :
    fst (fst (fst (xread vacant frag rest []))) = firstn vacant rest /\
    snd (xread vacant frag rest []) = skipn vacant rest /\
    snd (fst (fst (xread vacant frag rest []))) = vacant - length (firstn vacant rest).
  Proof. destruct (xread_fills vacant frag rest []) as [fr ->]. cbn. auto. Qed.

  (* a read that comes back short has reached the end of the input *)
  Lemma firstn_short (n : nat) (l : list A) : n - length (firstn n l) <> 0 -> skipn n l = [].
  Proof. rewrite firstn_length. intros H. apply skipn_all2. lia. Qed.

  (* the reader's chunk sequence does not depend on how read() fragments the input *)
  Theorem reader_chunks_cut (fuel gran : nat) (frag : list nat) (x : list A) : 0 < gran ->
    reader_chunks fuel gran frag x = cut fuel gran x.
  Proof.
    intros G. revert frag x. induction fuel as [|fu IH]; intros frag x; cbn [reader_chunks cut]; auto.
    destruct (xread_fills gran frag x []) as [fr ->]. cbn [app]. rewrite firstn_length.
    destruct x as [|a x]; [rewrite firstn_nil; reflexivity|].
    destruct gran as [|g]; [lia|]. cbn [firstn]. f_equal.
    destruct (Nat.ltb_spec (length (a :: x)) (S g)); case Nat.eqb_spec; try lia; auto.
  Qed.

  (* short writes do not change what reaches the file *)
  Theorem xwrite_all (frag : list nat) (buf file : list A) : xwrite frag buf file = file ++ buf.
  Proof.
    revert buf file. induction frag as [|f fr IH]; intros buf file.
    - destruct buf; cbn; [rewrite app_nil_r|]; reflexivity.
    - destruct buf as [|a buf]; [cbn; rewrite app_nil_r; reflexivity|].
      cbn [xwrite]. set (k := Nat.min (length (a :: buf)) (Nat.max 1 f)).
      destruct (skipn k (a :: buf)) eqn:E.
      + rewrite <- (firstn_skipn k (a :: buf)) at 2. rewrite E, app_nil_r. reflexivity.
      + rewrite IH, <- app_assoc. f_equal. rewrite <- E. apply firstn_skipn.
  Qed.
End XReadProofs.

(* the test work() makes on the first (up to) four bytes *)
Definition is_magic_input (x : list N) : bool :=
  is_magic (sniff_size - length (firstn sniff_size x)) (be32 (firstn sniff_size x)).

(* side conditions on the regenerated constants *)
Lemma gran_pos : 0 < gran.
Proof. unfold gran. change 0 with (N.to_nat 0). apply Nat.compare_lt_iff. rewrite <- N2Nat.inj_compare. reflexivity. Qed.
Global Opaque gran.
Lemma copy_slots_eq : copy_out_slots = copy_total_out_slots.
Proof. reflexivity. Qed.
Lemma copy_in_pos : 0 < copy_in_slots.
Proof. unfold copy_in_slots. lia. Qed.

(* What one event does, with xread() replaced by what xread_fills says of it and
   the premises named so that a case split leaves them in the context. *)
Inductive CStep (s : cstate) : tid -> cstate -> Prop :=
| CR_take m (St : k_started s = true) (Er : k_rd s = CRIdle) (Ei : k_in s = S m) :
    CStep s TR (set_krd CRRead (set_in m s))
| CR_eof fr (St : k_started s = true) (Er : k_rd s = CRRead) (Eg : k_rest s = []) :
    CStep s TR (set_krd CREof (set_in (S (k_in s)) (set_frag fr (set_rest [] s))))
| CR_read fr got rest' sh (St : k_started s = true) (Er : k_rd s = CRRead)
    (Eg : k_rest s = got ++ rest') (Sh : sh = true -> rest' = []) :
    CStep s TR (set_krd (CRDeliver got sh) (set_frag fr (set_rest rest' s)))
| CR_deliver b sh (St : k_started s = true) (Er : k_rd s = CRDeliver b sh) :
    CStep s TR (copy_unlock (set_krd (CRPush b sh) (set_out (k_out s - 1) s)))
| CR_push b (St : k_started s = true) (Er : k_rd s = CRPush b false) :
    CStep s TR (set_krd CRIdle (set_outq (k_outq s ++ [b]) s))
| CR_last b (St : k_started s = true) (Er : k_rd s = CRPush b true) :
    CStep s TR (set_krd CREof (set_outq (k_outq s ++ [b]) s))
| CR_done (St : k_started s = true) (Er : k_rd s = CREof) :
    CStep s TR (copy_unlock (set_krd CRDone (set_keof true s)))
| CW_take b q (St : k_started s = true) (Ew : k_wr s = CWIdle) (Eq : k_outq s = b :: q) :
    CStep s TS (set_kwr (CWHold b) (set_kwritten (k_written s ++ b) (set_outq q s)))
| CW_exit (St : k_started s = true) (Ew : k_wr s = CWIdle) (Eq : k_outq s = []) (Ef : k_finish s = true) :
    CStep s TS (set_kwr CWDone s)
| CW_release b (St : k_started s = true) (Ew : k_wr s = CWHold b) :
    CStep s TS (set_kwr CWRel (set_in (S (k_in s)) s))
| CW_complete (St : k_started s = true) (Ew : k_wr s = CWRel) :
    CStep s TS (copy_unlock (set_kwr CWIdle (set_out (k_out s + 1) s)))
| CM_magic fr rest' (Em : k_main s = MSniff) (Mg : is_magic_input (k_rest s) = true) :
    CStep s TM (set_main MDecompress (set_frag fr (set_rest rest' s)))
| CM_copy fr hdr rest' (Em : k_main s = MSniff) (Mg : is_magic_input (k_rest s) = false)
    (Fb : fallback_cond (k_force s) (k_stdout s) = true) (Eg : k_rest s = hdr ++ rest') :
    CStep s TM (set_main MCopy (set_kwritten (k_written s ++ hdr) (set_frag fr (set_rest rest' s))))
| CM_fail fr rest' (Em : k_main s = MSniff) (Mg : is_magic_input (k_rest s) = false)
    (Fb : fallback_cond (k_force s) (k_stdout s) = false) :
    CStep s TM (set_main MFail (set_frag fr (set_rest rest' s)))
| CM_init (Em : k_main s = MCopy) :
    CStep s TM (set_main MHalt (set_started true (set_keof false (set_in copy_in_slots
                  (set_out (Z.of_nat copy_out_slots) s)))))
| CM_usr2 (Em : k_main s = MHalt) (Lt : k_taken s < k_raised s) :
    CStep s TM (set_main MJoinR (set_taken (S (k_taken s)) s))
| CM_joinr (Em : k_main s = MJoinR) (Er : k_rd s = CRDone) :
    CStep s TM (set_main MJoinW (set_kfinish true s))
| CM_joinw (Em : k_main s = MJoinW) (Ew : k_wr s = CWDone) :
    CStep s TM (set_main MDone s).

(* work(): the sniffing read, the magic test and the header write *)
Lemma main_sniff s : k_main s = MSniff -> exists fr,
  let got := firstn sniff_size (k_rest s) in
  let s1 := set_frag fr (set_rest (skipn sniff_size (k_rest s)) s) in
  main_step s = Some (if is_magic_input (k_rest s) then set_main MDecompress s1
                      else if fallback_cond (k_force s) (k_stdout s)
                           then set_main MCopy (set_kwritten (k_written s ++ got) s1)
                           else set_main MFail s1).
Proof.
  intros Em. unfold main_step. rewrite Em.
  destruct (xread_fills _ sniff_size (k_frag s) (k_rest s) []) as [fr ->]. exists fr. cbn [app k_written set_frag set_rest].
  fold (is_magic_input (k_rest s)). unfold copy_hdr_len.
  assert (L : length (firstn sniff_size (k_rest s)) <= sniff_size) by apply firstn_le_length.
  replace (sniff_size - _) with (length (firstn sniff_size (k_rest s)) + 0) by lia.
  rewrite firstn_app_2. cbn [firstn]. rewrite app_nil_r.
  destruct (is_magic_input _); [|destruct (fallback_cond _ _)]; reflexivity.
Qed.

Lemma cstep_CStep s e s' : cstep s e = Some s' -> CStep s e s'.
Proof.
  destruct e as [i| | |]; cbn [cstep]; [discriminate| | |].
  - unfold creader_step. destruct (k_started s) eqn:St; [|discriminate]. cbn [negb].
    destruct (k_rd s) as [| |b sh|b [|]| |] eqn:Er; [| |intros [= <-]; constructor; assumption..|discriminate].
    + destruct (k_in s) eqn:Ei; intros [= <-]. constructor; assumption.
    + destruct (xread_fills _ gran (k_frag s) (k_rest s) []) as [fr ->]. cbn [app].
      pose proof (eq_sym (firstn_skipn gran (k_rest s))) as Eg. pose proof (firstn_short _ gran (k_rest s)) as Sh.
      destruct (firstn gran (k_rest s)) as [|a got]; intros [= <-].
      * rewrite Sh in * by (pose proof gran_pos; cbn [length]; lia). constructor; assumption.
      * constructor; auto. intros E. apply Sh. apply negb_true_iff, Nat.eqb_neq in E. exact E.
  - unfold cwriter_step. destruct (k_started s) eqn:St; [|discriminate]. cbn [negb].
    destruct (k_wr s) eqn:Ew; [|intros [= <-]; econstructor; eassumption..|discriminate].
    destruct (k_outq s) eqn:Eq; [destruct (k_finish s) eqn:Ef|]; intros [= <-]; constructor; assumption.
  - destruct (k_main s) eqn:Em; [destruct (main_sniff s Em) as [fr ->]|unfold main_step; rewrite Em..];
      try discriminate.
    + pose proof (eq_sym (firstn_skipn sniff_size (k_rest s))) as Eg.
      destruct (is_magic_input (k_rest s)) eqn:Mg; [|destruct (fallback_cond _ _) eqn:Fb];
        intros [= <-]; constructor; assumption.
    + intros [= <-]. constructor; assumption.
    + destruct (Nat.ltb_spec (k_taken s) (k_raised s)); intros [= <-]. constructor; assumption.
    + destruct (k_rd s) eqn:Er; intros [= <-]. constructor; assumption.
    + destruct (k_wr s) eqn:Ew; intros [= <-]. constructor; assumption.
Qed.

Definition rdbuf (r : crpc) : list N := match r with CRDeliver b _ | CRPush b _ => b | _ => [] end.
Definition crd_in (r : crpc) : nat := match r with CRRead | CRDeliver _ _ | CRPush _ _ => 1 | _ => 0 end.
Definition crd_outh (r : crpc) : nat := match r with CRPush _ _ => 1 | _ => 0 end.
Definition cwr_in (w : cwpc) : nat := match w with CWHold _ => 1 | _ => 0 end.
Definition cwr_outh (w : cwpc) : nat := match w with CWHold _ | CWRel => 1 | _ => 0 end.
Definition holders (s : cstate) : nat := crd_outh (k_rd s) + length (k_outq s) + cwr_outh (k_wr s).
(* copy_terminate() raises SIGUSR2 when this is 0 *)
Definition pending (s : cstate) : nat := (if k_eof s then 0 else 1) + holders s.
Definition rd_is_done (r : crpc) : bool := match r with CRDone => true | _ => false end.
Definition started_pc (m : mpc) : bool := match m with MHalt | MJoinR | MJoinW | MDone => true | _ => false end.
Definition copying_pc (m : mpc) : bool := match m with MSniff | MDecompress | MFail => false | _ => true end.
(* a short block is the last one *)
Definition rd_ok (r : crpc) (rest : list N) : Prop :=
  match r with CRDeliver _ true | CRPush _ true | CREof | CRDone => rest = [] | _ => True end.

Lemma copy_unlock_eq s :
  copy_unlock s = set_raised (k_raised s + if copy_raise_cond (cview s) then 1 else 0) s.
Proof.
  unfold copy_unlock. destruct (copy_raise_cond _); [rewrite Nat.add_1_r; reflexivity|].
  rewrite Nat.add_0_r. destruct s; reflexivity.
Qed.

Lemma raise_cond_pending s : (k_out s + Z.of_nat (holders s) = Z.of_nat copy_out_slots)%Z ->
  (if copy_raise_cond (cview s) then 1 else 0) = 1 - pending s.
Proof.
  intros H. unfold copy_raise_cond, cview, pending, view_out. cbn [g_eof g_out_slots g_total_out_slots].
  rewrite <- copy_slots_eq. destruct (k_eof s); [|reflexivity]. cbn [andb].
  destruct (Z.leb_spec 0 (k_out s)); case Nat.eqb_spec; lia.
Qed.

Ltac cred :=
  unfold pending, holders;
  cbn [k_force k_stdout k_main k_started k_eof k_in k_out k_rest k_frag k_rd k_outq k_wr k_written k_finish k_raised k_taken
       set_main set_started set_keof set_in set_out set_rest set_frag set_krd set_outq set_kwr set_kwritten set_kfinish
       set_raised set_taken
       rdbuf crd_in crd_outh cwr_in cwr_outh rd_is_done started_pc copying_pc rd_ok length app concat].

(* [cases H s]: one goal for each kind of step [H : CStep s e s'], with the state as 16
   variables and the premises of the step substituted in whatever speaks of [s];
   [fields I]: the fields of a record [I] of facts about such a state *)
Ltac cases H s := destruct H; rewrite ?copy_unlock_eq; generalize dependent s; intros []; cred; intros; subst.
Ltac fields I := case I; clear I; cred; intros.

Set Implicit Arguments.

Record Ctl (s : cstate) : Prop := {
  c_started : k_started s = started_pc (k_main s);
  c_taken : k_taken s = match k_main s with MJoinR | MJoinW | MDone => 1 | _ => 0 end;
  c_finish : k_finish s = match k_main s with MJoinW | MDone => true | _ => false end;
  c_idle : k_started s = false -> k_rd s = CRIdle /\ k_outq s = [] /\ k_wr s = CWIdle /\ k_raised s = 0;
  c_joinr : k_finish s = true -> k_rd s = CRDone;
  c_done : k_main s = MDone -> k_wr s = CWDone;
  c_wdone : k_wr s = CWDone -> k_finish s = true /\ k_outq s = [];
  c_le : k_taken s <= k_raised s
}.

Lemma ctl_step s e s' : Ctl s -> CStep s e s' -> Ctl s'.
Proof.
  intros I H. cases H s; fields I; constructor; cred; try assumption; intros; try discriminate; try reflexivity; try lia.
  (* left: a thread that has been joined makes no step *)
  all: intuition congruence.
Qed.

(* from init_io() on: every input slot and every output slot is somewhere *)
Record Slots (s : cstate) : Prop := {
  sl_in : k_in s + crd_in (k_rd s) + length (k_outq s) + cwr_in (k_wr s) = copy_in_slots;
  sl_out : (k_out s + Z.of_nat (holders s) = Z.of_nat copy_out_slots)%Z;
  sl_eof : k_eof s = rd_is_done (k_rd s);
  sl_raised : k_raised s = 1 - pending s
}.

Lemma slots_step s e s' : Ctl s -> (k_started s = true -> Slots s) -> CStep s e s' -> k_started s' = true -> Slots s'.
Proof.
  intros C I H. pose proof (c_started C) as Cs. pose proof (c_idle C) as Ci. clear C.
  cases H s; try discriminate.
  (* init_io() finds the threads idle; the other steps of main() touch no slot *)
  all: try (specialize (I eq_refl); fields I); try destruct (Ci eq_refl) as (-> & -> & -> & ->).
  all: subst; constructor; cred; rewrite ?raise_cond_pending by (cred; lia); cred; try assumption; try reflexivity; try lia.
  (* sink_write_buffer() *)
  all: rewrite app_length; cbn [length]; lia.
Qed.

Record Data (x : list N) (s : cstate) : Prop := {
  d_sniff : k_main s = MSniff -> k_written s = [] /\ k_rest s = x;
  d_eq : copying_pc (k_main s) = true ->
         k_written s ++ concat (k_outq s) ++ rdbuf (k_rd s) ++ k_rest s = x;
  d_rd : rd_ok (k_rd s) (k_rest s)
}.

Lemma data_step x s e s' : Ctl s -> Data x s -> CStep s e s' -> Data x s'.
Proof.
  intros C I H. pose proof (c_started C) as Cs. pose proof (c_idle C) as Ci. clear C.
  cases H s; fields I; try destruct (Ci eq_refl) as (-> & -> & -> & ->).
  all: constructor; cred; try assumption; try discriminate; try reflexivity.
  (* the threads run only after MSniff *)
  all: try (intros ->; discriminate Cs).
  (* a block moves one place to the left *)
  all: try (intros G; rewrite <- (d_eq0 G), ?concat_app; cbn [concat]; rewrite ?app_nil_r, <- ?app_assoc; reflexivity).
  - (* a short xread() *) destruct sh; auto.
  - (* the header write *) destruct (d_sniff0 eq_refl) as [-> <-]. reflexivity.
Qed.

Record CI (x : list N) (s : cstate) : Prop := {
  ci_ctl : Ctl s;
  ci_slots : k_started s = true -> Slots s;
  ci_data : Data x s
}.
Unset Implicit Arguments.

Lemma creach_ci f o x frag s : CReach (cinit f o x frag) s -> CI x s.
Proof.
  intros R; induction R as [|s e s' _ [C S D] H].
  - repeat constructor; cbn; intros; try discriminate; auto.
  - apply cstep_CStep in H. constructor; [eapply ctl_step|eapply slots_step|eapply data_step]; eassumption.
Qed.
Arguments creach_ci {f o x frag s} _.

Lemma short_not_magic x : length x < sniff_size -> is_magic_input x = false.
Proof.
  intros H. unfold is_magic_input, is_magic. rewrite firstn_all2 by lia.
  destruct (N.eqb_spec (N.of_nat (sniff_size - length x)) 0); [lia|reflexivity].
Qed.

(* "BZh" followed by a digit 1-9 *)
Lemma magic_input_spec x : Forall (fun b => (b < 256)%N) x ->
  (is_magic_input x = true <->
   exists d rest, x = 66%N :: 90%N :: 104%N :: d :: rest /\ (49 <= d <= 57)%N).
Proof.
  intros B. destruct x as [|a [|b [|c [|d rest]]]].
  1-4: rewrite short_not_magic by (cbn [length]; unfold sniff_size; lia);
       split; [discriminate|intros (? & ? & [=] & _)].
  apply Forall_cons_iff in B. destruct B as [Ba B]. apply Forall_cons_iff in B. destruct B as [Bb B].
  apply Forall_cons_iff in B. destruct B as [Bc B]. apply Forall_cons_iff in B. destruct B as [Bd _].
  unfold is_magic_input, is_magic, MAGIC, sniff_size. cbn [firstn length be32 Nat.sub N.of_nat N.eqb andb].
  rewrite andb_true_iff, !N.leb_le. split.
  - intros [H1 H2]. exists d, rest.
    assert (a = 66 /\ b = 90 /\ c = 104 /\ 49 <= d <= 57)%N by lia.
    destruct H as (-> & -> & -> & H). auto.
  - intros (d' & r & [= -> -> -> -> ->] & H). lia.
Qed.

(* with -f and standard output, a non-magic input takes the copy path *)
Lemma copy_path x frag s : is_magic_input x = false -> fallback_cond true true = true ->
  CReach (cinit true true x frag) s -> k_main s <> MDecompress /\ k_main s <> MFail /\ k_force s = true /\ k_stdout s = true.
Proof.
  intros NM FB R. induction R as [|s e s' R IH H].
  - cbn. repeat split; discriminate.
  - destruct IH as (I1 & I2 & I3 & I4). destruct (creach_ci R) as [_ _ [D _ _]].
    apply cstep_CStep in H. clear R. cases H s; repeat split; try discriminate; try assumption.
    (* left: the sniff step, which tests x itself, under -f and with standard output *)
    all: destruct (D eq_refl) as [_ ->]; congruence.
Qed.

(* C19_copy / C19_usr2_once *)
Theorem copy_correct f o x frag s : CReach (cinit f o x frag) s -> k_main s = MDone ->
  k_written s = x /\ exit_of s = Exit0 /\ k_raised s = 1.
Proof.
  intros R D. destruct (creach_ci R) as [C S [_ E Rd]].
  pose proof (c_done C D) as Ew. destruct (c_wdone C Ew) as [F Eq]. pose proof (c_joinr C F) as Er.
  assert (St : k_started s = true) by (rewrite (c_started C), D; reflexivity).
  destruct (S St) as [_ _ He Hr]. unfold pending, holders in Hr.
  rewrite D in E. specialize (E eq_refl). rewrite Er in Rd. cbn in Rd.
  rewrite Er, Eq, Rd in E. cbn in E. rewrite app_nil_r in E.
  rewrite He, Er, Eq, Ew in Hr. cbn in Hr.
  unfold exit_of. rewrite D, Hr, (c_taken C), D. auto.
Qed.

Theorem usr2_at_most_once f o x frag s : CReach (cinit f o x frag) s -> k_raised s <= 1.
Proof.
  intros R. destruct (creach_ci R) as [C S _]. destruct (k_started s) eqn:St.
  - rewrite (sl_raised (S eq_refl)). lia.
  - destruct (c_idle C St) as (_ & _ & _ & ->). lia.
Qed.

Lemma reader_enabled s : k_started s = true -> k_rd s <> CRDone -> (k_rd s = CRIdle -> k_in s <> 0) ->
  exists s', cstep s TR = Some s'.
Proof.
  intros St N Hin. cbn [cstep]. unfold creader_step. rewrite St. cbn [negb].
  destruct (k_rd s); try (eexists; reflexivity); [| |now destruct N].
  - destruct (k_in s); [now destruct Hin|eexists; reflexivity].
  - destruct (xread _ _ _ _) as [[[[|] ?] ?] ?]; eexists; reflexivity.
Qed.

Lemma writer_enabled s : k_started s = true -> k_wr s <> CWDone ->
  (k_wr s = CWIdle -> k_outq s = [] -> k_finish s = true) -> exists s', cstep s TS = Some s'.
Proof.
  intros St N Hq. cbn [cstep]. unfold cwriter_step. rewrite St. cbn [negb].
  destruct (k_wr s); try (eexists; reflexivity); [|now destruct N].
  destruct (k_outq s); [rewrite Hq by reflexivity|]; eexists; reflexivity.
Qed.

Lemma main_enabled s :
  match k_main s with
  | MSniff | MCopy => True
  | MHalt => k_taken s < k_raised s
  | MJoinR => k_rd s = CRDone
  | MJoinW => k_wr s = CWDone
  | _ => False
  end -> exists s', cstep s TM = Some s'.
Proof.
  cbn [cstep]. destruct (k_main s) eqn:Em; intros G; try contradiction.
  1: destruct (main_sniff s Em) as [fr ->].
  2-5: unfold main_step; rewrite Em; try apply Nat.ltb_lt in G; rewrite ?G.
  all: eauto.
Qed.

(* C19_progress: no reachable state is stuck before the exit *)
Theorem copy_progress f o x frag s : CReach (cinit f o x frag) s -> cfinal s = false ->
  exists e s', cstep s e = Some s'.
Proof.
  intros R NF. destruct (creach_ci R) as [C S _].
  pose proof (c_started C) as St. pose proof (c_taken C) as Tk. pose proof (c_finish C) as Fi. pose proof (c_le C) as Le.
  pose proof (main_enabled s) as M. unfold cfinal in NF.
  destruct (k_main s) eqn:Em; try discriminate NF; cbn [started_pc] in St; try (exists TM; apply M; exact I).
  all: destruct (S St) as [Hin _ He Hr]; unfold pending, holders in Hr.
  - (* halt() *)
    destruct (Nat.eq_dec (k_raised s) 0) as [R0|R0]; [|exists TM; apply M; lia].
    (* no signal yet.  The reader moves unless it is done or waits for an input slot; in both
       cases a block is on its way through the writer *)
    assert (W : k_rd s = CRDone \/ k_rd s = CRIdle /\ k_in s = 0 -> exists s', cstep s TS = Some s').
    { intros Hrd. apply writer_enabled; [exact St| |].
      - intros Ew. destruct (c_wdone C Ew). congruence.
      - intros Ew Eq. exfalso. rewrite Ew, Eq in *. pose proof copy_in_pos.
        destruct Hrd as [Er|[Er Ei]]; rewrite Er in *; cbn [crd_in crd_outh cwr_in cwr_outh rd_is_done length] in *; [rewrite He in Hr|]; lia. }
    destruct (k_rd s) eqn:Er; try (exists TR; apply reader_enabled; congruence).
    + destruct (k_in s) eqn:Ei; [exists TS; auto|exists TR; apply reader_enabled; congruence].
    + exists TS; auto.
  - (* joining the reader: the signal came, so eof is set *)
    exists TM. apply M. destruct (k_rd s); try reflexivity; cbn [rd_is_done] in He; rewrite He in Hr; lia.
  - (* joining the writer: the signal came, so no block is left *)
    destruct (k_wr s) eqn:Ew; cbn [cwr_outh] in Hr; try lia.
    + exists TS. apply writer_enabled; [exact St|congruence|intros _ _; exact Fi].
    + exists TM. apply M. reflexivity.
Qed.

(* an input that starts with a bzip2 header is handed to the decompressor whatever
   -f and the output are: same bytes consumed, nothing written *)
Theorem magic_path f o x frag : is_magic_input x = true ->
  exists s', cstep (cinit f o x frag) TM = Some s' /\ k_main s' = MDecompress /\
             k_rest s' = skipn sniff_size x /\ k_written s' = [].
Proof.
  intros M. destruct (main_sniff (cinit f o x frag) eq_refl) as [fr E]. cbn [cstep]. rewrite E.
  cbn [k_rest cinit]. rewrite M. eexists. split; [reflexivity|]. cbn. auto.
Qed.

Theorem nonmagic_without_force o x frag : is_magic_input x = false ->
  exists s', cstep (cinit false o x frag) TM = Some s' /\ k_main s' = MFail.
Proof.
  intros M. destruct (main_sniff (cinit false o x frag) eq_refl) as [fr E]. cbn [cstep]. rewrite E.
  cbn [k_rest k_force cinit]. rewrite M. eexists. split; reflexivity.
Qed.
