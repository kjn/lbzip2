(* C17 no_clobber, under EVERY fault/signal plan: without -f no pre-existing name that is not an operand, and no inode
   reachable through such a name, is ever changed.  One assertion, [NC], is kept by every step of the operand loop
   and on every way out of it. *)
From Coq Require Import List NArith Arith Bool String Ascii Lia.
From LBZ Require Import Gen.FrontTab Front.FsModel Front.MainLoop Front.FrontLemmas Front.FrontHoare.
Import ListNotations.
Local Open Scope N_scope.

Ltac hbind := eapply ht_bind; [|intro].
Tactic Notation "hbind" "as" ident(x) := eapply ht_bind; [|intro x].

Section NoClobber.
  Variable codec : cmode -> bytes -> cres.
  Variable cf : cfg.
  Variable pl : plan.
  Variable f0 : fs.
  Variable ops : list path.
  Hypothesis noforce : c_force cf = false.

  Definition prot (p : path) (d : dentry) : Prop := nlook f0 p = Some d /\ ~ In p ops.
  Definition prot_ino (i : N) : Prop := exists p, prot p (DLink i).

  Definition NC : assn := fun c =>
    (forall p d, prot p d -> nlook (k_fs c) p = Some d /\ (forall i, d = DLink i -> ilook (k_fs c) i = ilook f0 i)) /\
    (forall q, k_opathn c = Some q -> forall d, ~ prot q d).
  Definition ENC : eassn := fun _ _ c => NC c.
  Ltac hnc := eapply ht_bind with (R := fun _ => NC); [|intro].
  Tactic Notation "hnc" "as" ident(x) := eapply ht_bind with (R := fun _ => NC); [|intro x].

  Lemma nc_with_fs c f :
    NC c ->
    (forall p d, prot p d -> nlook f p = nlook (k_fs c) p) ->
    (forall i, prot_ino i -> ilook f i = ilook (k_fs c) i) ->
    NC (with_fs c f).
  Proof.
    intros [H1 H2] Hn Hi. split; [|exact H2]. intros p d Hp. cbn.
    destruct (H1 p d Hp) as [A B]. rewrite (Hn p d Hp). split; [exact A|].
    intros i ->. rewrite Hi; [apply B; reflexivity | exists p; exact Hp].
  Qed.

  Lemma nc_unlink c p : NC c -> (forall d, ~ prot p d) -> NC (with_fs c (fst (sys_unlink (k_fs c) p))).
  Proof.
    intros H Hp. apply nc_with_fs; auto.
    - intros p' d Hp'. apply unlink_nlook_other. intros ->. exact (Hp d Hp').
    - intros i _. apply unlink_ilook.
  Qed.

  Lemma nc_upd c i g : NC c -> ~ prot_ino i -> NC (with_fs c (upd_inode (k_fs c) i g)).
  Proof.
    intros H Hi. apply nc_with_fs; auto.
    - intros. apply nlook_upd_inode.
    - intros j Hj. apply ilook_upd_inode_neq. intros ->. contradiction.
  Qed.

  Lemma nc_stdout c o : NC c -> NC (with_fs c (set_stdout (k_fs c) o)).
  Proof. intro H. apply nc_with_fs; auto. Qed.

  Lemma nc_creat c q m u g t i :
    NC c -> snd (sys_creat_excl (k_fs c) q m u g t) = SOk i ->
    NC (with_fs c (fst (sys_creat_excl (k_fs c) q m u g t))) /\ (forall d, ~ prot q d) /\ ~ prot_ino i.
  Proof.
    intros H Hc. destruct (creat_ok _ _ _ _ _ _ _ Hc) as (Hfree & Hfresh & _ & Nn & _ & In).
    assert (Hq : forall d, ~ prot q d).
    { intros d Hp. destruct H as [H1 _]. destruct (H1 q d Hp) as [A _]. congruence. }
    assert (Hi : ~ prot_ino i).
    { intros [p Hp]. destruct H as [H1 _]. destruct (H1 p _ Hp) as [A _].
      apply fresh_not_named in A. congruence. }
    split; [|split; assumption].
    apply nc_with_fs; auto.
    - intros p d Hp. apply Nn. intros ->. exact (Hq d Hp).
    - intros j Hj. apply In. intros ->. contradiction.
  Qed.

  Lemma nc_opathn_none c : NC c -> NC (with_opathn c None).
  Proof. intros [H1 _]. split; [exact H1|]. cbn. discriminate. Qed.

  Lemma nc_flag c b : NC c -> NC (with_cleanfail c b) /\ NC (with_rmfail c b) /\ NC (with_blocked c b).
  Proof. intros [H1 H2]. split; [|split]; (split; [exact H1 | exact H2]). Qed.

  Lemma nc_sys {A} (cl : M unit) inhalt k (f : fs -> fs * sysres A) (R : sysres A -> Prop) :
    (forall c, NC c -> NC (with_fs c (fst (f (k_fs c)))) /\ R (snd (f (k_fs c)))) ->
    (forall e, R (SErr e)) ->
    ht NC cl (fun _ => NC) ENC ->
    ht NC (sys_gen pl cl inhalt k f) (fun r c => NC c /\ R r) ENC.
  Proof.
    intros Hn He Hcl. apply ht_sys_gen; auto.
    intros c H. unfold natural_ok. destruct (Hn c H) as [HA HB].
    destruct (snd (f (k_fs c))); try (split; assumption). exact H.
  Qed.

  Lemma nc_cleanup : ht NC (cleanup pl) (fun _ => NC) ENC.
  Proof.
    apply ht_cleanup; [auto|]. intros c q [_ Hq] Eq. specialize (Hq q Eq). hbind as r.
    - apply (nc_sys (ret tt) false KUnlink (fun f => sys_unlink f q) (fun _ => True)); auto.
      + intros k H. split; auto. apply nc_unlink; auto.
      + apply ht_ret. auto.
    - hnc.
      + apply ht_set_opathn. intros k [H _]. apply nc_opathn_none. exact H.
      + destruct r as [u|e|]; try (apply ht_ret; auto).
        apply ht_set_cleanfail. intros k H. apply nc_flag. exact H.
  Qed.

  Lemma nc_sys' {A} inhalt k (f : fs -> fs * sysres A) (R : sysres A -> Prop) :
    (forall c, NC c -> NC (with_fs c (fst (f (k_fs c)))) /\ R (snd (f (k_fs c)))) ->
    (forall e, R (SErr e)) ->
    ht NC (sys pl inhalt k f) (fun r c => NC c /\ R r) ENC.
  Proof. intros. apply nc_sys; auto. apply nc_cleanup. Qed.

  Lemma nc_call {A} inhalt k (f : fs -> fs * sysres A) :
    (forall c, NC c -> NC (with_fs c (fst (f (k_fs c))))) ->
    ht NC (sys pl inhalt k f) (fun _ => NC) ENC.
  Proof.
    intro Hf. eapply ht_post; [apply (nc_sys' inhalt k f (fun _ => True)); auto|]. intros a c [H _]. exact H.
  Qed.

  Lemma nc_ro {A} inhalt k (g : fs -> sysres A) : ht NC (sys pl inhalt k (fun f => (f, g f))) (fun _ => NC) ENC.
  Proof. apply nc_call. intros c H. cbn. rewrite with_fs_same. exact H. Qed.

  Lemma nc_read inhalt iin : ht NC (sys pl inhalt KRead (fun f => sys_read f iin)) (fun _ => NC) ENC.
  Proof. apply nc_call. intros c H. rewrite read_fs, with_fs_same. exact H. Qed.

  Lemma nc_upd_sys k i (g : inode -> inode) :
    ~ prot_ino i -> ht NC (sys pl false k (fun f => (upd_inode f i g, SOk tt))) (fun _ => NC) ENC.
  Proof. intro Hi. apply nc_call. intros c H. apply nc_upd; auto. Qed.

  Lemma nc_fatal {A} tag (Q : A -> assn) : ht NC (fatal pl tag) Q ENC.
  Proof.
    unfold fatal. hnc; [apply ht_say; auto|].
    hbind; [apply nc_cleanup|]. apply ht_stop. auto.
  Qed.

  Lemma nc_warn tag : ht NC (warn tag) (fun _ => NC) ENC.
  Proof. apply ht_say. auto. Qed.

  Ltac wr := (hnc; [apply nc_warn | apply ht_ret; auto]).

  Lemma nc_close_in {T} (v : T) :
    ht NC (r3 <- sys pl false KClose sys_close_nop;; match r3 with SErr _ => fatal pl "close-in" | _ => ret v end)
       (fun _ => NC) ENC.
  Proof.
    hbind as r; [apply (nc_ro false KClose (fun _ => SOk tt))|].
    destruct r; [apply ht_ret; auto | apply nc_fatal | apply ht_ret; auto].
  Qed.

  Lemma nc_input_init op : ht NC (input_init cf pl op) (fun _ => NC) ENC.
  Proof.
    unfold input_init. hnc as pre.
    - destruct (c_force cf); [apply ht_ret; auto|].
      hbind as r; [apply nc_ro|]. destruct r as [st|e|]; try wr.
      destruct (_ && _); [wr|]. destruct (_ && _); [wr|]. apply ht_ret; auto.
    - destruct pre as [t|]; [apply ht_ret; auto|].
      destruct (_ && _); [wr|].
      hbind as r; [apply nc_ro|]. destruct r as [iin|e|]; try wr.
      hbind as r2; [apply nc_ro|]. destruct r2 as [st|e|]; [apply ht_ret; auto| |].
      all: hnc; [apply nc_warn | apply nc_close_in].
  Qed.

  (* output_init: the output inode, if any, is a new one *)
  Lemma nc_output_init op st :
    ht NC (output_init cf pl op st) (fun r c => NC c /\ forall i, r = Some (OFile i) -> ~ prot_ino i) ENC.
  Proof.
    unfold output_init. destruct (c_outmode cf); try (apply ht_ret; intros c H; split; [exact H | discriminate]).
    destruct (out_name (c_decompress cf) op) as [q|]; [|apply nc_fatal].
    rewrite noforce. hnc; [apply ht_ret; auto|].
    hbind as r.
    - apply (nc_sys' false KOpen _ (fun r => forall i, r = SOk i -> (forall d, ~ prot q d) /\ ~ prot_ino i)).
      + intros c H. destruct (snd (sys_creat_excl (k_fs c) q _ _ _ _)) as [i|e|] eqn:Ec.
        * destruct (nc_creat c q _ _ _ _ i H Ec) as (HA & HB & HC). split; [exact HA|].
          intros i' Hi. inversion Hi; subst. auto.
        * rewrite (creat_err _ _ _ _ _ _ _ Ec). split; [rewrite with_fs_same; exact H | discriminate].
        * exfalso. eapply creat_not_hang; eauto.
      + discriminate.
    - apply ht_pure_pre. intro Hr. destruct r as [i|e|].
      + destruct (Hr i eq_refl) as [Hq Hi]. hnc.
        * apply ht_set_opathn. intros c [H1 _]. split; [exact H1|].
          cbn. intros q' Hq'. inversion Hq'; subst. exact Hq.
        * apply ht_ret. intros c H. split; auto. intros i' Hi'. inversion Hi'; subst. exact Hi.
      + hnc; [apply nc_warn|]. apply ht_ret. intros c H. split; auto. discriminate.
      + hnc; [apply nc_warn|]. apply ht_ret. intros c H. split; auto. discriminate.
  Qed.

  Definition odst_ok (o : odst) : Prop := forall i, o = OFile i -> ~ prot_ino i.

  Lemma nc_write_failed {T} inhalt e (Q : T -> assn) : ht NC (write_failed pl inhalt e) Q ENC.
  Proof.
    assert (D : forall sg, ht NC (die_by pl (A:=T) inhalt sg) Q ENC).
    { intro sg. unfold die_by. destruct (_ && _); [apply ht_stop; auto|].
      hnc; [apply nc_cleanup|]. apply ht_stop. auto. }
    unfold write_failed. destruct (N.eqb e EFBIG); [apply D|]. destruct (N.eqb e EPIPE); [apply D | apply nc_fatal].
  Qed.

  Lemma nc_do_write inhalt o c : odst_ok o -> ht NC (do_write cf pl inhalt o c) (fun _ => NC) ENC.
  Proof.
    intro Ho. unfold do_write. destruct c as [|b c]; [apply ht_ret; auto|].
    destruct o as [| |i]; [| apply ht_ret; auto |]; hnc as r.
    - apply nc_call. intros k0 H. apply nc_stdout. exact H.
    - destruct r; [apply ht_ret; auto | apply nc_write_failed | apply ht_ret; auto].
    - apply nc_call. intros k0 H. apply nc_upd; auto.
    - destruct r; [apply ht_ret; auto | apply nc_write_failed | apply ht_ret; auto].
  Qed.

  Lemma nc_do_io iin o evs : odst_ok o -> ht NC (do_io cf pl iin o evs) (fun _ => NC) ENC.
  Proof.
    intro Ho. induction evs as [|[|c] evs IH]; cbn [do_io].
    - apply ht_ret. auto.
    - hbind as r; [apply nc_read|]. destruct r; [exact IH | apply nc_fatal | exact IH].
    - hbind; [apply nc_do_write; auto | exact IH].
  Qed.

  Lemma nc_main_reads n iin : ht NC (main_reads pl n iin) (fun _ => NC) ENC.
  Proof.
    induction n as [|n IH]; cbn [main_reads]; [apply ht_ret; auto|].
    hbind as r; [apply nc_read|]. destruct r; [exact IH | apply nc_fatal | exact IH].
  Qed.

  Lemma nc_schedule iin o isdir cr : odst_ok o -> ht NC (schedule cf pl iin o isdir cr) (fun _ => NC) ENC.
  Proof.
    intro Ho. unfold schedule. hnc.
    - apply ht_halt_entry. intro sg. apply nc_cleanup.
    - hbind; [apply nc_do_io; auto|]. destruct (_ || _); [apply ht_ret; auto | apply nc_fatal].
  Qed.

  Lemma nc_work iin o : odst_ok o -> ht NC (work codec cf pl iin o) (fun _ => NC) ENC.
  Proof.
    intro Ho. unfold work. apply ht_get. intros s0 _.
    destruct (c_decompress cf); [|apply nc_schedule; auto].
    hbind; [apply nc_main_reads|]. destruct (hdr_ok _); [apply nc_schedule; auto|].
    destruct (_ && _); [|apply nc_fatal]. hbind; [apply nc_do_write; auto | apply nc_schedule; auto].
  Qed.

  Lemma nc_chmod_part iout st :
    ~ prot_ino iout ->
    ht NC ((if negb (N.land (st_mode st) special_mask =? 0) then warn "special" else ret tt);;;
           r2 <- sys pl false KFchmod (sys_fchmod iout (N.land (st_mode st) fchmod_mask));;
           match r2 with SErr _ => warn "fchmod" | _ => ret tt end) (fun _ => NC) ENC.
  Proof.
    intro Hi. unfold sys_fchmod.
    hnc; [destruct (negb _); [apply nc_warn | apply ht_ret; auto]|].
    hbind as r2; [apply nc_upd_sys; auto|].
    destruct r2; [apply ht_ret; auto | apply nc_warn | apply ht_ret; auto].
  Qed.

  Lemma nc_regf_uninit iout st : ~ prot_ino iout -> ht NC (regf_uninit pl iout st) (fun _ => NC) ENC.
  Proof.
    intro Hi. unfold regf_uninit.
    hbind as r1; [unfold sys_fchown; apply nc_upd_sys; auto|].
    hnc.
    - destruct r1; [apply nc_chmod_part; auto | apply nc_warn | apply nc_chmod_part; auto].
    - hbind as r3; [unfold sys_futimens; apply nc_upd_sys; auto|].
      hnc; [destruct r3; [apply ht_ret; auto | apply nc_warn | apply ht_ret; auto]|].
      hbind as r4; [unfold sys_close_out; apply nc_upd_sys; auto|].
      hnc; [destruct r4; [apply ht_ret; auto | apply nc_fatal | apply ht_ret; auto]|].
      apply ht_set_opathn. intros c H. apply nc_opathn_none. exact H.
  Qed.

  Lemma nc_oprnd_rm op : In op ops -> ht NC (oprnd_rm pl op) (fun _ => NC) ENC.
  Proof.
    intro Hin. unfold oprnd_rm. hnc as r.
    - apply nc_call. intros c H. apply nc_unlink; auto. intros d [_ Hn]. contradiction.
    - destruct r; [apply ht_ret; auto | | apply ht_ret; auto].
      hnc; [apply ht_set_rmfail; intros c H; apply nc_flag; exact H|].
      destruct (N.eqb e ENOENT); [apply ht_ret; auto | apply nc_warn].
  Qed.

  Lemma nc_run1 op : In op ops -> ht NC (run1 codec cf pl op) (fun _ => NC) ENC.
  Proof.
    intro Hin. unfold run1. hbind as ii; [apply nc_input_init|].
    destruct ii as [t|[iin st]]; [apply ht_ret; auto|].
    hnc; [apply ht_set_blocked; intros c H; apply nc_flag; exact H|].
    hbind as oo; [apply nc_output_init|].
    apply ht_pure_pre. intro Ho.
    hnc as d.
    - destruct oo as [o|]; [|apply ht_ret; auto].
      hbind; [apply nc_work; intros i ->; apply Ho; reflexivity|].
      hnc; [|apply ht_ret; auto].
      destruct o as [| |iout]; try (apply ht_ret; auto).
      hbind; [apply nc_regf_uninit; apply Ho; reflexivity|].
      destruct (c_keep cf); [apply ht_ret; auto | apply nc_oprnd_rm; auto].
    - hnc.
      + apply ht_sti; intros; apply nc_flag; assumption.
      + hnc; [|apply ht_ret; auto]. unfold input_uninit. apply nc_close_in.
  Qed.

  Lemma nc_run_op op s : In op ops -> NC (core_of s) ->
    match run_op codec cf pl op s with Ret _ s' | Stop _ _ s' => NC (core_of s') end.
  Proof.
    intros Hin Hs. unfold run_op.
    pose proof (nc_run1 op Hin (set_cleanfail (set_rmfail s false) false) Hs) as H.
    destruct (run1 codec cf pl op _); apply H.
  Qed.

  Lemma nc_run_ops ops' : incl ops' ops -> forall s, NC (core_of s) -> NC (core_of (fst (run_ops codec cf pl ops' s))).
  Proof.
    induction ops' as [|op r IH]; intros Hi s Hs; cbn [run_ops].
    - apply ht_finish; [apply (nc_ro false KCloseStdout (fun _ => SOk tt)) | apply nc_fatal | exact Hs].
    - pose proof (nc_run_op op s (Hi op (or_introl eq_refl)) Hs) as H.
      destruct (run_op codec cf pl op s) as [u s'|o w s']; [|exact H].
      apply IH; auto. intros x Hx. apply Hi. right. exact Hx.
  Qed.
End NoClobber.

Theorem no_clobber codec cf f0 ops pl p d :
  c_force cf = false -> nlook f0 p = Some d -> ~ In p ops ->
  let f := fst (run codec cf f0 ops pl) in
  nlook f p = Some d /\ (forall i, d = DLink i -> ilook f i = ilook f0 i).
Proof.
  intros Hf Hp Hn. unfold run, run_full.
  assert (H0 : NC f0 ops (core_of (init_state f0))).
  { split; cbn; [|discriminate]. intros p' d' [A _]. split; auto. }
  pose proof (nc_run_ops codec cf pl f0 ops Hf ops (incl_refl _) (init_state f0) H0) as [H _].
  destruct (run_ops codec cf pl ops (init_state f0)) as [s o]. cbn in *.
  apply H. split; assumption.
Qed.
