(* Without injected faults the monadic operand loop computes exactly the plain
   function op_effect / run_effect of FrontSpec.v, from ANY state at an operand
   boundary: counters, history, diagnostics and the sticky `warned` flag do not
   influence what happens to the operand (C18), and `warned` is or-ed. *)
From Coq Require Import List NArith Arith Bool String Ascii Lia.
From LBZ Require Import Gen.FrontTab Front.FsModel Front.MainLoop Front.FrontSpec Front.FrontLemmas.
Import ListNotations.
Local Open Scope N_scope.

(* what a step may change besides the file system: counters, messages, ghosts, warned *)
Definition fr (w : bool) (s s' : mstate) : Prop :=
  m_opathn s' = m_opathn s /\ m_blocked s' = m_blocked s /\ m_pint s' = m_pint s /\
  m_pterm s' = m_pterm s /\ m_hist s' = m_hist s /\ m_warned s' = (m_warned s || w).

(* the same without opathn, which output_init() sets and output_regf_uninit() clears *)
Definition fr2 (w : bool) (s s' : mstate) : Prop :=
  m_blocked s' = m_blocked s /\ m_pint s' = m_pint s /\
  m_pterm s' = m_pterm s /\ m_hist s' = m_hist s /\ m_warned s' = (m_warned s || w).

Lemma fr2_refl s : fr2 false s s.
Proof. unfold fr2. rewrite orb_false_r. tauto. Qed.

Lemma fr2_trans w1 w2 s1 s2 s3 : fr2 w1 s1 s2 -> fr2 w2 s2 s3 -> fr2 (w1 || w2) s1 s3.
Proof.
  unfold fr2. intros (A2 & A3 & A4 & A5 & A6) (B2 & B3 & B4 & B5 & B6).
  rewrite B2, B3, B4, B5, B6, A6, orb_assoc. tauto.
Qed.

Ltac frt := unfold fr2; cbn; rewrite ?orb_false_r, ?orb_true_r; tauto.

(* the result r of a run from s: it returned a, leaving the file system f and opathn = o; it warned iff w *)
Definition returns {A} (s : mstate) (a : A) (w : bool) (f : fs) (o : option path) (r : res A) : Prop :=
  exists s', r = Ret a s' /\ fr2 w s s' /\ m_fs s' = f /\ m_opathn s' = o.

Lemma returns_fr {A} s (r : res A) a w f :
  returns s a w f (m_opathn s) r <-> exists s', r = Ret a s' /\ fr w s s' /\ m_fs s' = f.
Proof. unfold returns, fr, fr2. split; intros (s' & H); exists s'; tauto. Qed.

Lemma returns_ret {A} (a : A) s : returns s a false (m_fs s) (m_opathn s) (ret a s).
Proof. exists s. split; [reflexivity|]. split; [apply fr2_refl | split; reflexivity]. Qed.

Lemma after {A B} {c : M A} {k : A -> M B} {s a w f o} {X : res B -> Prop} :
  returns s a w f o (c s) -> (forall s1, fr2 w s s1 -> m_fs s1 = f -> m_opathn s1 = o -> X (k a s1)) -> X (bind c k s).
Proof. intros (s1 & R & F & E & O) H. unfold bind. rewrite R. apply H; assumption. Qed.

Lemma returns_from {A} s s1 w (r : res A) a w' f o : fr2 w s s1 -> returns s1 a w' f o r -> returns s a (w || w') f o r.
Proof. intros F (s2 & R & F2 & E). exists s2. split; [exact R|]. split; [eapply fr2_trans; eauto | exact E]. Qed.

Lemma returns_bind {A B} {c : M A} {k : A -> M B} {s a w f o b w' f' o'} :
  returns s a w f o (c s) ->
  (forall s1, m_fs s1 = f -> m_opathn s1 = o -> returns s1 b w' f' o' (k a s1)) ->
  returns s b (w || w') f' o' (bind c k s).
Proof. intros R H. apply (after R). intros s1 F E O. eapply returns_from; eauto. Qed.

Lemma returns_bind0 {A B} {c : M A} {k : A -> M B} {s a f o b w' f' o'} :
  returns s a false f o (c s) ->
  (forall s1, m_fs s1 = f -> m_opathn s1 = o -> returns s1 b w' f' o' (k a s1)) ->
  returns s b w' f' o' (bind c k s).
Proof. exact returns_bind. Qed.

Lemma returns_then {A B} {c : M A} {k : A -> M B} {s a w f o b f' o'} :
  returns s a w f o (c s) ->
  (forall s1, m_fs s1 = f -> m_opathn s1 = o -> returns s1 b false f' o' (k a s1)) ->
  returns s b w f' o' (bind c k s).
Proof. rewrite <- (orb_false_r w) at 2. apply returns_bind. Qed.

Definition quiet (s : mstate) : Prop := m_pint s = false /\ m_pterm s = false.

Lemma fr2_quiet w s s' : fr2 w s s' -> quiet s -> quiet s'.
Proof. unfold quiet. intros (_ & -> & -> & _) H. exact H. Qed.

Section NF.
  Variable codec : cmode -> bytes -> cres.
  Variable cf : cfg.

  Lemma sys_returns {A} cl inhalt k (f : fs -> fs * sysres A) s :
    snd (f (m_fs s)) <> SHang ->
    returns s (snd (f (m_fs s))) false (fst (f (m_fs s))) (m_opathn s) (sys_gen [] cl inhalt k f s).
  Proof.
    intro H. exists (set_fs (set_cnt s (aset kindc_eqb k (S (cnt_get k (m_cnt s))) (m_cnt s))) (fst (f (m_fs s)))).
    split; [|split; [frt | split; reflexivity]].
    unfold sys_gen. cbn [plan_lookup m_fs set_cnt]. destruct (f (m_fs s)) as [f' r]. destruct r; [reflexivity | reflexivity | contradiction].
  Qed.

  Lemma read_nf inhalt iin s :
    returns s (snd (sys_read (m_fs s) iin)) false (m_fs s) (m_opathn s) (sys [] inhalt KRead (fun f => sys_read f iin) s).
  Proof. rewrite <- (read_fs (m_fs s) iin) at 2. apply sys_returns, read_not_hang. Qed.

  Lemma ro_returns {A} k (g : fs -> sysres A) s :
    g (m_fs s) <> SHang -> returns s (g (m_fs s)) false (m_fs s) (m_opathn s) (sys [] false k (fun f => (f, g f)) s).
  Proof. apply (sys_returns (cleanup []) false k (fun f => (f, g f))). Qed.

  Lemma warn_returns tag s : returns s tt true (m_fs s) (m_opathn s) (warn tag s).
  Proof. eexists. split; [reflexivity|]. split; [frt | split; reflexivity]. Qed.

  Lemma warn_nf tag s : exists s', warn tag s = Ret tt s' /\ fr true s s' /\ m_fs s' = m_fs s.
  Proof. apply returns_fr, warn_returns. Qed.

  Lemma skip_nf {A} tag (v : A) s : returns s v true (m_fs s) (m_opathn s) ((warn tag;;; ret v) s).
  Proof. apply (returns_bind (w' := false) (warn_returns tag s)). intros s1 <- <-. apply returns_ret. Qed.

  Definition eff_cleanup (q : option path) (f : fs) : fs :=
    match q with Some p => fst (sys_unlink f p) | None => f end.

  Lemma cleanup_nf s : returns s tt false (eff_cleanup (m_opathn s) (m_fs s)) None (cleanup [] s).
  Proof.
    unfold cleanup. destruct (m_opathn s) as [q|] eqn:E.
    2:{ exists s. split; [reflexivity|]. split; [apply fr2_refl | split; [reflexivity | exact E]]. }
    apply (returns_bind (w' := false) (sys_returns _ _ _ (fun f => sys_unlink f q) s (unlink_not_hang _ _))).
    intros s1 E1 _. cbn [eff_cleanup]. rewrite <- E1.
    destruct (snd (sys_unlink (m_fs s) q)); (eexists; split; [reflexivity|]; split; [frt | split; reflexivity]).
  Qed.

  (* a fatal end: message, cleanup(), exit status EX_FAIL *)
  Definition fatal_res {A} (r : res A) (tag : string) (s0 : mstate) (f : fs) : Prop :=
    exists s', r = Stop (Exit bailout_exit) (WFatal tag) s' /\ m_fs s' = eff_cleanup (m_opathn s0) f /\
               m_hist s' = m_hist s0.

  Lemma fatal_nf {A} tag s : fatal_res (fatal [] (A:=A) tag s) tag s (m_fs s).
  Proof.
    unfold fatal, bind, say, modify. destruct (cleanup_nf (add_msg s MFail tag)) as (s' & R & F & Ef & _).
    rewrite R. exists s'. split; [reflexivity|]. split; [exact Ef | apply F].
  Qed.

  Lemma fatal_first {A B} (c : M A) (k : A -> M B) s tag f :
    fatal_res (c s) tag s f -> fatal_res (bind c k s) tag s f.
  Proof. intros (s1 & R & H). exists s1. unfold bind. rewrite R. split; [reflexivity | exact H]. Qed.

  (* how a part of work() ends: it returns, or there is a fatal error with this tag *)
  Definition ends_nf (s : mstate) (x : fs * option string) (r : res unit) : Prop :=
    match x with
    | (f', None) => returns s tt false f' (m_opathn s) r
    | (f', Some tag) => fatal_res r tag s f'
    end.

  Lemma ends_from s s1 x r : fr2 false s s1 -> m_opathn s1 = m_opathn s -> ends_nf s1 x r -> ends_nf s x r.
  Proof.
    intros F O. destruct x as [f' [tag|]]; cbn.
    - intros (s' & R & E & H). exists s'. rewrite <- O. destruct F as (_ & _ & _ & <- & _). auto.
    - rewrite <- O. apply (returns_from s s1 false _ _ false _ _ F).
  Qed.

  Lemma ends_after {A} {c : M A} {k : A -> M unit} {s a f x} :
    returns s a false f (m_opathn s) (c s) ->
    (forall s1, fr2 false s s1 -> m_fs s1 = f -> ends_nf s1 x (k a s1)) -> ends_nf s x (bind c k s).
  Proof. intros R H. apply (after R). intros s1 F E O. apply (ends_from s s1 _ _ F O), H; assumption. Qed.

  Definition ii_ends (s : mstate) (x : iires) (r : res (string + N * stat)) : Prop :=
    match x with
    | IISkip t => returns s (inl t) true (m_fs s) (m_opathn s) r
    | IIOk i st => returns s (inr (i, st)) false (m_fs s) (m_opathn s) r
    | IIHang => exists s', r = Stop Hang WHang s' /\ fr2 false s s' /\ m_fs s' = m_fs s
    end.

  Lemma ii_from s s1 x r : fr2 false s s1 -> m_fs s1 = m_fs s -> m_opathn s1 = m_opathn s -> ii_ends s1 x r -> ii_ends s x r.
  Proof.
    intros F E O. destruct x; cbn; rewrite E, ?O; try apply (returns_from s s1 false _ _ _ _ _ F).
    intros (s' & R' & F' & E'). exists s'. split; [exact R'|]. split; [apply (fr2_trans false false _ s1); assumption | exact E'].
  Qed.

  (* a call that only looks, then the rest; open() may hang on a FIFO *)
  Lemma ii_ro {A} k (g : fs -> sysres A) kk s x :
    (g (m_fs s) = SHang -> x = IIHang) ->
    (g (m_fs s) <> SHang -> forall s1, m_fs s1 = m_fs s -> m_opathn s1 = m_opathn s -> ii_ends s1 x (kk (g (m_fs s)) s1)) ->
    ii_ends s x (bind (sys [] false k (fun f => (f, g f))) kk s).
  Proof.
    intros Hh Hr. destruct (g (m_fs s)) eqn:Eg.
    3:{ rewrite (Hh eq_refl). eexists. unfold bind, sys, sys_gen. cbn [plan_lookup m_fs set_cnt]. rewrite Eg.
        split; [reflexivity|]. split; [frt | reflexivity]. }
    all: assert (Hn : g (m_fs s) <> SHang) by (rewrite Eg; discriminate).
    all: apply (after (ro_returns k g s Hn)); rewrite Eg; intros s1 F E O.
    all: apply (ii_from s s1 _ _ F E O), Hr; [discriminate | exact E | exact O].
  Qed.

  Lemma input_init_nf op s : ii_ends s (eff_input_init cf op (m_fs s)) (input_init cf [] op s).
  Proof.
    unfold input_init, eff_input_init, is_regf. cbv zeta. set (pe := if c_force cf then None else _).
    apply (after (a := pe) (w := match pe with Some _ => true | None => false end) (f := m_fs s) (o := m_opathn s)).
    - (* the tests before the open *)
      unfold pe. destruct (c_force cf); [apply returns_ret|].
      apply (returns_bind (ro_returns _ _ s (lstat_not_hang _ _))).
      intros s1 <- <-. destruct (sys_lstat (m_fs s1) op) as [st|e|]; try apply skip_nf.
      destruct (_ && negb match st_kind st with SReg => true | _ => false end); [apply skip_nf|].
      destruct (_ && (nlink_limit <? st_nlink st)); [apply skip_nf | apply returns_ret].
    - intros s1 F E O. clearbody pe. destruct pe as [t|]; [exists s1; auto|].
      apply (ii_from s s1 _ _ F E O). rewrite <- E. destruct (_ && _); [apply skip_nf|].
      apply ii_ro; [intros ->; reflexivity|]. intros Hn s2 E2 _. rewrite <- E2 in *.
      destruct (sys_open_rd (m_fs s2) op) as [iin|e|]; [|apply skip_nf|contradiction].
      apply ii_ro; [intro Eh; elim (fstat_not_hang _ _ Eh)|]. intros _ s3 <- _.
      destruct (sys_fstat (m_fs s3) iin) as [st|e|]; [apply returns_ret| |].
      all: apply (returns_then (warn_returns _ s3)); intros s4 <- <-.
      all: apply (returns_bind0 (ro_returns KClose (fun _ => SOk tt) s4 ltac:(discriminate))).
      all: intros s5 <- <-; apply returns_ret.
  Qed.

  Lemma ok_then {B} inhalt k (F : fs -> fs * sysres unit) (kk : sysres unit -> M B) s b w f' o' :
    (forall f, snd (F f) = SOk tt) ->
    (forall s1, m_fs s1 = fst (F (m_fs s)) -> m_opathn s1 = m_opathn s -> returns s1 b w f' o' (kk (SOk tt) s1)) ->
    returns s b w f' o' (bind (sys [] inhalt k F) kk s).
  Proof. intros HF H. eapply returns_bind0; [apply sys_returns|]; rewrite HF; [discriminate | exact H]. Qed.

  Lemma do_write_returns inhalt o c s :
    returns s tt false (eff_write cf o c (m_fs s)) (m_opathn s) (do_write cf [] inhalt o c s).
  Proof.
    unfold do_write, eff_write. destruct c as [|x c]; [apply returns_ret|].
    destruct o as [| |i]; [|apply returns_ret|].
    all: apply ok_then; [intro; reflexivity|]; intros s1 <- <-; apply returns_ret.
  Qed.

  Lemma do_write_nf inhalt o c s :
    exists s', do_write cf [] inhalt o c s = Ret tt s' /\ fr false s s' /\ m_fs s' = eff_write cf o c (m_fs s).
  Proof. apply returns_fr, do_write_returns. Qed.

  Lemma do_io_ends iin o evs : forall s,
    ends_nf s (let (f', ok) := eff_io cf iin o evs (m_fs s) in (f', if ok then None else Some "read"%string))
      (do_io cf [] iin o evs s).
  Proof.
    induction evs as [|[|c] evs IH]; intro s; cbn [eff_io do_io].
    - apply returns_ret.
    - apply (ends_after (read_nf true iin s)). intros s1 _ <-.
      destruct (snd (sys_read (m_fs s1) iin)); [apply IH | apply fatal_nf | apply IH].
    - apply (ends_after (do_write_returns true o c s)). intros s1 _ <-. apply IH.
  Qed.

  Lemma do_io_nf iin o evs : forall s,
    match eff_io cf iin o evs (m_fs s) with
    | (f', true) => exists s', do_io cf [] iin o evs s = Ret tt s' /\ fr false s s' /\ m_fs s' = f'
    | (f', false) => fatal_res (do_io cf [] iin o evs s) "read" s f'
    end.
  Proof.
    intro s. pose proof (do_io_ends iin o evs s) as H.
    destruct (eff_io cf iin o evs (m_fs s)) as [f' [|]]; [apply returns_fr|]; exact H.
  Qed.

  Lemma main_reads_ends iin n : forall s,
    ends_nf s (m_fs s, if eff_main_reads n iin (m_fs s) then None else Some "read"%string) (main_reads [] n iin s).
  Proof.
    induction n as [|n IH]; intro s; cbn [eff_main_reads main_reads]; [apply returns_ret|].
    apply (ends_after (read_nf false iin s)). intros s1 _ <-.
    destruct (snd (sys_read (m_fs s1) iin)); [apply IH | apply fatal_nf | apply IH].
  Qed.

  Lemma halt_entry_nf s : quiet s -> returns s tt false (m_fs s) (m_opathn s) (halt_entry [] s).
  Proof. intros [A B]. unfold halt_entry. rewrite A, B. apply returns_ret. Qed.

  Lemma schedule_nf iin o isdir cr s :
    quiet s -> ends_nf s (eff_schedule cf iin o isdir cr (m_fs s)) (schedule cf [] iin o isdir cr s).
  Proof.
    intro Q. unfold schedule, eff_schedule.
    apply (ends_after (halt_entry_nf s Q)). intros s1 _ <-.
    pose proof (do_io_ends iin o (if isdir then [IoRead] else c_io cr) s1) as H.
    destruct (eff_io cf iin o (if isdir then [IoRead] else c_io cr) (m_fs s1)) as [f' [|]].
    - apply (ends_after H). intros s2 _ <-. destruct (c_ok cr || isdir); [apply returns_ret | apply fatal_nf].
    - apply fatal_first, H.
  Qed.

  Lemma work_nf iin o s : quiet s -> ends_nf s (eff_work codec cf iin o (m_fs s)) (work codec cf [] iin o s).
  Proof.
    intro Q. unfold work, eff_work. destruct (c_decompress cf); [|apply schedule_nf, Q].
    pose proof (main_reads_ends iin (hdr_reads (input_data (m_fs s) iin)) s) as H.
    destruct (eff_main_reads _ iin (m_fs s)).
    2:{ apply fatal_first, H. }
    apply (ends_after H). intros s1 F1 E1. rewrite <- E1. pose proof (fr2_quiet _ _ _ F1 Q) as Q1.
    destruct (hdr_ok _); [apply schedule_nf, Q1|]. destruct (_ && _); [|apply fatal_nf].
    apply (ends_after (do_write_returns false o _ s1)). intros s2 F2 <-. apply schedule_nf, (fr2_quiet _ _ _ F2 Q1).
  Qed.

  Definition boundary (s : mstate) : Prop :=
    m_opathn s = None /\ m_blocked s = false /\ m_pint s = false /\ m_pterm s = false.

  Definition res_of_end (e : oend) (s' : mstate) : res disp :=
    match e with ENext d => Ret d s' | EStop o w => Stop o w s' end.

  (* how run1 ends, in the terms of op_effect: file system, whether it warned, how it went on *)
  Definition op_ends (s : mstate) (f : fs) (w : bool) (en : oend) (r : res disp) : Prop :=
    exists s', r = res_of_end en s' /\ m_fs s' = f /\ m_hist s' = m_hist s /\
               (forall d, en = ENext d -> m_warned s' = (m_warned s || w) /\ boundary s').

  Lemma op_from s s1 w f w' en r : fr2 w s s1 -> op_ends s1 f w' en r -> op_ends s f (w || w') en r.
  Proof.
    intros (_ & _ & _ & Fh & Fw) (s' & R & E & H & W). exists s'. rewrite <- Fh, orb_assoc, <- Fw. auto.
  Qed.

  Lemma op_after {A} {c : M A} {k : A -> M disp} {s a w f o f' w' en} :
    returns s a w f o (c s) ->
    (forall s1, fr2 w s s1 -> m_fs s1 = f -> m_opathn s1 = o -> op_ends s1 f' w' en (k a s1)) ->
    op_ends s f' (w || w') en (bind c k s).
  Proof. intros R H. apply (after R). intros s1 F E O. apply (op_from s s1 _ _ _ _ _ F), H; assumption. Qed.

  Lemma op_after0 {A} {c : M A} {k : A -> M disp} {s a f o f' w' en} :
    returns s a false f o (c s) ->
    (forall s1, fr2 false s s1 -> m_fs s1 = f -> m_opathn s1 = o -> op_ends s1 f' w' en (k a s1)) ->
    op_ends s f' w' en (bind c k s).
  Proof. exact op_after. Qed.

  Lemma op_fatal {A} (c : M A) k s o tag f w :
    m_opathn s = o -> fatal_res (c s) tag s f -> op_ends s (eff_cleanup o f) w (fatal_end tag) (bind c k s).
  Proof.
    intros <- (s' & R & E & H). exists s'. unfold bind. rewrite R. split; [reflexivity|]. split; [exact E|]. split; [exact H|].
    discriminate.
  Qed.

  Lemma bind_if_get {A B} (b : mstate -> bool) (c1 c2 : M A) (k : A -> M B) s :
    bind (fun s => if b s then c1 s else c2 s) k s = if b s then bind c1 k s else bind c2 k s.
  Proof. unfold bind. destruct (b s); reflexivity. Qed.

  Lemma tail_nf (d : disp) s :
    quiet s -> m_opathn s = None -> op_ends s (m_fs s) false (ENext d) ((sti ;;; input_uninit [] ;;; ret d) s).
  Proof.
    intros [A B] C.
    assert (S : sti s = Ret tt (set_blocked s false)) by (unfold sti; rewrite A, B; reflexivity).
    destruct (sys_returns (cleanup []) false KClose sys_close_nop (set_blocked s false)) as (s1 & R & F & E & O); [discriminate|].
    unfold input_uninit, bind, sys. rewrite S, R. exists s1. split; [reflexivity|]. split; [exact E|].
    destruct F as (Fb & Fi & Ft & Fh & Fw). split; [exact Fh|]. intros _ _. split; [exact Fw|].
    unfold boundary. rewrite O, Fb, Fi, Ft. auto.
  Qed.

  Lemma bind_assoc {A B C} (c : M A) (f : A -> M B) (k : B -> M C) s :
    bind (bind c f) k s = bind c (fun a => bind (f a) k) s.
  Proof. unfold bind. destruct (c s); reflexivity. Qed.

  (* what is between output_init() and sti(): [c] is work(), [c2] what follows it *)
  Lemma body_nf (c c2 : M unit) (d : disp) s x w2 f2 :
    quiet s -> ends_nf s x (c s) ->
    (forall s1, m_fs s1 = fst x -> m_opathn s1 = m_opathn s -> returns s1 tt w2 f2 None (c2 s1)) ->
    op_ends s (match snd x with Some _ => eff_cleanup (m_opathn s) (fst x) | None => f2 end)
            (match snd x with Some _ => false | None => w2 end)
            (match snd x with Some tag => fatal_end tag | None => ENext d end)
            ((dd <- (c;;; c2;;; ret d);; sti;;; input_uninit [];;; ret dd) s).
  Proof.
    intros Q H H2. destruct x as [f' [tag|]]; cbn [fst snd] in *; [apply op_fatal, fatal_first, H; reflexivity|].
    assert (R : returns s d (false || (w2 || false)) f2 None ((c;;; c2;;; ret d) s)).
    { apply (returns_bind H). intros s1 E O. apply (returns_bind (H2 s1 E O)). intros s2 <- <-. apply returns_ret. }
    cbn [orb] in R. rewrite orb_false_r in R. rewrite <- (orb_false_r w2). apply (op_after R).
    intros s2 F <- O. apply tail_nf; [exact (fr2_quiet _ _ _ F Q) | exact O].
  Qed.

  Lemma regf_uninit_nf iout st s :
    returns s tt (snd (eff_regf_uninit iout st (m_fs s))) (fst (eff_regf_uninit iout st (m_fs s))) None
            (regf_uninit [] iout st s).
  Proof.
    unfold regf_uninit, eff_regf_uninit. cbv zeta. cbn [fst snd].
    apply ok_then; [intro; reflexivity|]. intros s1 <- _. cbv beta iota. rewrite !bind_assoc.
    eapply returns_then; [destruct (negb _); [apply warn_returns | apply returns_ret]|]. intros s2 <- _.
    rewrite bind_assoc. apply ok_then; [intro; reflexivity|]. intros s3 <- _. cbv beta iota.
    eapply returns_bind0; [apply returns_ret|]. intros s4 <- _.
    apply ok_then; [intro; reflexivity|]. intros s5 <- _. cbv beta iota.
    eapply returns_bind0; [apply returns_ret|]. intros s6 <- _.
    apply ok_then; [intro; reflexivity|]. intros s7 <- _. cbv beta iota.
    eapply returns_bind0; [apply returns_ret|]. intros s8 <- _.
    eexists. split; [reflexivity|]. split; [frt | split; reflexivity].
  Qed.

  Lemma oprnd_rm_nf op s :
    returns s tt (snd (eff_oprnd_rm op (m_fs s))) (fst (eff_oprnd_rm op (m_fs s))) (m_opathn s) (oprnd_rm [] op s).
  Proof.
    unfold oprnd_rm, eff_oprnd_rm.
    eapply returns_bind0; [apply (sys_returns _ _ _ (fun f => sys_unlink f op)), unlink_not_hang|].
    intros s1 E O. rewrite <- O. destruct (sys_unlink (m_fs s) op) as [f' r]. cbn [fst snd] in *. rewrite <- E.
    destruct r as [u|e|]; try apply returns_ret.
    destruct (N.eqb e ENOENT); eexists; (split; [reflexivity|]); (split; [frt | split; reflexivity]).
  Qed.

  Lemma fr2_boundary w s s' : fr2 w s s' -> m_opathn s' = m_opathn s -> boundary s -> boundary s'.
  Proof. unfold boundary. intros (-> & -> & -> & _) ->. auto. Qed.

  Lemma nonfile_nf iin o s :
    quiet s -> m_opathn s = None -> (forall i, o <> OFile i) ->
    let x := eff_work codec cf iin o (m_fs s) in
    op_ends s (fst x) false (match snd x with Some tag => fatal_end tag | None => ENext DDone end)
      ((d <- (work codec cf [] iin o;;; ret tt;;; ret DDone);; sti;;; input_uninit [];;; ret d) s).
  Proof.
    intros Q O Ho x.
    pose proof (body_nf _ (ret tt) DDone s x false (fst x) Q (work_nf iin o s Q)) as H. rewrite O in H.
    destruct x as [f3 [tag|]]; apply H; intros s1 <- <-; apply returns_ret.
  Qed.

  Lemma file_nf iin iout st op q s :
    quiet s -> m_opathn s = Some q ->
    let x := eff_work codec cf iin (OFile iout) (m_fs s) in
    let r := eff_regf_uninit iout st (fst x) in
    let k := if c_keep cf then (fst r, false) else eff_oprnd_rm op (fst r) in
    op_ends s (match snd x with Some _ => fst (sys_unlink (fst x) q) | None => fst k end)
            (match snd x with Some _ => false | None => snd r || snd k end)
            (match snd x with Some tag => fatal_end tag | None => ENext DDone end)
      ((d <- (work codec cf [] iin (OFile iout);;;
              (regf_uninit [] iout st;;; (if c_keep cf then ret tt else oprnd_rm [] op));;; ret DDone);;
        sti;;; input_uninit [];;; ret d) s).
  Proof.
    intros Q O x r k.
    pose proof (body_nf _ (regf_uninit [] iout st;;; (if c_keep cf then ret tt else oprnd_rm [] op)) DDone s x
                  (snd r || snd k) (fst k) Q (work_nf _ _ s Q)) as H.
    rewrite O in H. apply H. intros s1 E _. unfold k, r. rewrite <- E.
    apply (returns_bind (regf_uninit_nf iout st s1)). intros s2 <- O2. rewrite <- O2.
    destruct (c_keep cf); [apply returns_ret | apply oprnd_rm_nf].
  Qed.

  Lemma run1_nf op s : boundary s ->
    let e := op_effect codec cf op (m_fs s) in op_ends s (e_fs e) (e_warn e) (e_end e) (run1 codec cf [] op s).
  Proof.
    intros B. pose proof B as (Bo & _ & Q). unfold run1, op_effect.
    pose proof (input_init_nf op s) as HI.
    destruct (eff_input_init cf op (m_fs s)) as [t|iin st|]; cbn [e_fs e_warn e_end].
    3:{ destruct HI as (s1 & R & F & E). exists s1. unfold bind. rewrite R. split; [reflexivity|]. split; [exact E|].
        split; [apply F | discriminate]. }
    { (* skipped by input_init() *)
      apply (op_after (w' := false) HI). intros s1 F E O. exists s1. split; [reflexivity|]. split; [exact E|].
      split; [reflexivity|]. intros _ _. rewrite orb_false_r. split; [reflexivity | exact (fr2_boundary _ _ _ F O B)]. }
    apply (op_after0 HI). intros s1 F1 E1 O1. rewrite Bo in O1.
    (* cli() *)
    unfold bind at 1. cbn [modify]. set (s2 := set_blocked s1 true).
    assert (Q2 : quiet s2) by exact (fr2_quiet _ _ _ F1 Q).
    change (op_ends s1) with (op_ends s2). change (m_fs s2 = m_fs s) in E1. change (m_opathn s2 = None) in O1.
    clearbody s2. rewrite <- E1. clear s s1 B Bo Q HI F1 E1.
    unfold output_init. destruct (c_outmode cf).
    - pose proof (nonfile_nf iin OStdout s2 Q2 O1 ltac:(discriminate)) as H. cbv zeta in H.
      destruct (eff_work codec cf iin OStdout (m_fs s2)) as [f3 [tag|]]; exact H.
    - pose proof (nonfile_nf iin ODiscard s2 Q2 O1 ltac:(discriminate)) as H. cbv zeta in H.
      destruct (eff_work codec cf iin ODiscard (m_fs s2)) as [f3 [tag|]]; exact H.
    - destruct (out_name (c_decompress cf) op) as [q|]; cbn [e_fs e_warn e_end].
      2:{ apply (op_fatal _ _ _ None); [exact O1 | apply fatal_nf]. }
      rewrite bind_if_get. destruct (_ && same_file (m_fs s2) q st); cbn [e_fs e_warn e_end].
      { (* the output name leads to the input: skipped *)
        apply (op_after (w' := false) (skip_nf _ _ s2)). intros s3 F <- O. rewrite O1 in O.
        apply tail_nf; [exact (fr2_quiet _ _ _ F Q2) | exact O]. }
      set (f1 := if c_force cf then _ else m_fs s2). rewrite bind_assoc.
      eapply (op_after0 (a := tt) (f := f1) (o := m_opathn s2)).
      { unfold f1. destruct (c_force cf); [|apply returns_ret].
        eapply returns_bind0; [apply (sys_returns _ _ _ (fun f => sys_unlink f q)), unlink_not_hang|].
        intros s3 <- <-. destruct (snd (sys_unlink (m_fs s2) q)) as [u|e|]; try apply returns_ret.
        destruct (N.eqb e ENOENT); [apply returns_ret|]. eexists. split; [reflexivity|]. split; [frt | split; reflexivity]. }
      intros s3 F3 E3 O3. rewrite O1 in O3. pose proof (fr2_quiet _ _ _ F3 Q2) as Q3. clearbody f1. subst f1. clear s2 O1 Q2 F3.
      rewrite bind_assoc. eapply op_after0; [apply sys_returns, creat_not_hang|]. intros s4 F4 E4 O4. rewrite O3 in O4.
      pose proof (fr2_quiet _ _ _ F4 Q3) as Q4.
      cbv beta in E4 |- *. destruct (sys_creat_excl (m_fs s3) q _ _ _ _) as [f2 [iout|e|]] eqn:Ec; cbn [fst snd e_fs e_warn e_end] in *.
      + (* created: opathn is set *)
        pose proof (file_nf iin iout st op q (set_opathn s4 (Some q)) Q4 eq_refl) as H. cbv zeta in H.
        change (m_fs (set_opathn s4 (Some q))) with (m_fs s4) in H. rewrite E4 in H.
        destruct (eff_work codec cf iin (OFile iout) f2) as [f3 [tag|]]; cbn [fst snd] in H; [exact H|].
        destruct (eff_regf_uninit iout st f3) as [f4 w1]. cbn [fst snd] in H.
        destruct (if c_keep cf then _ else _) as [f5 w2]. exact H.
      + (* not created: skipped *)
        rewrite <- (creat_err (m_fs s3) q _ _ _ _ e) by (rewrite Ec; reflexivity). rewrite Ec. cbn [fst]. rewrite <- E4.
        apply (op_after (w' := false) (skip_nf _ _ s4)). intros s5 F5 <- O5. rewrite O4 in O5.
        apply tail_nf; [exact (fr2_quiet _ _ _ F5 Q4) | exact O5].
      + exfalso. apply (creat_not_hang (m_fs s3) q (N.land (st_mode st) open_out_mode_mask) (c_uid cf) (c_gid cf) (c_now cf)).
        rewrite Ec. reflexivity.
  Qed.

  Lemma run_op_nf op s : boundary s ->
    let e := op_effect codec cf op (m_fs s) in
    exists s' h,
      m_fs s' = e_fs e /\ m_hist s' = h :: m_hist s /\
      h_op h = op /\ h_before h = m_fs s /\ h_after h = e_fs e /\
      match e_end e with
      | ENext d => run_op codec cf [] op s = Ret tt s' /\ h_disp h = d /\
                   m_warned s' = (m_warned s || e_warn e) /\ boundary s'
      | EStop o w => run_op codec cf [] op s = Stop o w s' /\ h_disp h = DAborted w
      end.
  Proof.
    intros B e. unfold run_op.
    set (s0 := set_cleanfail (set_rmfail s false) false).
    assert (B0 : boundary s0) by exact B.
    destruct (run1_nf op s0 B0) as (s1 & R & E & H & W). change (m_fs s0) with (m_fs s) in *.
    fold e in R, E, W. rewrite R.
    destruct (e_end e) as [d|o w]; cbn [res_of_end].
    - exists (push_hist s1 (mk_hentry op s0 s1 d)), (mk_hentry op s0 s1 d).
      destruct (W d eq_refl) as [W1 W2]. cbn. rewrite H.
      repeat split; auto; apply W2.
    - exists (push_hist s1 (mk_hentry op s0 s1 (DAborted w))), (mk_hentry op s0 s1 (DAborted w)).
      cbn. rewrite H. repeat split; auto.
  Qed.

  Lemma finish_nf s :
    exists s', finish cf [] s = (s', Exit (if m_warned s then exit_if_warned else exit_if_clean)) /\
               m_fs s' = m_fs s /\ m_hist s' = m_hist s.
  Proof.
    unfold finish. destruct (c_outmode cf); cbn; eexists; (split; [reflexivity|]); split; reflexivity.
  Qed.

  Lemma run_ops_nf ops : forall s, boundary s ->
    let '(s', o) := run_ops codec cf [] ops s in
    (m_fs s', o) = run_effect codec cf ops (m_fs s) (m_warned s).
  Proof.
    induction ops as [|op ops IH]; intros s B; cbn [run_ops run_effect].
    - destruct (finish_nf s) as (s' & R & E & _). rewrite R, E. reflexivity.
    - destruct (run_op_nf op s B) as (s' & h & E & _ & _ & _ & _ & H).
      destruct (e_end (op_effect codec cf op (m_fs s))) as [d|o w].
      + destruct H as (R & _ & W & B'). rewrite R. specialize (IH s' B').
        rewrite E, W in IH. exact IH.
      + destruct H as (R & _). rewrite R, E. reflexivity.
  Qed.

  Lemma init_boundary f : boundary (init_state f).
  Proof. repeat split. Qed.

  Theorem run_is_fold f ops : run codec cf f ops [] = run_effect codec cf ops f false.
  Proof.
    unfold run, run_full. pose proof (run_ops_nf ops (init_state f) (init_boundary f)) as H.
    destruct (run_ops codec cf [] ops (init_state f)) as [s o]. exact H.
  Qed.
End NF.
