(* Basic facts about the abstract file system, what its system calls return, and the
   naming functions. *)
From Coq Require Import List NArith Arith Bool String Ascii Lia.
From LBZ Require Import Gen.FrontTab Front.FsModel Front.MainLoop.
Import ListNotations.
Local Open Scope N_scope.

Section AssocFacts.
  Context {K V : Type}.
  Variable eqb : K -> K -> bool.
  Hypothesis eqb_eq : forall a b, eqb a b = true <-> a = b.

  Lemma eqb_refl' a : eqb a a = true.
  Proof. apply eqb_eq. reflexivity. Qed.

  Lemma eqb_neq' a b : a <> b -> eqb a b = false.
  Proof. intro H. destruct (eqb a b) eqn:E; auto. apply eqb_eq in E. contradiction. Qed.

  Lemma alook_arem_eq k (l : list (K * V)) : alook eqb k (arem eqb k l) = None.
  Proof.
    induction l as [|[k' v] l IH]; simpl; auto.
    destruct (eqb k' k) eqn:E; auto. simpl. rewrite E. auto.
  Qed.

  Lemma alook_arem_neq k k' (l : list (K * V)) : k <> k' -> alook eqb k' (arem eqb k l) = alook eqb k' l.
  Proof.
    intro N. induction l as [|[k0 v] l IH]; simpl; auto.
    destruct (eqb k0 k) eqn:E.
    - apply eqb_eq in E. subst k0. rewrite (eqb_neq' _ _ N). auto.
    - simpl. destruct (eqb k0 k'); auto.
  Qed.

  Lemma alook_aset_eq k v (l : list (K * V)) : alook eqb k (aset eqb k v l) = Some v.
  Proof. unfold aset. simpl. rewrite eqb_refl'. reflexivity. Qed.

  Lemma alook_aset_neq k k' v (l : list (K * V)) : k <> k' -> alook eqb k' (aset eqb k v l) = alook eqb k' l.
  Proof. intro N. unfold aset. simpl. rewrite (eqb_neq' _ _ N). apply alook_arem_neq; auto. Qed.

  Lemma alook_In k v (l : list (K * V)) : alook eqb k l = Some v -> In (k, v) l.
  Proof.
    induction l as [|[k0 v0] l IH]; simpl; try discriminate.
    destruct (eqb k0 k) eqn:E.
    - apply eqb_eq in E. intro H. inversion H. subst. auto.
    - auto.
  Qed.
End AssocFacts.

Lemma kindc_eqb_eq a b : kindc_eqb a b = true <-> a = b.
Proof.
  unfold kindc_eqb. rewrite Nat.eqb_eq. split; [|intros ->; reflexivity].
  destruct a, b; simpl; intro H; try reflexivity; discriminate.
Qed.

Lemma nlook_set_names f n p : nlook (set_names f n) p = alook String.eqb p n.
Proof. reflexivity. Qed.
Lemma ilook_set_names f n i : ilook (set_names f n) i = ilook f i.
Proof. reflexivity. Qed.
Lemma nlook_set_inodes f n p : nlook (set_inodes f n) p = nlook f p.
Proof. reflexivity. Qed.
Lemma nlook_set_stdout f o p : nlook (set_stdout f o) p = nlook f p.
Proof. reflexivity. Qed.
Lemma ilook_set_stdout f o i : ilook (set_stdout f o) i = ilook f i.
Proof. reflexivity. Qed.

Lemma nlook_upd_inode f i g p : nlook (upd_inode f i g) p = nlook f p.
Proof. unfold upd_inode. destruct (ilook f i); reflexivity. Qed.

Lemma names_upd_inode f i g : f_names (upd_inode f i g) = f_names f.
Proof. unfold upd_inode. destruct (ilook f i); reflexivity. Qed.

Lemma ilook_upd_inode_neq f i g j : i <> j -> ilook (upd_inode f i g) j = ilook f j.
Proof.
  intro N. unfold upd_inode. destruct (ilook f i) eqn:E; auto.
  unfold ilook, set_inodes. simpl. apply alook_aset_neq; auto. apply N.eqb_eq.
Qed.

Lemma ilook_upd_inode_eq f i g nd : ilook f i = Some nd -> ilook (upd_inode f i g) i = Some (g nd).
Proof.
  intro E. unfold upd_inode. rewrite E. unfold ilook, set_inodes. simpl.
  rewrite N.eqb_refl. reflexivity.
Qed.

Lemma unlink_cases f p :
  (exists e, sys_unlink f p = (f, SErr e)) \/ sys_unlink f p = (set_names f (arem String.eqb p (f_names f)), SOk tt).
Proof.
  unfold sys_unlink. destruct (nlook f p) as [[i|t]|]; [destruct (ilook f i) as [nd|]; [destruct (i_kind nd)|]| |]; eauto.
Qed.

Lemma unlink_inodes f p : f_inodes (fst (sys_unlink f p)) = f_inodes f.
Proof. destruct (unlink_cases f p) as [[e ->]| ->]; reflexivity. Qed.

Lemma unlink_ilook f p i : ilook (fst (sys_unlink f p)) i = ilook f i.
Proof. unfold ilook. rewrite unlink_inodes. reflexivity. Qed.

Lemma unlink_stdout f p : f_stdout (fst (sys_unlink f p)) = f_stdout f.
Proof. destruct (unlink_cases f p) as [[e ->]| ->]; reflexivity. Qed.

Lemma unlink_nlook_other f p q : p <> q -> nlook (fst (sys_unlink f p)) q = nlook f q.
Proof.
  intro N. destruct (unlink_cases f p) as [[e ->]| ->]; [reflexivity|].
  unfold nlook. cbn. apply (alook_arem_neq String.eqb String.eqb_eq). exact N.
Qed.

Lemma unlink_result f p :
  (snd (sys_unlink f p) = SOk tt /\ nlook (fst (sys_unlink f p)) p = None) \/
  (exists e, snd (sys_unlink f p) = SErr e /\ fst (sys_unlink f p) = f).
Proof.
  destruct (unlink_cases f p) as [[e ->]| ->]; [right; exists e; split; reflexivity | left].
  split; [reflexivity | unfold nlook; cbn; apply (alook_arem_eq String.eqb)].
Qed.

Lemma read_fs f i : fst (sys_read f i) = f.
Proof. unfold sys_read. destruct (ilook f i) as [nd|]; [destruct (i_kind nd)|]; reflexivity. Qed.

Lemma read_not_hang f i : snd (sys_read f i) <> SHang.
Proof. unfold sys_read. destruct (ilook f i) as [nd|]; [destruct (i_kind nd)|]; discriminate. Qed.

Lemma read_some f i nd :
  ilook f i = Some nd -> sys_read f i = (f, match i_kind nd with KDir => SErr EISDIR | _ => SOk tt end).
Proof. unfold sys_read. intros ->. destruct (i_kind nd); reflexivity. Qed.

Lemma open_rd_resolve f p iin :
  sys_open_rd f p = SOk iin -> resolve f SYMLOOP_MAX p = SOk iin /\ exists nd, ilook f iin = Some nd.
Proof.
  unfold sys_open_rd. destruct (resolve f SYMLOOP_MAX p) as [i|e|]; try discriminate.
  destruct (ilook f i) as [nd|] eqn:E; try discriminate. intro H.
  assert (i = iin) by (destruct (i_kind nd); congruence). subst i. split; [reflexivity | eauto].
Qed.

Lemma lstat_reg f p st : sys_lstat f p = SOk st -> st_kind st = SReg -> exists i, nlook f p = Some (DLink i).
Proof.
  unfold sys_lstat. destruct (nlook f p) as [[i|t]|]; try discriminate.
  - intros _ _. eauto.
  - intro H. inversion H; subst. cbn. discriminate.
Qed.

Lemma fstat_not_hang f i : sys_fstat f i <> SHang.
Proof. unfold sys_fstat. destruct (ilook f i); discriminate. Qed.

Lemma lstat_not_hang f p : sys_lstat f p <> SHang.
Proof. unfold sys_lstat. destruct (nlook f p) as [[i|t]|]; try discriminate. destruct (ilook f i); discriminate. Qed.

Lemma unlink_not_hang f p : snd (sys_unlink f p) <> SHang.
Proof. destruct (unlink_result f p) as [[H _]|[e [H _]]]; rewrite H; discriminate. Qed.

Lemma unlink_ok f p :
  nlook f p <> None ->
  (forall i, nlook f p = Some (DLink i) -> input_is_dir f i = false) ->
  sys_unlink f p = (set_names f (arem String.eqb p (f_names f)), SOk tt).
Proof.
  intros H1 H2. unfold sys_unlink. destruct (nlook f p) as [[i|t]|] eqn:E; try congruence.
  specialize (H2 i eq_refl). unfold input_is_dir in H2.
  destruct (ilook f i) as [nd|]; auto. destruct (i_kind nd); auto. discriminate.
Qed.

Lemma max_list_ge l x : In x l -> x <= max_list l.
Proof.
  induction l as [|y l IH]; simpl; [tauto|]. intros [->|H].
  - apply N.le_max_l.
  - etransitivity; [apply IH; auto | apply N.le_max_r].
Qed.

Lemma fresh_not_in_inodes f : ilook f (fresh_ino f) = None.
Proof.
  destruct (ilook f (fresh_ino f)) eqn:E; auto. exfalso.
  unfold ilook in E. apply (alook_In N.eqb N.eqb_eq) in E.
  assert (H : In (fresh_ino f) (map fst (f_inodes f))) by (apply in_map_iff; eexists; split; [|exact E]; reflexivity).
  apply max_list_ge in H. unfold fresh_ino in H at 1. lia.
Qed.

Lemma fresh_not_named f p i : nlook f p = Some (DLink i) -> i <> fresh_ino f.
Proof.
  intros E. unfold nlook in E. apply (alook_In String.eqb String.eqb_eq) in E.
  assert (H : In i (map dentry_ino (f_names f))) by (apply in_map_iff; exists (p, DLink i); split; [reflexivity | exact E]).
  apply max_list_ge in H. unfold fresh_ino. lia.
Qed.

Lemma creat_err f p m u g t e : snd (sys_creat_excl f p m u g t) = SErr e -> fst (sys_creat_excl f p m u g t) = f.
Proof.
  unfold sys_creat_excl. destruct (negb (creatable p)); simpl; auto.
  destruct (nlook f p); simpl; auto. discriminate.
Qed.

Lemma creat_not_hang f p m u g t : snd (sys_creat_excl f p m u g t) <> SHang.
Proof.
  unfold sys_creat_excl. destruct (negb (creatable p)); simpl; try discriminate.
  destruct (nlook f p); simpl; discriminate.
Qed.

Lemma creat_ok f p m u g t i :
  snd (sys_creat_excl f p m u g t) = SOk i ->
  let f' := fst (sys_creat_excl f p m u g t) in
  nlook f p = None /\ i = fresh_ino f /\
  nlook f' p = Some (DLink i) /\ (forall p', p' <> p -> nlook f' p' = nlook f p') /\
  ilook f' i = Some {| i_kind := KReg; i_mode := m; i_uid := u; i_gid := g; i_atime := t; i_mtime := t;
                       i_data := []; i_committed := false |} /\
  (forall j, j <> i -> ilook f' j = ilook f j).
Proof.
  unfold sys_creat_excl. destruct (negb (creatable p)); simpl; try discriminate.
  destruct (nlook f p) eqn:E; simpl; try discriminate.
  intro H. inversion H. subst. unfold nlook, ilook. cbn [f_names f_inodes]. repeat split.
  - apply (alook_aset_eq String.eqb String.eqb_eq).
  - intros p' Hp. apply (alook_aset_neq String.eqb String.eqb_eq). auto.
  - apply (alook_aset_eq N.eqb N.eqb_eq).
  - intros j Hj. apply (alook_aset_neq N.eqb N.eqb_eq). auto.
Qed.

Lemma list_ascii_app a b :
  list_ascii_of_string (a ++ b) = (list_ascii_of_string a ++ list_ascii_of_string b)%list.
Proof. induction a; simpl; congruence. Qed.

Lemma rev_s_app a b : rev_s (a ++ b) = (rev_s b ++ rev_s a)%list.
Proof. unfold rev_s. rewrite list_ascii_app. apply rev_app_distr. Qed.

Lemma length_list_ascii s : List.length (list_ascii_of_string s) = String.length s.
Proof. induction s; simpl; congruence. Qed.

Lemma length_rev_s s : List.length (rev_s s) = String.length s.
Proof. unfold rev_s. rewrite rev_length. apply length_list_ascii. Qed.

Lemma prefixb_app p l : prefixb p (p ++ l)%list = true.
Proof. induction p; simpl; auto. rewrite Ascii.eqb_refl. auto. Qed.

Lemma ends_with_app x c : ends_with (x ++ c) c = true.
Proof. unfold ends_with. rewrite rev_s_app. apply prefixb_app. Qed.

Lemma append_nil_r s : (s ++ "")%string = s.
Proof. induction s; simpl; congruence. Qed.

Lemma strip_suffix_app x c : strip_suffix (x ++ c) c = x.
Proof.
  unfold strip_suffix. rewrite rev_s_app. rewrite <- (length_rev_s c).
  rewrite skipn_app, Nat.sub_diag, skipn_all. simpl.
  unfold rev_s. rewrite rev_involutive. apply string_of_list_ascii_of_string.
Qed.

Lemma prefixb_true_split p l : prefixb p l = true -> exists r, l = (p ++ r)%list.
Proof.
  revert l. induction p as [|a p IH]; intros l H; simpl in *.
  - exists l. reflexivity.
  - destruct l as [|b l]; try discriminate. apply andb_true_iff in H as [H1 H2].
    apply Ascii.eqb_eq in H1. subst. destruct (IH _ H2) as [r ->]. exists r. reflexivity.
Qed.

Lemma string_of_list_app l1 l2 :
  string_of_list_ascii (l1 ++ l2) = (string_of_list_ascii l1 ++ string_of_list_ascii l2)%string.
Proof. induction l1; simpl; congruence. Qed.

Lemma ends_with_split s c : ends_with s c = true -> s = (strip_suffix s c ++ c)%string.
Proof.
  unfold ends_with, strip_suffix. intro H. apply prefixb_true_split in H as [r H].
  rewrite H. rewrite <- (length_rev_s c). rewrite skipn_app, Nat.sub_diag, skipn_all. simpl.
  assert (E : list_ascii_of_string s = (rev r ++ list_ascii_of_string c)%list).
  { unfold rev_s in H. apply (f_equal (@rev ascii)) in H. rewrite rev_involutive in H.
    rewrite H, rev_app_distr. rewrite rev_involutive. reflexivity. }
  transitivity (string_of_list_ascii (list_ascii_of_string s)).
  - symmetry. apply string_of_list_ascii_of_string.
  - rewrite E, string_of_list_app, string_of_list_ascii_of_string. reflexivity.
Qed.

Lemma string_app_inv_head a b c : (a ++ b)%string = (a ++ c)%string -> b = c.
Proof. induction a; simpl; intro H; auto. inversion H. auto. Qed.

Lemma string_length_app a b : String.length (a ++ b) = (String.length a + String.length b)%nat.
Proof. induction a; simpl; auto. Qed.

(* q is one of the names visited when p is resolved (including a dangling last target) *)
Fixpoint onchain (f : fs) (n : nat) (p q : path) : bool :=
  String.eqb p q ||
  match nlook f p with
  | Some (DSym t) => match n with O => false | S n' => onchain f n' t q end
  | _ => false
  end.

Lemma resolve_mono f n m p i : resolve f n p = SOk i -> (n <= m)%nat -> resolve f m p = SOk i.
Proof.
  revert m p. induction n as [|n IH]; intros m p H L; destruct m as [|m]; cbn in *;
    destruct (nlook f p) as [[j|t]|]; try congruence; try lia.
  apply IH; auto. lia.
Qed.

Lemma resolve_frame f f' q n p :
  (forall p', p' <> q -> nlook f' p' = nlook f p') -> onchain f n p q = false -> resolve f' n p = resolve f n p.
Proof.
  intro Hn. revert p. induction n as [|n IH]; intros p H; cbn in H |- *;
    apply orb_false_iff in H as [H1 H2]; apply String.eqb_neq in H1; rewrite (Hn p H1);
    destruct (nlook f p) as [[j|t]|]; auto.
Qed.

Lemma resolve_names_eq f f' n p : f_names f' = f_names f -> resolve f' n p = resolve f n p.
Proof.
  intro E. revert p. induction n as [|n IH]; intro p; cbn; unfold nlook; rewrite E;
    destruct (alook String.eqb p (f_names f)) as [[j|t]|]; auto.
Qed.

Lemma resolve_named f n p i : resolve f n p = SOk i -> exists p', nlook f p' = Some (DLink i).
Proof.
  revert p. induction n as [|n IH]; intros p H; cbn in H; destruct (nlook f p) as [[j|t]|] eqn:E; try discriminate.
  - inversion H; subst. eauto.
  - inversion H; subst. eauto.
  - eauto.
Qed.

Lemma onchain_free f n p q i : resolve f n p = SOk i -> nlook f q = None -> onchain f n p q = false.
Proof.
  revert p. induction n as [|n IH]; intros p H Hq; cbn in H |- *;
    destruct (String.eqb_spec p q) as [->|Hp]; cbn [orb];
    try (rewrite Hq in H; discriminate); destruct (nlook f p) as [[j|t]|]; auto; discriminate.
Qed.

Lemma onchain_other f n p q i j :
  resolve f n p = SOk i -> nlook f q = Some (DLink j) -> j <> i -> onchain f n p q = false.
Proof.
  revert p. induction n as [|n IH]; intros p H Hq Hj; cbn in H |- *;
    destruct (String.eqb_spec p q) as [->|Hp]; cbn [orb];
    try (rewrite Hq in H; inversion H; congruence); destruct (nlook f p) as [[k|t]|]; eauto; discriminate.
Qed.

Lemma onchain_resolves f n p q i :
  resolve f n p = SOk i -> onchain f n p q = true -> exists m, (m <= n)%nat /\ resolve f m q = SOk i.
Proof.
  revert p. induction n as [|n IH]; intros p H Hc; cbn in H, Hc;
    destruct (String.eqb_spec p q) as [->|Hp]; cbn [orb] in Hc.
  - exists O. split; [lia | exact H].
  - destruct (nlook f p) as [[j|t]|]; discriminate.
  - exists (S n). split; [lia | exact H].
  - destruct (nlook f p) as [[j|t]|]; try discriminate.
    destruct (IH t H Hc) as (m & Lm & Hm). exists m. split; [lia | exact Hm].
Qed.

Lemma resolve_link f n p i : nlook f p = Some (DLink i) -> resolve f n p = SOk i.
Proof. intro H. destruct n; cbn [resolve]; rewrite H; reflexivity. Qed.

Lemma resolve_none f n p : nlook f p = None -> resolve f n p = SErr ENOENT.
Proof. intro H. destruct n; cbn [resolve]; rewrite H; reflexivity. Qed.

Lemma onchain_link f n p q i : nlook f p = Some (DLink i) -> p <> q -> onchain f n p q = false.
Proof. intros H Hp. destruct n; cbn [onchain]; rewrite H, orb_false_r; apply String.eqb_neq; exact Hp. Qed.

Lemma onchain_none f n p q : nlook f p = None -> p <> q -> onchain f n p q = false.
Proof. intros H Hp. destruct n; cbn [onchain]; rewrite H, orb_false_r; apply String.eqb_neq; exact Hp. Qed.
