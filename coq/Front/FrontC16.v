(* C16: under EVERY fault/signal plan every started operand ends in one of the
   two states.  Proof by phase invariants in the Hoare logic of FrontHoare.v:
     A  nothing created yet (opathn = NULL): every older inode unchanged, every
        name except possibly the output name (removed under -f) unchanged;
     B  output created, opathn set, signals blocked: as A, plus the output name
        holds a new regular file containing what has been written so far;
     D  output closed successfully (opathn = NULL again) with the complete
        output; the input name is still there or has been removed.
   Every way out of a phase is examined: a failing call (fatal -> cleanup()
   unlinks the output -> A), a handled signal (same), SIGKILL (state as is), a
   signal with default action (only possible outside cli()..sti()). *)
From Coq Require Import List NArith Arith Bool String Ascii Lia.
From LBZ Require Import Gen.FrontTab Front.FsModel Front.MainLoop Front.FrontSpec Front.FrontLemmas
     Front.FrontNoFault Front.FrontProofs Front.FrontHoare Front.FrontSafety.
Import ListNotations.
Local Open Scope N_scope.

(* side condition on the regenerated signal set-up: halt() waits with the mask that cli() saved, in which
   setup_signals() has blocked SIGPIPE and SIGXFSZ; so a signal promoted by a failing worker thread cannot kill the
   process before the main thread has run cleanup() *)
Lemma sc_halt_mask :
  fatal_signals_blocked_in_halt = true /\ halt_suspend_mask = cli_saved_mask /\
  setup_blocked_set = "blocked"%string /\ blocked_signals = ["SIGPIPE"; "SIGXFSZ"]%string.
Proof. repeat split. Qed.

(* side condition on the regenerated flag: output_init() stat()s the output name and skips the operand when it
   leads to the file being read *)
Lemma sc_same_file_check :
  output_init_checks_same_file = true /\ same_file_under = ["if:force"]%string.
Proof. split; reflexivity. Qed.

Definition not_aborted (d : disp) : Prop := match d with DAborted _ => False | _ => True end.

(* Unless the source checks that the output name does not lead to the input file (flag regenerated from
   output_init()), -f on an operand that is a symbolic link is excluded. *)
Definition plain_op (cf : cfg) (b : fs) (op : path) : Prop :=
  output_init_checks_same_file = true \/ (c_force cf = true -> forall t, nlook b op <> Some (DSym t)).

Definition first_or_kept (cf : cfg) (b a : fs) (op : path) : Prop :=
  match c_outmode cf with OmRegf => first_state cf b a op | _ => tree_kept b a end.

Definition strict_first (y : why) : bool :=
  match y with
  | WSigHandled | WHang => true
  | WFatal t => negb (String.eqb t "close-in")
  | _ => false
  end.

(* what is proved about every operand that was started *)
Definition entry_ok (codec : cmode -> bytes -> cres) (cf : cfg) (h : hentry) : Prop :=
  h_cleanfail h = false -> plain_op cf (h_before h) (h_op h) ->
  match h_disp h with
  | DAborted WKill => kill_safe codec cf (h_before h) (h_after h) (h_op h)
  | DAborted y => safe codec cf (h_before h) (h_after h) (h_op h) (h_rmfail h) /\
                  (strict_first y = true -> first_or_kept cf (h_before h) (h_after h) (h_op h))
  | _ => safe codec cf (h_before h) (h_after h) (h_op h) (h_rmfail h)
  end.

Section C16.
  Variable codec : cmode -> bytes -> cres.
  Variable cf : cfg.
  Variable pl : plan.
  Variable b : fs.                 (* the file system when the operand is started *)
  Variable op : path.
  Variable q : path.               (* its output name *)
  Hypothesis Hq : out_name (c_decompress cf) op = Some q.

  Definition regf : bool := match c_outmode cf with OmRegf => true | _ => false end.

  Lemma q_neq_op : q <> op.
  Proof. eapply out_name_neq; eauto. Qed.

  (* Unless the source checks that the output name does not lead to the input file (regenerated flag), -f on an operand
     that is a symbolic link is outside the theorem (see force_symlink_witness). *)
  Definition plain : Prop :=
    output_init_checks_same_file = true \/ (c_force cf = true -> forall t, nlook b op <> Some (DSym t)).

  Definition rk (f : fs) : Prop :=
    plain -> forall i, resolve b SYMLOOP_MAX op = SOk i -> resolve f SYMLOOP_MAX op = SOk i.

  Definition fsA (f : fs) : Prop :=
    keeps b f /\ (forall p, p <> q -> nlook f p = nlook b p) /\
    (nlook f q = nlook b q \/ (regf = true /\ c_force cf = true /\ nlook f q = None)) /\ rk f.

  Definition qfree : Prop := nlook b q = None \/ (regf = true /\ c_force cf = true).

  Definition fsB (cm : bool) (j : N) (w : bytes) (f : fs) : Prop :=
    qfree /\ ilook b j = None /\ keeps b f /\ (forall p, p <> q -> nlook f p = nlook b p) /\
    nlook f q = Some (DLink j) /\
    (exists nd, ilook f j = Some nd /\ i_kind nd = KReg /\ i_committed nd = cm /\ i_data nd = w) /\
    rk f /\ (plain -> forall i, resolve b SYMLOOP_MAX op = SOk i -> i <> j).

  Definition fsD (j : N) (w : bytes) (f : fs) : Prop :=
    ilook b j = None /\ keeps b f /\ (forall p, p <> q -> p <> op -> nlook f p = nlook b p) /\
    nlook f q = Some (DLink j) /\
    (exists nd, ilook f j = Some nd /\ i_kind nd = KReg /\ i_committed nd = true /\ i_data nd = w) /\
    (nlook f op = nlook b op \/ nlook f op = None).

  Definition Wok (w : bytes) : Prop :=
    exists iin ndin, resolve b SYMLOOP_MAX op = SOk iin /\ ilook b iin = Some ndin /\
                     expected_output codec cf (i_data ndin) = Some w.

  Definition second (f : fs) (rm : bool) : Prop :=
    regf = true /\ exists j w, Wok w /\ fsD j w f /\ (nlook f op = None \/ rm = true \/ c_keep cf = true).

  Definition exit_fs (y : why) (f : fs) (rm : bool) : Prop :=
    match y with
    | WKill => fsA f \/ (regf = true /\ exists cm j w, fsB cm j w f) \/ (regf = true /\ exists j w, Wok w /\ fsD j w f)
    | WSigHandled | WHang => fsA f
    | WFatal t => if String.eqb t "close-in" then fsA f \/ second f rm else fsA f
    | WSigDefault | WSigSti => fsA f \/ second f rm
    end.

  Definition EX : eassn := fun _ y c => k_cleanfail c = true \/ exit_fs y (k_fs c) (k_rmfail c).

  Definition PA (bl : bool) : assn := fun c => k_opathn c = None /\ k_blocked c = bl /\ fsA (k_fs c).
  Definition PAc (bl : bool) : assn := fun c => k_cleanfail c = true \/ PA bl c.
  (* [o]: opathn is set from the creation of the output to the end of output_regf_uninit() *)
  Definition PB (o : option path) (cm : bool) (j : N) (w : bytes) : assn := fun c =>
    k_opathn c = o /\ k_blocked c = true /\ regf = true /\ fsB cm j w (k_fs c).
  Definition PD (bl : bool) (j : N) (w : bytes) : assn := fun c =>
    k_opathn c = None /\ k_blocked c = bl /\ regf = true /\ Wok w /\ fsD j w (k_fs c) /\
    (nlook (k_fs c) op = None \/ k_rmfail c = true \/ c_keep cf = true).

  Lemma fsA_refl : fsA b.
  Proof. split; [intros i nd H; exact H|]. split; [auto|]. split; [left; reflexivity|]. intros _ i H. exact H. Qed.

  Lemma rk_names f f' : f_names f' = f_names f -> rk f -> rk f'.
  Proof. intros E H Hp i Hi. rewrite (resolve_names_eq f f' _ _ E). apply H; auto. Qed.

  Lemma rk_frame f f' :
    (forall p', p' <> q -> nlook f' p' = nlook f p') ->
    (plain -> forall i, resolve f SYMLOOP_MAX op = SOk i -> onchain f SYMLOOP_MAX op q = false) ->
    rk f -> rk f'.
  Proof.
    intros Hn Hc H Hp i Hi. specialize (H Hp i Hi). rewrite (resolve_frame f f' q _ _ Hn); auto. eapply Hc; eauto.
  Qed.

  Lemma fsA_stdout f o : fsA f -> fsA (set_stdout f o).
  Proof. intros (H1 & H2 & H3 & H4). split; [exact H1|]. split; [exact H2|]. split; [exact H3|]. apply (rk_names f); [reflexivity | exact H4]. Qed.

  (* -f: the output name may be unlinked if it is not on the way from the operand to its file *)
  Lemma fsA_force_unlink :
    regf = true -> c_force cf = true ->
    (plain -> forall i, resolve b SYMLOOP_MAX op = SOk i -> onchain b SYMLOOP_MAX op q = false) ->
    fsA (fst (sys_unlink b q)).
  Proof.
    intros Hr Hf Hc. destruct fsA_refl as (H1 & H2 & H3 & H4). split; [|split; [|split]].
    - intros i nd Hi. rewrite unlink_ilook. auto.
    - intros p Hp. rewrite unlink_nlook_other; auto.
    - destruct (unlink_result b q) as [[_ E]|[e [_ E]]].
      + right. auto.
      + rewrite E. exact H3.
    - eapply rk_frame; [| exact Hc | exact H4]. intros p' Hp'. apply unlink_nlook_other. auto.
  Qed.

  Lemma fsA_creat f m u g t j :
    fsA f -> snd (sys_creat_excl f q m u g t) = SOk j -> fsB false j [] (fst (sys_creat_excl f q m u g t)).
  Proof.
    intros (H1 & H2 & H3 & H4) Hc. destruct (creat_ok _ _ _ _ _ _ _ Hc) as (Hfree & Hfresh & Nq & Nn & Ij & In).
    assert (Hj : ilook f j = None) by (rewrite Hfresh; apply fresh_not_in_inodes).
    assert (Hbj : ilook b j = None).
    { destruct (ilook b j) as [nd|] eqn:E; auto. apply H1 in E. congruence. }
    split; [|split; [|split; [|split; [|split; [|split; [|split]]]]]].
    - destruct H3 as [H3|(A & B & _)]; [left; congruence | right; auto].
    - exact Hbj.
    - intros i nd Hi. rewrite In; [apply H1; exact Hi | intros ->; congruence].
    - intros p Hp. rewrite Nn; auto.
    - exact Nq.
    - eexists. split; [exact Ij|]. repeat split.
    - eapply rk_frame; [exact Nn | | exact H4]. intros Hp i Hi. eapply onchain_free; eauto.
    - (* the file the operand leads to has a name in f, so it is not the new inode *)
      intros Hp i Hi Eij. subst i. specialize (H4 Hp _ Hi).
      destruct (resolve_named _ _ _ _ H4) as [p' Hp']. apply fresh_not_named in Hp'. congruence.
  Qed.

  Lemma fsB_upd cm cm' j w w' f (g : inode -> inode) :
    (forall nd, i_kind (g nd) = i_kind nd) ->
    (forall nd, i_committed nd = cm -> i_committed (g nd) = cm') ->
    (forall nd, i_data nd = w -> i_data (g nd) = w') ->
    fsB cm j w f -> fsB cm' j w' (upd_inode f j g).
  Proof.
    intros Gk Gc Gd (H0 & Hb & H1 & H2 & H3 & (nd & H4 & H5 & H6 & H7) & H8 & H9).
    split; [exact H0|]. split; [exact Hb|]. split; [|split; [|split; [|split; [|split]]]].
    - intros i nd' Hi. rewrite ilook_upd_inode_neq; auto. intros ->. congruence.
    - intros p Hp. rewrite nlook_upd_inode. auto.
    - rewrite nlook_upd_inode. exact H3.
    - exists (g nd). split; [apply ilook_upd_inode_eq; exact H4|]. rewrite Gk. repeat split; auto.
    - apply (rk_names f); [apply names_upd_inode | exact H8].
    - exact H9.
  Qed.

  Lemma fsB_write cm j w c f : fsB cm j w f -> fsB cm j (w ++ c) (eff_write cf (OFile j) c f).
  Proof.
    intro H. destruct c as [|x c]; [rewrite app_nil_r; exact H|].
    cbn [eff_write sys_write fst]. eapply fsB_upd; eauto; cbn; intros; congruence.
  Qed.

  Lemma fsB_unlink cm j w f : fsB cm j w f -> snd (sys_unlink f q) = SOk tt /\ fsA (fst (sys_unlink f q)).
  Proof.
    intros (H0 & Hb & H1 & H2 & H3 & (nd & H4 & H5 & _) & H8 & H9).
    assert (E : snd (sys_unlink f q) = SOk tt).
    { rewrite unlink_ok; [reflexivity | congruence|]. intros i Hi. rewrite H3 in Hi. inversion Hi; subst.
      unfold input_is_dir. rewrite H4, H5. reflexivity. }
    split; [exact E|]. destruct (unlink_result f q) as [[_ Nq]|[e [E' _]]]; [|congruence].
    split; [|split; [|split]].
    - intros i nd' Hi. rewrite unlink_ilook. apply H1. exact Hi.
    - intros p Hp. rewrite unlink_nlook_other; auto.
    - rewrite Nq. destruct H0 as [H0|[A B]]; [left; congruence | right; auto].
    - intros Hp i Hi. rewrite (resolve_frame f _ q); auto.
      + intros p' Hp'. apply unlink_nlook_other. auto.
      + eapply onchain_other; eauto. intro Ej. apply (H9 Hp i Hi). auto.
  Qed.

  Lemma fsB_fsD j w f : fsB true j w f -> fsD j w f.
  Proof.
    intros (H0 & Hb & H1 & H2 & H3 & Hn & _). split; [exact Hb|]. split; [exact H1|]. split; [auto|]. split; [exact H3|].
    split; [exact Hn|]. left. apply H2. intro E. apply q_neq_op. congruence.
  Qed.

  Lemma fsD_unlink_in j w f :
    fsD j w f ->
    fsD j w (fst (sys_unlink f op)) /\
    (snd (sys_unlink f op) = SOk tt -> nlook (fst (sys_unlink f op)) op = None).
  Proof.
    intros (Hb & H1 & H2 & H3 & Hn & H4).
    destruct (unlink_result f op) as [[E1 E2]|[e [E1 E2]]].
    - split; [|auto]. repeat split; auto.
      + intros i nd Hi. rewrite unlink_ilook. auto.
      + intros p Hp1 Hp2. rewrite unlink_nlook_other; auto.
      + rewrite unlink_nlook_other; auto. intro E. apply q_neq_op. congruence.
      + destruct Hn as (nd & A & B). exists nd. rewrite unlink_ilook. auto.
    - rewrite E2. split; [repeat split; auto|]. rewrite E1. discriminate.
  Qed.

  Lemma fsA_first f : plain -> fsA f -> first_state cf b f op.
  Proof.
    intros Hpl (H1 & H2 & H3 & H4). unfold first_state. rewrite Hq. split.
    - split; [apply H2; intro E; apply q_neq_op; congruence|]. split; [exact H1 | exact (H4 Hpl)].
    - unfold output_absent. destruct H3 as [H3|(_ & _ & H3)]; auto.
  Qed.

  Lemma fsB_intact cm j w f : plain -> fsB cm j w f -> input_intact b f op.
  Proof.
    intros Hpl (_ & _ & H1 & H2 & _ & _ & H8 & _).
    split; [apply H2; intro E; apply q_neq_op; congruence|]. split; [exact H1 | exact (H8 Hpl)].
  Qed.

  Lemma fsD_complete j w f : Wok w -> fsD j w f -> output_complete_closed codec cf b f op q.
  Proof.
    intros Hw (Hb & H1 & H2 & H3 & (nd & N1 & N2 & N3 & N4) & _). destruct Hw as (iin & ndin & A & B & C).
    exists iin, ndin, j, nd. rewrite N4. repeat split; auto.
  Qed.

  Lemma second_second f rm : second f rm -> second_state codec cf b f op rm.
  Proof.
    intros (_ & j & w & Hw & Hd & Hr). unfold second_state. rewrite Hq. split.
    - eapply fsD_complete; eauto.
    - unfold input_present. intro Hp. destruct Hr as [Hr|[Hr|Hr]]; auto.
  Qed.

  (* by a signal: SIGKILL at any call; SIGINT/SIGTERM with their default action only outside cli()..sti() *)
  Definition exits (P : assn) : Prop :=
    forall c, P c -> EX (Killed SIGKILL) WKill c /\ (k_blocked c = false -> forall sg, EX (Killed sg) WSigDefault c).

  Lemma PD_second bl j w c : PD bl j w c -> second (k_fs c) (k_rmfail c).
  Proof. intro H. split; [apply H|]. exists j, w. split; [apply H|]. split; apply H. Qed.

  Lemma exits_A bl : exits (PA bl).
  Proof. intros c H. split; [|intros _ sg]; right; left; apply H. Qed.
  Lemma exits_B o cm j w : exits (PB o cm j w).
  Proof.
    intros c (_ & Hb & Hr & H). split; [|congruence]. right. right. left. split; [exact Hr|]. exists cm, j, w. exact H.
  Qed.
  Lemma exits_D bl j w : exits (PD bl j w).
  Proof.
    intros c H. split; [|intros _ sg]; right; right; [right|eapply PD_second; eauto].
    split; [apply H|]. exists j, w. split; apply H.
  Qed.

  Lemma PAc_handled bl c sg : PAc bl c -> EX (Killed sg) WSigHandled c.
  Proof. intros [H|H]; [left; exact H|]. right. apply H. Qed.
  Lemma PA_hang bl c : PA bl c -> EX Hang WHang c.
  Proof. intro H. right. apply H. Qed.
  Lemma PAc_fatal bl c tag o : PAc bl c -> EX o (WFatal tag) c.
  Proof. intros [H|H]; [left; exact H|]. right. cbn. destruct (String.eqb tag "close-in"); [left|]; apply H. Qed.

  Lemma cleanup_A bl : ht (PA bl) (cleanup pl) (fun _ => PAc bl) EX.
  Proof. apply ht_cleanup; [intros c H _; right; exact H|]. intros c q' (Ho & _) Eq. congruence. Qed.

  Lemma cleanup_D bl j w : ht (PD bl j w) (cleanup pl) (fun _ => PD bl j w) EX.
  Proof. apply ht_cleanup; [auto|]. intros c q' (Ho & _) Eq. congruence. Qed.

  (* the output is unlinked; if that fails, the ghost flag is set *)
  Lemma cleanup_B cm j w : ht (PB (Some q) cm j w) (cleanup pl) (fun _ => PAc true) EX.
  Proof.
    apply ht_cleanup; [intros c (Ho & _) E; congruence|]. intros c q' (Ho & _) Eq. rewrite Ho in Eq. injection Eq as <-.
    eapply ht_bind with (R := fun r c => match r with SErr _ => True | _ => k_blocked c = true /\ fsA (k_fs c) end).
    - apply ht_sys_main; [apply exits_B | auto|].
      intros k (_ & Hb & _ & H). unfold natural_ok. destruct (fsB_unlink _ _ _ _ H) as [E1 E2]. rewrite E1.
      split; [exact Hb | exact E2].
    - intro r. eapply ht_bind with (R := fun _ c => match r with SErr _ => True | _ => PAc true c end).
      + apply ht_set_opathn. intros k H. destruct r; auto; right; repeat split; apply H.
      + intros _. apply ht_on_err; [|apply ht_ret; auto].
        intros _. apply ht_set_cleanfail. intros k _. left. reflexivity.
  Qed.

  Lemma fatal_from {T} (P : assn) bl tag (Q : T -> assn) :
    ht P (cleanup pl) (fun _ => PAc bl) EX -> ht P (fatal pl tag) Q EX.
  Proof.
    intro Hc. unfold fatal. eapply ht_bind with (R := fun _ => P); [apply ht_say; auto|]. intro.
    eapply ht_bind; [exact Hc|]. intro. apply ht_stop. intros c H. eapply PAc_fatal; eauto.
  Qed.

  Lemma fatal_D {T} bl j w (Q : T -> assn) : ht (PD bl j w) (fatal pl "close-in") Q EX.
  Proof.
    unfold fatal. eapply ht_bind with (R := fun _ => PD bl j w); [apply ht_say; auto|]. intro.
    eapply ht_bind; [apply cleanup_D|]. intro. apply ht_stop. intros c H. right. cbn. right. eapply PD_second; eauto.
  Qed.

  (* work(): generic in the invariant family *)
  Section Work.
    Variable iin : N.
    Variable ndin : inode.
    Variable o : odst.
    Variable I : bytes -> assn.        (* indexed by what has been written to a file output so far *)
    Hypothesis Hin : ilook b iin = Some ndin.
    Hypothesis I_exits : forall w, exits (I w).
    Hypothesis I_cleanup : forall w, ht (I w) (cleanup pl) (fun _ => PAc true) EX.
    Hypothesis I_write : forall w ch c, I w c -> I (w ++ ch) (with_fs c (eff_write cf o ch (k_fs c))).
    Hypothesis I_keeps : forall w c, I w c -> keeps b (k_fs c).

    Lemma I_fatal {T} w tag (Q : T -> assn) : ht (I w) (fatal pl tag) Q EX.
    Proof. eapply fatal_from. apply I_cleanup. Qed.

    Lemma I_handled w sg : ht (I w) (cleanup pl) (fun _ c => EX (Killed sg) WSigHandled c) EX.
    Proof. eapply ht_post; [apply I_cleanup|]. intros u c H. apply (PAc_handled true). exact H. Qed.

    Lemma I_sys {A} inhalt k (f : fs -> fs * sysres A) w (Q : sysres A -> assn) :
      (forall c e, I w c -> Q (SErr e) c) -> (forall c, I w c -> natural_ok f Q EX c) ->
      ht (I w) (sys pl inhalt k f) Q EX.
    Proof.
      intros He Hn. apply ht_sys_gen; auto.
      - intros c H. apply (I_exits w c H).
      - intros c sg H Hb. apply (I_exits w c H), Hb.
      - intros _ sg. apply I_handled.
    Qed.

    Lemma I_write_failed {T} inhalt w e (Q : T -> assn) : ht (I w) (write_failed pl inhalt e) Q EX.
    Proof.
      assert (D : forall sg, ht (I w) (die_by pl (A:=T) inhalt sg) Q EX).
      { intro sg. unfold die_by. rewrite (proj1 sc_halt_mask), andb_false_r.
        eapply ht_bind; [apply I_cleanup|]. intro. apply ht_stop. intros c H. apply (PAc_fatal true). exact H. }
      unfold write_failed. destruct (N.eqb e EFBIG); [apply D|]. destruct (N.eqb e EPIPE); [apply D | apply I_fatal].
    Qed.

    Lemma I_do_write inhalt w ch : ht (I w) (do_write cf pl inhalt o ch) (fun _ => I (w ++ ch)) EX.
    Proof.
      unfold do_write. destruct ch as [|x ch]; [apply ht_ret; intros c H; rewrite app_nil_r; exact H|].
      assert (G : forall (k : kindc) (f : fs -> fs * sysres unit),
                 (forall g, f g = (eff_write cf o (x :: ch) g, SOk tt)) ->
                 ht (I w) (r <- sys pl inhalt k f;; match r with SErr e => write_failed pl inhalt e | _ => ret tt end)
                    (fun _ => I (w ++ x :: ch)) EX).
      { intros k f Hf. eapply ht_bind.
        - apply I_sys with (Q := fun r c => match r with SErr _ => I w c | _ => I (w ++ x :: ch) c end); [auto|].
          intros c H. unfold natural_ok. rewrite Hf. apply I_write. exact H.
        - intro r. apply ht_on_err; [intro; apply I_write_failed | apply ht_ret; auto]. }
      destruct o as [| |i]; [apply G; reflexivity | | apply G; reflexivity].
      apply ht_ret. intros c H. rewrite <- (with_fs_same c). apply (I_write w (x :: ch) c H).
    Qed.

    (* the input is the file found by open(): work() sees its content, and the first read of a directory fails *)
    Definition isd : bool := match i_kind ndin with KDir => true | _ => false end.

    Lemma I_read inhalt w :
      ht (I w) (sys pl inhalt KRead (fun f => sys_read f iin))
         (fun r c => match r with SErr _ => I w c | _ => I w c /\ isd = false end) EX.
    Proof.
      apply I_sys; [auto|]. intros c H. unfold natural_ok. rewrite (read_some _ _ _ (I_keeps _ _ H _ _ Hin)).
      cbn [fst snd]. rewrite with_fs_same. unfold isd. destruct (i_kind ndin); auto.
    Qed.

    Lemma I_do_io evs : forall w,
      ht (I w) (do_io cf pl iin o evs) (fun _ c => I (w ++ writes_of evs) c /\ (In IoRead evs -> isd = false)) EX.
    Proof.
      induction evs as [|[|ch] evs IH]; intro w; cbn [do_io].
      - apply ht_ret. intros c H. cbn. rewrite app_nil_r. split; [exact H | intros []].
      - eapply ht_bind; [apply I_read|]. intro r. apply ht_on_err; [intro; apply I_fatal|].
        apply ht_pure_pre. intro Hd. eapply ht_post; [apply IH|]. intros u c [H _]. split; [exact H | auto].
      - eapply ht_bind; [apply I_do_write|]. intro. eapply ht_post; [apply IH|].
        intros u c [H Hd]. unfold writes_of in *. cbn [map List.concat]. rewrite app_assoc. split; [exact H|].
        intros [E|Hi]; [discriminate | auto].
    Qed.

    Lemma I_main_reads n w : ht (I w) (main_reads pl n iin) (fun _ c => I w c /\ (0 < n -> isd = false)%nat) EX.
    Proof.
      induction n as [|n IH]; cbn [main_reads]; [apply ht_ret; intros c H; split; [exact H | lia]|].
      eapply ht_bind; [apply I_read|]. intro r. apply ht_on_err; [intro; apply I_fatal|].
      apply ht_pure_pre. intro Hd. eapply ht_post; [apply IH|]. intros u c [H _]. auto.
    Qed.

    Lemma I_schedule w cr :
      ht (I w) (schedule cf pl iin o isd cr) (fun _ c => I (w ++ writes_of (c_io cr)) c /\ c_ok cr = true) EX.
    Proof.
      unfold schedule. eapply ht_bind; [apply ht_halt_entry, I_handled|]. intro.
      eapply ht_bind; [apply I_do_io|]. intro. destruct isd.
      - eapply ht_pre; [apply ht_false|]. intros c [_ H]. discriminate H. left. reflexivity.
      - eapply ht_pre with (P := I _); [|intros c H; apply H]. rewrite orb_false_r.
        destruct (c_ok cr); [apply ht_ret; auto | apply I_fatal].
    Qed.

    (* work(): when it returns, everything work() writes has been written; for a file
       output this is the complete expected output *)
    Lemma I_work :
      ht (I []) (work codec cf pl iin o)
         (fun _ c => exists w, I w c /\ (is_stdout o = false -> expected_output codec cf (i_data ndin) = Some w)) EX.
    Proof.
      unfold work. apply ht_get. intros s0 Hs0. pose proof (I_keeps _ _ Hs0 _ _ Hin) as Hk. cbn in Hk.
      unfold input_data, input_is_dir. rewrite Hk. fold isd. unfold expected_output.
      destruct (c_decompress cf).
      - eapply ht_bind; [apply I_main_reads|]. intro.
        eapply ht_pre with (P := I []); [|intros c H; apply H]. destruct (hdr_ok (i_data ndin)).
        + eapply ht_post; [apply I_schedule|]. intros u c [H ->]. eauto.
        + destruct (c_force cf && is_stdout o) eqn:Ec; [|apply I_fatal].
          eapply ht_bind; [apply I_do_write|]. intro. eapply ht_post; [apply I_schedule|].
          intros u c [H _]. eexists. split; [exact H|]. apply andb_true_iff in Ec as [_ Ec]. congruence.
      - eapply ht_post; [apply I_schedule|]. intros u c [H ->]. eauto.
    Qed.
  End Work.

  Lemma work_file iin ndin j :
    ilook b iin = Some ndin ->
    ht (PB (Some q) false j []) (work codec cf pl iin (OFile j))
       (fun _ c => exists w, PB (Some q) false j w c /\ expected_output codec cf (i_data ndin) = Some w) EX.
  Proof.
    intro Hin. eapply ht_post.
    - apply (I_work iin ndin (OFile j) (PB (Some q) false j) Hin).
      + intro w. apply exits_B.
      + intro w. apply cleanup_B.
      + intros w ch c (Ho & Hb & Hr & H). split; [exact Ho|]. split; [exact Hb|]. split; [exact Hr|].
        apply fsB_write. exact H.
      + intros w c (_ & _ & _ & H). apply H.
    - intros u c (w & H & Hw). exists w. auto.
  Qed.

  Lemma work_nonfile iin ndin o :
    ilook b iin = Some ndin -> (forall i, o <> OFile i) ->
    ht (PA true) (work codec cf pl iin o) (fun _ => PA true) EX.
  Proof.
    intros Hin Ho. eapply ht_post.
    - apply (I_work iin ndin o (fun _ => PA true) Hin).
      + intro w. apply exits_A.
      + intro w. apply cleanup_A.
      + intros w ch c (H1 & H2 & H3). split; [exact H1|]. split; [exact H2|]. cbn [k_fs with_fs].
        destruct ch as [|x ch]; [exact H3|]. destruct o as [| |i]; cbn [eff_write sys_write_stdout fst].
        * apply fsA_stdout. exact H3.
        * exact H3.
        * exfalso. eapply Ho. reflexivity.
      + intros w c (_ & _ & H). apply H.
    - intros u c (w & H & _). exact H.
  Qed.

  (* a call that updates the new inode and cannot fail by itself; [cm']: whether it is the close() *)
  Lemma PB_upd_step cm' j w k (g : inode -> inode) :
    (forall nd, i_kind (g nd) = i_kind nd) -> (forall nd, i_committed (g nd) = cm' || i_committed nd) ->
    (forall nd, i_data (g nd) = i_data nd) ->
    ht (PB (Some q) false j w) (sys pl false k (fun f => (upd_inode f j g, SOk tt)))
       (fun r c => match r with SErr _ => PB (Some q) false j w c | _ => PB (Some q) cm' j w c end) EX.
  Proof.
    intros G1 G2 G3. apply ht_sys_main; [apply exits_B | auto|].
    intros c (Ho & Hb & Hr & H). unfold natural_ok. cbn [fst snd].
    split; [exact Ho|]. split; [exact Hb|]. split; [exact Hr|].
    apply (fsB_upd false cm' j w w _ g G1); [| |exact H].
    - intros nd E. rewrite G2, E. apply orb_false_r.
    - intros nd E. rewrite G3. exact E.
  Qed.

  Lemma PB_keep {A} j w (r : sysres A) tag :
    ht (fun c => match r with SErr _ => PB (Some q) false j w c | _ => PB (Some q) false j w c end)
       (match r with SErr _ => warn tag | _ => ret tt end) (fun _ => PB (Some q) false j w) EX.
  Proof. apply ht_on_err; [intro; apply ht_say; auto | apply ht_ret; auto]. Qed.

  Lemma regf_uninit_ok j w st :
    ht (PB (Some q) false j w) (regf_uninit pl j st) (fun _ => PB None true j w) EX.
  Proof.
    unfold regf_uninit.
    eapply ht_bind; [apply (PB_upd_step false); reflexivity|].
    intro r1. eapply ht_bind with (R := fun _ => PB (Some q) false j w).
    { apply ht_on_err; [intro; apply ht_say; auto|].
      eapply ht_bind with (R := fun _ => PB (Some q) false j w).
      - destruct (negb _); [apply ht_say; auto | apply ht_ret; auto].
      - intro. eapply ht_bind; [apply (PB_upd_step false); reflexivity | intro; apply PB_keep]. }
    intro. eapply ht_bind; [apply (PB_upd_step false); reflexivity|].
    intro r3. eapply ht_bind; [apply PB_keep|].
    intro. eapply ht_bind; [apply (PB_upd_step true); reflexivity|].
    intro r4. eapply ht_bind with (R := fun _ => PB (Some q) true j w).
    { apply ht_on_err; [intro; eapply fatal_from; apply cleanup_B | apply ht_ret; auto]. }
    intro. apply ht_set_opathn. intros c (_ & H). split; [reflexivity | exact H].
  Qed.

  Lemma PD_intro bl j w c :
    k_opathn c = None -> k_blocked c = bl -> regf = true -> Wok w -> fsD j w (k_fs c) ->
    (nlook (k_fs c) op = None \/ k_rmfail c = true \/ c_keep cf = true) -> PD bl j w c.
  Proof. intros. unfold PD. tauto. Qed.

  Lemma oprnd_rm_ok j w :
    Wok w -> ht (PB None true j w) (oprnd_rm pl op) (fun _ => PD true j w) EX.
  Proof.
    intro Hw. unfold oprnd_rm.
    eapply ht_bind with (R := fun r c => match r with SErr _ => PB None true j w c | _ => PD true j w c end).
    - apply ht_sys_main; [apply exits_B | auto|].
      intros c (Ho & Hb & Hr & H). unfold natural_ok.
      destruct (fsD_unlink_in j w _ (fsB_fsD _ _ _ H)) as [D1 D2].
      destruct (unlink_result (k_fs c) op) as [[E1 E2]|[e [E1 E2]]]; rewrite E1.
      + apply PD_intro; auto.
      + rewrite E2, with_fs_same. exact (conj Ho (conj Hb (conj Hr H))).
    - intro r. apply ht_on_err; [|apply ht_ret; auto].
      intro e. eapply ht_bind with (R := fun _ => PD true j w).
      + apply ht_set_rmfail. intros c (Ho & Hb & Hr & H). apply PD_intro; auto. apply fsB_fsD. exact H.
      + intro. destruct (N.eqb e ENOENT); [apply ht_ret; auto | apply ht_say; auto].
  Qed.

  Lemma keep_ok j w : Wok w -> c_keep cf = true -> forall c, PB None true j w c -> PD true j w c.
  Proof. intros Hw Hk c (Ho & Hb & Hr & H). apply PD_intro; auto. apply fsB_fsD. exact H. Qed.

  Definition Fin : assn := fun c => PA false c \/ exists j w, PD false j w c.

  Lemma sti_uninit_A : ht (PA true) (sti;;; input_uninit pl) (fun _ => Fin) EX.
  Proof.
    eapply ht_bind with (R := fun _ => PA false).
    - apply ht_sti.
      + intros c (H1 & _ & H3). split; [exact H1|]. split; [reflexivity | exact H3].
      + intros c sg (H1 & _ & H3). right. cbn. left. exact H3.
    - intro. unfold input_uninit. eapply ht_bind with (R := fun r c => match r with SErr _ => PA false c | _ => PA false c end).
      + apply ht_sys_main; [apply exits_A | auto|]. intros c H. unfold natural_ok. cbn. rewrite with_fs_same. exact H.
      + intro r. apply ht_on_err; [intro; eapply fatal_from; apply cleanup_A | apply ht_ret; intros; left; assumption].
  Qed.

  Lemma sti_uninit_D j w : ht (PD true j w) (sti;;; input_uninit pl) (fun _ => Fin) EX.
  Proof.
    assert (U : forall c, PD true j w c -> PD false j w (with_blocked c false)).
    { intros c (H1 & _ & H3). split; [exact H1|]. split; [reflexivity | exact H3]. }
    eapply ht_bind with (R := fun _ => PD false j w).
    - apply ht_sti; [exact U|]. intros c sg H. right. cbn. right. apply (PD_second _ _ _ _ (U c H)).
    - intro. unfold input_uninit. eapply ht_bind with (R := fun r c => match r with SErr _ => PD false j w c | _ => PD false j w c end).
      + apply ht_sys_main; [apply exits_D | auto|]. intros c H. unfold natural_ok. cbn. rewrite with_fs_same. exact H.
      + intro r. apply ht_on_err; [intro; apply fatal_D | apply ht_ret; intros; right; eauto].
  Qed.

  Lemma tail_A : hc (PA true) (sti;;; input_uninit pl) (fun _ => Fin) EX.
  Proof. exact (ht_hc _ _ _ _ sti_uninit_A). Qed.

  Lemma tail_D j w : hc (PD true j w) (sti;;; input_uninit pl) (fun _ => Fin) EX.
  Proof. exact (ht_hc _ _ _ _ (sti_uninit_D j w)). Qed.

  Definition P0 (bl : bool) : assn := fun c => k_opathn c = None /\ k_blocked c = bl /\ k_fs c = b.

  Lemma P0_PA bl c : P0 bl c -> PA bl c.
  Proof. intros (H1 & H2 & H3). split; [exact H1|]. split; [exact H2|]. rewrite H3. apply fsA_refl. Qed.

  Lemma exits_0 bl : exits (P0 bl).
  Proof. intros c H. apply (exits_A bl), P0_PA, H. Qed.

  Lemma ro_sys {T} k (g : fs -> sysres T) :
    ht (P0 false) (sys pl false k (fun f => (f, g f)))
       (fun r c => match r with SOk a => P0 false c /\ g b = SOk a | _ => P0 false c end) EX.
  Proof.
    apply ht_sys_main; [apply exits_0 | auto|].
    intros c H. unfold natural_ok. cbn [fst snd]. rewrite with_fs_same. pose proof H as (_ & _ & ->).
    destruct (g b); auto. eapply PA_hang, P0_PA, H.
  Qed.

  Definition in_facts (iin : N) (st : stat) : Prop :=
    sys_open_rd b op = SOk iin /\ sys_fstat b iin = SOk st /\
    (c_force cf = false -> regf = true -> exists i, nlook b op = Some (DLink i)).

  Lemma skip_ok {T} (P : assn) tag (v : T) (Q : T -> assn) : (forall c, P c -> Q v c) -> ht P (warn tag;;; ret v) Q EX.
  Proof. intro H. eapply ht_bind with (R := fun _ => P); [apply ht_say; auto | intro; apply ht_ret; exact H]. Qed.

  Lemma input_init_ok :
    ht (P0 false) (input_init cf pl op)
       (fun r c => match r with inl _ => P0 false c | inr (iin, st) => P0 false c /\ in_facts iin st end) EX.
  Proof.
    unfold input_init.
    eapply ht_bind with (R := fun pre c => match pre with
                                           | Some _ => P0 false c
                                           | None => P0 false c /\ (c_force cf = false -> regf = true ->
                                                                    exists i, nlook b op = Some (DLink i))
                                           end).
    - destruct (c_force cf) eqn:Ef; [apply ht_ret; intros c H; split; [exact H | discriminate]|].
      eapply ht_bind; [apply ro_sys|]. intro r. apply ht_on_ok; [|apply skip_ok; auto].
      intro st. apply ht_pure_pre. intro Hl.
      destruct (_ && negb _) eqn:E1; [apply skip_ok; auto|].
      destruct (_ && (nlink_limit <? _)); [apply skip_ok; auto|].
      apply ht_ret. intros c H. split; [exact H|]. intros _ Hr.
      unfold regf in Hr. rewrite Hr in E1. cbn [andb] in E1.
      apply negb_false_iff in E1. destruct (st_kind st) eqn:Ek; try discriminate.
      eapply lstat_reg; eauto.
    - intros [t|]; [apply ht_ret; auto|]. apply ht_pure_pre. intro Hpre.
      destruct (_ && _); [apply skip_ok; auto|].
      eapply ht_bind; [apply ro_sys|]. intro r. apply ht_on_ok; [|apply skip_ok; auto].
      intro iin. apply ht_pure_pre. intro Ho.
      eapply ht_bind; [apply ro_sys|]. intro r2. apply ht_on_ok.
      + intro st. apply ht_ret. intros c [H Hst]. split; [exact H|]. split; [exact Ho|]. split; [exact Hst | exact Hpre].
      + eapply ht_bind with (R := fun _ => P0 false); [apply ht_say; auto|]. intro.
        eapply ht_bind with (R := fun _ => P0 false).
        * eapply ht_post; [apply (ro_sys KClose (fun _ => SOk tt))|]. intros r3 c H. destruct r3; apply H.
        * intro r3. destruct r3; [apply ht_ret; auto | | apply ht_ret; auto].
          eapply ht_pre; [eapply fatal_from, cleanup_A | apply P0_PA].
  Qed.

  (* the output name is not on the way from the operand to its file: checked by the source, or by hypothesis *)
  Definition qsafe : Prop :=
    plain -> forall i, resolve b SYMLOOP_MAX op = SOk i -> onchain b SYMLOOP_MAX op q = false.

  Lemma check_qsafe iin st :
    in_facts iin st -> c_force cf = true ->
    c_force cf && output_init_checks_same_file && same_file b q st = false -> qsafe.
  Proof.
    intros (Ho & Hst & _) Hf Hc Hpl i Hi.
    destruct (open_rd_resolve _ _ _ Ho) as [Hr [nd Hnd]]. rewrite Hr in Hi. inversion Hi; subst i. clear Hi.
    rewrite Hf in Hc. cbn [andb] in Hc.
    destruct output_init_checks_same_file eqn:Efl.
    - cbn [andb] in Hc. destruct (onchain b SYMLOOP_MAX op q) eqn:Ec; [exfalso | reflexivity].
      destruct (onchain_resolves _ _ _ _ _ Hr Ec) as (m & Lm & Hm).
      apply (resolve_mono _ _ SYMLOOP_MAX) in Hm; auto.
      unfold same_file, sys_stat in Hc. rewrite Hm, Hnd in Hc.
      unfold sys_fstat in Hst. rewrite Hnd in Hst. inversion Hst; subst st.
      cbn in Hc. rewrite N.eqb_refl in Hc. discriminate.
    - destruct Hpl as [Hpl|Hpl]; [discriminate|].
      destruct (nlook b op) as [[i|t]|] eqn:Eop.
      + apply (onchain_link _ _ _ _ i); auto. intro E. apply q_neq_op. auto.
      + exfalso. apply (Hpl Hf t). reflexivity.
      + apply onchain_none; auto. intro E. apply q_neq_op. auto.
  Qed.

  Definition out_post : option odst -> assn := fun r c =>
    match r with
    | Some (OFile j) => PB (Some q) false j [] c
    | Some _ => PA true c /\ regf = false
    | None => PA true c
    end.

  Lemma output_init_ok iin st : in_facts iin st -> ht (P0 true) (output_init cf pl op st) out_post EX.
  Proof.
    intro Hf. unfold output_init, out_post.
    destruct (c_outmode cf) eqn:Eo; try (apply ht_ret; intros c H; split; [apply P0_PA, H | unfold regf; rewrite Eo; reflexivity]).
    assert (Hr : regf = true) by (unfold regf; rewrite Eo; reflexivity).
    rewrite Hq. apply ht_if_get. intros s0 (_ & _ & Efs). cbn in Efs. rewrite Efs.
    destruct (c_force cf && output_init_checks_same_file && same_file b q st) eqn:Esf.
    { apply skip_ok. apply P0_PA. }
    pose proof (fun Hfo => check_qsafe iin st Hf Hfo Esf) as Hqs.
    eapply ht_bind with (R := fun _ => PA true).
    { destruct (c_force cf) eqn:Ef; [|apply ht_ret; apply P0_PA].
      eapply ht_bind with (R := fun _ => PA true).
      - apply ht_sys_main; [apply exits_0 | intros c e; apply P0_PA|].
        intros c (H1 & H2 & H3). unfold natural_ok. rewrite H3.
        assert (Hx : PA true (with_fs c (fst (sys_unlink b q)))).
        { split; [exact H1|]. split; [exact H2|]. apply fsA_force_unlink; auto. exact (Hqs eq_refl). }
        destruct (unlink_result b q) as [[E1 _]|[e [E1 _]]]; rewrite E1; exact Hx.
      - intro r. destruct r as [u|e|]; try (apply ht_ret; auto).
        destruct (N.eqb e ENOENT); [apply ht_ret; auto | apply ht_say; auto]. }
    intro. eapply ht_bind with (R := fun r c => match r with
                                                | SOk j => k_opathn c = None /\ k_blocked c = true /\ fsB false j [] (k_fs c)
                                                | _ => PA true c
                                                end).
    - apply ht_sys_main; [apply exits_A | auto|].
      intros c (H1 & H2 & H3). unfold natural_ok.
      destruct (snd (sys_creat_excl (k_fs c) q _ _ _ _)) as [j|e|] eqn:Ec.
      + split; [exact H1|]. split; [exact H2|]. apply fsA_creat; auto.
      + rewrite (creat_err _ _ _ _ _ _ _ Ec), with_fs_same. exact (conj H1 (conj H2 H3)).
      + exfalso. eapply creat_not_hang; eauto.
    - intro r. apply ht_on_ok; [|apply skip_ok; auto].
      intro j. eapply ht_bind with (R := fun _ => PB (Some q) false j []); [|intro; apply ht_ret; auto].
      apply ht_set_opathn. intros c (_ & H2 & H3). exact (conj eq_refl (conj H2 (conj Hr H3))).
  Qed.

  (* the phases in which sti() may be reached, and where input_uninit() leaves: [Fin] is [at_end false] *)
  Definition at_end (bl : bool) : assn := fun c => PA bl c \/ exists j w, PD bl j w c.

  Lemma tail_ok (d : disp) :
    not_aborted d ->
    ht (at_end true) (sti;;; input_uninit pl;;; ret d) (fun r c => Fin c /\ not_aborted r) EX.
  Proof.
    intro Hd. eapply ht_post.
    - apply ht_seq_ret, ht_or_pre; [apply sti_uninit_A|].
      apply ht_exists_pre. intro j. apply ht_exists_pre. intro w. apply sti_uninit_D.
    - intros r c [H ->]. auto.
  Qed.

  Lemma run1_ok : ht (P0 false) (run1 codec cf pl op) (fun d c => Fin c /\ not_aborted d) EX.
  Proof.
    unfold run1. eapply ht_bind; [apply input_init_ok|]. intros [t|[iin st]].
    { apply ht_ret. intros c H. split; [left; apply P0_PA, H | exact Logic.I]. }
    apply ht_pure_pre. intro Hf. destruct (open_rd_resolve _ _ _ (proj1 Hf)) as [Hr [ndin Hin]].
    eapply ht_bind with (R := fun _ => P0 true).
    { apply ht_set_blocked. intros c (H1 & _ & H3). repeat split; assumption. }
    intro. eapply ht_bind; [apply (output_init_ok iin st Hf)|]. intro oo.
    eapply ht_bind with (R := fun d c => at_end true c /\ not_aborted d); [|intro d; apply ht_pure_pre, tail_ok].
    assert (NF : forall o, (forall i, o <> OFile i) ->
              ht (fun c => PA true c /\ regf = false) (work codec cf pl iin o;;; ret tt;;; ret DDone)
                 (fun d c => at_end true c /\ not_aborted d) EX).
    { intros o Ho. apply ht_pure_pre. intros _. eapply ht_bind; [apply (work_nonfile iin ndin o Hin Ho)|].
      intro. eapply ht_bind with (R := fun _ => PA true); [apply ht_ret; auto|].
      intro. apply ht_ret. intros c H. split; [left; exact H | exact Logic.I]. }
    destruct oo as [[| |j]|]; unfold out_post.
    - apply NF. discriminate.
    - apply NF. discriminate.
    - (* regular file output *)
      eapply ht_bind; [apply (work_file iin ndin j Hin)|]. intro. apply ht_exists_pre. intro w.
      apply ht_pure_pre. intro Hw.
      assert (Wok w) as Hok by (exists iin, ndin; auto).
      eapply ht_bind with (R := fun _ => PD true j w).
      + eapply ht_bind; [apply regf_uninit_ok|]. intro.
        destruct (c_keep cf) eqn:Ek; [apply ht_ret; apply keep_ok; auto | apply oprnd_rm_ok; exact Hok].
      + intro. apply ht_ret. intros c H. split; [right; eauto | exact Logic.I].
    - apply ht_ret. intros c H. split; [left; exact H | exact Logic.I].
  Qed.

  Lemma regf_spec : regf = true <-> c_outmode cf = OmRegf.
  Proof. unfold regf. destruct (c_outmode cf); split; congruence. Qed.

  Lemma fsA_kept f : regf = false -> fsA f -> tree_kept b f.
  Proof.
    intros Hr (H1 & H2 & H3 & _). split; [|exact H1]. intro p.
    destruct (String.eqb_spec p q) as [->|Hp]; [|apply H2; auto].
    destruct H3 as [H3|(A & _)]; [exact H3 | congruence].
  Qed.

  Lemma fsA_first_or_kept f : plain -> fsA f -> first_or_kept cf b f op.
  Proof.
    intros Hpl H. unfold first_or_kept. pose proof (fsA_kept f) as K. unfold regf in K.
    destruct (c_outmode cf); [apply K | apply K | apply fsA_first]; auto.
  Qed.

  Lemma first_or_kept_safe f rm : first_or_kept cf b f op -> safe codec cf b f op rm.
  Proof. unfold first_or_kept, safe. destruct (c_outmode cf); auto. Qed.

  Lemma second_safe f rm : second f rm -> safe codec cf b f op rm.
  Proof.
    intro H. pose proof H as (Hr & _). apply regf_spec in Hr. unfold safe. rewrite Hr. right. apply second_second, H.
  Qed.

  Lemma safe_kill f rm : safe codec cf b f op rm -> kill_safe codec cf b f op.
  Proof.
    unfold safe, kill_safe. destruct (c_outmode cf); auto.
    unfold first_state, second_state. rewrite Hq. intros [[H _]|[H _]]; [left; exact H | right; eauto].
  Qed.

  Lemma Fin_safe c : plain -> Fin c -> safe codec cf b (k_fs c) op (k_rmfail c).
  Proof.
    intros Hpl [H|(j & w & H)].
    - apply first_or_kept_safe, fsA_first_or_kept; [exact Hpl | apply H].
    - eapply second_safe, PD_second, H.
  Qed.

  Lemma EX_entry o y c :
    plain -> EX o y c -> k_cleanfail c = false ->
    match y with
    | WKill => kill_safe codec cf b (k_fs c) op
    | _ => safe codec cf b (k_fs c) op (k_rmfail c) /\ (strict_first y = true -> first_or_kept cf b (k_fs c) op)
    end.
  Proof.
    intros Hpl [H|H] Hc; [congruence|].
    pose proof (fun f => fsA_first_or_kept f Hpl) as FA.
    assert (S2 : forall f rm, fsA f \/ second f rm -> safe codec cf b f op rm).
    { intros f rm [A|A]; [apply first_or_kept_safe; auto | apply second_safe, A]. }
    destruct y; cbn in H.
    - destruct (String.eqb tag "close-in") eqn:Et; cbn [strict_first]; rewrite Et; cbn [negb].
      + split; [apply S2; exact H | discriminate].
      + split; [apply first_or_kept_safe; auto | auto].
    - split; [apply first_or_kept_safe; auto | auto].
    - split; [apply S2; exact H | discriminate].
    - split; [apply S2; exact H | discriminate].
    - destruct H as [H|[(Hr & cm & j & w & H)|(Hr & j & w & Hw & H)]].
      + apply (safe_kill (k_fs c) false), first_or_kept_safe. auto.
      + apply regf_spec in Hr. unfold kill_safe. rewrite Hr. left. eapply fsB_intact; eauto.
      + apply regf_spec in Hr. unfold kill_safe. rewrite Hr. right. exists q. split; [exact Hq|].
        eapply fsD_complete; eauto.
    - split; [apply first_or_kept_safe; auto | auto].
  Qed.
End C16.

Section RunOk.
  Variable codec : cmode -> bytes -> cres.
  Variable cf : cfg.
  Variable pl : plan.

  Definition boundary_ok (s : mstate) : Prop := m_opathn s = None /\ m_blocked s = false.

  Lemma run_op_ok op s : boundary_ok s ->
    match run_op codec cf pl op s with
    | Ret _ s' => boundary_ok s' /\ exists h, m_hist s' = h :: m_hist s /\ entry_ok codec cf h
    | Stop o y s' => exists h, m_hist s' = h :: m_hist s /\ entry_ok codec cf h
    end.
  Proof.
    intros [Bo Bb]. unfold run_op.
    set (s0 := set_cleanfail (set_rmfail s false) false).
    destruct (out_name_some (c_decompress cf) op) as [q Hq].
    assert (H0 : P0 (m_fs s) false (core_of s0)) by (repeat split; auto).
    pose proof (run1_ok codec cf pl (m_fs s) op q Hq s0 H0) as H1.
    destruct (run1 codec cf pl op s0) as [d s1|o y s1]; destruct H1 as [H1 Hh].
    - destruct H1 as [H1 Hd]. split.
      + destruct H1 as [(A & B & _)|(j & w & A & B & _)]; split; auto.
      + eexists. split; [cbn; rewrite Hh; reflexivity|]. intros Hc Hpl. cbn in *.
        assert (Hs : safe codec cf (m_fs s) (m_fs s1) op (m_rmfail s1)).
        { apply (Fin_safe codec cf (m_fs s) op q Hq (core_of s1)); auto. }
        destruct d as [t| |y]; auto. contradiction.
    - eexists. split; [cbn; rewrite Hh; reflexivity|]. intros Hc Hpl. cbn in *.
      pose proof (EX_entry codec cf (m_fs s) op q Hq o y (core_of s1) Hpl H1 Hc) as H4.
      destruct y; exact H4.
  Qed.

  (* finish() leaves the ghost history alone: triples that claim nothing else *)
  Definition top : assn := fun _ => True.

  Lemma top_sys {A} cl k (f : fs -> fs * sysres A) : ht top (sys_gen pl cl false k f) (fun _ => top) (fun _ _ => top).
  Proof. apply ht_sys_main; unfold top; auto. intros c _. unfold natural_ok. destruct (snd _); exact I. Qed.

  Lemma top_fatal tag : ht top (fatal pl (A:=unit) tag) (fun _ => top) (fun _ _ => top).
  Proof.
    unfold fatal. eapply ht_bind with (R := fun _ => top); [apply ht_say; auto|]. intro.
    eapply ht_bind with (R := fun _ => top); [|intro; apply ht_stop; auto].
    apply ht_cleanup; [auto|]. intros _ q _ _. eapply ht_bind; [apply top_sys|]. intro r.
    eapply ht_bind with (R := fun _ => top); [apply ht_set_opathn; auto|]. intro.
    destruct r; [apply ht_ret | apply ht_set_cleanfail | apply ht_ret]; auto.
  Qed.

  Theorem run_ops_ok ops : forall s,
    boundary_ok s -> Forall (entry_ok codec cf) (m_hist s) ->
    Forall (entry_ok codec cf) (m_hist (fst (run_ops codec cf pl ops s))).
  Proof.
    induction ops as [|op r IH]; intros s B F; cbn [run_ops].
    - destruct (ht_finish pl cf top s (top_sys _ _ _) (top_fatal _) I) as [_ ->]. exact F.
    - pose proof (run_op_ok op s B) as H. destruct (run_op codec cf pl op s) as [u s'|o y s'].
      + destruct H as (B' & h & Eh & Hh). apply IH; auto. rewrite Eh. constructor; auto.
      + destruct H as (h & Eh & Hh). cbn. rewrite Eh. constructor; auto.
  Qed.
End RunOk.

Theorem all_entries_ok codec cf f ops pl :
  Forall (entry_ok codec cf) (m_hist (fst (run_full codec cf f ops pl))).
Proof. unfold run_full. apply run_ops_ok; [split; reflexivity | constructor]. Qed.

(* With the same-file check in output_init() (sc_same_file_check) no hypothesis about symbolic links is needed. *)
Lemma every_started_operand_final codec cf f ops pl h :
  In h (m_hist (fst (run_full codec cf f ops pl))) ->
  h_cleanfail h = false ->
  match h_disp h with
  | DAborted WKill => kill_safe codec cf (h_before h) (h_after h) (h_op h)
  | DAborted y => safe codec cf (h_before h) (h_after h) (h_op h) (h_rmfail h) /\
                  (strict_first y = true -> first_or_kept cf (h_before h) (h_after h) (h_op h))
  | _ => safe codec cf (h_before h) (h_after h) (h_op h) (h_rmfail h)
  end.
Proof.
  intros Hin Hc. pose proof (all_entries_ok codec cf f ops pl) as H. rewrite Forall_forall in H.
  exact (H h Hin Hc (or_introl (proj1 sc_same_file_check))).
Qed.

Definition ex16_codec (m : cmode) (d : bytes) : cres :=
  match m with
  | CCompress => {| c_io := [IoWrite [66; 90; 104; 57]; IoRead; IoRead; IoWrite (rev d)]; c_ok := true |}
  | _ => {| c_io := [IoRead]; c_ok := false |}
  end.
Definition ex16_cfg : cfg :=
  {| c_decompress := false; c_force := false; c_keep := false; c_outmode := OmRegf; c_uid := 0; c_gid := 0; c_now := 99 |}.
Definition ex16_node (d : bytes) : inode :=
  {| i_kind := KReg; i_mode := 420; i_uid := 7; i_gid := 8; i_atime := 10; i_mtime := 20; i_data := d; i_committed := true |}.
Definition ex16_fs : fs :=
  {| f_names := [("a"%string, DLink 1)]; f_inodes := [(1, ex16_node [1; 2; 3])]; f_stdout := [] |}.

Lemma status_pairing_witness :
  exists codec cf f op pl1 pl2,
    (let '(s, o) := run_full codec cf f [op] pl1 in
     o = Exit 1 /\ exists h, m_hist s = [h] /\ second_state codec cf (h_before h) (h_after h) op (h_rmfail h)) /\
    (let '(s, o) := run_full codec cf f [op] pl2 in
     o = Killed SIGTERM /\ exists h, m_hist s = [h] /\ second_state codec cf (h_before h) (h_after h) op (h_rmfail h)).
Proof.
  exists ex16_codec, ex16_cfg, ex16_fs, "a"%string, [(KClose, 2%nat, Fail EIO)], [(KFchown, 1%nat, Raise SIGTERM)].
  split.
  - vm_compute. split; [reflexivity|]. eexists. split; [reflexivity|]. split.
    + eexists 1, _, _, _. repeat split; try reflexivity.
      intros i nd H. destruct i as [|[[p|p|]|[p|p|]|]]; cbn in *; try discriminate; exact H.
    + intros H. exfalso. apply H. reflexivity.
  - vm_compute. split; [reflexivity|]. eexists. split; [reflexivity|]. split.
    + eexists 1, _, _, _. repeat split; try reflexivity.
      intros i nd H. destruct i as [|[[p|p|]|[p|p|]|]]; cbn in *; try discriminate; exact H.
    + intros H. exfalso. apply H. reflexivity.
Qed.

(* What -f does to a symbolic link whose target is the output name, for a source without the check in output_init()
   (flag regenerated as false).  As the flag stands the hypothesis is false; force_symlink_fixed below runs the
   scenario. *)
Lemma force_symlink_witness :
  output_init_checks_same_file = false ->
  exists codec cf f op pl ino,
    nlook f "x"%string = Some (DLink ino) /\ (exists nd, ilook f ino = Some nd /\ i_data nd <> []) /\
    snd (run codec cf f [op] pl) = Exit 1 /\
    forall p, nlook (fst (run codec cf f [op] pl)) p <> Some (DLink ino).
Proof. intro Hflag. rewrite (proj1 sc_same_file_check) in Hflag. discriminate Hflag. Qed.

Lemma cleanup_failure_witness :
  exists codec cf f op pl,
    let '(s, o) := run_full codec cf f [op] pl in
    o = Exit 1 /\ exists h, m_hist s = [h] /\ h_cleanfail h = true /\
      ~ first_state cf (h_before h) (h_after h) op /\ input_intact (h_before h) (h_after h) op.
Proof.
  exists ex16_codec, ex16_cfg, ex16_fs, "a"%string, [(KWrite, 2%nat, Fail ENOSPC); (KUnlink, 1%nat, Fail EIO)].
  vm_compute. split; [reflexivity|]. eexists. split; [reflexivity|]. split; [reflexivity|]. split.
  - intros [_ [H|H]]; discriminate.
  - split; [reflexivity|]. split; [|intros i H; exact H].
    intros i nd H. destruct i as [|[[p|p|]|[p|p|]|]]; cbn in *; try discriminate; exact H.
Qed.

(* the operand is skipped with a warning, nothing changes *)
Lemma force_symlink_fixed :
  let cf := {| c_decompress := true; c_force := true; c_keep := false; c_outmode := OmRegf; c_uid := 0; c_gid := 0; c_now := 99 |} in
  let f := {| f_names := [("x"%string, DLink 1); ("x.bz2"%string, DSym "x"%string)];
              f_inodes := [(1, ex16_node [104; 101; 108; 108; 111])]; f_stdout := [] |} in
  run ex16_codec cf f ["x.bz2"%string] [] = (f, Exit 4).
Proof. vm_compute. reflexivity. Qed.
