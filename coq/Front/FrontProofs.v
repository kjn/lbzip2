(* Proofs for C17 (naming, admission, metadata, removal, exit status) and C18
   (fold, independence) over the fault-free effect function; the theorems that
   quantify over all fault/signal plans are in FrontSafety.v (C17 no_clobber)
   and FrontC16.v (C16). *)
From Coq Require Import List NArith Arith Bool String Ascii Lia.
From LBZ Require Import Gen.FrontTab Front.FsModel Front.MainLoop Front.FrontSpec Front.FrontLemmas Front.FrontNoFault.
Import ListNotations.
Local Open Scope N_scope.

(* side conditions on the constants of Gen/FrontTab.v *)
Lemma sc_suf_macro : suf_macro_is_strlen = true. Proof. reflexivity. Qed.
Lemma sc_compress_suffix : compress_suffix = ".bz2"%string. Proof. reflexivity. Qed.
Lemma sc_open_out_excl : existsb (String.eqb "O_EXCL") open_out_flags = true /\
                         existsb (String.eqb "O_CREAT") open_out_flags = true /\
                         existsb (String.eqb "O_TRUNC") open_out_flags = false /\
                         existsb (String.eqb "O_WRONLY") open_out_flags = true.
Proof. repeat split. Qed.
Lemma sc_open_in_flags : existsb (String.eqb "O_RDONLY") open_in_flags = true /\
                         existsb (String.eqb "O_CREAT") open_in_flags = false /\
                         existsb (String.eqb "O_TRUNC") open_in_flags = false.
Proof. repeat split. Qed.
Lemma sc_open_out_mode : open_out_mode_mask = 384. Proof. reflexivity. Qed.       (* S_IRUSR|S_IWUSR *)
Lemma sc_fchmod_mask : fchmod_mask = 511. Proof. reflexivity. Qed.               (* S_IRWXU|S_IRWXG|S_IRWXO *)
Lemma sc_special_mask : special_mask = 3584. Proof. reflexivity. Qed.            (* S_ISUID|S_ISGID|S_ISVTX *)
Lemma sc_nlink_limit : nlink_limit = 1. Proof. reflexivity. Qed.
Lemma sc_futimens : futimens_fields = ["st_atim"; "st_mtim"]%string. Proof. reflexivity. Qed.
Lemma sc_fchown : fchown_fields = ["st_uid"; "st_gid"]%string. Proof. reflexivity. Qed.
Lemma sc_exit_codes : exit_if_clean = 0 /\ exit_if_warned = 4 /\ bailout_exit = 1 /\
                      EX_OK = 0 /\ EX_WARN = 4 /\ EX_FAIL = 1.
Proof. repeat split. Qed.
(* no table entry replaces a suffix by itself: the output name differs from the operand *)
Lemma sc_suffix_distinct :
  forallb (fun e => negb (String.eqb (fst (fst e)) (snd (fst e)))) suffix_tab = true.
Proof. reflexivity. Qed.
(* the table ends with a catch-all entry usable for output names *)
Lemma sc_suffix_catch_all :
  existsb (fun e => String.eqb (fst (fst e)) "") suffix_tab = true.
Proof. reflexivity. Qed.

(* the order of calls in the source is the order of the model *)
Lemma sc_main_order :
  main_order = ["setup_signals"; "opts_setup"; "input_init"; "cli"; "output_init"; "work"; "output_regf_uninit";
                "input_oprnd_rm"; "sti"; "input_uninit"; "close"; "_exit"]%string.
Proof. reflexivity. Qed.
Lemma sc_main_nesting :
  main_cli_under = ["do"; "if:-1!=ret"]%string /\
  main_work_under = ["do"; "if:-1!=ret"; "if:-1!=output_init(operands,&instat)"]%string /\
  main_output_regf_uninit_under = ["do"; "if:-1!=ret"; "if:-1!=output_init(operands,&instat)"; "if:OM_REGF==outmode"]%string /\
  main_input_oprnd_rm_under = ["do"; "if:-1!=ret"; "if:-1!=output_init(operands,&instat)"; "if:OM_REGF==outmode"; "if:!keep"]%string /\
  main_sti_under = ["do"; "if:-1!=ret"]%string /\
  main_input_uninit_under = ["do"; "if:-1!=ret"]%string /\
  close_stdout_guard = "OM_STDOUT==outmode&&-1==close(STDOUT_FILENO)"%string.
Proof. repeat split. Qed.
Lemma sc_input_init_order :
  input_init_order = ["lstat"; "S_ISREG"; "st_nlink"; "suffix_xform"; "open"; "fstat"; "close"]%string /\
  lstat_under = ["if:!force"]%string /\
  isreg_guard = "OM_REGF==outmode&&!S_ISREG(sbuf->st_mode)"%string /\ isreg_under = ["if:!force"]%string /\
  nlink_guard = "OM_REGF==outmode&&!keep&&sbuf->st_nlink>(nlink_t)1"%string /\ nlink_under = ["if:!force"]%string /\
  sufskip_guard = "!decompress&&suffix_xform(operand->val,0)"%string /\ sufskip_under = []%string.
Proof. repeat split. Qed.
Lemma sc_output_init_order :
  output_init_order = ["suffix_xform"; "unlink"; "open"; "opathn_set"]%string /\
  unlink_out_guard = "force&&-1==unlink(tmp)&&ENOENT!=errno"%string.
Proof. repeat split. Qed.
Lemma sc_regf_uninit_order :
  regf_uninit_order = ["fchown"; "fchmod"; "futimens"; "close"; "opathn_clear"]%string /\
  fchmod_under = ["else"]%string /\ close_out_handler = "failx"%string /\
  rm_handler = "warnx"%string /\ close_in_handler = "failx"%string /\
  rm_guard = "-1==unlink(operand->val)&&ENOENT!=errno"%string.
Proof. repeat split. Qed.
Lemma sc_cleanup_order :
  cleanup_order = ["unlink"; "opathn_clear"]%string /\ cleanup_guard = "opathn!=NULL"%string.
Proof. repeat split. Qed.
Lemma sc_signals :
  handled_signals = ["SIGUSR1"; "SIGUSR2"; "SIGINT"; "SIGTERM"]%string /\
  halt_cases = [("default", "cleanup,terminate"); ("SIGUSR1", "bailout"); ("SIGUSR2", "break")]%string /\
  bailout_main_order = ["cleanup"; "xmask"; "_exit"]%string /\
  bailout_sub_order = ["promote"; "xraise"; "pthread_exit"]%string /\
  terminate_order = ["xaction"; "xraise"; "xmask"; "_exit"]%string /\
  cli_mask = ("SIG_BLOCK", "handled")%string /\ cli_order = ["xmask"; "xaction"]%string /\
  sti_mask = ("SIG_UNBLOCK", "handled")%string /\ sti_order = ["xaction"; "xmask"]%string /\
  sti_action = "SIG_DFL"%string.
Proof. repeat split. Qed.
Lemma sc_suffix_walk :
  suffix_loop = "ofs=0u;ofs<sizeofsuffix/sizeofsuffix[0];++ofs"%string /\
  suffix_entry_guard = "(suffix[ofs].chk_compr||0!=decompr_pathname)&&len>=suffix[ofs].compr_len"%string /\
  suffix_cmp = "0==strcmp(compr_pathname+prefix_len,suffix[ofs].compr)"%string.
Proof. repeat split. Qed.

Lemma out_name_compress s : out_name false s = Some (s ++ ".bz2")%string.
Proof. reflexivity. Qed.

Lemma ends_with_lit_false x (c d : string) :
  prefixb (rev_s d) (rev_s c) = false -> (String.length d <= String.length c)%nat ->
  ends_with (x ++ c) d = false.
Proof.
  intros H L. unfold ends_with. rewrite rev_s_app.
  destruct (prefixb (rev_s d) (rev_s c ++ rev_s x)) eqn:E; auto.
  apply prefixb_true_split in E as [r E].
  assert (P : prefixb (rev_s d) (rev_s c) = true).
  { rewrite <- (length_rev_s d), <- (length_rev_s c) in L.
    revert E L. generalize (rev_s d) (rev_s c) (rev_s x). clear.
    induction l as [|a l IH]; intros l0 lx E L; simpl; auto.
    destruct l0 as [|b l0]; simpl in *; [lia|].
    inversion E; subst. rewrite Ascii.eqb_refl. simpl. eapply IH; eauto. lia. }
  congruence.
Qed.

Lemma out_name_bz2 x : out_name true (x ++ ".bz2") = Some x.
Proof.
  unfold out_name. cbn [suffix_tab sfx_find orb andb].
  rewrite ends_with_app. cbn [andb]. rewrite strip_suffix_app, append_nil_r. reflexivity.
Qed.

Lemma out_name_tbz2 x : out_name true (x ++ ".tbz2") = Some (x ++ ".tar")%string.
Proof.
  unfold out_name. cbn [suffix_tab sfx_find orb andb].
  rewrite (ends_with_lit_false x ".tbz2" ".bz2") by (cbn; auto; lia).
  rewrite ends_with_app. cbn [andb]. rewrite strip_suffix_app. reflexivity.
Qed.

Lemma out_name_tbz x : out_name true (x ++ ".tbz") = Some (x ++ ".tar")%string.
Proof.
  unfold out_name. cbn [suffix_tab sfx_find orb andb].
  rewrite (ends_with_lit_false x ".tbz" ".bz2") by (cbn; auto; lia).
  assert (E : ends_with (x ++ ".tbz") ".tbz2" = false).
  { unfold ends_with. rewrite rev_s_app. reflexivity. }
  rewrite E. rewrite ends_with_app. cbn [andb]. rewrite strip_suffix_app. reflexivity.
Qed.

Lemma out_name_tz2 x : out_name true (x ++ ".tz2") = Some (x ++ ".tar")%string.
Proof.
  unfold out_name. cbn [suffix_tab sfx_find orb andb].
  rewrite (ends_with_lit_false x ".tz2" ".bz2") by (cbn; auto; lia).
  assert (E : ends_with (x ++ ".tz2") ".tbz2" = false).
  { unfold ends_with. rewrite rev_s_app. reflexivity. }
  rewrite E. rewrite (ends_with_lit_false x ".tz2" ".tbz") by (cbn; auto; lia).
  rewrite ends_with_app. cbn [andb]. rewrite strip_suffix_app. reflexivity.
Qed.

Definition has_compressed_suffix (s : string) : bool :=
  ends_with s ".bz2" || ends_with s ".tbz" || ends_with s ".tbz2" || ends_with s ".tz2".

Lemma ends_with_nil s : ends_with s "" = true.
Proof. reflexivity. Qed.

Lemma strip_suffix_nil s : strip_suffix s "" = s.
Proof.
  unfold strip_suffix. cbn [String.length skipn]. unfold rev_s. rewrite rev_involutive.
  apply string_of_list_ascii_of_string.
Qed.

Lemma out_name_other s : has_compressed_suffix s = false -> out_name true s = Some (s ++ ".out")%string.
Proof.
  unfold has_compressed_suffix. intro H.
  apply orb_false_iff in H as [H H4]. apply orb_false_iff in H as [H H3]. apply orb_false_iff in H as [H1 H2].
  unfold out_name. cbn [suffix_tab sfx_find orb andb]. rewrite H1, H2, H3, H4. cbn [andb].
  rewrite ends_with_nil, strip_suffix_nil. reflexivity.
Qed.

Lemma is_compressed_name_spec s : is_compressed_name s = has_compressed_suffix s.
Proof.
  unfold is_compressed_name, has_compressed_suffix. cbn [suffix_tab sfx_find orb andb].
  destruct (ends_with s ".bz2"), (ends_with s ".tbz2"), (ends_with s ".tbz"), (ends_with s ".tz2"); reflexivity.
Qed.

Lemma sfx_find_in tab b s c d k : sfx_find tab b s = Some (c, d, k) -> In (c, d, k) tab /\ ends_with s c = true.
Proof.
  induction tab as [|[[c0 d0] k0] tab IH]; simpl; try discriminate.
  destruct ((k0 || b) && ends_with s c0) eqn:E.
  - intro H. inversion H; subst. apply andb_true_iff in E. tauto.
  - intro H. apply IH in H. tauto.
Qed.

Lemma out_name_some dec s : exists q, out_name dec s = Some q.
Proof.
  destruct dec; [|eexists; reflexivity].
  destruct (has_compressed_suffix s) eqn:E.
  - unfold has_compressed_suffix in E. unfold out_name. cbn [suffix_tab sfx_find orb andb].
    destruct (ends_with s ".bz2"); [eexists; reflexivity|].
    destruct (ends_with s ".tbz2"); [eexists; reflexivity|].
    destruct (ends_with s ".tbz"); [eexists; reflexivity|].
    destruct (ends_with s ".tz2"); [eexists; reflexivity|]. discriminate.
  - rewrite out_name_other by auto. eexists; reflexivity.
Qed.

Lemma out_name_neq dec s q : out_name dec s = Some q -> q <> s.
Proof.
  destruct dec; unfold out_name.
  - destruct (sfx_find suffix_tab true s) as [[[c d] k]|] eqn:E; try discriminate.
    intro H. inversion H; subst. clear H. apply sfx_find_in in E as [Hin He].
    intro Heq. pose proof (ends_with_split s c He) as Hs.
    rewrite Hs in Heq at 2. apply string_app_inv_head in Heq. subst d.
    pose proof sc_suffix_distinct as SC. rewrite forallb_forall in SC. specialize (SC _ Hin).
    cbn in SC. rewrite String.eqb_refl in SC. discriminate.
  - intro H. inversion H; subst. intro Heq.
    apply (f_equal String.length) in Heq. rewrite string_length_app in Heq.
    rewrite sc_compress_suffix in Heq. cbn in Heq. lia.
Qed.

Definition same_meta (a b : inode) : Prop :=
  i_kind a = i_kind b /\ i_mode a = i_mode b /\ i_uid a = i_uid b /\ i_gid a = i_gid b /\
  i_atime a = i_atime b /\ i_committed a = i_committed b.

Lemma same_meta_refl a : same_meta a a.
Proof. repeat split. Qed.
Lemma same_meta_trans a b c : same_meta a b -> same_meta b c -> same_meta a c.
Proof. unfold same_meta. intuition congruence. Qed.

Section EffFacts.
  Variable codec : cmode -> bytes -> cres.
  Variable cf : cfg.

  Definition appended (i : N) (w : bytes) (f f' : fs) : Prop :=
    f_names f' = f_names f /\
    (forall j, j <> i -> ilook f' j = ilook f j) /\
    (forall nd, ilook f i = Some nd ->
       exists nd', ilook f' i = Some nd' /\ same_meta nd' nd /\ i_data nd' = (i_data nd ++ w)%list).

  Lemma appended_refl i f : appended i [] f f.
  Proof. repeat split; auto. intros nd H. exists nd. rewrite app_nil_r. repeat split; auto. Qed.

  Lemma appended_trans i w1 w2 f1 f2 f3 :
    appended i w1 f1 f2 -> appended i w2 f2 f3 -> appended i (w1 ++ w2) f1 f3.
  Proof.
    intros (A1 & A3 & A4) (B1 & B3 & B4). split; [congruence|]. split.
    - intros j Hj. rewrite B3, A3; auto.
    - intros nd H. destruct (A4 nd H) as (nd1 & H1 & M1 & D1). destruct (B4 nd1 H1) as (nd2 & H2 & M2 & D2).
      exists nd2. split; [exact H2|]. split; [eapply same_meta_trans; eauto|].
      rewrite D2, D1, app_assoc. reflexivity.
  Qed.

  Lemma eff_write_file i c f : appended i c f (eff_write cf (OFile i) c f).
  Proof.
    destruct c as [|b c]; [apply appended_refl|]. cbn [eff_write sys_write fst].
    split; [apply names_upd_inode|]. split.
    - intros j Hj. apply ilook_upd_inode_neq. auto.
    - intros nd H. eexists. split; [apply ilook_upd_inode_eq; exact H|]. cbn. repeat split.
  Qed.

  Lemma sys_read_ok f iin : input_is_dir f iin = false -> ilook f iin <> None -> snd (sys_read f iin) = SOk tt.
  Proof.
    unfold input_is_dir, sys_read. destruct (ilook f iin) as [nd|]; [|congruence].
    destruct (i_kind nd); try discriminate; reflexivity.
  Qed.

  Lemma sys_read_dir f iin : input_is_dir f iin = true -> exists e, snd (sys_read f iin) = SErr e.
  Proof.
    unfold input_is_dir, sys_read. destruct (ilook f iin) as [nd|]; [|discriminate].
    destruct (i_kind nd); try discriminate. eexists; reflexivity.
  Qed.

  (* the I/O of the worker threads on a file output: everything written is appended,
     and nothing else changes; it only fails if the input is a directory *)
  Lemma eff_io_file iin iout evs : iin <> iout -> forall f,
    input_is_dir f iin = false -> ilook f iin <> None ->
    exists f', eff_io cf iin (OFile iout) evs f = (f', true) /\ appended iout (writes_of evs) f f'.
  Proof.
    intro Hio. induction evs as [|[|c] evs IH]; intros f Hd Hi; cbn [eff_io].
    - exists f. split; [reflexivity|]. apply appended_refl.
    - rewrite (sys_read_ok f iin Hd Hi). apply IH; auto.
    - pose proof (eff_write_file iout c f) as A. pose proof A as (_ & A3 & _).
      destruct (IH (eff_write cf (OFile iout) c f)) as (f' & E & A').
      + unfold input_is_dir. rewrite A3; auto.
      + rewrite A3; auto.
      + exists f'. split; [exact E|]. unfold writes_of. cbn [map List.concat].
        eapply appended_trans; eauto.
  Qed.

  Lemma eff_schedule_file iin iout cr f f' :
    iin <> iout -> input_is_dir f iin = false -> ilook f iin <> None ->
    eff_schedule cf iin (OFile iout) false cr f = (f', None) ->
    c_ok cr = true /\ appended iout (writes_of (c_io cr)) f f'.
  Proof.
    intros Hio Hd Hi. unfold eff_schedule. destruct (eff_io_file iin iout (c_io cr) Hio f Hd Hi) as (f2 & -> & A).
    rewrite orb_false_r. destruct (c_ok cr); [|discriminate]. intro H. inversion H; subst. auto.
  Qed.

  Lemma eff_main_reads_ok n iin f :
    input_is_dir f iin = false -> ilook f iin <> None -> eff_main_reads n iin f = true.
  Proof. intros Hd Hi. induction n; cbn; auto. rewrite (sys_read_ok f iin Hd Hi). exact IHn. Qed.

  Lemma eff_main_reads_dir n iin f :
    input_is_dir f iin = true -> (0 < n)%nat -> eff_main_reads n iin f = false.
  Proof. intros Hd Hn. destruct n; [lia|]. cbn. destruct (sys_read_dir f iin Hd) as [e ->]. reflexivity. Qed.

  Lemma hdr_reads_pos d : (0 < hdr_reads d)%nat.
  Proof. unfold hdr_reads. destruct (4 <=? List.length d)%nat; [lia|]. destruct (List.length d =? 0)%nat; lia. Qed.

  Lemma eff_work_dir iin o f : input_is_dir f iin = true -> exists f' tag, eff_work codec cf iin o f = (f', Some tag).
  Proof.
    intro Hd. unfold eff_work. rewrite Hd.
    destruct (c_decompress cf).
    - rewrite (eff_main_reads_dir _ _ _ Hd (hdr_reads_pos _)). eexists; eexists; reflexivity.
    - unfold eff_schedule. cbn [eff_io]. destruct (sys_read_dir f iin Hd) as [e ->]. eexists; eexists; reflexivity.
  Qed.

  Lemma eff_work_file iin iout f f' :
    iin <> iout -> ilook f iin <> None ->
    eff_work codec cf iin (OFile iout) f = (f', None) ->
    input_is_dir f iin = false /\
    exists w, expected_output codec cf (input_data f iin) = Some w /\ appended iout w f f'.
  Proof.
    intros Hio Hi H. destruct (input_is_dir f iin) eqn:Hd.
    { destruct (eff_work_dir iin (OFile iout) f Hd) as (f2 & tag & E). congruence. }
    split; [reflexivity|]. unfold eff_work in H. rewrite Hd in H. unfold expected_output.
    destruct (c_decompress cf).
    - rewrite (eff_main_reads_ok _ _ _ Hd Hi) in H.
      destruct (hdr_ok (input_data f iin)); [|rewrite andb_false_r in H; discriminate].
      destruct (eff_schedule_file _ _ _ _ _ Hio Hd Hi H) as [-> A]. eauto.
    - destruct (eff_schedule_file _ _ _ _ _ Hio Hd Hi H) as [-> A]. eauto.
  Qed.
End EffFacts.

Section OpFacts.
  Variable codec : cmode -> bytes -> cres.
  Variable cf : cfg.

  Definition admissible (f : fs) (op : path) : Prop :=
    exists st, sys_lstat f op = SOk st /\ st_kind st = SReg /\ (c_keep cf = true \/ st_nlink st <= nlink_limit).

  Lemma eff_input_init_open op f iin st :
    eff_input_init cf op f = IIOk iin st -> sys_open_rd f op = SOk iin /\ sys_fstat f iin = SOk st.
  Proof.
    unfold eff_input_init. cbv zeta. destruct (if c_force cf then None else _); [discriminate|].
    destruct (_ && _); [discriminate|]. destruct (sys_open_rd f op) as [i|e|]; try discriminate.
    destruct (sys_fstat f i) as [s|e|] eqn:Es; try discriminate. intro H. inversion H; subst. auto.
  Qed.

  Lemma eff_input_init_admits op f :
    c_force cf = false -> c_outmode cf = OmRegf -> (forall t, eff_input_init cf op f <> IISkip t) -> admissible f op.
  Proof.
    unfold eff_input_init, is_regf, admissible. intros -> -> H. cbv zeta in H. cbn [andb] in H.
    destruct (sys_lstat f op) as [lst|e|]; try (elim (H _ eq_refl)).
    destruct (st_kind lst) eqn:Ek; try (elim (H _ eq_refl)). cbn [negb] in H.
    destruct (negb (c_keep cf) && (nlink_limit <? st_nlink lst)) eqn:En; [elim (H _ eq_refl)|].
    exists lst. repeat split; auto. apply andb_false_iff in En as [En|En].
    - left. destruct (c_keep cf); auto.
    - right. apply N.ltb_ge in En. exact En.
  Qed.

  (* C17 admission: what is not admitted is skipped, warned about, and untouched *)
  Lemma admission op f :
    c_outmode cf = OmRegf -> c_force cf = false -> ~ admissible f op ->
    exists t, op_effect codec cf op f = {| e_fs := f; e_warn := true; e_end := ENext (DSkipped t) |}.
  Proof.
    intros Ho Hf Hn. unfold op_effect.
    destruct (eff_input_init cf op f) as [t|iin st|] eqn:E; [eexists; reflexivity | |].
    all: elim Hn; apply eff_input_init_admits; auto; rewrite E; discriminate.
  Qed.

  (* C17 compressed suffix: skipped when compressing, with or without -f *)
  Lemma suffix_skip op f :
    c_decompress cf = false -> is_compressed_name op = true ->
    exists t, op_effect codec cf op f = {| e_fs := f; e_warn := true; e_end := ENext (DSkipped t) |}.
  Proof.
    intros Hd Hs. unfold op_effect.
    assert (E : exists t, eff_input_init cf op f = IISkip t).
    { unfold eff_input_init. rewrite Hd, Hs. cbn [negb andb].
      destruct (c_force cf); [eexists; reflexivity|].
      destruct (sys_lstat f op) as [lst|e|]; try (eexists; reflexivity).
      destruct (is_regf cf && negb match st_kind lst with SReg => true | _ => false end); [eexists; reflexivity|].
      destruct (is_regf cf && negb (c_keep cf) && (nlink_limit <? st_nlink lst)); eexists; reflexivity. }
    destruct E as [t ->]. eexists; reflexivity.
  Qed.
End OpFacts.

Section OpDone.
  Variable codec : cmode -> bytes -> cres.
  Variable cf : cfg.

  Record done_facts (op : path) (f f' : fs) (warn : bool)
         (df_iin : N) (df_st : stat) (df_q : path) (df_iout : N) (df_nd : inode) (df_ndin : inode) : Prop := {
    df_open : sys_open_rd f op = SOk df_iin;
    df_fstat : sys_fstat f df_iin = SOk df_st;
    df_in : ilook f df_iin = Some df_ndin;
    df_name : out_name (c_decompress cf) op = Some df_q;
    df_out : nlook f' df_q = Some (DLink df_iout);
    df_free : c_force cf = false -> nlook f df_q = None;
    df_fresh : ilook f df_iout = None;
    df_node : ilook f' df_iout = Some df_nd;
    df_data : expected_output codec cf (i_data df_ndin) = Some (i_data df_nd);
    df_kind : i_kind df_nd = KReg;
    df_commit : i_committed df_nd = true;
    df_mode : i_mode df_nd = N.land (st_mode df_st) fchmod_mask;
    df_uid : i_uid df_nd = fld fchown_fields 0 df_st;
    df_gid : i_gid df_nd = fld fchown_fields 1 df_st;
    df_atime : i_atime df_nd = fld futimens_fields 0 df_st;
    df_mtime : i_mtime df_nd = fld futimens_fields 1 df_st;
    df_others : forall j, j <> df_iout -> ilook f' j = ilook f j;
    df_names : forall p, p <> df_q -> p <> op -> nlook f' p = nlook f p;
    df_input : nlook f' op = if c_keep cf then nlook f op else None;
    df_warn : warn = negb (N.land (st_mode df_st) special_mask =? 0)
  }.

  (* output_regf_uninit(): the new inode gets owner, mode and times of the input and is committed; nothing else changes *)
  Lemma eff_regf_uninit_spec iout st f nd :
    ilook f iout = Some nd ->
    let f' := fst (eff_regf_uninit iout st f) in
    (forall p, nlook f' p = nlook f p) /\ (forall j, j <> iout -> ilook f' j = ilook f j) /\
    ilook f' iout = Some {| i_kind := i_kind nd; i_mode := N.land (st_mode st) fchmod_mask;
                            i_uid := fld fchown_fields 0 st; i_gid := fld fchown_fields 1 st;
                            i_atime := fld futimens_fields 0 st; i_mtime := fld futimens_fields 1 st;
                            i_data := i_data nd; i_committed := true |}.
  Proof.
    intro H. unfold eff_regf_uninit, sys_fchown, sys_fchmod, sys_futimens, sys_close_out. cbn [fst]. split; [|split].
    - intro p. rewrite !nlook_upd_inode. reflexivity.
    - intros j Hj. rewrite !ilook_upd_inode_neq by auto. reflexivity.
    - rewrite (ilook_upd_inode_eq _ _ _ _ (ilook_upd_inode_eq _ _ _ _ (ilook_upd_inode_eq _ _ _ _
                 (ilook_upd_inode_eq _ _ _ _ H)))). reflexivity.
  Qed.

  Lemma op_done op f :
    c_outmode cf = OmRegf -> e_end (op_effect codec cf op f) = ENext DDone ->
    exists iin st q iout nd ndin,
      done_facts op f (e_fs (op_effect codec cf op f)) (e_warn (op_effect codec cf op f)) iin st q iout nd ndin.
  Proof.
    intros Ho. unfold op_effect. rewrite Ho.
    destruct (eff_input_init cf op f) as [t|iin st|] eqn:Ei; cbn [e_end]; try discriminate.
    destruct (eff_input_init_open cf op f iin st Ei) as (Eopen & Efst).
    destruct (open_rd_resolve f op iin Eopen) as [Hres [ndin Endin]].
    destruct (out_name (c_decompress cf) op) as [q|] eqn:Eq; cbn [e_end]; try discriminate.
    pose proof (out_name_neq _ _ _ Eq) as Hqop.
    destruct (c_force cf && output_init_checks_same_file && same_file f q st) eqn:Esf; cbn [e_end]; try discriminate.
    (* unlink(q) under -f *)
    set (f1 := if c_force cf then fst (sys_unlink f q) else f).
    assert (I1 : forall j, ilook f1 j = ilook f j).
    { intro j. unfold f1. destruct (c_force cf); auto. apply unlink_ilook. }
    assert (N1 : forall p, p <> q -> nlook f1 p = nlook f p).
    { intros p Hp. unfold f1. destruct (c_force cf); auto. apply unlink_nlook_other. auto. }
    (* open(q, O_CREAT|O_EXCL) *)
    destruct (sys_creat_excl f1 q (N.land (st_mode st) open_out_mode_mask) (c_uid cf) (c_gid cf) (c_now cf))
      as [f2 [iout|e|]] eqn:Ec; cbn [e_end]; try discriminate.
    destruct (creat_ok f1 q (N.land (st_mode st) open_out_mode_mask) (c_uid cf) (c_gid cf) (c_now cf) iout)
      as (Hfree & Hfresh & Q2 & N2 & O2 & I2); [rewrite Ec; reflexivity|]. rewrite Ec in Q2, N2, O2, I2. cbn [fst] in *.
    assert (Hnew : ilook f iout = None) by (rewrite <- I1, Hfresh; apply fresh_not_in_inodes).
    assert (Hio : iout <> iin) by congruence.
    (* work() *)
    destruct (eff_work codec cf iin (OFile iout) f2) as [f3 [tag|]] eqn:Ew; cbn [e_end]; try discriminate.
    destruct (eff_work_file codec cf iin iout f2 f3) as (Hnd & w & Hexp & (A1 & A3 & A4)); auto.
    { rewrite I2, I1, Endin; [discriminate | auto]. }
    unfold input_data in Hexp. unfold input_is_dir in Hnd. rewrite I2, I1, Endin in Hexp, Hnd by auto.
    destruct (A4 _ O2) as (nd3 & O3 & (K3 & _) & D3). cbn in D3, K3.
    (* output_regf_uninit() *)
    destruct (eff_regf_uninit_spec iout st f3 nd3 O3) as (N4 & I4 & O4).
    destruct (eff_regf_uninit iout st f3) as [f4 w1] eqn:Er. cbn [fst] in N4, I4, O4.
    assert (Ew1 : w1 = negb (N.land (st_mode st) special_mask =? 0)) by (injection Er; auto).
    assert (N4' : forall p, nlook f4 p = nlook f2 p) by (intro p; rewrite N4; unfold nlook; rewrite A1; reflexivity).
    (* input_oprnd_rm(): the operand is a plain name of the (non-directory) input, so unlink() succeeds *)
    assert (Hrm : (if c_keep cf then (f4, false) else eff_oprnd_rm op f4) =
                  ((if c_keep cf then f4 else set_names f4 (arem String.eqb op (f_names f4))), false)).
    { destruct (c_keep cf); auto. unfold eff_oprnd_rm. rewrite unlink_ok; auto; rewrite N4', N2, N1 by auto.
      - cbn [resolve] in Hres. unfold SYMLOOP_MAX in Hres. cbn [resolve] in Hres. destruct (nlook f op); congruence.
      - intros i Hi. rewrite (resolve_link f SYMLOOP_MAX op i Hi) in Hres. injection Hres as ->.
        unfold input_is_dir. rewrite I4, A3, I2, I1, Endin by auto. exact Hnd. }
    cbv beta iota. rewrite Hrm. cbn [e_end e_fs e_warn]. intros _.
    set (f5 := if c_keep cf then f4 else set_names f4 (arem String.eqb op (f_names f4))).
    assert (I5 : forall j, ilook f5 j = ilook f4 j) by (intro j; unfold f5; destruct (c_keep cf); reflexivity).
    assert (N5 : forall p, p <> op -> nlook f5 p = nlook f4 p).
    { intros p Hp. unfold f5. destruct (c_keep cf); auto. unfold nlook. cbn.
      apply (alook_arem_neq String.eqb String.eqb_eq). auto. }
    match type of O4 with _ = Some ?nd => exists iin, st, q, iout, nd, ndin end.
    constructor; auto; try reflexivity.
    - rewrite N5, N4'; auto.
    - intro Hf. unfold f1 in Hfree. rewrite Hf in Hfree. exact Hfree.
    - rewrite I5. exact O4.
    - cbn. rewrite D3. exact Hexp.
    - intros j Hj. rewrite I5, I4, A3, I2, I1; auto.
    - intros p Hp1 Hp2. rewrite N5, N4', N2, N1; auto.
    - unfold f5. destruct (c_keep cf).
      + rewrite N4', N2, N1; auto.
      + unfold nlook. cbn. apply (alook_arem_eq String.eqb).
    - rewrite Ew1, orb_false_r. reflexivity.
  Qed.
End OpDone.

Section Fold.
  Variable codec : cmode -> bytes -> cres.
  Variable cf : cfg.

  Fixpoint trace (ops : list path) (f : fs) : list oeff :=
    match ops with
    | [] => []
    | op :: r =>
        let e := op_effect codec cf op f in
        e :: match e_end e with ENext _ => trace r (e_fs e) | EStop _ _ => [] end
    end.

  Definition completes (e : oeff) : Prop := exists d, e_end e = ENext d.

  Lemma exit_status ops : forall f w,
    Forall completes (trace ops f) ->
    snd (run_effect codec cf ops f w) =
    Exit (if w || existsb e_warn (trace ops f) then exit_if_warned else exit_if_clean).
  Proof.
    induction ops as [|op ops IH]; intros f w H; cbn [run_effect trace existsb].
    - rewrite orb_false_r. reflexivity.
    - cbn [trace] in H. inversion H as [|e tr [d Hd] Htr]; subst.
      rewrite Hd in *. rewrite IH by exact Htr. rewrite orb_assoc. reflexivity.
  Qed.

  Lemma stop_status ops1 op ops2 : forall f w f1,
    Forall completes (trace ops1 f) ->
    f1 = fold_left (fun g o => e_fs (op_effect codec cf o g)) ops1 f ->
    forall o y, e_end (op_effect codec cf op f1) = EStop o y ->
    run_effect codec cf (ops1 ++ op :: ops2) f w = (e_fs (op_effect codec cf op f1), o).
  Proof.
    induction ops1 as [|a ops1 IH]; intros f w f1 H E o y Hs; cbn [app run_effect fold_left] in *.
    - subst f1. rewrite Hs. reflexivity.
    - cbn [trace] in H. inversion H as [|e tr [d Hd] Htr]; subst.
      rewrite Hd in *. eapply IH; eauto.
  Qed.

  Lemma stop_kinds op f o y :
    e_end (op_effect codec cf op f) = EStop o y ->
    (o = Hang /\ y = WHang) \/ (o = Exit bailout_exit /\ exists tag, y = WFatal tag).
  Proof.
    unfold op_effect.
    destruct (eff_input_init cf op f); cbn [e_end]; try discriminate.
    2:{ intro H. inversion H. auto. }
    destruct (c_outmode cf).
    - destruct (eff_work codec cf iin OStdout f) as [f3 [tag|]]; cbn [e_end fatal_end]; try discriminate.
      intro H. inversion H. right. eauto.
    - destruct (eff_work codec cf iin ODiscard f) as [f3 [tag|]]; cbn [e_end fatal_end]; try discriminate.
      intro H. inversion H. right. eauto.
    - destruct (out_name (c_decompress cf) op); cbn [e_end fatal_end].
      2:{ intro H. inversion H. right. eauto. }
      destruct (c_force cf && output_init_checks_same_file && same_file f s st); cbn [e_end]; try discriminate.
      destruct (sys_creat_excl _ _ _ _ _ _) as [f2 [iout|e|]]; cbn [e_end]; try discriminate.
      destruct (eff_work codec cf iin (OFile iout) f2) as [f3 [tag|]]; cbn [e_end fatal_end].
      + intro H. inversion H. right. eauto.
      + destruct (eff_regf_uninit iout st f3). destruct (if c_keep cf then _ else _). cbn. discriminate.
  Qed.

  Definition upgrade (w : bool) (o : outcome) : outcome :=
    match o with
    | Exit n => if w && (n =? exit_if_clean) then Exit exit_if_warned else o
    | _ => o
    end.

  Lemma upgrade_false o : upgrade false o = o.
  Proof. destruct o; reflexivity. Qed.

  Lemma upgrade_orb a b o : upgrade (a || b) o = upgrade a (upgrade b o).
  Proof.
    destruct a, b; cbn [orb]; rewrite ?upgrade_false; auto.
    destruct o as [n| |]; cbn; auto.
    destruct (n =? exit_if_clean) eqn:E; cbn.
    - destruct (exit_if_warned =? exit_if_clean); reflexivity.
    - rewrite E. reflexivity.
  Qed.

  Lemma run_effect_warned ops : forall f w,
    run_effect codec cf ops f w =
    (fst (run_effect codec cf ops f false), upgrade w (snd (run_effect codec cf ops f false))).
  Proof.
    induction ops as [|op ops IH]; intros f w; cbn [run_effect].
    - cbn. destruct w; reflexivity.
    - destruct (e_end (op_effect codec cf op f)) as [d|o y] eqn:E.
      + rewrite IH. rewrite (IH _ (false || _)). cbn [fst snd orb].
        rewrite upgrade_orb. reflexivity.
      + cbn [fst snd]. destruct (stop_kinds op f o y E) as [[-> _]|[-> _]]; cbn.
        * reflexivity.
        * destruct w; reflexivity.
  Qed.

  Lemma run_effect_single op f :
    run_effect codec cf [op] f false =
    (e_fs (op_effect codec cf op f),
     match e_end (op_effect codec cf op f) with
     | ENext _ => Exit (if e_warn (op_effect codec cf op f) then exit_if_warned else exit_if_clean)
     | EStop o _ => o
     end).
  Proof. cbn [run_effect]. destruct (e_end (op_effect codec cf op f)); reflexivity. Qed.

  Definition is_final_exit (o : outcome) : bool :=
    match o with Exit n => (n =? exit_if_clean) || (n =? exit_if_warned) | _ => false end.

  Lemma run_effect_cons op ops f :
    run_effect codec cf (op :: ops) f false =
    let '(f1, o1) := run_effect codec cf [op] f false in
    if is_final_exit o1 then
      let '(f2, o2) := run_effect codec cf ops f1 false in
      (f2, upgrade (match o1 with Exit n => n =? exit_if_warned | _ => false end) o2)
    else (f1, o1).
  Proof.
    rewrite run_effect_single. cbn [run_effect].
    destruct (e_end (op_effect codec cf op f)) as [d|o y] eqn:E.
    - cbn [orb]. destruct (e_warn (op_effect codec cf op f)); cbn [is_final_exit].
      + rewrite N.eqb_refl, orb_true_r. rewrite run_effect_warned.
        destruct (run_effect codec cf ops (e_fs (op_effect codec cf op f)) false). reflexivity.
      + rewrite N.eqb_refl. cbn [orb]. rewrite (run_effect_warned ops _ false).
        destruct (run_effect codec cf ops (e_fs (op_effect codec cf op f)) false) as [f2 o2]. cbn [fst snd].
        rewrite upgrade_false. destruct (exit_if_clean =? exit_if_warned) eqn:En.
        * (* degenerate: both codes equal *) apply N.eqb_eq in En.
          destruct o2 as [n| |]; cbn; auto. rewrite En. destruct (n =? exit_if_warned) eqn:E2; auto.
          apply N.eqb_eq in E2. subst. reflexivity.
        * rewrite upgrade_false. reflexivity.
    - destruct (stop_kinds op f o y E) as [[-> _]|[-> _]]; cbn [is_final_exit]; auto.
  Qed.
End Fold.

(* -c / -t never touch the tree *)
Section NonFile.
  Variable codec : cmode -> bytes -> cres.
  Variable cf : cfg.

  Definition same_tree (f f' : fs) : Prop := f_names f' = f_names f /\ f_inodes f' = f_inodes f.

  Lemma eff_write_nonfile o c f : (forall i, o <> OFile i) -> same_tree f (eff_write cf o c f).
  Proof.
    intro H. destruct c; [split; reflexivity|]. destruct o; cbn; try (split; reflexivity).
    exfalso. eapply H. reflexivity.
  Qed.

  Lemma eff_io_nonfile iin o evs : forall f, (forall i, o <> OFile i) -> same_tree f (fst (eff_io cf iin o evs f)).
  Proof.
    induction evs as [|[|c] evs IH]; intros f H; cbn [eff_io].
    - split; reflexivity.
    - destruct (snd (sys_read f iin)); auto. split; reflexivity.
    - destruct (eff_write_nonfile o c f H) as [A B]. destruct (IH (eff_write cf o c f) H) as [A' B'].
      split; congruence.
  Qed.

  Lemma eff_work_nonfile iin o f : (forall i, o <> OFile i) -> same_tree f (fst (eff_work codec cf iin o f)).
  Proof.
    intro H. unfold eff_work.
    assert (S : forall isdir cr g, same_tree f g -> same_tree f (fst (eff_schedule cf iin o isdir cr g))).
    { intros isdir cr g [A B]. unfold eff_schedule.
      pose proof (eff_io_nonfile iin o (if isdir then [IoRead] else c_io cr) g H) as [A' B'].
      destruct (eff_io cf iin o (if isdir then [IoRead] else c_io cr) g) as [g' [|]]; cbn [fst] in *.
      - destruct (c_ok cr || isdir); cbn; split; congruence.
      - cbn. split; congruence. }
    destruct (c_decompress cf).
    - destruct (eff_main_reads _ _ _); [|split; reflexivity].
      destruct (hdr_ok _); [apply S; split; reflexivity|].
      destruct (c_force cf && is_stdout o); [|split; reflexivity].
      apply S. apply eff_write_nonfile. exact H.
    - apply S. split; reflexivity.
  Qed.

  Lemma op_effect_nonfile op f : c_outmode cf <> OmRegf -> same_tree f (e_fs (op_effect codec cf op f)).
  Proof.
    intro H. unfold op_effect. destruct (eff_input_init cf op f); cbn; try (split; reflexivity).
    destruct (c_outmode cf) eqn:E; try congruence.
    - pose proof (eff_work_nonfile iin OStdout f) as W.
      destruct (eff_work codec cf iin OStdout f) as [f3 [t|]]; cbn in *; apply W; discriminate.
    - pose proof (eff_work_nonfile iin ODiscard f) as W.
      destruct (eff_work codec cf iin ODiscard f) as [f3 [t|]]; cbn in *; apply W; discriminate.
  Qed.
End NonFile.

(* the statements in the form used by Properties_C17 / Properties_C18 *)
Lemma suffix_skip_doc codec cf op f :
  c_decompress cf = false ->
  (ends_with op ".bz2" || ends_with op ".tbz" || ends_with op ".tbz2" || ends_with op ".tz2") = true ->
  exists t, op_effect codec cf op f = {| e_fs := f; e_warn := true; e_end := ENext (DSkipped t) |}.
Proof. intros Hd Hs. apply suffix_skip; auto. rewrite is_compressed_name_spec. exact Hs. Qed.

Lemma metadata codec cf op f :
  c_outmode cf = OmRegf -> e_end (op_effect codec cf op f) = ENext DDone ->
  let f' := e_fs (op_effect codec cf op f) in
  exists iin st ndin q iout nd,
    sys_open_rd f op = SOk iin /\ sys_fstat f iin = SOk st /\ ilook f iin = Some ndin /\
    out_name (c_decompress cf) op = Some q /\
    nlook f' q = Some (DLink iout) /\ ilook f iout = None /\ ilook f' iout = Some nd /\
    i_kind nd = KReg /\ i_committed nd = true /\
    expected_output codec cf (i_data ndin) = Some (i_data nd) /\
    i_mode nd = N.land (st_mode st) 511 /\
    i_atime nd = st_atime st /\ i_mtime nd = st_mtime st /\
    i_uid nd = st_uid st /\ i_gid nd = st_gid st /\
    (forall j, j <> iout -> ilook f' j = ilook f j) /\
    (forall p, p <> q -> p <> op -> nlook f' p = nlook f p) /\
    (c_force cf = false -> nlook f q = None) /\
    e_warn (op_effect codec cf op f) = negb (N.land (st_mode st) 3584 =? 0).
Proof.
  intros Ho Hd. destruct (op_done codec cf op f Ho Hd) as (iin & st & q & iout & nd & ndin & D).
  destruct D. exists iin, st, ndin, q, iout, nd.
  repeat split; auto.
Qed.

Lemma removal codec cf op f :
  e_end (op_effect codec cf op f) = ENext DDone ->
  let f' := e_fs (op_effect codec cf op f) in
  match c_outmode cf with
  | OmRegf => nlook f' op = if c_keep cf then nlook f op else None
  | _ => f_names f' = f_names f /\ f_inodes f' = f_inodes f
  end.
Proof.
  intros Hd. destruct (c_outmode cf) eqn:Ho.
  - apply op_effect_nonfile. congruence.
  - apply op_effect_nonfile. congruence.
  - destruct (op_done codec cf op f Ho Hd) as (iin & st & q & iout & nd & ndin & D). destruct D. assumption.
Qed.

Lemma exit_status_run codec cf ops f :
  Forall (completes) (trace codec cf ops f) ->
  snd (run codec cf f ops []) = Exit (if existsb e_warn (trace codec cf ops f) then 4 else 0).
Proof. intro H. rewrite run_is_fold. rewrite exit_status by exact H. reflexivity. Qed.

Lemma run_single codec cf op f :
  run codec cf f [op] [] =
  (e_fs (op_effect codec cf op f),
   match e_end (op_effect codec cf op f) with
   | ENext _ => Exit (if e_warn (op_effect codec cf op f) then 4 else 0)
   | EStop o _ => o
   end).
Proof. rewrite run_is_fold. apply run_effect_single. Qed.

Lemma run_cons codec cf op ops f :
  run codec cf f (op :: ops) [] =
  let '(f1, o1) := run codec cf f [op] [] in
  match o1 with
  | Exit 0 => run codec cf f1 ops []
  | Exit 4 => let '(f2, o2) := run codec cf f1 ops [] in
              (f2, match o2 with Exit 0 => Exit 4 | _ => o2 end)
  | _ => (f1, o1)
  end.
Proof.
  rewrite !run_is_fold. rewrite run_effect_cons. rewrite run_effect_single.
  destruct (e_end (op_effect codec cf op f)) as [d|o y] eqn:E.
  - destruct (e_warn (op_effect codec cf op f)); cbn.
    + rewrite run_is_fold. destruct (run_effect codec cf ops (e_fs (op_effect codec cf op f)) false) as [f2 o2].
      destruct o2 as [n| |]; auto. destruct n as [|p]; auto.
    + rewrite run_is_fold. destruct (run_effect codec cf ops (e_fs (op_effect codec cf op f)) false) as [f2 o2].
      destruct o2 as [n| |]; auto.
  - destruct (stop_kinds codec cf op f o y E) as [[-> _]|[-> _]]; reflexivity.
Qed.

Lemma fatal_stops codec cf ops1 op ops2 f f1 o y :
  Forall (completes) (trace codec cf ops1 f) ->
  f1 = fold_left (fun g o => e_fs (op_effect codec cf o g)) ops1 f ->
  e_end (op_effect codec cf op f1) = EStop o y ->
  run codec cf f (ops1 ++ op :: ops2) [] = (e_fs (op_effect codec cf op f1), o) /\
  ((o = Hang /\ y = WHang) \/ (o = Exit 1 /\ exists tag, y = WFatal tag)).
Proof.
  intros H E S. split.
  - rewrite run_is_fold. eapply stop_status; eauto.
  - apply (stop_kinds codec cf op f1 o y S).
Qed.

(* a processed operand with a setuid bit warns: exit status 4 although nothing was skipped *)
Lemma exit4_without_skip :
  exists codec cf f op,
    e_end (op_effect codec cf op f) = ENext DDone /\ snd (run codec cf f [op] []) = Exit 4.
Proof.
  exists (fun _ d => {| c_io := [IoRead; IoWrite d]; c_ok := true |}),
    {| c_decompress := false; c_force := false; c_keep := false; c_outmode := OmRegf; c_uid := 0; c_gid := 0; c_now := 9 |},
    {| f_names := [("a"%string, DLink 1)];
       f_inodes := [(1, {| i_kind := KReg; i_mode := 2541 (* 04755 *); i_uid := 0; i_gid := 0; i_atime := 1;
                          i_mtime := 2; i_data := [7]; i_committed := true |})];
       f_stdout := [] |}, "a"%string.
  vm_compute. split; reflexivity.
Qed.
