(* Abstract file system for the operand loop of main() (properties C16, C17, C18).

   Names map to directory entries (a hard link to an inode, or a symbolic link
   holding a target name); inodes carry kind, permission bits, owner, times and
   content.  The link count is not stored: it is the number of names that refer
   to the inode, so unlink() only touches the name table.  An inode that lost
   its last name stays in the table (it may still be open); listings only walk
   the names.

   What is NOT modelled (trusted / declared in the checks):
   - directories as containers: a path is an opaque key; the parent directory of
     every operand is assumed to exist and to be writable, so creating a name
     fails only if it exists already or has an empty final component;
   - permission checks (the checks run as root), umask bits outside 0600;
   - atime updates caused by reading; ctime;
   - concurrent modification of the tree by other processes (no TOCTOU). *)
From Coq Require Import List NArith Arith Bool String Ascii.
Import ListNotations.
Local Open Scope N_scope.

Definition path := string.
Definition bytes := list N.

(* ---- association lists ----------------------------------------------------------- *)
Section Assoc.
  Context {K V : Type}.
  Variable eqb : K -> K -> bool.

  Fixpoint alook (k : K) (l : list (K * V)) : option V :=
    match l with
    | [] => None
    | (k', v) :: r => if eqb k' k then Some v else alook k r
    end.

  Fixpoint arem (k : K) (l : list (K * V)) : list (K * V) :=
    match l with
    | [] => []
    | (k', v) :: r => if eqb k' k then arem k r else (k', v) :: arem k r
    end.

  Definition aset (k : K) (v : V) (l : list (K * V)) : list (K * V) := (k, v) :: arem k l.
End Assoc.

(* ---- errno values (Linux numbers; main.c compares only ENOENT, EPIPE and EFBIG) ---- *)
Definition ENOENT : N := 2.
Definition EIO : N := 5.
Definition EBADF : N := 9.
Definition EACCES : N := 13.
Definition EEXIST : N := 17.
Definition EISDIR : N := 21.
Definition EFBIG : N := 27.
Definition ENOSPC : N := 28.
Definition EPIPE : N := 32.
Definition ELOOP : N := 40.

Inductive sysres (A : Type) : Type :=
| SOk (a : A)
| SErr (e : N)
| SHang.                 (* the call never returns (open of a FIFO without writer) *)
Arguments SOk {A} a.
Arguments SErr {A} e.
Arguments SHang {A}.

(* ---- nodes ------------------------------------------------------------------------- *)
Inductive kind := KReg | KDir | KFifo.

Record inode := {
  i_kind : kind;
  i_mode : N;              (* permission bits incl. setuid/setgid/sticky (07777) *)
  i_uid : N;
  i_gid : N;
  i_atime : N;
  i_mtime : N;
  i_data : bytes;
  i_committed : bool       (* ghost: false from creation until a close() of the writing descriptor succeeded *)
}.

Inductive dentry := DLink (ino : N) | DSym (target : path).

Record fs := {
  f_names : list (path * dentry);
  f_inodes : list (N * inode);
  f_stdout : bytes
}.

Definition nlook (f : fs) (p : path) : option dentry := alook String.eqb p (f_names f).
Definition ilook (f : fs) (i : N) : option inode := alook N.eqb i (f_inodes f).

Definition set_names (f : fs) (n : list (path * dentry)) : fs :=
  {| f_names := n; f_inodes := f_inodes f; f_stdout := f_stdout f |}.
Definition set_inodes (f : fs) (n : list (N * inode)) : fs :=
  {| f_names := f_names f; f_inodes := n; f_stdout := f_stdout f |}.
Definition set_stdout (f : fs) (o : bytes) : fs :=
  {| f_names := f_names f; f_inodes := f_inodes f; f_stdout := o |}.

Definition is_link_to (i : N) (e : path * dentry) : bool :=
  match snd e with DLink j => N.eqb j i | DSym _ => false end.

(* st_nlink: number of names of the inode *)
Definition nlink (f : fs) (i : N) : N := N.of_nat (List.length (filter (is_link_to i) (f_names f))).

(* what stat()/lstat()/fstat() report *)
Inductive skind := SReg | SDir | SFifo | SLnk.

Record stat := {
  st_ino : N;              (* inode number (one device) *)
  st_kind : skind;
  st_mode : N;
  st_nlink : N;
  st_uid : N;
  st_gid : N;
  st_atime : N;
  st_mtime : N;
  st_size : N
}.

Definition skind_of (k : kind) : skind :=
  match k with KReg => SReg | KDir => SDir | KFifo => SFifo end.

Definition stat_of (f : fs) (i : N) (nd : inode) : stat :=
  {| st_ino := i; st_kind := skind_of (i_kind nd); st_mode := i_mode nd; st_nlink := nlink f i;
     st_uid := i_uid nd; st_gid := i_gid nd; st_atime := i_atime nd; st_mtime := i_mtime nd;
     st_size := N.of_nat (List.length (i_data nd)) |}.

Definition lnk_stat (target : path) : stat :=
  {| st_ino := 0; st_kind := SLnk; st_mode := 511; st_nlink := 1; st_uid := 0; st_gid := 0;
     st_atime := 0; st_mtime := 0; st_size := N.of_nat (String.length target) |}.

(* ---- path resolution (symbolic links are followed at most [fuel] times) ---------- *)
Definition SYMLOOP_MAX : nat := 40.

Fixpoint resolve (f : fs) (fuel : nat) (p : path) : sysres N :=
  match nlook f p with
  | None => SErr ENOENT
  | Some (DLink i) => SOk i
  | Some (DSym t) =>
      match fuel with
      | O => SErr ELOOP
      | S fuel' => resolve f fuel' t
      end
  end.

(* ---- the system calls main.c makes, natural (fault-free) behaviour ----------------- *)
Definition sys_lstat (f : fs) (p : path) : sysres stat :=
  match nlook f p with
  | None => SErr ENOENT
  | Some (DSym t) => SOk (lnk_stat t)
  | Some (DLink i) =>
      match ilook f i with
      | Some nd => SOk (stat_of f i nd)
      | None => SErr ENOENT
      end
  end.

(* open(p, O_RDONLY|O_NOCTTY): the inode read from *)
Definition sys_open_rd (f : fs) (p : path) : sysres N :=
  match resolve f SYMLOOP_MAX p with
  | SOk i =>
      match ilook f i with
      | Some nd => match i_kind nd with KFifo => SHang | _ => SOk i end
      | None => SErr ENOENT
      end
  | SErr e => SErr e
  | SHang => SHang
  end.

(* stat(p): follows symbolic links *)
Definition sys_stat (f : fs) (p : path) : sysres stat :=
  match resolve f SYMLOOP_MAX p with
  | SOk i => match ilook f i with
             | Some nd => SOk (stat_of f i nd)
             | None => SErr ENOENT
             end
  | SErr e => SErr e
  | SHang => SHang
  end.

(* `0 == stat(q, &o) && o.st_dev == sbuf->st_dev && o.st_ino == sbuf->st_ino`: the name q leads to the file described by st *)
Definition same_file (f : fs) (q : path) (st : stat) : bool :=
  match sys_stat f q with
  | SOk st' => N.eqb (st_ino st') (st_ino st)
  | _ => false
  end.

Definition sys_fstat (f : fs) (i : N) : sysres stat :=
  match ilook f i with
  | Some nd => SOk (stat_of f i nd)
  | None => SErr EBADF
  end.

Definition sys_unlink (f : fs) (p : path) : fs * sysres unit :=
  match nlook f p with
  | None => (f, SErr ENOENT)
  | Some (DSym _) => (set_names f (arem String.eqb p (f_names f)), SOk tt)
  | Some (DLink i) =>
      match ilook f i with
      | Some nd =>
          match i_kind nd with
          | KDir => (f, SErr EISDIR)
          | _ => (set_names f (arem String.eqb p (f_names f)), SOk tt)
          end
      | None => (set_names f (arem String.eqb p (f_names f)), SOk tt)
      end
  end.

(* last character of a name *)
Fixpoint last_char (s : string) : option ascii :=
  match s with
  | EmptyString => None
  | String c EmptyString => Some c
  | String _ r => last_char r
  end.

(* a name whose final component is empty cannot be created *)
Definition creatable (p : path) : bool :=
  match last_char p with
  | None => false
  | Some c => negb (Ascii.eqb c "/"%char)
  end.

Definition max_list (l : list N) : N := fold_right N.max 0 l.

Definition dentry_ino (e : path * dentry) : N :=
  match snd e with DLink i => i | DSym _ => 0 end.

(* an inode number used neither by a name nor by the inode table *)
Definition fresh_ino (f : fs) : N :=
  1 + N.max (max_list (map fst (f_inodes f))) (max_list (map dentry_ino (f_names f))).

(* open(p, O_WRONLY|O_CREAT|O_EXCL, mode): a new empty regular file *)
Definition sys_creat_excl (f : fs) (p : path) (mode uid gid now : N) : fs * sysres N :=
  if negb (creatable p) then (f, SErr ENOENT)
  else match nlook f p with
       | Some _ => (f, SErr EEXIST)
       | None =>
           let i := fresh_ino f in
           let nd := {| i_kind := KReg; i_mode := mode; i_uid := uid; i_gid := gid;
                        i_atime := now; i_mtime := now; i_data := []; i_committed := false |} in
           ({| f_names := aset String.eqb p (DLink i) (f_names f);
               f_inodes := aset N.eqb i nd (f_inodes f);
               f_stdout := f_stdout f |}, SOk i)
       end.

Definition upd_inode (f : fs) (i : N) (g : inode -> inode) : fs :=
  match ilook f i with
  | Some nd => set_inodes f (aset N.eqb i (g nd) (f_inodes f))
  | None => f
  end.

(* read(): only whether it succeeds matters here; the bytes are taken by the codec *)
Definition sys_read (f : fs) (i : N) : fs * sysres unit :=
  match ilook f i with
  | Some nd => match i_kind nd with KDir => (f, SErr EISDIR) | _ => (f, SOk tt) end
  | None => (f, SErr EBADF)
  end.

Definition sys_write (now : N) (i : N) (chunk : bytes) (f : fs) : fs * sysres unit :=
  (upd_inode f i (fun nd =>
     {| i_kind := i_kind nd; i_mode := i_mode nd; i_uid := i_uid nd; i_gid := i_gid nd;
        i_atime := i_atime nd; i_mtime := now; i_data := i_data nd ++ chunk;
        i_committed := i_committed nd |}), SOk tt).

Definition sys_write_stdout (chunk : bytes) (f : fs) : fs * sysres unit :=
  (set_stdout f (f_stdout f ++ chunk), SOk tt).

Definition sys_fchown (i uid gid : N) (f : fs) : fs * sysres unit :=
  (upd_inode f i (fun nd =>
     {| i_kind := i_kind nd; i_mode := i_mode nd; i_uid := uid; i_gid := gid;
        i_atime := i_atime nd; i_mtime := i_mtime nd; i_data := i_data nd;
        i_committed := i_committed nd |}), SOk tt).

Definition sys_fchmod (i mode : N) (f : fs) : fs * sysres unit :=
  (upd_inode f i (fun nd =>
     {| i_kind := i_kind nd; i_mode := mode; i_uid := i_uid nd; i_gid := i_gid nd;
        i_atime := i_atime nd; i_mtime := i_mtime nd; i_data := i_data nd;
        i_committed := i_committed nd |}), SOk tt).

Definition sys_futimens (i at_ mt : N) (f : fs) : fs * sysres unit :=
  (upd_inode f i (fun nd =>
     {| i_kind := i_kind nd; i_mode := i_mode nd; i_uid := i_uid nd; i_gid := i_gid nd;
        i_atime := at_; i_mtime := mt; i_data := i_data nd;
        i_committed := i_committed nd |}), SOk tt).

(* close() of the descriptor the output was written through *)
Definition sys_close_out (i : N) (f : fs) : fs * sysres unit :=
  (upd_inode f i (fun nd =>
     {| i_kind := i_kind nd; i_mode := i_mode nd; i_uid := i_uid nd; i_gid := i_gid nd;
        i_atime := i_atime nd; i_mtime := i_mtime nd; i_data := i_data nd;
        i_committed := true |}), SOk tt).

(* close() of a read-only descriptor / of stdout: no effect on the tree *)
Definition sys_close_nop (f : fs) : fs * sysres unit := (f, SOk tt).

(* ---- canonical listing (what the correspondence compares) ------------------------ *)
Inductive lentry :=
| LFile (p : path) (k : skind) (mode nlk uid gid at_ mt : N) (data : bytes)
| LSym (p : path) (target : path)
| LDangling (p : path).

Definition list_entry (f : fs) (e : path * dentry) : lentry :=
  match snd e with
  | DSym t => LSym (fst e) t
  | DLink i =>
      match ilook f i with
      | Some nd => LFile (fst e) (skind_of (i_kind nd)) (i_mode nd) (nlink f i) (i_uid nd) (i_gid nd)
                         (i_atime nd) (i_mtime nd) (i_data nd)
      | None => LDangling (fst e)
      end
  end.

Definition listing (f : fs) : list lentry := map (list_entry f) (f_names f).
