(* Executable model of the operand loop of main() (src/main.c:942-995) with
   input_init, output_init, output_regf_uninit, input_oprnd_rm, input_uninit,
   cleanup(), the warn/fail functions, cli()/sti()/halt()/bailout() of
   src/signals.c and work() of src/process.c reduced to its externally visible
   behaviour.  Every system call the code makes for an operand is an explicit
   step, in the order of the code; a [plan] says which occurrence of which call
   fails with which errno, or at which call a signal is raised.

   Signal asynchrony as modelled (this is the declared partiality of C16):
   a signal is raised immediately before a counted system call of the process
   (the main thread's calls, and the read()/write() calls the worker threads
   make while the main thread sits in sigsuspend()).
   - SIGKILL ends the run there;
   - SIGINT/SIGTERM outside cli()..sti() have their default action: the
     process dies there;
   - between cli() and sti() they are blocked in every thread; while the main
     thread is in halt() (all read/write steps of the worker threads) the
     handler runs at once: cleanup(), then the signal is re-raised with its
     default action; raised while the main thread itself executes (output_init,
     the header read of decompression, output_regf_uninit, input_oprnd_rm) the
     signal stays pending: it is taken at the next halt() if that is still to
     come, otherwise it kills the process at sti() (handlers already reset, no
     cleanup);
   - two handled signals that coincide (INT/TERM with the SIGUSR1/SIGUSR2 the
     worker threads send) are not modelled: the outcome is that of one of them.

   Regenerated from the source (Gen/FrontTab.v) and consumed here: the suffix
   table, the permission masks of open()/fchmod(), the setuid test mask, the
   stat fields handed to fchown()/futimens(), the link-count limit, the exit
   codes. *)
From Coq Require Import List NArith Arith Bool String Ascii.
From LBZ Require Import Gen.FrontTab Front.FsModel.
Import ListNotations.
Local Open Scope N_scope.

(* ---- configuration, plans, outcomes ------------------------------------------------ *)
Inductive outmode := OmStdout | OmDiscard | OmRegf.

Record cfg := {
  c_decompress : bool;     (* -d / -t *)
  c_force : bool;          (* -f *)
  c_keep : bool;           (* -k *)
  c_outmode : outmode;     (* -c / -t / neither *)
  c_uid : N;               (* effective ids of the process: owner of created files *)
  c_gid : N;
  c_now : N                (* the time stamp new and written files get *)
}.

(* SIGXFSZ / SIGPIPE are never raised by a plan: they accompany a write() that fails with EFBIG / EPIPE *)
Inductive signal := SIGINT | SIGTERM | SIGKILL | SIGXFSZ | SIGPIPE.

(* counted system calls; the descriptor class of the fault shim is part of the kind *)
Inductive kindc :=
| KLstat | KOpen | KFstat | KClose | KUnlink | KRead | KWrite
| KFchown | KFchmod | KFutimens | KWriteStdout | KCloseStdout.

Inductive action := Fail (e : N) | Raise (sg : signal).

(* (call, occurrence counted from 1 over the whole run, what happens there) *)
Definition plan := list (kindc * nat * action).

Inductive outcome := Exit (n : N) | Killed (sg : signal) | Hang.

(* work() seen from outside: the read()/write() calls it makes after the main
   thread entered halt(), in the order they happen, and whether it then ends
   normally (SIGUSR2) or with a failure diagnosed by a worker (SIGUSR1) *)
Inductive cmode := CCompress | CExpand | CCopy.
Inductive ioev := IoRead | IoWrite (chunk : bytes).
Record cres := { c_io : list ioev; c_ok : bool }.

(* ---- names: suffix_xform() over the regenerated table ----------------------------- *)
Definition rev_s (s : string) : list ascii := rev (list_ascii_of_string s).

Fixpoint prefixb (p l : list ascii) : bool :=
  match p with
  | [] => true
  | a :: p' => match l with
               | [] => false
               | b :: l' => Ascii.eqb a b && prefixb p' l'
               end
  end.

(* len >= compr_len && 0 == strcmp(name + len - compr_len, compr) *)
Definition ends_with (s suf : string) : bool := prefixb (rev_s suf) (rev_s s).

(* memcpy of the first len - compr_len characters *)
Definition strip_suffix (s suf : string) : string :=
  string_of_list_ascii (rev (skipn (String.length suf) (rev_s s))).

(* first entry, in table order, that applies; [for_output] = (0 != decompr_pathname) *)
Fixpoint sfx_find (tab : list (string * string * bool)) (for_output : bool) (s : string)
  : option (string * string * bool) :=
  match tab with
  | [] => None
  | (c, d, chk) :: t =>
      if (chk || for_output) && ends_with s c then Some (c, d, chk) else sfx_find t for_output s
  end.

Definition is_compressed_name (s : string) : bool :=
  match sfx_find suffix_tab false s with Some _ => true | None => false end.

Definition out_name (decompress : bool) (s : string) : option string :=
  if decompress then
    match sfx_find suffix_tab true s with
    | Some (c, d, _) => Some (strip_suffix s c ++ d)%string
    | None => None
    end
  else Some (s ++ compress_suffix)%string.

(* ---- stat fields by their C names ---------------------------------------------------- *)
Definition stat_field (name : string) (st : stat) : N :=
  if String.eqb name "st_atim" then st_atime st
  else if String.eqb name "st_mtim" then st_mtime st
  else if String.eqb name "st_uid" then st_uid st
  else if String.eqb name "st_gid" then st_gid st
  else 0.

Definition fld (names : list string) (k : nat) (st : stat) : N := stat_field (nth k names ""%string) st.

(* ---- machine state --------------------------------------------------------------------- *)
Inductive msgclass := MInfo | MWarn | MFail.

(* why a run ended inside an operand *)
Inductive why :=
| WFatal (tag : string)    (* fail*(): cleanup(), _exit(EX_FAIL) *)
| WSigHandled              (* INT/TERM taken in halt(): cleanup(), re-raised *)
| WSigDefault              (* INT/TERM outside cli()..sti(): default action *)
| WSigSti                  (* INT/TERM pending at sti(): default action, no cleanup *)
| WKill
| WHang.

Inductive disp := DSkipped (tag : string) | DDone | DAborted (w : why).

Record hentry := {
  h_op : path;
  h_before : fs;
  h_after : fs;
  h_disp : disp;
  h_rmfail : bool;         (* unlink() of the input failed *)
  h_cleanfail : bool       (* the unlink() inside cleanup() failed *)
}.

Record mstate := {
  m_fs : fs;
  m_cnt : list (kindc * nat);      (* calls made so far, per kind *)
  m_warned : bool;                 (* `warned` *)
  m_opathn : option path;          (* `opathn` *)
  m_blocked : bool;                (* between cli() and sti() *)
  m_pint : bool;                   (* SIGINT pending *)
  m_pterm : bool;                  (* SIGTERM pending *)
  m_msgs : list (msgclass * string);   (* diagnostics, most recent first *)
  m_hist : list hentry;            (* ghost: operands started, most recent first *)
  m_rmfail : bool;                 (* ghost, per operand *)
  m_cleanfail : bool               (* ghost, per operand *)
}.

Definition kcode (k : kindc) : nat :=
  match k with
  | KLstat => 0 | KOpen => 1 | KFstat => 2 | KClose => 3 | KUnlink => 4 | KRead => 5 | KWrite => 6
  | KFchown => 7 | KFchmod => 8 | KFutimens => 9 | KWriteStdout => 10 | KCloseStdout => 11
  end%nat.
Definition kindc_eqb (a b : kindc) : bool := Nat.eqb (kcode a) (kcode b).

Definition cnt_get (k : kindc) (c : list (kindc * nat)) : nat :=
  match alook kindc_eqb k c with Some n => n | None => O end.

Fixpoint plan_lookup (pl : plan) (k : kindc) (n : nat) : option action :=
  match pl with
  | [] => None
  | (k', n', a) :: r => if kindc_eqb k' k && Nat.eqb n' n then Some a else plan_lookup r k n
  end.

Definition set_fs (s : mstate) (f : fs) : mstate :=
  {| m_fs := f; m_cnt := m_cnt s; m_warned := m_warned s; m_opathn := m_opathn s;
     m_blocked := m_blocked s; m_pint := m_pint s; m_pterm := m_pterm s; m_msgs := m_msgs s;
     m_hist := m_hist s; m_rmfail := m_rmfail s; m_cleanfail := m_cleanfail s |}.
Definition set_cnt (s : mstate) (c : list (kindc * nat)) : mstate :=
  {| m_fs := m_fs s; m_cnt := c; m_warned := m_warned s; m_opathn := m_opathn s;
     m_blocked := m_blocked s; m_pint := m_pint s; m_pterm := m_pterm s; m_msgs := m_msgs s;
     m_hist := m_hist s; m_rmfail := m_rmfail s; m_cleanfail := m_cleanfail s |}.
Definition set_opathn (s : mstate) (o : option path) : mstate :=
  {| m_fs := m_fs s; m_cnt := m_cnt s; m_warned := m_warned s; m_opathn := o;
     m_blocked := m_blocked s; m_pint := m_pint s; m_pterm := m_pterm s; m_msgs := m_msgs s;
     m_hist := m_hist s; m_rmfail := m_rmfail s; m_cleanfail := m_cleanfail s |}.
Definition set_blocked (s : mstate) (b : bool) : mstate :=
  {| m_fs := m_fs s; m_cnt := m_cnt s; m_warned := m_warned s; m_opathn := m_opathn s;
     m_blocked := b; m_pint := m_pint s; m_pterm := m_pterm s; m_msgs := m_msgs s;
     m_hist := m_hist s; m_rmfail := m_rmfail s; m_cleanfail := m_cleanfail s |}.
Definition set_pending (s : mstate) (sg : signal) : mstate :=
  {| m_fs := m_fs s; m_cnt := m_cnt s; m_warned := m_warned s; m_opathn := m_opathn s;
     m_blocked := m_blocked s;
     m_pint := match sg with SIGINT => true | _ => m_pint s end;
     m_pterm := match sg with SIGTERM => true | _ => m_pterm s end;
     m_msgs := m_msgs s; m_hist := m_hist s; m_rmfail := m_rmfail s; m_cleanfail := m_cleanfail s |}.
Definition add_msg (s : mstate) (c : msgclass) (tag : string) : mstate :=
  {| m_fs := m_fs s; m_cnt := m_cnt s;
     m_warned := match c with MWarn => true | _ => m_warned s end;
     m_opathn := m_opathn s;
     m_blocked := m_blocked s; m_pint := m_pint s; m_pterm := m_pterm s; m_msgs := (c, tag) :: m_msgs s;
     m_hist := m_hist s; m_rmfail := m_rmfail s; m_cleanfail := m_cleanfail s |}.
Definition set_rmfail (s : mstate) (b : bool) : mstate :=
  {| m_fs := m_fs s; m_cnt := m_cnt s; m_warned := m_warned s; m_opathn := m_opathn s;
     m_blocked := m_blocked s; m_pint := m_pint s; m_pterm := m_pterm s; m_msgs := m_msgs s;
     m_hist := m_hist s; m_rmfail := b; m_cleanfail := m_cleanfail s |}.
Definition set_cleanfail (s : mstate) (b : bool) : mstate :=
  {| m_fs := m_fs s; m_cnt := m_cnt s; m_warned := m_warned s; m_opathn := m_opathn s;
     m_blocked := m_blocked s; m_pint := m_pint s; m_pterm := m_pterm s; m_msgs := m_msgs s;
     m_hist := m_hist s; m_rmfail := m_rmfail s; m_cleanfail := b |}.
Definition push_hist (s : mstate) (h : hentry) : mstate :=
  {| m_fs := m_fs s; m_cnt := m_cnt s; m_warned := m_warned s; m_opathn := m_opathn s;
     m_blocked := m_blocked s; m_pint := m_pint s; m_pterm := m_pterm s; m_msgs := m_msgs s;
     m_hist := h :: m_hist s; m_rmfail := m_rmfail s; m_cleanfail := m_cleanfail s |}.

Definition init_state (f : fs) : mstate :=
  {| m_fs := f; m_cnt := []; m_warned := false; m_opathn := None; m_blocked := false;
     m_pint := false; m_pterm := false; m_msgs := []; m_hist := []; m_rmfail := false;
     m_cleanfail := false |}.

(* ---- the monad: state + early end of the process ------------------------------------ *)
Inductive res (A : Type) : Type :=
| Ret (a : A) (s : mstate)
| Stop (o : outcome) (w : why) (s : mstate).
Arguments Ret {A} a s.
Arguments Stop {A} o w s.

Definition M (A : Type) := mstate -> res A.
Definition ret {A} (a : A) : M A := fun s => Ret a s.
Definition bind {A B} (c : M A) (f : A -> M B) : M B :=
  fun s => match c s with
           | Ret a s' => f a s'
           | Stop o w s' => Stop o w s'
           end.
Definition stop {A} (o : outcome) (w : why) : M A := fun s => Stop o w s.
Definition modify (g : mstate -> mstate) : M unit := fun s => Ret tt (g s).

Notation "x <- c1 ;; c2" := (bind c1 (fun x => c2)) (at level 61, c1 at next level, right associativity).
Notation "c1 ;;; c2" := (bind c1 (fun _ => c2)) (at level 61, right associativity).

Definition input_data (f : fs) (i : N) : bytes :=
  match ilook f i with Some nd => i_data nd | None => [] end.
Definition input_is_dir (f : fs) (i : N) : bool :=
  match ilook f i with Some nd => match i_kind nd with KDir => true | _ => false end | None => false end.

(* xread(&header, 4) on a regular file of the given content: number of read() calls *)
Definition hdr_reads (d : bytes) : nat :=
  if (4 <=? List.length d)%nat then 1%nat else if (List.length d =? 0)%nat then 1%nat else 2%nat.

(* "BZh1" .. "BZh9" (process.c: MAGIC(1) .. MAGIC(9)) *)
Definition hdr_ok (d : bytes) : bool :=
  match d with
  | 66 :: 90 :: 104 :: x :: _ => (49 <=? x) && (x <=? 57)
  | _ => false
  end.

Inductive odst := OStdout | ODiscard | OFile (i : N).

Section Run.
  Variable codec : cmode -> bytes -> cres.
  Variable cf : cfg.
  Variable pl : plan.

  Definition say (c : msgclass) (tag : string) : M unit := modify (fun s => add_msg s c tag).
  Definition warn (tag : string) : M unit := say MWarn tag.

  (* one counted system call.  [inhalt]: made by a worker thread while the main
     thread waits in sigsuspend() *)
  Definition handled_in_halt (cleanup : M unit) (sg : signal) : M unit :=
    cleanup ;;; stop (Killed sg) WSigHandled.

  Definition sys_gen {A} (cleanup : M unit) (inhalt : bool) (k : kindc) (f : fs -> fs * sysres A)
    : M (sysres A) := fun s =>
    let n := S (cnt_get k (m_cnt s)) in
    let s1 := set_cnt s (aset kindc_eqb k n (m_cnt s)) in
    let natural (s2 : mstate) : res (sysres A) :=
        let '(f', r) := f (m_fs s2) in
        match r with
        | SHang => Stop Hang WHang s2
        | _ => Ret r (set_fs s2 f')
        end in
    match plan_lookup pl k n with
    | None => natural s1
    | Some (Fail e) => Ret (SErr e) s1
    | Some (Raise SIGKILL) => Stop (Killed SIGKILL) WKill s1
    | Some (Raise sg) =>
        if m_blocked s1 then
          if inhalt then
            match handled_in_halt cleanup sg s1 with
            | Ret _ s2 => Stop (Killed sg) WSigHandled s2
            | Stop o w s2 => Stop o w s2
            end
          else natural (set_pending s1 sg)
        else Stop (Killed sg) WSigDefault s1
    end.

  (* cleanup(): (void)unlink(opathn); opathn = NULL.  Runs in the main thread
     with the handled signals blocked whenever opathn is set. *)
  Definition cleanup : M unit := fun s =>
    match m_opathn s with
    | None => Ret tt s
    | Some q =>
        (r <- sys_gen (ret tt) false KUnlink (fun f => sys_unlink f q) ;;
         modify (fun s => set_opathn s None) ;;;
         match r with
         | SErr _ => modify (fun s => set_cleanfail s true)
         | _ => ret tt
         end) s
    end.

  Definition sys {A} (inhalt : bool) (k : kindc) (f : fs -> fs * sysres A) : M (sysres A) :=
    sys_gen cleanup inhalt k f.

  (* fail*(): message, bailout() [directly in the main thread, or via SIGUSR1 from
     a worker]: cleanup(), _exit(EX_FAIL) *)
  Definition fatal {A} (tag : string) : M A :=
    say MFail tag ;;; cleanup ;;; stop (Exit bailout_exit) (WFatal tag).

  (* ---- input_init() ------------------------------------------------------------------ *)
  Definition input_init (op : path) : M (string + N * stat) :=
    pre <- (if c_force cf then ret None
            else
              r <- sys false KLstat (fun f => (f, sys_lstat f op)) ;;
              match r with
              | SOk st =>
                  if match c_outmode cf with OmRegf => true | _ => false end
                     && negb (match st_kind st with SReg => true | _ => false end)
                  then warn "notreg" ;;; ret (Some "notreg"%string)
                  else if match c_outmode cf with OmRegf => true | _ => false end
                          && negb (c_keep cf) && (nlink_limit <? st_nlink st)
                  then warn "links" ;;; ret (Some "links"%string)
                  else ret None
              | _ => warn "lstat" ;;; ret (Some "lstat"%string)
              end) ;;
    match pre with
    | Some tag => ret (inl tag)
    | None =>
        if negb (c_decompress cf) && is_compressed_name op
        then warn "suffix" ;;; ret (inl "suffix"%string)
        else
          r <- sys false KOpen (fun f => (f, sys_open_rd f op)) ;;
          match r with
          | SOk iin =>
              r2 <- sys false KFstat (fun f => (f, sys_fstat f iin)) ;;
              match r2 with
              | SOk st => ret (inr (iin, st))
              | _ =>
                  warn "fstat" ;;;
                  r3 <- sys false KClose sys_close_nop ;;
                  match r3 with
                  | SErr _ => fatal "close-in"
                  | _ => ret (inl "fstat"%string)
                  end
              end
          | _ => warn "open" ;;; ret (inl "open"%string)
          end
    end.

  (* ---- output_init() ------------------------------------------------------------------ *)
  Definition output_init (op : path) (st : stat) : M (option odst) :=
    match c_outmode cf with
    | OmStdout => ret (Some OStdout)
    | OmDiscard => ret (Some ODiscard)
    | OmRegf =>
        match out_name (c_decompress cf) op with
        | None => fatal "nosuffix"      (* suffix_xform() found nothing: not reachable with a catch-all entry *)
        | Some q => fun s =>
            (* with the repair of the -f data loss in the source (regenerated flag): the output name is first
               stat()ed, and the operand is skipped if that name leads to the file being read.  The stat() is
               not a counted call (the fault shim does not wrap it; its failure for reasons other than the
               name being absent is not modelled). *)
            if c_force cf && output_init_checks_same_file && same_file (m_fs s) q st
            then (warn "samefile" ;;; ret None) s
            else
            ((if c_force cf then
               r <- sys false KUnlink (fun f => sys_unlink f q) ;;
               match r with
               | SErr e => if N.eqb e ENOENT then ret tt else say MInfo "unlink-out"
               | _ => ret tt
               end
             else ret tt) ;;;
            r <- sys false KOpen (fun f => sys_creat_excl f q (N.land (st_mode st) open_out_mode_mask)
                                                        (c_uid cf) (c_gid cf) (c_now cf)) ;;
            match r with
            | SOk i => modify (fun s => set_opathn s (Some q)) ;;; ret (Some (OFile i))
            | _ => warn "open-out" ;;; ret None
            end) s
        end
    end.

  (* ---- work() ------------------------------------------------------------------------------ *)
  Fixpoint main_reads (n : nat) (iin : N) : M unit :=
    match n with
    | O => ret tt
    | S n' =>
        r <- sys false KRead (fun f => sys_read f iin) ;;
        match r with
        | SErr _ => fatal "read"
        | _ => main_reads n' iin
        end
    end.

  (* A write() that fails with EFBIG / EPIPE comes with SIGXFSZ / SIGPIPE generated for the writing thread, where it
     is blocked (setup_signals()).  failfx() prints nothing for these two; bailout() of a worker thread promotes the
     pending signal to the process and raises SIGUSR1.  While the main thread waits in halt() with the mask saved by
     cli() (regenerated fact), the promoted signal stays blocked: the main thread runs bailout(): cleanup(), then
     unblocks it and dies from it.  If halt() waited with those signals unblocked, the promoted signal would kill the
     process at once, before cleanup().  (Inherited SIG_IGN for these signals is not modelled.) *)
  Definition die_by {A} (inhalt : bool) (sg : signal) : M A :=
    if inhalt && negb fatal_signals_blocked_in_halt
    then stop (Killed sg) WSigDefault
    else cleanup ;;; stop (Killed sg) (WFatal "write").

  Definition write_failed {A} (inhalt : bool) (e : N) : M A :=
    if N.eqb e EFBIG then die_by inhalt SIGXFSZ
    else if N.eqb e EPIPE then die_by inhalt SIGPIPE
    else fatal "write".

  (* xwrite(): no call for an empty buffer or when discarding *)
  Definition do_write (inhalt : bool) (o : odst) (chunk : bytes) : M unit :=
    match chunk with
    | [] => ret tt
    | _ =>
        match o with
        | ODiscard => ret tt
        | OStdout =>
            r <- sys inhalt KWriteStdout (sys_write_stdout chunk) ;;
            match r with SErr e => write_failed inhalt e | _ => ret tt end
        | OFile i =>
            r <- sys inhalt KWrite (sys_write (c_now cf) i chunk) ;;
            match r with SErr e => write_failed inhalt e | _ => ret tt end
        end
    end.

  Fixpoint do_io (iin : N) (o : odst) (evs : list ioev) : M unit :=
    match evs with
    | [] => ret tt
    | IoRead :: r =>
        x <- sys true KRead (fun f => sys_read f iin) ;;
        match x with
        | SErr _ => fatal "read"
        | _ => do_io iin o r
        end
    | IoWrite c :: r => do_write true o c ;;; do_io iin o r
    end.

  (* the main thread reaches sigsuspend(): a signal that became pending while it
     was blocked is handled now *)
  Definition halt_entry : M unit := fun s =>
    if m_pint s then handled_in_halt cleanup SIGINT s
    else if m_pterm s then handled_in_halt cleanup SIGTERM s
    else Ret tt s.

  (* schedule()/copy(): threads do the I/O, the main thread waits in halt() *)
  Definition schedule (iin : N) (o : odst) (isdir : bool) (cr : cres) : M unit :=
    halt_entry ;;;
    do_io iin o (if isdir then [IoRead] else c_io cr) ;;;
    (if c_ok cr || isdir then ret tt else fatal "data").

  Definition is_stdout (o : odst) : bool := match o with OStdout => true | _ => false end.

  Definition work (iin : N) (o : odst) : M unit := fun s =>
    let d := input_data (m_fs s) iin in
    let isdir := input_is_dir (m_fs s) iin in
    (if c_decompress cf then
       main_reads (hdr_reads d) iin ;;;
       if hdr_ok d then schedule iin o isdir (codec CExpand d)
       else if c_force cf && is_stdout o then
         do_write false o (firstn 4 d) ;;; schedule iin o isdir (codec CCopy (skipn 4 d))
       else fatal "notbz2"
     else schedule iin o isdir (codec CCompress d)) s.

  (* ---- output_regf_uninit(), input_oprnd_rm(), sti(), input_uninit() ------------- *)
  Definition regf_uninit (iout : N) (st : stat) : M unit :=
    r <- sys false KFchown (sys_fchown iout (fld fchown_fields 0 st) (fld fchown_fields 1 st)) ;;
    (match r with
     | SErr _ => warn "fchown"
     | _ =>
         (if negb (N.land (st_mode st) special_mask =? 0) then warn "special" else ret tt) ;;;
         r2 <- sys false KFchmod (sys_fchmod iout (N.land (st_mode st) fchmod_mask)) ;;
         match r2 with SErr _ => warn "fchmod" | _ => ret tt end
     end) ;;;
    r3 <- sys false KFutimens (sys_futimens iout (fld futimens_fields 0 st) (fld futimens_fields 1 st)) ;;
    (match r3 with SErr _ => warn "futimens" | _ => ret tt end) ;;;
    r4 <- sys false KClose (sys_close_out iout) ;;
    (match r4 with SErr _ => fatal "close-out" | _ => ret tt end) ;;;
    modify (fun s => set_opathn s None).

  Definition oprnd_rm (op : path) : M unit :=
    r <- sys false KUnlink (fun f => sys_unlink f op) ;;
    match r with
    | SErr e =>
        modify (fun s => set_rmfail s true) ;;;
        if N.eqb e ENOENT then ret tt else warn "unlink-in"
    | _ => ret tt
    end.

  Definition sti : M unit := fun s =>
    let s1 := set_blocked s false in
    if m_pint s then Stop (Killed SIGINT) WSigSti s1
    else if m_pterm s then Stop (Killed SIGTERM) WSigSti s1
    else Ret tt s1.

  Definition input_uninit : M unit :=
    r <- sys false KClose sys_close_nop ;;
    match r with SErr _ => fatal "close-in" | _ => ret tt end.

  (* ---- one operand (body of the do-while loop) ------------------------------------- *)
  Definition run1 (op : path) : M disp :=
    ii <- input_init op ;;
    match ii with
    | inl tag => ret (DSkipped tag)
    | inr (iin, st) =>
        modify (fun s => set_blocked s true) ;;;                    (* cli() *)
        oo <- output_init op st ;;
        d <- (match oo with
              | None => ret (DSkipped "open-out"%string)
              | Some o =>
                  work iin o ;;;
                  (match o with
                   | OFile iout =>
                       regf_uninit iout st ;;;
                       (if c_keep cf then ret tt else oprnd_rm op)
                   | _ => ret tt
                   end) ;;;
                  ret DDone
              end) ;;
        sti ;;;
        input_uninit ;;;
        ret d
    end.

  Definition mk_hentry (op : path) (s0 s1 : mstate) (d : disp) : hentry :=
    {| h_op := op; h_before := m_fs s0; h_after := m_fs s1; h_disp := d;
       h_rmfail := m_rmfail s1; h_cleanfail := m_cleanfail s1 |}.

  Definition run_op (op : path) : M unit := fun s =>
    let s0 := set_cleanfail (set_rmfail s false) false in
    match run1 op s0 with
    | Ret d s1 => Ret tt (push_hist s1 (mk_hentry op s0 s1 d))
    | Stop o w s1 => Stop o w (push_hist s1 (mk_hentry op s0 s1 (DAborted w)))
    end.

  (* after the last operand: close(stdout) under -c, _exit(warned ? EX_WARN : EX_OK) *)
  Definition finish (s : mstate) : mstate * outcome :=
    match (match c_outmode cf with
           | OmStdout =>
               r <- sys false KCloseStdout sys_close_nop ;;
               match r with SErr _ => fatal "close-stdout" | _ => ret tt end
           | _ => ret tt
           end) s with
    | Ret _ s' => (s', Exit (if m_warned s' then exit_if_warned else exit_if_clean))
    | Stop o _ s' => (s', o)
    end.

  Fixpoint run_ops (ops : list path) (s : mstate) : mstate * outcome :=
    match ops with
    | [] => finish s
    | op :: r =>
        match run_op op s with
        | Ret _ s' => run_ops r s'
        | Stop o _ s' => (s', o)
        end
    end.
End Run.

(* The operand loop on FILE operands.  (With no operand lbzip2 is a filter on
   stdin/stdout; that mode belongs to other properties and is not modelled.) *)
Definition run_full (codec : cmode -> bytes -> cres) (cf : cfg) (f : fs) (ops : list path) (pl : plan)
  : mstate * outcome := run_ops codec cf pl ops (init_state f).

Definition run (codec : cmode -> bytes -> cres) (cf : cfg) (f : fs) (ops : list path) (pl : plan)
  : fs * outcome :=
  let '(s, o) := run_full codec cf f ops pl in (m_fs s, o).
