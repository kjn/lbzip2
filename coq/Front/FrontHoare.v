(* A small Hoare logic for the operand-loop monad, for statements that hold under
   EVERY fault/signal plan.  Assertions talk about the "core" of the machine
   state -- file system, opathn, blocked flag and the two ghost flags -- so they
   are automatically insensitive to call counters, pending-signal flags,
   diagnostics and history. *)
From Coq Require Import List NArith Arith Bool String Ascii Lia.
From LBZ Require Import Gen.FrontTab Front.FsModel Front.MainLoop Front.FrontSpec Front.FrontLemmas.
Import ListNotations.
Local Open Scope N_scope.

Record core := {
  k_fs : fs;
  k_opathn : option path;
  k_blocked : bool;
  k_rmfail : bool;
  k_cleanfail : bool
}.

Definition core_of (s : mstate) : core :=
  {| k_fs := m_fs s; k_opathn := m_opathn s; k_blocked := m_blocked s;
     k_rmfail := m_rmfail s; k_cleanfail := m_cleanfail s |}.

Definition with_fs (c : core) (f : fs) : core :=
  {| k_fs := f; k_opathn := k_opathn c; k_blocked := k_blocked c; k_rmfail := k_rmfail c; k_cleanfail := k_cleanfail c |}.
Definition with_opathn (c : core) (o : option path) : core :=
  {| k_fs := k_fs c; k_opathn := o; k_blocked := k_blocked c; k_rmfail := k_rmfail c; k_cleanfail := k_cleanfail c |}.
Definition with_blocked (c : core) (b : bool) : core :=
  {| k_fs := k_fs c; k_opathn := k_opathn c; k_blocked := b; k_rmfail := k_rmfail c; k_cleanfail := k_cleanfail c |}.
Definition with_rmfail (c : core) (b : bool) : core :=
  {| k_fs := k_fs c; k_opathn := k_opathn c; k_blocked := k_blocked c; k_rmfail := b; k_cleanfail := k_cleanfail c |}.
Definition with_cleanfail (c : core) (b : bool) : core :=
  {| k_fs := k_fs c; k_opathn := k_opathn c; k_blocked := k_blocked c; k_rmfail := k_rmfail c; k_cleanfail := b |}.

Lemma with_fs_same c : with_fs c (k_fs c) = c.
Proof. destruct c; reflexivity. Qed.

Definition assn := core -> Prop.
Definition eassn := outcome -> why -> core -> Prop.

Definition hc {A} (P : assn) (c : M A) (Q : A -> assn) (E : eassn) : Prop :=
  forall s, P (core_of s) ->
    match c s with
    | Ret a s' => Q a (core_of s')
    | Stop o w s' => E o w (core_of s')
    end.

Lemma hc_case {A} (c : M A) (P : assn) (Q : A -> assn) (E : eassn) (X : Prop) :
  (X -> hc P c Q E) -> (~ X -> hc P c Q E) -> (X \/ ~ X) -> hc P c Q E.
Proof. intros H1 H2 [H|H]; auto. Qed.

(* The triple of the proofs: [hc], and the ghost history is the one of the start.  No part of the program below
   run_op touches m_hist, so every rule gives this for nothing. *)
Definition ends {A} (s : mstate) (Q : A -> assn) (E : eassn) (r : res A) : Prop :=
  match r with
  | Ret a s' => Q a (core_of s') /\ m_hist s' = m_hist s
  | Stop o w s' => E o w (core_of s') /\ m_hist s' = m_hist s
  end.

Definition ht {A} (P : assn) (c : M A) (Q : A -> assn) (E : eassn) : Prop :=
  forall s, P (core_of s) -> ends s Q E (c s).

Lemma ht_hc {A} (c : M A) P Q E : ht P c Q E -> hc P c Q E.
Proof. intros H s Hs. specialize (H s Hs). destruct (c s); apply H. Qed.

Lemma ht_ret {A} (a : A) (P : assn) (Q : A -> assn) (E : eassn) : (forall c, P c -> Q a c) -> ht P (ret a) Q E.
Proof. intros H s Hs. split; [apply H; exact Hs | reflexivity]. Qed.

Lemma ht_stop {A} o w (P : assn) (Q : A -> assn) (E : eassn) : (forall c, P c -> E o w c) -> ht P (stop o w) Q E.
Proof. intros H s Hs. split; [apply H; exact Hs | reflexivity]. Qed.

Lemma ht_bind {A B} (c : M A) (f : A -> M B) (P : assn) (R : A -> assn) (Q : B -> assn) (E : eassn) :
  ht P c R E -> (forall a, ht (R a) (f a) Q E) -> ht P (bind c f) Q E.
Proof.
  intros H1 H2 s Hs. unfold bind. specialize (H1 s Hs). destruct (c s) as [a s'|o w s']; [|exact H1].
  destruct H1 as [H1 Eh]. unfold ends. rewrite <- Eh. apply H2. exact H1.
Qed.

Lemma ht_conseq {A} (c : M A) (P P' : assn) (Q Q' : A -> assn) (E E' : eassn) :
  ht P c Q E -> (forall k, P' k -> P k) -> (forall a k, Q a k -> Q' a k) -> (forall o w k, E o w k -> E' o w k) ->
  ht P' c Q' E'.
Proof.
  intros H HP HQ HE s Hs. specialize (H s (HP _ Hs)). destruct (c s); (split; [|apply H]); [apply HQ | apply HE]; apply H.
Qed.

Lemma ht_pre {A} (c : M A) (P P' : assn) (Q : A -> assn) (E : eassn) : ht P c Q E -> (forall k, P' k -> P k) -> ht P' c Q E.
Proof. intros H HP s Hs. apply H, HP, Hs. Qed.

Lemma ht_post {A} (c : M A) (P : assn) (Q Q' : A -> assn) (E : eassn) :
  ht P c Q E -> (forall a k, Q a k -> Q' a k) -> ht P c Q' E.
Proof. intros H HQ. eapply ht_conseq; eauto. Qed.

Lemma ht_false {A} (c : M A) (Q : A -> assn) (E : eassn) : ht (fun _ => False) c Q E.
Proof. intros s []. Qed.

Lemma ht_pure_pre {A} (c : M A) (P : assn) (X : Prop) (Q : A -> assn) (E : eassn) :
  (X -> ht P c Q E) -> ht (fun k => P k /\ X) c Q E.
Proof. intros H s [Hs Hx]. apply (H Hx s Hs). Qed.

Lemma ht_or_pre {A} (c : M A) (P1 P2 : assn) (Q : A -> assn) (E : eassn) :
  ht P1 c Q E -> ht P2 c Q E -> ht (fun k => P1 k \/ P2 k) c Q E.
Proof. intros H1 H2 s [Hs|Hs]; auto. Qed.

Lemma ht_exists_pre {A T} (c : M A) (P : T -> assn) (Q : A -> assn) (E : eassn) :
  (forall t, ht (P t) c Q E) -> ht (fun k => exists t, P t k) c Q E.
Proof. intros H s [t Hs]. apply (H t s Hs). Qed.

(* a program that first looks at the state (work, output_init): [s0] is that state, about which P says what is needed *)
Lemma ht_get {A} (g : mstate -> M A) (P : assn) (Q : A -> assn) (E : eassn) :
  (forall s0, P (core_of s0) -> ht P (g s0) Q E) -> ht P (fun s => g s s) Q E.
Proof. intros H s Hs. exact (H s Hs s Hs). Qed.

Lemma ht_if_get {A} (b : mstate -> bool) (c1 c2 : M A) (P : assn) (Q : A -> assn) (E : eassn) :
  (forall s0, P (core_of s0) -> ht P (if b s0 then c1 else c2) Q E) -> ht P (fun s => if b s then c1 s else c2 s) Q E.
Proof. intros H s Hs. specialize (H s Hs s Hs). destruct (b s); exact H. Qed.

Lemma ht_on_err {A B} (r : sysres A) (h : N -> M B) (k : M B) (P R : assn) (Q : B -> assn) (E : eassn) :
  (forall e, ht P (h e) Q E) -> ht R k Q E ->
  ht (fun c => match r with SErr _ => P c | _ => R c end) (match r with SErr e => h e | _ => k end) Q E.
Proof. intros H1 H2. destruct r; auto. Qed.

Lemma ht_on_ok {A B} (r : sysres A) (h : A -> M B) (k : M B) (P : assn) (R : A -> assn) (Q : B -> assn) (E : eassn) :
  (forall a, ht (R a) (h a) Q E) -> ht P k Q E ->
  ht (fun c => match r with SOk a => R a c | _ => P c end) (match r with SOk a => h a | _ => k end) Q E.
Proof. intros H1 H2. destruct r; auto. Qed.

Lemma ht_say cls tag (P : assn) (Q : unit -> assn) (E : eassn) : (forall c, P c -> Q tt c) -> ht P (say cls tag) Q E.
Proof. intros H s Hs. split; [apply (H _ Hs) | reflexivity]. Qed.

Lemma ht_set_opathn o (P : assn) (Q : unit -> assn) (E : eassn) :
  (forall c, P c -> Q tt (with_opathn c o)) -> ht P (modify (fun s => set_opathn s o)) Q E.
Proof. intros H s Hs. split; [apply (H _ Hs) | reflexivity]. Qed.

Lemma ht_set_blocked b (P : assn) (Q : unit -> assn) (E : eassn) :
  (forall c, P c -> Q tt (with_blocked c b)) -> ht P (modify (fun s => set_blocked s b)) Q E.
Proof. intros H s Hs. split; [apply (H _ Hs) | reflexivity]. Qed.

Lemma ht_set_rmfail b (P : assn) (Q : unit -> assn) (E : eassn) :
  (forall c, P c -> Q tt (with_rmfail c b)) -> ht P (modify (fun s => set_rmfail s b)) Q E.
Proof. intros H s Hs. split; [apply (H _ Hs) | reflexivity]. Qed.

Lemma ht_set_cleanfail b (P : assn) (Q : unit -> assn) (E : eassn) :
  (forall c, P c -> Q tt (with_cleanfail c b)) -> ht P (modify (fun s => set_cleanfail s b)) Q E.
Proof. intros H s Hs. split; [apply (H _ Hs) | reflexivity]. Qed.

Lemma ht_seq_ret {A B C} (c1 : M A) (c2 : M B) (d : C) (P Q : assn) (E : eassn) :
  ht P (c1;;; c2) (fun _ => Q) E -> ht P (c1;;; c2;;; ret d) (fun r k => Q k /\ r = d) E.
Proof.
  intros H s Hs. specialize (H s Hs). unfold bind in *. destruct (c1 s) as [a s1|]; [|exact H].
  destruct (c2 s1); [|exact H]. split; [split; [apply H | reflexivity] | apply H].
Qed.

Section Sys.
  Variable pl : plan.

  Definition natural_ok {A} (f : fs -> fs * sysres A) (Q : sysres A -> assn) (E : eassn) (c : core) : Prop :=
    match snd (f (k_fs c)) with
    | SHang => E Hang WHang c
    | r => Q r (with_fs c (fst (f (k_fs c))))
    end.

  (* One counted call.  The premises are the ways it can go: SIGKILL; SIGINT/SIGTERM outside cli()..sti(); an injected
     failure; the call itself (also when a signal was only made pending); a signal handled in halt(). *)
  Lemma ht_sys_gen {A} (cl : M unit) inhalt k (f : fs -> fs * sysres A) (P : assn) (Q : sysres A -> assn) (E : eassn) :
    (forall c, P c -> E (Killed SIGKILL) WKill c) ->
    (forall c sg, P c -> k_blocked c = false -> E (Killed sg) WSigDefault c) ->
    (forall c e, P c -> Q (SErr e) c) ->
    (forall c, P c -> natural_ok f Q E c) ->
    (inhalt = true -> forall sg, ht P cl (fun _ c => E (Killed sg) WSigHandled c) E) ->
    ht P (sys_gen pl cl inhalt k f) Q E.
  Proof.
    intros Hk Hd He Hn Hh s Hs. unfold sys_gen.
    set (s1 := set_cnt s (aset kindc_eqb k (S (cnt_get k (m_cnt s))) (m_cnt s))).
    assert (Nat : forall s2, core_of s2 = core_of s -> m_hist s2 = m_hist s ->
              ends s Q E (let '(f', r) := f (m_fs s2) in
                          match r with SHang => Stop Hang WHang s2 | _ => Ret r (set_fs s2 f') end)).
    { intros s2 C2 H2. specialize (Hn _ Hs). unfold natural_ok in Hn. rewrite <- C2 in Hn.
      change (k_fs (core_of s2)) with (m_fs s2) in Hn.
      destruct (f (m_fs s2)) as [f' r]. destruct r; (split; [exact Hn | exact H2]). }
    destruct (plan_lookup pl k (S (cnt_get k (m_cnt s)))) as [[e|sg]|]; [| |apply Nat; reflexivity].
    - split; [apply He; exact Hs | reflexivity].
    - (* the four signals other than SIGKILL go the same way *)
      destruct sg; [| |split; [apply Hk; exact Hs | reflexivity]| |].
      all: destruct (m_blocked s1) eqn:Eb; [|split; [apply Hd; assumption | reflexivity]].
      all: destruct inhalt; [|apply Nat; reflexivity].
      all: unfold handled_in_halt, bind, stop; pose proof (fun sg => Hh eq_refl sg s1 Hs) as Hc; destruct (cl s1); [apply Hc | apply (Hc SIGINT)].
  Qed.

  (* a call made by the main thread itself *)
  Lemma ht_sys_main {A} (cl : M unit) k (f : fs -> fs * sysres A) (P : assn) (Q : sysres A -> assn) (E : eassn) :
    (forall c, P c -> E (Killed SIGKILL) WKill c /\ (k_blocked c = false -> forall sg, E (Killed sg) WSigDefault c)) ->
    (forall c e, P c -> Q (SErr e) c) ->
    (forall c, P c -> natural_ok f Q E c) ->
    ht P (sys_gen pl cl false k f) Q E.
  Proof.
    intros Hx He Hn. apply ht_sys_gen; try assumption; try discriminate.
    - intros c H. apply (Hx c H).
    - intros c sg H Hb. apply (Hx c H), Hb.
  Qed.

  (* cleanup(): nothing to do, or unlink(opathn); [c] is the state it is entered in *)
  Lemma ht_cleanup (P : assn) (Q : unit -> assn) (E : eassn) :
    (forall c, P c -> k_opathn c = None -> Q tt c) ->
    (forall c q, P c -> k_opathn c = Some q ->
       ht P (r <- sys_gen pl (ret tt) false KUnlink (fun f => sys_unlink f q);;
             modify (fun s => set_opathn s None);;;
             match r with SErr _ => modify (fun s => set_cleanfail s true) | _ => ret tt end) Q E) ->
    ht P (cleanup pl) Q E.
  Proof.
    intros H1 H2 s Hs. unfold cleanup. destruct (m_opathn s) as [q|] eqn:Eq.
    - apply (H2 _ q Hs Eq s Hs).
    - split; [apply H1; assumption | reflexivity].
  Qed.

  Lemma ht_halt_entry (P : assn) (E : eassn) :
    (forall sg, ht P (cleanup pl) (fun _ c => E (Killed sg) WSigHandled c) E) -> ht P (halt_entry pl) (fun _ => P) E.
  Proof.
    intros H s Hs. unfold halt_entry, handled_in_halt, bind, stop.
    destruct (m_pint s); [specialize (H SIGINT s Hs); destruct (cleanup pl s); exact H|].
    destruct (m_pterm s); [specialize (H SIGTERM s Hs); destruct (cleanup pl s); exact H|].
    split; [exact Hs | reflexivity].
  Qed.

  Lemma ht_sti (P : assn) (Q : unit -> assn) (E : eassn) :
    (forall c, P c -> Q tt (with_blocked c false)) ->
    (forall c sg, P c -> E (Killed sg) WSigSti (with_blocked c false)) ->
    ht P sti Q E.
  Proof.
    intros H1 H2 s Hs. unfold sti. destruct (m_pint s); [split; [apply (H2 _ SIGINT Hs) | reflexivity]|].
    destruct (m_pterm s); split; try reflexivity; [apply (H2 _ SIGTERM Hs) | apply (H1 _ Hs)].
  Qed.
  (* finish(): close(stdout) under -c.  What that call and a fatal end keep, finish() keeps. *)
  Lemma ht_finish cf (I : assn) s :
    ht I (sys pl false KCloseStdout sys_close_nop) (fun _ => I) (fun _ _ => I) ->
    ht I (fatal pl (A:=unit) "close-stdout") (fun _ => I) (fun _ _ => I) ->
    I (core_of s) -> I (core_of (fst (finish cf pl s))) /\ m_hist (fst (finish cf pl s)) = m_hist s.
  Proof.
    intros Hc Hf Hs. unfold finish. destruct (c_outmode cf); try (split; [exact Hs | reflexivity]).
    assert (H : ht I (r <- sys pl false KCloseStdout sys_close_nop;;
                      match r with SErr _ => fatal pl "close-stdout" | _ => ret tt end) (fun _ => I) (fun _ _ => I)).
    { eapply ht_bind; [exact Hc|]. intro r. destruct r; [apply ht_ret; auto | exact Hf | apply ht_ret; auto]. }
    specialize (H s Hs). destruct (bind _ _ s); exact H.
  Qed.
End Sys.
