(* C04 - proofs: the collect() machine driven over any list of buffers produces
   exactly the blocks of the greedy longest-prefix rule. *)
From Coq Require Import List NArith ZArith Bool Arith Lia.
From LBZ Require Import Gen.Consts Gen.CrcTab Gen.RleGen Rle.RleModel.
Import ListNotations.
Local Open Scope N_scope.

(* side conditions on the regenerated constant (discharged by computation;
   everything below uses MAX_RUN_LENGTH only through these) *)
Lemma max_run_gt4 : 4 < MAX_RUN_LENGTH.
Proof. reflexivity. Qed.
Lemma max_run_count_is_byte : MAX_RUN_LENGTH - 4 < 256.
Proof. reflexivity. Qed.
Lemma max_run_is_259 : MAX_RUN_LENGTH = 259.
Proof. reflexivity. Qed.

(* regenerated facts about the code around collect() (Gen/RleGen.v) *)
Lemma qmax_backoff_is_1 : QMAX_BACKOFF = 1.
Proof. reflexivity. Qed.
Lemma flush_consts : FLUSH_MIN_RUN = 4 /\ FLUSH_BIAS = 4.
Proof. split; reflexivity. Qed.
Lemma init_consts : INIT_NBLOCK = 0 /\ INIT_RLE_STATE = 0 /\ INIT_BLOCK_CRC = 0xFFFFFFFF.
Proof. repeat split; reflexivity. Qed.
Lemma driver_consts :
  COLLECT_CAP_UNIT = 100000 /\ COLLECT_SEQ_CAP_UNIT = 100000 /\ IN_GRANUL_UNIT = 100000 /\
  COLLECT_INIT_CALLS = 1 /\ COLLECT_SEQ_INIT_CALLS = 1 /\
  SEQ_INIT_GUARDED = true /\ SEQ_DONE_FROM_COLLECT = true.
Proof. repeat split; reflexivity. Qed.

Local Opaque MAX_RUN_LENGTH QMAX_BACKOFF FLUSH_MIN_RUN FLUSH_BIAS INIT_NBLOCK INIT_RLE_STATE INIT_BLOCK_CRC.

(* output of a list of runs given in reverse order, itself reversed *)
Definition out_rev (rs : list run) : list N := rev (flat_map emit_run (rev rs)).

Lemma out_rev_nil : out_rev [] = [].
Proof. reflexivity. Qed.

Lemma out_rev_cons r t : out_rev (r :: t) = rev (emit_run r) ++ out_rev t.
Proof.
  unfold out_rev. simpl. rewrite flat_map_app. simpl. rewrite app_nil_r.
  rewrite rev_app_distr. reflexivity.
Qed.

Lemma rle1_out_rev x : rle1 x = rev (out_rev (runs_rev x)).
Proof. unfold rle1, runs, out_rev. rewrite rev_involutive. reflexivity. Qed.

Definition elen (n : N) : N := if n <? 4 then n else 5.
Definition olen (rs : list run) : N := N.of_nat (length (out_rev rs)).

Lemma emit_run_length c n : N.of_nat (length (emit_run (c, n))) = elen n.
Proof.
  unfold emit_run, elen. destruct (n <? 4).
  - rewrite repeat_length. lia.
  - reflexivity.
Qed.

Lemma olen_nil : olen [] = 0.
Proof. reflexivity. Qed.

Lemma olen_cons c n t : olen ((c, n) :: t) = elen n + olen t.
Proof.
  unfold olen. rewrite out_rev_cons, app_length, rev_length.
  rewrite Nat2N.inj_add, emit_run_length. reflexivity.
Qed.

Lemma rle1_len_olen x : rle1_len x = olen (runs_rev x).
Proof. unfold rle1_len, olen. rewrite rle1_out_rev, rev_length. reflexivity. Qed.

Lemma runs_rev_snoc p d : runs_rev (p ++ [d]) = push_byte (runs_rev p) d.
Proof. unfold runs_rev. rewrite fold_left_app. reflexivity. Qed.

Lemma crc_of_snoc p d : crc_of (p ++ [d]) = crc_update (crc_of p) d.
Proof. unfold crc_of. rewrite fold_left_app. reflexivity. Qed.

Lemma push_same c n t : n < MAX_RUN_LENGTH -> push_byte ((c, n) :: t) c = (c, n + 1) :: t.
Proof.
  intro H. unfold push_byte. rewrite N.eqb_refl. destruct (N.ltb_spec n MAX_RUN_LENGTH); [reflexivity|lia].
Qed.

Lemma push_diff c n t d : d <> c -> push_byte ((c, n) :: t) d = (d, 1) :: (c, n) :: t.
Proof. intro H. unfold push_byte. destruct (N.eqb_spec d c); [congruence|reflexivity]. Qed.

Lemma push_maxed c n t d : MAX_RUN_LENGTH <= n -> push_byte ((c, n) :: t) d = (d, 1) :: (c, n) :: t.
Proof.
  intro H. unfold push_byte. destruct (N.ltb_spec n MAX_RUN_LENGTH); [lia|].
  rewrite andb_false_r. reflexivity.
Qed.

Lemma runs_rev_same {p c n t} :
  runs_rev p = (c, n) :: t -> n < MAX_RUN_LENGTH -> runs_rev (p ++ [c]) = (c, n + 1) :: t.
Proof. intros E H. rewrite runs_rev_snoc, E. apply push_same, H. Qed.

Lemma runs_rev_Forall (P : N -> Prop) p :
  Forall P p -> Forall (fun r : run => P (fst r) /\ 1 <= snd r /\ snd r <= MAX_RUN_LENGTH) (runs_rev p).
Proof.
  pose proof max_run_gt4.
  induction p as [|d p IH] using rev_ind; intro HF; [constructor|].
  apply Forall_app in HF. destruct HF as (HFp & HFd). inversion HFd as [|? ? Pd _]; subst.
  specialize (IH HFp). rewrite runs_rev_snoc. unfold push_byte.
  destruct (runs_rev p) as [|[c n] t].
  - constructor; [cbn [fst snd]; split; [exact Pd|lia]|constructor].
  - inversion IH as [|? ? (A & B & C) IHt]; subst. cbn [fst snd] in *.
    destruct ((d =? c) && (n <? MAX_RUN_LENGTH)) eqn:T.
    + apply andb_true_iff in T. destruct T as (_ & T). apply N.ltb_lt in T.
      constructor; [cbn [fst snd]; split; [exact A|lia]|exact IHt].
    + constructor; [cbn [fst snd]; split; [exact Pd|lia]|exact IH].
Qed.

Lemma runs_rev_head_pos {p c n t} : runs_rev p = (c, n) :: t -> 1 <= n.
Proof.
  intro E. assert (HT : Forall (fun _ => True) p) by (apply Forall_forall; intros; exact I).
  apply runs_rev_Forall in HT. rewrite E in HT. inversion HT as [|? ? (_ & H & _)]. exact H.
Qed.

Lemma elen_succ n : elen n <= elen (n + 1) /\ (n < 4 -> elen n < elen (n + 1)).
Proof. unfold elen. destruct (N.ltb_spec n 4), (N.ltb_spec (n + 1) 4); lia. Qed.

Lemma olen_push rs d : olen rs <= olen (push_byte rs d).
Proof.
  unfold push_byte. destruct rs as [|[c n] t].
  - rewrite olen_cons, olen_nil. lia.
  - destruct ((d =? c) && (n <? MAX_RUN_LENGTH)).
    + rewrite !olen_cons. pose proof (elen_succ n). lia.
    + rewrite (olen_cons d 1). change (elen 1) with 1. lia.
Qed.

(* the next byte of [l] cannot join the last run of [rs]: it starts a new one *)
Definition fresh (rs : list run) (l : list N) : Prop :=
  match rs with
  | [] => True
  | (c, n) :: _ => MAX_RUN_LENGTH <= n \/ match l with d :: _ => d <> c | [] => False end
  end.

Lemma push_fresh {rs l} d :
  fresh rs l -> (l = [] \/ exists r, l = d :: r) -> push_byte rs d = (d, 1) :: rs.
Proof.
  destruct rs as [|[c n] t]; [reflexivity|]. intros [H|H] Hd; [apply push_maxed, H|].
  destruct Hd as [->|(r & ->)]; [destruct H|apply push_diff, H].
Qed.

Lemma olen_push_lt4 c n t d : n < 4 -> olen ((c, n) :: t) < olen (push_byte ((c, n) :: t) d).
Proof.
  intro H. pose proof max_run_gt4. destruct (N.eq_dec d c) as [->|Hd].
  - rewrite push_same, !olen_cons by lia. pose proof (elen_succ n) as (_ & H4). lia.
  - rewrite push_diff, !olen_cons by exact Hd. change (elen 1) with 1. lia.
Qed.

Lemma fits_iff M p : fits M p = true <-> olen (runs_rev p) <= M.
Proof. unfold fits. rewrite rle1_len_olen. apply N.leb_le. Qed.

Lemma fits_false_iff M p : fits M p = false <-> M < olen (runs_rev p).
Proof. unfold fits. rewrite rle1_len_olen. apply N.leb_gt. Qed.

Lemma fits_single M d : 0 < M -> fits M [d] = true.
Proof.
  intro H. apply fits_iff. change (olen (runs_rev [d])) with 1. lia.
Qed.

Lemma rle1_len_mono p q : rle1_len p <= rle1_len (p ++ q).
Proof.
  induction q as [|d q IH] using rev_ind.
  - rewrite app_nil_r. lia.
  - rewrite app_assoc, !rle1_len_olen, runs_rev_snoc.
    rewrite !rle1_len_olen in IH. pose proof (olen_push (runs_rev (p ++ q)) d). lia.
Qed.

Lemma fits_app M p q : fits M (p ++ q) = true -> fits M p = true.
Proof. unfold fits. rewrite !N.leb_le. pose proof (rle1_len_mono p q). lia. Qed.

(* "takes a fourth equal byte only when both it and its count fit" *)
Lemma fourth_byte_needs_two M p c t :
  runs_rev p = (c, 3) :: t -> rle1_len p + 1 = M -> fits M p = true /\ fits M (p ++ [c]) = false.
Proof.
  intros E H. pose proof max_run_gt4. rewrite rle1_len_olen in H. split.
  - apply fits_iff. lia.
  - apply fits_false_iff. rewrite (runs_rev_same E) by lia.
    rewrite E, olen_cons in H. rewrite olen_cons.
    change (elen 3) with 3 in H. change (elen (3 + 1)) with 5. lia.
Qed.

Lemma longest_from_spec M x n :
  (longest_from M x n <= n)%nat /\
  fits M (firstn (longest_from M x n) x) = true /\
  (forall k, (k <= n)%nat -> fits M (firstn k x) = true -> (k <= longest_from M x n)%nat).
Proof.
  induction n as [|n IH].
  - simpl. split; [lia|]. split; [apply fits_iff, N.le_0_l|]. intros; lia.
  - cbn [longest_from]. destruct (fits M (firstn (S n) x)) eqn:E.
    + split; [lia|]. split; [exact E|]. intros; lia.
    + destruct IH as (A & B & C). split; [lia|]. split; [exact B|].
      intros k Hk Hf. destruct (Nat.eq_dec k (S n)) as [->|Hne]; [congruence|].
      apply C; [lia|exact Hf].
Qed.

Lemma firstn_exact {A} (a b : list A) : firstn (length a) (a ++ b) = a.
Proof. rewrite firstn_app, Nat.sub_diag, firstn_all. simpl. apply app_nil_r. Qed.

Lemma skipn_exact {A} (a b : list A) : skipn (length a) (a ++ b) = b.
Proof. rewrite skipn_app, Nat.sub_diag, skipn_all. reflexivity. Qed.

Lemma longest_fit_cut M cur rest :
  fits M cur = true ->
  (rest = [] \/ exists d r, rest = d :: r /\ fits M (cur ++ [d]) = false) ->
  longest_fit M (cur ++ rest) = length cur.
Proof.
  intros Hf Hstop. unfold longest_fit.
  destruct (longest_from_spec M (cur ++ rest) (length (cur ++ rest))) as (A & B & C).
  set (L := longest_from M (cur ++ rest) (length (cur ++ rest))) in *.
  assert (H1 : (length cur <= L)%nat).
  { apply C; [rewrite app_length; lia|]. rewrite firstn_exact. exact Hf. }
  destruct (Nat.eq_dec L (length cur)) as [|Hne]; [assumption|exfalso].
  destruct Hstop as [->|(d & r & -> & Hnf)].
  - rewrite app_nil_r in A. lia.
  - rewrite firstn_app, firstn_all2 in B by lia.
    destruct (L - length cur)%nat as [|j] eqn:Ej; [lia|]. simpl in B.
    change (d :: firstn j r) with ([d] ++ firstn j r) in B. rewrite app_assoc in B.
    apply fits_app in B. congruence.
Qed.

Lemma greedy_go_fuel M : forall f1 f2 x, (length x <= f1)%nat -> (length x <= f2)%nat ->
  greedy_go f1 M x = greedy_go f2 M x.
Proof.
  induction f1 as [|f1 IH]; intros f2 x H1 H2.
  - destruct x; [destruct f2; reflexivity|simpl in H1; lia].
  - destruct x as [|c x]; [destruct f2; reflexivity|].
    destruct f2 as [|f2]; [simpl in H2; lia|].
    cbn [greedy_go]. destruct (longest_fit M (c :: x)) as [|k] eqn:E; [reflexivity|].
    rewrite (IH f2); [reflexivity| |]; rewrite skipn_length; simpl in *; lia.
Qed.

Lemma greedy_go_unfold f M x : x <> [] ->
  greedy_go (S f) M x =
  match longest_fit M x with
  | O => None
  | S _ => match greedy_go f M (skipn (longest_fit M x) x) with
           | Some bs => Some (firstn (longest_fit M x) x :: bs)
           | None => None
           end
  end.
Proof. destruct x; [congruence|reflexivity]. Qed.

Lemma greedy_spec_cut M cur rest bs :
  cur <> [] -> fits M cur = true ->
  (rest = [] \/ exists d r, rest = d :: r /\ fits M (cur ++ [d]) = false) ->
  greedy_spec M rest = Some bs -> greedy_spec M (cur ++ rest) = Some (cur :: bs).
Proof.
  intros Hne Hf Hstop Hbs. destruct cur as [|c cur]; [congruence|].
  unfold greedy_spec. rewrite app_length. cbn [length Nat.add].
  rewrite greedy_go_unfold by discriminate.
  rewrite (longest_fit_cut M _ rest Hf Hstop), firstn_exact, skipn_exact. cbn [length].
  rewrite (greedy_go_fuel M _ (length rest) rest) by lia. fold (greedy_spec M rest). rewrite Hbs. reflexivity.
Qed.

Lemma rev_repeat {A} (c : A) k : rev (repeat c k) = repeat c k.
Proof. induction k as [|k IH]; [reflexivity|]. simpl. rewrite IH. symmetry. apply repeat_cons. Qed.

Lemma out_rev_lt4 c n t : n < 4 -> out_rev ((c, n) :: t) = repeat c (N.to_nat n) ++ out_rev t.
Proof.
  intro H. rewrite out_rev_cons. unfold emit_run.
  destruct (N.ltb_spec n 4); [|lia]. rewrite rev_repeat. reflexivity.
Qed.

Lemma out_rev_ge4 c n t : 4 <= n -> out_rev ((c, n) :: t) = (n - 4) :: c :: c :: c :: c :: out_rev t.
Proof.
  intro H. rewrite out_rev_cons. unfold emit_run.
  destruct (N.ltb_spec n 4); [lia|]. reflexivity.
Qed.

(* block contents while the last run is still open: a run of 4..MAX-1 has its
   four copies in the block but not yet its count byte *)
Definition blk_of (rs : list run) : list N :=
  match rs with
  | [] => []
  | (c, n) :: t =>
    (if n <? 4 then repeat c (N.to_nat n)
     else if n <? MAX_RUN_LENGTH then [c; c; c; c] else [n - 4; c; c; c; c]) ++ out_rev t
  end.

Lemma blk_of_lt4 c n t : n < 4 -> blk_of ((c, n) :: t) = repeat c (N.to_nat n) ++ out_rev t.
Proof. intro H. unfold blk_of. destruct (N.ltb_spec n 4); [reflexivity|lia]. Qed.

Lemma blk_of_mid c n t : 4 <= n -> n < MAX_RUN_LENGTH -> blk_of ((c, n) :: t) = c :: c :: c :: c :: out_rev t.
Proof.
  intros H1 H2. unfold blk_of. destruct (N.ltb_spec n 4); [lia|].
  destruct (N.ltb_spec n MAX_RUN_LENGTH); [reflexivity|lia].
Qed.

Lemma blk_of_max c n t : MAX_RUN_LENGTH <= n -> blk_of ((c, n) :: t) = (n - 4) :: c :: c :: c :: c :: out_rev t.
Proof.
  intros H1. pose proof max_run_gt4. unfold blk_of. destruct (N.ltb_spec n 4); [lia|].
  destruct (N.ltb_spec n MAX_RUN_LENGTH); [lia|reflexivity].
Qed.

Lemma blk_of_closed c n t : n < 4 \/ MAX_RUN_LENGTH <= n -> blk_of ((c, n) :: t) = out_rev ((c, n) :: t).
Proof.
  pose proof max_run_gt4. intros [H1|H1].
  - rewrite blk_of_lt4, out_rev_lt4 by exact H1. reflexivity.
  - rewrite blk_of_max, out_rev_ge4 by lia. reflexivity.
Qed.

Lemma blk_of_open c n t :
  4 <= n -> n < MAX_RUN_LENGTH -> out_rev ((c, n) :: t) = (n - 4) :: blk_of ((c, n) :: t).
Proof. intros H1 H2. rewrite blk_of_mid, out_rev_ge4 by assumption. reflexivity. Qed.

Lemma blk_of_same_lt4 c n t : n < 4 -> blk_of ((c, n + 1) :: t) = c :: blk_of ((c, n) :: t).
Proof.
  intro H. pose proof max_run_gt4. rewrite (blk_of_lt4 c n) by exact H.
  destruct (N.eq_dec n 3) as [->|].
  - rewrite blk_of_mid by lia. reflexivity.
  - rewrite blk_of_lt4 by lia. rewrite N.add_1_r, N2Nat.inj_succ. reflexivity.
Qed.

Section Machine.
Variable M : N.
Hypothesis HM : 0 < M.

Definition ViewB (p : list N) (s : enc) (B : list N) : Prop :=
  max_block_size s = M /\ blk s = B /\ nblock s = N.of_nat (length B) /\ block_crc s = crc_of p.

(* between two calls, block not full *)
Definition Inv (p : list N) (s : enc) : Prop :=
  ViewB p s (blk_of (runs_rev p)) /\ nblock s < M /\
  match runs_rev p with
  | [] => rle_state s = 0%Z
  | (c, n) :: _ => if n <? MAX_RUN_LENGTH then rle_state s = Z.of_N n /\ rle_character s = c
                   else rle_state s = 0%Z
  end.

(* block reported full after consuming p; rem = unconsumed rest of the buffer *)
Definition FullSt (p : list N) (s : enc) (rem : list N) : Prop :=
  rle_state s = (-1)%Z /\ ViewB p s (out_rev (runs_rev p)) /\ fits M p = true /\
  forall d, (rem = [] \/ exists r, rem = d :: r) -> fits M (p ++ [d]) = false.

Definition Post (p l : list N) (r : enc * list N) : Prop :=
  exists l1, l = l1 ++ snd r /\
    ((snd r = [] /\ Inv (p ++ l1) (fst r)) \/ FullSt (p ++ l1) (fst r) (snd r)).

(* inside a call: an unfinished run of n copies of c whose count byte is not written, before the
   capacity test for it (that of STATE 1..3 or of finish_run) ... *)
Definition Run (c n : N) (t : list run) (p : list N) (s : enc) : Prop :=
  ViewB p s (blk_of (runs_rev p)) /\ runs_rev p = (c, n) :: t /\ n < MAX_RUN_LENGTH /\
  nblock s <= M /\ (4 <= n -> nblock s < M).

(* ... and after it has passed; the next byte of l is not fetched yet *)
Definition Open (c n : N) (t : list run) (p : list N) (s : enc) (l : list N) : Prop :=
  Run c n t p s /\ nblock s < M /\ (n = 3 -> lookahead l c = true -> nblock s + 1 < M).

Definition Pre (m : mode) (p : list N) (s : enc) (l : list N) : Prop :=
  match m with
  | R0 => ViewB p s (out_rev (runs_rev p)) /\ fresh (runs_rev p) l /\ nblock s < M
  | R1 c => exists t, Open c 1 t p s l
  | R2 c => exists t, Open c 2 t p s l
  | R3 c => exists t, Open c 3 t p s l
  | R4 c run => 4 <= run /\ exists t, Open c run t p s l
  end.

Lemma post_cons p ch l' r : Post (p ++ [ch]) l' r -> Post p (ch :: l') r.
Proof.
  intros (l1 & E & H). exists (ch :: l1). split; [simpl; congruence|].
  replace (p ++ ch :: l1) with ((p ++ [ch]) ++ l1) by (rewrite <- app_assoc; reflexivity). exact H.
Qed.

Lemma post_end p r : snd r = [] -> Inv p (fst r) -> Post p [] r.
Proof. intros E H. exists []. rewrite app_nil_r. split; [symmetry; exact E|]. left. split; assumption. Qed.

Lemma post_full p s l : FullSt p (fst (done s (-1)%Z l)) l -> Post p l (done s (-1)%Z l).
Proof. intro H. exists []. rewrite app_nil_r. split; [reflexivity|]. right. exact H. Qed.

Lemma q_gt_spec s : max_block_size s = M -> BoolSpec (M <= nblock s) (nblock s < M) (q_gt s).
Proof.
  intro E. unfold q_gt. rewrite qmax_backoff_is_1, E.
  destruct (N.ltb_spec (M - 1) (nblock s)); constructor; lia.
Qed.

Lemma q_ge_spec s : max_block_size s = M -> BoolSpec (M <= nblock s + 1) (nblock s + 1 < M) (q_ge s).
Proof.
  intro E. unfold q_ge. rewrite qmax_backoff_is_1, E.
  destruct (N.leb_spec (M - 1) (nblock s)); constructor; lia.
Qed.

Lemma viewB_olen {p s} : ViewB p s (out_rev (runs_rev p)) -> olen (runs_rev p) = nblock s.
Proof. intros (_ & _ & Hn & _). unfold olen. congruence. Qed.

Lemma viewB_put p s B k : ViewB p s B -> ViewB p (put s k) (k :: B).
Proof.
  intros (Hm & Hb & Hn & Hc). repeat split; cbn [put max_block_size blk nblock block_crc]; try assumption.
  - congruence.
  - rewrite Hn, N.add_1_r. cbn [length]. symmetry. apply Nat2N.inj_succ.
Qed.

Lemma viewB_crcu p s B ch : ViewB p s B -> ViewB (p ++ [ch]) (crcu s ch) B.
Proof.
  intros (Hm & Hb & Hn & Hc). repeat split; cbn [crcu max_block_size blk nblock block_crc]; try assumption.
  rewrite crc_of_snoc. congruence.
Qed.

Lemma viewB_eq p s B B' : ViewB p s B -> B = B' -> ViewB p s B'.
Proof. intros H <-. exact H. Qed.

Lemma viewB_max {p s B} : ViewB p s B -> max_block_size s = M.
Proof. intros (Hm & _). exact Hm. Qed.

Lemma viewB_closed {p s c n t} :
  ViewB p s (blk_of (runs_rev p)) -> runs_rev p = (c, n) :: t -> n < 4 \/ MAX_RUN_LENGTH <= n ->
  ViewB p s (out_rev (runs_rev p)).
Proof. intros HV E H. rewrite E in *. rewrite <- blk_of_closed by exact H. exact HV. Qed.

(* STATE 1..3, or finish_run below 4, on a byte equal to the last one *)
Lemma run_same {c n t p s l'} :
  Open c n t p s (c :: l') -> n < 4 -> Run c (n + 1) t (p ++ [c]) (put (crcu s c) c).
Proof.
  intros ((HV & E & Hlt & _) & Hn & Hlook) H4. pose proof max_run_gt4.
  pose proof (runs_rev_same E Hlt) as E'. split; [|split; [exact E'|]].
  - rewrite E', blk_of_same_lt4, <- E by exact H4. apply viewB_put, viewB_crcu, HV.
  - split; [lia|]. cbn [put crcu nblock]. split; [lia|]. intro H5.
    apply Hlook; [lia|]. cbn [lookahead]. apply N.eqb_refl.
Qed.

Lemma run_open {c n t p s} l : Run c n t p s -> 4 <= n -> Open c n t p s l.
Proof. intros HR H4. split; [exact HR|]. split; [apply HR, H4|lia]. Qed.

Lemma inv_open {c n t p s l} : Open c n t p s l -> Inv p (fst (done_c s (Z.of_N n) c [])).
Proof.
  intros ((HV & E & Hlt & _) & Hn & _). split; [exact HV|]. split; [exact Hn|].
  rewrite E, (proj2 (N.ltb_lt _ _) Hlt). split; reflexivity.
Qed.

(* leaving with "block full" when the block holds exactly M bytes and any next byte makes the output longer *)
Lemma full_exit p s rem :
  ViewB p s (out_rev (runs_rev p)) -> nblock s = M ->
  (forall d, (rem = [] \/ exists r, rem = d :: r) -> olen (runs_rev p) < olen (push_byte (runs_rev p) d)) ->
  Post p rem (done s (-1)%Z rem).
Proof.
  intros HV Hn G. pose proof (viewB_olen HV) as Ho. apply post_full.
  split; [reflexivity|]. split; [exact HV|]. split; [apply fits_iff; lia|].
  intros d Hd. apply fits_false_iff. rewrite runs_rev_snoc.
  pose proof (G d Hd). lia.
Qed.

(* leaving with "block full" at M-1 bytes: three equal bytes written, a fourth
   equal one is next, and 4th copy + count would need two more bytes *)
Lemma look_exit {p s} c t r :
  ViewB p s (out_rev (runs_rev p)) -> nblock s + 1 = M -> runs_rev p = (c, 3) :: t ->
  Post p (c :: r) (done s (-1)%Z (c :: r)).
Proof.
  intros HV Hn E. destruct (fourth_byte_needs_two M p c t E) as (F1 & F2).
  { rewrite rle1_len_olen, (viewB_olen HV). exact Hn. }
  apply post_full. split; [reflexivity|]. split; [exact HV|]. split; [exact F1|].
  intros d [Hd|(r' & Hd)]; [discriminate|]. inversion Hd; subst. exact F2.
Qed.

(* the label state0 with the closed output in the block and a new run about to start: either the
   block is full and collect() returns, or STATE 0 goes on *)
Lemma state0_then p s l :
  ViewB p s (out_rev (runs_rev p)) -> nblock s <= M -> fresh (runs_rev p) l ->
  (Pre R0 p s l -> Post p l (scan R0 s l)) -> Post p l (state0 s l).
Proof.
  intros HV Hn F Hk. unfold state0. destruct (q_gt_spec s (viewB_max HV)) as [Q|Q].
  - apply full_exit; [exact HV|lia|]. intros d Hd.
    rewrite (push_fresh d F Hd), olen_cons. change (elen 1) with 1. lia.
  - exact (Hk (conj HV (conj F Q))).
Qed.

(* the test of STATE 3 and of finish_run on an unfinished run: full, or room for one byte only
   while the run stands at 3 and a fourth equal byte is next *)
Lemma guard_then {c n t p s l k} :
  Run c n t p s -> (Open c n t p s l -> Post p l k) ->
  Post p l (if q_ge s && (q_gt s || ((n =? 3) && lookahead l c)) then done s (-1)%Z l else k).
Proof.
  intros HR Hk. pose proof HR as (HV & E & Hlt & Hn & Hroom). pose proof (viewB_max HV) as Hm.
  destruct (q_ge_spec s Hm) as [Qe|Qe]; cbn [andb].
  2:{ apply Hk. split; [exact HR|]. split; [lia|intros _ _; exact Qe]. }
  destruct (q_gt_spec s Hm) as [Q|Q]; cbn [orb].
  { apply full_exit; [apply (viewB_closed HV E); lia|lia|]. intros d _. rewrite E. apply olen_push_lt4. lia. }
  destruct ((n =? 3) && lookahead l c) eqn:T.
  2:{ apply Hk. split; [exact HR|]. split; [exact Q|]. intros -> L. rewrite L in T. discriminate. }
  apply andb_true_iff in T. destruct T as (T & L). apply N.eqb_eq in T. subst n.
  destruct l as [|c0 r]; [discriminate|]. apply N.eqb_eq in L. subst c0.
  apply (look_exit c t r); [apply (viewB_closed HV E); lia|lia|exact E].
Qed.

(* the test `q > qMax' of S1 and STATE 2 is the same test for a run that does not stand at 3 *)
Lemma q_gt_guard s : q_gt s = q_ge s && (q_gt s || false).
Proof.
  rewrite orb_false_r. unfold q_gt, q_ge.
  destruct (N.ltb_spec (max_block_size s - QMAX_BACKOFF) (nblock s)) as [H|H]; [|symmetry; apply andb_false_r].
  apply N.lt_le_incl, N.leb_le in H. rewrite H. reflexivity.
Qed.

(* STATE 0 on a non-empty buffer, i.e. the macro S1 on a byte that starts a new run *)
Lemma scan_R0 l' (IH : forall m s p, Pre m p s l' -> Post p l' (scan m s l')) s p ch :
  Pre R0 p s (ch :: l') -> Post p (ch :: l') (scan R0 s (ch :: l')).
Proof.
  intros (HV & F & Hn). pose proof max_run_gt4. cbn [scan]. apply post_cons.
  assert (E' : runs_rev (p ++ [ch]) = (ch, 1) :: runs_rev p) by (rewrite runs_rev_snoc; apply (push_fresh ch F); right; exists l'; reflexivity).
  assert (HR : Run ch 1 (runs_rev p) (p ++ [ch]) (put (crcu s ch) ch)).
  { split; [|split; [exact E'|split; [lia|cbn [put crcu nblock]; lia]]].
    rewrite E', blk_of_lt4 by lia. apply viewB_put, viewB_crcu, HV. }
  rewrite q_gt_guard. apply (guard_then HR). intro HO. apply IH. exists (runs_rev p). exact HO.
Qed.

(* in STATE 1..3, and in finish_run below 4, a byte different from the last one is handled as in STATE 0 *)
Lemma pre_R0_diff {c n t p s ch l} : Open c n t p s (ch :: l) -> n < 4 -> ch <> c -> Pre R0 p s (ch :: l).
Proof.
  intros ((HV & E & _) & Hn & _) H4 Hne. split; [|split; [|exact Hn]].
  - apply (viewB_closed HV E). left. exact H4.
  - rewrite E. right. exact Hne.
Qed.

Lemma scan_spec : forall l m s p, Pre m p s l -> Post p l (scan m s l).
Proof.
  pose proof max_run_gt4 as HMAX.
  induction l as [|ch l' IH]; intros m s p HP.
  - (* end of buffer: the unfinished run is left in rle_state / rle_character *)
    apply post_end; [destruct m; reflexivity|].
    destruct m as [|c|c|c|c run];
      [|destruct HP as (t & HO); exact (inv_open HO)..|destruct HP as (_ & t & HO); exact (inv_open HO)].
    destruct HP as (HV & F & Hn). unfold Inv. revert HV F.
    destruct (runs_rev p) as [|[c n] t]; intros HV F.
    + split; [exact HV|]. split; [exact Hn|reflexivity].
    + destruct F as [F|[]]. rewrite blk_of_closed, (proj2 (N.ltb_ge _ _) F) by (right; exact F).
      split; [exact HV|]. split; [exact Hn|reflexivity].
  - destruct m as [|last|last|last|last run]; cbn [scan].
    + exact (scan_R0 l' IH s p ch HP).
    + destruct HP as (t & HO).
      destruct (N.eqb_spec ch last) as [->|Hne]; [|exact (scan_R0 l' IH _ _ _ (pre_R0_diff HO eq_refl Hne))].
      apply post_cons. rewrite q_gt_guard. apply (guard_then (run_same HO eq_refl)).
      intro HO'. apply IH. exists t. exact HO'.
    + destruct HP as (t & HO).
      destruct (N.eqb_spec ch last) as [->|Hne]; cbn [negb]; [|exact (scan_R0 l' IH _ _ _ (pre_R0_diff HO eq_refl Hne))].
      apply post_cons, (guard_then (run_same HO eq_refl)).
      intro HO'. apply IH. exists t. exact HO'.
    + destruct HP as (t & HO).
      destruct (N.eqb_spec ch last) as [->|Hne]; cbn [negb]; [|exact (scan_R0 l' IH _ _ _ (pre_R0_diff HO eq_refl Hne))].
      rewrite (proj2 (N.ltb_lt 4 MAX_RUN_LENGTH) HMAX). apply post_cons, IH.
      split; [reflexivity|]. exists t. apply run_open; [exact (run_same HO eq_refl)|reflexivity].
    + destruct HP as (H4 & t & (HV & E & Hlt & _) & Hn & _).
      destruct (N.eqb_spec ch last) as [->|Hne]; cbn [negb].
      * pose proof (runs_rev_same E Hlt) as E'. apply post_cons.
        destruct (N.ltb_spec (run + 1) MAX_RUN_LENGTH) as [Hlt2|Hge2].
        -- apply IH. split; [lia|]. exists t. apply run_open; [|lia].
           split; [|split; [exact E'|split; [exact Hlt2|split; [|intros _]; cbn [crcu nblock]; lia]]].
           eapply viewB_eq; [apply viewB_crcu; exact HV|]. rewrite E, E', !blk_of_mid by lia. reflexivity.
        -- assert (HV2 : ViewB (p ++ [last]) (put (crcu s last) (MAX_RUN_LENGTH - 4))
                               (out_rev (runs_rev (p ++ [last])))).
           { eapply viewB_eq; [apply viewB_put, viewB_crcu; exact HV|].
             rewrite E, E', blk_of_mid, out_rev_ge4 by lia.
             replace (run + 1) with MAX_RUN_LENGTH by lia. reflexivity. }
           apply (state0_then _ (put (crcu s last) (MAX_RUN_LENGTH - 4)) l');
             [exact HV2|cbn [put crcu nblock]; lia|rewrite E'; left; lia|apply IH].
      * (* the count byte closes the run; what follows is the label state0 with the byte not yet
           fetched: un-getting it restores the crc, and CRC() commutes with the put *)
        rewrite if_negb.
        assert (HV0 : ViewB p (put s (run - 4)) (out_rev (runs_rev p))).
        { eapply viewB_eq; [apply viewB_put; exact HV|]. rewrite E, blk_of_open by assumption. reflexivity. }
        apply (state0_then p (put s (run - 4)) (ch :: l'));
          [exact HV0|cbn [put nblock]; lia|rewrite E; right; exact Hne|apply (scan_R0 l' IH)].
Qed.

Lemma state0_spec s p l : Pre R0 p s l -> Post p l (state0 s l).
Proof.
  intros (HV & F & Hn). apply state0_then; [exact HV|lia|exact F|apply scan_spec].
Qed.

(* the while loop of finish_run is the for loop of STATE 4+ entered in the middle: looking at
   a byte before taking it is fetching and un-getting it, and CRC() commutes with a put *)
Lemma fin4_scan ch : forall l rs s, rs < MAX_RUN_LENGTH -> rle_character s = ch ->
  fin4 rs ch s l = scan (R4 ch rs) s l.
Proof.
  induction l as [|c l' IH]; intros rs s Hlt Hch; cbn [fin4 scan].
  - subst ch. reflexivity.
  - destruct (N.eqb_spec c ch) as [->|Hne]; cbn [negb].
    + destruct (N.eqb_spec (rs + 1) MAX_RUN_LENGTH), (N.ltb_spec (rs + 1) MAX_RUN_LENGTH); try lia.
      * reflexivity.
      * apply IH; assumption.
    + rewrite if_negb. reflexivity.
Qed.

Lemma fin_spec ch : forall l rs s p t,
  Run ch rs t p s -> rle_character s = ch -> Post p l (fin rs ch s l).
Proof.
  induction l as [|c l' IH]; intros rs s p t HR Hch; cbn [fin]; apply (guard_then HR); intro HO.
  - apply post_end; [reflexivity|]. subst ch. exact (inv_open HO).
  - destruct (N.leb_spec 4 rs) as [H4|H4].
    + rewrite fin4_scan by (exact Hch || apply HR). apply scan_spec. split; [exact H4|]. exists t. exact HO.
    + destruct (N.eqb_spec c ch) as [->|Hne]; cbn [negb].
      * apply post_cons, (IH _ _ _ t); [exact (run_same HO H4)|exact Hch].
      * apply state0_spec, (pre_R0_diff HO H4 Hne).
Qed.

Lemma collect_spec p s l : Inv p s -> Post p l (collect s l).
Proof.
  intros (HV & Hn & Hst). unfold collect. destruct (runs_rev p) as [|[c n] t] eqn:E.
  - rewrite Hst. apply state0_spec. split; [rewrite E; exact HV|]. split; [rewrite E; exact I|exact Hn].
  - rewrite <- E in HV. pose proof (runs_rev_head_pos E) as Hpos.
    destruct (N.ltb_spec n MAX_RUN_LENGTH) as [Hlt|Hge].
    + destruct Hst as (Hs & Hc). rewrite Hs.
      destruct (Z.eqb_spec (Z.of_N n) 0) as [Hz|Hz]; [lia|].
      rewrite N2Z.id, Hc. apply (fin_spec c l n s p t); [|exact Hc].
      split; [exact HV|]. split; [exact E|]. split; [exact Hlt|]. split; [lia|intros _; exact Hn].
    + rewrite Hst. apply state0_spec. split; [apply (viewB_closed HV E); right; exact Hge|].
      split; [rewrite E; left; exact Hge|exact Hn].
Qed.

End Machine.

Definition spec_blk (g : list N) : out_blk := mkob (rle1 g) (N.of_nat (length g)) (crc_of g).

Lemma greedy_spec_whole M cur : cur <> [] -> fits M cur = true -> greedy_spec M cur = Some [cur].
Proof.
  intros Hne Hf. rewrite <- (app_nil_r cur) at 1.
  apply greedy_spec_cut; [exact Hne|exact Hf|left; reflexivity|reflexivity].
Qed.

Section Drivers.
Variable M : N.
Hypothesis HM : 0 < M.

Lemma init_inv : Inv M [] (encoder_init M).
Proof.
  destruct init_consts as (A & B & C). unfold encoder_init. rewrite A, B, C.
  split; [|split; [exact HM|reflexivity]]. repeat split.
Qed.

(* "Finalize initial RLE": the count byte of an open run of 4.. is written, which closes the output *)
Lemma inv_flush {p s} : Inv M p s -> ViewB M p (flush s) (out_rev (runs_rev p)) /\ nblock (flush s) <= M.
Proof.
  pose proof max_run_gt4. destruct flush_consts as (F1 & F2).
  intros (HV & Hn & Hst). unfold flush. rewrite F1, F2. change (Z.of_N 4) with 4%Z.
  destruct (runs_rev p) as [|[c n] t].
  - rewrite Hst. cbn [Z.leb Z.compare]. split; [exact HV|lia].
  - destruct (N.ltb_spec n MAX_RUN_LENGTH) as [Hlt|Hge].
    + destruct Hst as (Hs & _). rewrite Hs. destruct (Z.leb_spec 4 (Z.of_N n)) as [H4|H4].
      * replace (Z.to_N (Z.of_N n - 4)) with (n - 4) by lia. split; [|cbn [put nblock]; lia].
        rewrite blk_of_open by lia. apply viewB_put, HV.
      * rewrite <- blk_of_closed by lia. split; [exact HV|lia].
    + rewrite Hst, <- blk_of_closed by lia. cbn [Z.leb Z.compare]. split; [exact HV|lia].
Qed.

Lemma inv_fits {p s} : Inv M p s -> fits M p = true.
Proof.
  intro HI. destruct (inv_flush HI) as (HV & Hn). apply fits_iff. rewrite (viewB_olen M HV). exact Hn.
Qed.

Lemma inv_not_full {p s} : Inv M p s -> full s = false.
Proof.
  intros (_ & _ & Hst). unfold full. apply Z.ltb_ge.
  destruct (runs_rev p) as [|[c n] t]; [lia|].
  destruct (n <? MAX_RUN_LENGTH); [destruct Hst|]; lia.
Qed.

Lemma fullst_full {p s rem} : FullSt M p s rem -> full s = true.
Proof. intros (Hs & _). unfold full. rewrite Hs. reflexivity. Qed.

Lemma fullst_nonempty {p s rem} : FullSt M p s rem -> p <> [].
Proof.
  intros (_ & _ & _ & Hstop) ->. specialize (Hstop (hd 0 rem)). cbn [app] in Hstop.
  rewrite fits_single in Hstop by exact HM. enough (true = false) by discriminate.
  apply Hstop. destruct rem as [|d r]; [left|right; exists r]; reflexivity.
Qed.

Lemma finish_inv {p s} w : Inv M p s -> finish_block s w = mkob (rle1 p) w (crc_of p).
Proof.
  intro HI. destruct (inv_flush HI) as ((_ & Hb & _ & Hc) & _).
  unfold finish_block. rewrite Hb, Hc, rle1_out_rev. reflexivity.
Qed.

Lemma finish_full {p s rem} w : FullSt M p s rem -> finish_block s w = mkob (rle1 p) w (crc_of p).
Proof.
  destruct flush_consts as (F1 & F2).
  intros (Hs & (_ & Hb & _ & Hc) & _). unfold finish_block, flush. rewrite F1, F2, Hs.
  change (Z.of_N 4) with 4%Z. cbn [Z.leb Z.compare].
  rewrite rle1_out_rev, Hb, Hc. reflexivity.
Qed.

Lemma fullst_cut {p s rem} y g : FullSt M p s rem ->
  greedy_spec M (rem ++ y) = Some g -> greedy_spec M (p ++ rem ++ y) = Some (p :: g).
Proof.
  intro HF. pose proof (fullst_nonempty HF) as Hne. destruct HF as (_ & _ & Hfit & Hstop).
  apply greedy_spec_cut; [exact Hne|exact Hfit|].
  destruct rem as [|d r]; cbn [app].
  - destruct y as [|d r]; [left; reflexivity|right].
    exists d, r. split; [reflexivity|]. apply Hstop. left. reflexivity.
  - right. exists d, (r ++ y). split; [reflexivity|]. apply Hstop. right. exists r. reflexivity.
Qed.

Lemma collect_result p s b s' rem :
  Inv M p s -> collect s b = (s', rem) ->
  exists l1, b = l1 ++ rem /\ consumed_of b rem = N.of_nat (length l1) /\
    ((rem = [] /\ Inv M (p ++ l1) s') \/ FullSt M (p ++ l1) s' rem).
Proof.
  intros HI E. destruct (collect_spec M HM p s b HI) as (l1 & Eb & HP). rewrite E in *. cbn [fst snd] in *.
  exists l1. split; [exact Eb|]. split; [|exact HP].
  unfold consumed_of. rewrite Eb, app_length. f_equal. lia.
Qed.

(* default mode: do_collect *)
Lemma collect_chunk_spec : forall fuel b, b <> [] -> (length b < fuel)%nat ->
  exists G, greedy_spec M b = Some G /\ collect_chunk fuel M b = Some (map spec_blk G).
Proof.
  induction fuel as [|f IH]; intros b Hne Hlen; [lia|].
  cbn [collect_chunk]. destruct (collect (encoder_init M) b) as [s' rem] eqn:E.
  destruct (collect_result [] _ b s' rem init_inv E) as (l1 & -> & -> & [(-> & HI)|HF]); cbn [app] in *.
  - rewrite app_nil_r in *. exists [l1]. split.
    + apply greedy_spec_whole; [exact Hne|exact (inv_fits HI)].
    + rewrite (finish_inv _ HI). reflexivity.
  - rewrite (finish_full _ HF). pose proof (fullst_nonempty HF) as Hl1.
    destruct rem as [|d r].
    + exists [l1]. split; [exact (fullst_cut [] [] HF eq_refl)|reflexivity].
    + destruct (IH (d :: r)) as (G' & HG & HC); [discriminate| |].
      { rewrite app_length in Hlen. destruct l1; [congruence|]. cbn [length] in *. lia. }
      exists (l1 :: G'). rewrite HC. split; [|reflexivity].
      rewrite <- (app_nil_r r) in HG |- *. exact (fullst_cut [] G' HF HG).
Qed.

Lemma run_default_spec : forall bufs,
  exists G, greedy_each M bufs = Some G /\ run_default M bufs = Some (map spec_blk G).
Proof.
  induction bufs as [|b r (G & HG & HR)].
  - exists []. split; reflexivity.
  - destruct b as [|c b].
    + exists G. cbn [greedy_each run_default]. change (greedy_spec M []) with (Some (@nil (list N))).
      rewrite HG. split; [reflexivity|exact HR].
    + destruct (collect_chunk_spec (S (length (c :: b))) (c :: b)) as (G1 & H1 & H2); [discriminate|lia|].
      exists (G1 ++ G). cbn [greedy_each run_default]. rewrite H1, HG, H2, HR, map_app. split; reflexivity.
Qed.

(* sequential mode: do_collect_seq *)
Definition Abs (unf : option (enc * N)) (p : list N) : Prop :=
  match unf with
  | None => p = []
  | Some (s, w) => Inv M p s /\ w = N.of_nat (length p) /\ p <> []
  end.

Definition bit (unf : option (enc * N)) : nat := match unf with Some _ => 1 | None => 0 end.

Lemma seq_buf_spec : forall fuel b unf p, Abs unf p -> b <> [] -> (2 * length b + bit unf < fuel)%nat ->
  exists G u' p', seq_buf fuel M unf b = Some (map spec_blk G, u') /\ Abs u' p' /\
    forall y g, greedy_spec M (p' ++ y) = Some g -> greedy_spec M (p ++ b ++ y) = Some (G ++ g).
Proof.
  induction fuel as [|f IH]; intros b unf p HA Hne Hfuel; [lia|].
  cbn [seq_buf].
  assert (Hsw : exists s, match unf with Some sw => sw | None => (encoder_init M, 0) end =
                          (s, N.of_nat (length p)) /\ Inv M p s).
  { destruct unf as [[s w]|]; cbn [Abs] in HA.
    - destruct HA as (A & -> & _). exists s. split; [reflexivity|exact A].
    - subst p. exists (encoder_init M). split; [reflexivity|exact init_inv]. }
  destruct Hsw as (s & -> & HI).
  destruct (collect s b) as [s' rem] eqn:E.
  destruct (collect_result p s b s' rem HI E) as (l1 & -> & Hw & [(-> & HI')|HF]);
    rewrite Hw, <- Nat2N.inj_add, <- app_length.
  - rewrite app_nil_r in *. rewrite (inv_not_full HI').
    exists [], (Some (s', N.of_nat (length (p ++ l1)))), (p ++ l1). split; [reflexivity|]. split.
    + split; [exact HI'|]. split; [reflexivity|]. destruct l1; [congruence|]. destruct p; discriminate.
    + intros y g Hg. rewrite app_assoc. exact Hg.
  - rewrite (fullst_full HF), (finish_full _ HF). fold (spec_blk (p ++ l1)).
    assert (Hcut : forall y g, greedy_spec M (rem ++ y) = Some g ->
                               greedy_spec M (p ++ (l1 ++ rem) ++ y) = Some ((p ++ l1) :: g)).
    { intros y g. rewrite <- app_assoc, app_assoc. exact (fullst_cut y g HF). }
    destruct rem as [|d r].
    + exists [p ++ l1], None, []. split; [reflexivity|]. split; [reflexivity|exact Hcut].
    + destruct (IH (d :: r) None []) as (G' & u' & p' & HS & HA' & HG); [reflexivity|discriminate| |].
      { pose proof (fullst_nonempty HF) as Hpl.
        cbn [bit]. rewrite app_length in Hfuel. cbn [length] in *.
        destruct l1 as [|x l1]; cbn [length] in *; [|lia].
        rewrite app_nil_r in Hpl. destruct unf as [sw|]; cbn [bit Abs] in *; [lia|congruence]. }
      rewrite HS. exists ((p ++ l1) :: G'), u', p'. split; [reflexivity|]. split; [exact HA'|].
      intros y g Hg. apply Hcut, (HG y g Hg).
Qed.

Lemma run_seq_go_spec : forall bufs unf p, Abs unf p ->
  exists G, greedy_spec M (p ++ concat bufs) = Some G /\ run_seq_go M unf bufs = Some (map spec_blk G).
Proof.
  induction bufs as [|b r IH]; intros unf p HA.
  - cbn [concat run_seq_go]. rewrite app_nil_r. destruct unf as [[s w]|]; cbn [Abs] in HA.
    + destruct HA as (HI & Hw & Hne). exists [p]. split.
      * apply greedy_spec_whole; [exact Hne|exact (inv_fits HI)].
      * rewrite (finish_inv _ HI), Hw. reflexivity.
    + subst p. exists []. split; reflexivity.
  - destruct b as [|c b].
    + cbn [concat run_seq_go app]. apply IH. exact HA.
    + destruct (seq_buf_spec (2 * length (c :: b) + 2) (c :: b) unf p HA) as (G1 & u' & p' & HS & HA' & HG);
        [discriminate|destruct unf; cbn [bit]; lia|].
      destruct (IH u' p' HA') as (G2 & HG2 & HR2).
      exists (G1 ++ G2). cbn [concat]. split.
      * apply HG, HG2.
      * cbn [run_seq_go]. rewrite HS, HR2, map_app. reflexivity.
Qed.

Theorem collect_run_greedy : forall sequential bufs,
  exists G, spec_blocks sequential M bufs = Some G /\
            collect_run sequential M bufs = Some (map spec_blk G).
Proof.
  intros [|] bufs; unfold spec_blocks, collect_run.
  - destruct (run_seq_go_spec bufs None [] eq_refl) as (G & H1 & H2). exists G. split; assumption.
  - apply run_default_spec.
Qed.

End Drivers.

(* declarative reading of "repeatedly take the longest prefix that fits" *)
Inductive GreedyCut (M : N) : list N -> list (list N) -> Prop :=
| GC_nil : GreedyCut M [] []
| GC_cons p rest G :
    p <> [] -> fits M p = true ->
    (forall k, (length p < k <= length (p ++ rest))%nat -> fits M (firstn k (p ++ rest)) = false) ->
    GreedyCut M rest G -> GreedyCut M (p ++ rest) (p :: G).

Lemma greedy_go_sound M : forall f x G, greedy_go f M x = Some G -> GreedyCut M x G.
Proof.
  induction f as [|f IH]; intros x G H; (destruct x as [|c x]; [inversion H; constructor|]); [discriminate|].
  rewrite greedy_go_unfold in H by discriminate. remember (c :: x) as y eqn:Ey.
  destruct (longest_from_spec M y (length y)) as (A & B & C). fold (longest_fit M y) in A, B, C.
  destruct (longest_fit M y) as [|k]; [discriminate|].
  destruct (greedy_go f M (skipn (S k) y)) as [bs|] eqn:Eg; [|discriminate].
  injection H as <-. pattern y at 1. rewrite <- (firstn_skipn (S k) y).
  assert (Hlen : length (firstn (S k) y) = S k) by (rewrite firstn_length; lia).
  apply (GC_cons M (firstn (S k) y) (skipn (S k) y)).
  - intro E0. rewrite E0 in Hlen. discriminate.
  - exact B.
  - rewrite firstn_skipn, Hlen. intros k2 Hk2.
    destruct (fits M (firstn k2 y)) eqn:F; [|reflexivity]. apply C in F; lia.
  - exact (IH _ _ Eg).
Qed.

Theorem greedy_spec_sound M x G : greedy_spec M x = Some G -> GreedyCut M x G.
Proof. apply greedy_go_sound. Qed.

Lemma GreedyCut_concat M x G : GreedyCut M x G -> concat G = x.
Proof. induction 1; [reflexivity|]. cbn [concat]. congruence. Qed.

(* run lengths never exceed MAX_RUN_LENGTH, so the count is a byte *)
Theorem rle1_bytes p : Forall (fun x => x < 256) p -> Forall (fun x => x < 256) (rle1 p).
Proof.
  intro HF. pose proof max_run_count_is_byte. unfold rle1, runs.
  apply Forall_flat_map. apply Forall_rev. eapply Forall_impl; [|apply runs_rev_Forall; exact HF].
  intros [c n] (A & B & C). cbn [fst snd] in *. unfold emit_run.
  destruct (n <? 4).
  - apply Forall_forall. intros x Hx. apply repeat_spec in Hx. subst. exact A.
  - repeat constructor; try exact A. lia.
Qed.

Fixpoint all_but_last_full (k : nat) (ps : list (list N)) : Prop :=
  match ps with
  | [] => True
  | b :: r => match r with [] => True | _ :: _ => length b = k end /\ all_but_last_full k r
  end.

Lemma cut_go_spec k : (0 < k)%nat -> forall fuel x, (length x <= fuel)%nat ->
  exists ps, cut_go fuel k x = Some ps /\ concat ps = x /\
             Forall (fun b => b <> [] /\ (length b <= k)%nat) ps /\ all_but_last_full k ps.
Proof.
  intros Hk. induction fuel as [|f IH]; intros x Hlen.
  - destruct x; [|simpl in Hlen; lia]. exists []. repeat split. constructor.
  - destruct x as [|c x]; [exists []; repeat split; constructor|].
    destruct k as [|k']; [lia|]. cbn [cut_go].
    destruct (IH (skipn (S k') (c :: x))) as (ps & E & Hc & HF & HL).
    { rewrite skipn_length. cbn [length] in *. lia. }
    rewrite E. exists (firstn (S k') (c :: x) :: ps). split; [reflexivity|]. split; [|split].
    + cbn [concat]. rewrite Hc. apply firstn_skipn.
    + constructor; [|exact HF]. split; [discriminate|]. rewrite firstn_length. lia.
    + cbn [all_but_last_full]. split; [|exact HL].
      destruct ps as [|b r]; [exact I|].
      rewrite firstn_length. destruct (Nat.le_gt_cases (S k') (length (c :: x))) as [Hle|Hgt]; [lia|].
      rewrite skipn_all2 in Hc by lia. cbn [concat] in Hc.
      inversion HF as [|? ? (Hb & _) _]; subst. destruct b; [congruence|discriminate].
Qed.

Lemma cut_spec M x : 0 < M ->
  exists ps, cut M x = Some ps /\ concat ps = x /\
             Forall (fun b => b <> [] /\ (length b <= N.to_nat M)%nat) ps /\
             all_but_last_full (N.to_nat M) ps.
Proof. intro H. unfold cut. apply cut_go_spec; lia. Qed.

(* the two modes of the program, for an encoder capacity and input-buffer size M *)
Theorem modes_spec M x : 0 < M ->
  (* --sequential: whatever way the input reaches collect(), greedy over everything *)
  (forall bufs, concat bufs = x ->
     exists G, greedy_spec M x = Some G /\ collect_run true M bufs = Some (map spec_blk G)) /\
  (* default: the input is cut into M-byte pieces, each packed on its own *)
  (exists pieces G, cut M x = Some pieces /\ concat pieces = x /\
     all_but_last_full (N.to_nat M) pieces /\
     greedy_each M pieces = Some G /\ collect_run false M pieces = Some (map spec_blk G)).
Proof.
  intro HM. split.
  - intros bufs <-. exact (collect_run_greedy M HM true bufs).
  - destruct (cut_spec M x HM) as (ps & E & Hc & _ & HL).
    destruct (collect_run_greedy M HM false ps) as (G & HG & HR).
    exists ps, G. repeat split; assumption.
Qed.

Theorem collect_run_greedy_fields : forall M sequential bufs, 0 < M ->
  exists G obs, spec_blocks sequential M bufs = Some G /\ collect_run sequential M bufs = Some obs /\
    map ob_bytes obs = map rle1 G /\
    map ob_weight obs = map (fun g => N.of_nat (length g)) G /\
    map ob_crc obs = map crc_of G.
Proof.
  intros M sq bufs HM. destruct (collect_run_greedy M HM sq bufs) as (G & H1 & H2).
  exists G, (map spec_blk G). split; [exact H1|]. split; [exact H2|].
  rewrite !map_map. repeat split; apply map_ext; reflexivity.
Qed.

Theorem greedy_spec_total : forall M x, 0 < M -> exists G, greedy_spec M x = Some G.
Proof.
  intros M x HM. destruct (collect_run_greedy M HM true [x]) as (G & H & _).
  unfold spec_blocks in H. cbn [concat] in H. rewrite app_nil_r in H. exists G. exact H.
Qed.
