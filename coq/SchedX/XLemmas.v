(* Generic facts used by the invariant proofs of the decompression scheduler:
   the regenerated order on positions, minimum search, removal, counting. *)
From Coq Require Import List NArith Bool Lia Arith ZifyBool ZifyN.
From LBZ Require Import Gen.Consts SchedX.XState Gen.SchedXTab SchedX.XSet SchedX.XModel.
Import ListNotations.
Local Open Scope N_scope.

(* the regenerated macros pos_lt / pos_eq / pos_le are the lexicographic order *)
Definition lexlt (a b : pos) : Prop := fst a < fst b \/ (fst a = fst b /\ snd a < snd b).

Lemma pos_lt_spec a b : pos_lt a b = true <-> lexlt a b.
Proof. unfold pos_lt, lexlt. destruct a, b; simpl. lia. Qed.

Lemma pos_eq_spec a b : pos_eq a b = true <-> a = b.
Proof.
  unfold pos_eq. destruct a as [a1 a2], b as [b1 b2]; simpl. split.
  - intro H. assert (a1 = b1 /\ a2 = b2) as [-> ->] by lia. reflexivity.
  - intro H; inversion H; subst. lia.
Qed.

Lemma pos_le_spec a b : pos_le a b = true <-> ~ lexlt b a.
Proof. unfold pos_le. rewrite negb_true_iff, <- not_true_iff_false, pos_lt_spec. tauto. Qed.

Lemma pos_lt_irrefl a : pos_lt a a = false.
Proof. apply not_true_iff_false. rewrite pos_lt_spec. unfold lexlt. lia. Qed.

Lemma pos_lt_trans a b c : pos_lt a b = true -> pos_lt b c = true -> pos_lt a c = true.
Proof. rewrite !pos_lt_spec. unfold lexlt. lia. Qed.

(* negative transitivity: "not less" is transitive *)
Lemma pos_nlt_trans a b c : pos_lt b a = false -> pos_lt c b = false -> pos_lt c a = false.
Proof. rewrite <- !not_true_iff_false, !pos_lt_spec. unfold lexlt. lia. Qed.

Lemma pos_lt_total a b : pos_lt a b = false -> pos_lt b a = false -> a = b.
Proof.
  rewrite <- !not_true_iff_false, !pos_lt_spec. unfold lexlt. destruct a, b; simpl.
  intros. assert (n = n1 /\ n0 = n2) as [-> ->] by lia. reflexivity.
Qed.

Section QMin.
  Context {A : Type} (key : A -> pos).

  Lemma qmin_acc_In best l : qmin_acc key pos_lt best l = best \/ In (qmin_acc key pos_lt best l) l.
  Proof.
    revert best; induction l as [|x r IH]; intro best; simpl; auto.
    destruct (IH (if pos_lt (key x) (key best) then x else best)) as [H|H]; auto.
    rewrite H. destruct (pos_lt (key x) (key best)); auto.
  Qed.

  Lemma qmin_acc_le_best best l : pos_lt (key best) (key (qmin_acc key pos_lt best l)) = false.
  Proof.
    revert best; induction l as [|x r IH]; intro best; simpl.
    - apply pos_lt_irrefl.
    - destruct (pos_lt (key x) (key best)) eqn:E.
      + eapply pos_nlt_trans; [apply IH|].
        apply not_true_iff_false. intro H. apply pos_lt_spec in H, E. unfold lexlt in *. lia.
      + apply IH.
  Qed.

  Lemma qmin_acc_min best l y : In y l -> pos_lt (key y) (key (qmin_acc key pos_lt best l)) = false.
  Proof.
    revert best; induction l as [|x r IH]; intro best; simpl; [tauto|].
    intros [->|H].
    - destruct (pos_lt (key y) (key best)) eqn:E.
      + apply qmin_acc_le_best.
      + eapply pos_nlt_trans; [apply qmin_acc_le_best|]. exact E.
    - apply IH; auto.
  Qed.

  Lemma qmin_In l x : qmin key pos_lt l = Some x -> In x l.
  Proof.
    destruct l as [|a r]; simpl; [discriminate|]. intro H; inversion H; subst.
    destruct (qmin_acc_In a r) as [E|E]; [left; auto | right; auto].
  Qed.

  Lemma qmin_min l x y : qmin key pos_lt l = Some x -> In y l -> pos_lt (key y) (key x) = false.
  Proof.
    destruct l as [|a r]; simpl; [discriminate|]. intro H; inversion H; subst. intros [->|Hy].
    - apply qmin_acc_le_best.
    - apply qmin_acc_min; auto.
  Qed.

  Lemma qmin_none l : qmin key pos_lt l = None -> l = [].
  Proof. destruct l; simpl; [auto|discriminate]. Qed.

  Lemma qmin_some l : l <> [] -> exists x, qmin key pos_lt l = Some x.
  Proof. destruct l; [congruence|]. simpl; eauto. Qed.

  Lemma is_minimal_spec x l : is_minimal key pos_lt x l = true <-> forall y, In y l -> pos_lt (key y) (key x) = false.
  Proof.
    unfold is_minimal. rewrite forallb_forall. split; intros H y Hy; specialize (H y Hy).
    - now apply negb_true_iff in H.
    - now apply negb_true_iff.
  Qed.
End QMin.

Section Remove.
  Context {A : Type} (eqb : A -> A -> bool).
  Hypothesis eqb_eq : forall a b, eqb a b = true -> a = b.

  Lemma remove_one_In x l l' y : remove_one eqb x l = Some l' -> In y l' -> In y l.
  Proof.
    revert l'; induction l as [|a r IH]; simpl; intros l'; [discriminate|].
    destruct (eqb x a) eqn:E.
    - intro H; inversion H; subst. auto.
    - destruct (remove_one eqb x r) eqn:R; [|discriminate]. intro H; inversion H; subst.
      simpl. intros [->|Hy]; auto. right. eapply IH; eauto.
  Qed.

  Lemma remove_one_self x l l' : remove_one eqb x l = Some l' -> In x l.
  Proof.
    revert l'; induction l as [|a r IH]; simpl; intros l'; [discriminate|].
    destruct (eqb x a) eqn:E.
    - apply eqb_eq in E; subst; auto.
    - destruct (remove_one eqb x r) eqn:R; [|discriminate]. intros _. right. eapply IH; eauto.
  Qed.

  Lemma remove_one_split x l l' : remove_one eqb x l = Some l' ->
    exists l1 l2, l = l1 ++ x :: l2 /\ l' = l1 ++ l2.
  Proof.
    revert l'; induction l as [|a r IH]; simpl; intros l'; [discriminate|].
    destruct (eqb x a) eqn:E.
    - apply eqb_eq in E; subst. intro H; inversion H; subst. exists [], l'. auto.
    - destruct (remove_one eqb x r) eqn:R; [|discriminate]. intro H; inversion H; subst.
      destruct (IH _ eq_refl) as (l1 & l2 & -> & ->). exists (a :: l1), l2. auto.
  Qed.

  Lemma remove_one_length x l l' : remove_one eqb x l = Some l' -> length l = S (length l').
  Proof.
    intro H. destruct (remove_one_split _ _ _ H) as (l1 & l2 & -> & ->).
    rewrite !app_length. simpl. lia.
  Qed.

  Lemma remove_one_Forall P x l l' : remove_one eqb x l = Some l' -> Forall P l -> Forall P l' /\ P x.
  Proof.
    intro H. destruct (remove_one_split _ _ _ H) as (l1 & l2 & -> & ->).
    rewrite !Forall_app. intros [H1 H2]. inversion H2; subst. tauto.
  Qed.

  Lemma remove_one_filter_len p x l l' : remove_one eqb x l = Some l' ->
    length (filter p l) = (length (filter p l') + (if p x then 1 else 0))%nat.
  Proof.
    intro H. destruct (remove_one_split _ _ _ H) as (l1 & l2 & -> & ->).
    rewrite !filter_app, !app_length. simpl. destruct (p x); simpl; lia.
  Qed.
End Remove.

Lemma filter_all {A} (p : A -> bool) l : (forall x, In x l -> p x = true) -> filter p l = l.
Proof. induction l as [|a l IH]; simpl; intro H; auto. rewrite (H a (or_introl eq_refl)). f_equal. apply IH. auto. Qed.

Lemma filter_none {A} (p : A -> bool) l : (forall x, In x l -> p x = false) -> filter p l = [].
Proof. induction l as [|a l IH]; simpl; intro H; auto. rewrite (H a (or_introl eq_refl)). apply IH. auto. Qed.

Lemma filter_len_pos {A} (p : A -> bool) l : (1 <= length (filter p l))%nat <-> exists x, In x l /\ p x = true.
Proof.
  split.
  - destruct (filter p l) as [|x r] eqn:F; simpl; [lia|]. intros _.
    assert (H : In x (filter p l)) by (rewrite F; left; auto). apply filter_In in H. eauto.
  - intros (x & Hx & Px). assert (H : In x (filter p l)) by (apply filter_In; auto).
    destruct (filter p l); [destruct H|simpl; lia].
Qed.

Lemma filter_len_zero {A} (p : A -> bool) l : length (filter p l) = 0%nat <-> Forall (fun x => p x = false) l.
Proof.
  induction l as [|a r IH]; simpl; [split; auto|]. destruct (p a) eqn:E; simpl.
  - split; [discriminate|]. intro H; inversion H; congruence.
  - rewrite IH. split; [constructor; auto|intro H; inversion H; auto].
Qed.

Lemma In_remove_one_some {A} (eqb : A -> A -> bool) (refl : forall a, eqb a a = true) x l :
  In x l -> exists l', remove_one eqb x l = Some l'.
Proof.
  induction l as [|a r IH]; simpl; [tauto|].
  destruct (eqb x a) eqn:E; [eauto|]. intros [->|H]; [rewrite refl in E; discriminate|].
  destruct (IH H) as [l' ->]. eauto.
Qed.

Lemma pos_eqb_eq a b : pos_eqb a b = true -> a = b.
Proof. unfold pos_eqb. destruct a, b; simpl. intro. assert (n = n1 /\ n0 = n2) as [-> ->] by lia. reflexivity. Qed.
Lemma pos_eqb_refl a : pos_eqb a a = true.
Proof. unfold pos_eqb. lia. Qed.
Lemma dbs_eqb_eq a b : dbs_eqb a b = true -> a = b.
Proof. unfold dbs_eqb. destruct a, b; simpl. intro. assert (d_bit = d_bit0 /\ d_off = d_off0) as [-> ->] by lia. reflexivity. Qed.
Lemma dbs_eqb_refl a : dbs_eqb a a = true.
Proof. unfold dbs_eqb. lia. Qed.
Lemma optN_eqb_eq a b : optN_eqb a b = true -> a = b.
Proof. destruct a, b; simpl; try discriminate; auto. intro. f_equal. lia. Qed.
Lemma optN_eqb_refl a : optN_eqb a a = true.
Proof. destruct a; simpl; auto. lia. Qed.
Lemma rjob_eqb_eq a b : rjob_eqb a b = true -> a = b.
Proof.
  unfold rjob_eqb. destruct a, b; simpl. rewrite !andb_true_iff. intros [[H1 H2] H3].
  apply pos_eqb_eq in H1. apply dbs_eqb_eq in H2. apply optN_eqb_eq in H3. congruence.
Qed.
Lemma rjob_eqb_refl a : rjob_eqb a a = true.
Proof. unfold rjob_eqb. rewrite pos_eqb_refl, dbs_eqb_refl, optN_eqb_refl. reflexivity. Qed.
Lemma ejob_eqb_eq a b : ejob_eqb a b = true -> a = b.
Proof.
  unfold ejob_eqb. destruct a, b; simpl. rewrite !andb_true_iff. intros [[H1 H2] H3].
  apply pos_eqb_eq in H1. f_equal; auto; lia.
Qed.
Lemma ejob_eqb_refl a : ejob_eqb a a = true.
Proof. unfold ejob_eqb. rewrite pos_eqb_refl. lia. Qed.
Lemma oblk_eqb_eq a b : oblk_eqb a b = true -> a = b.
Proof.
  unfold oblk_eqb. destruct a, b; simpl. rewrite !andb_true_iff. intros [[[[[H1 H2] H3] H4] H5] H6].
  apply pos_eqb_eq in H1. f_equal; auto; lia.
Qed.
Lemma cont_eqb_eq a b : cont_eqb a b = true -> a = b.
Proof.
  destruct a, b; simpl; try discriminate; rewrite ?andb_true_iff; intros H.
  - apply optN_eqb_eq in H; congruence.
  - destruct H as [H1 H2]. apply rjob_eqb_eq in H1. apply optN_eqb_eq in H2. congruence.
  - apply ejob_eqb_eq in H; congruence.
  - apply ejob_eqb_eq in H; congruence.
  - destruct H as [H1 H2]. apply dbs_eqb_eq in H1. apply optN_eqb_eq in H2. congruence.
Qed.
Lemma cont_eqb_refl a : cont_eqb a a = true.
Proof.
  destruct a; simpl; rewrite ?rjob_eqb_refl, ?ejob_eqb_refl, ?dbs_eqb_refl, ?optN_eqb_refl; reflexivity.
Qed.

Lemma take_min_spec {A} (eqb : A -> A -> bool) key x q q' :
  take_min eqb key x q = Some q' ->
  remove_one eqb x q = Some q' /\ forall y, In y q -> pos_lt (key y) (key x) = false.
Proof.
  unfold take_min. destruct (is_minimal key pos_lt x q) eqn:E; [|discriminate].
  intro H. split; auto. now apply is_minimal_spec.
Qed.

Lemma dbs_norm_ok d : dbs_norm d = true -> dbs_ok d = true.
Proof. unfold dbs_norm, dbs_ok. lia. Qed.

(* for normalised streams the word offset is a monotone function of the bit position *)
Lemma norm_off_mono a b : dbs_norm a = true -> dbs_norm b = true -> d_bit a <= d_bit b -> d_off a <= d_off b.
Proof. unfold dbs_norm. lia. Qed.

Lemma ok_norm_off_mono a b : dbs_norm a = true -> dbs_ok b = true -> d_bit a <= d_bit b -> d_off a <= d_off b.
Proof. unfold dbs_norm, dbs_ok. lia. Qed.
