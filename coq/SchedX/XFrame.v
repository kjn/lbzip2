(* Frame facts: which fields the auxiliary operations of the model leave alone.
   Each operation that branches or folds is written once as "the old state with the fields it
   touches overwritten" (the _nf equations, rewrite base xn); a projection of the right-hand
   side then reduces by xs alone.  The per-field lemmas below say the same field by field: for
   the operations that branch or fold they are instances of those equations, for adv_scans,
   add_run, give_unit and fail they hold by computation. *)
From Coq Require Import List NArith Bool.
From LBZ Require Import Gen.Consts SchedX.XState Gen.SchedXTab SchedX.XSet SchedX.XModel.
Import ListNotations.
Local Open Scope N_scope.

Definition attach_inq d st := x_input_q (fst (attach d st)).
Definition attach_bad d st := x_bad_attach (fst (attach d st)).
Definition detach_inq a st := x_input_q (detach a st).
Definition detach_zom a st := x_zombies (detach a st).
Definition detach_ins a st := x_in_slots (detach a st).
Definition rel_zom l st := x_zombies (fold_left (fun a b => release_blk b a) l st).
Definition rel_ins l st := x_in_slots (fold_left (fun a b => release_blk b a) l st).
Definition advj_un cfg st := x_unords (adv_jobs cfg st).

(* closes [op st = <setters> st] once [op] is unfolded: one case per branch of [op] *)
Ltac ftac := repeat (match goal with
  | |- context [if ?c then _ else _] => destruct c
  | |- context [match ?x with Some _ => _ | None => _ end] => destruct x
  end); reflexivity.

Lemma attach_nf d st : fst (attach d st) = set_input_q (attach_inq d st) (set_bad_attach (attach_bad d st) st).
Proof. unfold attach_inq, attach_bad, attach. destruct st; cbn. ftac. Qed.

Lemma detach_nf a st : detach a st =
  set_input_q (detach_inq a st) (set_zombies (detach_zom a st) (set_in_slots (detach_ins a st) st)).
Proof. unfold detach_inq, detach_zom, detach_ins, detach. destruct st; cbn. ftac. Qed.

Lemma release_nf b st : release_blk b st =
  set_zombies (x_zombies (release_blk b st)) (set_in_slots (x_in_slots (release_blk b st)) st).
Proof. unfold release_blk. destruct st; cbn. ftac. Qed.

Lemma fold_release_nf l st : fold_left (fun a b => release_blk b a) l st =
  set_zombies (rel_zom l st) (set_in_slots (rel_ins l st) st).
Proof.
  enough (exists z i, fold_left (fun a b => release_blk b a) l st = set_zombies z (set_in_slots i st)) as (z & i & E)
    by (unfold rel_zom, rel_ins; rewrite E; reflexivity).
  revert st. induction l as [|b l IH]; intro st; cbn [fold_left].
  - exists (x_zombies st), (x_in_slots st). destruct st; reflexivity.
  - destruct (IH (release_blk b st)) as (z & i & E). rewrite E, release_nf. exists z, i. reflexivity.
Qed.

Lemma adv_input_nf lim st : adv_input lim st =
  let pk := pop_input lim (x_input_q st) in
  let st1 := set_head_offs (x_head_offs st + sum_sizes (fst pk)) (set_input_q (snd pk) st) in
  set_zombies (rel_zom (fst pk) st1) (set_in_slots (rel_ins (fst pk) st1) st1).
Proof. unfold adv_input. apply fold_release_nf. Qed.

Lemma adv_jobs_nf cfg st : adv_jobs cfg st =
  let dk := adv_retr (length (x_retr_q st)) (x_head_offs st) (x_retr_q st) in
  set_unords (advj_un cfg st)
    (set_work_units (x_work_units st + N.of_nat (length (fst dk))) (set_retr_q (snd dk) st)).
Proof. unfold advj_un, adv_jobs. destruct st; cbn. ftac. Qed.

Lemma adv_scans_nf st : adv_scans st = set_scan_q (adv_scan (length (x_scan_q st)) (x_head_offs st) (x_scan_q st)) st.
Proof. reflexivity. Qed.

Lemma advance_nf cfg bs st : advance cfg bs st = adv_scans (adv_jobs cfg (adv_input (d_off bs) (set_parser_bs bs st))).
Proof. reflexivity. Qed.

Lemma add_run_nf c st : add_run c st = set_running (c :: x_running st) st.
Proof. reflexivity. Qed.

Lemma give_unit_nf st : give_unit st = set_work_units (x_work_units st + 1) st.
Proof. reflexivity. Qed.

Lemma fail_nf code st : fail code st = set_failed (Some code) st.
Proof. reflexivity. Qed.

(* release_nf stays out of the base: its right-hand side mentions release_blk again *)
#[export] Hint Rewrite advance_nf adv_scans_nf add_run_nf give_unit_nf fail_nf
  attach_nf detach_nf fold_release_nf adv_input_nf adv_jobs_nf : xn.

Lemma x_eof_attach d st : x_eof (fst (attach d st)) = x_eof st. Proof. exact (f_equal _ (attach_nf d st)). Qed.
Lemma x_work_units_attach d st : x_work_units (fst (attach d st)) = x_work_units st. Proof. exact (f_equal _ (attach_nf d st)). Qed.
Lemma x_out_slots_attach d st : x_out_slots (fst (attach d st)) = x_out_slots st. Proof. exact (f_equal _ (attach_nf d st)). Qed.
Lemma x_in_slots_attach d st : x_in_slots (fst (attach d st)) = x_in_slots st. Proof. exact (f_equal _ (attach_nf d st)). Qed.
Lemma x_num_worker_attach d st : x_num_worker (fst (attach d st)) = x_num_worker st. Proof. exact (f_equal _ (attach_nf d st)). Qed.
Lemma x_total_out_attach d st : x_total_out (fst (attach d st)) = x_total_out st. Proof. exact (f_equal _ (attach_nf d st)). Qed.
Lemma x_total_in_attach d st : x_total_in (fst (attach d st)) = x_total_in st. Proof. exact (f_equal _ (attach_nf d st)). Qed.
Lemma x_ultra_attach d st : x_ultra (fst (attach d st)) = x_ultra st. Proof. exact (f_equal _ (attach_nf d st)). Qed.
Lemma x_closed_attach d st : x_closed (fst (attach d st)) = x_closed st. Proof. exact (f_equal _ (attach_nf d st)). Qed.
Lemma x_outq_attach d st : x_outq (fst (attach d st)) = x_outq st. Proof. exact (f_equal _ (attach_nf d st)). Qed.
Lemma x_eof_missing_attach d st : x_eof_missing (fst (attach d st)) = x_eof_missing st. Proof. exact (f_equal _ (attach_nf d st)). Qed.
Lemma x_zombies_attach d st : x_zombies (fst (attach d st)) = x_zombies st. Proof. exact (f_equal _ (attach_nf d st)). Qed.
Lemma x_head_offs_attach d st : x_head_offs (fst (attach d st)) = x_head_offs st. Proof. exact (f_equal _ (attach_nf d st)). Qed.
Lemma x_tail_offs_attach d st : x_tail_offs (fst (attach d st)) = x_tail_offs st. Proof. exact (f_equal _ (attach_nf d st)). Qed.
Lemma x_retr_q_attach d st : x_retr_q (fst (attach d st)) = x_retr_q st. Proof. exact (f_equal _ (attach_nf d st)). Qed.
Lemma x_emit_q_attach d st : x_emit_q (fst (attach d st)) = x_emit_q st. Proof. exact (f_equal _ (attach_nf d st)). Qed.
Lemma x_reord_q_attach d st : x_reord_q (fst (attach d st)) = x_reord_q st. Proof. exact (f_equal _ (attach_nf d st)). Qed.
Lemma x_order_q_attach d st : x_order_q (fst (attach d st)) = x_order_q st. Proof. exact (f_equal _ (attach_nf d st)). Qed.
Lemma x_unords_attach d st : x_unords (fst (attach d st)) = x_unords st. Proof. exact (f_equal _ (attach_nf d st)). Qed.
Lemma x_next_uid_attach d st : x_next_uid (fst (attach d st)) = x_next_uid st. Proof. exact (f_equal _ (attach_nf d st)). Qed.
Lemma x_parse_token_attach d st : x_parse_token (fst (attach d st)) = x_parse_token st. Proof. exact (f_equal _ (attach_nf d st)). Qed.
Lemma x_parsing_done_attach d st : x_parsing_done (fst (attach d st)) = x_parsing_done st. Proof. exact (f_equal _ (attach_nf d st)). Qed.
Lemma x_scan_q_attach d st : x_scan_q (fst (attach d st)) = x_scan_q st. Proof. exact (f_equal _ (attach_nf d st)). Qed.
Lemma x_reord_offs_attach d st : x_reord_offs (fst (attach d st)) = x_reord_offs st. Proof. exact (f_equal _ (attach_nf d st)). Qed.
Lemma x_parser_bs_attach d st : x_parser_bs (fst (attach d st)) = x_parser_bs st. Proof. exact (f_equal _ (attach_nf d st)). Qed.
Lemma x_par_attach d st : x_par (fst (attach d st)) = x_par st. Proof. exact (f_equal _ (attach_nf d st)). Qed.
Lemma x_running_attach d st : x_running (fst (attach d st)) = x_running st. Proof. exact (f_equal _ (attach_nf d st)). Qed.
Lemma x_written_attach d st : x_written (fst (attach d st)) = x_written st. Proof. exact (f_equal _ (attach_nf d st)). Qed.
Lemma x_failed_attach d st : x_failed (fst (attach d st)) = x_failed st. Proof. exact (f_equal _ (attach_nf d st)). Qed.
Lemma x_next_attach d st : x_next (fst (attach d st)) = x_next st. Proof. exact (f_equal _ (attach_nf d st)). Qed.

Lemma x_eof_detach att st : x_eof (detach att st) = x_eof st. Proof. exact (f_equal _ (detach_nf att st)). Qed.
Lemma x_work_units_detach att st : x_work_units (detach att st) = x_work_units st. Proof. exact (f_equal _ (detach_nf att st)). Qed.
Lemma x_out_slots_detach att st : x_out_slots (detach att st) = x_out_slots st. Proof. exact (f_equal _ (detach_nf att st)). Qed.
Lemma x_num_worker_detach att st : x_num_worker (detach att st) = x_num_worker st. Proof. exact (f_equal _ (detach_nf att st)). Qed.
Lemma x_total_out_detach att st : x_total_out (detach att st) = x_total_out st. Proof. exact (f_equal _ (detach_nf att st)). Qed.
Lemma x_total_in_detach att st : x_total_in (detach att st) = x_total_in st. Proof. exact (f_equal _ (detach_nf att st)). Qed.
Lemma x_ultra_detach att st : x_ultra (detach att st) = x_ultra st. Proof. exact (f_equal _ (detach_nf att st)). Qed.
Lemma x_closed_detach att st : x_closed (detach att st) = x_closed st. Proof. exact (f_equal _ (detach_nf att st)). Qed.
Lemma x_outq_detach att st : x_outq (detach att st) = x_outq st. Proof. exact (f_equal _ (detach_nf att st)). Qed.
Lemma x_eof_missing_detach att st : x_eof_missing (detach att st) = x_eof_missing st. Proof. exact (f_equal _ (detach_nf att st)). Qed.
Lemma x_head_offs_detach att st : x_head_offs (detach att st) = x_head_offs st. Proof. exact (f_equal _ (detach_nf att st)). Qed.
Lemma x_tail_offs_detach att st : x_tail_offs (detach att st) = x_tail_offs st. Proof. exact (f_equal _ (detach_nf att st)). Qed.
Lemma x_retr_q_detach att st : x_retr_q (detach att st) = x_retr_q st. Proof. exact (f_equal _ (detach_nf att st)). Qed.
Lemma x_emit_q_detach att st : x_emit_q (detach att st) = x_emit_q st. Proof. exact (f_equal _ (detach_nf att st)). Qed.
Lemma x_reord_q_detach att st : x_reord_q (detach att st) = x_reord_q st. Proof. exact (f_equal _ (detach_nf att st)). Qed.
Lemma x_order_q_detach att st : x_order_q (detach att st) = x_order_q st. Proof. exact (f_equal _ (detach_nf att st)). Qed.
Lemma x_unords_detach att st : x_unords (detach att st) = x_unords st. Proof. exact (f_equal _ (detach_nf att st)). Qed.
Lemma x_next_uid_detach att st : x_next_uid (detach att st) = x_next_uid st. Proof. exact (f_equal _ (detach_nf att st)). Qed.
Lemma x_parse_token_detach att st : x_parse_token (detach att st) = x_parse_token st. Proof. exact (f_equal _ (detach_nf att st)). Qed.
Lemma x_parsing_done_detach att st : x_parsing_done (detach att st) = x_parsing_done st. Proof. exact (f_equal _ (detach_nf att st)). Qed.
Lemma x_scan_q_detach att st : x_scan_q (detach att st) = x_scan_q st. Proof. exact (f_equal _ (detach_nf att st)). Qed.
Lemma x_reord_offs_detach att st : x_reord_offs (detach att st) = x_reord_offs st. Proof. exact (f_equal _ (detach_nf att st)). Qed.
Lemma x_parser_bs_detach att st : x_parser_bs (detach att st) = x_parser_bs st. Proof. exact (f_equal _ (detach_nf att st)). Qed.
Lemma x_par_detach att st : x_par (detach att st) = x_par st. Proof. exact (f_equal _ (detach_nf att st)). Qed.
Lemma x_running_detach att st : x_running (detach att st) = x_running st. Proof. exact (f_equal _ (detach_nf att st)). Qed.
Lemma x_written_detach att st : x_written (detach att st) = x_written st. Proof. exact (f_equal _ (detach_nf att st)). Qed.
Lemma x_failed_detach att st : x_failed (detach att st) = x_failed st. Proof. exact (f_equal _ (detach_nf att st)). Qed.
Lemma x_bad_attach_detach att st : x_bad_attach (detach att st) = x_bad_attach st. Proof. exact (f_equal _ (detach_nf att st)). Qed.
Lemma x_next_detach att st : x_next (detach att st) = x_next st. Proof. exact (f_equal _ (detach_nf att st)). Qed.

Lemma x_eof_release_blk b st : x_eof (release_blk b st) = x_eof st. Proof. exact (f_equal _ (release_nf b st)). Qed.
Lemma x_work_units_release_blk b st : x_work_units (release_blk b st) = x_work_units st. Proof. exact (f_equal _ (release_nf b st)). Qed.
Lemma x_out_slots_release_blk b st : x_out_slots (release_blk b st) = x_out_slots st. Proof. exact (f_equal _ (release_nf b st)). Qed.
Lemma x_num_worker_release_blk b st : x_num_worker (release_blk b st) = x_num_worker st. Proof. exact (f_equal _ (release_nf b st)). Qed.
Lemma x_total_out_release_blk b st : x_total_out (release_blk b st) = x_total_out st. Proof. exact (f_equal _ (release_nf b st)). Qed.
Lemma x_total_in_release_blk b st : x_total_in (release_blk b st) = x_total_in st. Proof. exact (f_equal _ (release_nf b st)). Qed.
Lemma x_ultra_release_blk b st : x_ultra (release_blk b st) = x_ultra st. Proof. exact (f_equal _ (release_nf b st)). Qed.
Lemma x_closed_release_blk b st : x_closed (release_blk b st) = x_closed st. Proof. exact (f_equal _ (release_nf b st)). Qed.
Lemma x_outq_release_blk b st : x_outq (release_blk b st) = x_outq st. Proof. exact (f_equal _ (release_nf b st)). Qed.
Lemma x_eof_missing_release_blk b st : x_eof_missing (release_blk b st) = x_eof_missing st. Proof. exact (f_equal _ (release_nf b st)). Qed.
Lemma x_input_q_release_blk b st : x_input_q (release_blk b st) = x_input_q st. Proof. exact (f_equal _ (release_nf b st)). Qed.
Lemma x_head_offs_release_blk b st : x_head_offs (release_blk b st) = x_head_offs st. Proof. exact (f_equal _ (release_nf b st)). Qed.
Lemma x_tail_offs_release_blk b st : x_tail_offs (release_blk b st) = x_tail_offs st. Proof. exact (f_equal _ (release_nf b st)). Qed.
Lemma x_retr_q_release_blk b st : x_retr_q (release_blk b st) = x_retr_q st. Proof. exact (f_equal _ (release_nf b st)). Qed.
Lemma x_emit_q_release_blk b st : x_emit_q (release_blk b st) = x_emit_q st. Proof. exact (f_equal _ (release_nf b st)). Qed.
Lemma x_reord_q_release_blk b st : x_reord_q (release_blk b st) = x_reord_q st. Proof. exact (f_equal _ (release_nf b st)). Qed.
Lemma x_order_q_release_blk b st : x_order_q (release_blk b st) = x_order_q st. Proof. exact (f_equal _ (release_nf b st)). Qed.
Lemma x_unords_release_blk b st : x_unords (release_blk b st) = x_unords st. Proof. exact (f_equal _ (release_nf b st)). Qed.
Lemma x_next_uid_release_blk b st : x_next_uid (release_blk b st) = x_next_uid st. Proof. exact (f_equal _ (release_nf b st)). Qed.
Lemma x_parse_token_release_blk b st : x_parse_token (release_blk b st) = x_parse_token st. Proof. exact (f_equal _ (release_nf b st)). Qed.
Lemma x_parsing_done_release_blk b st : x_parsing_done (release_blk b st) = x_parsing_done st. Proof. exact (f_equal _ (release_nf b st)). Qed.
Lemma x_scan_q_release_blk b st : x_scan_q (release_blk b st) = x_scan_q st. Proof. exact (f_equal _ (release_nf b st)). Qed.
Lemma x_reord_offs_release_blk b st : x_reord_offs (release_blk b st) = x_reord_offs st. Proof. exact (f_equal _ (release_nf b st)). Qed.
Lemma x_parser_bs_release_blk b st : x_parser_bs (release_blk b st) = x_parser_bs st. Proof. exact (f_equal _ (release_nf b st)). Qed.
Lemma x_par_release_blk b st : x_par (release_blk b st) = x_par st. Proof. exact (f_equal _ (release_nf b st)). Qed.
Lemma x_running_release_blk b st : x_running (release_blk b st) = x_running st. Proof. exact (f_equal _ (release_nf b st)). Qed.
Lemma x_written_release_blk b st : x_written (release_blk b st) = x_written st. Proof. exact (f_equal _ (release_nf b st)). Qed.
Lemma x_failed_release_blk b st : x_failed (release_blk b st) = x_failed st. Proof. exact (f_equal _ (release_nf b st)). Qed.
Lemma x_bad_attach_release_blk b st : x_bad_attach (release_blk b st) = x_bad_attach st. Proof. exact (f_equal _ (release_nf b st)). Qed.
Lemma x_next_release_blk b st : x_next (release_blk b st) = x_next st. Proof. exact (f_equal _ (release_nf b st)). Qed.

Lemma x_eof_fold_release l st : x_eof (fold_left (fun a b => release_blk b a) l st) = x_eof st. Proof. exact (f_equal _ (fold_release_nf l st)). Qed.
Lemma x_work_units_fold_release l st : x_work_units (fold_left (fun a b => release_blk b a) l st) = x_work_units st. Proof. exact (f_equal _ (fold_release_nf l st)). Qed.
Lemma x_out_slots_fold_release l st : x_out_slots (fold_left (fun a b => release_blk b a) l st) = x_out_slots st. Proof. exact (f_equal _ (fold_release_nf l st)). Qed.
Lemma x_num_worker_fold_release l st : x_num_worker (fold_left (fun a b => release_blk b a) l st) = x_num_worker st. Proof. exact (f_equal _ (fold_release_nf l st)). Qed.
Lemma x_total_out_fold_release l st : x_total_out (fold_left (fun a b => release_blk b a) l st) = x_total_out st. Proof. exact (f_equal _ (fold_release_nf l st)). Qed.
Lemma x_total_in_fold_release l st : x_total_in (fold_left (fun a b => release_blk b a) l st) = x_total_in st. Proof. exact (f_equal _ (fold_release_nf l st)). Qed.
Lemma x_ultra_fold_release l st : x_ultra (fold_left (fun a b => release_blk b a) l st) = x_ultra st. Proof. exact (f_equal _ (fold_release_nf l st)). Qed.
Lemma x_closed_fold_release l st : x_closed (fold_left (fun a b => release_blk b a) l st) = x_closed st. Proof. exact (f_equal _ (fold_release_nf l st)). Qed.
Lemma x_outq_fold_release l st : x_outq (fold_left (fun a b => release_blk b a) l st) = x_outq st. Proof. exact (f_equal _ (fold_release_nf l st)). Qed.
Lemma x_eof_missing_fold_release l st : x_eof_missing (fold_left (fun a b => release_blk b a) l st) = x_eof_missing st. Proof. exact (f_equal _ (fold_release_nf l st)). Qed.
Lemma x_input_q_fold_release l st : x_input_q (fold_left (fun a b => release_blk b a) l st) = x_input_q st. Proof. exact (f_equal _ (fold_release_nf l st)). Qed.
Lemma x_head_offs_fold_release l st : x_head_offs (fold_left (fun a b => release_blk b a) l st) = x_head_offs st. Proof. exact (f_equal _ (fold_release_nf l st)). Qed.
Lemma x_tail_offs_fold_release l st : x_tail_offs (fold_left (fun a b => release_blk b a) l st) = x_tail_offs st. Proof. exact (f_equal _ (fold_release_nf l st)). Qed.
Lemma x_retr_q_fold_release l st : x_retr_q (fold_left (fun a b => release_blk b a) l st) = x_retr_q st. Proof. exact (f_equal _ (fold_release_nf l st)). Qed.
Lemma x_emit_q_fold_release l st : x_emit_q (fold_left (fun a b => release_blk b a) l st) = x_emit_q st. Proof. exact (f_equal _ (fold_release_nf l st)). Qed.
Lemma x_reord_q_fold_release l st : x_reord_q (fold_left (fun a b => release_blk b a) l st) = x_reord_q st. Proof. exact (f_equal _ (fold_release_nf l st)). Qed.
Lemma x_order_q_fold_release l st : x_order_q (fold_left (fun a b => release_blk b a) l st) = x_order_q st. Proof. exact (f_equal _ (fold_release_nf l st)). Qed.
Lemma x_unords_fold_release l st : x_unords (fold_left (fun a b => release_blk b a) l st) = x_unords st. Proof. exact (f_equal _ (fold_release_nf l st)). Qed.
Lemma x_next_uid_fold_release l st : x_next_uid (fold_left (fun a b => release_blk b a) l st) = x_next_uid st. Proof. exact (f_equal _ (fold_release_nf l st)). Qed.
Lemma x_parse_token_fold_release l st : x_parse_token (fold_left (fun a b => release_blk b a) l st) = x_parse_token st. Proof. exact (f_equal _ (fold_release_nf l st)). Qed.
Lemma x_parsing_done_fold_release l st : x_parsing_done (fold_left (fun a b => release_blk b a) l st) = x_parsing_done st. Proof. exact (f_equal _ (fold_release_nf l st)). Qed.
Lemma x_scan_q_fold_release l st : x_scan_q (fold_left (fun a b => release_blk b a) l st) = x_scan_q st. Proof. exact (f_equal _ (fold_release_nf l st)). Qed.
Lemma x_reord_offs_fold_release l st : x_reord_offs (fold_left (fun a b => release_blk b a) l st) = x_reord_offs st. Proof. exact (f_equal _ (fold_release_nf l st)). Qed.
Lemma x_parser_bs_fold_release l st : x_parser_bs (fold_left (fun a b => release_blk b a) l st) = x_parser_bs st. Proof. exact (f_equal _ (fold_release_nf l st)). Qed.
Lemma x_par_fold_release l st : x_par (fold_left (fun a b => release_blk b a) l st) = x_par st. Proof. exact (f_equal _ (fold_release_nf l st)). Qed.
Lemma x_running_fold_release l st : x_running (fold_left (fun a b => release_blk b a) l st) = x_running st. Proof. exact (f_equal _ (fold_release_nf l st)). Qed.
Lemma x_written_fold_release l st : x_written (fold_left (fun a b => release_blk b a) l st) = x_written st. Proof. exact (f_equal _ (fold_release_nf l st)). Qed.
Lemma x_failed_fold_release l st : x_failed (fold_left (fun a b => release_blk b a) l st) = x_failed st. Proof. exact (f_equal _ (fold_release_nf l st)). Qed.
Lemma x_bad_attach_fold_release l st : x_bad_attach (fold_left (fun a b => release_blk b a) l st) = x_bad_attach st. Proof. exact (f_equal _ (fold_release_nf l st)). Qed.
Lemma x_next_fold_release l st : x_next (fold_left (fun a b => release_blk b a) l st) = x_next st. Proof. exact (f_equal _ (fold_release_nf l st)). Qed.

Lemma x_eof_adv_input lim st : x_eof (adv_input lim st) = x_eof st. Proof. exact (f_equal _ (adv_input_nf lim st)). Qed.
Lemma x_work_units_adv_input lim st : x_work_units (adv_input lim st) = x_work_units st. Proof. exact (f_equal _ (adv_input_nf lim st)). Qed.
Lemma x_out_slots_adv_input lim st : x_out_slots (adv_input lim st) = x_out_slots st. Proof. exact (f_equal _ (adv_input_nf lim st)). Qed.
Lemma x_num_worker_adv_input lim st : x_num_worker (adv_input lim st) = x_num_worker st. Proof. exact (f_equal _ (adv_input_nf lim st)). Qed.
Lemma x_total_out_adv_input lim st : x_total_out (adv_input lim st) = x_total_out st. Proof. exact (f_equal _ (adv_input_nf lim st)). Qed.
Lemma x_total_in_adv_input lim st : x_total_in (adv_input lim st) = x_total_in st. Proof. exact (f_equal _ (adv_input_nf lim st)). Qed.
Lemma x_ultra_adv_input lim st : x_ultra (adv_input lim st) = x_ultra st. Proof. exact (f_equal _ (adv_input_nf lim st)). Qed.
Lemma x_closed_adv_input lim st : x_closed (adv_input lim st) = x_closed st. Proof. exact (f_equal _ (adv_input_nf lim st)). Qed.
Lemma x_outq_adv_input lim st : x_outq (adv_input lim st) = x_outq st. Proof. exact (f_equal _ (adv_input_nf lim st)). Qed.
Lemma x_eof_missing_adv_input lim st : x_eof_missing (adv_input lim st) = x_eof_missing st. Proof. exact (f_equal _ (adv_input_nf lim st)). Qed.
Lemma x_tail_offs_adv_input lim st : x_tail_offs (adv_input lim st) = x_tail_offs st. Proof. exact (f_equal _ (adv_input_nf lim st)). Qed.
Lemma x_retr_q_adv_input lim st : x_retr_q (adv_input lim st) = x_retr_q st. Proof. exact (f_equal _ (adv_input_nf lim st)). Qed.
Lemma x_emit_q_adv_input lim st : x_emit_q (adv_input lim st) = x_emit_q st. Proof. exact (f_equal _ (adv_input_nf lim st)). Qed.
Lemma x_reord_q_adv_input lim st : x_reord_q (adv_input lim st) = x_reord_q st. Proof. exact (f_equal _ (adv_input_nf lim st)). Qed.
Lemma x_order_q_adv_input lim st : x_order_q (adv_input lim st) = x_order_q st. Proof. exact (f_equal _ (adv_input_nf lim st)). Qed.
Lemma x_unords_adv_input lim st : x_unords (adv_input lim st) = x_unords st. Proof. exact (f_equal _ (adv_input_nf lim st)). Qed.
Lemma x_next_uid_adv_input lim st : x_next_uid (adv_input lim st) = x_next_uid st. Proof. exact (f_equal _ (adv_input_nf lim st)). Qed.
Lemma x_parse_token_adv_input lim st : x_parse_token (adv_input lim st) = x_parse_token st. Proof. exact (f_equal _ (adv_input_nf lim st)). Qed.
Lemma x_parsing_done_adv_input lim st : x_parsing_done (adv_input lim st) = x_parsing_done st. Proof. exact (f_equal _ (adv_input_nf lim st)). Qed.
Lemma x_scan_q_adv_input lim st : x_scan_q (adv_input lim st) = x_scan_q st. Proof. exact (f_equal _ (adv_input_nf lim st)). Qed.
Lemma x_reord_offs_adv_input lim st : x_reord_offs (adv_input lim st) = x_reord_offs st. Proof. exact (f_equal _ (adv_input_nf lim st)). Qed.
Lemma x_parser_bs_adv_input lim st : x_parser_bs (adv_input lim st) = x_parser_bs st. Proof. exact (f_equal _ (adv_input_nf lim st)). Qed.
Lemma x_par_adv_input lim st : x_par (adv_input lim st) = x_par st. Proof. exact (f_equal _ (adv_input_nf lim st)). Qed.
Lemma x_running_adv_input lim st : x_running (adv_input lim st) = x_running st. Proof. exact (f_equal _ (adv_input_nf lim st)). Qed.
Lemma x_written_adv_input lim st : x_written (adv_input lim st) = x_written st. Proof. exact (f_equal _ (adv_input_nf lim st)). Qed.
Lemma x_failed_adv_input lim st : x_failed (adv_input lim st) = x_failed st. Proof. exact (f_equal _ (adv_input_nf lim st)). Qed.
Lemma x_bad_attach_adv_input lim st : x_bad_attach (adv_input lim st) = x_bad_attach st. Proof. exact (f_equal _ (adv_input_nf lim st)). Qed.
Lemma x_next_adv_input lim st : x_next (adv_input lim st) = x_next st. Proof. exact (f_equal _ (adv_input_nf lim st)). Qed.

Lemma x_eof_adv_jobs cfg st : x_eof (adv_jobs cfg st) = x_eof st. Proof. exact (f_equal _ (adv_jobs_nf cfg st)). Qed.
Lemma x_out_slots_adv_jobs cfg st : x_out_slots (adv_jobs cfg st) = x_out_slots st. Proof. exact (f_equal _ (adv_jobs_nf cfg st)). Qed.
Lemma x_in_slots_adv_jobs cfg st : x_in_slots (adv_jobs cfg st) = x_in_slots st. Proof. exact (f_equal _ (adv_jobs_nf cfg st)). Qed.
Lemma x_num_worker_adv_jobs cfg st : x_num_worker (adv_jobs cfg st) = x_num_worker st. Proof. exact (f_equal _ (adv_jobs_nf cfg st)). Qed.
Lemma x_total_out_adv_jobs cfg st : x_total_out (adv_jobs cfg st) = x_total_out st. Proof. exact (f_equal _ (adv_jobs_nf cfg st)). Qed.
Lemma x_total_in_adv_jobs cfg st : x_total_in (adv_jobs cfg st) = x_total_in st. Proof. exact (f_equal _ (adv_jobs_nf cfg st)). Qed.
Lemma x_ultra_adv_jobs cfg st : x_ultra (adv_jobs cfg st) = x_ultra st. Proof. exact (f_equal _ (adv_jobs_nf cfg st)). Qed.
Lemma x_closed_adv_jobs cfg st : x_closed (adv_jobs cfg st) = x_closed st. Proof. exact (f_equal _ (adv_jobs_nf cfg st)). Qed.
Lemma x_outq_adv_jobs cfg st : x_outq (adv_jobs cfg st) = x_outq st. Proof. exact (f_equal _ (adv_jobs_nf cfg st)). Qed.
Lemma x_eof_missing_adv_jobs cfg st : x_eof_missing (adv_jobs cfg st) = x_eof_missing st. Proof. exact (f_equal _ (adv_jobs_nf cfg st)). Qed.
Lemma x_input_q_adv_jobs cfg st : x_input_q (adv_jobs cfg st) = x_input_q st. Proof. exact (f_equal _ (adv_jobs_nf cfg st)). Qed.
Lemma x_zombies_adv_jobs cfg st : x_zombies (adv_jobs cfg st) = x_zombies st. Proof. exact (f_equal _ (adv_jobs_nf cfg st)). Qed.
Lemma x_head_offs_adv_jobs cfg st : x_head_offs (adv_jobs cfg st) = x_head_offs st. Proof. exact (f_equal _ (adv_jobs_nf cfg st)). Qed.
Lemma x_tail_offs_adv_jobs cfg st : x_tail_offs (adv_jobs cfg st) = x_tail_offs st. Proof. exact (f_equal _ (adv_jobs_nf cfg st)). Qed.
Lemma x_emit_q_adv_jobs cfg st : x_emit_q (adv_jobs cfg st) = x_emit_q st. Proof. exact (f_equal _ (adv_jobs_nf cfg st)). Qed.
Lemma x_reord_q_adv_jobs cfg st : x_reord_q (adv_jobs cfg st) = x_reord_q st. Proof. exact (f_equal _ (adv_jobs_nf cfg st)). Qed.
Lemma x_order_q_adv_jobs cfg st : x_order_q (adv_jobs cfg st) = x_order_q st. Proof. exact (f_equal _ (adv_jobs_nf cfg st)). Qed.
Lemma x_next_uid_adv_jobs cfg st : x_next_uid (adv_jobs cfg st) = x_next_uid st. Proof. exact (f_equal _ (adv_jobs_nf cfg st)). Qed.
Lemma x_parse_token_adv_jobs cfg st : x_parse_token (adv_jobs cfg st) = x_parse_token st. Proof. exact (f_equal _ (adv_jobs_nf cfg st)). Qed.
Lemma x_parsing_done_adv_jobs cfg st : x_parsing_done (adv_jobs cfg st) = x_parsing_done st. Proof. exact (f_equal _ (adv_jobs_nf cfg st)). Qed.
Lemma x_scan_q_adv_jobs cfg st : x_scan_q (adv_jobs cfg st) = x_scan_q st. Proof. exact (f_equal _ (adv_jobs_nf cfg st)). Qed.
Lemma x_reord_offs_adv_jobs cfg st : x_reord_offs (adv_jobs cfg st) = x_reord_offs st. Proof. exact (f_equal _ (adv_jobs_nf cfg st)). Qed.
Lemma x_parser_bs_adv_jobs cfg st : x_parser_bs (adv_jobs cfg st) = x_parser_bs st. Proof. exact (f_equal _ (adv_jobs_nf cfg st)). Qed.
Lemma x_par_adv_jobs cfg st : x_par (adv_jobs cfg st) = x_par st. Proof. exact (f_equal _ (adv_jobs_nf cfg st)). Qed.
Lemma x_running_adv_jobs cfg st : x_running (adv_jobs cfg st) = x_running st. Proof. exact (f_equal _ (adv_jobs_nf cfg st)). Qed.
Lemma x_written_adv_jobs cfg st : x_written (adv_jobs cfg st) = x_written st. Proof. exact (f_equal _ (adv_jobs_nf cfg st)). Qed.
Lemma x_failed_adv_jobs cfg st : x_failed (adv_jobs cfg st) = x_failed st. Proof. exact (f_equal _ (adv_jobs_nf cfg st)). Qed.
Lemma x_bad_attach_adv_jobs cfg st : x_bad_attach (adv_jobs cfg st) = x_bad_attach st. Proof. exact (f_equal _ (adv_jobs_nf cfg st)). Qed.
Lemma x_next_adv_jobs cfg st : x_next (adv_jobs cfg st) = x_next st. Proof. exact (f_equal _ (adv_jobs_nf cfg st)). Qed.

Lemma x_eof_adv_scans st : x_eof (adv_scans st) = x_eof st. Proof. reflexivity. Qed.
Lemma x_work_units_adv_scans st : x_work_units (adv_scans st) = x_work_units st. Proof. reflexivity. Qed.
Lemma x_out_slots_adv_scans st : x_out_slots (adv_scans st) = x_out_slots st. Proof. reflexivity. Qed.
Lemma x_in_slots_adv_scans st : x_in_slots (adv_scans st) = x_in_slots st. Proof. reflexivity. Qed.
Lemma x_num_worker_adv_scans st : x_num_worker (adv_scans st) = x_num_worker st. Proof. reflexivity. Qed.
Lemma x_total_out_adv_scans st : x_total_out (adv_scans st) = x_total_out st. Proof. reflexivity. Qed.
Lemma x_total_in_adv_scans st : x_total_in (adv_scans st) = x_total_in st. Proof. reflexivity. Qed.
Lemma x_ultra_adv_scans st : x_ultra (adv_scans st) = x_ultra st. Proof. reflexivity. Qed.
Lemma x_closed_adv_scans st : x_closed (adv_scans st) = x_closed st. Proof. reflexivity. Qed.
Lemma x_outq_adv_scans st : x_outq (adv_scans st) = x_outq st. Proof. reflexivity. Qed.
Lemma x_eof_missing_adv_scans st : x_eof_missing (adv_scans st) = x_eof_missing st. Proof. reflexivity. Qed.
Lemma x_input_q_adv_scans st : x_input_q (adv_scans st) = x_input_q st. Proof. reflexivity. Qed.
Lemma x_zombies_adv_scans st : x_zombies (adv_scans st) = x_zombies st. Proof. reflexivity. Qed.
Lemma x_head_offs_adv_scans st : x_head_offs (adv_scans st) = x_head_offs st. Proof. reflexivity. Qed.
Lemma x_tail_offs_adv_scans st : x_tail_offs (adv_scans st) = x_tail_offs st. Proof. reflexivity. Qed.
Lemma x_retr_q_adv_scans st : x_retr_q (adv_scans st) = x_retr_q st. Proof. reflexivity. Qed.
Lemma x_emit_q_adv_scans st : x_emit_q (adv_scans st) = x_emit_q st. Proof. reflexivity. Qed.
Lemma x_reord_q_adv_scans st : x_reord_q (adv_scans st) = x_reord_q st. Proof. reflexivity. Qed.
Lemma x_order_q_adv_scans st : x_order_q (adv_scans st) = x_order_q st. Proof. reflexivity. Qed.
Lemma x_unords_adv_scans st : x_unords (adv_scans st) = x_unords st. Proof. reflexivity. Qed.
Lemma x_next_uid_adv_scans st : x_next_uid (adv_scans st) = x_next_uid st. Proof. reflexivity. Qed.
Lemma x_parse_token_adv_scans st : x_parse_token (adv_scans st) = x_parse_token st. Proof. reflexivity. Qed.
Lemma x_parsing_done_adv_scans st : x_parsing_done (adv_scans st) = x_parsing_done st. Proof. reflexivity. Qed.
Lemma x_reord_offs_adv_scans st : x_reord_offs (adv_scans st) = x_reord_offs st. Proof. reflexivity. Qed.
Lemma x_parser_bs_adv_scans st : x_parser_bs (adv_scans st) = x_parser_bs st. Proof. reflexivity. Qed.
Lemma x_par_adv_scans st : x_par (adv_scans st) = x_par st. Proof. reflexivity. Qed.
Lemma x_running_adv_scans st : x_running (adv_scans st) = x_running st. Proof. reflexivity. Qed.
Lemma x_written_adv_scans st : x_written (adv_scans st) = x_written st. Proof. reflexivity. Qed.
Lemma x_failed_adv_scans st : x_failed (adv_scans st) = x_failed st. Proof. reflexivity. Qed.
Lemma x_bad_attach_adv_scans st : x_bad_attach (adv_scans st) = x_bad_attach st. Proof. reflexivity. Qed.
Lemma x_next_adv_scans st : x_next (adv_scans st) = x_next st. Proof. reflexivity. Qed.

Lemma x_eof_advance cfg bs st : x_eof (advance cfg bs st) = x_eof st. Proof. rewrite advance_nf, adv_jobs_nf, adv_input_nf. reflexivity. Qed.
Lemma x_out_slots_advance cfg bs st : x_out_slots (advance cfg bs st) = x_out_slots st. Proof. rewrite advance_nf, adv_jobs_nf, adv_input_nf. reflexivity. Qed.
Lemma x_num_worker_advance cfg bs st : x_num_worker (advance cfg bs st) = x_num_worker st. Proof. rewrite advance_nf, adv_jobs_nf, adv_input_nf. reflexivity. Qed.
Lemma x_total_out_advance cfg bs st : x_total_out (advance cfg bs st) = x_total_out st. Proof. rewrite advance_nf, adv_jobs_nf, adv_input_nf. reflexivity. Qed.
Lemma x_total_in_advance cfg bs st : x_total_in (advance cfg bs st) = x_total_in st. Proof. rewrite advance_nf, adv_jobs_nf, adv_input_nf. reflexivity. Qed.
Lemma x_ultra_advance cfg bs st : x_ultra (advance cfg bs st) = x_ultra st. Proof. rewrite advance_nf, adv_jobs_nf, adv_input_nf. reflexivity. Qed.
Lemma x_closed_advance cfg bs st : x_closed (advance cfg bs st) = x_closed st. Proof. rewrite advance_nf, adv_jobs_nf, adv_input_nf. reflexivity. Qed.
Lemma x_outq_advance cfg bs st : x_outq (advance cfg bs st) = x_outq st. Proof. rewrite advance_nf, adv_jobs_nf, adv_input_nf. reflexivity. Qed.
Lemma x_eof_missing_advance cfg bs st : x_eof_missing (advance cfg bs st) = x_eof_missing st. Proof. rewrite advance_nf, adv_jobs_nf, adv_input_nf. reflexivity. Qed.
Lemma x_tail_offs_advance cfg bs st : x_tail_offs (advance cfg bs st) = x_tail_offs st. Proof. rewrite advance_nf, adv_jobs_nf, adv_input_nf. reflexivity. Qed.
Lemma x_emit_q_advance cfg bs st : x_emit_q (advance cfg bs st) = x_emit_q st. Proof. rewrite advance_nf, adv_jobs_nf, adv_input_nf. reflexivity. Qed.
Lemma x_reord_q_advance cfg bs st : x_reord_q (advance cfg bs st) = x_reord_q st. Proof. rewrite advance_nf, adv_jobs_nf, adv_input_nf. reflexivity. Qed.
Lemma x_order_q_advance cfg bs st : x_order_q (advance cfg bs st) = x_order_q st. Proof. rewrite advance_nf, adv_jobs_nf, adv_input_nf. reflexivity. Qed.
Lemma x_next_uid_advance cfg bs st : x_next_uid (advance cfg bs st) = x_next_uid st. Proof. rewrite advance_nf, adv_jobs_nf, adv_input_nf. reflexivity. Qed.
Lemma x_parse_token_advance cfg bs st : x_parse_token (advance cfg bs st) = x_parse_token st. Proof. rewrite advance_nf, adv_jobs_nf, adv_input_nf. reflexivity. Qed.
Lemma x_parsing_done_advance cfg bs st : x_parsing_done (advance cfg bs st) = x_parsing_done st. Proof. rewrite advance_nf, adv_jobs_nf, adv_input_nf. reflexivity. Qed.
Lemma x_reord_offs_advance cfg bs st : x_reord_offs (advance cfg bs st) = x_reord_offs st. Proof. rewrite advance_nf, adv_jobs_nf, adv_input_nf. reflexivity. Qed.
Lemma x_par_advance cfg bs st : x_par (advance cfg bs st) = x_par st. Proof. rewrite advance_nf, adv_jobs_nf, adv_input_nf. reflexivity. Qed.
Lemma x_running_advance cfg bs st : x_running (advance cfg bs st) = x_running st. Proof. rewrite advance_nf, adv_jobs_nf, adv_input_nf. reflexivity. Qed.
Lemma x_written_advance cfg bs st : x_written (advance cfg bs st) = x_written st. Proof. rewrite advance_nf, adv_jobs_nf, adv_input_nf. reflexivity. Qed.
Lemma x_failed_advance cfg bs st : x_failed (advance cfg bs st) = x_failed st. Proof. rewrite advance_nf, adv_jobs_nf, adv_input_nf. reflexivity. Qed.
Lemma x_bad_attach_advance cfg bs st : x_bad_attach (advance cfg bs st) = x_bad_attach st. Proof. rewrite advance_nf, adv_jobs_nf, adv_input_nf. reflexivity. Qed.
Lemma x_next_advance cfg bs st : x_next (advance cfg bs st) = x_next st. Proof. rewrite advance_nf, adv_jobs_nf, adv_input_nf. reflexivity. Qed.

Lemma x_eof_add_run c st : x_eof (add_run c st) = x_eof st. Proof. reflexivity. Qed.
Lemma x_work_units_add_run c st : x_work_units (add_run c st) = x_work_units st. Proof. reflexivity. Qed.
Lemma x_out_slots_add_run c st : x_out_slots (add_run c st) = x_out_slots st. Proof. reflexivity. Qed.
Lemma x_in_slots_add_run c st : x_in_slots (add_run c st) = x_in_slots st. Proof. reflexivity. Qed.
Lemma x_num_worker_add_run c st : x_num_worker (add_run c st) = x_num_worker st. Proof. reflexivity. Qed.
Lemma x_total_out_add_run c st : x_total_out (add_run c st) = x_total_out st. Proof. reflexivity. Qed.
Lemma x_total_in_add_run c st : x_total_in (add_run c st) = x_total_in st. Proof. reflexivity. Qed.
Lemma x_ultra_add_run c st : x_ultra (add_run c st) = x_ultra st. Proof. reflexivity. Qed.
Lemma x_closed_add_run c st : x_closed (add_run c st) = x_closed st. Proof. reflexivity. Qed.
Lemma x_outq_add_run c st : x_outq (add_run c st) = x_outq st. Proof. reflexivity. Qed.
Lemma x_eof_missing_add_run c st : x_eof_missing (add_run c st) = x_eof_missing st. Proof. reflexivity. Qed.
Lemma x_input_q_add_run c st : x_input_q (add_run c st) = x_input_q st. Proof. reflexivity. Qed.
Lemma x_zombies_add_run c st : x_zombies (add_run c st) = x_zombies st. Proof. reflexivity. Qed.
Lemma x_head_offs_add_run c st : x_head_offs (add_run c st) = x_head_offs st. Proof. reflexivity. Qed.
Lemma x_tail_offs_add_run c st : x_tail_offs (add_run c st) = x_tail_offs st. Proof. reflexivity. Qed.
Lemma x_retr_q_add_run c st : x_retr_q (add_run c st) = x_retr_q st. Proof. reflexivity. Qed.
Lemma x_emit_q_add_run c st : x_emit_q (add_run c st) = x_emit_q st. Proof. reflexivity. Qed.
Lemma x_reord_q_add_run c st : x_reord_q (add_run c st) = x_reord_q st. Proof. reflexivity. Qed.
Lemma x_order_q_add_run c st : x_order_q (add_run c st) = x_order_q st. Proof. reflexivity. Qed.
Lemma x_unords_add_run c st : x_unords (add_run c st) = x_unords st. Proof. reflexivity. Qed.
Lemma x_next_uid_add_run c st : x_next_uid (add_run c st) = x_next_uid st. Proof. reflexivity. Qed.
Lemma x_parse_token_add_run c st : x_parse_token (add_run c st) = x_parse_token st. Proof. reflexivity. Qed.
Lemma x_parsing_done_add_run c st : x_parsing_done (add_run c st) = x_parsing_done st. Proof. reflexivity. Qed.
Lemma x_scan_q_add_run c st : x_scan_q (add_run c st) = x_scan_q st. Proof. reflexivity. Qed.
Lemma x_reord_offs_add_run c st : x_reord_offs (add_run c st) = x_reord_offs st. Proof. reflexivity. Qed.
Lemma x_parser_bs_add_run c st : x_parser_bs (add_run c st) = x_parser_bs st. Proof. reflexivity. Qed.
Lemma x_par_add_run c st : x_par (add_run c st) = x_par st. Proof. reflexivity. Qed.
Lemma x_written_add_run c st : x_written (add_run c st) = x_written st. Proof. reflexivity. Qed.
Lemma x_failed_add_run c st : x_failed (add_run c st) = x_failed st. Proof. reflexivity. Qed.
Lemma x_bad_attach_add_run c st : x_bad_attach (add_run c st) = x_bad_attach st. Proof. reflexivity. Qed.
Lemma x_next_add_run c st : x_next (add_run c st) = x_next st. Proof. reflexivity. Qed.

Lemma x_eof_give_unit st : x_eof (give_unit st) = x_eof st. Proof. reflexivity. Qed.
Lemma x_out_slots_give_unit st : x_out_slots (give_unit st) = x_out_slots st. Proof. reflexivity. Qed.
Lemma x_in_slots_give_unit st : x_in_slots (give_unit st) = x_in_slots st. Proof. reflexivity. Qed.
Lemma x_num_worker_give_unit st : x_num_worker (give_unit st) = x_num_worker st. Proof. reflexivity. Qed.
Lemma x_total_out_give_unit st : x_total_out (give_unit st) = x_total_out st. Proof. reflexivity. Qed.
Lemma x_total_in_give_unit st : x_total_in (give_unit st) = x_total_in st. Proof. reflexivity. Qed.
Lemma x_ultra_give_unit st : x_ultra (give_unit st) = x_ultra st. Proof. reflexivity. Qed.
Lemma x_closed_give_unit st : x_closed (give_unit st) = x_closed st. Proof. reflexivity. Qed.
Lemma x_outq_give_unit st : x_outq (give_unit st) = x_outq st. Proof. reflexivity. Qed.
Lemma x_eof_missing_give_unit st : x_eof_missing (give_unit st) = x_eof_missing st. Proof. reflexivity. Qed.
Lemma x_input_q_give_unit st : x_input_q (give_unit st) = x_input_q st. Proof. reflexivity. Qed.
Lemma x_zombies_give_unit st : x_zombies (give_unit st) = x_zombies st. Proof. reflexivity. Qed.
Lemma x_head_offs_give_unit st : x_head_offs (give_unit st) = x_head_offs st. Proof. reflexivity. Qed.
Lemma x_tail_offs_give_unit st : x_tail_offs (give_unit st) = x_tail_offs st. Proof. reflexivity. Qed.
Lemma x_retr_q_give_unit st : x_retr_q (give_unit st) = x_retr_q st. Proof. reflexivity. Qed.
Lemma x_emit_q_give_unit st : x_emit_q (give_unit st) = x_emit_q st. Proof. reflexivity. Qed.
Lemma x_reord_q_give_unit st : x_reord_q (give_unit st) = x_reord_q st. Proof. reflexivity. Qed.
Lemma x_order_q_give_unit st : x_order_q (give_unit st) = x_order_q st. Proof. reflexivity. Qed.
Lemma x_unords_give_unit st : x_unords (give_unit st) = x_unords st. Proof. reflexivity. Qed.
Lemma x_next_uid_give_unit st : x_next_uid (give_unit st) = x_next_uid st. Proof. reflexivity. Qed.
Lemma x_parse_token_give_unit st : x_parse_token (give_unit st) = x_parse_token st. Proof. reflexivity. Qed.
Lemma x_parsing_done_give_unit st : x_parsing_done (give_unit st) = x_parsing_done st. Proof. reflexivity. Qed.
Lemma x_scan_q_give_unit st : x_scan_q (give_unit st) = x_scan_q st. Proof. reflexivity. Qed.
Lemma x_reord_offs_give_unit st : x_reord_offs (give_unit st) = x_reord_offs st. Proof. reflexivity. Qed.
Lemma x_parser_bs_give_unit st : x_parser_bs (give_unit st) = x_parser_bs st. Proof. reflexivity. Qed.
Lemma x_par_give_unit st : x_par (give_unit st) = x_par st. Proof. reflexivity. Qed.
Lemma x_running_give_unit st : x_running (give_unit st) = x_running st. Proof. reflexivity. Qed.
Lemma x_written_give_unit st : x_written (give_unit st) = x_written st. Proof. reflexivity. Qed.
Lemma x_failed_give_unit st : x_failed (give_unit st) = x_failed st. Proof. reflexivity. Qed.
Lemma x_bad_attach_give_unit st : x_bad_attach (give_unit st) = x_bad_attach st. Proof. reflexivity. Qed.
Lemma x_next_give_unit st : x_next (give_unit st) = x_next st. Proof. reflexivity. Qed.

Lemma x_eof_fail code st : x_eof (fail code st) = x_eof st. Proof. reflexivity. Qed.
Lemma x_work_units_fail code st : x_work_units (fail code st) = x_work_units st. Proof. reflexivity. Qed.
Lemma x_out_slots_fail code st : x_out_slots (fail code st) = x_out_slots st. Proof. reflexivity. Qed.
Lemma x_in_slots_fail code st : x_in_slots (fail code st) = x_in_slots st. Proof. reflexivity. Qed.
Lemma x_num_worker_fail code st : x_num_worker (fail code st) = x_num_worker st. Proof. reflexivity. Qed.
Lemma x_total_out_fail code st : x_total_out (fail code st) = x_total_out st. Proof. reflexivity. Qed.
Lemma x_total_in_fail code st : x_total_in (fail code st) = x_total_in st. Proof. reflexivity. Qed.
Lemma x_ultra_fail code st : x_ultra (fail code st) = x_ultra st. Proof. reflexivity. Qed.
Lemma x_closed_fail code st : x_closed (fail code st) = x_closed st. Proof. reflexivity. Qed.
Lemma x_outq_fail code st : x_outq (fail code st) = x_outq st. Proof. reflexivity. Qed.
Lemma x_eof_missing_fail code st : x_eof_missing (fail code st) = x_eof_missing st. Proof. reflexivity. Qed.
Lemma x_input_q_fail code st : x_input_q (fail code st) = x_input_q st. Proof. reflexivity. Qed.
Lemma x_zombies_fail code st : x_zombies (fail code st) = x_zombies st. Proof. reflexivity. Qed.
Lemma x_head_offs_fail code st : x_head_offs (fail code st) = x_head_offs st. Proof. reflexivity. Qed.
Lemma x_tail_offs_fail code st : x_tail_offs (fail code st) = x_tail_offs st. Proof. reflexivity. Qed.
Lemma x_retr_q_fail code st : x_retr_q (fail code st) = x_retr_q st. Proof. reflexivity. Qed.
Lemma x_emit_q_fail code st : x_emit_q (fail code st) = x_emit_q st. Proof. reflexivity. Qed.
Lemma x_reord_q_fail code st : x_reord_q (fail code st) = x_reord_q st. Proof. reflexivity. Qed.
Lemma x_order_q_fail code st : x_order_q (fail code st) = x_order_q st. Proof. reflexivity. Qed.
Lemma x_unords_fail code st : x_unords (fail code st) = x_unords st. Proof. reflexivity. Qed.
Lemma x_next_uid_fail code st : x_next_uid (fail code st) = x_next_uid st. Proof. reflexivity. Qed.
Lemma x_parse_token_fail code st : x_parse_token (fail code st) = x_parse_token st. Proof. reflexivity. Qed.
Lemma x_parsing_done_fail code st : x_parsing_done (fail code st) = x_parsing_done st. Proof. reflexivity. Qed.
Lemma x_scan_q_fail code st : x_scan_q (fail code st) = x_scan_q st. Proof. reflexivity. Qed.
Lemma x_reord_offs_fail code st : x_reord_offs (fail code st) = x_reord_offs st. Proof. reflexivity. Qed.
Lemma x_parser_bs_fail code st : x_parser_bs (fail code st) = x_parser_bs st. Proof. reflexivity. Qed.
Lemma x_par_fail code st : x_par (fail code st) = x_par st. Proof. reflexivity. Qed.
Lemma x_running_fail code st : x_running (fail code st) = x_running st. Proof. reflexivity. Qed.
Lemma x_written_fail code st : x_written (fail code st) = x_written st. Proof. reflexivity. Qed.
Lemma x_bad_attach_fail code st : x_bad_attach (fail code st) = x_bad_attach st. Proof. reflexivity. Qed.
Lemma x_next_fail code st : x_next (fail code st) = x_next st. Proof. reflexivity. Qed.

