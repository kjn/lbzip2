(* Liveness of the decompression scheduler: the invariant [lld] (XLiveDefs.v).

   The lines (retrieve jobs, emit-stage jobs, last buffers) have pairwise distinct bit
   positions, the queued candidates have pairwise distinct bases, every line beyond the
   parser has its candidate in unord_q, and a queued candidate that is complete is not
   linked by a retrieve job.

   The proof works on a predicate [LL] over the lists the invariant looks at (jobs, lines,
   bits, unord store, parser position, parsing_done) so that the list reasoning is done once:
     LL_mono    lines / bits / links shrink (multiset-wise), the parser moves forward
     LL_upd     a field of one unord record changes
     LL_del     a record outside unord_q is freed
     LL_drop(s) drop_unord_link() of a job that leaves the job list
   [LLs_advance] is advance(); the events start from the inversion lemmas of XStep.v, do_retrieve
   from [lld_retr1_tail]. *)
From Coq Require Import List NArith Bool Lia Arith ZifyBool ZifyN ZifyNat Sorted.
From LBZ Require Import Gen.Consts SchedX.XState Gen.SchedXTab SchedX.XSet SchedX.XModel SchedX.XLemmas
  SchedX.XFrame SchedX.XInvDefs SchedX.XOps SchedX.XInv SchedX.XInv2 SchedX.XInv3 SchedX.XInv4 SchedX.XOracle
  SchedX.XSeq SchedX.XCount SchedX.XOwn SchedX.XOwnAdv SchedX.XOwnRetr SchedX.XOwnProofs SchedX.XLiveDefs.
Import ListNotations.
Local Open Scope N_scope.

Definition occ (b : N) (l : list N) : nat := length (filter (N.eqb b) l).

Lemma occ_app b l1 l2 : occ b (l1 ++ l2) = (occ b l1 + occ b l2)%nat.
Proof. unfold occ. rewrite filter_app, app_length. reflexivity. Qed.

Lemma occ_cons b a l : occ b (a :: l) = ((if (b =? a)%N then 1 else 0) + occ b l)%nat.
Proof. unfold occ. simpl. destruct (b =? a); reflexivity. Qed.

Lemma occ_nil b : occ b [] = 0%nat.
Proof. reflexivity. Qed.

Lemma occ_map {A} (f : A -> N) b l : occ b (map f l) = length (filter (fun x => b =? f x) l).
Proof. unfold occ. induction l as [|a r IH]; simpl; auto. destruct (b =? f a); simpl; auto. Qed.

Lemma occ_In b l : In b l <-> (1 <= occ b l)%nat.
Proof.
  unfold occ. rewrite filter_len_pos. split.
  - intro H. exists b. split; auto. apply N.eqb_refl.
  - intros (x & Hx & E). apply N.eqb_eq in E. subst. auto.
Qed.

Lemma nodup_occ l : NoDup l <-> forall b, (occ b l <= 1)%nat.
Proof.
  split.
  - induction 1 as [|x l H N IH]; intro b; [rewrite occ_nil; lia|]. rewrite occ_cons. destruct (b =? x) eqn:E.
    + apply N.eqb_eq in E. subst b. assert (Z : ~ (1 <= occ x l)%nat) by (rewrite <- occ_In; exact H). lia.
    + specialize (IH b). lia.
  - induction l as [|a l IH]; intro H; constructor.
    + intro Hin. apply occ_In in Hin. specialize (H a). rewrite occ_cons, N.eqb_refl in H. lia.
    + apply IH. intro b. specialize (H b). rewrite occ_cons in H. lia.
Qed.

Lemma occ_incl l l' : (forall b, (occ b l' <= occ b l)%nat) -> forall b, In b l' -> In b l.
Proof. intros H b Hb. apply occ_In. apply occ_In in Hb. specialize (H b). lia. Qed.

Lemma nodup_sub l l' : (forall b, (occ b l' <= occ b l)%nat) -> NoDup l -> NoDup l'.
Proof. intros H N. apply nodup_occ. intro b. rewrite nodup_occ in N. specialize (H b). specialize (N b). lia. Qed.

Definition ubs (us : list unord) : list N := map ubit (filter u_inq us).

Lemma ubits_ubs st : ubits st = ubs (x_unords st).
Proof. reflexivity. Qed.

Lemma ubs_In b us : In b (ubs us) <-> exists u, In u us /\ u_inq u = true /\ ubit u = b.
Proof.
  unfold ubs. rewrite in_map_iff. split.
  - intros (u & A & B). apply filter_In in B. exists u. tauto.
  - intros (u & A & B & C). exists u. split; auto. apply filter_In. auto.
Qed.

Lemma ubs_map g us : (forall u, In u us -> u_inq (g u) = u_inq u /\ ubit (g u) = ubit u) -> ubs (map g us) = ubs us.
Proof.
  unfold ubs. induction us as [|a r IH]; simpl; intro H; auto.
  destruct (H a (or_introl eq_refl)) as [E1 E2]. rewrite E1.
  destruct (u_inq a); simpl; rewrite ?E2, IH; auto.
Qed.

Lemma ubs_filter p us : (forall u, In u us -> u_inq u = true -> p u = true) -> ubs (filter p us) = ubs us.
Proof.
  unfold ubs. induction us as [|a r IH]; simpl; intro H; auto. destruct (p a) eqn:P; simpl.
  - destruct (u_inq a); simpl; rewrite IH; auto.
  - destruct (u_inq a) eqn:Q; [rewrite H in P; auto; discriminate|]. apply IH; auto.
Qed.

Lemma ubs_app a b : ubs (a ++ b) = ubs a ++ ubs b.
Proof. unfold ubs. rewrite filter_app, map_app. reflexivity. Qed.

Lemma ubs_sub_In g p us b :
  (forall u, u_inq (g u) = true -> u_inq u = true /\ ubit (g u) = ubit u) ->
  In b (ubs (map g (filter p us))) -> In b (ubs us).
Proof.
  intros HG H. apply ubs_In in H. destruct H as (u & Hu & Q & E). apply in_map_iff in Hu.
  destruct Hu as (u0 & <- & H0). apply filter_In in H0. destruct (HG u0 Q) as [Q0 E0].
  apply ubs_In. exists u0. repeat split; auto; try tauto. congruence.
Qed.

Lemma ubs_sub_nodup g p us :
  (forall u, u_inq (g u) = true -> u_inq u = true /\ ubit (g u) = ubit u) ->
  NoDup (ubs us) -> NoDup (ubs (map g (filter p us))).
Proof.
  intros HG. induction us as [|a r IH]; intro N; [constructor|].
  assert (Nr : NoDup (ubs r)).
  { unfold ubs in *. simpl in N. destruct (u_inq a); simpl in N; [inversion N; auto|auto]. }
  specialize (IH Nr). simpl. destruct (p a); [|exact IH]. simpl. unfold ubs in *. simpl.
  destruct (u_inq (g a)) eqn:Q; [|exact IH]. destruct (HG a Q) as [Qa E]. simpl. constructor; [|exact IH].
  simpl in N. rewrite Qa in N. simpl in N. inversion N as [|x l NI ND]; subst. rewrite E. intro X. apply NI.
  exact (ubs_sub_In g p r _ HG X).
Qed.

Definition lcount (id : N) (JL : list rjob) : nat := length (filter (links id) JL).

Lemma lcount_In id JL : (1 <= lcount id JL)%nat <-> exists j, In j JL /\ r_link j = Some id.
Proof.
  unfold lcount. rewrite filter_len_pos. split; intros (j & A & B); exists j; split; auto.
  - unfold links in B. apply optN_eqb_eq in B. exact B.
  - unfold links. rewrite B. apply optN_eqb_refl.
Qed.

Lemma lcount_cons id j JL : lcount id (j :: JL) = ((if links id j then 1 else 0) + lcount id JL)%nat.
Proof. unfold lcount. simpl. destruct (links id j); reflexivity. Qed.

Lemma lcount_app id a b : lcount id (a ++ b) = (lcount id a + lcount id b)%nat.
Proof. unfold lcount. rewrite filter_app, app_length. reflexivity. Qed.

Record LL (JL : list rjob) (LN AB : list N) (US : list unord) (pb : N) (pd : bool) : Prop := mkLL {
  L_dist : NoDup LN;
  L_udist : NoDup (ubs US);
  L_ub : pd = false -> forall b, In b AB -> pb < b -> In b (ubs US);
  L_ul : forall u j, In u US -> u_inq u = true -> u_complete u = true -> In j JL -> r_link j <> Some (u_id u);
  L_ids : NoDup (map u_id US);
  L_lc : forall id, (lcount id JL <= 1)%nat
}.

Lemma LL_mono JL JL' LN LN' AB AB' US pb pb' pd :
  (forall id, (lcount id JL' <= lcount id JL)%nat) -> (forall b, (occ b LN' <= occ b LN)%nat) ->
  (forall b, In b AB' -> In b AB) -> pb <= pb' ->
  LL JL LN AB US pb pd -> LL JL' LN' AB' US pb' pd.
Proof.
  intros HJ HL HA HP [A B C D E F]. constructor; auto.
  - eapply nodup_sub; eauto.
  - intros PD b Hb LT. apply (C PD b (HA b Hb)). lia.
  - intros u j Hu Q Cu Hj EL.
    assert (K : (1 <= lcount (u_id u) JL')%nat) by (apply lcount_In; eauto).
    specialize (HJ (u_id u)). assert (K2 : (1 <= lcount (u_id u) JL)%nat) by lia.
    apply lcount_In in K2. destruct K2 as (j0 & H0 & E0). exact (D u j0 Hu Q Cu H0 E0).
  - intro id. specialize (HJ id). specialize (F id). lia.
Qed.

(* a field of the record [id] changes *)
Lemma LL_upd id g JL LN AB US pb pd :
  (forall u, u_id (g u) = u_id u /\ ubit (g u) = ubit u /\ u_inq (g u) = u_inq u) ->
  ((forall u, u_complete (g u) = true -> u_complete u = true) \/ (forall x, In x JL -> r_link x <> Some id)) ->
  LL JL LN AB US pb pd ->
  LL JL LN AB (upd_unord id g US) pb pd /\ ubs (upd_unord id g US) = ubs US.
Proof.
  intros HG HC [A B C D E F].
  assert (EU : ubs (upd_unord id g US) = ubs US).
  { unfold upd_unord. apply ubs_map. intros u _. destruct (u_id u =? id); auto. destruct (HG u) as (_ & G2 & G3). auto. }
  split; [|exact EU]. constructor; rewrite ?EU; auto.
  - intros u' j Hu' Q Cu Hj. unfold upd_unord in Hu'. apply in_map_iff in Hu'. destruct Hu' as (u & <- & Hu).
    destruct (u_id u =? id) eqn:K; [|apply D; auto].
    destruct (HG u) as (G1 & G2 & G3). rewrite G1. rewrite G3 in Q. destruct HC as [HC|HC].
    + apply D; auto.
    + apply N.eqb_eq in K. rewrite K. apply HC. exact Hj.
  - rewrite map_id_upd; auto. intro u. apply HG.
Qed.

(* a record outside unord_q is freed *)
Lemma LL_del id JL LN AB US pb pd :
  (forall u, In u US -> u_id u = id -> u_inq u = false) ->
  LL JL LN AB US pb pd ->
  LL JL LN AB (del_unord id US) pb pd /\ ubs (del_unord id US) = ubs US.
Proof.
  intros HQ [A B C D E F].
  assert (EU : ubs (del_unord id US) = ubs US).
  { unfold del_unord. apply ubs_filter. intros u Hu Q. apply negb_true_iff. apply N.eqb_neq. intro K.
    rewrite (HQ u Hu K) in Q. discriminate. }
  split; [|exact EU]. constructor; rewrite ?EU; auto.
  - intros u j Hu. apply D. unfold del_unord in Hu. apply filter_In in Hu. tauto.
  - unfold del_unord. apply nodup_map_filter. exact E.
Qed.

(* a job leaves the job list and gives its record back *)
Lemma LL_drop j JL LN AB US pb pd :
  LL (j :: JL) LN AB US pb pd ->
  LL JL LN AB (drop_link (r_link j) US) pb pd /\ ubs (drop_link (r_link j) US) = ubs US.
Proof.
  intro L.
  assert (L0 : LL JL LN AB US pb pd).
  { eapply LL_mono; [| | | |exact L]; auto; [|apply N.le_refl]. intro id. rewrite lcount_cons. lia. }
  unfold drop_link. destruct (r_link j) as [id|] eqn:EL; [|split; auto].
  destruct (get_unord id US) as [u1|] eqn:G; [|split; auto].
  destruct (get_unord_some _ _ _ G) as [H1 E1].
  destruct (u_complete u1) eqn:C1.
  - apply LL_del; auto. intros u Hu Eu.
    assert (u = u1) by (apply (nodup_id_unique US); auto; [apply L|congruence]). subst u.
    destruct (u_inq u1) eqn:Q; auto. exfalso.
    apply (L_ul _ _ _ _ _ _ L u1 j H1 Q C1 (or_introl eq_refl)). congruence.
  - apply LL_upd; [intro u; repeat split; reflexivity| |exact L0].
    right. intros x Hx Ex. pose proof (L_lc _ _ _ _ _ _ L id) as K. rewrite lcount_cons in K.
      assert (K1 : links id j = true) by (unfold links; rewrite EL; apply optN_eqb_refl). rewrite K1 in K.
      assert (K2 : (1 <= lcount id JL)%nat) by (apply lcount_In; eauto). lia.
Qed.

Lemma LL_drops D JL LN AB pb pd : forall US,
  LL (D ++ JL) LN AB US pb pd ->
  LL JL LN AB (drop_links D US) pb pd /\ ubs (drop_links D US) = ubs US.
Proof.
  unfold drop_links. induction D as [|j D IH]; intros US L; simpl; [split; auto|].
  simpl in L. destruct (LL_drop _ _ _ _ _ _ _ L) as [L1 E1].
  destruct (IH _ L1) as [L2 E2]. split; [exact L2|congruence].
Qed.

Lemma adv_retr_split fuel hd : forall q p,
  length (filter p q) = (length (filter p (fst (adv_retr fuel hd q))) + length (filter p (snd (adv_retr fuel hd q))))%nat.
Proof.
  induction fuel as [|f IH]; intros q p; simpl; [lia|].
  destruct (qmin rkey pos_lt q) as [m|]; simpl; [|lia].
  destruct (d_off (r_cur m) <? hd); simpl; [|lia].
  destruct (remove_one rjob_eqb m q) as [q'|] eqn:R; simpl; [|lia].
  specialize (IH q' p). destruct (adv_retr f hd q') as [d k]. simpl in *.
  rewrite (remove_one_filter_len _ rjob_eqb_eq p _ _ _ R). destruct (p m); simpl; lia.
Qed.

Definition linesp (JL : list rjob) (st : xstate) : list N :=
  map jbit JL ++ map ebit (estage st) ++ map obit (filter is_final (x_reord_q st)).
Definition allbitsp (JL : list rjob) (st : xstate) : list N :=
  map jbit JL ++ map ebit (estage st) ++ map obit (x_reord_q st).
Definition pbit (st : xstate) : N := x_next st.

Definition LLs (JL : list rjob) (st : xstate) : Prop :=
  LL JL (linesp JL st) (allbitsp JL st) (x_unords st) (pbit st) (x_parsing_done st).

Lemma lld_LLs st : inv st -> lld st -> LLs (all_jobs st) st.
Proof.
  intros I [A B C D]. constructor; auto.
  - apply I.
  - apply I.
Qed.

Lemma LLs_lld st : LLs (all_jobs st) st -> lld st.
Proof. intros [A B C D E F]. constructor; auto. Qed.

Lemma LLs_mono JL JL' st st' :
  x_unords st' = x_unords st -> x_parsing_done st' = x_parsing_done st -> pbit st <= pbit st' ->
  (forall id, (lcount id JL' <= lcount id JL)%nat) ->
  (forall b, (occ b (linesp JL' st') <= occ b (linesp JL st))%nat) ->
  (forall b, In b (allbitsp JL' st') -> In b (allbitsp JL st)) ->
  LLs JL st -> LLs JL' st'.
Proof. unfold LLs. intros -> -> HP HJ HL HA L. eapply LL_mono; eauto. Qed.

(* the state changes in fields the invariant does not look at *)
Lemma LLs_view JL st st' :
  x_unords st' = x_unords st -> x_parsing_done st' = x_parsing_done st -> x_next st' = x_next st ->
  estage st' = estage st -> x_reord_q st' = x_reord_q st -> LLs JL st -> LLs JL st'.
Proof.
  intros E1 E2 E3 E4 E5. apply LLs_mono; auto.
  - unfold pbit. rewrite E3. apply N.le_refl.
  - intro b. unfold linesp. rewrite E4, E5. lia.
  - intro b. unfold allbitsp. rewrite E4, E5. auto.
Qed.

Lemma In_map_incl {A B} (f : A -> B) l l' b : (forall x, In x l' -> In x l) -> In b (map f l') -> In b (map f l).
Proof. intros H Hb. apply in_map_iff in Hb. destruct Hb as (x & <- & Hx). apply in_map. auto. Qed.

Lemma LLs_advance cfg bs st J0 :
  LLs (J0 ++ all_jobs st) st ->
  LLs (J0 ++ all_jobs (advance cfg bs st)) (advance cfg bs st) /\ ubits (advance cfg bs st) = ubits st.
Proof.
  intros L.
  destruct (adv_fields cfg bs st) as [EH EU]. cbv zeta in EH, EU.
  pose proof (adv_retr_q cfg bs st) as ER.
  revert EH EU ER. generalize (x_head_offs (adv_input (d_off bs) (set_parser_bs bs st))). intros hd EH EU ER.
  pose proof (adv_retr_split (length (x_retr_q st)) hd (x_retr_q st)) as SP.
  pose proof (adv_retr_sub (length (x_retr_q st)) hd (x_retr_q st)) as KP.
  revert EU ER SP KP. generalize (adv_retr (length (x_retr_q st)) hd (x_retr_q st)). intros dk EU ER SP KP.
  assert (RU : x_running (advance cfg bs st) = x_running st) by (rewrite advance_eq; reflexivity).
  assert (ES : estage (advance cfg bs st) = estage st) by (rewrite advance_eq; reflexivity).
  assert (RO : x_reord_q (advance cfg bs st) = x_reord_q st) by (rewrite advance_eq; reflexivity).
  assert (PD : x_parsing_done (advance cfg bs st) = x_parsing_done st) by (rewrite advance_eq; reflexivity).
  assert (PB : pbit (advance cfg bs st) = pbit st) by (rewrite advance_eq; reflexivity).
  unfold LLs. rewrite PD, PB, !ubits_ubs.
  set (LN := linesp (J0 ++ all_jobs (advance cfg bs st)) (advance cfg bs st)).
  set (AB := allbitsp (J0 ++ all_jobs (advance cfg bs st)) (advance cfg bs st)).
  assert (L1 : LL (fst dk ++ (J0 ++ all_jobs (advance cfg bs st))) LN AB (x_unords st) (pbit st) (x_parsing_done st)).
  { revert L. unfold LLs. apply LL_mono.
    - intro id. unfold all_jobs. rewrite RU, ER, !lcount_app. unfold lcount. rewrite (SP (links id)). lia.
    - intro b. subst LN. unfold linesp. rewrite ES, RO. unfold all_jobs. rewrite RU, ER.
      rewrite !map_app, !occ_app, !occ_map. rewrite (SP (fun x => b =? jbit x)). lia.
    - intro b. subst AB. unfold allbitsp. rewrite ES, RO. unfold all_jobs. rewrite RU, ER.
      rewrite !map_app, !in_app_iff. intros [[H|[H|H]]|H]; auto. left. right. left.
      eapply In_map_incl; [|exact H]. exact KP.
    - apply N.le_refl. }
  rewrite EU. destruct (c_advance_drops_link cfg).
  - apply LL_drops. exact L1.
  - split; [|reflexivity]. eapply LL_mono; [| | | |exact L1]; auto; [|apply N.le_refl].
    intro id. rewrite !lcount_app. lia.
Qed.

Lemma lcount_nil id : lcount id [] = 0%nat.
Proof. reflexivity. Qed.

(* the lists of a state expression, spelled out to the point where occurrences can be counted *)
Ltac lnorm :=
  rewrite ?run_jobs_app, ?run_jobs_cons, ?run_ejobs_app, ?run_ejobs_cons; cbn [cjobs cejobs app];
  repeat (progress (rewrite ?map_app, ?filter_app; cbn [map filter app])).
Ltac snorm := unfold linesp, allbitsp, all_jobs, estage; xnorm.
Ltac occ_fin := repeat (progress (rewrite ?occ_app, ?occ_cons, ?occ_nil)); unfold jbit, ebit, obit; cbn [r_base e_base o_base fst snd]; try lia.
Ltac lc_fin := repeat (progress (rewrite ?lcount_app, ?lcount_cons, ?lcount_nil)); unfold links; cbn [r_link]; try lia.
Ltac in_fin := repeat (progress (rewrite ?in_app_iff; cbn [In])); unfold jbit, ebit, obit; cbn [r_base e_base o_base fst snd]; try tauto.

Lemma lld_view st st' :
  all_jobs st' = all_jobs st -> estage st' = estage st -> x_reord_q st' = x_reord_q st -> x_unords st' = x_unords st ->
  x_parsing_done st' = x_parsing_done st -> x_next st' = x_next st -> lld st -> lld st'.
Proof.
  intros E1 E2 E3 E4 E5 E6 [A B C D].
  constructor; unfold lines, allbits, ubits, unord_q in *; rewrite ?E1, ?E2, ?E3, ?E4, ?E5, ?E6; auto.
Qed.

(* a continuation without a job of either kind leaves the running set *)
Lemma lld_del c l1 l2 st : x_running st = l1 ++ c :: l2 -> cjobs c = [] -> cejobs c = [] ->
  lld st -> lld (set_running (l1 ++ l2) st).
Proof.
  intros E C1 C2. apply lld_view; try reflexivity.
  - unfold all_jobs. xs. rewrite E, !run_jobs_app, run_jobs_cons, C1. reflexivity.
  - unfold estage. xs. rewrite E, !run_ejobs_app, run_ejobs_cons, C2. reflexivity.
Qed.

Lemma lld_retr0 j st st' : inv st -> lld st -> retr0 j st = Some st' -> lld st'.
Proof.
  intros IV I H. destruct (retr0_inv _ _ _ H) as (_ & q & T & ->). cbv zeta.
  destruct (take_min_split _ _ _ _ _ rjob_eqb_eq T) as (l1 & l2 & E & ->). rewrite attach_nf.
  apply LLs_lld. generalize (lld_LLs st IV I). apply LLs_mono; [reflexivity|reflexivity|apply N.le_refl| | | ].
  - intro id. snorm. rewrite E. lnorm. lc_fin.
  - intro b. snorm. rewrite E. lnorm. occ_fin.
  - apply occ_incl. intro b. snorm. rewrite E. lnorm. occ_fin.
Qed.

Lemma lld_retr2 e st st' : inv st -> lld st -> retr2 e st = Some st' -> lld st'.
Proof.
  intros IV I H. destruct (retr2_inv _ _ _ H) as (l1 & l2 & E & _ & ->).
  apply LLs_lld. generalize (lld_LLs st IV I). apply LLs_mono; [reflexivity|reflexivity|apply N.le_refl| | | ].
  - intro id. snorm. rewrite E. lnorm. lc_fin.
  - intro b. snorm. rewrite E. lnorm. occ_fin.
  - apply occ_incl. intro b. snorm. rewrite E. lnorm. occ_fin.
Qed.

Lemma lld_emit0 st st' : inv st -> lld st -> emit0 st = Some st' -> lld st'.
Proof.
  intros IV I H. destruct (emit0_inv _ _ H) as (_ & e & l1 & l2 & _ & E & ->).
  apply LLs_lld. generalize (lld_LLs st IV I). apply LLs_mono; [reflexivity|reflexivity|apply N.le_refl| | | ].
  - intro id. snorm. lnorm. lc_fin.
  - intro b. snorm. rewrite E. lnorm. occ_fin.
  - apply occ_incl. intro b. snorm. rewrite E. lnorm. occ_fin.
Qed.

(* the buffer takes over the line of its job when it is the last one *)
Lemma lld_emit1 e rv size crc blksz st st' : inv st -> lld st -> emit1 e rv size crc blksz st = Some st' -> lld st'.
Proof.
  intros IV I H. destruct (emit1_inv _ _ _ _ _ _ _ H) as (l1 & l2 & E & _ & _ & _ & H1). cbv zeta in H1.
  destruct (rv =? MORE) eqn:RV; subst st';
    (apply LLs_lld; generalize (lld_LLs st IV I); apply LLs_mono; [reflexivity|reflexivity|apply N.le_refl| | | ]).
  - intro id. snorm. rewrite E. lnorm. lc_fin.
  - intro b. snorm. rewrite E. lnorm. unfold is_final at 1. cbn [o_status]. rewrite RV. cbn [negb]. occ_fin.
  - intro b. snorm. rewrite E. lnorm. in_fin.
  - intro id. snorm. rewrite E. lnorm. lc_fin.
  - intro b. snorm. rewrite E. lnorm. unfold is_final at 1. cbn [o_status]. rewrite RV. cbn [negb map]. occ_fin.
  - intro b. snorm. rewrite E. lnorm. in_fin.
Qed.

Lemma lld_reorder st st' : inv st -> lld st -> reorder st = Some st' -> lld st'.
Proof.
  intros IV I H. destruct (reorder_inv _ _ H) as (_ & o & l1 & l2 & _ & E & C).
  assert (L1 : lld (set_reord_q (l1 ++ l2) st)).
  { apply LLs_lld. generalize (lld_LLs st IV I). apply LLs_mono; [reflexivity|reflexivity|apply N.le_refl|auto| | ].
    - intro b. snorm. rewrite E. lnorm. destruct (is_final o); cbn [map]; occ_fin.
    - apply occ_incl. intro b. snorm. rewrite E. lnorm. occ_fin. }
  revert C L1. generalize (set_reord_q (l1 ++ l2) st). intros s1 C L1.
  destruct C as [_ ->|ord rest _ _ _ ->|ord rest _ _ _ _ ->|ord rest _ _ _ _ ->]; apply (lld_view s1); try reflexivity; exact L1.
Qed.

Lemma lines_allbits JL st b : In b (linesp JL st) -> In b (allbitsp JL st).
Proof.
  unfold linesp, allbitsp. rewrite !in_app_iff. intros [H|[H|H]]; auto. right. right.
  eapply In_map_incl; [|exact H]. intros x Hx. apply filter_In in Hx. tauto.
Qed.

(* a new speculative job with its own new record *)
Lemma LL_new jn un b0 id0 JL LN AB US pb pd :
  LL JL LN AB US pb pd -> ~ In b0 LN -> ~ In b0 (ubs US) ->
  (forall u, In u US -> u_id u <> id0) -> (forall j, In j JL -> r_link j <> Some id0) ->
  u_inq un = true -> ubit un = b0 -> u_id un = id0 -> u_complete un = false -> r_link jn = Some id0 ->
  LL (jn :: JL) (b0 :: LN) (b0 :: AB) (US ++ [un]) pb pd.
Proof.
  intros [A B C D E F] N1 N2 FU FJ Q UB UI UC JL0.
  assert (EU : ubs (US ++ [un]) = ubs US ++ [b0]).
  { rewrite ubs_app. unfold ubs at 2. simpl. rewrite Q. simpl. rewrite UB. reflexivity. }
  constructor; rewrite ?EU.
  - constructor; auto.
  - apply nodup_snoc; auto.
  - intros PD b [<-|Hb] LT; apply in_or_app; [right; left; auto|left; apply C; auto].
  - intros u j Hu Qu Cu Hj. apply in_app_or in Hu. destruct Hu as [Hu|[<-|[]]]; [|congruence].
    destruct Hj as [<-|Hj]; [|apply D; auto]. rewrite JL0. intro X. inversion X. apply (FU u Hu). auto.
  - rewrite map_app. simpl. apply nodup_snoc; auto. rewrite UI. intro X. apply in_map_iff in X.
    destruct X as (u & Eu & Hu). exact (FU u Hu Eu).
  - intro id. rewrite lcount_cons. destruct (links id jn) eqn:K; [|apply F].
    unfold links in K. apply optN_eqb_eq in K. rewrite JL0 in K. inversion K as [K0].
    assert (Z : ~ (1 <= lcount id JL)%nat).
    { intro X. apply lcount_In in X. destruct X as (j & Hj & Ej). apply (FJ j Hj). congruence. }
    lia.
Qed.

(* the candidate is beyond the parser, so it is on no line unless it is queued already: [ev_fresh] *)
Lemma lld_scan1_cand cfg s' s2 :
  inv s2 -> lld s2 -> x_parsing_done s2 = false -> x_next s2 <= d_bit (x_parser_bs s2) -> ~ In (d_bit s') (ubits s2) ->
  lld (scan1_cand cfg s' s2).
Proof.
  intros I2 L2 PD ON EF. unfold scan1_cand.
  destruct (pos_le _ _ || _) eqn:PL; [|destruct (c_scan_checks_unord_cap cfg && unord_full s2)];
    try (apply (lld_view s2); try reflexivity; exact L2).
  apply orb_false_iff in PL. destruct PL as [PL _].
  assert (GT : x_next s2 < d_bit s').
  { unfold pos_le in PL. apply negb_false_iff in PL. apply pos_lt_spec in PL. unfold lexlt, d_pos in PL. simpl in PL.
    clear - PL ON. lia. }
  pose proof (lld_LLs s2 I2 L2) as L. apply LLs_lld.
  apply (LL_new (mkrjob (d_pos s') s' (Some (x_next_uid s2))) (mkunord (x_next_uid s2) (d_pos s') s' false false true)
           (d_bit s') (x_next_uid s2) _ _ _ _ _ _ L); try reflexivity.
  - intro X. apply EF. rewrite ubits_ubs. apply (L_ub _ _ _ _ _ _ L PD); [apply lines_allbits; exact X|exact GT].
  - exact EF.
  - intros u Hu Eu. pose proof (i_ufresh _ I2) as UF. rewrite Forall_forall in UF. specialize (UF u Hu). rewrite Eu in UF.
    exact (N.lt_irrefl _ UF).
  - intros j Hj Ej. pose proof (i_jobs _ I2) as IJ. rewrite Forall_forall in IJ. destruct (IJ j Hj) as (_ & _ & _ & J4 & _).
    exact (N.lt_irrefl _ (J4 _ Ej)).
Qed.

Lemma lld_scan1 cfg s att found s' more st st' :
  inv st -> own st -> lld st -> ev_fresh st (EvScan1 s att found s' more) ->
  scan1 cfg s att found s' more st = Some st' -> lld st'.
Proof.
  intros IV OW I EF H. destruct (scan1_inv _ _ _ _ _ _ _ _ H) as (l1 & l2 & E & D & H1). cbv zeta in H1. clear H.
  assert (I1 : inv (set_running (l1 ++ l2) st)) by (eapply inv_view; [eapply view_del_run; eauto|exact IV]).
  assert (ON : x_parsing_done st = false -> x_next st <= d_bit (x_parser_bs st)) by (destruct OW as [OP _]; exact (o_next _ _ _ OP)).
  apply (lld_del _ _ _ _ E eq_refl eq_refl) in I.
  set (s1 := set_running (l1 ++ l2) st) in *.
  change (x_parsing_done s1 = false -> x_next s1 <= d_bit (x_parser_bs s1)) in ON.
  change (ev_fresh s1 (EvScan1 s att found s' more)) in EF. clear IV OW D E.
  revert I1 ON I EF H1. generalize s1. clear s1. intros s1 I1 ON I EF H1.
  assert (I2 : inv (detach att s1)) by (eapply inv_view; [apply view_detach|exact I1]).
  assert (L2 : lld (detach att s1)) by (rewrite detach_nf; apply (lld_view s1); try reflexivity; exact I).
  assert (F : x_parsing_done (detach att s1) = x_parsing_done s1 /\ x_next (detach att s1) = x_next s1 /\
              x_parser_bs (detach att s1) = x_parser_bs s1 /\ x_unords (detach att s1) = x_unords s1)
    by (rewrite detach_nf; repeat split).
  set (s2 := detach att s1) in *. destruct F as (F1 & F2 & F3 & F4). rewrite <- F1, <- F2, <- F3 in ON.
  destruct H1 as [[_ ->]|(-> & PD & _ & _ & _ & _ & ->)].
  - apply (lld_view s2); try reflexivity; exact L2.
  - assert (EF2 : ~ In (d_bit s') (ubits s2)) by (unfold ubits, unord_q; rewrite F4; exact EF).
    generalize (lld_scan1_cand cfg s' s2 I2 L2 PD (ON PD) EF2). generalize (scan1_cand cfg s' s2). intros s3 O3.
    unfold scan1_requeue.
    destruct (_ && _); [|exact O3]. apply (lld_view s3); try reflexivity; exact O3.
Qed.

Lemma lld_fin JL LN AB pb st' :
  LL JL LN AB (x_unords st') pb (x_parsing_done st') -> pb <= x_next st' ->
  (forall id, (lcount id (all_jobs st') <= lcount id JL)%nat) ->
  (forall b, (occ b (lines st') <= occ b LN)%nat) ->
  (forall b, In b (allbits st') -> In b AB) -> lld st'.
Proof. intros L HP HJ HL HA. apply LLs_lld. unfold LLs. revert L. apply LL_mono; auto. Qed.

Lemma job_swap j j' JL st : jbit j' = jbit j -> r_link j' = r_link j -> LLs (j :: JL) st -> LLs (j' :: JL) st.
Proof.
  intros EB EL. apply LLs_mono; auto.
  - apply N.le_refl.
  - intro id. rewrite !lcount_cons. unfold links. rewrite EL. lia.
  - intro b. unfold linesp. cbn [map app]. rewrite !occ_cons, EB. lia.
  - intro b. unfold allbitsp. cbn [map app In]. rewrite EB. auto.
Qed.

(* the job is dropped, with or without drop_unord_link() *)
Lemma lld_drop_job j s st' (dl : bool) :
  LLs (j :: all_jobs s) s ->
  all_jobs st' = all_jobs s -> estage st' = estage s -> x_reord_q st' = x_reord_q s ->
  x_parsing_done st' = x_parsing_done s -> x_next st' = x_next s ->
  x_unords st' = (if dl then drop_link (r_link j) (x_unords s) else x_unords s) -> lld st'.
Proof.
  intros L E1 E2 E3 E4 E5 E6.
  assert (X : LL (all_jobs s) (linesp (j :: all_jobs s) s) (allbitsp (j :: all_jobs s) s) (x_unords st') (pbit s) (x_parsing_done st')).
  { rewrite E6, E4. destruct dl; [apply LL_drop; exact L|]. revert L. apply LL_mono; auto; [|apply N.le_refl].
    intro id. rewrite lcount_cons. lia. }
  apply (lld_fin _ _ _ _ st' X).
  - unfold pbit. rewrite E5. apply N.le_refl.
  - intro id. rewrite E1. lia.
  - intro b. unfold lines, linesp. rewrite E1, E2, E3. cbn [map app]. rewrite occ_cons. lia.
  - intro b. unfold allbits, allbitsp. rewrite E1, E2, E3. cbn [map app In]. auto.
Qed.

Lemma lld_drop_if j s (dl : bool) : LLs (j :: all_jobs s) s -> lld (give_unit (drop_if dl (r_link j) s)).
Proof. intro L. apply (lld_drop_job j s _ dl L); unfold drop_if; destruct dl; reflexivity. Qed.

(* what [lld] reads of a state, but for the unord store *)
Definition lview (st : xstate) :=
  (x_retr_q st, x_running st, x_emit_q st, x_reord_q st, x_parsing_done st, x_next st).

(* do_retrieve once the store is up to date ([sa]): the job [j'] goes back to retr_q, is dropped as
   stale, or becomes an emit-stage job on its line after [fin] has settled its record *)
Lemma lld_retr1_tail cfg j rv cur fin sa :
  let j' := mkrjob (r_base j) cur (r_link j) in
  LLs (j' :: all_jobs sa) sa -> lview (fin sa) = lview sa ->
  LL (all_jobs sa) (linesp (j' :: all_jobs sa) sa) (allbitsp (j' :: all_jobs sa) sa) (x_unords (fin sa)) (pbit sa)
     (x_parsing_done sa) ->
  lld (retr1_tail cfg j rv cur fin sa).
Proof.
  intros j' L3 EF X. unfold retr1_tail. destruct (rv =? MORE); [destruct (_ && _)|].
  - exact (lld_drop_if j' sa _ L3).
  - apply LLs_lld. exact L3.
  - injection EF as F1 F2 F3 F4 F5 F6. rewrite <- F5 in X.
    match goal with |- lld ?s => apply (lld_fin _ _ _ _ s X) end.
    + unfold pbit. cbn. rewrite F6. apply N.le_refl.
    + intro id. unfold all_jobs, add_run. xs. rewrite F1, F2. lnorm. lc_fin.
    + intro b. unfold lines, linesp, all_jobs, estage, add_run. xs. rewrite F1, F2, F3, F4. lnorm. subst j'. occ_fin.
    + apply occ_incl. intro b. unfold allbits, allbitsp, all_jobs, estage, add_run. xs. rewrite F1, F2, F3, F4. lnorm. subst j'. occ_fin.
Qed.

Lemma adv_stems cfg bs st u : In u (x_unords (advance cfg bs st)) -> exists u0, In u0 (x_unords st) /\ stems u u0.
Proof.
  intro H. destruct (adv_fields cfg bs st) as [_ EU]. cbv zeta in EU. rewrite EU in H.
  destruct (c_advance_drops_link cfg); [apply drop_links_stems in H; exact H|exists u; split; [auto|apply stems_refl]].
Qed.

Lemma LL_unjob j JL LN AB US pb pd : LL (j :: JL) LN AB US pb pd -> LL JL LN AB US pb pd.
Proof. apply LL_mono; auto; [|apply N.le_refl]. intro id. rewrite lcount_cons. lia. Qed.

(* the master: its record, if it has one, was adopted and is complete, so it is in no queue *)
Lemma lld_retr1_master cfg j rv cur s2 :
  (forall u, In u (x_unords s2) -> r_link j = Some (u_id u) -> u_complete u = true) ->
  LLs (j :: all_jobs s2) s2 -> lld (retr1_tail cfg j rv cur (fin_master (r_link j)) (advance cfg cur s2)).
Proof.
  intros HC L.
  set (j' := mkrjob (r_base j) cur (r_link j)).
  assert (L' : LLs ([j'] ++ all_jobs s2) s2) by (apply (job_swap j j'); auto).
  destruct (LLs_advance cfg cur s2 [j'] L') as [L3 _]. simpl app in L3.
  assert (HQ3 : forall id, r_link j = Some id -> forall u, In u (x_unords (advance cfg cur s2)) -> u_id u = id -> u_inq u = false).
  { intros id EL u3 H3 E3. destruct (adv_stems _ _ _ _ H3) as (u0 & H0 & (S1 & _ & _ & S4 & _)). rewrite S4.
    destruct (u_inq u0) eqn:Q; auto. exfalso.
    apply (L_ul _ _ _ _ _ _ L u0 j H0 Q); [apply HC; auto; congruence|left; auto|congruence]. }
  revert L3 HQ3. generalize (advance cfg cur s2). intros sa L3 HQ3.
  apply lld_retr1_tail; [exact L3|unfold fin_master; destruct (r_link j); reflexivity|]. apply LL_unjob in L3.
  unfold fin_master. destruct (r_link j) as [id|]; xs; [|exact L3]. apply LL_del; [|exact L3]. apply (HQ3 id eq_refl).
Qed.

(* a speculative job: its record is not complete yet, so no other job links it *)
Lemma lld_retr1_spec cfg j id rv cur s2 :
  r_link j = Some id -> LLs (j :: all_jobs s2) s2 ->
  lld (retr1_tail cfg j rv cur (fin_spec id cur) (set_unords (upd_unord id (u_set_end cur) (x_unords s2)) s2)).
Proof.
  intros EL L.
  set (j' := mkrjob (r_base j) cur (r_link j)).
  assert (L' : LLs (j' :: all_jobs s2) s2) by (apply (job_swap j j'); auto).
  destruct (LL_upd id (u_set_end cur) _ _ _ _ _ _ (fun u => conj eq_refl (conj eq_refl eq_refl))
              (or_introl (fun u (X : u_complete (u_set_end cur u) = true) => X)) L') as [L3a _].
  assert (L3 : LLs (j' :: all_jobs (set_unords (upd_unord id (u_set_end cur) (x_unords s2)) s2))
                 (set_unords (upd_unord id (u_set_end cur) (x_unords s2)) s2)) by exact L3a.
  clear L3a L' L. revert L3. generalize (set_unords (upd_unord id (u_set_end cur) (x_unords s2)) s2). intros sa L3.
  apply lld_retr1_tail; [exact L3|reflexivity|].
  assert (SEP : forall x, In x (all_jobs sa) -> r_link x <> Some id).
  { intros x Hx Ex. pose proof (L_lc _ _ _ _ _ _ L3 id) as K. rewrite lcount_cons in K. unfold links at 1 in K. simpl in K.
    rewrite EL in K. simpl in K. rewrite N.eqb_refl in K. assert (K2 : (1 <= lcount id (all_jobs sa))%nat) by (apply lcount_In; eauto). lia. }
  apply LL_unjob in L3.
  exact (proj1 (LL_upd id (fun u => u_set_complete (u_set_end cur u)) _ _ _ _ _ _ (fun u => conj eq_refl (conj eq_refl eq_refl))
                  (or_intror SEP) L3)).
Qed.

Lemma lld_retr1 cfg j att rv cur st st' :
  inv st -> lld st -> retr1 cfg j att rv cur st = Some st' -> lld st'.
Proof.
  intros IV I H. destruct (retr1_inv _ _ _ _ _ _ _ H) as (l1 & l2 & E & _ & _ & _ & _ & _ & _ & _ & C). clear H.
  assert (L2 : LLs (j :: all_jobs (detach att (set_running (l1 ++ l2) st))) (detach att (set_running (l1 ++ l2) st))).
  { rewrite detach_nf. generalize (lld_LLs st IV I). apply LLs_mono; [reflexivity|reflexivity|apply N.le_refl| | | ].
    - intro id. snorm. rewrite E. lnorm. lc_fin.
    - intro b. snorm. rewrite E. lnorm. occ_fin.
    - apply occ_incl. intro b. snorm. rewrite E. lnorm. occ_fin. }
  clear IV I E. revert C L2. generalize (detach att (set_running (l1 ++ l2) st)). intros s2 C L2.
  destruct C as [_ ->|u _ _ _ _ ->|_ M ->|id _ EL _ ->].
  - exact (lld_drop_if j s2 _ L2).
  - exact (lld_drop_if j s2 _ L2).
  - apply lld_retr1_master; [|exact L2]. intros u0 H0 E0. destruct M as [M|(u & LS & UC & _)]; [congruence|].
    destruct (link_state_spec _ _ _ LS) as (id & EL & Hu & Hid).
    replace u0 with u; [exact UC|]. apply (nodup_id_unique (x_unords s2)); auto; [apply L2|congruence].
  - apply lld_retr1_spec; assumption.
Qed.

Lemma LL_done JL LN AB US pb pd : LL JL LN AB US pb pd -> LL JL LN AB US pb true.
Proof. intros [A B C D E F]. constructor; auto. discriminate. Qed.

Lemma ubs_noinq us : Forall (fun u => u_inq u = false) us -> ubs us = [].
Proof. unfold ubs. induction 1 as [|u r Q _ IH]; simpl; auto. rewrite Q. exact IH. Qed.

(* the end of the stream: retr_q is emptied and nothing stays queued in the store *)
Lemma lld_parse_finish cfg g s : LLs (all_jobs s) s -> lld (parse_finish cfg g s).
Proof.
  intro L. rewrite parse_finish_eq. cbv zeta. destruct (_ && _).
  - apply LLs_lld. apply LL_done in L. exact L.
  - match goal with |- context [flush_unords ?x] => pose proof (flush_noinq x) as NQ end.
    constructor.
    + eapply nodup_sub; [|exact (L_dist _ _ _ _ _ _ L)].
      intro b. unfold lines, linesp, all_jobs, estage. xs. lnorm. occ_fin.
    + unfold ubits, unord_q. xs. fold (ubs (flush_unords (if c_finish_drops_link cfg then drop_links (x_retr_q s) (x_unords s) else x_unords s))).
      rewrite (ubs_noinq _ NQ). constructor.
    + discriminate.
    + xs. intros u j Hu Q. rewrite Forall_forall in NQ. rewrite (NQ u Hu) in Q. discriminate.
Qed.

Lemma discard_keep p us u : In u us -> pos_lt (u_base u) p = false -> In u (discard_below p us).
Proof.
  unfold discard_below. intros Hu LT. apply in_map_iff. exists u. rewrite LT, andb_false_r. simpl. split; auto.
  apply filter_In. split; auto. rewrite LT, andb_false_r. reflexivity.
Qed.

Lemma discard_inq p us u : In u (discard_below p us) -> u_inq u = true -> In u us /\ pos_lt (u_base u) p = false.
Proof.
  unfold discard_below. rewrite in_map_iff. intros (u0 & E & H0) Q. apply filter_In in H0. destruct H0 as [H0 K].
  destruct (u_inq u0 && pos_lt (u_base u0) p && negb (u_complete u0)) eqn:C.
  - subst u. simpl in Q. discriminate.
  - subst u0. split; auto. rewrite Q in *. simpl in *. destruct (pos_lt (u_base u) p); auto.
    simpl in *. destruct (u_complete u); simpl in *; discriminate.
Qed.

Lemma filter_true {A} (l : list A) : filter (fun _ => true) l = l.
Proof. induction l; simpl; congruence. Qed.

(* the parser discards the candidates below the block it has confirmed *)
Lemma LL_discard p JL LN AB US pb pd :
  pb <= fst p -> LL JL LN AB US pb pd -> LL JL LN AB (discard_below p US) (fst p) pd.
Proof.
  intros LE [A B C D E F]. constructor; auto.
  - unfold discard_below. apply ubs_sub_nodup; auto. intro u.
    destruct (u_inq u && pos_lt (u_base u) p && negb (u_complete u)); simpl; auto. discriminate.
  - intros PD b Hb LT. assert (LT0 : pb < b) by lia. apply (C PD b Hb) in LT0. apply ubs_In in LT0.
    destruct LT0 as (u & Hu & Q & Eb). apply ubs_In. exists u. split; auto. apply discard_keep; auto.
    apply not_true_iff_false. rewrite pos_lt_spec. unfold lexlt. unfold ubit in Eb. lia.
  - intros u j Hu Q Cu. destruct (discard_inq _ _ _ Hu Q) as [H0 _]. apply D; auto.
  - apply nodup_discard. exact E.
Qed.

(* the candidate at the confirmed position leaves unord_q (freed or adopted) *)
Lemma LL_pop id l JL LN AB US pb pd :
  (forall u, In u US -> u_id u = id -> ubit u <= pb) -> LL JL LN AB US pb pd ->
  LL JL LN AB (del_unord id US) pb pd /\ LL JL LN AB (upd_unord id (u_detach l) US) pb pd.
Proof.
  intros HB [A B C D E F]. split; constructor; auto.
  - unfold del_unord. rewrite <- (map_id (filter _ US)). apply ubs_sub_nodup; auto.
  - intros PD b Hb LT. pose proof (C PD b Hb LT) as IN. apply ubs_In in IN. destruct IN as (u & Hu & Q & Eb).
    apply ubs_In. exists u. split; auto. unfold del_unord. apply filter_In. split; auto. apply negb_true_iff. apply N.eqb_neq.
    intro K. specialize (HB u Hu K). lia.
  - intros u j Hu. apply D. unfold del_unord in Hu. apply filter_In in Hu. tauto.
  - unfold del_unord. apply nodup_map_filter. exact E.
  - unfold upd_unord. rewrite <- (filter_true US) at 1. apply ubs_sub_nodup; auto. intro u.
    destruct (u_id u =? id); simpl; auto. discriminate.
  - intros PD b Hb LT. pose proof (C PD b Hb LT) as IN. apply ubs_In in IN. destruct IN as (u & Hu & Q & Eb).
    apply ubs_In. exists u. split; auto. unfold upd_unord. apply in_map_iff. exists u. split; auto.
    destruct (u_id u =? id) eqn:K; auto. apply N.eqb_eq in K. specialize (HB u Hu K). lia.
  - intros u' j Hu' Q Cu. unfold upd_unord in Hu'. apply in_map_iff in Hu'. destruct Hu' as (u & <- & Hu).
    destruct (u_id u =? id); [simpl in Q; discriminate|]. apply D; auto.
  - rewrite map_id_upd; auto.
Qed.

(* the parser creates the master retrieve job of the block it has confirmed *)
Lemma LL_master jn b0 JL LN AB US pb pd :
  LL JL LN AB US pb pd -> ~ In b0 LN -> b0 <= pb -> r_link jn = None ->
  LL (jn :: JL) (b0 :: LN) (b0 :: AB) US pb pd.
Proof.
  intros [A B C D E F] N1 LE NL. constructor; auto.
  - constructor; auto.
  - intros PD b [<-|Hb] LT; [lia|apply C; auto].
  - intros u j Hu Q Cu [<-|Hj]; [congruence|apply D; auto].
  - intro id. rewrite lcount_cons. unfold links. rewrite NL. simpl. apply F.
Qed.

(* the least element of a queue none of whose elements lies below [p] is the only one that can lie at [p] *)
Lemma qmin_not_at {A} (key : A -> pos) q p :
  (forall u, qmin key pos_lt q = Some u -> key u <> p) -> (forall u, In u q -> pos_lt (key u) p = false) ->
  forall m, In m q -> key m <> p.
Proof.
  intros NOC LB m Hm Em. destruct (qmin key pos_lt q) as [u|] eqn:Q.
  - apply (NOC u eq_refl). pose proof (qmin_min _ _ _ _ Q Hm) as M. rewrite Em in M.
    exact (pos_lt_total _ _ (LB u (qmin_In _ _ _ Q)) M).
  - apply qmin_none in Q. rewrite Q in Hm. destruct Hm.
Qed.

Lemma lld_parse_ok cfg lv crc s pb0 :
  LL (all_jobs s) (linesp (all_jobs s) s) (allbitsp (all_jobs s) s) (x_unords s) pb0 (x_parsing_done s) ->
  pb0 < d_bit (x_parser_bs s) -> x_next s = d_bit (x_parser_bs s) -> x_parsing_done s = false ->
  (forall u, In u (x_unords s) -> snd (u_base u) = 0) ->
  lld (parse_ok cfg lv crc s).
Proof.
  intros L LT NX PD SB.
  pose proof (parse_ok_cases cfg lv crc s) as C. cbv zeta in C.
  set (p := d_pos (x_parser_bs s)) in *.
  set (s2 := set_unords (discard_below p (x_unords s)) (set_order_q (x_order_q s ++ [mkhead p lv crc]) s)) in *.
  assert (FP : fst p = d_bit (x_parser_bs s)) by reflexivity.
  assert (L2 : LLs (all_jobs s2) s2).
  { assert (LE : pb0 <= fst p) by (rewrite FP; apply N.lt_le_incl; exact LT).
    pose proof (LL_discard p _ _ _ _ _ _ LE L) as X. rewrite FP, <- NX in X. exact X. }
  assert (NX2 : pbit s2 = fst p) by (rewrite FP, <- NX; reflexivity).
  destruct C as [[NOC ->]|(u & Q & PE & ->)].
  - (* no candidate at [p]: by [L_ub] the position is on no line yet *)
    apply LLs_lld.
    apply (LL_master (mkrjob p (x_parser_bs s) None) (fst p) _ _ _ _ _ _ L2); [|rewrite NX2; apply N.le_refl|reflexivity].
    intro X. apply lines_allbits in X.
    assert (X0 : In (fst p) (allbitsp (all_jobs s) s)) by exact X.
    rewrite <- FP in LT. pose proof (L_ub _ _ _ _ _ _ L PD _ X0 LT) as IN. apply ubs_In in IN. destruct IN as (u0 & H0 & Q0 & E0).
    assert (B0 : u_base u0 = p).
    { pose proof (SB u0 H0) as Z. unfold ubit in E0. destruct (u_base u0) as [a b]. simpl in *. subst p. unfold d_pos. simpl in E0. congruence. }
    apply (qmin_not_at u_base (unord_q s2) p NOC) with (m := u0); [| |exact B0].
    + intros m Hm. unfold unord_q in Hm. apply filter_In in Hm. destruct Hm as [Hm Qm].
      exact (proj2 (discard_inq _ _ _ Hm Qm)).
    + unfold unord_q. apply filter_In. split; [|exact Q0]. apply discard_keep; auto. rewrite B0. apply pos_lt_irrefl.
  - apply qmin_In in Q. unfold unord_q in Q. apply filter_In in Q. destruct Q as [Hu Qi].
    destruct (LLs_advance cfg (u_end u) s2 [] L2) as [L3 _]. simpl app in L3.
    assert (HB : forall u', In u' (x_unords (advance cfg (u_end u) s2)) -> u_id u' = u_id u -> ubit u' <= pbit (advance cfg (u_end u) s2)).
    { intros u' H' E'. destruct (adv_stems _ _ _ _ H') as (u0 & H0 & (S1 & S2 & _)).
      assert (u0 = u) by (apply (nodup_id_unique (x_unords s2)); auto; [apply L2|congruence]). subst u0.
      replace (pbit (advance cfg (u_end u) s2)) with (pbit s2) by (rewrite advance_eq; reflexivity).
      unfold ubit. rewrite S2, PE, NX2. apply N.le_refl. }
    destruct (LL_pop (u_id u) true _ _ _ _ _ _ HB L3) as [LD LU].
    clear L3 HB. revert LD LU. generalize (advance cfg (u_end u) s2). intros s3 LD LU.
    destruct (u_complete u).
    + match goal with |- lld ?x => apply (lld_fin _ _ _ _ x LD) end; [apply N.le_refl|intro; apply Nat.le_refl..|auto].
    + match goal with |- lld ?x => apply (lld_fin _ _ _ _ x LU) end; [apply N.le_refl|intro; apply Nat.le_refl..|auto].
Qed.

Lemma lld_parse1 cfg att r st st' :
  inv st -> lld st -> ev_next st (EvParse1 att r) -> parse1 cfg att r st = Some st' -> lld st'.
Proof.
  intros IV I EV H. destruct (parse1_inv _ _ _ _ _ H) as (l1 & l2 & E & D & H1). cbv zeta in H1.
  destruct H1 as (_ & _ & _ & _ & H1). clear H.
  destruct (inv_del_parse _ _ _ D IV) as (I1 & _ & _ & _ & PD1).
  apply (lld_del _ _ _ _ E eq_refl eq_refl) in I.
  assert (SB : forall u, In u (x_unords st) -> snd (u_base u) = 0).
  { intros u Hu. pose proof (i_unord _ IV) as UO. rewrite Forall_forall in UO. apply UO; auto. }
  pose proof (lld_LLs _ I1 I) as L1. set (s1 := set_running (l1 ++ l2) st) in *.
  change (forall u, In u (x_unords s1) -> snd (u_base u) = 0) in SB.
  assert (NX1 : x_next s1 = x_next st) by reflexivity. clear IV I I1 D E.
  revert H1 PD1 SB L1 NX1. generalize s1. clear s1. intros s1 H1 PD1 SB L1 NX1.
  assert (F2 : x_next (detach att s1) = x_next st /\ x_unords (detach att s1) = x_unords s1 /\
               x_parsing_done (detach att s1) = false)
    by (rewrite detach_nf; repeat split; assumption).
  assert (L2 : LLs (all_jobs (detach att s1)) (detach att s1)) by (rewrite detach_nf; exact L1).
  destruct F2 as (NX2 & US2 & PD2). rewrite <- US2 in SB. clear L1 NX1 PD1 US2.
  revert H1 SB NX2 PD2 L2. generalize (detach att s1). intros s2 H1 SB NX2 PD2 L2.
  set (bs := res_bs r) in *.
  destruct (LLs_advance cfg bs s2 [] L2) as [L3 _]. simpl app in L3.
  assert (SB3 : forall u, In u (x_unords (advance cfg bs s2)) -> snd (u_base u) = 0).
  { intros u Hu. destruct (adv_stems _ _ _ _ Hu) as (u0 & H0 & (_ & S2 & _)). rewrite S2. auto. }
  assert (F3 : x_next (advance cfg bs s2) = x_next st /\ x_parsing_done (advance cfg bs s2) = false /\
               x_parser_bs (advance cfg bs s2) = bs)
    by (rewrite advance_eq; repeat split; assumption).
  destruct F3 as (NX3 & PD3 & PB3).
  clear L2 SB NX2 PD2. revert H1 L3 SB3 NX3 PD3 PB3. generalize (advance cfg bs s2). intros s3 H1 L3 SB3 NX3 PD3 PB3.
  destruct r as [b ps|b g|b code|b ps lv crc]; simpl res_bs in *; subst bs.
  - destruct H1 as (_ & _ & ->). apply LLs_lld. exact L3.
  - destruct H1 as (_ & _ & ->). apply lld_parse_finish. exact L3.
  - destruct H1 as (_ & _ & _ & ->). apply LLs_lld. exact L3.
  - destruct H1 as (_ & ->). simpl in EV.
    apply (lld_parse_ok cfg lv crc (set_par ps (set_next (d_bit b) s3)) (x_next s3)).
    + exact L3.
    + xs. rewrite PB3, NX3. unfold HDR_MIN in EV. clear - EV. lia.
    + xs. rewrite PB3. reflexivity.
    + exact PD3.
    + exact SB3.
Qed.

Lemma lld_init n tin tout ultra : lld (init_state n tin tout ultra).
Proof.
  constructor; simpl.
  - constructor.
  - constructor.
  - intros _ b [].
  - intros u j [].
Qed.

(* [own] enters through its clause o_next only (x_next <= parser position, for do_scan), [ev_next] for a POk
   return of parse1, [ev_fresh] for scan1.  The branches that fail preserve lld as well: no x_failed st' = None. *)
Theorem lld_step cfg st e st' :
  inv st -> own st -> ev_next st e -> ev_fresh st e -> lld st -> step cfg st e = Some st' -> lld st'.
Proof.
  intros I OW EV EF L H. unfold step in H. destruct (x_failed st); [discriminate|].
  destruct e.
  - apply input_inv in H. destruct H as (_ & _ & _ & _ & H). destruct (x_parsing_done st); subst st'; [exact L|].
    apply (lld_view st); try reflexivity; exact L.
  - apply reader_eof_inv in H. destruct H as [_ ->]. apply (lld_view st); try reflexivity; exact L.
  - apply written_inv in H. destruct H as [_ ->]. apply (lld_view st); try reflexivity; exact L.
  - apply parse0_inv in H. destruct H as [_ ->]. cbv zeta. rewrite attach_nf. apply (lld_view st); try reflexivity; exact L.
  - eapply lld_parse1; eauto.
  - eapply lld_retr0; eauto.
  - eapply lld_retr1; eauto.
  - eapply lld_retr2; eauto.
  - eapply lld_emit0; eauto.
  - eapply lld_emit1; eauto.
  - eapply lld_reorder; eauto.
  - apply scan0_inv in H. destruct H as (_ & s & l1 & l2 & _ & _ & ->). cbv zeta. rewrite attach_nf.
    apply (lld_view st); try reflexivity; exact L.
  - eapply lld_scan1; eauto.
Qed.

Print Assumptions lld_init.
Print Assumptions lld_step.
