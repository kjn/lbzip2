(* Liveness of the decompression scheduler (expand.c on process.c): definitions.

   Progress is stated for the whole system - worker tasks, reader thread, writer thread -
   like SchedC/SchedCProg.v ([c11_progress]) does for the compressor: a reachable, non-failed
   state in which no worker is inside an unlocked computation and which is not final has an
   enabled event that is not a stutter.  The reader is counted as able to move only when the
   real source_thread_proc() is: it holds or can take an input slot, or request_close is set.

   The invariants the argument needs, beyond [inv] (XInvDefs), [own] (XOwn), [cnt] (XCount):
     lin  reference counts of the input blocks, position of the parser inside input_q
     ltk  while parsing is not done at least one of {parse token, running parser, master retriever}
          exists (at most one: [inv]); a queued master stands at the parser's position
     lld  the "lines" (retrieve jobs, emit-stage jobs, last buffers) have pairwise distinct
          bit positions; every line beyond the parser has its candidate in unord_q
     llm  the master's head is in order_q; the token is not stranded without a work unit
     lrs  the buffers of a line are contiguous in reord_q (chain) and EMIT_THRESH output
          slots stay reserved for what is at or before the head of order_q
   Label hypotheses of the runs ([lreach]): [ev_prog] (XOwn: a block confirmed by the parser, POk
   label, starts at least HDR_MIN = 32 bits after the block confirmed before it, [x_next])
   and [ev_fresh]: the scanner never reports a position that is the base of a candidate
   still in unord_q.  XScanFront.v derives [ev_fresh] from "every scan call that finds a
   magic ends strictly after it began" ([ev_scan_prog]). *)
From Coq Require Import List NArith Bool Lia Arith.
From LBZ Require Import Gen.Consts SchedX.XState Gen.SchedXTab SchedX.XSet SchedX.XModel SchedX.XLemmas
  SchedX.XInvDefs SchedX.XInv2 SchedX.XOracle SchedX.XOwn SchedX.XOwnProofs SchedX.XCount.
Import ListNotations.
Local Open Scope N_scope.

Definition ubit (u : unord) : N := fst (u_base u).
Definition ubits (st : xstate) : list N := map ubit (unord_q st).

Definition ev_fresh (st : xstate) (e : event) : Prop :=
  match e with
  | EvScan1 _ _ true s' _ => ~ In (d_bit s') (ubits st)
  | _ => True
  end.

(* [ev_prog] (XOwn.v): a block confirmed by the parser starts at least HDR_MIN bits after the block
   confirmed before it.  (parse() consumes the 48-bit magic and the 32-bit CRC of a header, possibly over
   several calls that return MORE when the header straddles input blocks: the LAST call may consume fewer
   than 32 bits, so the hypothesis is stated against the previous base [x_next], not against the parser's
   position.)  [ev_next] is the same statement under the name the liveness files use. *)
Definition ev_next (st : xstate) (e : event) : Prop :=
  match e with
  | EvParse1 _ (POk bs _ _ _) => x_next st + HDR_MIN <= d_bit bs
  | _ => True
  end.

Lemma ev_prog_next st e : ev_prog st e <-> ev_next st e.
Proof. destruct e; simpl; tauto. Qed.

Definition ev_scan_prog (e : event) : Prop :=
  match e with
  | EvScan1 s _ true s' _ => d_bit s < d_bit s'
  | _ => True
  end.

Inductive lreach (cfg : xcfg) (s0 : xstate) : xstate -> Prop :=
| lreach_init : lreach cfg s0 s0
| lreach_step st e st' : lreach cfg s0 st -> ev_prog st e -> ev_fresh st e -> step cfg st e = Some st' -> lreach cfg s0 st'.

Inductive sreach (cfg : xcfg) (s0 : xstate) : xstate -> Prop :=
| sreach_init : sreach cfg s0 s0
| sreach_step st e st' : sreach cfg s0 st -> ev_prog st e -> ev_scan_prog e -> step cfg st e = Some st' -> sreach cfg s0 st'.

Lemma lreach_preach cfg s0 st : lreach cfg s0 st -> preach cfg s0 st.
Proof. induction 1; [constructor|econstructor; eauto]. Qed.

Lemma sreach_preach cfg s0 st : sreach cfg s0 st -> preach cfg s0 st.
Proof. induction 1; [constructor|econstructor; eauto]. Qed.

Definition catt (c : cont) : option N :=
  match c with CParse a => a | CRetr _ a => a | CScan _ a => a | CRetr2 _ => None | CEmit _ => None end.
Definition att_is (o : N) (c : cont) : bool := optN_eqb (catt c) (Some o).
Definition natt (o : N) (r : list cont) : N := N.of_nat (length (filter (att_is o) r)).

Record lin (st : xstate) : Prop := mklin {
  (* ref_count = 1 (input_q) + the bit streams attached to the block *)
  li_refq : forall b, In b (x_input_q st) -> ib_ref b = 1 + natt (ib_off b) (x_running st);
  li_refz : forall z, In z (x_zombies st) ->
            ib_ref z = natt (ib_off z) (x_running st) /\ 0 < ib_ref z /\ 0 < ib_size z /\ ib_end z <= x_head_offs st;
  li_att : forall c o, In c (x_running st) -> catt c = Some o ->
           exists b, In b (x_input_q st ++ x_zombies st) /\ ib_off b = o;
  (* the parser stands inside the first block of input_q (or at tail_offs) *)
  li_pbs : x_parsing_done st = false -> d_off (x_parser_bs st) <= x_tail_offs st;
  li_first : x_parsing_done st = false -> forall b rest, x_input_q st = b :: rest -> d_off (x_parser_bs st) < ib_end b;
  li_retr : Forall (fun j => d_off (r_cur j) <= x_tail_offs st) (x_retr_q st);
  li_uend : Forall (fun u => u_inq u = true -> d_off (u_end u) <= x_tail_offs st) (x_unords st)
}.

Record ltk (st : xstate) : Prop := mkltk {
  lt_closed : x_closed st = x_parsing_done st;
  lt_r0 : x_parsing_done st = true -> x_retr_q st = [];
  lt_ex : x_parsing_done st = false -> (1 <= b2n (x_parse_token st) + nparse st + masters st)%nat;
  lt_mp : x_parsing_done st = false -> forall j, In j (x_retr_q st) -> jm (x_unords st) j = true -> r_cur j = x_parser_bs st
}.

Definition jbit (j : rjob) : N := fst (r_base j).
Definition ebit (e : ejob) : N := fst (e_base e).
Definition obit (o : oblk) : N := fst (o_base o).

Definition lines (st : xstate) : list N :=
  map jbit (all_jobs st) ++ map ebit (estage st) ++ map obit (filter is_final (x_reord_q st)).
Definition allbits (st : xstate) : list N :=
  map jbit (all_jobs st) ++ map ebit (estage st) ++ map obit (x_reord_q st).

Record lld (st : xstate) : Prop := mklld {
  ll_dist : NoDup (lines st);
  ll_udist : NoDup (ubits st);
  (* whatever lies beyond the block confirmed last is speculative and its candidate is still queued *)
  ll_ub : x_parsing_done st = false -> forall b, In b (allbits st) -> x_next st < b -> In b (ubits st);
  (* a queued candidate that is complete has no retrieve job any more *)
  ll_ul : forall u j, In u (x_unords st) -> u_inq u = true -> u_complete u = true -> In j (all_jobs st) ->
          r_link j <> Some (u_id u)
}.

Record llm (st : xstate) : Prop := mkllm {
  ll_mh : x_parsing_done st = false -> forall j, In j (all_jobs st) -> jm (x_unords st) j = true ->
          exists h, In h (x_order_q st) /\ hb h = jbit j;
  (* the parse token without a work unit: the block confirmed last is being emitted *)
  ll_tw : x_parsing_done st = false -> x_parse_token st = true -> x_work_units st = 0 ->
          exists h e, In h (x_order_q st) /\ In e (estage st) /\ ebit e = hb h
}.

Definition passed (st : xstate) (x : pos) : Prop :=
  (fst x <= x_next st \/ x_parsing_done st = true) /\ forall h, In h (x_order_q st) -> lexlt x (h_base h).

(* at or before the head of order_q (what can_emit()'s second disjunct and can_reorder() let through) *)
Definition atmostb (st : xstate) (x : pos) : bool :=
  match x_order_q st with
  | [] => (fst x <=? x_next st) || x_parsing_done st
  | h :: _ => pos_le x (h_base h)
  end.

Definition res_cont (st : xstate) (c : cont) : bool :=
  match c with CEmit e => atmostb st (e_base e) | _ => false end.

Definition rcount (st : xstate) : N :=
  x_out_slots st + x_outq st +
  N.of_nat (length (filter (fun o => atmostb st (o_base o)) (x_reord_q st))) +
  N.of_nat (length (filter (res_cont st) (x_running st))).

Definition linepos (st : xstate) : list pos := map e_base (estage st) ++ map o_base (x_reord_q st).

Record lrs (st : xstate) : Prop := mklrs {
  lr_ch : forall x k, In x (linepos st) -> k < snd x ->
          (exists o, In o (x_reord_q st) /\ o_base o = (fst x, k) /\ o_status o = MORE) \/ passed st (fst x, k);
  lr_rs : EMIT_THRESH <= x_total_out st -> EMIT_THRESH <= rcount st
}.

(* [s] works on the block [o, e) (word offsets): candidates it may still report lie in (d_bit s, 32 e] *)
Definition clear_of (st : xstate) (s : dbs) (e : N) : Prop :=
  forall u, In u (unord_q st) -> ubit u <= d_bit s \/ 32 * e < ubit u.

Record lsf (st : xstate) : Prop := mklsf {
  sf_q : forall s b, In s (x_scan_q st) -> In b (x_input_q st) -> ib_off b <= d_off s -> d_off s < ib_end b ->
         32 * ib_off b <= d_bit s /\ clear_of st s (ib_end b);
  sf_r : forall s o b, In (CScan s (Some o)) (x_running st) -> In b (x_input_q st ++ x_zombies st) -> ib_off b = o ->
         32 * o <= d_bit s /\ clear_of st s (ib_end b);
  sf_t : forall u, In u (unord_q st) -> ubit u <= 32 * x_tail_offs st
}.

(* source_thread_proc(): waits while in_slots == 0 && !request_close *)
Definition reader_can_move (st : xstate) : bool := negb (x_eof st) && ((0 <? x_in_slots st) || x_closed st).

(* events that are not stutters: an input block handed over after source_close() changes nothing;
   the end of input is reported only when the reader thread is able to move *)
Definition productive (st : xstate) (e : event) : bool :=
  match e with
  | EvInput _ _ => negb (x_parsing_done st)
  | EvEof => reader_can_move st
  | _ => true
  end.

(* the two conditions on the source under which [livep] is preserved (XLive.v states them separately) *)
Definition cfg_live (cfg : xcfg) : Prop := cfg_safe cfg /\ cfg_drops cfg.
