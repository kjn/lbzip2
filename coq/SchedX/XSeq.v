(* C10: the bytes handed to the writer are those of the sequential decoding.
   Invariants (I1)-(I5) of DESIGN.md, section 4/C10, over runs whose event labels
   are consistent with the oracles (XOracle.v); the scanner is unconstrained. *)
From Coq Require Import List NArith Bool Lia Arith ZifyBool ZifyN.
From LBZ Require Import Gen.Consts SchedX.XState Gen.SchedXTab SchedX.XSet SchedX.XModel SchedX.XLemmas
  SchedX.XFrame SchedX.XStep SchedX.XInvDefs SchedX.XOps SchedX.XInv SchedX.XInv2 SchedX.XInv3 SchedX.XInv4
  SchedX.XOracle.
Import ListNotations.
Local Open Scope N_scope.

Section C10.
  Variable O : oracle.

  (* where the parser will look for the next header *)
  Definition pnext (st : xstate) : N :=
    if x_parse_token st || negb (Nat.eqb (nparse st) 0) then d_bit (x_parser_bs st)
    else d_bit (blk_end O (x_next st)).

  (* what is still to be written: the confirmed blocks, then the parser's future *)
  Inductive Rest : list head -> bool -> N -> N -> list wr -> bool -> Prop :=
  | Rest_tail ps p l r : SeqDec O ps p l r -> Rest [] false ps p l r
  | Rest_done ps p : Rest [] true ps p [] true
  | Rest_ok h q d ps p l1 l2 r :
      BlockOut O (fst (h_base h)) (h_bs100k h) (h_crc h) (snd (h_base h)) l1 true ->
      Rest q d ps p l2 r -> Rest (h :: q) d ps p (l1 ++ l2) r
  | Rest_fail h q d ps p l1 :
      BlockOut O (fst (h_base h)) (h_bs100k h) (h_crc h) (snd (h_base h)) l1 false ->
      Rest (h :: q) d ps p l1 false.

  Definition ejob_ok (e : ejob) : Prop := e_status e = blk_status O (fst (e_base e)).
  Definition cont_ok (c : cont) : Prop :=
    match c with CRetr2 e | CEmit e => ejob_ok e | _ => True end.
  Definition oblk_ok (o : oblk) : Prop :=
    o_status o = out_status O (fst (o_base o)) (snd (o_base o)) /\
    o_size o = chunk_size O (fst (o_base o)) (snd (o_base o)) /\
    o_blksz o = blk_size O (fst (o_base o)) /\
    (o_status o <> MORE -> o_crc o = blk_crc O (fst (o_base o))).

  (* I1/I2: order_q = the confirmed headers not yet written; written = the sequential prefix;
     [p] = where the parser looks for the next header *)
  Definition CSq (p : N) (s : xstate) : Prop :=
    forall L R, SeqDec O 0 0 L R -> exists l', L = x_written s ++ l' /\
      match x_failed s with
      | None => Rest (x_order_q s) (x_parsing_done s) (x_par s) p l' R
      | Some _ => R = false
      end.

  (* the parts that advance() can touch.
     I5: a legitimate retriever works on the block confirmed last;
     I4: a finished candidate knows where its block ends, unless it is already behind the parser *)
  Definition cparts (st : xstate) : Prop :=
    Forall (fun j => jm (x_unords st) j = true -> fst (r_base j) = x_next st) (all_jobs st) /\
    Forall (fun u => u_inq u = true -> u_complete u = true ->
                     u_end u = blk_end O (fst (u_base u)) \/ d_off (u_end u) < x_head_offs st) (x_unords st) /\
    (x_failed st = None -> x_parsing_done st = true -> Forall (fun u => u_inq u = false) (x_unords st)).

  (* I3: what a job carries is a function of its base *)
  Definition cqueues (st : xstate) : Prop :=
    Forall ejob_ok (x_emit_q st) /\ Forall cont_ok (x_running st) /\ Forall oblk_ok (x_reord_q st).

  (* The three are definitions, not records: for two states that differ only in fields the
     invariant does not read the two statements are convertible, and [exact] transfers it. *)
  Definition cinv (st : xstate) : Prop := CSq (pnext st) st /\ cparts st /\ cqueues st.

  Lemma cinv_init n tin tout ultra : cinv (init_state n tin tout ultra).
  Proof.
    split; [|repeat split; constructor].
    intros L R H. exists L. split; [reflexivity|]. constructor. exact H.
  Qed.

  Lemma pnext_ext st st' : x_parse_token st' = x_parse_token st -> nparse st' = nparse st ->
    x_parser_bs st' = x_parser_bs st -> x_next st' = x_next st -> pnext st' = pnext st.
  Proof. unfold pnext. intros -> -> -> ->. reflexivity. Qed.

  Lemma c_seq_ext st st' :
    x_written st' = x_written st -> x_failed st' = x_failed st -> x_order_q st' = x_order_q st ->
    x_parsing_done st' = x_parsing_done st -> x_par st' = x_par st -> pnext st' = pnext st ->
    (forall L R, SeqDec O 0 0 L R -> exists l', L = x_written st ++ l' /\
        match x_failed st with None => Rest (x_order_q st) (x_parsing_done st) (x_par st) (pnext st) l' R | Some _ => R = false end) ->
    (forall L R, SeqDec O 0 0 L R -> exists l', L = x_written st' ++ l' /\
        match x_failed st' with None => Rest (x_order_q st') (x_parsing_done st') (x_par st') (pnext st') l' R | Some _ => R = false end).
  Proof. intros -> -> -> -> -> ->. auto. Qed.

  Lemma SeqDec_next ps p ps' p' l r : next_hdr O ps' p' = next_hdr O ps p -> SeqDec O ps p l r -> SeqDec O ps' p' l r.
  Proof.
    intros E H. inversion H; subst.
    - eapply SD_block; eauto. rewrite E; eauto.
    - eapply SD_blockfail; eauto. rewrite E; eauto.
    - eapply SD_finish. rewrite E; eauto.
    - eapply SD_err. rewrite E. eauto.
  Qed.
  Lemma Rest_more q d ps p ps' p' l r : next_hdr O ps' p' = next_hdr O ps p ->
    Rest q d ps p l r -> Rest q d ps' p' l r.
  Proof.
    intros E H. induction H.
    - constructor. eapply SeqDec_next; eauto.
    - constructor.
    - eapply Rest_ok; eauto.
    - eapply Rest_fail; eauto.
  Qed.

  Lemma Rest_push q ps p ps' base lv crc l r : next_hdr O ps p = HBlock ps' base lv crc ->
    Rest q false ps p l r ->
    Rest (q ++ [mkhead (d_pos base) lv crc]) false ps' (d_bit (blk_end O (d_bit base))) l r.
  Proof.
    intros E H. remember false as d. induction H; subst; simpl.
    - inversion H; subst; try congruence.
      + rewrite E in H0. inversion H0; subst. eapply Rest_ok; simpl; eauto. constructor. auto.
      + rewrite E in H0. inversion H0; subst. eapply Rest_fail; simpl; eauto.
    - discriminate.
    - eapply Rest_ok; eauto.
    - eapply Rest_fail; eauto.
  Qed.

  Lemma Rest_finish q ps p e l r : next_hdr O ps p = HFinish e ->
    Rest q false ps p l r -> if e then r = false else Rest q true ps p l r.
  Proof.
    intros E H. remember false as d. induction H; subst.
    - inversion H; subst; try congruence. rewrite E in H0. inversion H0; subst. destruct e0; simpl; auto. constructor.
    - discriminate.
    - specialize (IHRest E eq_refl). destruct e; auto. eapply Rest_ok; eauto.
    - destruct e; auto. eapply Rest_fail; eauto.
  Qed.

  Lemma Rest_err q ps p c l r : next_hdr O ps p = HErr c -> Rest q false ps p l r -> r = false.
  Proof.
    intros E H. remember false as d. induction H; subst; auto.
    - inversion H; subst; try congruence.
  Qed.

  Lemma Rest_head h q d ps p l r : Rest (h :: q) d ps p l r ->
    let b := fst (h_base h) in let k := snd (h_base h) in
    let s := eff_status O (h_bs100k h) (h_crc h) b k in
    (s = MORE -> exists l' : list wr, l = ((b, k), chunk_size O b k) :: l' /\
                  Rest (mkhead (b, k + 1) (h_bs100k h) (h_crc h) :: q) d ps p l' r) /\
    (s = OK -> exists l' : list wr, l = ((b, k), chunk_size O b k) :: l' /\ Rest q d ps p l' r) /\
    (s <> MORE -> s <> OK -> r = false).
  Proof.
    intro H. inversion H as [| |? ? ? ? ? ? ? ? B R0|? ? ? ? ? ? B]; subst; simpl.
    - inversion B as [? ? ? EM B2|? EO|? N1 N2]; subst.
      + split; [|split]; [|intros K; rewrite K in EM; discriminate|intros K; congruence].
        intros _. eexists. split; [reflexivity|]. eapply Rest_ok; simpl; eauto.
      + split; [|split]; [intros K; rewrite K in EO; discriminate| |intros ? K; congruence].
        intros _. eexists. split; [reflexivity|]. auto.
    - inversion B as [? ? ? EM B2|? EO|? N1 N2]; subst.
      + split; [|split]; [|intros K; rewrite K in EM; discriminate|intros K; congruence].
        intros _. eexists. split; [reflexivity|]. eapply Rest_fail; simpl; eauto.
      + split; [|split]; [intros K; congruence|intros K; congruence|auto].
  Qed.
  Lemma Rest_done_any q ps p ps' p' l r : Rest q true ps p l r -> Rest q true ps' p' l r.
  Proof.
    intro H. remember true as d. induction H; subst; try discriminate.
    - constructor.
    - eapply Rest_ok; eauto.
    - eapply Rest_fail; eauto.
  Qed.

  Lemma Forall_del {A} (P : A -> Prop) l1 l2 c : Forall P (l1 ++ c :: l2) -> Forall P (l1 ++ l2) /\ P c.
  Proof. rewrite !Forall_app. intros [H1 H2]. inversion H2; subst. tauto. Qed.

  (* a continuation leaves the running set *)
  Lemma cparts_del_run c l1 l2 st : x_running st = l1 ++ c :: l2 -> cparts st ->
    cparts (set_running (l1 ++ l2) st) /\ Forall (fun j => jm (x_unords st) j = true -> fst (r_base j) = x_next st) (cjobs c).
  Proof.
    intros E (Cm & Cu & Cn). unfold all_jobs in Cm. rewrite E, !run_jobs_app, run_jobs_cons, !Forall_app in Cm.
    destruct Cm as (A1 & A2 & Aj & A3). split; [|exact Aj]. split; [|exact (conj Cu Cn)].
    unfold all_jobs. xs. rewrite run_jobs_app, !Forall_app. auto.
  Qed.

  Lemma cqueues_del_run c l1 l2 st : x_running st = l1 ++ c :: l2 -> cqueues st ->
    cqueues (set_running (l1 ++ l2) st) /\ cont_ok c.
  Proof. intros E (Ce & Cc & Cr). rewrite E in Cc. apply Forall_del in Cc as [Cc Ec]. exact (conj (conj Ce (conj Cc Cr)) Ec). Qed.

  (* ... other than the parser's: the parser's reference position stays *)
  Lemma cinv_del_run c l1 l2 st : x_running st = l1 ++ c :: l2 -> is_parse c = false -> cinv st ->
    cinv (set_running (l1 ++ l2) st) /\ cont_ok c /\
    Forall (fun j => jm (x_unords st) j = true -> fst (r_base j) = x_next st) (cjobs c).
  Proof.
    intros E Hp (Cs & Cp & Cq). destruct (cparts_del_run _ _ _ _ E Cp) as (Cp' & Aj). destruct (cqueues_del_run _ _ _ _ E Cq) as (Cq' & Ec).
    assert (PN : pnext (set_running (l1 ++ l2) st) = pnext st).
    { apply pnext_ext; try reflexivity. unfold nparse. xs. rewrite E, !filter_len_app. cbn [filter]. rewrite Hp. reflexivity. }
    split; [|exact (conj Ec Aj)]. split; [rewrite PN; exact Cs|exact (conj Cp' Cq')].
  Qed.

  Lemma cinv_add_run c st : is_parse c = false -> cjobs c = [] -> cont_ok c -> cinv st -> cinv (add_run c st).
  Proof.
    intros Hp Hj Hc (Cs & (Cm & Cu & Cn) & Ce & Cc & Cr). unfold add_run.
    assert (PN : pnext (set_running (c :: x_running st) st) = pnext st).
    { apply pnext_ext; try reflexivity. unfold nparse. xs. cbn [filter]. rewrite Hp. reflexivity. }
    split; [rewrite PN; exact Cs|]. split; [|split; [exact Ce|split; [constructor; assumption|exact Cr]]].
    split; [|exact (conj Cu Cn)]. unfold all_jobs. xs. rewrite run_jobs_cons, Hj. exact Cm.
  Qed.

  (* detach() and attach() touch nothing the invariant reads *)
  Lemma CSq_detach p att st : CSq p st -> CSq p (detach att st).
  Proof. rewrite detach_nf. exact (fun H => H). Qed.

  Lemma cparts_detach att st : cparts st -> cparts (detach att st).
  Proof. rewrite detach_nf. exact (fun H => H). Qed.

  Lemma cqueues_detach att st : cqueues st -> cqueues (detach att st).
  Proof. rewrite detach_nf. exact (fun H => H). Qed.

  Lemma cinv_detach att st : cinv st -> cinv (detach att st).
  Proof. rewrite detach_nf. exact (fun I => I). Qed.

  Lemma cinv_attach d st : cinv st -> cinv (fst (attach d st)).
  Proof. rewrite attach_nf. exact (fun I => I). Qed.

  Lemma cinv_input sz m st st' : cinv st -> input sz m st = Some st' -> cinv st'.
  Proof.
    intros I H. destruct (input_inv _ _ _ _ H) as (_ & _ & _ & _ & C).
    destruct (x_parsing_done st); subst st'; exact I.
  Qed.

  Lemma cinv_eof st st' : cinv st -> reader_eof st = Some st' -> cinv st'.
  Proof. intros I H. destruct (reader_eof_inv _ _ H) as (_ & ->). exact I. Qed.

  Lemma cinv_written st st' : cinv st -> written st = Some st' -> cinv st'.
  Proof. intros I H. destruct (written_inv _ _ H) as (_ & ->). exact I. Qed.

  Lemma cinv_parse0 st st' : cinv st -> parse0 st = Some st' -> cinv st'.
  Proof.
    intros (Cs & Cp & Ce & Cc & Cr) H. destruct (parse0_inv _ _ H) as (G & ->). cbv zeta.
    apply selects_ready in G. assert (T : x_parse_token st = true) by (cbn [ready] in G; unfold can_parse in G; bool_hyps; assumption).
    rewrite attach_nf, add_run_nf.
    split; [|split; [exact Cp|split; [exact Ce|split; [constructor; [exact I|exact Cc]|exact Cr]]]].
    (* the token is handed to the continuation: the parser's position stays the reference *)
    unfold pnext in *. rewrite T in Cs. exact Cs.
  Qed.

  Lemma cinv_scan0 st st' : cinv st -> scan0 st = Some st' -> cinv st'.
  Proof.
    intros I H. destruct (scan0_inv _ _ H) as (_ & s & l1 & l2 & _ & _ & ->). cbv zeta.
    apply cinv_add_run; [reflexivity|reflexivity|exact Logic.I|]. apply cinv_attach. exact I.
  Qed.

  Lemma cinv_retr0 j st st' : cinv st -> retr0 j st = Some st' -> cinv st'.
  Proof.
    intros (Cs & (Cm & Cu & Cn) & Ce & Cc & Cr) H. destruct (retr0_inv _ _ _ H) as (_ & q & T & ->). cbv zeta.
    destruct (take_min_split _ _ _ _ _ rjob_eqb_eq T) as (l1 & l2 & E & ->).
    rewrite attach_nf, add_run_nf.
    split; [exact Cs|]. split; [|split; [exact Ce|split; [constructor; [exact I|exact Cc]|exact Cr]]].
    split; [|exact (conj Cu Cn)]. unfold all_jobs in *. rewrite E in Cm. xs.
    apply (proj1 (move_job l1 l2 (run_jobs (x_running st)) j)). exact Cm.
  Qed.

  Lemma cinv_retr2 e st st' : cinv st -> retr2 e st = Some st' -> cinv st'.
  Proof.
    intros I H. destruct (retr2_inv _ _ _ H) as (l1 & l2 & E & _ & ->).
    destruct (cinv_del_run _ _ _ _ E eq_refl I) as ((Cs & Cp & Ce & Cc & Cr) & Ee & _).
    split; [exact Cs|]. split; [exact Cp|]. split; [constructor; assumption|]. exact (conj Cc Cr).
  Qed.

  Lemma cinv_emit0 st st' : cinv st -> emit0 st = Some st' -> cinv st'.
  Proof.
    intros (Cs & Cp & Ce & Cc & Cr) H. destruct (emit0_inv _ _ H) as (_ & e & l1 & l2 & _ & E & ->).
    rewrite E in Ce. apply Forall_del in Ce as [Ce Ee].
    apply cinv_add_run; [reflexivity|reflexivity|exact Ee|]. exact (conj Cs (conj Cp (conj Ce (conj Cc Cr)))).
  Qed.

  Lemma cinv_emit1 e rv size crc blksz st st' :
    cinv st -> ev_ok O st (EvEmit1 e rv size crc blksz) -> emit1 e rv size crc blksz st = Some st' -> cinv st'.
  Proof.
    intros I Ob H. destruct (emit1_inv _ _ _ _ _ _ _ H) as (l1 & l2 & E & _ & _ & _ & C). cbv zeta in C.
    destruct (cinv_del_run _ _ _ _ E eq_refl I) as ((Cs & Cp & Ce & Cc & Cr) & Ee & _).
    (* the label is what [oblk_ok] asks of the new buffer, whatever its end offset *)
    destruct (rv =? MORE); subst st'.
    - split; [exact Cs|]. split; [exact Cp|]. split; [constructor; assumption|]. split; [exact Cc|]. constructor; assumption.
    - split; [exact Cs|]. split; [exact Cp|]. split; [exact Ce|]. split; [exact Cc|]. constructor; assumption.
  Qed.

  (* what do_reorder computes from a buffer is the status the sequential decoding assigns to it *)
  Lemma eff_status_model (o : oblk) (ord : head) : oblk_ok o -> o_base o = h_base ord ->
    let status := if h_bs100k ord * 100000 <? o_blksz o then E_ERR_OVERFLOW else o_status o in
    let status' := if (status =? OK) && negb (o_crc o =? h_crc ord) then E_ERR_BLKCRC else status in
    eff_status O (h_bs100k ord) (h_crc ord) (fst (h_base ord)) (snd (h_base ord)) = if status =? MORE then MORE else status'.
  Proof.
    intros (K1 & _ & K3 & K4) EB. rewrite EB in *. unfold eff_status. rewrite <- K1, <- K3. cbv zeta.
    set (s1 := if h_bs100k ord * 100000 <? o_blksz o then E_ERR_OVERFLOW else o_status o).
    destruct (s1 =? MORE) eqn:E1; [reflexivity|]. destruct (s1 =? OK) eqn:E2; [|reflexivity]. cbn [andb].
    rewrite K4; [reflexivity|]. subst s1.
    destruct (h_bs100k ord * 100000 <? o_blksz o); [cbv in E2; discriminate E2|]. apply N.eqb_neq. exact E1.
  Qed.

  Lemma cinv_reorder st st' : x_failed st = None -> cinv st -> reorder st = Some st' -> cinv st'.
  Proof.
    intros NF (Cs & (Cm & Cu & Cn) & Ce & Cc & Cr) H. destruct (reorder_inv _ _ H) as (_ & o & l1 & l2 & _ & E & C).
    rewrite E in Cr. apply Forall_del in Cr as [Cr Oo].
    assert (KEEP : cparts st /\ cqueues (set_reord_q (l1 ++ l2) st)) by exact (conj (conj Cm (conj Cu Cn)) (conj Ce (conj Cc Cr))).
    destruct C as [_ ->|ord rest OQ EB SM ->|ord rest OQ EB SM SF ->|ord rest OQ EB SM SF ->]; [exact (conj Cs KEEP)| | |];
      xs in OQ; pose proof (eff_status_model o ord Oo EB) as EF; cbv zeta in EF; fold (ro_status ord o) in EF; fold (ro_final ord o) in EF.
    all: assert (SZ : (o_base o, o_size o) = (fst (h_base ord), snd (h_base ord), chunk_size O (fst (h_base ord)) (snd (h_base ord))))
           by (destruct Oo as (_ & -> & _); rewrite EB; destruct (h_base ord); reflexivity).
    (* the head of the order, as the sequential decoding continues from it *)
    all: assert (HD : forall L R, SeqDec O 0 0 L R -> exists l', L = x_written st ++ l' /\
                   Rest (ord :: rest) (x_parsing_done st) (x_par st) (pnext st) l' R)
           by (intros L R SD; destruct (Cs L R SD) as (l' & EL & RS); rewrite NF, OQ in RS; eauto).
    - rewrite SM, N.eqb_refl in EF. split; [|exact KEEP].
      intros L R SD. destruct (HD L R SD) as (l' & EL & RS).
      destruct (proj1 (Rest_head _ _ _ _ _ _ _ RS) EF) as (l2' & E2 & R2).
      exists l2'. unfold ro_hand, ro_offs. xs. rewrite NF. split; [|exact R2]. rewrite EL, E2, SZ, <- app_assoc. reflexivity.
    - apply N.eqb_neq in SM. rewrite SM, SF in EF. split; [|exact KEEP].
      intros L R SD. destruct (HD L R SD) as (l' & EL & RS).
      destruct (proj1 (proj2 (Rest_head _ _ _ _ _ _ _ RS)) EF) as (l2' & E2 & R2).
      exists l2'. unfold ro_hand, ro_offs. xs. rewrite NF. split; [|exact R2]. rewrite EL, E2, SZ, <- app_assoc. reflexivity.
    - apply N.eqb_neq in SM. rewrite SM in EF. split; [|split; [split; [exact Cm|split; [exact Cu|discriminate]]|exact (proj2 KEEP)]].
      intros L R SD. destruct (HD L R SD) as (l' & EL & RS). exists l'. split; [exact EL|].
      apply (proj2 (proj2 (Rest_head _ _ _ _ _ _ _ RS))); rewrite EF; [|exact SF].
      unfold ro_final. destruct (_ && _); [discriminate|]. apply N.eqb_neq. exact SM.
  Qed.

  (* the job of a candidate that has just been registered is not a master *)
  Lemma jm_fresh_false us id b e b' c :
    Forall (fun u => u_id u < id) us -> jm (us ++ [mkunord id b e false false true]) (mkrjob b' c (Some id)) = false.
  Proof.
    intro F. unfold jm. cbn [r_link]. rewrite existsb_app. cbn. rewrite andb_false_r. cbn. rewrite orb_false_r.
    apply not_true_iff_false. intro X. apply existsb_exists in X as (u & Hu & X). rewrite Forall_forall in F. specialize (F u Hu).
    apply andb_true_iff in X as [X _]. apply andb_true_iff in X as [X _]. apply N.eqb_eq in X. lia.
  Qed.

  Lemma view_del_split c l1 l2 st : x_running st = l1 ++ c :: l2 -> cjobs c = [] -> is_parse c = false ->
    view_eq st (set_running (l1 ++ l2) st).
  Proof.
    intros E Hj Hp. constructor; try reflexivity; xs.
    - rewrite E, !run_jobs_app, run_jobs_cons, Hj. reflexivity.
    - unfold nparse. xs. rewrite E, !filter_len_app. cbn [filter]. rewrite Hp. reflexivity.
  Qed.

  Lemma cinv_scan1 cfg s att found s' more st st' :
    inv st -> cinv st -> scan1 cfg s att found s' more st = Some st' -> cinv st'.
  Proof.
    intros IV I H. destruct (scan1_inv _ _ _ _ _ _ _ _ H) as (l1 & l2 & E & _ & C). cbv zeta in C.
    destruct (cinv_del_run _ _ _ _ E eq_refl I) as (I1 & _). apply (cinv_detach att) in I1.
    pose proof (inv_view _ _ (view_detach att _) (inv_view _ _ (view_del_split _ _ _ _ E eq_refl eq_refl) IV)) as IV2.
    generalize dependent (detach att (set_running (l1 ++ l2) st)). intro s2. intros.
    destruct C as [(_ & ->)|(_ & PD & _ & _ & _ & _ & ->)]; [exact I1|].
    assert (I3 : cinv (scan1_cand cfg s' s2)).
    { unfold scan1_cand, new_cand. destruct (_ || _); [exact I1|]. destruct (_ && _); [exact I1|].
      destruct I1 as (Cs & (Cm & Cu & Cn) & Cq). split; [exact Cs|]. split; [|exact Cq]. split; [|split].
      - unfold all_jobs. xs. constructor.
        + intro J. rewrite (jm_fresh_false _ _ _ _ _ _ (i_ufresh _ IV2)) in J. discriminate J.
        + eapply Forall_impl; [|exact Cm]. intros j0 K J. rewrite jm_app_new in J by reflexivity. exact (K J).
      - xs. apply Forall_app. split; [exact Cu|]. constructor; [|constructor]. intros _ X. discriminate X.
      - xs. rewrite PD. discriminate. }
    unfold scan1_requeue. destruct (more && _); exact I3.
  Qed.

  (* advance(): which unord blocks may have been completed by a dropped job *)
  Lemma adv_retr_dropped fuel hd q :
    Forall (fun j => d_off (r_cur j) < hd /\ In j q) (fst (adv_retr fuel hd q)).
  Proof.
    revert q; induction fuel as [|f IH]; intro q; simpl; [constructor|].
    destruct (qmin rkey pos_lt q) as [j|] eqn:Q; [|constructor].
    destruct (d_off (r_cur j) <? hd) eqn:E; [|constructor].
    destruct (remove_one rjob_eqb j q) as [q'|] eqn:R; [|constructor].
    specialize (IH q'). destruct (adv_retr f hd q') as [d k]. simpl in *. constructor.
    - split; [lia|]. eapply remove_one_self; eauto using rjob_eqb_eq.
    - eapply Forall_impl; [|exact IH]. simpl. intros a [A B]. split; auto. eapply remove_one_In; eauto.
  Qed.

  Lemma drop_link_raised l us u : In u (drop_link l us) ->
    In u us \/ exists u0 id, In u0 us /\ l = Some id /\ u_id u0 = id /\ u_complete u0 = false /\ u = u_set_complete u0.
  Proof.
    unfold drop_link. destruct l as [id|]; auto. destruct (get_unord id us) as [u1|] eqn:G; auto.
    destruct (u_complete u1) eqn:C.
    - unfold del_unord. rewrite filter_In. tauto.
    - unfold upd_unord. rewrite in_map_iff. intros (u0 & E & H0). destruct (u_id u0 =? id) eqn:K; [|subst; auto].
      destruct (u_complete u0) eqn:C0.
      + left. subst u. destruct u0; simpl in *. subst. exact H0.
      + right. exists u0, id. apply N.eqb_eq in K. auto.
  Qed.

  Lemma drop_links_raised js us u : In u (drop_links js us) ->
    In u us \/ exists u0 j, In u0 us /\ In j js /\ r_link j = Some (u_id u0) /\ u_complete u0 = false /\ u = u_set_complete u0.
  Proof.
    unfold drop_links. revert us u. induction js as [|j r IH]; simpl; intros us u H; auto.
    destruct (IH _ _ H) as [H1|(u0 & j0 & H0 & Hj & L & C & E)].
    - destruct (drop_link_raised _ _ _ H1) as [H2|(u0 & id & H0 & L & Hid & C & E)]; auto.
      right. exists u0, j. subst id. auto 6.
    - destruct (drop_link_raised _ _ _ H0) as [H2|(u1 & id & H1 & L1 & Hid & C1 & E1)].
      + right. exists u0, j0. auto 7.
      + subst u0. simpl in C. discriminate.
  Qed.

  Lemma adv_fields cfg bs st :
    let sa := adv_input (d_off bs) (set_parser_bs bs st) in
    let dk := adv_retr (length (x_retr_q st)) (x_head_offs sa) (x_retr_q st) in
    x_head_offs (advance cfg bs st) = x_head_offs sa /\
    x_unords (advance cfg bs st) = (if c_advance_drops_link cfg then drop_links (fst dk) (x_unords st) else x_unords st).
  Proof. cbv zeta. rewrite adv_input_head. xs. rewrite advance_eq. cbv zeta. xs. split; reflexivity. Qed.

  Lemma advance_unords cfg bs st u : inv st -> In u (x_unords (advance cfg bs st)) ->
    In u (x_unords st) \/
    exists u0, In u0 (x_unords st) /\ u = u_set_complete u0 /\ d_off (u_end u0) < x_head_offs (advance cfg bs st).
  Proof.
    intros IV H. destruct (adv_fields cfg bs st) as [EH EU]. cbv zeta in EH, EU. rewrite EU in H. rewrite EH.
    destruct (c_advance_drops_link cfg); auto.
    destruct (drop_links_raised _ _ _ H) as [H1|(u0 & j & H0 & Hj & L & C & E)]; auto.
    right. exists u0. split; auto. split; auto.
    pose proof (adv_retr_dropped (length (x_retr_q st)) (x_head_offs (adv_input (d_off bs) (set_parser_bs bs st))) (x_retr_q st)) as D.
    rewrite Forall_forall in D. destruct (D j Hj) as [Dj Qj].
    pose proof (i_jobs _ IV) as Ij. rewrite Forall_forall in Ij.
    destruct (Ij j) as (_ & _ & _ & _ & J5); [unfold all_jobs; apply in_or_app; auto|].
    destruct (J5 _ u0 L H0 eq_refl) as [_ B]. rewrite (B C). exact Dj.
  Qed.

  (* advance() only drops jobs *)
  Lemma advance_jobs_sub cfg bs st j :
    inv st -> masters st = 0%nat -> x_head_offs st <= d_off bs -> In j (all_jobs (advance cfg bs st)) -> In j (all_jobs st).
  Proof.
    intros IV M0 HD Hj. destruct (inv_advance cfg bs st IV M0 HD) as (_ & _ & _ & _ & _ & RP).
    unfold all_jobs in *. rewrite x_running_advance in Hj. apply in_app_or in Hj. apply in_or_app. destruct Hj as [Hj|Hj]; auto. left.
    assert (RP' := RP (fun x => In x (x_retr_q st)) ltac:(apply Forall_forall; auto)). rewrite Forall_forall in RP'. apply RP'; auto.
  Qed.

  (* advance() touches none of the fields [CSq] and [cqueues] read *)
  Lemma CSq_advance p cfg bs st : CSq p st -> CSq p (advance cfg bs st).
  Proof. rewrite advance_eq. exact (fun H => H). Qed.

  Lemma cqueues_advance cfg bs st : cqueues st -> cqueues (advance cfg bs st).
  Proof. rewrite advance_eq. exact (fun H => H). Qed.

  Lemma cparts_advance cfg bs st :
    inv st -> masters st = 0%nat -> x_head_offs st <= d_off bs -> cparts st -> cparts (advance cfg bs st).
  Proof.
    intros IV M0 HD (Cm & Cu & Cn).
    destruct (inv_advance cfg bs st IV M0 HD) as (I3 & M3 & H3a & H3b & ST & RP).
    assert (E : x_running (advance cfg bs st) = x_running st /\ x_next (advance cfg bs st) = x_next st /\
                x_parsing_done (advance cfg bs st) = x_parsing_done st /\ x_failed (advance cfg bs st) = x_failed st)
      by (rewrite advance_eq; auto).
    destruct E as (RU & NX & PD & NF).
    split; [|split].
    - unfold all_jobs in *. rewrite RU, NX. apply Forall_app in Cm. destruct Cm as [Cm1 Cm2]. apply Forall_app. split.
      + apply RP in Cm1. eapply Forall_impl; [|exact Cm1]. simpl. intros j K J. apply K. eapply jm_stems; eauto. apply IV.
      + eapply Forall_impl; [|exact Cm2]. simpl. intros j K J. apply K. eapply jm_stems; eauto. apply IV.
    - apply Forall_forall. intros u Hu Q C. rewrite Forall_forall in Cu.
      destruct (advance_unords cfg bs st u IV Hu) as [H0|(u0 & H0 & E & LT)].
      + destruct (Cu u H0 Q C) as [A|A]; auto. right. exact (N.lt_le_trans _ _ _ A H3a).
      + subst u. right. exact LT.
    - rewrite PD, NF. intros K1 K2. specialize (Cn K1 K2). apply Forall_forall. intros u Hu. rewrite Forall_forall in Cn.
      destruct (ST u Hu) as (u0 & H0 & (_ & _ & _ & S4 & _)). rewrite S4. auto.
  Qed.

  (* where the parser looks next while a master retriever is at work: at the end of its block *)
  Lemma pnext_idle st : x_parse_token st = false -> nparse st = 0%nat -> pnext st = d_bit (blk_end O (x_next st)).
  Proof. unfold pnext. intros -> ->. reflexivity. Qed.

  Lemma pnext_token st : x_parse_token st = true -> pnext st = d_bit (x_parser_bs st).
  Proof. unfold pnext. intros ->. reflexivity. Qed.

  (* a job gives its unord block back *)
  Lemma cparts_drop_link l s :
    inv s -> cparts s ->
    (forall u0, In u0 (x_unords s) -> l = Some (u_id u0) -> u_complete u0 = false -> u_inq u0 = true ->
                d_off (u_end u0) < x_head_offs s) ->
    cparts (set_unords (drop_link l (x_unords s)) s).
  Proof.
    intros IV (Cm & Cu & Cn) HR. split; [|split]; xs.
    - unfold all_jobs in *. xs. eapply Forall_impl; [|exact Cm]. simpl. intros j K J. apply K.
      eapply jm_stems; eauto. apply drop_link_stems. apply IV.
    - apply Forall_forall. intros u Hu Q C. rewrite Forall_forall in Cu.
      destruct (drop_link_raised _ _ _ Hu) as [H0|(u0 & id & H0 & L & Hid & C0 & E)]; auto.
      subst u. simpl in *. right. apply HR; auto. congruence.
    - intros K1 K2. specialize (Cn K1 K2). apply Forall_forall. intros u Hu. rewrite Forall_forall in Cn.
      destruct (drop_link_stems _ _ _ Hu) as (u0 & H0 & (_ & _ & _ & S4 & _)). rewrite S4. auto.
  Qed.

  (* an unord block is freed *)
  Lemma cparts_del_unord id s : inv s -> cparts s -> cparts (set_unords (del_unord id (x_unords s)) s).
  Proof.
    intros IV (Cm & Cu & Cn).
    assert (SUB : forall u, In u (del_unord id (x_unords s)) -> In u (x_unords s)) by (intros u Hu; apply filter_In in Hu; tauto).
    split; [|split]; xs.
    - unfold all_jobs in *. xs. eapply Forall_impl; [|exact Cm]. simpl. intros x K J. apply K. eapply jm_stems; [| |exact J].
      + intros u Hu. exists u. split; [auto|apply stems_refl].
      + apply IV.
    - apply Forall_forall. intros u Hu. rewrite Forall_forall in Cu. auto.
    - intros K1 K2. specialize (Cn K1 K2). apply Forall_forall. intros u Hu. rewrite Forall_forall in Cn. auto.
  Qed.

  (* the master has retrieved up to [cur] *)
  (* while a master-like job runs there is no other master, no parser and no token; it is not below head_offs *)
  Lemma jfacts_master j s : jfacts j s -> jm (x_unords s) j = true ->
    masters s = 0%nat /\ nparse s = 0%nat /\ x_parse_token s = false /\ x_head_offs s <= d_off (r_cur j).
  Proof.
    intros (_ & _ & _ & B & M) JM. rewrite JM in B. destruct (x_parse_token s); cbn [b2n] in B; [exfalso; clear - B; lia|].
    split; [clear - B; lia|]. split; [clear - B; lia|]. split; [reflexivity|exact (M JM)].
  Qed.

  Lemma cretr1_master cfg j rv cur s2 :
    c_requeue_retr_checks_head cfg = true -> jfacts j s2 -> cinv s2 ->
    jm (x_unords s2) j = true -> fst (r_base j) = x_next s2 -> d_off (r_cur j) <= d_off cur ->
    (rv <> MORE -> rv = blk_status O (fst (r_base j)) /\ cur = blk_end O (fst (r_base j))) ->
    cinv (retr1_tail cfg j rv cur (fin_master (r_link j)) (advance cfg cur s2)).
  Proof.
    intros CR F (Cs & Cp & Cq) JM BN Hoff EV. destruct (jfacts_master j s2 F JM) as (M0 & N0 & T0 & HJ).
    destruct F as (I2 & _). assert (HD : x_head_offs s2 <= d_off cur) by exact (N.le_trans _ _ _ HJ Hoff).
    destruct (inv_advance cfg cur s2 I2 M0 HD) as (I3 & M3 & _ & H3b & _ & _).
    pose proof (cparts_advance cfg cur s2 I2 M0 HD Cp) as P3.
    pose proof (CSq_advance _ cfg cur _ Cs) as CS3. pose proof (cqueues_advance cfg cur _ Cq) as Q3.
    rewrite (pnext_idle s2 T0 N0) in CS3.
    assert (E3 : x_parse_token (advance cfg cur s2) = false /\ nparse (advance cfg cur s2) = 0%nat /\
                 x_next (advance cfg cur s2) = x_next s2 /\ x_parser_bs (advance cfg cur s2) = cur)
      by (unfold nparse in *; rewrite advance_eq; auto).
    generalize dependent (advance cfg cur s2). intros st I3 M3 H3b P3 CS3 Q3 (T3 & N3 & NX3 & PB3).
    unfold retr1_tail. destruct (rv =? MORE) eqn:RV.
    - (* queued again: not below head_offs, which advance() has just brought up to [cur] at most *)
      rewrite CR, (proj2 (N.ltb_ge _ _) H3b). cbn [andb].
      split; [|split; [|exact Q3]].
      + rewrite <- NX3, <- (pnext_idle st T3 N3) in CS3. exact CS3.
      + destruct P3 as (Pm & Pu & Pn). split; [|exact (conj Pu Pn)]. unfold all_jobs in *. xs.
        constructor; [|exact Pm]. intros _. cbn [r_base]. rewrite NX3. exact BN.
    - (* the block is complete: the token is back and the parser resumes where the block ends *)
      apply N.eqb_neq in RV. destruct (EV RV) as [ES EC].
      apply cinv_add_run; [reflexivity|reflexivity|exact ES|].
      assert (C4 : CSq (pnext (set_parse_token true st)) (set_parse_token true st)).
      { rewrite pnext_token by reflexivity. xs. rewrite PB3, EC, BN. exact CS3. }
      unfold fin_master. destruct (r_link j) as [id|]; [|exact (conj C4 (conj P3 Q3))].
      split; [exact C4|]. split; [|exact Q3].
      exact (cparts_del_unord id (set_parse_token true st) (inv_set_token st I3 M3 N3) P3).
  Qed.

  Lemma jm_upd_raise id f us x :
    (forall u, u_id (f u) = u_id u /\ u_legit (f u) = u_legit u) -> Forall unord_ok us ->
    jm (upd_unord id f us) x = true -> jm us x = true.
  Proof.
    intros HF HO. unfold jm. destruct (r_link x) as [id2|]; auto. unfold upd_unord. rewrite existsb_map, !existsb_exists.
    intros (u & Hu & E). exists u. split; auto. destruct (u_id u =? id); auto.
    destruct (HF u) as [F1 F2]. rewrite F1, F2 in E. bool_hyps.
    rewrite Forall_forall in HO. destruct (HO u Hu) as (O1 & O2 & _).
    destruct (u_inq u) eqn:Q.
    - destruct (O1 eq_refl) as (_ & _ & L). congruence.
    - rewrite (O2 eq_refl). match goal with A : (u_id u =? id2) = true |- _ => rewrite A end.
      match goal with A : u_legit u = true |- _ => rewrite A end. reflexivity.
  Qed.

  Lemma in_upd_unord_inv id f us u : In u (upd_unord id f us) ->
    exists u0, In u0 us /\ ((u_id u0 = id /\ u = f u0) \/ (u_id u0 <> id /\ u = u0)).
  Proof.
    unfold upd_unord. rewrite in_map_iff. intros (u0 & E & H0). exists u0. split; [exact H0|].
    destruct (u_id u0 =? id) eqn:K; [left; apply N.eqb_eq in K|right; apply N.eqb_neq in K]; auto.
  Qed.

  (* a speculative job has retrieved up to [cur]: its candidate records the position *)
  Lemma cretr1_spec cfg j id rv cur s2 :
    c_requeue_retr_checks_head cfg = true -> jfacts j s2 -> cinv s2 -> r_link j = Some id ->
    (jm (x_unords s2) j = true -> fst (r_base j) = x_next s2) ->
    (forall u, In u (x_unords s2) -> u_id u = id -> u_complete u = false) ->
    dbs_ok cur = true -> d_bit (r_cur j) <= d_bit cur ->
    (rv <> MORE -> rv = blk_status O (fst (r_base j)) /\ cur = blk_end O (fst (r_base j))) ->
    cinv (retr1_tail cfg j rv cur (fin_spec id cur) (set_unords (upd_unord id (u_set_end cur) (x_unords s2)) s2)).
  Proof.
    intros CR (I2 & J2 & L2 & B2 & M2) (Cs & (Pm & Pu & Pn) & Cq) EL BN INC Hok Hbit EV.
    pose proof (L2 id EL) as Z2. destruct J2 as (J1 & _ & _ & _ & J5).
    assert (UB : forall u, In u (x_unords s2) -> u_id u = id -> u_base u = r_base j) by (intros u Hu Hid; apply (J5 id u EL Hu Hid)).
    set (us1 := upd_unord id (u_set_end cur) (x_unords s2)). set (st := set_unords us1 s2).
    assert (JMs : forall x, jm us1 x = jm (x_unords s2) x).
    { intro x. apply jm_upd_same. intro u. repeat split; reflexivity. }
    assert (P1 : cparts st).
    { split; [|split]; unfold all_jobs in *; xs.
      - eapply Forall_impl; [|exact Pm]. cbn beta. intros x K J. rewrite JMs in J. exact (K J).
      - apply Forall_forall. intros u Hu Q C. destruct (in_upd_unord_inv _ _ _ _ Hu) as (u0 & H0 & [(K & ->)|(K & ->)]).
        + cbn in C. rewrite (INC u0 H0 K) in C. discriminate C.
        + rewrite Forall_forall in Pu. exact (Pu u0 H0 Q C).
      - intros K1 K2. specialize (Pn K1 K2). rewrite Forall_forall in Pn. apply Forall_forall. intros u Hu.
        destruct (in_upd_unord_inv _ _ _ _ Hu) as (u0 & H0 & [(K & ->)|(K & ->)]); exact (Pn u0 H0). }
    assert (I1 : inv st).
    { apply (inv_upd_spec id (u_set_end cur) s2 I2 Z2).
      - intro u. split; reflexivity.
      - intros u Hu Hid. pose proof (i_unord _ I2) as Iu. rewrite Forall_forall in Iu. destruct (Iu u Hu) as (O1 & O2 & O3).
        split; [|split; assumption]. intro Q. destruct (O1 Q) as (_ & _ & L).
        repeat split; auto. cbn. rewrite (UB u Hu Hid). exact (N.le_trans _ _ _ J1 Hbit). }
    unfold retr1_tail. destruct (rv =? MORE) eqn:RV.
    - rewrite CR. cbn [andb]. destruct (d_off cur <? x_head_offs st) eqn:SL.
      + (* stale: the job is dropped *)
        unfold drop_if. destruct (c_stale_drops_link cfg); [|exact (conj Cs (conj P1 Cq))].
        split; [exact Cs|]. split; [|exact Cq]. rewrite EL. refine (cparts_drop_link (Some id) st I1 P1 _).
        intros u0 H0 L C Q. injection L as ->. destruct (in_upd_unord_inv _ _ _ _ H0) as (u1 & _ & [(_ & ->)|(K & ->)]).
        * apply N.ltb_lt. exact SL.
        * congruence.
      + split; [exact Cs|]. split; [|exact Cq]. destruct P1 as (A & B & C). split; [|exact (conj B C)].
        unfold all_jobs in *. xs. constructor; [|exact A]. intro K. apply BN. rewrite <- JMs. exact K.
    - apply N.eqb_neq in RV. destruct (EV RV) as [ES EC].
      apply cinv_add_run; [reflexivity|reflexivity|exact ES|]. unfold fin_spec.
      split; [exact Cs|]. split; [|exact Cq]. destruct P1 as (A & B & C). split; [|split]; unfold all_jobs in *; xs.
      + eapply Forall_impl; [|exact A]. cbn beta. intros x K J. apply K.
        eapply jm_upd_raise; [| |exact J]; [intro u; split; reflexivity|apply I1].
      + (* the candidate is complete now, and ends where its block ends *)
        apply Forall_forall. intros u Hu Q Cc. destruct (in_upd_unord_inv _ _ _ _ Hu) as (u0 & H0 & [(K & ->)|(K & ->)]).
        * left. cbn. destruct (in_upd_unord_inv _ _ _ _ H0) as (u1 & H1 & [(K1 & E1)|(K1 & E1)]); subst u0;
            [cbn|]; rewrite (UB u1 H1) by (cbn in K; congruence); exact EC.
        * rewrite Forall_forall in B. exact (B u0 H0 Q Cc).
      + intros K1 K2. specialize (C K1 K2). rewrite Forall_forall in C. apply Forall_forall. intros u Hu.
        destruct (in_upd_unord_inv _ _ _ _ Hu) as (u0 & H0 & [(K & ->)|(K & ->)]); exact (C u0 H0).
  Qed.

  (* the cases of do_retrieve (XStep.retr1_case) in terms of the unord store *)
  Lemma master_case_jm j s :
    r_link j = None \/ (exists u, link_state (r_link j) s = Some u /\ u_complete u = true /\ u_legit u = true) ->
    jm (x_unords s) j = true.
  Proof.
    intros [L|(u & LS & UC & UL)]; [unfold jm; rewrite L; reflexivity|]. eapply jm_of_link_state; eauto.
  Qed.

  Lemma spec_case_incomplete j id s :
    NoDup (map u_id (x_unords s)) -> r_link j = Some id ->
    (forall u, link_state (r_link j) s = Some u -> u_complete u = false) ->
    forall u, In u (x_unords s) -> u_id u = id -> u_complete u = false.
  Proof.
    intros ND L INC u Hu Hid. rewrite L in INC. cbn [link_state] in INC.
    destruct (get_unord id (x_unords s)) as [u'|] eqn:G; [|exfalso; exact (get_unord_none _ _ _ G Hu Hid)].
    destruct (get_unord_some _ _ _ G) as [H' E']. rewrite (nodup_id_unique _ u u' ND Hu H') by congruence. exact (INC u' eq_refl).
  Qed.

  Lemma cinv_retr1 cfg j att rv cur st st' :
    cfg_safe cfg -> x_failed st = None -> inv st -> cinv st -> ev_ok O st (EvRetr1 j att rv cur) ->
    retr1 cfg j att rv cur st = Some st' -> cinv st'.
  Proof.
    intros (_ & _ & CR) NF I C EV H. cbn [ev_ok] in EV.
    destruct (retr1_inv _ _ _ _ _ _ _ H) as (l1 & l2 & E & D & Hok & Hbit & Hoff & _ & _ & _ & CASE).
    pose proof (jfacts_view j _ _ (view_detach att _) (inv_del_retr _ _ _ _ D I)) as F2.
    destruct (cinv_del_run _ _ _ _ E eq_refl C) as (C2 & _ & BN). apply (cinv_detach att) in C2. apply Forall_inv in BN.
    set (s2 := detach att (set_running (l1 ++ l2) st)) in *.
    assert (NF2 : x_failed s2 = None) by (subst s2; rewrite x_failed_detach; exact NF).
    assert (BN2 : jm (x_unords s2) j = true -> fst (r_base j) = x_next s2) by (subst s2; rewrite x_unords_detach, x_next_detach; exact BN).
    subst s2. generalize dependent (detach att (set_running (l1 ++ l2) st)). intro s2. intros.
    pose proof (proj1 F2) as I2.
    destruct CASE as [PD ->|u PD LS UC UL ->|PD JM ->|id PD EL INC ->].
    - unfold drop_if. destruct (c_retr_done_drops_link cfg); [|exact C2].
      destruct C2 as (Cs & Cp & Cq). split; [exact Cs|]. split; [|exact Cq]. apply cparts_drop_link; [exact I2|exact Cp|].
      intros u0 H0 _ _ Q. exfalso. pose proof (proj2 (proj2 Cp) NF2 PD) as Cn. rewrite Forall_forall in Cn.
      rewrite (Cn u0 H0) in Q. discriminate Q.
    - unfold drop_if. destruct (c_retr_abort_drops_link cfg); [|exact C2].
      destruct C2 as (Cs & Cp & Cq). split; [exact Cs|]. split; [|exact Cq]. apply cparts_drop_link; [exact I2|exact Cp|].
      (* the block is complete already *)
      intros u0 H0 L C0 _. exfalso. destruct (link_state_spec _ _ _ LS) as (id & EL & Hu & Hid).
      rewrite (nodup_id_unique _ u0 u (i_unodup _ I2) H0 Hu) in C0 by congruence. congruence.
    - apply master_case_jm in JM. exact (cretr1_master cfg j rv cur s2 CR F2 C2 JM (BN2 JM) Hoff EV).
    - exact (cretr1_spec cfg j id rv cur s2 CR F2 C2 EL BN2 (spec_case_incomplete j id s2 (i_unodup _ I2) EL INC) Hok Hbit EV).
  Qed.

  Lemma no_masters_jm s j : masters s = 0%nat -> In j (all_jobs s) -> jm (x_unords s) j = false.
  Proof.
    unfold masters. intros M Hj. apply filter_len_zero in M. rewrite Forall_forall in M. exact (M j Hj).
  Qed.

  Lemma cparts_no_masters s :
    masters s = 0%nat -> cparts s <->
    Forall (fun u => u_inq u = true -> u_complete u = true ->
                     u_end u = blk_end O (fst (u_base u)) \/ d_off (u_end u) < x_head_offs s) (x_unords s) /\
    (x_failed s = None -> x_parsing_done s = true -> Forall (fun u => u_inq u = false) (x_unords s)).
  Proof.
    intro M. split; [intros (_ & A); exact A|intro A; split; [|exact A]].
    apply Forall_forall. intros j Hj J. rewrite (no_masters_jm s j M Hj) in J. discriminate J.
  Qed.

  (* the parser detaches or frees queued candidates *)
  Lemma cparts_detached s us' :
    (forall u, In u us' -> exists u0, In u0 (x_unords s) /\ (u = u0 \/ (u_inq u0 = true /\ u = u_detach false u0))) ->
    cparts s -> cparts (set_unords us' s).
  Proof.
    intros ST (Cm & Cu & Cn). split; [|split]; unfold all_jobs in *; xs.
    - eapply Forall_impl; [|exact Cm]. simpl. intros j K J. apply K. revert J. unfold jm. destruct (r_link j) as [id|]; auto.
      rewrite !existsb_exists. intros (u & Hu & E). destruct (ST u Hu) as (u0 & H0 & [->|[_ ->]]); [exists u0; auto|].
      simpl in E. rewrite andb_false_r in E. discriminate.
    - apply Forall_forall. intros u Hu Q C. rewrite Forall_forall in Cu.
      destruct (ST u Hu) as (u0 & H0 & [->|[_ ->]]); auto. simpl in Q. discriminate.
    - intros K1 K2. specialize (Cn K1 K2). apply Forall_forall. intros u Hu. rewrite Forall_forall in Cn.
      destruct (ST u Hu) as (u0 & H0 & [->|[_ ->]]); auto.
  Qed.

  (* do_parse has confirmed a block header at its position *)
  (* parse_ok(): the header is pushed and the candidates below it are detached ([s2]); then a master job is
     created, or the candidate [u] at the parser's position is adopted and the parser jumps to its end *)
  Lemma parse_ok_split cfg lv crc s :
    inv s -> masters s = 0%nat -> x_parsing_done s = false -> dbs_norm (x_parser_bs s) = true ->
    let p := d_pos (x_parser_bs s) in
    let s2 := set_unords (discard_below p (x_unords s)) (set_order_q (x_order_q s ++ [mkhead p lv crc]) s) in
    inv s2 /\ masters s2 = 0%nat /\
    (parse_ok cfg lv crc s = set_retr_q (mkrjob p (x_parser_bs s) None :: x_retr_q s) s2 \/
     exists u, In u (x_unords s2) /\ u_inq u = true /\ u_base u = p /\ dbs_ok (u_end u) = true /\
       d_bit (x_parser_bs s) <= d_bit (u_end u) /\ x_head_offs s2 <= d_off (u_end u) /\
       let s3 := advance cfg (u_end u) s2 in
       parse_ok cfg lv crc s =
       give_unit (if u_complete u then set_parse_token true (set_unords (del_unord (u_id u) (x_unords s3)) s3)
                  else set_unords (upd_unord (u_id u) (u_detach true) (x_unords s3)) s3)).
  Proof.
    intros I M0 PD NB p s2. set (s1 := set_order_q (x_order_q s ++ [mkhead p lv crc]) s) in *.
    assert (I1 : inv s1) by (apply (inv_view s); [constructor; try reflexivity; intros; reflexivity|exact I]).
    destruct (inv_detached s1 (discard_below p (x_unords s))) as (I2 & M2);
      [apply discard_below_spec|apply nodup_discard; apply I|exact I1|]. fold s2 in I2, M2.
    assert (M2' : masters s2 = 0%nat) by (change (masters s1) with (masters s) in M2; rewrite M0 in M2; apply Nat.le_0_r; exact M2).
    split; [exact I2|]. split; [exact M2'|].
    destruct (parse_ok_cases cfg lv crc s) as [(_ & E)|(u & Q & PE & E)]; [left; exact E|right].
    apply qmin_In in Q. apply filter_In in Q as [Hu Qi].
    pose proof (i_unord _ I2) as UO. rewrite Forall_forall in UO. destruct (UO u Hu) as (O1 & _). destruct (O1 Qi) as (Oe & Ob & _).
    rewrite PE in Ob. change (fst (d_pos (x_parser_bs s))) with (d_bit (x_parser_bs s)) in Ob.
    pose proof (i_parser _ I2 PD) as HP. change (x_parser_bs s2) with (x_parser_bs s) in HP.
    exists u. repeat (split; [assumption|]). split; [|exact E].
    clear - HP Ob Oe NB. unfold dbs_ok, dbs_norm in *. lia.
  Qed.

  Lemma cparse_ok cfg lv crc s :
    inv s -> masters s = 0%nat -> nparse s = 0%nat -> x_parse_token s = false -> x_parsing_done s = false ->
    dbs_norm (x_parser_bs s) = true -> x_next s = d_bit (x_parser_bs s) -> cparts s -> cqueues s ->
    CSq (d_bit (blk_end O (d_bit (x_parser_bs s)))) (set_order_q (x_order_q s ++ [mkhead (d_pos (x_parser_bs s)) lv crc]) s) ->
    cinv (parse_ok cfg lv crc s).
  Proof.
    intros I M0 N0 T0 PD NB NX P0 Cq CS. rewrite <- NX in CS.
    destruct (parse_ok_split cfg lv crc s I M0 PD NB) as (I2 & M2' & PC).
    set (p := d_pos (x_parser_bs s)) in *. set (s1 := set_order_q (x_order_q s ++ [mkhead p lv crc]) s) in *.
    assert (P2 : cparts (set_unords (discard_below p (x_unords s)) s1))
      by (apply (cparts_detached s1); [apply discard_below_spec|exact P0]).
    set (s2 := set_unords (discard_below p (x_unords s)) s1) in *.
    destruct PC as [->|(u & Hu & Qi & PE & Oe & Ob & HD & ->)].
    - (* no candidate here: a master job is created *)
      split; [|split; [|exact Cq]].
      + set (st' := set_retr_q _ _). rewrite (pnext_idle st' T0 N0). exact CS.
      + destruct P2 as (A & B). split; [|exact B]. unfold all_jobs in *. xs. constructor; [|exact A].
        intros _. symmetry. exact NX.
    - (* the candidate at this position is adopted: the parser jumps to its end *)
      assert (FB : fst (u_base u) = x_next s) by (rewrite PE, NX; reflexivity).
      destruct (inv_advance cfg (u_end u) s2 I2 M2' HD) as (I3 & M3 & _).
      pose proof (cparts_advance cfg (u_end u) s2 I2 M2' HD P2) as P3.
      pose proof (CSq_advance _ cfg (u_end u) s2 CS) as CS3. pose proof (cqueues_advance cfg (u_end u) s2 Cq) as Q3.
      assert (RJ : forall j, In j (all_jobs s2) -> links (u_id u) j = true -> u_base u = r_base j).
      { intros j Hj L. pose proof (i_jobs _ I2) as Ij. rewrite Forall_forall in Ij. destruct (Ij j Hj) as (_ & _ & _ & _ & J5).
        apply optN_eqb_eq in L. exact (proj1 (J5 _ u L Hu eq_refl)). }
      assert (UE : u_complete u = true -> u_end u = blk_end O (x_next s)).
      { intro UC. pose proof (proj1 (proj2 P2)) as Pu. rewrite Forall_forall in Pu.
        destruct (Pu u Hu Qi UC) as [A|A]; [rewrite A, FB; reflexivity|exfalso; exact (N.lt_irrefl _ (N.lt_le_trans _ _ _ A HD))]. }
      pose proof (fun j => advance_jobs_sub cfg (u_end u) s2 j I2 M2' HD) as AJ3.
      assert (E3 : x_parse_token (advance cfg (u_end u) s2) = false /\ nparse (advance cfg (u_end u) s2) = 0%nat /\
                   x_next (advance cfg (u_end u) s2) = x_next s /\ x_parser_bs (advance cfg (u_end u) s2) = u_end u)
        by (unfold nparse in *; rewrite advance_eq; auto).
      generalize dependent (advance cfg (u_end u) s2). intros s3 I3 M3 P3 CS3 Q3 AJ3 (T3 & N3 & NX3 & PB3).
      destruct (u_complete u) eqn:UC.
      + (* retrieved already: the parser goes on behind the block *)
        split; [|split; [|exact Q3]].
        * set (st' := give_unit _). rewrite (pnext_token st' eq_refl). subst st'. unfold give_unit. xs. rewrite PB3, (UE eq_refl). exact CS3.
        * exact (cparts_del_unord (u_id u) (set_parse_token true s3) (inv_set_token s3 I3 M3 N3) P3).
      + (* still being retrieved: its job becomes the master *)
        split; [|split; [|exact Q3]].
        * set (st' := give_unit _). rewrite (pnext_idle st' T3 N3). subst st'. unfold give_unit. xs. rewrite NX3. exact CS3.
        * destruct P3 as (A & B & C). split; [|split]; unfold give_unit, all_jobs in *; xs.
          -- apply Forall_forall. intros x Hx J. destruct (jm_detach _ _ _ J) as [J1|J1].
             ++ exfalso. rewrite (no_masters_jm s3 x M3 Hx) in J1. discriminate J1.
             ++ rewrite NX3, <- FB, (RJ x (AJ3 x Hx) J1). reflexivity.
          -- apply Forall_forall. intros v Hv Qv Cv. destruct (in_upd_unord_inv _ _ _ _ Hv) as (v0 & H0 & [(K & ->)|(K & ->)]).
             ++ discriminate Qv.
             ++ rewrite Forall_forall in B. exact (B v0 H0 Qv Cv).
          -- intros K1 K2. specialize (C K1 K2). rewrite Forall_forall in C. apply Forall_forall. intros v Hv.
             destruct (in_upd_unord_inv _ _ _ _ Hv) as (v0 & H0 & [(K & ->)|(K & ->)]); [reflexivity|exact (C v0 H0)].
  Qed.

  Lemma flush_noinq us : Forall (fun u => u_inq u = false) (flush_unords us).
  Proof.
    unfold flush_unords. apply Forall_forall. intros u Hu. apply in_map_iff in Hu. destruct Hu as (u0 & <- & H0).
    destruct (u_inq u0) eqn:Q; auto.
  Qed.

  (* do_parse at the end of the stream *)
  Lemma cparse_finish cfg g s :
    inv s -> masters s = 0%nat -> nparse s = 0%nat -> x_failed s = None -> cparts s -> cqueues s ->
    (forall L R, SeqDec O 0 0 L R -> exists l', L = x_written s ++ l' /\
       if finish_eof_error (x_parser_bs s) g s then R = false else Rest (x_order_q s) true (x_par s) 0 l' R) ->
    cinv (parse_finish cfg g s).
  Proof.
    intros I M0 N0 NF (_ & Pu & _) Cq CS. pose proof (inv_parse_finish cfg g s I M0 N0) as IR.
    rewrite parse_finish_eq in *. cbv zeta in *. cbn [d_off d_bit] in *. unfold finish_eof_error in CS. cbv zeta in CS.
    destruct (_ && _).
    - (* unexpected end of file *)
      split; [|split; [apply cparts_no_masters; [exact M0|split; [exact Pu|discriminate]]|exact Cq]].
      intros L R SD. destruct (CS L R SD) as (l' & E & F). exists l'. exact (conj E F).
    - match goal with |- cinv ?r => set (r0 := r) in * end.
      assert (MR : masters r0 = 0%nat).
      { pose proof (i_excl _ IR) as Ie. change (x_parse_token r0) with true in Ie. unfold masters. cbn [b2n] in Ie. lia. }
      split; [|split; [apply cparts_no_masters; [exact MR|]|exact Cq]].
      + rewrite (pnext_token r0 eq_refl). intros L R SD. destruct (CS L R SD) as (l' & E & F). exists l'. split; [exact E|].
        subst r0. xs. rewrite NF. eapply Rest_done_any; exact F.
      + (* unord_q has been flushed *)
        split; [eapply Forall_impl; [|exact (flush_noinq _)]; cbn beta; intros u Q1 Q2; congruence|]. intros _ _. exact (flush_noinq _).
  Qed.

  Lemma cinv_parse1 cfg att r st st' :
    x_failed st = None -> inv st -> cinv st -> ev_ok O st (EvParse1 att r) -> parse1 cfg att r st = Some st' -> cinv st'.
  Proof.
    intros NF I (Cs & Cp & Cq) EV H.
    destruct (parse1_inv _ _ _ _ _ H) as (l1 & l2 & E & D & G). cbv zeta in G. destruct G as (_ & _ & Hoff & _ & CASE).
    destruct (inv_del_parse _ _ _ D I) as (I1 & M1 & N1 & T1 & PD1).
    (* the parser's continuation holds the reference position *)
    assert (PN0 : pnext st = d_bit (x_parser_bs st)).
    { unfold pnext, nparse. rewrite E, filter_len_app. cbn [filter is_parse length]. rewrite Nat.add_succ_r. cbn [Nat.eqb negb]. rewrite orb_true_r. reflexivity. }
    rewrite PN0 in Cs. set (p0 := d_bit (x_parser_bs st)) in *.
    apply (cparts_del_run _ _ _ _ E) in Cp as (Cp & _). apply (cqueues_del_run _ _ _ _ E) in Cq as (Cq & _).
    apply (inv_view _ _ (view_detach att _)) in I1. apply (cparts_detach att) in Cp. apply (cqueues_detach att) in Cq.
    apply (CSq_detach _ att (set_running (l1 ++ l2) st)) in Cs.
    set (s2 := detach att (set_running (l1 ++ l2) st)) in *.
    assert (E2 : masters s2 = 0%nat /\ x_parser_bs s2 = x_parser_bs st /\ x_parsing_done s2 = false)
      by (subst s2; unfold masters, all_jobs in *; rewrite detach_nf; auto).
    destruct E2 as (M2 & PB2 & PD2).
    assert (HD : x_head_offs s2 <= d_off (res_bs r)).
    { pose proof (i_parser _ I1 PD2) as HP. rewrite PB2 in HP. exact (N.le_trans _ _ _ HP Hoff). }
    destruct (inv_advance cfg (res_bs r) _ I1 M2 HD) as (I3 & M3 & _).
    apply (cparts_advance cfg (res_bs r) _ I1 M2 HD) in Cp. apply (cqueues_advance cfg (res_bs r)) in Cq.
    apply (CSq_advance _ cfg (res_bs r)) in Cs.
    set (s3 := advance cfg (res_bs r) s2) in *.
    assert (E3 : nparse s3 = 0%nat /\ x_parse_token s3 = false /\ x_parsing_done s3 = false /\ x_failed s3 = None /\
                 x_par s3 = x_par st /\ x_tail_offs s3 = x_tail_offs st /\ x_eof_missing s3 = x_eof_missing st /\
                 x_parser_bs s3 = res_bs r)
      by (subst s3 s2; unfold nparse in *; rewrite advance_eq, detach_nf; auto 10).
    destruct E3 as (N3 & T3 & PD3 & NF3 & PA3 & TL3 & EM3 & PB3).
    subst s3. generalize dependent (advance cfg (res_bs r) s2). intro s3. intros.
    (* what is still to be written, seen from the state the parser was resumed in *)
    assert (RS3 : forall L R, SeqDec O 0 0 L R -> exists l', L = x_written s3 ++ l' /\ Rest (x_order_q s3) false (x_par st) p0 l' R).
    { intros L R SD. destruct (Cs L R SD) as (l' & EL & RS). rewrite NF3, PD3, PA3 in RS. eauto. }
    destruct r as [bs ps|bs g|bs code|bs ps lv crc]; cbn [res_bs ev_ok] in *; fold p0 in EV.
    - destruct CASE as (_ & _ & ->). split; [|exact (conj Cp Cq)].
      set (st' := set_work_units _ _). rewrite (pnext_token st' eq_refl). subst st'. xs. rewrite PB3.
      intros L R SD. destruct (RS3 L R SD) as (l' & EL & RS). exists l'. split; [exact EL|]. xs. rewrite NF3, PD3.
      exact (Rest_more _ _ _ _ _ _ _ _ EV RS).
    - destruct CASE as (_ & _ & ->). apply cparse_finish; try assumption.
      intros L R SD. destruct (RS3 L R SD) as (l' & EL & RS). exists l'. split; [exact EL|].
      replace (finish_eof_error (x_parser_bs s3) g s3) with (finish_eof_error bs g st)
        by (unfold finish_eof_error; rewrite PB3, TL3, EM3; reflexivity).
      pose proof (Rest_finish _ _ _ _ _ _ EV RS) as RF. destruct (finish_eof_error bs g st); [exact RF|].
      rewrite PA3. exact (Rest_done_any _ _ _ _ _ _ _ RF).
    - destruct CASE as (_ & _ & _ & ->). destruct Cp as (A & B & _).
      split; [|split; [split; [exact A|split; [exact B|discriminate]]|exact Cq]].
      intros L R SD. destruct (RS3 L R SD) as (l' & EL & RS). exists l'. split; [exact EL|]. exact (Rest_err _ _ _ _ _ _ EV RS).
    - destruct CASE as (NB & ->). destruct Cp as (_ & B).
      apply cparse_ok; xs; try assumption.
      + apply (inv_view s3); [constructor; try reflexivity; intros; reflexivity|exact I3].
      + rewrite PB3. exact NB.
      + rewrite PB3. reflexivity.
      + apply cparts_no_masters; [exact M3|exact B].
      + rewrite PB3. intros L R SD. destruct (RS3 L R SD) as (l' & EL & RS). exists l'. split; [exact EL|]. xs. rewrite NF3, PD3.
        exact (Rest_push _ _ _ _ _ _ _ _ _ EV RS).
  Qed.

  Theorem cinv_step cfg st e st' :
    cfg_safe cfg -> inv st -> cinv st -> ev_ok O st e -> step cfg st e = Some st' -> cinv st'.
  Proof.
    intros CS I C EV H. unfold step in H. destruct (x_failed st) eqn:NF; [discriminate|].
    destruct e.
    - eapply cinv_input; eauto.
    - eapply cinv_eof; eauto.
    - eapply cinv_written; eauto.
    - eapply cinv_parse0; eauto.
    - eapply cinv_parse1; eauto.
    - eapply cinv_retr0; eauto.
    - eapply cinv_retr1; eauto.
    - eapply cinv_retr2; eauto.
    - eapply cinv_emit0; eauto.
    - eapply cinv_emit1; eauto.
    - eapply cinv_reorder; eauto.
    - eapply cinv_scan0; eauto.
    - eapply cinv_scan1; eauto.
  Qed.

  Lemma oreach_reach cfg s0 st : oreach O cfg s0 st -> reach cfg s0 st.
  Proof. induction 1; [constructor|econstructor; eauto]. Qed.

  Theorem cinv_oreach cfg n tin tout ultra st :
    cfg_safe cfg -> oreach O cfg (init_state n tin tout ultra) st -> inv st /\ cinv st.
  Proof.
    intros CS R. induction R as [|st e st' R IH EV H].
    - split; [apply inv_init|apply cinv_init].
    - destruct IH as [I C]. split; [eapply inv_step; eauto|eapply cinv_step; eauto].
  Qed.

  (* C10: whatever the scanner reported, for every worker count, slot configuration,
     input fragmentation and interleaving: what has been handed to the writer is a
     prefix of the sequential decoding; a failing run means the sequential decoding
     fails; a run that terminates normally has handed over exactly the sequential
     decoding, which then succeeds. *)
  Theorem speculation_free cfg n tin tout ultra st L R :
    cfg_safe cfg -> oreach O cfg (init_state n tin tout ultra) st -> SeqDec O 0 0 L R ->
    (exists l', L = x_written st ++ l') /\
    (x_failed st <> None -> R = false) /\
    (x_failed st = None -> x_parsing_done st = true -> x_order_q st = [] -> x_written st = L /\ R = true).
  Proof.
    intros CS RE SD. destruct (cinv_oreach _ _ _ _ _ _ CS RE) as [I (C & _)].
    destruct (C L R SD) as (l' & EL & RS). split; [eauto|]. split.
    - intro NF. destruct (x_failed st); [auto|congruence].
    - intros NF PD OQ. rewrite NF, PD, OQ in RS. inversion RS; subst. rewrite app_nil_r. auto.
  Qed.
End C10.
