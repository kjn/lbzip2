(* (L3) The label hypothesis of SchedX/XLiveTerm.v [ev_term] about emit() ("emit() returns MORE
   fewer than K times for one block"), derived from the model of decode()/emit()
   (Safe/EmitModel.v) and its proofs (Safe/EmitProofs.v).

   [decode_emit col idx rand sizes] = decode(), then emit() called with the buffer sizes
   [sizes] one after the other as long as it returns MORE.  Every call that returns MORE filled
   its buffer completely (>= 1 byte), and everything written is a prefix of the un-run-length-
   encoded block [unrle false 256 0 (block_of col idx rand)], which is at most 255 bytes per byte
   of the block: so at most 255 * 900000 calls return MORE, whatever the buffer sizes; with
   buffers of >= b bytes, at most (255 * 900000) / b. *)
From Coq Require Import List NArith Arith Bool Lia.
From LBZ Require Import Gen.Consts Gen.CrcTab Gen.DecTabs Dec.Prog Dec.Format Safe.EmitModel Safe.EmitProofs.
Import ListNotations.
Local Open Scope N_scope.

Lemma unrle_length strict : forall blk prev cnt o,
  Forall (fun c => c < 256) blk -> unrle strict prev cnt blk = Ok o ->
  N.of_nat (length o) <= 255 * N.of_nat (length blk).
Proof.
  induction blk as [|c r IH]; intros prev cnt o HF H; cbn [unrle] in H.
  - destruct (strict && (cnt =? 4)); [discriminate|]. injection H as <-. cbn. lia.
  - inversion HF as [|? ? Hc HF']; subst. cbn [length]. rewrite Nat2N.inj_succ.
    destruct (cnt =? 4).
    + destruct (unrle strict 256 0 r) as [o'|e] eqn:E; [|discriminate]. cbn [rbind] in H. injection H as <-.
      specialize (IH _ _ _ HF' E). rewrite app_length, repeat_length, Nat2N.inj_add, N2Nat.id. lia.
    + destruct (unrle strict c (if c =? prev then cnt + 1 else 1) r) as [o'|e] eqn:E; [|discriminate].
      cbn [rbind] in H. injection H as <-. specialize (IH _ _ _ HF' E). cbn [length]. rewrite Nat2N.inj_succ. lia.
Qed.

Lemma unrle_false_total : forall blk prev cnt, exists o, unrle false prev cnt blk = Ok o.
Proof.
  induction blk as [|c r IH]; intros prev cnt; cbn [unrle andb]; [eauto|].
  destruct (cnt =? 4).
  - destruct (IH 256 0) as [o ->]. cbn [rbind]. eauto.
  - destruct (IH c (if c =? prev then cnt + 1 else 1)) as [o ->]. cbn [rbind]. eauto.
Qed.

(* what decode() hands to emit(): bytes, as many as the block has *)
Lemma block_of_bytes col idx rand : block_ok col idx ->
  Forall (fun c => c < 256) (block_of col idx rand) /\ length (block_of col idx rand) = length col.
Proof.
  intro H. destruct (decode_inv col idx rand 0 H) as (tt' & ft' & st & _ & _ & _ & _ & S0 & AV & _ & HI).
  destruct HI as (ws & _ & HA & _ & _ & _ & _ & _ & [(_ & _ & _ & R)|[(S5 & _)|(S14 & _)]]).
  - rewrite R. split.
    + apply Forall_forall. intros x Hx. apply in_map_iff in Hx as [w [<- _]]. apply low8_lt.
    + rewrite map_length. rewrite AV in HA. lia.
  - rewrite S0 in S5. discriminate.
  - rewrite S0 in S14. destruct S14 as [X|[X|[X|X]]]; discriminate.
Qed.

Definition MAX_BLOCK_OUTPUT : N := 255 * MAX_BLOCK_SIZE.

Theorem block_output_bounded col idx rand : block_ok col idx ->
  exists out, unrle false 256 0 (block_of col idx rand) = Ok out /\
              N.of_nat (length out) <= 255 * N.of_nat (length col) <= MAX_BLOCK_OUTPUT.
Proof.
  intro H. destruct (unrle_false_total (block_of col idx rand) 256 0) as [out E].
  destruct (block_of_bytes col idx rand H) as [F L].
  pose proof (unrle_length false _ _ _ _ F E) as B. rewrite L in B.
  exists out. split; [exact E|]. split; [exact B|].
  destruct H as (_ & [_ M] & _). unfold MAX_BLOCK_OUTPUT. lia.
Qed.

(* [emit_run]: the chunks written are one per call; all calls but the last returned MORE (a run
   that is RPending consists of MORE calls only); cutting the sizes after the MORE calls gives
   the RPending run of exactly these calls *)
Lemma emit_run_finished_split tt : forall sizes st status chunks st',
  emit_run tt st sizes = RFinished status chunks st' ->
  exists pre last stm, chunks = pre ++ [last] /\ (length pre < length sizes)%nat /\
                       emit_run tt st (firstn (length pre) sizes) = RPending pre stm.
Proof.
  induction sizes as [|b rest IH]; intros st status chunks st' H; cbn [emit_run] in H; [discriminate|].
  destruct (emit_model tt st b) as [[[[s out] st1] m]|f] eqn:EM; [|discriminate].
  destruct (s =? E_MORE) eqn:ES.
  - destruct (emit_run tt st1 rest) as [s2 cs st2|cs st2|f] eqn:ER; cbn [rcons] in H; try discriminate.
    injection H as -> <- ->. destruct (IH _ _ _ _ ER) as (pre & last & stm & -> & L & P).
    exists (out :: pre), last, stm. split; [reflexivity|]. split; [cbn [length]; lia|].
    cbn [length firstn emit_run]. rewrite EM, ES, P. reflexivity.
  - injection H as -> <- ->. exists [], out, st. split; [reflexivity|]. split; [cbn [length]; lia|]. reflexivity.
Qed.

Lemma firstn_In' {A} (x : A) : forall n l, In x (firstn n l) -> In x l.
Proof.
  induction n as [|n IH]; intros [|y l] H; cbn [firstn] in H; try contradiction.
  destruct H as [->|H]; [left; reflexivity|right; apply IH; exact H].
Qed.

Lemma firstn_sizes_ok n sizes : sizes_ok sizes -> sizes_ok (firstn n sizes).
Proof.
  unfold sizes_ok. rewrite !Forall_forall. intros H x Hx. apply H. eapply firstn_In'; eauto.
Qed.

Lemma total_ge_length sizes : sizes_ok sizes -> N.of_nat (length sizes) <= total sizes.
Proof.
  induction 1 as [|b bs [Hb _] _ IH]; [cbn; lia|]. cbn [length total fold_right]. fold (total bs).
  rewrite Nat2N.inj_succ. lia.
Qed.

Lemma total_ge_mul b sizes : Forall (fun x => b <= x) sizes -> b * N.of_nat (length sizes) <= total sizes.
Proof.
  induction 1 as [|x bs Hb _ IH]; [cbn; lia|]. cbn [length total fold_right]. fold (total bs).
  rewrite Nat2N.inj_succ. lia.
Qed.

(* a run of MORE calls: the buffers were filled and what was written is the beginning of the
   (non-strict) output of the block *)
Lemma pending_prefix col idx rand sizes chunks st' out : block_ok col idx -> sizes_ok sizes ->
  decode_emit col idx rand sizes = RPending chunks st' ->
  unrle false 256 0 (block_of col idx rand) = Ok out ->
  length chunks = length sizes /\ N.of_nat (length (concat chunks)) = total sizes /\
  exists more, out = concat chunks ++ more.
Proof.
  intros H Hs E Hout.
  destruct (decode_inv col idx rand 0 H) as (tt' & ft' & st & HD & _ & _ & _ & _ & _ & _ & HI).
  rewrite (decode_emit_unfold _ _ _ _ _ _ _ HD) in E.
  pose proof (emit_run_spec sizes tt' st 0 256 _ M1 HI Hs) as HR. rewrite E in HR.
  destruct HR as (HF & k' & d' & rest' & _ & Hu). split; [|split].
  - clear -HF. induction HF; cbn [length]; congruence.
  - clear -HF. induction HF as [|c b cs bs Hc HF IH]; [reflexivity|].
    cbn [concat total fold_right]. rewrite app_length. fold (total bs). lia.
  - rewrite (Hu false) in Hout. destruct (unrle false d' k' rest') as [o|e]; [|discriminate].
    cbn [rbind] in Hout. injection Hout as <-. eauto.
Qed.

(* the number of emit() calls that return MORE, for ANY buffer sizes >= 1:
   [more_calls r] = number of calls of the run that returned MORE *)
Definition more_calls (r : run_result) : nat :=
  match r with
  | RFinished _ chunks _ => pred (length chunks)
  | RPending chunks _ => length chunks
  | RFault _ => 0%nat
  end.

(* the sizes of the buffers of the calls that returned MORE add up to at most the output size *)
Theorem emit_more_calls_filled col idx rand sizes out : block_ok col idx -> sizes_ok sizes ->
  unrle false 256 0 (block_of col idx rand) = Ok out ->
  (more_calls (decode_emit col idx rand sizes) <= length sizes)%nat /\
  total (firstn (more_calls (decode_emit col idx rand sizes)) sizes) <= N.of_nat (length out).
Proof.
  intros H Hs Hout.
  destruct (decode_emit col idx rand sizes) as [status chunks st'|chunks st'|f] eqn:E; cbn [more_calls].
  - pose proof E as E0.
    destruct (decode_inv col idx rand 0 H) as (tt' & ft' & st & HD & _).
    rewrite (decode_emit_unfold _ _ _ _ _ _ _ HD) in E.
    destruct (emit_run_finished_split _ _ _ _ _ _ E) as (pre & last & stm & -> & L & P).
    rewrite app_length. cbn [length]. rewrite Nat.add_1_r. cbn [pred]. split; [lia|].
    rewrite <- (decode_emit_unfold _ _ _ _ _ _ _ HD) in P.
    destruct (pending_prefix _ _ _ _ _ _ _ H (firstn_sizes_ok _ _ Hs) P Hout) as (_ & T & more & ->).
    rewrite <- T, app_length, Nat2N.inj_add. lia.
  - destruct (pending_prefix _ _ _ _ _ _ _ H Hs E Hout) as (L & T & more & ->).
    split; [lia|]. rewrite L, firstn_all, <- T, app_length, Nat2N.inj_add. lia.
  - cbn [firstn total fold_right]. split; lia.
Qed.

(* H4: fewer than K = MAX_BLOCK_OUTPUT + 1 calls return MORE for one block; with buffers of at
   least b bytes each, at most MAX_BLOCK_OUTPUT / b *)
Theorem emit_more_calls_bounded col idx rand sizes : block_ok col idx -> sizes_ok sizes ->
  N.of_nat (more_calls (decode_emit col idx rand sizes)) <= 255 * N.of_nat (length col) <= MAX_BLOCK_OUTPUT.
Proof.
  intros H Hs. destruct (block_output_bounded col idx rand H) as (out & Hout & B1 & B2).
  destruct (emit_more_calls_filled col idx rand sizes out H Hs Hout) as [L T].
  pose proof (total_ge_length _ (firstn_sizes_ok (more_calls (decode_emit col idx rand sizes)) _ Hs)) as G.
  rewrite firstn_length, Nat.min_l in G by exact L. split; [lia|exact B2].
Qed.

Theorem emit_more_calls_bounded_buf col idx rand sizes b : block_ok col idx -> sizes_ok sizes ->
  1 <= b -> Forall (fun x => b <= x) sizes ->
  N.of_nat (more_calls (decode_emit col idx rand sizes)) <= MAX_BLOCK_OUTPUT / b.
Proof.
  intros H Hs Hb HB. destruct (block_output_bounded col idx rand H) as (out & Hout & B1 & B2).
  destruct (emit_more_calls_filled col idx rand sizes out H Hs Hout) as [L T].
  assert (HB' : Forall (fun x => b <= x) (firstn (more_calls (decode_emit col idx rand sizes)) sizes)).
  { rewrite Forall_forall in *. intros x Hx. apply HB. eapply firstn_In'; eauto. }
  pose proof (total_ge_mul b _ HB') as G. rewrite firstn_length, Nat.min_l in G by exact L.
  apply N.div_le_lower_bound; lia.
Qed.

Lemma max_block_output_value : MAX_BLOCK_OUTPUT = 229500000.
Proof. reflexivity. Qed.

(* the same, counting the MORE results of the calls directly *)
Fixpoint emit_more_count (tt : list N) (st : estate) (sizes : list N) : nat :=
  match sizes with
  | [] => 0%nat
  | b :: rest =>
      match emit_model tt st b with
      | Bad _ => 0%nat
      | Good (status, _, st', _) => if status =? E_MORE then S (emit_more_count tt st' rest) else 0%nat
      end
  end.

Lemma more_calls_count tt : forall sizes st,
  match emit_run tt st sizes with
  | RFinished _ cs _ => cs <> [] /\ pred (length cs) = emit_more_count tt st sizes
  | RPending cs _ => length cs = emit_more_count tt st sizes
  | RFault _ => True
  end.
Proof.
  induction sizes as [|b rest IH]; intro st; cbn [emit_run emit_more_count]; [reflexivity|].
  destruct (emit_model tt st b) as [[[[s out] st1] m]|f]; [|exact I].
  destruct (s =? E_MORE).
  - specialize (IH st1). destruct (emit_run tt st1 rest) as [s2 cs st2|cs st2|f]; cbn [rcons]; [| |exact I].
    + destruct IH as [NE IH]. split; [discriminate|]. cbn [length pred]. rewrite <- IH.
      destruct cs; [congruence|reflexivity].
    + cbn [length]. rewrite IH. reflexivity.
  - split; [discriminate|reflexivity].
Qed.

(* decode(), then emit() with the buffer sizes [sizes]: how many of the calls return MORE *)
Definition decode_more_count (col : list N) (idx : N) (rand : bool) (sizes : list N) : nat :=
  match decode_model col (ftab_of col) (N.of_nat (length col)) idx rand 0 with
  | Bad _ => 0%nat
  | Good (tt', _, st) => emit_more_count tt' st sizes
  end.

Lemma decode_more_count_calls col idx rand sizes : block_ok col idx -> sizes_ok sizes ->
  decode_more_count col idx rand sizes = more_calls (decode_emit col idx rand sizes).
Proof.
  intros H Hs. pose proof (emit_safe col idx rand sizes H Hs) as NF.
  unfold decode_more_count, decode_emit in *.
  destruct (decode_model col (ftab_of col) (N.of_nat (length col)) idx rand 0) as [[[tt' ft'] st]|f]; [|contradiction].
  pose proof (more_calls_count tt' sizes st) as C.
  destruct (emit_run tt' st sizes) as [s cs st2|cs st2|f]; cbn [more_calls]; [| |contradiction].
  - symmetry. exact (proj2 C).
  - symmetry. exact C.
Qed.

Theorem emit_more_count_bounded col idx rand sizes b : block_ok col idx -> sizes_ok sizes ->
  1 <= b -> Forall (fun x => b <= x) sizes ->
  N.of_nat (decode_more_count col idx rand sizes) <= MAX_BLOCK_OUTPUT / b <= MAX_BLOCK_OUTPUT.
Proof.
  intros H Hs Hb HB. rewrite (decode_more_count_calls _ _ _ _ H Hs). split.
  - apply emit_more_calls_bounded_buf; assumption.
  - apply N.div_le_upper_bound; [lia|]. unfold MAX_BLOCK_OUTPUT. nia.
Qed.

(* non-vacuity: the block of Safe/EmitProofs.v (14 bytes of output), one byte per call:
   13 calls return MORE, the 14th returns OK *)
Example emit_more_count_example :
  decode_more_count ex_col 5 false [1; 1; 1; 1; 1; 1; 1; 1; 1; 1; 1; 1; 1; 1; 1] = 13%nat /\
  decode_more_count ex_col 5 false [4; 4; 4; 4; 4] = 3%nat.
Proof. vm_compute. split; reflexivity. Qed.

Print Assumptions emit_more_calls_bounded.
Print Assumptions emit_more_calls_bounded_buf.
Print Assumptions emit_more_count_bounded.
Print Assumptions block_output_bounded.
