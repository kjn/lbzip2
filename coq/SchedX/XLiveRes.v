(* Liveness of the decompression scheduler: the invariant [lrs] (XLiveDefs.v) is inductive.

     lr_ch  the buffers of a line are contiguous: for every position (b, n) of an emit-stage
            job or of a buffer in reord_q and every k < n, the buffer (b, k) with status MORE
            waits in reord_q, or the order has moved past (b, k)
     lr_rs  EMIT_THRESH output slots stay reserved for what is at or before the head of
            order_q: free slots + buffers at the writer + buffers of reord_q and running emit
            jobs that are at or before the head

   Hypotheses of the step theorem: [inv st] (the parser runs only while parsing_done is
   false; retrieve jobs have sub-position 0), [own st] (only its [oshape] part: heads of
   order_q sorted by bit position and <= x_next; used by do_reorder), [ev_next st e] (a POk
   label lies >= 32 bits beyond the block confirmed last) and [x_failed st' = None] (a
   failing do_reorder drops its buffer).  cfg_safe, cfg_drops, cnt, sown are not needed. *)
From Coq Require Import List NArith Bool Lia Arith ZifyBool ZifyN ZifyNat Sorted.
From LBZ Require Import Gen.Consts SchedX.XState Gen.SchedXTab SchedX.XSet SchedX.XModel SchedX.XLemmas
  SchedX.XFrame SchedX.XStep SchedX.XInvDefs SchedX.XInv SchedX.XInv2 SchedX.XInv4
  SchedX.XOwn SchedX.XOwnProofs SchedX.XLiveDefs.
Import ListNotations.
Local Open Scope N_scope.

Definition cemits (c : cont) : list ejob := match c with CEmit e => [e] | _ => [] end.
Definition emits (r : list cont) : list ejob := flat_map cemits r.

Lemma emits_app a b : emits (a ++ b) = emits a ++ emits b.
Proof. unfold emits. apply flat_map_app. Qed.

Lemma emits_cons c r : emits (c :: r) = cemits c ++ emits r.
Proof. reflexivity. Qed.

Lemma res_len st r :
  length (filter (res_cont st) r) = length (filter (fun e => atmostb st (e_base e)) (emits r)).
Proof.
  induction r as [|c r IH]; [reflexivity|]. rewrite emits_cons.
  destruct c; simpl; auto. destruct (atmostb st (e_base e)); simpl; auto.
Qed.

Lemma cejobs_cemits c : cejobs c = [] -> cemits c = [].
Proof. destruct c; simpl; auto. Qed.

Definition omono (st st' : xstate) : Prop :=
  (forall x, passed st x -> passed st' x) /\ (forall x, atmostb st x = true -> atmostb st' x = true).

Lemma omono_same st st' :
  x_order_q st' = x_order_q st -> x_next st' = x_next st -> x_parsing_done st' = x_parsing_done st -> omono st st'.
Proof. unfold omono, passed, atmostb. intros -> -> ->. auto. Qed.

(* do_parse confirms a block: x_next moves to the new head, which is pushed at the back *)
Lemma omono_push st st' p lv crc :
  x_parsing_done st = false -> x_next st < p ->
  x_order_q st' = x_order_q st ++ [mkhead (p, 0) lv crc] -> x_next st' = p -> x_parsing_done st' = x_parsing_done st ->
  omono st st'.
Proof.
  intros PD LT EO EN ED. split.
  - intros x [[A|A] B]; [|congruence]. split; [left; rewrite EN; lia|].
    intros h Hh. rewrite EO in Hh. apply in_app_or in Hh. destruct Hh as [Hh|[<-|[]]]; auto.
    unfold lexlt. simpl. lia.
  - intros x. unfold atmostb. rewrite EO, EN, ED, PD. destruct (x_order_q st) as [|h r]; simpl; auto.
    rewrite orb_false_r. intro A. apply N.leb_le in A. apply pos_le_spec. unfold lexlt. simpl. lia.
Qed.

Lemma omono_done st st' :
  x_order_q st' = x_order_q st -> x_next st' = x_next st -> x_parsing_done st' = true -> omono st st'.
Proof.
  intros EO EN ED. split.
  - intros x [A B]. split; [right; auto|rewrite EO; auto].
  - intros x. unfold atmostb. rewrite EO, EN, ED. destruct (x_order_q st); auto. intros _. apply orb_true_r.
Qed.

(* do_reorder consumes the buffer at the head *)
Lemma omono_pop st st' ord rest :
  StronglySorted N.lt (map hb (x_order_q st)) -> Forall (fun h => hb h <= x_next st) (x_order_q st) ->
  x_order_q st = ord :: rest ->
  (x_order_q st' = rest \/ exists a b, x_order_q st' = mkhead (fst (h_base ord), snd (h_base ord) + 1) a b :: rest) ->
  x_next st' = x_next st -> x_parsing_done st' = x_parsing_done st -> omono st st'.
Proof.
  intros SRT LEN OQ EO EN ED. rewrite OQ in SRT, LEN. simpl in SRT.
  assert (LO : hb ord <= x_next st) by (inversion LEN; auto).
  split.
  - intros x [A B]. rewrite OQ in B. split; [rewrite EN, ED; exact A|].
    intros h Hh. destruct EO as [EO|(a & b & EO)]; rewrite EO in Hh.
    + apply B. right. exact Hh.
    + destruct Hh as [<-|Hh]; [|apply B; right; exact Hh].
      specialize (B ord (or_introl eq_refl)). unfold lexlt in *. simpl. lia.
  - intros x. unfold atmostb. rewrite OQ, EN, ED. intro A. apply pos_le_spec in A.
    assert (R : match rest with [] => (fst x <=? x_next st) || x_parsing_done st | h :: _ => pos_le x (h_base h) end = true).
    { destruct rest as [|h' r'].
      - apply orb_true_iff. left. apply N.leb_le. unfold lexlt, hb in *. lia.
      - pose proof (sorted_head_lt _ _ (hb h') SRT (or_introl eq_refl)) as K.
        apply pos_le_spec. unfold lexlt, hb in *. lia. }
    destruct EO as [EO|(a & b & EO)]; rewrite EO; [exact R|].
    apply pos_le_spec. unfold lexlt in *. simpl. lia.
Qed.

Lemma atmost_len_mono {A} (f : A -> pos) st st' l :
  (forall x, atmostb st x = true -> atmostb st' x = true) ->
  (length (filter (fun a => atmostb st (f a)) l) <= length (filter (fun a => atmostb st' (f a)) l))%nat.
Proof. intro M. apply filter_len_mono. intros x _. apply M. Qed.

(* transfer: reord_q and the running emit jobs stay, emit-stage jobs may appear at (b, 0) *)
Lemma lrs_keep st st' :
  omono st st' ->
  x_total_out st' = x_total_out st -> x_reord_q st' = x_reord_q st ->
  x_out_slots st + x_outq st <= x_out_slots st' + x_outq st' ->
  (forall e, In e (estage st') -> In e (estage st) \/ snd (e_base e) = 0) ->
  emits (x_running st') = emits (x_running st) ->
  lrs st -> lrs st'.
Proof.
  intros [MP MA] ET ER ES EE EM [CH RS]. constructor.
  - intros x k Hx Hk. unfold linepos in Hx. rewrite ER in Hx. apply in_app_or in Hx.
    assert (X : In x (linepos st)).
    { unfold linepos. apply in_or_app. destruct Hx as [Hx|Hx]; [|right; exact Hx].
      apply in_map_iff in Hx. destruct Hx as (e & <- & He). destruct (EE e He) as [K|K]; [left; apply in_map; exact K|].
      exfalso. rewrite K in Hk. exact (N.nlt_0_r _ Hk). }
    destruct (CH x k X Hk) as [(o & A & B)|P]; [left; exists o; rewrite ER; auto|right; apply MP; exact P].
  - intros T. rewrite ET in T. specialize (RS T). unfold rcount in *. rewrite ER, !res_len, EM in *.
    pose proof (atmost_len_mono o_base st st' (x_reord_q st) MA) as L1.
    pose proof (atmost_len_mono e_base st st' (emits (x_running st)) MA) as L2.
    lia.
Qed.

Lemma lrs_fields_m st st' :
  omono st st' -> lrs st ->
  x_total_out st' = x_total_out st -> x_reord_q st' = x_reord_q st -> x_out_slots st' = x_out_slots st ->
  x_outq st' = x_outq st -> x_emit_q st' = x_emit_q st -> x_running st' = x_running st -> lrs st'.
Proof.
  intros M I E1 E2 E3 E4 E5 E6. apply (lrs_keep st); auto.
  - rewrite E3, E4. apply N.le_refl.
  - intros e He. left. unfold estage in *. rewrite E5, E6 in He. exact He.
  - rewrite E6. reflexivity.
Qed.

Lemma lrs_fields st st' :
  lrs st ->
  x_order_q st' = x_order_q st -> x_next st' = x_next st -> x_parsing_done st' = x_parsing_done st ->
  x_total_out st' = x_total_out st -> x_reord_q st' = x_reord_q st -> x_out_slots st' = x_out_slots st ->
  x_outq st' = x_outq st -> x_emit_q st' = x_emit_q st -> x_running st' = x_running st -> lrs st'.
Proof. intros I A B C. apply lrs_fields_m; [apply omono_same; auto|exact I]. Qed.

Lemma lrs_del c st l1 l2 : cejobs c = [] -> x_running st = l1 ++ c :: l2 -> lrs st -> lrs (set_running (l1 ++ l2) st).
Proof.
  intros CJ E. apply lrs_keep; xs; auto.
  - apply omono_same; reflexivity.
  - apply N.le_refl.
  - intros e He. left. unfold estage in *. xs in He. rewrite E, run_ejobs_app, run_ejobs_cons, CJ.
    rewrite run_ejobs_app in He. exact He.
  - rewrite E, !emits_app, emits_cons, (cejobs_cemits _ CJ). reflexivity.
Qed.

Lemma lrs_add c st : (forall e, In e (cejobs c) -> snd (e_base e) = 0) -> cemits c = [] -> lrs st -> lrs (add_run c st).
Proof.
  intros CJ CE. apply lrs_keep; unfold add_run; xs; auto.
  - apply omono_same; reflexivity.
  - apply N.le_refl.
  - intros e He. unfold estage in *. xs in He. rewrite run_ejobs_cons in He.
    apply in_app_or in He. destruct He as [He|He]; [left; apply in_or_app; auto|].
    apply in_app_or in He. destruct He as [He|He]; [right; auto|left; apply in_or_app; auto].
  - rewrite emits_cons, CE. reflexivity.
Qed.

(* attach, detach and advance touch nothing the invariant reads *)
Lemma lrs_attach c d st0 : (forall e, In e (cejobs c) -> snd (e_base e) = 0) -> cemits c = [] -> lrs st0 -> lrs (add_run c (fst (attach d st0))).
Proof. intros CJ CE I. apply lrs_add; auto. rewrite attach_nf. apply (lrs_fields _ _ I); reflexivity. Qed.

Lemma lrs_detach att s : lrs s -> lrs (detach att s).
Proof. intro I. rewrite detach_nf. apply (lrs_fields _ _ I); reflexivity. Qed.

Lemma lrs_advance cfg bs s : lrs s -> lrs (advance cfg bs s).
Proof. intro I. rewrite advance_nf, adv_scans_nf, adv_jobs_nf, adv_input_nf. apply (lrs_fields _ _ I); reflexivity. Qed.

Lemma lrs_scan1 cfg s att found s' more st st' : lrs st -> scan1 cfg s att found s' more st = Some st' -> lrs st'.
Proof.
  intros I H. destruct (scan1_inv _ _ _ _ _ _ _ _ H) as (l1 & l2 & E & _ & H'). cbv zeta in H'.
  pose proof (lrs_detach att _ (lrs_del (CScan s att) _ _ _ eq_refl E I)) as I2.
  generalize dependent (detach att (set_running (l1 ++ l2) st)). intro s2. intros.
  destruct H' as [[_ ->]|(_ & _ & _ & _ & _ & _ & ->)]; [apply (lrs_fields _ _ I2); reflexivity|].
  rewrite scan1_cand_eta. unfold scan1_requeue. destruct (more && _); apply (lrs_fields _ _ I2); reflexivity.
Qed.

(* the block of [j] reaches the emit stage at sub-position 0 *)
Lemma lrs_retr1_tail cfg j rv cur fin sa :
  (forall s, fin s = set_unords (x_unords (fin s)) (set_parse_token (x_parse_token (fin s)) s)) ->
  snd (r_base j) = 0 -> lrs sa -> lrs (retr1_tail cfg j rv cur fin sa).
Proof.
  intros F Z I. unfold retr1_tail. destruct (rv =? MORE); [destruct (_ && _); [rewrite drop_if_nf|]|];
    [apply (lrs_fields _ _ I); reflexivity..|].
  apply lrs_add; [intros e [<-|[]]; exact Z|reflexivity|]. rewrite F. apply (lrs_fields _ _ I); reflexivity.
Qed.

Lemma lrs_retr1 cfg j att rv cur st st' : inv st -> lrs st -> retr1 cfg j att rv cur st = Some st' -> lrs st'.
Proof.
  intros IV I H. destruct (retr1_inv _ _ _ _ _ _ _ H) as (l1 & l2 & E & _ & _ & _ & _ & _ & _ & _ & C).
  assert (Z : snd (r_base j) = 0).
  { pose proof (i_jobs _ IV) as IJ. rewrite Forall_forall in IJ. apply (IJ j). unfold all_jobs. apply in_or_app. right.
    rewrite E, run_jobs_app, run_jobs_cons. apply in_or_app. right. left. reflexivity. }
  pose proof (lrs_detach att _ (lrs_del (CRetr j att) _ _ _ eq_refl E I)) as I2.
  generalize dependent (detach att (set_running (l1 ++ l2) st)). intro s2. intros.
  destruct C as [_ ->| u _ _ _ _ ->| _ _ ->| id _ _ _ ->].
  - rewrite drop_if_nf. apply (lrs_fields _ _ I2); reflexivity.
  - rewrite drop_if_nf. apply (lrs_fields _ _ I2); reflexivity.
  - apply lrs_retr1_tail; [apply fin_master_nf'|exact Z|apply lrs_advance; exact I2].
  - apply lrs_retr1_tail; [apply fin_spec_nf|exact Z|apply (lrs_fields _ _ I2); reflexivity].
Qed.

Lemma linepos_incl st st' :
  (forall e, In e (estage st') -> In e (estage st)) -> (forall o, In o (x_reord_q st') -> In o (x_reord_q st)) ->
  forall x, In x (linepos st') -> In x (linepos st).
Proof.
  intros HE HO x Hx. unfold linepos in *. apply in_app_or in Hx. apply in_or_app.
  destruct Hx as [Hx|Hx]; apply in_map_iff in Hx; destruct Hx as (y & <- & Hy); [left|right]; apply in_map; auto.
Qed.

Lemma lrs_emit0 st st' : lrs st -> emit0 st = Some st' -> lrs st'.
Proof.
  intros [CH RS] H. destruct (emit0_inv _ _ H) as (SEL & e & l1 & l2 & Q & EQ & ->).
  apply selects_ready in SEL. cbn [ready] in SEL. unfold can_emit in SEL.
  match goal with |- lrs ?s => set (st' := s) end.
  assert (M : omono st st') by (apply omono_same; reflexivity). destruct M as [MP MA].
  constructor.
  - intros x k Hx Hk.
    assert (X : In x (linepos st)).
    { revert Hx. apply linepos_incl; [|auto].
      intros e0. subst st'. unfold estage, add_run. xs. rewrite run_ejobs_cons, EQ. simpl.
      rewrite !in_app_iff. simpl. rewrite ?in_app_iff. tauto. }
    destruct (CH x k X Hk) as [(o & A & B)|P]; [left; exists o; auto|right; apply MP; exact P].
  - intros T. specialize (RS T). unfold rcount in *.
    replace (x_reord_q st') with (x_reord_q st) by reflexivity.
    replace (x_outq st') with (x_outq st) by reflexivity.
    replace (x_out_slots st') with (N.pred (x_out_slots st)) by reflexivity.
    replace (x_running st') with (CEmit e :: x_running st) by reflexivity.
    rewrite !res_len in *. rewrite emits_cons. simpl cemits. simpl app.
    pose proof (atmost_len_mono o_base st st' (x_reord_q st) MA) as L1.
    pose proof (atmost_len_mono e_base st st' (emits (x_running st)) MA) as L2.
    apply andb_true_iff in SEL. destruct SEL as [_ SEL]. apply orb_true_iff in SEL. destruct SEL as [SEL|SEL].
    + apply N.ltb_lt in SEL. lia.
    + apply andb_true_iff in SEL. destruct SEL as [SEL S3]. apply andb_true_iff in SEL. destruct SEL as [S1 S2].
      apply N.ltb_lt in S1. unfold peek_emit in S3. rewrite Q in S3. unfold order_head in S3.
      assert (AE : atmostb st' (e_base e) = true).
      { apply MA. unfold atmostb. destruct (x_order_q st); [discriminate|exact S3]. }
      simpl filter. rewrite AE. simpl length. lia.
Qed.
(* the running emit job [e] hands its buffer [ob] to reord_q and is queued again at the next
   sub-position (status MORE) or finishes *)
Lemma lrs_emit1_gen st st' e l1 l2 ob :
  lrs st -> omono st st' -> x_running st = l1 ++ CEmit e :: l2 -> x_running st' = l1 ++ l2 ->
  o_base ob = e_base e -> x_reord_q st' = ob :: x_reord_q st ->
  x_total_out st' = x_total_out st -> x_out_slots st' = x_out_slots st -> x_outq st' = x_outq st ->
  (forall e0, In e0 (x_emit_q st') -> In e0 (x_emit_q st) \/
              (o_status ob = MORE /\ e_base e0 = (fst (e_base e), snd (e_base e) + 1))) ->
  lrs st'.
Proof.
  intros [CH RS] [MP MA] E E' OB RQ ET EO EQ EM.
  assert (EL : In (e_base e) (linepos st)).
  { unfold linepos, estage. apply in_or_app. left. apply in_map. apply in_or_app. right.
    rewrite E, run_ejobs_app, run_ejobs_cons. simpl. apply in_or_app. right. left. reflexivity. }
  assert (LIFT : forall x k, In x (linepos st) -> k < snd x ->
            (exists o, In o (x_reord_q st') /\ o_base o = (fst x, k) /\ o_status o = MORE) \/ passed st' (fst x, k)).
  { intros x k X Hk. destruct (CH x k X Hk) as [(o & A & B)|P]; [left; exists o; rewrite RQ; split; [right; exact A|exact B]|right; apply MP; exact P]. }
  constructor.
  - intros x k Hx Hk. unfold linepos in Hx. apply in_app_or in Hx. destruct Hx as [Hx|Hx].
    + apply in_map_iff in Hx. destruct Hx as (e0 & <- & He). unfold estage in He. rewrite E' in He.
      apply in_app_or in He. destruct He as [He|He].
      * destruct (EM e0 He) as [K|(SM & K)].
        -- apply LIFT; auto. unfold linepos, estage. apply in_or_app. left. apply in_map. apply in_or_app. left. exact K.
        -- rewrite K in *. simpl in *. destruct (N.eq_dec k (snd (e_base e))) as [->|NE].
           ++ left. exists ob. split; [rewrite RQ; left; reflexivity|]. split; [|exact SM]. rewrite OB. destruct (e_base e); reflexivity.
           ++ apply (LIFT (e_base e) k EL). lia.
      * apply LIFT; auto. unfold linepos, estage. apply in_or_app. left. apply in_map. apply in_or_app. right.
        rewrite E, run_ejobs_app, run_ejobs_cons. rewrite run_ejobs_app in He. rewrite !in_app_iff in *. tauto.
    + rewrite RQ in Hx. simpl in Hx. destruct Hx as [<-|Hx].
      * rewrite OB in *. apply LIFT; auto.
      * apply LIFT; auto. unfold linepos. apply in_or_app. right. exact Hx.
  - intros T. rewrite ET in T. specialize (RS T). unfold rcount in *. rewrite EO, EQ, RQ, !res_len in *.
    rewrite E, E', !emits_app, emits_cons in *. simpl cemits in RS. simpl app in RS.
    rewrite !filter_app, !app_length in *. simpl filter in *. rewrite OB.
    pose proof (atmost_len_mono o_base st st' (x_reord_q st) MA) as L1.
    pose proof (atmost_len_mono e_base st st' (emits l1) MA) as L2.
    pose proof (atmost_len_mono e_base st st' (emits l2) MA) as L3.
    pose proof (MA (e_base e)) as L4.
    destruct (atmostb st (e_base e)); [rewrite (L4 eq_refl)|destruct (atmostb st' (e_base e))]; simpl length in *; lia.
Qed.

Lemma lrs_emit1 e rv size crc blksz st st' : lrs st -> emit1 e rv size crc blksz st = Some st' -> lrs st'.
Proof.
  intros I H. destruct (emit1_inv _ _ _ _ _ _ _ H) as (l1 & l2 & E & _ & _ & _ & H'). cbv zeta in H'.
  destruct (rv =? MORE) eqn:RV; subst st'.
  - apply N.eqb_eq in RV.
    eapply (lrs_emit1_gen st _ e l1 l2 (mkoblk (e_base e) size crc blksz rv 0)); eauto; try reflexivity;
      try (apply omono_same; reflexivity).
    intros e0 [<-|K]; [right; split; [exact RV|reflexivity]|left; exact K].
  - eapply (lrs_emit1_gen st _ e l1 l2 (mkoblk (e_base e) size crc blksz rv (e_end e))); eauto; try reflexivity;
      try (apply omono_same; reflexivity); intros e0 K; left; exact K.
Qed.

(* the buffer [o] leaves reord_q for an output slot or the writer; the order has passed it *)
Lemma lrs_remove st st' o l1 l2 :
  lrs st -> x_reord_q st = l1 ++ o :: l2 -> x_reord_q st' = l1 ++ l2 ->
  omono st st' -> passed st' (o_base o) ->
  estage st' = estage st -> x_running st' = x_running st -> x_total_out st' = x_total_out st ->
  x_out_slots st + x_outq st + 1 <= x_out_slots st' + x_outq st' -> lrs st'.
Proof.
  intros [CH RS] EQ RQ [MP MA] PO ES ER ET LE.
  constructor.
  - intros x k Hx Hk.
    assert (X : In x (linepos st)).
    { revert Hx. apply linepos_incl; [rewrite ES; auto|]. rewrite RQ, EQ. intros y Hy. apply in_app_or in Hy.
      apply in_or_app. simpl. tauto. }
    destruct (CH x k X Hk) as [(o' & A & B & C)|P]; [|right; apply MP; exact P].
    rewrite EQ in A. apply in_app_or in A. simpl in A.
    assert (K : o' = o \/ In o' (l1 ++ l2)) by (rewrite in_app_iff; destruct A as [A|[A|A]]; auto).
    destruct K as [->|K]; [right; rewrite <- B; exact PO|left; exists o'; rewrite RQ; auto].
  - intros T. rewrite ET in T. specialize (RS T). unfold rcount in *. rewrite ER, RQ, !res_len in *.
    rewrite EQ, filter_app, app_length in RS. simpl in RS. rewrite filter_app, app_length.
    pose proof (atmost_len_mono o_base st st' l1 MA) as L1.
    pose proof (atmost_len_mono o_base st st' l2 MA) as L3.
    pose proof (atmost_len_mono e_base st st' (emits (x_running st)) MA) as L2.
    destruct (atmostb st (o_base o)); simpl in RS; lia.
Qed.

Lemma lrs_reorder st st' : x_failed st' = None -> own st -> lrs st -> reorder st = Some st' -> lrs st'.
Proof.
  intros NF' [_ [SRT0 LEN0]] I H. destruct (reorder_inv _ _ H) as (_ & o & l1 & l2 & _ & EQ & C).
  destruct C as [[[OQ PD]|(ord & rest & OQ & LT)] ->|ord rest OQ EB _ ->|ord rest OQ EB _ _ ->|ord rest OQ EB _ _ ->].
  - (* nothing confirmed: parsing is done *)
    apply (lrs_remove st _ o l1 l2 I EQ); try reflexivity; [apply omono_same; reflexivity| |xs; lia].
    split; [right; exact PD|]. intros h Hh. xs in OQ. xs in Hh. rewrite OQ in Hh. destruct Hh.
  - (* a bogus buffer is rejected *)
    xs in OQ. rewrite OQ in SRT0, LEN0. apply pos_lt_spec in LT.
    apply (lrs_remove st _ o l1 l2 I EQ); try reflexivity; [apply omono_same; reflexivity| |xs; lia].
    split; xs; [left; inversion LEN0; unfold lexlt, hb in *; lia|].
    rewrite OQ. intros h [<-|Hh]; [exact LT|].
    pose proof (sorted_head_lt _ _ _ SRT0 (in_map hb _ _ Hh)). unfold lexlt, hb in *. lia.
  - (* one more buffer of the block: the head moves on *)
    xs in OQ. pose proof SRT0 as SRT. pose proof LEN0 as LEN. rewrite OQ in SRT, LEN.
    apply (lrs_remove st _ o l1 l2 I EQ); try reflexivity; [| |unfold ro_hand, ro_offs; xs; lia].
    + eapply omono_pop; [exact SRT0|exact LEN0|exact OQ|right; unfold ro_hand, ro_offs; xs; eauto|reflexivity|reflexivity].
    + unfold ro_hand, ro_offs. split; xs; [left; rewrite EB; inversion LEN; assumption|].
      intros h [<-|Hh]; [rewrite EB; unfold lexlt; simpl; lia|].
      pose proof (sorted_head_lt _ _ _ SRT (in_map hb _ _ Hh)). rewrite EB. unfold lexlt, hb in *. lia.
  - (* the last buffer of the block: the head leaves the order *)
    xs in OQ. pose proof SRT0 as SRT. pose proof LEN0 as LEN. rewrite OQ in SRT, LEN.
    apply (lrs_remove st _ o l1 l2 I EQ); try reflexivity; [| |unfold ro_hand, ro_offs; xs; lia].
    + eapply omono_pop; [exact SRT0|exact LEN0|exact OQ|left; reflexivity|reflexivity|reflexivity].
    + unfold ro_hand, ro_offs. split; xs; [left; rewrite EB; inversion LEN; assumption|].
      intros h Hh. pose proof (sorted_head_lt _ _ _ SRT (in_map hb _ _ Hh)). rewrite EB. unfold lexlt, hb in *. lia.
  - discriminate NF'.
Qed.

(* adopting a candidate overwrites work_units, parse_token and the unord store *)
Lemma adopt_eta u s3 : exists w t us,
  give_unit (if u_complete u then set_parse_token true (set_unords (del_unord (u_id u) (x_unords s3)) s3)
             else set_unords (upd_unord (u_id u) (u_detach true) (x_unords s3)) s3) =
  set_work_units w (set_parse_token t (set_unords us s3)).
Proof.
  exists (x_work_units s3 + 1), (if u_complete u then true else x_parse_token s3),
    (if u_complete u then del_unord (u_id u) (x_unords s3) else upd_unord (u_id u) (u_detach true) (x_unords s3)).
  destruct (u_complete u); destruct s3; reflexivity.
Qed.

Lemma parse_ok_fields cfg lv crc s :
  let s' := parse_ok cfg lv crc s in
  x_failed s' = x_failed s /\ x_eof s' = x_eof s /\ x_tail_offs s' = x_tail_offs s /\
  x_order_q s' = x_order_q s ++ [mkhead (d_pos (x_parser_bs s)) lv crc] /\
  x_next s' = x_next s /\ x_parsing_done s' = x_parsing_done s /\
  x_total_out s' = x_total_out s /\ x_reord_q s' = x_reord_q s /\
  x_out_slots s' = x_out_slots s /\ x_outq s' = x_outq s /\
  x_emit_q s' = x_emit_q s /\ x_running s' = x_running s.
Proof.
  cbv zeta. destruct (parse_ok_cases cfg lv crc s) as [[_ ->]|(u & _ & _ & ->)]; [repeat split|]. cbv zeta.
  set (s2 := set_unords (discard_below _ _) _). edestruct (adopt_eta u) as (w & t & us & ->). xs.
  exact (conj (x_failed_advance _ _ _) (conj (x_eof_advance _ _ _) (conj (x_tail_offs_advance _ _ _) (conj (x_order_q_advance _ _ _)
        (conj (x_next_advance _ _ _) (conj (x_parsing_done_advance _ _ _) (conj (x_total_out_advance _ _ _) (conj (x_reord_q_advance _ _ _)
        (conj (x_out_slots_advance _ _ _) (conj (x_outq_advance _ _ _) (conj (x_emit_q_advance _ _ _) (x_running_advance _ _ _)))))))))))).
Qed.

Lemma lrs_parse1 cfg att r st st' :
  inv st -> ev_next st (EvParse1 att r) -> lrs st -> parse1 cfg att r st = Some st' -> lrs st'.
Proof.
  intros IV EV I H. destruct (parse1_inv _ _ _ _ _ H) as (l1 & l2 & E & D & G). cbv zeta in G.
  destruct G as (_ & _ & _ & _ & G). destruct (inv_del_parse _ _ _ D IV) as (_ & _ & _ & _ & PD1). xs in PD1.
  pose proof (lrs_advance cfg (res_bs r) _ (lrs_detach att _ (lrs_del (CParse att) _ _ _ eq_refl E I))) as I3.
  assert (F3 : x_parsing_done (advance cfg (res_bs r) (detach att (set_running (l1 ++ l2) st))) = false /\
               x_next (advance cfg (res_bs r) (detach att (set_running (l1 ++ l2) st))) = x_next st).
  { rewrite x_parsing_done_advance, x_parsing_done_detach, x_next_advance, x_next_detach. auto. }
  pose proof (advance_pbs cfg (res_bs r) (detach att (set_running (l1 ++ l2) st))) as PB3.
  destruct F3 as (PD3 & NX3). clear IV I D E PD1.
  generalize dependent (advance cfg (res_bs r) (detach att (set_running (l1 ++ l2) st))). intros s3 G I3 PD3 NX3 PB3.
  destruct r as [b ps|b g|b code|b ps lv crc]; cbn [res_bs] in *.
  - destruct G as (_ & _ & ->). apply (lrs_fields _ _ I3); reflexivity.
  - destruct G as (_ & _ & ->). rewrite parse_finish_eq. cbv zeta.
    destruct (_ && _); (apply (lrs_fields_m s3); [apply omono_done; reflexivity|exact I3|reflexivity..]).
  - destruct G as (_ & _ & _ & ->). apply (lrs_fields _ _ I3); reflexivity.
  - destruct G as (_ & ->). simpl in EV. unfold HDR_MIN in EV.
    destruct (parse_ok_fields cfg lv crc (set_par ps (set_next (d_bit b) s3))) as (_ & _ & _ & E1 & E2 & E3 & E4 & E5 & E6 & E7 & E8 & E9).
    cbv zeta in *. xs in E1. xs in E2. xs in E3. xs in E4. xs in E5. xs in E6. xs in E7. xs in E8. xs in E9.
    apply (lrs_fields_m s3); auto.
    apply (omono_push s3 _ (d_bit b) lv crc); [exact PD3|rewrite NX3; lia|rewrite E1, PB3; reflexivity|exact E2|exact E3].
Qed.

Lemma lrs_init n tin tout ultra : lrs (init_state n tin tout ultra).
Proof.
  constructor.
  - intros x k [].
  - unfold rcount. simpl. lia.
Qed.

Theorem lrs_step cfg st e st' :
  inv st -> own st -> ev_next st e -> x_failed st' = None -> lrs st -> step cfg st e = Some st' -> lrs st'.
Proof.
  intros IV OW EV NF' I H. unfold step in H. destruct (x_failed st) eqn:NF; [discriminate|].
  destruct e.
  - destruct (input_inv _ _ _ _ H) as (_ & _ & _ & _ & H'). destruct (x_parsing_done st); subst st'; [exact I|].
    apply (lrs_fields _ _ I); reflexivity.
  - destruct (reader_eof_inv _ _ H) as [_ ->]. apply (lrs_fields _ _ I); reflexivity.
  - destruct (written_inv _ _ H) as [C ->].
    apply (lrs_keep st); [apply omono_same; reflexivity|reflexivity|reflexivity|xs; lia|auto|reflexivity|exact I].
  - destruct (parse0_inv _ _ H) as [_ ->]. apply lrs_attach; [intros e []|reflexivity|]. apply (lrs_fields _ _ I); reflexivity.
  - eapply lrs_parse1; eauto.
  - destruct (retr0_inv _ _ _ H) as (_ & q & _ & ->). apply lrs_attach; [intros e []|reflexivity|]. apply (lrs_fields _ _ I); reflexivity.
  - eapply lrs_retr1; eauto.
  - destruct (retr2_inv _ _ _ H) as (l1 & l2 & E & _ & ->).
    apply (lrs_keep st); [apply omono_same; reflexivity|reflexivity|reflexivity|apply N.le_refl| | |exact I].
    + intros x Hx. left. unfold estage in *. xs in Hx. rewrite E, run_ejobs_app, run_ejobs_cons.
      rewrite run_ejobs_app in Hx. simpl in *. rewrite !in_app_iff in *. simpl. tauto.
    + xs. rewrite E, !emits_app, emits_cons. reflexivity.
  - eapply lrs_emit0; eauto.
  - eapply lrs_emit1; eauto.
  - eapply lrs_reorder; eauto.
  - destruct (scan0_inv _ _ H) as (_ & s & l1 & l2 & _ & _ & ->). apply lrs_attach; [intros e []|reflexivity|].
    apply (lrs_fields _ _ I); reflexivity.
  - eapply lrs_scan1; eauto.
Qed.

Print Assumptions lrs_step.
Print Assumptions lrs_init.
