(* Ownership invariant of the decompression scheduler (expand.c): which job accounts
   for every element of order_q.

   Every head (b, k) of order_q is owned by
     - the master retrieve job of block b (created by the parser or adopted), if k = 0, or
     - a "line above": an emit-stage job (CRetr2 / emit_q / CEmit) or a final buffer in
       reord_q with base (b, k') and k' >= k.
   Heads have strictly increasing bit positions, so distinct heads have distinct owners
   and length order_q <= masters + emit-stage jobs + final buffers <= work units + slots.

   The model admits labels that the unlocked computations cannot produce: parse1 accepts
   a POk label whose position equals the parser's (a block header of zero bits).  With
   such labels the invariant is FALSE (XOwnRefuted.v exhibits a run that reaches
   can_terminate with order_q <> []).  The invariant is therefore proved over runs all of
   whose POk labels lie at least HDR_MIN = 32 bits after the base of the block confirmed before
   (parse() in parse.c consumes the 48-bit block magic and the 32-bit CRC of a header - possibly
   over several calls that return MORE when the header straddles input blocks, so the LAST call
   may consume fewer than 32 bits: the reference is the previous base [x_next], not the parser's
   position at the start of the call.  Every trace replay checks this hypothesis). *)
From Coq Require Import List NArith Bool Lia Arith ZifyBool ZifyN Sorted.
From LBZ Require Import Gen.Consts SchedX.XState Gen.SchedXTab SchedX.XSet SchedX.XModel SchedX.XLemmas
  SchedX.XFrame SchedX.XStep SchedX.XInvDefs SchedX.XOps SchedX.XInv SchedX.XInv2 SchedX.XInv3 SchedX.XInv4 SchedX.XOracle.
Import ListNotations.
Local Open Scope N_scope.

Definition HDR_MIN : N := 32.

Definition ev_prog (st : xstate) (e : event) : Prop :=
  match e with
  | EvParse1 _ (POk bs _ _ _) => x_next st + HDR_MIN <= d_bit bs
  | _ => True
  end.

Inductive preach (cfg : xcfg) (s0 : xstate) : xstate -> Prop :=
| preach_init : preach cfg s0 s0
| preach_step st e st' : preach cfg s0 st -> ev_prog st e -> step cfg st e = Some st' -> preach cfg s0 st'.

Inductive opreach (O : oracle) (cfg : xcfg) (s0 : xstate) : xstate -> Prop :=
| opreach_init : opreach O cfg s0 s0
| opreach_step st e st' : opreach O cfg s0 st -> ev_ok O st e -> ev_prog st e -> step cfg st e = Some st' ->
                          opreach O cfg s0 st'.

Lemma preach_reach cfg s0 st : preach cfg s0 st -> reach cfg s0 st.
Proof. induction 1; [constructor|econstructor; eauto]. Qed.

Lemma opreach_oreach O cfg s0 st : opreach O cfg s0 st -> oreach O cfg s0 st.
Proof. induction 1; [constructor|econstructor; eauto]. Qed.

Lemma opreach_preach O cfg s0 st : opreach O cfg s0 st -> preach cfg s0 st.
Proof. induction 1; [constructor|econstructor; eauto]. Qed.

(* the source gives every unord block of a dropped job back (repair of finding F3) *)
Definition cfg_drops (cfg : xcfg) : Prop :=
  c_stale_drops_link cfg = true /\ c_retr_done_drops_link cfg = true /\ c_retr_abort_drops_link cfg = true /\
  c_advance_drops_link cfg = true /\ c_finish_drops_link cfg = true.

Definition hb (h : head) : N := fst (h_base h).
Definition hs (h : head) : N := snd (h_base h).

Definition cejobs (c : cont) : list ejob := match c with CRetr2 e | CEmit e => [e] | _ => [] end.
Definition run_ejobs (r : list cont) : list ejob := flat_map cejobs r.
(* jobs past retrieve that still hold their work unit *)
Definition estage (st : xstate) : list ejob := x_emit_q st ++ run_ejobs (x_running st).

Definition lineabove (EL : list ejob) (RQ : list oblk) (b k : N) : Prop :=
  (exists e, In e EL /\ fst (e_base e) = b /\ k <= snd (e_base e)) \/
  (exists o, In o RQ /\ o_status o <> MORE /\ fst (o_base o) = b /\ k <= snd (o_base o)).
Definition la (st : xstate) : N -> N -> Prop := lineabove (estage st) (x_reord_q st).

(* where a queued, complete candidate without a line may lie: at or before the block confirmed
   last, or (its job was dropped because it fell behind head_offs) a whole word below head_offs *)
Definition orph (st : xstate) (b : N) : Prop := b <= x_next st \/ b + 32 <= 32 * x_head_offs st.

Definition mastered (JL : list rjob) (us : list unord) (b : N) : Prop :=
  exists j, In j JL /\ jm us j = true /\ fst (r_base j) = b.

(* [H]: the heads accounted for; [JL]: the retrieve jobs (queued or running) *)
Record ownp (H : list head) (JL : list rjob) (st : xstate) : Prop := mkownp {
  o_heads : forall h, In h H -> (hs h = 0 /\ mastered JL (x_unords st) (hb h)) \/ la st (hb h) (hs h);
  o_more : forall o, In o (x_reord_q st) -> o_status o = MORE -> la st (fst (o_base o)) (snd (o_base o) + 1);
  o_m1 : forall j, In j JL -> jm (x_unords st) j = true ->
         fst (r_base j) = x_next st /\ d_bit (x_parser_bs st) <= d_bit (r_cur j);
  o_u1 : forall u, In u (x_unords st) -> u_complete u = false -> exists j, In j JL /\ r_link j = Some (u_id u);
  o_u2 : forall u, In u (x_unords st) -> u_inq u = true -> u_complete u = true ->
         la st (fst (u_base u)) 0 \/ orph st (fst (u_base u));
  o_noinq : x_parsing_done st = true -> Forall (fun u => u_inq u = false) (x_unords st);
  o_next : x_parsing_done st = false -> x_next st <= d_bit (x_parser_bs st);
  o_pok : x_parsing_done st = false -> dbs_ok (x_parser_bs st) = true;
  (* an unord block outside unord_q is still referenced by its retrieve job *)
  o_u3 : forall u, In u (x_unords st) -> u_inq u = false -> exists j, In j JL /\ r_link j = Some (u_id u)
}.

Record oshape (st : xstate) : Prop := mkoshape {
  o_sorted : StronglySorted N.lt (map hb (x_order_q st));
  o_le_next : Forall (fun h => hb h <= x_next st) (x_order_q st)
}.

Definition own (st : xstate) : Prop := ownp (x_order_q st) (all_jobs st) st /\ oshape st.

Lemma lineabove_mono EL EL' RQ RQ' b k :
  (forall e, In e EL -> In e EL') -> (forall o, In o RQ -> In o RQ') ->
  lineabove EL RQ b k -> lineabove EL' RQ' b k.
Proof.
  intros HE HR [(e & A & B)|(o & A & B)]; [left; exists e|right; exists o]; auto.
Qed.

Lemma lineabove_le EL RQ b k k' : k' <= k -> lineabove EL RQ b k -> lineabove EL RQ b k'.
Proof.
  intros L [(e & A & B & C)|(o & A & B & C & D)]; [left; exists e|right; exists o]; repeat split; auto; lia.
Qed.

Lemma run_ejobs_app a b : run_ejobs (a ++ b) = run_ejobs a ++ run_ejobs b.
Proof. unfold run_ejobs. apply flat_map_app. Qed.

Lemma run_ejobs_cons c r : run_ejobs (c :: r) = cejobs c ++ run_ejobs r.
Proof. reflexivity. Qed.

(* states that agree on what ownp looks at; the emit stage may have grown *)
Record oview (st st' : xstate) : Prop := mkoview {
  ov_un : x_unords st' = x_unords st;
  ov_ro : x_reord_q st' = x_reord_q st;
  ov_nx : x_next st' = x_next st;
  ov_hd : x_head_offs st' = x_head_offs st;
  ov_pb : x_parser_bs st' = x_parser_bs st;
  ov_dn : x_parsing_done st' = x_parsing_done st;
  ov_es : forall e, In e (estage st) -> In e (estage st')
}.

Lemma la_view st st' b k : oview st st' -> la st b k -> la st' b k.
Proof.
  intros [] L. unfold la in *. rewrite ov_ro0. eapply lineabove_mono; [| |exact L]; auto.
Qed.

Lemma ownp_view H JL JL' st st' :
  oview st st' -> (forall j, In j JL <-> In j JL') -> ownp H JL st -> ownp H JL' st'.
Proof.
  intros V EJ [A B C D E F G K U3]. pose proof (la_view st st') as LV. destruct V.
  constructor; unfold orph; rewrite ?ov_un0, ?ov_ro0, ?ov_nx0, ?ov_hd0, ?ov_pb0, ?ov_dn0; auto.
  - intros h Hh. destruct (A h Hh) as [[Z (j & J1 & J2)]|L]; [left; split; auto; exists j; split; [apply EJ; auto|auto]|right].
    apply LV; auto. constructor; auto.
  - intros o Ho S. apply LV; auto. constructor; auto.
  - intros j Hj. apply C. apply EJ; auto.
  - intros u Hu Cu. destruct (D u Hu Cu) as (j & J1 & J2). exists j. split; auto. apply EJ; auto.
  - intros u Hu Q Cu. destruct (E u Hu Q Cu) as [L|L]; [left|right; auto]. apply LV; auto. constructor; auto.
  - intros u Hu Qu. destruct (U3 u Hu Qu) as (j & J1 & J2). exists j. split; auto. apply EJ; auto.
Qed.

Lemma oshape_view st st' : x_order_q st' = x_order_q st -> x_next st' = x_next st -> oshape st -> oshape st'.
Proof. intros E1 E2 [A B]. constructor; rewrite E1, ?E2; auto. Qed.

Lemma own_view st st' :
  oview st st' -> x_order_q st' = x_order_q st -> (forall j, In j (all_jobs st) <-> In j (all_jobs st')) ->
  own st -> own st'.
Proof.
  intros V EO EJ [A B]. split.
  - rewrite EO. eapply ownp_view; eauto.
  - eapply oshape_view; eauto. apply V.
Qed.

(* When the new state is a chain of setters over [st] the premises hold by computation. *)
Lemma ownp_same H JL st st' :
  x_unords st' = x_unords st -> x_reord_q st' = x_reord_q st -> x_next st' = x_next st -> x_head_offs st' = x_head_offs st ->
  x_parser_bs st' = x_parser_bs st -> x_parsing_done st' = x_parsing_done st -> estage st' = estage st ->
  ownp H JL st -> ownp H JL st'.
Proof. intros E1 E2 E3 E4 E5 E6 E7. apply ownp_view; [constructor; try assumption; rewrite E7; auto|tauto]. Qed.

Lemma own_same st st' :
  x_unords st' = x_unords st -> x_reord_q st' = x_reord_q st -> x_next st' = x_next st -> x_head_offs st' = x_head_offs st ->
  x_parser_bs st' = x_parser_bs st -> x_parsing_done st' = x_parsing_done st -> estage st' = estage st ->
  x_order_q st' = x_order_q st -> all_jobs st' = all_jobs st -> own st -> own st'.
Proof.
  intros E1 E2 E3 E4 E5 E6 E7 E8 E9. apply own_view; [constructor; try assumption; rewrite E7; auto|exact E8|rewrite E9; tauto].
Qed.

Lemma own_input sz m st st' : own st -> input sz m st = Some st' -> own st'.
Proof.
  intros I H. destruct (input_inv _ _ _ _ H) as (_ & _ & _ & _ & C).
  destruct (x_parsing_done st); subst st'; [exact I|]. apply (own_same st); try reflexivity. exact I.
Qed.

Lemma own_eof st st' : own st -> reader_eof st = Some st' -> own st'.
Proof. intros I H. destruct (reader_eof_inv _ _ H) as (_ & ->). apply (own_same st); try reflexivity. exact I. Qed.

Lemma own_written st st' : own st -> written st = Some st' -> own st'.
Proof. intros I H. destruct (written_inv _ _ H) as (_ & ->). apply (own_same st); try reflexivity. exact I. Qed.

Lemma own_parse0 st st' : own st -> parse0 st = Some st' -> own st'.
Proof.
  intros I H. destruct (parse0_inv _ _ H) as (_ & ->). cbv zeta. rewrite attach_nf, add_run_nf.
  apply (own_same st); try reflexivity. exact I.
Qed.

Lemma own_scan0 st st' : own st -> scan0 st = Some st' -> own st'.
Proof.
  intros I H. destruct (scan0_inv _ _ H) as (_ & s & l1 & l2 & _ & _ & ->). cbv zeta. rewrite attach_nf, add_run_nf.
  apply (own_same st); try reflexivity. exact I.
Qed.

Lemma In_app_mid {A} (x : A) l1 l2 c r : In x ((l1 ++ c :: l2) ++ r) <-> In x ((l1 ++ l2) ++ c :: r).
Proof. rewrite !in_app_iff. simpl. rewrite ?in_app_iff. tauto. Qed.

Lemma own_retr0 j st st' : own st -> retr0 j st = Some st' -> own st'.
Proof.
  intros I H. destruct (retr0_inv _ _ _ H) as (_ & q & T & ->). cbv zeta.
  destruct (take_min_split _ _ _ _ _ rjob_eqb_eq T) as (l1 & l2 & E & ->). rewrite attach_nf, add_run_nf.
  apply (own_view st); [constructor; try reflexivity; auto|reflexivity| |exact I].
  intro x. unfold all_jobs. rewrite E. apply In_app_mid.
Qed.

(* a continuation leaves the running set: where its jobs go *)
Lemma estage_del c l1 l2 st x : x_running st = l1 ++ c :: l2 ->
  In x (estage st) <-> In x (cejobs c) \/ In x (estage (set_running (l1 ++ l2) st)).
Proof. intro E. unfold estage. xs. rewrite E, !run_ejobs_app, run_ejobs_cons, !in_app_iff. tauto. Qed.

Lemma all_jobs_del c l1 l2 st x : x_running st = l1 ++ c :: l2 ->
  In x (all_jobs st) <-> In x (cjobs c) \/ In x (all_jobs (set_running (l1 ++ l2) st)).
Proof. intro E. unfold all_jobs. xs. rewrite E, !run_jobs_app, run_jobs_cons, !in_app_iff. tauto. Qed.

Lemma own_retr2 e st st' : own st -> retr2 e st = Some st' -> own st'.
Proof.
  intros I H. destruct (retr2_inv _ _ _ H) as (l1 & l2 & E & _ & ->).
  apply (own_view st); [constructor; try reflexivity| reflexivity| |exact I].
  - intros x Hx. apply (estage_del _ _ _ _ _ E) in Hx as [[<-|[]]|Hx]; [left; reflexivity|right; exact Hx].
  - intro x. rewrite (all_jobs_del _ _ _ _ _ E). cbn [cjobs In]. tauto.
Qed.

Lemma own_emit0 st st' : own st -> emit0 st = Some st' -> own st'.
Proof.
  intros I H. destruct (emit0_inv _ _ H) as (_ & e & l1 & l2 & _ & E & ->). rewrite add_run_nf.
  apply (own_view st); [constructor; try reflexivity|reflexivity|reflexivity|exact I].
  intros x Hx. unfold estage in *. rewrite E in Hx. apply In_app_mid. exact Hx.
Qed.

(* do_emit: the line of the job moves to the next buffer, or becomes a final buffer *)
Lemma lineabove_step EL EL' RQ RQ' e :
  (forall x, In x EL -> x = e \/ In x EL') -> (forall o, In o RQ -> In o RQ') ->
  (forall k, k <= snd (e_base e) -> lineabove EL' RQ' (fst (e_base e)) k) ->
  forall b k, lineabove EL RQ b k -> lineabove EL' RQ' b k.
Proof.
  intros HE HR HL b k [(x & A & <- & C)|(o & A & B)]; [|right; exists o; auto].
  destruct (HE x A) as [->|A']; [exact (HL k C)|left; exists x; auto].
Qed.

Lemma ownp_la H JL st st' :
  x_unords st' = x_unords st -> x_next st' = x_next st -> x_parser_bs st' = x_parser_bs st ->
  x_head_offs st' = x_head_offs st -> x_parsing_done st' = x_parsing_done st ->
  (forall b k, la st b k -> la st' b k) ->
  (forall o, In o (x_reord_q st') -> o_status o = MORE -> la st' (fst (o_base o)) (snd (o_base o) + 1)) ->
  ownp H JL st -> ownp H JL st'.
Proof.
  intros E1 E2 E3 E5 E4 LV MO [A B C D E F G K U3].
  constructor; unfold orph; rewrite ?E1, ?E2, ?E3, ?E4, ?E5; auto.
  - intros h Hh. destruct (A h Hh) as [M|L]; [left; exact M|right; auto].
  - intros u Hu Q Cu. destruct (E u Hu Q Cu) as [L|L]; [left|right]; auto.
Qed.

Lemma own_emit1 e rv size crc blksz st st' : own st -> emit1 e rv size crc blksz st = Some st' -> own st'.
Proof.
  intros [I S] H. destruct (emit1_inv _ _ _ _ _ _ _ H) as (l1 & l2 & E & _ & _ & _ & C). cbv zeta in C.
  assert (EL : forall x, In x (estage st) -> x = e \/ In x (estage (set_running (l1 ++ l2) st))).
  { intros x Hx. apply (estage_del _ _ _ _ _ E) in Hx as [[<-|[]]|Hx]; auto. }
  assert (AJ : forall st2, x_retr_q st2 = x_retr_q st -> x_running st2 = l1 ++ l2 -> all_jobs st2 = all_jobs (set_running (l1 ++ l2) st))
    by (intros st2 R1 R2; unfold all_jobs; rewrite R1, R2; reflexivity).
  assert (I1 : ownp (x_order_q st) (all_jobs (set_running (l1 ++ l2) st)) st).
  { eapply ownp_view; [| |exact I]; [constructor; auto|]. intro x. rewrite (all_jobs_del _ _ _ _ _ E). cbn [cjobs In]. tauto. }
  destruct (rv =? MORE) eqn:RV; subst st'.
  - apply N.eqb_eq in RV. split; [|eapply oshape_view; [| |exact S]; reflexivity]. xs. erewrite AJ by reflexivity.
    assert (LV : forall b k, la st b k -> la (set_reord_q (mkoblk (e_base e) size crc blksz rv 0 :: x_reord_q st)
               (set_emit_q (mkejob (fst (e_base e), snd (e_base e) + 1) (e_status e) (e_end e) :: x_emit_q st) (set_running (l1 ++ l2) st))) b k).
    { apply (lineabove_step _ _ _ _ e).
      - intros x Hx. destruct (EL x Hx); [left; assumption|right; right; assumption].
      - intros o Ho. right. exact Ho.
      - intros k Hk. left. eexists. split; [left; reflexivity|]. cbn. split; [reflexivity|lia]. }
    apply (ownp_la _ _ st); try reflexivity; [exact LV| |exact I1].
    intros o [<-|Ho] SM; [|apply LV; exact (o_more _ _ _ I o Ho SM)].
    left. eexists. split; [left; reflexivity|]. cbn. split; [reflexivity|lia].
  - apply N.eqb_neq in RV. split; [|eapply oshape_view; [| |exact S]; reflexivity]. unfold give_unit. xs. erewrite AJ by reflexivity.
    assert (LV : forall b k, la st b k -> la (set_reord_q (mkoblk (e_base e) size crc blksz rv (e_end e) :: x_reord_q st)
               (set_work_units (x_work_units st + 1) (set_running (l1 ++ l2) st))) b k).
    { apply (lineabove_step _ _ _ _ e).
      - exact EL.
      - intros o Ho. right. exact Ho.
      - intros k Hk. right. eexists. split; [left; reflexivity|]. cbn. auto. }
    apply (ownp_la _ _ st); try reflexivity; [exact LV| |exact I1].
    intros o [<-|Ho] SM; [exfalso; exact (RV SM)|apply LV; exact (o_more _ _ _ I o Ho SM)].
Qed.

Lemma la_remove st b k o l1 l2 : x_reord_q st = l1 ++ o :: l2 -> la st b k ->
  lineabove (estage st) (l1 ++ l2) b k \/ (o_status o <> MORE /\ fst (o_base o) = b /\ k <= snd (o_base o)).
Proof.
  intros EQ [(e0 & A & B)|(o' & A & B)]; [left; left; eauto|].
  rewrite EQ, in_app_iff in A. cbn [In] in A.
  assert (K : o' = o \/ In o' (l1 ++ l2)) by (rewrite in_app_iff; destruct A as [A|[A|A]]; auto).
  destruct K as [->|K]; [right; auto|left; right; exists o'; auto].
Qed.

Lemma sorted_head_lt (a : N) l x : StronglySorted N.lt (a :: l) -> In x l -> a < x.
Proof. intros S Hx. inversion S as [|? ? _ F]; subst. rewrite Forall_forall in F. auto. Qed.

Lemma E_ERR_OVERFLOW_not_ok : (E_ERR_OVERFLOW =? OK) = false.
Proof. reflexivity. Qed.
Lemma E_ERR_BLKCRC_not_ok : (E_ERR_BLKCRC =? OK) = false.
Proof. reflexivity. Qed.
Lemma OK_not_more : OK <> MORE.
Proof. discriminate. Qed.

(* a buffer that do_reorder accepts as the last one of its block is final *)
Lemma ro_final_ok ord o : ro_status ord o <> MORE -> ro_final ord o = OK -> o_status o <> MORE.
Proof.
  unfold ro_final, ro_status. destruct (h_bs100k ord * 100000 <? o_blksz o); [|auto].
  rewrite E_ERR_OVERFLOW_not_ok. cbn [andb]. discriminate.
Qed.

Lemma ro_status_more ord o : ro_status ord o = MORE -> o_status o = MORE.
Proof. unfold ro_status. destruct (h_bs100k ord * 100000 <? o_blksz o); [discriminate|auto]. Qed.

Lemma own_reorder st st' : x_failed st = None -> x_failed st' = None -> own st -> reorder st = Some st' -> own st'.
Proof.
  intros NF NF' [I S] H. destruct (reorder_inv _ _ H) as (_ & o & l1 & l2 & Q & R & C).
  assert (MIN : forall y, In y (x_reord_q st) -> pos_lt (o_base y) (o_base o) = false) by (intros; eapply qmin_min; eauto).
  assert (QS : forall y, In y (l1 ++ l2) -> In y (x_reord_q st)).
  { intros y Hy. rewrite R, in_app_iff. cbn [In]. apply in_app_or in Hy. tauto. }
  (* a buffer with status MORE is never a witness through the removed (minimal) buffer *)
  assert (MO : forall o2, In o2 (l1 ++ l2) -> o_status o2 = MORE -> lineabove (estage st) (l1 ++ l2) (fst (o_base o2)) (snd (o_base o2) + 1)).
  { intros o2 H2 S2. destruct (la_remove _ _ _ _ _ _ R (o_more _ _ _ I o2 (QS _ H2) S2)) as [L|(A & B & C')]; auto.
    exfalso. pose proof (MIN o2 (QS _ H2)) as M. apply not_true_iff_false in M. apply M. apply pos_lt_spec. unfold lexlt. lia. }
  (* no queued candidate once parsing is done; otherwise the heads are behind the parser *)
  assert (U2 : (x_parsing_done st = false -> o_status o <> MORE -> fst (o_base o) <= x_next st) ->
               (x_parsing_done st = true \/ x_order_q st <> []) ->
               forall u, In u (x_unords st) -> u_inq u = true -> u_complete u = true ->
                 lineabove (estage st) (l1 ++ l2) (fst (u_base u)) 0 \/ orph st (fst (u_base u))).
  { intros HB HD u Hu Qu Cu. destruct (o_u2 _ _ _ I u Hu Qu Cu) as [L|L]; auto.
    destruct (la_remove _ _ _ _ _ _ R L) as [L'|(A & B & C')]; auto. right. left.
    destruct (x_parsing_done st) eqn:PD.
    - exfalso. pose proof (o_noinq _ _ _ I PD) as NI. rewrite Forall_forall in NI. rewrite (NI u Hu) in Qu. discriminate.
    - rewrite <- B. exact (HB eq_refl A). }
  destruct C as [D ->|ord rest OQ EB SM ->|ord rest OQ EB SM SF ->|ord rest OQ EB SM SF ->];
    [|xs in OQ; pose proof (o_sorted _ S) as SRT; pose proof (o_le_next _ S) as LEN; rewrite OQ in SRT, LEN, I; cbn [map] in SRT; pose proof (Forall_inv LEN) as LO ..].
  - (* a buffer nobody waits for *)
    xs in D. pose proof (o_sorted _ S) as SRT. pose proof (o_le_next _ S) as LEN.
    split; [|eapply oshape_view; [| |exact S]; reflexivity]. xs.
    constructor; xs; try apply I.
    + intros h Hh. destruct (o_heads _ _ _ I h Hh) as [M|L]; [left; exact M|right].
      destruct (la_remove _ _ _ _ _ _ R L) as [L'|(A & B & C')]; [exact L'|]. exfalso.
      destruct D as [(OQ & _)|(ord & rest & OQ & LT)]; rewrite OQ in *; [destruct Hh|].
      apply pos_lt_spec in LT. unfold lexlt in LT. destruct Hh as [<-|Hh].
      * unfold hb, hs in *. lia.
      * pose proof (sorted_head_lt _ _ _ SRT (in_map hb _ _ Hh)). unfold hb in *. lia.
    + exact MO.
    + apply U2.
      * intros PF _. destruct D as [(_ & PD)|(ord & rest & OQ & LT)]; [congruence|].
        rewrite OQ in LEN. pose proof (Forall_inv LEN). apply pos_lt_spec in LT. unfold lexlt, hb in *. lia.
      * destruct D as [(_ & PD)|(ord & rest & OQ & _)]; [left; exact PD|right; rewrite OQ; discriminate].
  - (* one more buffer of the block: the head moves on *)
    apply ro_status_more in SM.
    assert (LV : forall b k, la st b k -> lineabove (estage st) (l1 ++ l2) b k).
    { intros b k L. destruct (la_remove _ _ _ _ _ _ R L) as [L'|(A & _)]; [exact L'|congruence]. }
    split.
    + unfold ro_hand, ro_offs. xs. constructor; xs; try apply I.
      * intros h [<-|Hh].
        -- right. unfold hb, hs. cbn. apply LV. rewrite <- EB. apply (o_more _ _ _ I o); [|exact SM]. rewrite R. apply in_elt.
        -- destruct (o_heads _ _ _ I h (or_intror Hh)) as [M|L]; [left; exact M|right; exact (LV _ _ L)].
      * exact MO.
      * apply U2; [intros _ K; congruence|right; rewrite OQ; discriminate].
    + constructor; unfold ro_hand, ro_offs; xs; [exact SRT|]. inversion LEN; subst. constructor; auto.
  - (* the last buffer of the block: the head leaves the order *)
    pose proof (ro_final_ok _ _ SM SF) as OF.
    split.
    + unfold ro_hand, ro_offs. xs. constructor; xs; try apply I.
      * intros h Hh. destruct (o_heads _ _ _ I h (or_intror Hh)) as [M|L]; [left; exact M|right].
        destruct (la_remove _ _ _ _ _ _ R L) as [L'|(A & B & C')]; [exact L'|]. exfalso.
        pose proof (sorted_head_lt _ _ _ SRT (in_map hb _ _ Hh)). rewrite EB in B. unfold hb in *. lia.
      * exact MO.
      * apply U2; [intros _ _; rewrite EB; exact LO|right; rewrite OQ; discriminate].
    + constructor; unfold ro_hand, ro_offs; xs; [inversion SRT; assumption|inversion LEN; assumption].
  - discriminate NF'.
Qed.
