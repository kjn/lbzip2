(* Effects of the auxiliary operations of the model (attach, detach, advance, the unord store)
   on the fields they touch. *)
From Coq Require Import List NArith Bool Lia Arith ZifyBool ZifyN Permutation.
From LBZ Require Import Gen.Consts SchedX.XState Gen.SchedXTab SchedX.XSet SchedX.XModel SchedX.XLemmas
  SchedX.XFrame SchedX.XInvDefs.
From LBZ Require Export SchedX.XStep.
Import ListNotations.
Local Open Scope N_scope.

(* Normal form of a state expression: the auxiliary operations are rewritten into setters
   (base xn of XFrame.v), after which every projection reduces. *)
Ltac xnorm := autorewrite with xn; xs.
Tactic Notation "xnorm" "in" hyp(H) := autorewrite with xn in H; xs in H.

Lemma contig_upd_ref f o q : forall h t, contig h (upd_ref f o q) t <-> contig h q t.
Proof.
  induction q as [|b r IH]; simpl; intros h t; [tauto|].
  destruct (ib_off b =? o); simpl; unfold ib_end; simpl; rewrite IH; tauto.
Qed.

Lemma contig_le h q t : contig h q t -> h <= t.
Proof.
  revert h; induction q as [|b r IH]; simpl; intros h H; [lia|].
  destruct H as (H1 & H2 & H3). apply IH in H3. unfold ib_end in H3. lia.
Qed.

Lemma contig_app h q t b : contig h q t -> 0 < ib_size b -> ib_off b = t -> contig h (q ++ [b]) (t + ib_size b).
Proof.
  revert h; induction q as [|a r IH]; simpl; intros h H Hs Ho.
  - subst. unfold ib_end. repeat split; auto.
  - destruct H as (H1 & H2 & H3). repeat split; auto.
Qed.

Lemma find_blk_contig off q : forall h t, contig h q t -> h <= off -> off < t -> exists b, find_blk off q = Some b.
Proof.
  induction q as [|b r IH]; simpl; intros h t H Hl Hu; [lia|].
  destruct H as (H1 & H2 & H3). destruct (off <? ib_end b) eqn:E; [eauto|].
  eapply IH; eauto. lia.
Qed.

Lemma attach_contig d st h t : contig h (x_input_q (fst (attach d st))) t <-> contig h (x_input_q st) t.
Proof.
  unfold attach.
  destruct (can_attach_assert st d && (d_off d <=? x_tail_offs st));
    destruct (d_off d =? x_tail_offs st); simpl; xs; try tauto;
    destruct (find_blk (d_off d) (x_input_q st)); simpl; xs; try tauto;
    apply contig_upd_ref.
Qed.

Lemma attach_ok d st :
  contig (x_head_offs st) (x_input_q st) (x_tail_offs st) ->
  x_head_offs st <= d_off d -> d_off d <= x_tail_offs st ->
  x_bad_attach st = false -> x_bad_attach (fst (attach d st)) = false.
Proof.
  intros Hc Hl Hu Hb. unfold attach, can_attach_assert.
  replace ((x_head_offs st <=? d_off d) && (d_off d <=? x_tail_offs st)) with true by lia.
  destruct (d_off d =? x_tail_offs st) eqn:E; simpl; auto.
  destruct (find_blk_contig (d_off d) _ _ _ Hc Hl) as [b ->]; [lia|]. simpl. xs. auto.
Qed.

Lemma detach_contig att st h t : contig h (x_input_q (detach att st)) t <-> contig h (x_input_q st) t.
Proof.
  unfold detach. destruct att; [|tauto]. destruct (has_blk n (x_input_q st)); xs; [|tauto].
  apply contig_upd_ref.
Qed.

Lemma pop_input_spec lim q : forall h t, contig h q t ->
  contig (h + sum_sizes (fst (pop_input lim q))) (snd (pop_input lim q)) t /\
  (h <= lim -> h + sum_sizes (fst (pop_input lim q)) <= lim).
Proof.
  induction q as [|b r IH]; simpl; intros h t H.
  - rewrite N.add_0_r. auto.
  - destruct H as (H1 & H2 & H3). destruct (ib_end b <=? lim) eqn:E.
    + specialize (IH _ _ H3). destruct (pop_input lim r) as [p k]. simpl in *.
      unfold ib_end in *. replace (h + (ib_size b + sum_sizes p)) with (ib_off b + ib_size b + sum_sizes p) by lia.
      split; [tauto|]. intros _. apply IH. lia.
    + simpl. rewrite N.add_0_r. simpl. tauto.
Qed.

Lemma adv_input_head lim st :
  x_head_offs (adv_input lim st) = x_head_offs st + sum_sizes (fst (pop_input lim (x_input_q st))).
Proof. rewrite adv_input_nf. reflexivity. Qed.

(* advance() as the old state with the fields it touches overwritten *)
Lemma advance_eq cfg bs st :
  let pk := pop_input (d_off bs) (x_input_q st) in
  let hd := x_head_offs st + sum_sizes (fst pk) in
  let dk := adv_retr (length (x_retr_q st)) hd (x_retr_q st) in
  let s1 := set_head_offs hd (set_input_q (snd pk) (set_parser_bs bs st)) in
  advance cfg bs st =
  set_scan_q (adv_scan (length (x_scan_q st)) hd (x_scan_q st))
    (set_unords (if c_advance_drops_link cfg then drop_links (fst dk) (x_unords st) else x_unords st)
       (set_work_units (x_work_units st + N.of_nat (length (fst dk)))
          (set_retr_q (snd dk) (set_zombies (rel_zom (fst pk) s1) (set_in_slots (rel_ins (fst pk) s1) s1))))).
Proof.
  cbv zeta. xnorm. unfold advj_un, adv_jobs. destruct (c_advance_drops_link cfg); reflexivity.
Qed.

(* The two release loops of advance() ("while the least element lies below head_offs: dequeue it")
   are instances of one loop over any element type with a current bit stream [cur], for any
   function [pick] that returns a least element.  Bit streams are normalised, so the word offset is
   monotone in the bit position: once the least element is not below [hd], none is, and the loop has
   removed exactly the elements below [hd]. *)
Section Release.
  Context {A : Type} (cur : A -> dbs) (eqb : A -> A -> bool) (pick : list A -> option A).
  Hypothesis eqb_eq : forall a b, eqb a b = true -> a = b.
  Hypothesis eqb_refl : forall a, eqb a a = true.
  Hypothesis pick_min : forall q j, pick q = Some j ->
    In j q /\ forall y, In y q -> pos_lt (d_pos (cur y)) (d_pos (cur j)) = false.
  Hypothesis pick_some : forall q, q <> [] -> exists j, pick q = Some j.

  Fixpoint release (fuel : nat) (hd : N) (q : list A) : list A * list A :=
    match fuel with
    | O => ([], q)
    | S f =>
      match pick q with
      | Some j =>
        if d_off (cur j) <? hd then
          match remove_one eqb j q with
          | Some q' => let (d, k) := release f hd q' in (j :: d, k)
          | None => ([], q)
          end
        else ([], q)
      | None => ([], q)
      end
    end.

  Theorem release_spec fuel hd q :
    (length q <= fuel)%nat -> Forall (fun x => dbs_norm (cur x) = true) q ->
    snd (release fuel hd q) = filter (fun x => negb (d_off (cur x) <? hd)) q /\
    Permutation (fst (release fuel hd q)) (filter (fun x => d_off (cur x) <? hd) q).
  Proof.
    revert q. induction fuel as [|f IH]; intros q L NM; simpl.
    - destruct q; [simpl; auto|simpl in L; lia].
    - destruct (pick q) as [j|] eqn:P.
      + destruct (pick_min _ _ P) as [Hj MIN].
        destruct (d_off (cur j) <? hd) eqn:B.
        * destruct (In_remove_one_some eqb eqb_refl _ _ Hj) as [q' R]. rewrite R.
          destruct (remove_one_split _ eqb_eq _ _ _ R) as (l1 & l2 & -> & ->).
          assert (L' : (length (l1 ++ l2) <= f)%nat) by (rewrite app_length in *; simpl in L; lia).
          assert (NM' : Forall (fun x => dbs_norm (cur x) = true) (l1 ++ l2)).
          { apply Forall_app in NM. destruct NM as [N1 N2]. inversion N2; subst. apply Forall_app; auto. }
          destruct (IH _ L' NM') as [I1 I2]. destruct (release f hd (l1 ++ l2)) as [d k]. simpl in *.
          rewrite !filter_app in *. simpl. rewrite B. simpl. split; [exact I1|].
          apply Permutation_cons_app. exact I2.
        * simpl. rewrite Forall_forall in NM.
          assert (ALL : forall y, In y q -> (d_off (cur y) <? hd) = false).
          { intros y Hy. pose proof (MIN y Hy) as M. apply not_true_iff_false in M. rewrite pos_lt_spec in M.
            unfold d_pos, lexlt in M. simpl in M. pose proof (NM y Hy) as Ny. pose proof (NM j Hj) as Nj.
            unfold dbs_norm in *. clear - M Ny Nj B. lia. }
          split.
          -- symmetry. apply filter_all. intros y Hy. rewrite (ALL y Hy). reflexivity.
          -- rewrite (filter_none _ _ ALL). constructor.
      + destruct q as [|a r]; [simpl; auto|]. destruct (pick_some (a :: r)) as [j Pj]; [discriminate|congruence].
  Qed.
End Release.

Lemma qmin_least {A} (key : A -> pos) (q : list A) j :
  qmin key pos_lt q = Some j -> In j q /\ forall y, In y q -> pos_lt (key y) (key j) = false.
Proof. intro Q. split; [eapply qmin_In; eauto|intros; eapply qmin_min; eauto]. Qed.

Lemma adv_retr_release fuel hd q : adv_retr fuel hd q = release r_cur rjob_eqb (qmin rkey pos_lt) fuel hd q.
Proof.
  revert q. induction fuel as [|f IH]; intro q; [reflexivity|]. cbn [adv_retr release].
  destruct (qmin rkey pos_lt q) as [j|]; [|reflexivity]. destruct (d_off (r_cur j) <? hd); [|reflexivity].
  destruct (remove_one rjob_eqb j q) as [q'|]; [|reflexivity]. rewrite IH. reflexivity.
Qed.

Lemma adv_scan_release fuel hd q : adv_scan fuel hd q = snd (release (fun s => s) dbs_eqb (qmin d_pos pos_lt) fuel hd q).
Proof.
  revert q. induction fuel as [|f IH]; intro q; [reflexivity|]. cbn [adv_scan release].
  destruct (qmin d_pos pos_lt q) as [j|]; [|reflexivity]. destruct (d_off j <? hd); [|reflexivity].
  destruct (remove_one dbs_eqb j q) as [q'|]; [|reflexivity]. rewrite IH. destruct (release _ _ _ f hd q'). reflexivity.
Qed.

(* advance() keeps exactly the jobs at or above the new head_offs *)
Lemma adv_retr_kept hd q : Forall (fun j => dbs_norm (r_cur j) = true) q ->
  snd (adv_retr (length q) hd q) = filter (fun j => negb (d_off (r_cur j) <? hd)) q.
Proof.
  intro NM. rewrite adv_retr_release.
  apply (release_spec r_cur rjob_eqb (qmin rkey pos_lt) rjob_eqb_eq rjob_eqb_refl (qmin_least rkey) (qmin_some rkey)); auto.
Qed.

(* whatever the fuel and the streams, the loop only removes jobs *)
Lemma adv_retr_sub fuel hd q j : In j (snd (adv_retr fuel hd q)) -> In j q.
Proof.
  revert q; induction fuel as [|f IH]; intro q; simpl; auto.
  destruct (qmin rkey pos_lt q) as [x|]; auto. destruct (d_off (r_cur x) <? hd); auto.
  destruct (remove_one rjob_eqb x q) as [q'|] eqn:R; auto.
  specialize (IH q'). destruct (adv_retr f hd q') as [d k]. simpl in *. intro H.
  eapply remove_one_In; eauto using rjob_eqb_eq.
Qed.

Lemma adv_scan_kept hd q : Forall (fun s => dbs_norm s = true) q ->
  adv_scan (length q) hd q = filter (fun s => negb (d_off s <? hd)) q.
Proof.
  intro NM. rewrite adv_scan_release.
  apply (release_spec (fun s => s) dbs_eqb (qmin d_pos pos_lt) dbs_eqb_eq dbs_eqb_refl (qmin_least d_pos) (qmin_some d_pos)); auto.
Qed.

(* every element of the new store stems from an element of the old one with the same
   identity, base, end, queue membership and legitimacy; only [complete] may have been raised *)
Definition stems (u u0 : unord) : Prop :=
  u_id u = u_id u0 /\ u_base u = u_base u0 /\ u_end u = u_end u0 /\ u_inq u = u_inq u0 /\ u_legit u = u_legit u0 /\
  (u_complete u0 = true -> u_complete u = true).

Lemma stems_refl u : stems u u.
Proof. unfold stems; tauto. Qed.

Lemma drop_link_stems l us u : In u (drop_link l us) -> exists u0, In u0 us /\ stems u u0.
Proof.
  unfold drop_link. destruct l as [id|]; [|intros; eexists; split; eauto using stems_refl].
  destruct (get_unord id us) as [u1|]; [|intros; eexists; split; eauto using stems_refl].
  destruct (u_complete u1).
  - unfold del_unord. rewrite filter_In. intros [H _]. eexists; split; eauto using stems_refl.
  - unfold upd_unord. rewrite in_map_iff. intros (u0 & <- & H0). exists u0. split; auto.
    destruct (u_id u0 =? id); [|apply stems_refl]. unfold stems, u_set_complete; simpl. tauto.
Qed.

Lemma drop_links_stems js us u : In u (drop_links js us) -> exists u0, In u0 us /\ stems u u0.
Proof.
  unfold drop_links. revert us u. induction js as [|j r IH]; simpl; intros us u H.
  - eexists; split; eauto using stems_refl.
  - destruct (IH _ _ H) as (u1 & H1 & S1). destruct (drop_link_stems _ _ _ H1) as (u0 & H0 & S0).
    exists u0. split; auto. unfold stems in *. intuition congruence.
Qed.

Lemma unord_ok_stems u u0 : stems u u0 -> unord_ok u0 -> unord_ok u.
Proof.
  unfold stems, unord_ok. intros (E1 & E2 & E3 & E4 & E5 & E6) (O1 & O2 & O3).
  rewrite E2, E3, E4, E5. repeat split; auto; intros; try apply O1; auto.
Qed.
