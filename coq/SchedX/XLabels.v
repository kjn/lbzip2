(* The label hypotheses of the decompression-scheduler runs (SchedX/XOwn.v [ev_prog],
   SchedX/XLiveDefs.v [ev_scan_prog], SchedX/XLiveTerm.v [ev_term]) DERIVED from the models of the
   unlocked functions, in the vocabulary of those models:

   (L1) parse()  : Dec/ParseModel.v (the regenerated state machine of src/parse.c)
        - a chain of parse() calls MORE* OK (the buffer is replaced arbitrarily between the calls)
          started in a state [s] consumes at least [16 * ok_dist s] bits; from the state in which
          parser_init() and every OK leave the machine (BLOCK_MAGIC_1) that is 80 bits;
        - a call that returns MORE was made with eof = false, leaves fewer than 16 bits, and what
          it leaves is a suffix of what it got: it consumes >= 1 bit iff >= 16 bits were offered;
          with eof = true MORE is never returned.
   (L2) scan() : Scan/ScanModel.v + Scan/ScanProofs.v
   (L3) emit() : Safe/EmitProofs.v

   What stays assumed: that the label of a scheduler event IS the result of the corresponding
   call of the function model (EvParse1 <-> parse_call, EvScan1 <-> scan, EvEmit1 <-> emit). *)
From Coq Require Import List NArith ZArith Bool Lia.
From LBZ Require Import Common.Bits Dec.Prog Dec.Sim Dec.Format Dec.CrcProofs Dec.ParseVocab Gen.ParseTab Dec.ParseModel Dec.ParseProofs.
Import ListNotations.

(* the least number of 16-bit words parse() must take off the buffer, from state [s], before it
   can return OK *)
Definition ok_dist (s : pstate) : nat :=
  match s with
  | PS_BLOCK_MAGIC_1 => 5 | PS_BLOCK_MAGIC_2 => 4 | PS_BLOCK_MAGIC_3 => 3
  | PS_BLOCK_CRC_1 => 2 | PS_BLOCK_CRC_2 => 1
  | PS_STREAM_MAGIC_2 => 6 | PS_STREAM_MAGIC_1 => 7
  | PS_EOS_CRC_2 => 8 | PS_EOS_CRC_1 => 9 | PS_EOS_3 => 10 | PS_EOS_2 => 11
  | PS_ACCEPT => 0
  end.

Lemma ok_dist_values :
  ok_dist PS_BLOCK_MAGIC_1 = 5%nat /\ ok_dist PS_BLOCK_MAGIC_2 = 4%nat /\ ok_dist PS_BLOCK_MAGIC_3 = 3%nat /\
  ok_dist PS_BLOCK_CRC_1 = 2%nat /\ ok_dist PS_BLOCK_CRC_2 = 1%nat /\
  (forall s, s <> PS_ACCEPT -> (1 <= ok_dist s)%nat).
Proof. repeat split. intros s H. destruct s; cbn [ok_dist]; try lia. congruence. Qed.

(* one iteration of the loop *)
Lemma step_dist m w :
  match snd (parse_step m w) with
  | PCont => (ok_dist (m_state m) <= S (ok_dist (m_state (fst (parse_step m w)))))%nat
  | PRet RC_OK => (ok_dist (m_state m) <= 1)%nat /\ m_state (fst (parse_step m w)) = PS_BLOCK_MAGIC_1
  | _ => True
  end.
Proof.
  destruct m as [st b sc cc md hb hc g buf].
  destruct st; pm_cases; cbn [ok_dist]; auto; lia.
Qed.

Lemma step_state_buf m w x : m_state (fst (parse_step (set_buf m x) w)) = m_state (fst (parse_step m w)) /\
                             snd (parse_step (set_buf m x) w) = snd (parse_step m w).
Proof.
  destruct m as [st b sc cc md hb hc g buf].
  destruct st; pm_cases; auto.
Qed.

Lemma eof_not_ok_more m : snd (parse_eof m) <> PRet RC_OK /\ snd (parse_eof m) <> PRet RC_MORE.
Proof.
  destruct m as [st b sc cc md hb hc g buf]. pm_unfold. split_ifs; split; discriminate.
Qed.

Lemma run_word_length bits w rest :
  run (take 16) bits = Ok (w, rest) -> length bits = (16 + length rest)%nat.
Proof. apply run_take_length. Qed.

Lemma run_word_err bits e : run (take 16) bits = Err e -> (length bits < 16)%nat.
Proof.
  intro H. destruct (le_lt_dec 16 (length bits)) as [L|L]; [exfalso|exact L].
  rewrite <- (firstn_skipn 16 bits), run_take_app0 in H by (apply firstn_length_le; exact L).
  discriminate.
Qed.

Lemma run_word_suffix bits w rest :
  run (take 16) bits = Ok (w, rest) -> exists pre, bits = pre ++ rest.
Proof. intro H. apply run_frame in H as [d [-> _]]. eauto. Qed.

Lemma bits_align_suffix buf : exists pre, buf = pre ++ bits_align buf.
Proof. exists (firstn (length buf mod 8) buf). unfold bits_align. symmetry. apply firstn_skipn. Qed.

(* parse(): after the loop, at end of input: the buffer is not touched *)
Lemma parse_eof_buf m : m_buf (fst (parse_eof m)) = m_buf m.
Proof. destruct m as [st b sc cc md hb hc g buf]. pm_unfold. split_ifs; reflexivity. Qed.

(* what a call that returns [c] with memory [m'] has done to the buffer and to the distance to OK *)
Definition pdist (eof : bool) (m : pmem) (c : rcode) (m' : pmem) : Prop :=
  (exists pre, m_buf m = pre ++ m_buf m') /\
  (c = RC_OK -> (16 * ok_dist (m_state m) + length (m_buf m') <= length (m_buf m))%nat /\
                m_state m' = PS_BLOCK_MAGIC_1) /\
  (c = RC_MORE -> eof = false /\ (length (m_buf m') < 16)%nat /\
                  (parse_entry_ok m = true -> parse_entry_ok m' = true) /\
                  (16 * ok_dist (m_state m) + length (m_buf m') <=
                   length (m_buf m) + 16 * ok_dist (m_state m'))%nat).

(* the loop is left because fewer than 16 bits remain *)
Lemma ploop_exit (eof : bool) (m : pmem) (c : rcode) (m' : pmem) e :
  run (take 16) (m_buf m) = Err e ->
  (if eof then match parse_eof m with (m1, PRet c1) => PC_ret c1 m1 | _ => PC_abort end else PC_ret RC_MORE m) = PC_ret c m' ->
  pdist eof m c m'.
Proof.
  intros E H. pose proof (run_word_err _ _ E) as L1. destruct eof.
  - pose proof (eof_not_ok_more m) as [N1 N2]. pose proof (parse_eof_buf m) as PB.
    destruct (parse_eof m) as [m1 [|c1|]]; try discriminate. inversion H; subst c1 m1. cbn [fst snd] in *.
    split; [exists []; rewrite PB; reflexivity|split; intro; subst; congruence].
  - inversion H; subst. split; [exists []; reflexivity|]. split; [discriminate|]. intros _.
    split; [reflexivity|]. split; [exact L1|]. split; [auto|lia].
Qed.

(* the loop *)
Lemma ploop_dist eof : forall n m c m', (length (m_buf m) <= n)%nat -> ploop m eof = PC_ret c m' -> pdist eof m c m'.
Proof.
  induction n as [|n IH]; intros m c m' Hn H; rewrite ploop_unfold in H;
    (destruct (run (take 16) (m_buf m)) as [[w rest]|e] eqn:E;
     [pose proof (run_word_length _ _ _ E) as L1|exact (ploop_exit eof m c m' e E H)]).
  - lia.
  - pose proof (run_word_suffix _ _ _ E) as [pre0 S0].
    pose proof (parse_step_buf (set_buf m rest) w) as SB. rewrite m_buf_set_buf in SB.
    pose proof (parse_step_buf_le (set_buf m rest) w) as L2. rewrite m_buf_set_buf in L2.
    pose proof (step_dist m w) as SD.
    pose proof (step_state_buf m w rest) as [SS1 SS2]. rewrite <- SS1, <- SS2 in SD.
    pose proof (step_never_more (set_buf m rest) w) as NM.
    destruct (parse_step (set_buf m rest) w) as [m1 out] eqn:PS. cbn [fst snd] in *.
    assert (SUF : exists pre, m_buf m = pre ++ m_buf m1).
    { destruct SB as [SB|SB]; rewrite SB, S0.
      - eauto.
      - destruct (bits_align_suffix rest) as [p Hp]. exists (pre0 ++ p). rewrite <- app_assoc, <- Hp. reflexivity. }
    destruct out as [|c1|]; [| |discriminate].
    + destruct (IH m1 c m' ltac:(lia) H) as [[pre1 I0] [I1 I2]].
      split; [|split].
      * destruct SUF as [p Hp]. exists (p ++ pre1). rewrite <- app_assoc, <- I0. exact Hp.
      * intro Hc. destruct (I1 Hc) as [A B]. split; [lia|exact B].
      * intro Hc. destruct (I2 Hc) as [A [B [C D]]]. split; [exact A|]. split; [exact B|].
        split; [|lia]. intros _. apply C. exact (step_cont_entry _ _ _ PS).
    + inversion H; subst c1 m1. split; [exact SUF|]. split.
      * intro Hc. subst c. destruct SD as [SD1 SD2]. split; [lia|exact SD2].
      * intro Hc. subst c. congruence.
Qed.

(* whatever it returns: what is left in the buffer is a suffix of what was offered *)
Theorem parse_call_suffix m eof c m' :
  parse_call m eof = PC_ret c m' -> exists consumed, m_buf m = consumed ++ m_buf m'.
Proof.
  unfold parse_call. destruct (parse_entry_ok m); [|discriminate]. intro H.
  exact (proj1 (ploop_dist eof _ m c m' (le_n _) H)).
Qed.

(* OK: the call alone consumed 16 * ok_dist bits at least, and leaves the machine where
   parser_init() leaves it *)
Theorem parse_call_ok m eof m' :
  parse_call m eof = PC_ret RC_OK m' ->
  (16 * ok_dist (m_state m) + length (m_buf m') <= length (m_buf m))%nat /\ m_state m' = PS_BLOCK_MAGIC_1.
Proof.
  unfold parse_call. destruct (parse_entry_ok m); [|discriminate]. intro H.
  exact (proj1 (proj2 (ploop_dist eof _ m RC_OK m' (le_n _) H)) eq_refl).
Qed.

(* MORE: only when more input may come; every complete 16-bit word was consumed; the distance to OK
   decreased by the number of words consumed at most; the next call will not hit the assert *)
Theorem parse_call_more m eof m' :
  parse_call m eof = PC_ret RC_MORE m' ->
  eof = false /\ (length (m_buf m') < 16)%nat /\ parse_entry_ok m' = true /\
  (16 * ok_dist (m_state m) + length (m_buf m') <= length (m_buf m) + 16 * ok_dist (m_state m'))%nat.
Proof.
  unfold parse_call. destruct (parse_entry_ok m) eqn:EO; [|discriminate]. intro H.
  destruct (proj2 (proj2 (ploop_dist eof _ m RC_MORE m' (le_n _) H)) eq_refl) as [A [B [C D]]].
  auto.
Qed.

(* H3, precisely: a call that returns MORE consumed at least one bit iff at least 16 bits were
   offered.  (With fewer than 16 bits and eof = false it returns MORE having consumed nothing;
   with eof = true it never returns MORE.) *)
Theorem parse_more_progress m eof m' :
  parse_call m eof = PC_ret RC_MORE m' ->
  ((length (m_buf m') < length (m_buf m))%nat <-> (16 <= length (m_buf m))%nat).
Proof.
  intro H. destruct (parse_call_more _ _ _ H) as [_ [B _]].
  destruct (parse_call_suffix _ _ _ _ H) as [pre Hp].
  split; [|lia]. intro L.
  destruct (le_lt_dec 16 (length (m_buf m))) as [G|G]; [exact G|exfalso].
  (* fewer than 16 bits: the loop body is not entered *)
  revert H L. unfold parse_call. destruct (parse_entry_ok m); [|discriminate].
  rewrite ploop_unfold.
  destruct (run (take 16) (m_buf m)) as [[w rest]|e] eqn:E.
  - apply run_word_length in E. lia.
  - destruct eof.
    + pose proof (eof_not_ok_more m) as [_ N2]. destruct (parse_eof m) as [m1 [|c1|]]; try discriminate.
      intro H; inversion H; subst. cbn in N2. congruence.
    + intro H; inversion H; subst. lia.
Qed.

Theorem parse_eof_never_more m m' : parse_call m true <> PC_ret RC_MORE m'.
Proof. intro H. destruct (parse_call_more _ _ _ H) as [A _]. discriminate. Qed.

(* [ok_chain m n m']: parse() is called on m; as long as it returns MORE it is called again
   with the same *ps and ANY new buffer content (expand.c: left-over ++ next input piece);
   finally it returns OK with memory m'.  n = the total number of bits the calls took off
   their buffers. *)
Inductive ok_chain : pmem -> nat -> pmem -> Prop :=
| okc_ok m eof m' :
    parse_call m eof = PC_ret RC_OK m' ->
    ok_chain m (length (m_buf m) - length (m_buf m')) m'
| okc_more m eof m1 buf n m' :
    parse_call m eof = PC_ret RC_MORE m1 ->
    ok_chain (set_buf m1 buf) n m' ->
    ok_chain m ((length (m_buf m) - length (m_buf m1)) + n) m'.

Theorem ok_chain_consumes m n m' :
  ok_chain m n m' -> (16 * ok_dist (m_state m) <= n)%nat /\ m_state m' = PS_BLOCK_MAGIC_1.
Proof.
  induction 1 as [m eof m' H|m eof m1 buf n m' H C IH].
  - destruct (parse_call_ok _ _ _ H) as [A B]. split; [lia|exact B].
  - destruct (parse_call_more _ _ _ H) as [_ [_ [_ D]]]. destruct IH as [A B].
    change (m_state (set_buf m1 buf)) with (m_state m1) in A. split; [lia|exact B].
Qed.

(* H1: from the state parser_init() sets up, and from the state after any OK (wherever the
   retriever left the bit buffer: any [rest]), the next OK comes after >= 80 consumed bits *)
Theorem first_header_80 m0 level mode buf n m' :
  ok_chain (set_buf (parser_init m0 level mode) buf) n m' -> (80 <= n)%nat.
Proof. intro C. apply ok_chain_consumes in C as [A _]. exact A. Qed.

Theorem next_header_80 m eof m1 rest n m2 :
  parse_call m eof = PC_ret RC_OK m1 ->
  ok_chain (set_buf m1 rest) n m2 -> (80 <= n)%nat.
Proof.
  intros H C. apply parse_call_ok in H as [_ S1]. apply ok_chain_consumes in C as [A _].
  change (m_state (set_buf m1 rest)) with (m_state m1) in A. rewrite S1 in A. exact A.
Qed.

Theorem chain_header_80 m n m1 rest n' m2 :
  ok_chain m n m1 -> ok_chain (set_buf m1 rest) n' m2 -> (80 <= n')%nat.
Proof.
  intros C1 C. apply ok_chain_consumes in C1 as [_ S1]. apply ok_chain_consumes in C as [A _].
  change (m_state (set_buf m1 rest)) with (m_state m1) in A. rewrite S1 in A. exact A.
Qed.

(* non-vacuity: a real block header, offered in two pieces (40 bits, of which 32 are consumed
   and MORE is returned; then the remaining 48) *)
Example ok_chain_example :
  let hdr := bits_msb 48 block_magic ++ bits_msb 32 0x9E625BFE%N in
  exists n m', ok_chain (set_buf (parser_init pmem0 9%Z expand_stream_mode) (firstn 40 hdr)) n m' /\
               n = 80%nat /\ m_hd_crc m' = 0x9E625BFE%N.
Proof.
  cbv zeta. eexists. eexists. split; [|split].
  - eapply okc_more with (eof := false) (buf := skipn 32 (bits_msb 48 block_magic ++ bits_msb 32 0x9E625BFE%N)).
    + vm_compute. reflexivity.
    + eapply okc_ok with (eof := false). vm_compute. reflexivity.
  - vm_compute. reflexivity.
  - vm_compute. reflexivity.
Qed.

(* H3 in the form the scheduler uses it: the parser is resumed after MORE with what it left
   over ++ the next piece of input [s]; appending does not move the position, and the call
   consumes >= 1 bit iff left-over + piece have >= 16 bits.  So: every piece of input that is
   not the last one must bring the buffer to >= 16 bits (e.g. has >= 2 bytes); after the last
   one eof = true and MORE is not returned at all. *)
Corollary parse_more_progress_piece m1 s m' :
  parse_call (madd m1 s) false = PC_ret RC_MORE m' ->
  (16 <= length (m_buf m1) + length s)%nat -> (length (m_buf m') < length (m_buf m1) + length s)%nat.
Proof.
  intros H L. apply parse_more_progress in H. change (m_buf (madd m1 s)) with (m_buf m1 ++ s) in H.
  rewrite app_length in H. apply H. exact L.
Qed.

(* the driver of Dec/ParseModel.v: the header positions the scheduler gets *)
(* [parse_headers] reports, for every block, the number of bits left when its header was
   complete.  In an accepted input these numbers go down by at least 80 from one block to the
   next (and the first one is at least 80 below the start), wherever each block body ends. *)
Fixpoint desc80 (bound : nat) (ps : list nat) : Prop :=
  match ps with
  | [] => True
  | p :: r => (p + 80 <= bound)%nat /\ desc80 p r
  end.

Lemma desc80_mono b b' ps : (b <= b')%nat -> desc80 b ps -> desc80 b' ps.
Proof. destruct ps as [|p r]; cbn [desc80]; [auto|]. intros L [A B]. split; [lia|exact B]. Qed.

Theorem pdrive_header_positions body_end :
  (forall b r, body_end b = Some r -> (length r <= length b)%nat) ->
  forall fuel m hs g, m_state m = PS_BLOCK_MAGIC_1 ->
  pdrive (header_blk body_end) fuel m = D_ok hs g ->
  desc80 (length (m_buf m)) (map (fun h => fst (fst h)) hs).
Proof.
  intros HB. induction fuel as [|f IH]; intros m hs g S H; cbn [pdrive] in H; [discriminate|].
  destruct (parse_call m true) as [c m'| |] eqn:PC; try discriminate.
  destruct c; try (cbn [err_of_rcode] in H; discriminate).
  - destruct (parse_call_ok _ _ _ PC) as [L S']. rewrite S in L. cbn [ok_dist] in L.
    destruct (header_blk body_end (Z.to_N (m_hd_bs100k m')) (m_hd_crc m') (m_buf m')) as [[out rest]|e] eqn:HBK;
      [|discriminate].
    unfold header_blk in HBK. destruct (body_end (m_buf m')) as [rest'|] eqn:BE; [|discriminate].
    injection HBK as <- <-.
    destruct (pdrive (header_blk body_end) f (set_buf m' rest')) as [outs g'| | | |] eqn:PD; try discriminate.
    injection H as <- <-. cbn [app map fst desc80]. split; [lia|].
    apply (desc80_mono (length rest')); [exact (HB _ _ BE)|].
    exact (IH (set_buf m' rest') outs g' S' PD).
  - injection H as <- _. exact I.
Qed.

Corollary parse_headers_positions body_end m0 bits hs g :
  (forall b r, body_end b = Some r -> (length r <= length b)%nat) ->
  parse_headers body_end m0 bits = D_ok hs g ->
  desc80 (length bits - 32) (map (fun h => fst (fst h)) hs).
Proof.
  intros HB H. unfold parse_headers, pdecode_gen in H.
  destruct (run (take 32) bits) as [[h rest]|e] eqn:E; [|discriminate].
  destruct ((file_magic_base + file_magic_lo <=? h)%N && (h <=? file_magic_base + file_magic_hi)%N); [|discriminate].
  apply run_take_length in E. rewrite E. replace (32 + length rest - 32)%nat with (length rest) by lia.
  change (length rest) with (length (m_buf (set_buf (parser_init m0 (Z.of_N (h - (file_magic_base + file_magic_level_base))) expand_stream_mode) rest))).
  eapply (pdrive_header_positions body_end HB); [|exact H]. reflexivity.
Qed.

(* non-vacuity: the two-block example of Properties_C15parse: 608 + 80 <= 720 - 32, 248 + 80 <= 608 *)
Example parse_headers_positions_example :
  desc80 (720 - 32) [608; 248]%nat.
Proof. cbn. lia. Qed.

(* position of the parser = number of input bits consumed so far.  [ok_run p m p' m']: parse() is
   called at position p with memory m; on MORE it is resumed with left-over ++ next piece
   (appending does not move the position); finally it returns OK at position p'. *)
Inductive ok_run : nat -> pmem -> nat -> pmem -> Prop :=
| okr_ok p m eof m' :
    parse_call m eof = PC_ret RC_OK m' ->
    ok_run p m (p + (length (m_buf m) - length (m_buf m'))) m'
| okr_more p m m1 s p' m' :
    parse_call m false = PC_ret RC_MORE m1 ->
    ok_run (p + (length (m_buf m) - length (m_buf m1))) (madd m1 s) p' m' ->
    ok_run p m p' m'.

Theorem ok_run_advances p m p' m' :
  ok_run p m p' m' -> (p + 16 * ok_dist (m_state m) <= p')%nat /\ m_state m' = PS_BLOCK_MAGIC_1.
Proof.
  induction 1 as [p m eof m' H|p m m1 s p' m' H C IH].
  - destruct (parse_call_ok _ _ _ H) as [A B]. split; [lia|exact B].
  - destruct (parse_call_more _ _ _ H) as [_ [_ [_ D]]]. destruct IH as [A B].
    change (m_state (madd m1 s)) with (m_state m1) in A. split; [lia|exact B].
Qed.

(* H1 in the form of [ev_prog]: a header is confirmed at position p1 (memory m1); the retriever
   consumes the block body (any prefix [body] of the unread bits; [rest] is what it leaves);
   the next header is confirmed at p2 >= p1 + |body| + 80 >= p1 + 32 *)
Theorem confirmed_positions_advance p0 m0 p1 m1 body rest p2 m2 :
  ok_run p0 m0 p1 m1 ->
  m_buf m1 = body ++ rest ->
  ok_run (p1 + length body) (set_buf m1 rest) p2 m2 ->
  (p1 + length body + 80 <= p2)%nat /\ (p1 + 32 <= p2)%nat.
Proof.
  intros R1 _ R2. apply ok_run_advances in R1 as [_ S1]. apply ok_run_advances in R2 as [A _].
  change (m_state (set_buf m1 rest)) with (m_state m1) in A. rewrite S1 in A. cbn [ok_dist] in A. lia.
Qed.

Theorem first_position_advance p m0 level mode buf p' m' :
  ok_run p (set_buf (parser_init m0 level mode) buf) p' m' -> (p + 80 <= p')%nat.
Proof. intro R. apply ok_run_advances in R as [A _]. exact A. Qed.

(* eof = true and fewer than 16 bits offered: nothing is consumed; FINISH if the machine is
   between streams (STREAM_MAGIC_1/2: trailing garbage of 0/16 bits), ERR_EOF otherwise.
   (eof = true and >= 16 bits: the loop runs as usual; MORE is never returned, see above.) *)
Theorem parse_eof_short m c m' :
  parse_call m true = PC_ret c m' -> (length (m_buf m) < 16)%nat ->
  m_buf m' = m_buf m /\
  ((c = RC_FINISH /\ (m_state m = PS_STREAM_MAGIC_1 \/ m_state m = PS_STREAM_MAGIC_2)) \/
   (c = RC_ERR_EOF /\ m_state m <> PS_STREAM_MAGIC_1 /\ m_state m <> PS_STREAM_MAGIC_2)).
Proof.
  unfold parse_call. destruct (parse_entry_ok m); [|discriminate]. rewrite ploop_unfold.
  destruct (run (take 16) (m_buf m)) as [[w rest]|e] eqn:E.
  - apply run_word_length in E. lia.
  - clear E. destruct m as [st b sc cc md hb hc g buf]. destruct st; pm_unfold; cbn;
      intros H _; inversion H; subst; (split; [reflexivity|]);
      ((left; split; [reflexivity|]; auto; fail) || (right; split; [reflexivity|]; split; discriminate)).
Qed.

Print Assumptions ok_chain_consumes.
Print Assumptions next_header_80.
Print Assumptions parse_call_more.
Print Assumptions parse_more_progress.
Print Assumptions parse_call_suffix.
Print Assumptions parse_headers_positions.
Print Assumptions ok_run_advances.
Print Assumptions confirmed_positions_advance.
Print Assumptions parse_eof_short.

(* non-vacuity of [ok_run]: the parser starts at bit 32 (after the stream header); a block header
   arrives in two pieces of 40 bits; it is confirmed at bit 32 + 80 = 112 *)
Example ok_run_example :
  let hdr := bits_msb 48 block_magic ++ bits_msb 32 0x9E625BFE%N in
  exists p' m', ok_run 32 (set_buf (parser_init pmem0 9%Z expand_stream_mode) (firstn 40 hdr)) p' m' /\
                p' = 112%nat /\ m_hd_crc m' = 0x9E625BFE%N /\ m_buf m' = [].
Proof.
  cbv zeta. eexists. eexists. split; [|split; [|split]].
  - eapply okr_more with (s := skipn 40 (bits_msb 48 block_magic ++ bits_msb 32 0x9E625BFE%N)).
    + vm_compute. reflexivity.
    + eapply okr_ok with (eof := false). vm_compute. reflexivity.
  - vm_compute. reflexivity.
  - vm_compute. reflexivity.
  - vm_compute. reflexivity.
Qed.
