(* Executable labelled transition system of the decompression scheduler
   (expand.c on the runtime of process.c), DESIGN.md Appendix A.3.

   One event = one locked segment (scheduler mutex held from its first to its
   last action).  Unlocked computations (parse, retrieve, decode/emit, scan)
   are not modelled: what they returned is carried by the event label; which
   labels are admissible for a given stream is said in XOracle.v.
   Guards, task order, capacities and the booleans describing the re-enqueue
   sites come from Gen/SchedXTab.v, the thresholds from Gen/Consts.v (both
   regenerated); the booleans enter as the configuration [xcfg] ([gen_cfg]:
   their values in the source), so that a theorem says which of them it needs
   and the code with and without these statements can both be modelled. *)
From Coq Require Import List NArith Bool.
From LBZ Require Import Gen.Consts SchedX.XState Gen.SchedXTab SchedX.XSet.
Import ListNotations.
Local Open Scope N_scope.

(* ---- status codes (enum error, common.h; regenerated in Gen/Consts.v) ---- *)
Definition OK := E_OK.
Definition MORE := E_MORE.
Definition FINISH := E_FINISH.

(* ---- which optional statements the source contains ----------------------- *)
Record xcfg := mkcfg {
  c_requeue_scan_checks_head : bool;
  c_scan_job_checks_head : bool;
  c_scan_checks_unord_cap : bool;          (* finding F9: do_scan passes over a candidate when unord_q is full *)
  c_requeue_retr_checks_head : bool;
  c_stale_drops_link : bool;
  c_retr_done_drops_link : bool;
  c_retr_abort_drops_link : bool;
  c_advance_drops_link : bool;
  c_finish_drops_link : bool }.

Definition gen_cfg : xcfg :=
  mkcfg requeue_scan_checks_head scan_job_checks_head scan_checks_unord_cap requeue_retr_checks_head stale_drops_link retr_done_drops_link
        retr_abort_drops_link advance_drops_link finish_drops_link.

(* ---- decidable equalities ------------------------------------------------- *)
Definition pos_eqb (a b : pos) : bool := (fst a =? fst b) && (snd a =? snd b).
Definition dbs_eqb (a b : dbs) : bool := (d_bit a =? d_bit b) && (d_off a =? d_off b).
Definition optN_eqb (a b : option N) : bool :=
  match a, b with Some x, Some y => x =? y | None, None => true | _, _ => false end.
Definition rjob_eqb (a b : rjob) : bool :=
  pos_eqb (r_base a) (r_base b) && dbs_eqb (r_cur a) (r_cur b) && optN_eqb (r_link a) (r_link b).
Definition ejob_eqb (a b : ejob) : bool :=
  pos_eqb (e_base a) (e_base b) && (e_status a =? e_status b) && (e_end a =? e_end b).
Definition oblk_eqb (a b : oblk) : bool :=
  pos_eqb (o_base a) (o_base b) && (o_size a =? o_size b) && (o_crc a =? o_crc b) &&
  (o_blksz a =? o_blksz b) && (o_status a =? o_status b) && (o_end a =? o_end b).
Definition cont_eqb (a b : cont) : bool :=
  match a, b with
  | CParse x, CParse y => optN_eqb x y
  | CRetr j x, CRetr k y => rjob_eqb j k && optN_eqb x y
  | CRetr2 e, CRetr2 f => ejob_eqb e f
  | CEmit e, CEmit f => ejob_eqb e f
  | CScan s x, CScan t y => dbs_eqb s t && optN_eqb x y
  | _, _ => false
  end.

(* remove a minimal element chosen by the label *)
Definition take_min {A} (eqb : A -> A -> bool) (key : A -> pos) (x : A) (q : list A) : option (list A) :=
  if is_minimal key pos_lt x q then remove_one eqb x q else None.

(* ---- well-formedness of detached bit streams returned by the codec ------- *)
(* 0 <= live < 64 *)
Definition dbs_ok (d : dbs) : bool := (d_bit d <=? 32 * d_off d) && (32 * d_off d <? d_bit d + 64).
(* 0 <= live < 32 *)
Definition dbs_norm (d : dbs) : bool := (d_bit d <=? 32 * d_off d) && (32 * d_off d <? d_bit d + 32).

(* ---- input blocks ----------------------------------------------------------- *)
Definition set_ref (r : N) (b : inblk) : inblk := mkinblk (ib_off b) (ib_size b) r.
Definition ib_end (b : inblk) : N := ib_off b + ib_size b.

Fixpoint find_blk (off : N) (q : list inblk) : option inblk :=
  match q with
  | [] => None
  | b :: r => if off <? ib_end b then Some b else find_blk off r
  end.

Definition upd_ref (f : N -> N) (boff : N) (q : list inblk) : list inblk :=
  map (fun b => if ib_off b =? boff then set_ref (f (ib_ref b)) b else b) q.

Definition has_blk (boff : N) (q : list inblk) : bool := existsb (fun b => ib_off b =? boff) q.

(* attach(): expand.c:316.  Returns the state and the offset of the block the
   bit stream is attached to.  The two asserts at its head are the ghost flag. *)
Definition attach (d : dbs) (st : xstate) : xstate * option N :=
  let st1 := if can_attach_assert st d && (d_off d <=? x_tail_offs st) then st else set_bad_attach true st in
  if d_off d =? x_tail_offs st then (st1, None)
  else match find_blk (d_off d) (x_input_q st1) with
       | Some b => (set_input_q (upd_ref N.succ (ib_off b) (x_input_q st1)) st1, Some (ib_off b))
       | None => (set_bad_attach true st1, None)
       end.

(* end (word offset) of the attached block; tail_offs for the empty stream at EOF *)
Definition att_end (att : option N) (st : xstate) : N :=
  match att with
  | None => x_tail_offs st
  | Some boff =>
    match find (fun b => ib_off b =? boff) (x_input_q st ++ x_zombies st) with
    | Some b => ib_end b
    | None => 0
    end
  end.

(* the reference-dropping half of detach(): expand.c:398 *)
Definition detach (att : option N) (st : xstate) : xstate :=
  match att with
  | None => st
  | Some boff =>
    if has_blk boff (x_input_q st) then set_input_q (upd_ref N.pred boff (x_input_q st)) st
    else
      let z := upd_ref N.pred boff (x_zombies st) in
      let freed := N.of_nat (length (filter (fun b => ib_ref b =? 0) z)) in
      set_in_slots (x_in_slots st + freed) (set_zombies (filter (fun b => negb (ib_ref b =? 0)) z) st)
  end.

(* a block leaves input_q: --ref_count, free it when nobody is attached *)
Definition release_blk (b : inblk) (st : xstate) : xstate :=
  if ib_ref b =? 1 then set_in_slots (x_in_slots st + 1) st
  else set_zombies (x_zombies st ++ [set_ref (N.pred (ib_ref b)) b]) st.

Fixpoint pop_input (lim : N) (q : list inblk) : list inblk * list inblk :=
  match q with
  | [] => ([], [])
  | b :: r => if ib_end b <=? lim then let (p, k) := pop_input lim r in (b :: p, k) else ([], q)
  end.

Definition sum_sizes (l : list inblk) : N := fold_right (fun b a => ib_size b + a) 0 l.

(* ---- unord blocks ------------------------------------------------------------ *)
Definition get_unord (id : N) (l : list unord) : option unord := find (fun u => u_id u =? id) l.
Definition upd_unord (id : N) (f : unord -> unord) (l : list unord) : list unord :=
  map (fun u => if u_id u =? id then f u else u) l.
Definition del_unord (id : N) (l : list unord) : list unord := filter (fun u => negb (u_id u =? id)) l.

Definition u_set_end (e : dbs) (u : unord) := mkunord (u_id u) (u_base u) e (u_complete u) (u_legit u) (u_inq u).
Definition u_set_complete (u : unord) := mkunord (u_id u) (u_base u) (u_end u) true (u_legit u) (u_inq u).
(* removed from unord_q by the parser while its job is unfinished *)
Definition u_detach (legit : bool) (u : unord) := mkunord (u_id u) (u_base u) (u_end u) true legit false.

(* drop_unord_link() of the repaired source: the job gives its unord_blk back *)
Definition drop_link (l : option N) (us : list unord) : list unord :=
  match l with
  | None => us
  | Some id =>
    match get_unord id us with
    | Some u => if u_complete u then del_unord id us else upd_unord id u_set_complete us
    | None => us
    end
  end.

Definition drop_links (js : list rjob) (us : list unord) : list unord :=
  fold_left (fun a j => drop_link (r_link j) a) js us.

(* parser: discard every queued candidate below [p]   (expand.c:575-587) *)
Definition discard_below (p : pos) (us : list unord) : list unord :=
  map (fun u => if u_inq u && pos_lt (u_base u) p && negb (u_complete u) then u_detach false u else u)
      (filter (fun u => negb (u_inq u && pos_lt (u_base u) p && u_complete u)) us).

(* parser at end of input: flush unord_q   (expand.c:548-557) *)
Definition flush_unords (us : list unord) : list unord :=
  map (fun u => if u_inq u then u_detach false u else u)
      (filter (fun u => negb (u_inq u && u_complete u)) us).

(* ---- advance(): expand.c:424 ---------------------------------------------------- *)
Fixpoint adv_retr (fuel : nat) (hd : N) (q : list rjob) : list rjob * list rjob :=
  match fuel with
  | O => ([], q)
  | S f =>
    match qmin rkey pos_lt q with
    | Some j =>
      if d_off (r_cur j) <? hd then
        match remove_one rjob_eqb j q with
        | Some q' => let (d, k) := adv_retr f hd q' in (j :: d, k)
        | None => ([], q)
        end
      else ([], q)
    | None => ([], q)
    end
  end.

Fixpoint adv_scan (fuel : nat) (hd : N) (q : list dbs) : list dbs :=
  match fuel with
  | O => q
  | S f =>
    match qmin d_pos pos_lt q with
    | Some s =>
      if d_off s <? hd then
        match remove_one dbs_eqb s q with
        | Some q' => adv_scan f hd q'
        | None => q
        end
      else q
    | None => q
    end
  end.

(* release input blocks that end at or before [lim] *)
Definition adv_input (lim : N) (st : xstate) : xstate :=
  let pk := pop_input lim (x_input_q st) in
  fold_left (fun a b => release_blk b a) (fst pk)
    (set_head_offs (x_head_offs st + sum_sizes (fst pk)) (set_input_q (snd pk) st)).

(* release queued retrieve jobs that lie below head_offs *)
Definition adv_jobs (cfg : xcfg) (st : xstate) : xstate :=
  let dk := adv_retr (length (x_retr_q st)) (x_head_offs st) (x_retr_q st) in
  let st := set_work_units (x_work_units st + N.of_nat (length (fst dk))) (set_retr_q (snd dk) st) in
  if c_advance_drops_link cfg then set_unords (drop_links (fst dk) (x_unords st)) st else st.

(* release queued scan jobs that lie below head_offs *)
Definition adv_scans (st : xstate) : xstate :=
  set_scan_q (adv_scan (length (x_scan_q st)) (x_head_offs st) (x_scan_q st)) st.

Definition advance (cfg : xcfg) (bs : dbs) (st : xstate) : xstate :=
  adv_scans (adv_jobs cfg (adv_input (d_off bs) (set_parser_bs bs st))).

(* ---- scheduling ----------------------------------------------------------------- *)
Definition first_ready (st : xstate) : option task := find (fun t => ready t st) task_list.
Definition selects (t : task) (st : xstate) : bool :=
  match first_ready st with Some u => task_eqb t u | None => false end.

Definition add_run (c : cont) (st : xstate) : xstate := set_running (c :: x_running st) st.
Definition del_run (c : cont) (st : xstate) : option xstate :=
  match remove_one cont_eqb c (x_running st) with
  | Some r => Some (set_running r st)
  | None => None
  end.

(* ---- event labels ----------------------------------------------------------------- *)
Inductive parse_res :=
| PMore (bs : dbs) (ps : N)
| PFinish (bs : dbs) (garbage : N)
| PErr (bs : dbs) (code : N)
| POk (bs : dbs) (ps : N) (bs100k crc : N).

Inductive event :=
| EvInput (size missing : N)            (* reader: on_input_avail (size in words) *)
| EvEof                                 (* reader: eof = 1 *)
| EvWritten                             (* writer: on_write_complete *)
| EvParse0
| EvParse1 (att : option N) (r : parse_res)
| EvRetr0 (j : rjob)
| EvRetr1 (j : rjob) (att : option N) (rv : N) (cur : dbs)
| EvRetr2 (e : ejob)
| EvEmit0
| EvEmit1 (e : ejob) (rv size crc blksz : N)
| EvReorder
| EvScan0
| EvScan1 (s : dbs) (att : option N) (found : bool) (s' : dbs) (more : bool).

Definition fail (code : N) (st : xstate) : xstate := set_failed (Some code) st.

(* ---- do_parse ------------------------------------------------------------------ *)
Definition parse0 (st : xstate) : option xstate :=
  if selects TParse st then
    let st := set_work_units (N.pred (x_work_units st)) (set_parse_token false st) in
    let (st, att) := attach (x_parser_bs st) st in
    Some (add_run (CParse att) st)
  else None.

Definition parse_finish (cfg : xcfg) (garbage : N) (st : xstate) : xstate :=
  let st := set_parsing_done true (set_parse_token true (set_closed true st)) in
  let pb := x_parser_bs st in
  let live := 32 * d_off pb - d_bit pb + garbage in
  let pb' := mkdbs (d_bit pb - garbage) (if 32 <=? live then N.pred (d_off pb) else d_off pb) in
  let live' := 32 * d_off pb' - d_bit pb' in
  let st := set_parser_bs pb' st in
  if (d_off pb' =? x_tail_offs st) && (live' <? 8 * x_eof_missing st) then fail E_ERR_EOF st
  else
    (* the five releases below touch disjoint variables inside one locked segment;
       the input blocks (expand.c:519-527) are listed last here *)
    let st := if c_finish_drops_link cfg then set_unords (drop_links (x_retr_q st) (x_unords st)) st else st in
    let st := set_work_units (x_work_units st + N.of_nat (length (x_retr_q st))) (set_retr_q [] st) in
    let st := set_scan_q [] st in
    let st := set_unords (flush_unords (x_unords st)) st in
    let st := set_head_offs (x_head_offs st + sum_sizes (x_input_q st))
                (fold_left (fun a b => release_blk b a) (x_input_q st) (set_input_q [] st)) in
    set_work_units (x_work_units st + 1) st.

Definition parse_ok (cfg : xcfg) (bs100k crc : N) (st : xstate) : xstate :=
  let p := d_pos (x_parser_bs st) in
  let st := set_order_q (x_order_q st ++ [mkhead p bs100k crc]) st in
  let st := set_unords (discard_below p (x_unords st)) st in
  match qmin u_base pos_lt (unord_q st) with
  | Some u =>
    if pos_eq (u_base u) p then
      let st := advance cfg (u_end u) st in
      let st := if u_complete u
                then set_parse_token true (set_unords (del_unord (u_id u) (x_unords st)) st)
                else set_unords (upd_unord (u_id u) (u_detach true) (x_unords st)) st in
      set_work_units (x_work_units st + 1) st
    else set_retr_q (mkrjob p (x_parser_bs st) None :: x_retr_q st) st
  | None => set_retr_q (mkrjob p (x_parser_bs st) None :: x_retr_q st) st
  end.

Definition res_bs (r : parse_res) : dbs :=
  match r with PMore b _ | PFinish b _ | PErr b _ | POk b _ _ _ => b end.

Definition parse1 (cfg : xcfg) (att : option N) (r : parse_res) (st : xstate) : option xstate :=
  match del_run (CParse att) st with
  | None => None
  | Some st =>
    let bs := res_bs r in
    let aend := att_end att st in
    if dbs_ok bs && (d_bit (x_parser_bs st) <=? d_bit bs) && (d_off (x_parser_bs st) <=? d_off bs)
       && (d_off bs <=? aend) then
      let st := detach att st in
      let st := advance cfg bs st in
      match r with
      | PMore _ ps =>
        if (d_off bs =? aend) && dbs_norm bs then
          Some (set_work_units (x_work_units st + 1) (set_parse_token true (set_par ps st)))
        else None
      | PFinish _ g =>
        if (g <=? 32) && (g <=? d_bit bs) then Some (parse_finish cfg g st) else None
      | PErr _ code =>
        if (code =? OK) || (code =? MORE) || (code =? FINISH) then None else Some (fail code st)
      | POk _ ps lv crc =>
        if dbs_norm bs then Some (parse_ok cfg lv crc (set_par ps (set_next (d_bit bs) st))) else None
      end
    else None
  end.

(* ---- do_retrieve ------------------------------------------------------------------ *)
Definition retr0 (j : rjob) (st : xstate) : option xstate :=
  if selects TRetrieve st then
    match take_min rjob_eqb rkey j (x_retr_q st) with
    | Some q =>
      let (st, att) := attach (r_cur j) (set_retr_q q st) in
      Some (add_run (CRetr j att) st)
    | None => None
    end
  else None.

Definition link_state (l : option N) (st : xstate) : option unord :=
  match l with Some id => get_unord id (x_unords st) | None => None end.

Definition give_unit (st : xstate) : xstate := set_work_units (x_work_units st + 1) st.

Definition retr1 (cfg : xcfg) (j : rjob) (att : option N) (rv : N) (cur : dbs) (st : xstate) : option xstate :=
  match del_run (CRetr j att) st with
  | None => None
  | Some st =>
    let aend := att_end att st in
    if dbs_ok cur && (d_bit (r_cur j) <=? d_bit cur) && (d_off (r_cur j) <=? d_off cur) && (d_off cur <=? aend)
       && (if rv =? MORE then (d_off cur =? aend) && dbs_norm cur && (d_off (r_cur j) <? d_off cur) else true)
       && negb (rv =? FINISH) then
      let st := detach att st in
      let j' := mkrjob (r_base j) cur (r_link j) in
      if x_parsing_done st then
        Some (give_unit (if c_retr_done_drops_link cfg then set_unords (drop_link (r_link j) (x_unords st)) st else st))
      else
        let lk := link_state (r_link j) st in
        let complete := match lk with Some u => u_complete u | None => false end in
        let legit := match lk with Some u => u_legit u | None => false end in
        let linked := match r_link j with Some _ => true | None => false end in
        if linked && complete && negb legit then
          Some (give_unit (if c_retr_abort_drops_link cfg then set_unords (drop_link (r_link j) (x_unords st)) st else st))
        else
          let st := if negb linked || complete then advance cfg cur st
                    else match r_link j with
                         | Some id => set_unords (upd_unord id (u_set_end cur) (x_unords st)) st
                         | None => st
                         end in
          if rv =? MORE then
            if c_requeue_retr_checks_head cfg && (d_off cur <? x_head_offs st) then
              Some (give_unit (if c_stale_drops_link cfg then set_unords (drop_link (r_link j) (x_unords st)) st else st))
            else Some (set_retr_q (j' :: x_retr_q st) st)
          else
            let st := if linked && negb complete then
                        match r_link j with
                        | Some id => set_unords (upd_unord id (fun u => u_set_complete (u_set_end cur u)) (x_unords st)) st
                        | None => st
                        end
                      else
                        let st := set_parse_token true st in
                        match r_link j with
                        | Some id => set_unords (del_unord id (x_unords st)) st
                        | None => st
                        end in
            Some (add_run (CRetr2 (mkejob (r_base j) rv (d_off cur))) st)
    else None
  end.

Definition retr2 (e : ejob) (st : xstate) : option xstate :=
  match del_run (CRetr2 e) st with
  | None => None
  | Some st => Some (set_emit_q (e :: x_emit_q st) st)
  end.

(* ---- do_emit ------------------------------------------------------------------------ *)
Definition emit0 (st : xstate) : option xstate :=
  if selects TEmit st then
    match qmin e_base pos_lt (x_emit_q st) with
    | Some e =>
      match remove_one ejob_eqb e (x_emit_q st) with
      | Some q => Some (add_run (CEmit e) (set_emit_q q (set_out_slots (N.pred (x_out_slots st)) st)))
      | None => None
      end
    | None => None
    end
  else None.

Definition emit1 (e : ejob) (rv size crc blksz : N) (st : xstate) : option xstate :=
  match del_run (CEmit e) st with
  | None => None
  | Some st =>
    if ((e_status e =? OK) || (rv =? e_status e)) && negb (rv =? FINISH) then
      let ob end_ := mkoblk (e_base e) size crc blksz rv end_ in
      if rv =? MORE then
        let e' := mkejob (fst (e_base e), snd (e_base e) + 1) (e_status e) (e_end e) in
        Some (set_reord_q (ob 0 :: x_reord_q st) (set_emit_q (e' :: x_emit_q st) st))
      else
        Some (set_reord_q (ob (e_end e) :: x_reord_q st) (give_unit st))
    else None
  end.

(* ---- do_reorder ------------------------------------------------------------------------ *)
Definition reorder (st : xstate) : option xstate :=
  if selects TReorder st then
    match qmin o_base pos_lt (x_reord_q st) with
    | None => None
    | Some o =>
      match remove_one oblk_eqb o (x_reord_q st) with
      | None => None
      | Some q =>
        let st := set_reord_q q st in
        match x_order_q st with
        | [] => Some (set_out_slots (x_out_slots st + 1) st)
        | ord :: rest =>
          if pos_lt (o_base o) (h_base ord) then Some (set_out_slots (x_out_slots st + 1) st)
          else
            let incr := if x_reord_offs st <? o_end o then o_end o - x_reord_offs st else 0 in
            let st := set_reord_offs (x_reord_offs st + incr) st in
            let status := if h_bs100k ord * 100000 <? o_blksz o then E_ERR_OVERFLOW else o_status o in
            let hand st := set_outq (x_outq st + 1) (set_written (x_written st ++ [(o_base o, o_size o)]) st) in
            if status =? MORE then
              Some (hand (set_order_q (mkhead (fst (h_base ord), snd (h_base ord) + 1) (h_bs100k ord) (h_crc ord) :: rest) st))
            else
              let status := if (status =? OK) && negb (o_crc o =? h_crc ord) then E_ERR_BLKCRC else status in
              if status =? OK then Some (hand (set_order_q rest st))
              else Some (fail status (set_order_q rest st))
        end
      end
    end
  else None.

(* ---- do_scan ------------------------------------------------------------------------------ *)
(* size(unord_q) >= unord_cap: the capacity unord_q was allocated with in init() *)
Definition unord_cap (st : xstate) : N := cap_unord_q (x_total_in st) (x_num_worker st) (x_total_out st).
Definition unord_full (st : xstate) : bool := unord_cap st <=? N.of_nat (length (unord_q st)).
Definition scan0 (st : xstate) : option xstate :=
  if selects TScan st then
    match qmin d_pos pos_lt (x_scan_q st) with
    | Some s =>
      match remove_one dbs_eqb s (x_scan_q st) with
      | Some q =>
        let (st, att) := attach s (set_scan_q q (set_work_units (N.pred (x_work_units st)) st)) in
        Some (add_run (CScan s att) st)
      | None => None
      end
    | None => None
    end
  else None.

Definition scan1 (cfg : xcfg) (s : dbs) (att : option N) (found : bool) (s' : dbs) (more : bool) (st : xstate)
  : option xstate :=
  match del_run (CScan s att) st with
  | None => None
  | Some st =>
    let aend := att_end att st in
    let st := detach att st in
    if negb found || x_parsing_done st then Some (give_unit st)
    else if dbs_norm s' && (d_off s <=? d_off s') && (d_off s' <=? aend) && (Bool.eqb more (d_off s' <? aend)) then
      let st :=
        if pos_le (d_pos s') (d_pos (x_parser_bs st)) || (c_scan_job_checks_head cfg && (d_off s' <? x_head_offs st))
        then give_unit st
        else if c_scan_checks_unord_cap cfg && unord_full st
        then give_unit st                  (* no room in unord_q: the candidate is passed over *)
        else
          let id := x_next_uid st in
          set_retr_q (mkrjob (d_pos s') s' (Some id) :: x_retr_q st)
            (set_next_uid (id + 1) (set_unords (x_unords st ++ [mkunord id (d_pos s') s' false false true]) st)) in
      if more && (negb (c_requeue_scan_checks_head cfg) || (x_head_offs st <=? d_off s'))
      then Some (set_scan_q (s' :: x_scan_q st) st) else Some st
    else None
  end.

(* ---- reader, writer ---------------------------------------------------------------------------- *)
Definition input (size missing : N) (st : xstate) : option xstate :=
  if negb (x_eof st) && (0 <? x_in_slots st) && (0 <? size) && (missing <? 4) then
    if x_parsing_done st then Some st
    else
      let t := x_tail_offs st in
      Some (set_scan_q (mkdbs (32 * t) t :: x_scan_q st)
             (set_input_q (x_input_q st ++ [mkinblk t size 1])
               (set_tail_offs (t + size) (set_eof_missing missing (set_in_slots (N.pred (x_in_slots st)) st)))))
  else None.

Definition reader_eof (st : xstate) : option xstate :=
  if x_eof st then None else Some (set_eof true st).

Definition written (st : xstate) : option xstate :=
  if 0 <? x_outq st then Some (set_out_slots (x_out_slots st + 1) (set_outq (N.pred (x_outq st)) st)) else None.

(* ---- the transition function ------------------------------------------------------------------- *)
Definition step (cfg : xcfg) (st : xstate) (e : event) : option xstate :=
  match x_failed st with
  | Some _ => None                      (* failf() does not return *)
  | None =>
    match e with
    | EvInput sz m => input sz m st
    | EvEof => reader_eof st
    | EvWritten => written st
    | EvParse0 => parse0 st
    | EvParse1 att r => parse1 cfg att r st
    | EvRetr0 j => retr0 j st
    | EvRetr1 j att rv cur => retr1 cfg j att rv cur st
    | EvRetr2 e => retr2 e st
    | EvEmit0 => emit0 st
    | EvEmit1 e rv size crc blksz => emit1 e rv size crc blksz st
    | EvReorder => reorder st
    | EvScan0 => scan0 st
    | EvScan1 s att found s' more => scan1 cfg s att found s' more st
    end
  end.

Fixpoint run (cfg : xcfg) (st : xstate) (es : list event) : option xstate :=
  match es with
  | [] => Some st
  | e :: r => match step cfg st e with Some st' => run cfg st' r | None => None end
  end.

(* primary_thread() + init(): process.c:614, expand.c:982 *)
Definition init_state (n tin tout : N) (ultra : bool) : xstate :=
  mkx false n tout tin n tout tin ultra false 0
      init_eof_missing [] [] init_head_offs init_tail_offs [] [] [] [] [] 0
      init_parse_token init_parsing_done [] init_reord_offs (mkdbs (32 * init_tail_offs) init_tail_offs) 0
      [] [] None false 0.

Definition init_dec (n : N) (small ultra : bool) : xstate :=
  init_state n (dec_total_in small n) (dec_total_out small n) ultra.

(* worker about to wait / to exit *)
Definition idle_ok (st : xstate) : bool :=
  match first_ready st with None => negb (can_terminate st) | Some _ => false end.
Definition final (st : xstate) : bool := can_terminate st && nilb (x_running st).
