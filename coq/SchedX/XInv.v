(* Preservation of the safety invariant [inv] of the decompression scheduler, event by event
   (XInv.v .. XInv4.v).  It needs the tests `offset >= head_offs` at the three sites that put a
   job into retr_q / scan_q (cfg_safe: the repair of finding F4). *)
From Coq Require Import List NArith Bool Lia Arith ZifyBool ZifyN.
From LBZ Require Import Gen.Consts SchedX.XState Gen.SchedXTab SchedX.XSet SchedX.XModel SchedX.XLemmas
  SchedX.XFrame SchedX.XInvDefs SchedX.XOps.
Import ListNotations.
Local Open Scope N_scope.

Definition cjobs (c : cont) : list rjob := match c with CRetr j _ => [j] | _ => [] end.

Lemma run_jobs_app a b : run_jobs (a ++ b) = run_jobs a ++ run_jobs b.
Proof. unfold run_jobs. apply flat_map_app. Qed.

Lemma run_jobs_cons c r : run_jobs (c :: r) = cjobs c ++ run_jobs r.
Proof. reflexivity. Qed.

Lemma filter_len_app {A} (p : A -> bool) a b : length (filter p (a ++ b)) = (length (filter p a) + length (filter p b))%nat.
Proof. rewrite filter_app, app_length. reflexivity. Qed.

Lemma filter_len_filter {A} (p b : A -> bool) l : (length (filter p (filter b l)) <= length (filter p l))%nat.
Proof. induction l as [|a r IH]; simpl; auto. destruct (b a); simpl; destruct (p a); simpl; lia. Qed.

Lemma filter_len_mono {A} (p q : A -> bool) l : (forall x, In x l -> p x = true -> q x = true) ->
  (length (filter p l) <= length (filter q l))%nat.
Proof.
  induction l as [|a r IH]; simpl; intros H; [lia|].
  assert (IH' := IH (fun x Hx => H x (or_intror Hx))).
  destruct (p a) eqn:P; [rewrite (H a (or_introl eq_refl) P)|destruct (q a)]; simpl; lia.
Qed.

Lemma filter_len_mono2 {A} (p q s : A -> bool) l : (forall x, In x l -> p x = true -> q x = true \/ s x = true) ->
  (length (filter p l) <= length (filter q l) + length (filter s l))%nat.
Proof.
  induction l as [|a r IH]; simpl; intros H; [lia|].
  assert (IH' := IH (fun x Hx => H x (or_intror Hx))).
  destruct (p a) eqn:P.
  - destruct (H a (or_introl eq_refl) P) as [E|E]; rewrite E; simpl; destruct (q a), (s a); simpl; lia.
  - destruct (q a), (s a); simpl; lia.
Qed.

Lemma filter_len_ext {A} (p q : A -> bool) l : (forall x, In x l -> p x = q x) -> length (filter p l) = length (filter q l).
Proof.
  intro H. assert (length (filter p l) <= length (filter q l) /\ length (filter q l) <= length (filter p l))%nat; [|lia].
  split; apply filter_len_mono; intros x Hx; rewrite (H x Hx); auto.
Qed.

(* states that agree on everything the invariant looks at *)
Record view_eq (st st' : xstate) : Prop := mkview {
  v_head : x_head_offs st' = x_head_offs st;
  v_tail : x_tail_offs st' = x_tail_offs st;
  v_inq : forall h t, contig h (x_input_q st') t <-> contig h (x_input_q st) t;
  v_done : x_parsing_done st' = x_parsing_done st;
  v_pbs : x_parser_bs st' = x_parser_bs st;
  v_retr : x_retr_q st' = x_retr_q st;
  v_scan : x_scan_q st' = x_scan_q st;
  v_un : x_unords st' = x_unords st;
  v_uid : x_next_uid st' = x_next_uid st;
  v_tok : x_parse_token st' = x_parse_token st;
  v_rj : run_jobs (x_running st') = run_jobs (x_running st);
  v_np : nparse st' = nparse st;
  v_bad : x_bad_attach st' = x_bad_attach st
}.

Lemma inv_view st st' : view_eq st st' -> inv st -> inv st'.
Proof.
  intros [Eh Et Ei Ed Ep Er Es Eu En Ek Ej Ec Eb] [].
  assert (AJ : all_jobs st' = all_jobs st) by (unfold all_jobs; congruence).
  constructor; unfold job_ok in *; rewrite ?AJ, ?Eh, ?Et, ?Ed, ?Ep, ?Er, ?Es, ?Eu, ?En, ?Ek, ?Ej, ?Ec, ?Eb; auto.
  apply Ei; auto.
Qed.

Ltac view_tac := constructor; xnorm; auto; try tauto.

(* the events that do not touch what the invariant looks at *)
Lemma nparse_cons c r st : nparse (set_running (c :: r) st) = (b2n (is_parse c) + length (filter is_parse r))%nat.
Proof. unfold nparse. xs. simpl. destruct (is_parse c); reflexivity. Qed.

Lemma view_del_run c st st' : del_run c st = Some st' -> cjobs c = [] -> is_parse c = false -> view_eq st st'.
Proof.
  intros H Hj Hp. destruct (del_run_inv _ _ _ H) as (l1 & l2 & E & ->).
  constructor; xs; auto; try tauto.
  - rewrite E, !run_jobs_app, run_jobs_cons, Hj. reflexivity.
  - unfold nparse. xs. rewrite E, !filter_len_app. simpl. rewrite Hp. reflexivity.
Qed.

Lemma view_add_run c st : cjobs c = [] -> is_parse c = false -> view_eq st (add_run c st).
Proof.
  intros Hj Hp. constructor; xnorm; auto; try tauto.
  - unfold add_run. xs. rewrite run_jobs_cons, Hj. reflexivity.
  - unfold add_run. rewrite nparse_cons, Hp. reflexivity.
Qed.

Lemma view_trans a b c : view_eq a b -> view_eq b c -> view_eq a c.
Proof.
  intros [] []. constructor; try congruence. intros h t. rewrite v_inq1. apply v_inq0.
Qed.

Lemma view_refl a : view_eq a a.
Proof. constructor; auto; tauto. Qed.

Lemma inv_eof st st' : inv st -> reader_eof st = Some st' -> inv st'.
Proof. intros I H. apply reader_eof_inv in H. destruct H as [_ ->]. eapply inv_view; [|exact I]. view_tac. Qed.

Lemma inv_written st st' : inv st -> written st = Some st' -> inv st'.
Proof. intros I H. apply written_inv in H. destruct H as [_ ->]. eapply inv_view; [|exact I]. view_tac. Qed.

Lemma inv_retr2 e st st' : inv st -> retr2 e st = Some st' -> inv st'.
Proof.
  intros I H. apply retr2_inv in H. destruct H as (l1 & l2 & _ & D & ->).
  eapply inv_view; [|exact I]. eapply view_trans; [eapply view_del_run; eauto|]. view_tac.
Qed.

Lemma inv_emit0 st st' : inv st -> emit0 st = Some st' -> inv st'.
Proof.
  intros I H. apply emit0_inv in H. destruct H as (_ & e & l1 & l2 & _ & _ & ->).
  eapply inv_view; [|exact I]. eapply view_trans; [|apply view_add_run; auto]. view_tac.
Qed.

Lemma inv_emit1 e rv size crc blksz st st' : inv st -> emit1 e rv size crc blksz st = Some st' -> inv st'.
Proof.
  intros I H. apply emit1_inv in H. destruct H as (l1 & l2 & _ & D & _ & _ & H). cbv zeta in H.
  eapply inv_view; [|exact I]. eapply view_trans; [eapply view_del_run; eauto|].
  destruct (rv =? MORE); subst st'; view_tac.
Qed.

Lemma inv_reorder st st' : inv st -> reorder st = Some st' -> inv st'.
Proof.
  intros I H. apply reorder_inv in H. destruct H as (_ & o & l1 & l2 & _ & _ & H). eapply inv_view; [|exact I].
  destruct H as [_ ->|ord rest _ _ _ ->|ord rest _ _ _ _ ->|ord rest _ _ _ _ ->]; unfold ro_hand, ro_offs; view_tac.
Qed.
