(* Positions: the model order on (bit, sub) is isomorphic to the C order on
   struct position (major, minor) for every input block size that is a multiple of 4
   (W = in_granul/4 words per block): major = word / W,
   minor = ((word mod W) << 32) + (bit_offset << 27) + sub, sub < 2^27. *)
From Coq Require Import NArith Lia ZifyN.
From LBZ Require Import SchedX.XState Gen.SchedXTab SchedX.XLemmas.
Local Open Scope N_scope.

Definition c_pos (W : N) (p : pos) : pos :=
  let word := fst p / 32 in
  (word / W, (word mod W) * 2 ^ 32 + (fst p mod 32) * 2 ^ 27 + snd p).

(* Both orders are lexicographic orders on digits of a mixed-radix numeral: quotient and
   remainder compare like the number they come from. *)
Lemma radix_lt B q r q' r' : r < B -> r' < B ->
  (q * B + r < q' * B + r' <-> q < q' \/ (q = q' /\ r < r')).
Proof. nia. Qed.

Lemma div_mod_lt W a b : 0 < W ->
  (a < b <-> a / W < b / W \/ (a / W = b / W /\ a mod W < b mod W)).
Proof.
  intro HW. rewrite <- radix_lt by (apply N.mod_lt; lia).
  rewrite !(N.mul_comm _ W), <- !N.div_mod by lia. reflexivity.
Qed.

Lemma div_mod_eq W a b : 0 < W -> (a = b <-> a / W = b / W /\ a mod W = b mod W).
Proof.
  intro HW. split; [intros ->; auto|]. intros [Q R].
  rewrite (N.div_mod a W), (N.div_mod b W), Q, R by lia. reflexivity.
Qed.

Lemma pos_iso W p q : 0 < W -> snd p < 2 ^ 27 -> snd q < 2 ^ 27 ->
  (pos_lt (c_pos W p) (c_pos W q) = true <-> lexlt p q).
Proof.
  intros HW Hp Hq. rewrite pos_lt_spec. unfold lexlt, c_pos. destruct p as [a s], q as [b t]; cbn [fst snd] in *.
  assert (H32 : 0 < 32) by lia.
  pose proof (N.mod_lt a 32 ltac:(lia)) as Ra. pose proof (N.mod_lt b 32 ltac:(lia)) as Rb.
  rewrite (div_mod_lt 32 a b H32), (div_mod_eq 32 a b H32).
  rewrite (div_mod_lt W (a / 32) (b / 32) HW), (div_mod_eq W (a / 32) (b / 32) HW).
  rewrite <- !N.add_assoc, radix_lt, radix_lt by (change (2 ^ 32) with (32 * 2 ^ 27); nia).
  tauto.
Qed.
