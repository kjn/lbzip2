(* Liveness of the decompression scheduler: all invariants along a run, deadlock freedom,
   distinctness of the priority-queue keys.

   Runs: [lreach] (labels: ev_prog + ev_fresh) and [sreach] (ev_prog + ev_scan_prog, the
   hypothesis that every trace replay checks: a scan call that finds a magic ends strictly
   after the position it started from); XScanFront.v: sreach -> lreach. *)
From Coq Require Import List NArith Bool Lia Arith ZifyBool ZifyN ZifyNat Sorted.
From LBZ Require Import Gen.Consts SchedX.XState Gen.SchedXTab SchedX.XSet SchedX.XModel SchedX.XLemmas
  SchedX.XFrame SchedX.XInvDefs SchedX.XOps SchedX.XInv SchedX.XInv2 SchedX.XInv3 SchedX.XInv4 SchedX.XOracle
  SchedX.XSeq SchedX.XCount SchedX.XOwn SchedX.XOwnProofs SchedX.XScanOwn
  SchedX.XLiveDefs SchedX.XLiveCore SchedX.XLiveIn SchedX.XLiveTok SchedX.XLiveDist SchedX.XLiveMh SchedX.XLiveRes
  SchedX.XLiveRd SchedX.XScanFront SchedX.XTie SchedX.XLiveRun.
Import ListNotations.
Local Open Scope N_scope.

Record livep (st : xstate) : Prop := mklivep {
  lv_inv : inv st;
  lv_sown : sown st;
  lv_cnt : cnt st;
  lv_lin : lin st;
  lv_own : x_failed st = None -> own st;
  lv_ltk : x_failed st = None -> ltk st;
  lv_lld : x_failed st = None -> lld st;
  lv_llm : x_failed st = None -> llm st;
  lv_lrs : x_failed st = None -> lrs st;
  lv_lrd : x_failed st = None -> lrd st
}.

Lemma livep_init n tin tout ultra : 0 < n -> livep (init_state n tin tout ultra).
Proof.
  intro Hn. constructor; intros.
  - apply inv_init.
  - apply sown_init.
  - apply cnt_init.
  - apply lin_init.
  - apply own_init.
  - apply ltk_init.
  - apply lld_init.
  - apply llm_init. exact Hn.
  - apply lrs_init.
  - apply lrd_init.
Qed.

Lemma livep_step cfg st e st' :
  cfg_safe cfg -> cfg_drops cfg -> ev_prog st e -> ev_fresh st e -> livep st -> step cfg st e = Some st' -> livep st'.
Proof.
  intros CS CD EP EF [I S C LI OW LT LD LM LR RD] H.
  pose proof (step_not_failed _ _ _ _ H) as NF.
  specialize (OW NF). specialize (LT NF). specialize (LD NF). specialize (LM NF). specialize (LR NF). specialize (RD NF).
  pose proof (proj1 (ev_prog_next _ _) EP) as EN.
  constructor.
  - eapply inv_step; eauto.
  - eapply sown_step; eauto.
  - eapply cnt_step; eauto.
  - eapply lin_step; eauto.
  - intro NF'. eapply own_step; eauto.
  - intro NF'. eapply ltk_step; eauto.
  - intro NF'. eapply lld_step; eauto.
  - intro NF'. eapply llm_step; eauto.
  - intro NF'. eapply lrs_step; eauto.
  - intro NF'. eapply lrd_step; eauto.
Qed.

Theorem livep_lreach cfg n tin tout ultra st :
  cfg_safe cfg -> cfg_drops cfg -> 0 < n -> lreach cfg (init_state n tin tout ultra) st -> livep st.
Proof.
  intros CS CD Hn R. induction R as [|st e st' R IH EP EF H].
  - apply livep_init. exact Hn.
  - eapply livep_step; eauto.
Qed.

Lemma consts_lreach cfg s0 st : lreach cfg s0 st -> consts st = consts s0.
Proof. induction 1 as [|st e st' R IH EP EF H]; [reflexivity|]. rewrite (consts_step _ _ _ _ H). exact IH. Qed.

(* A reachable, non-failed, non-final state: either some worker is inside an unlocked computation
   (parse, retrieve, decode/emit, scan - each terminates and then runs its second locked segment),
   or an event of the system is enabled that is not a stutter: a task can start, the writer can
   return an output slot, or the reader thread - which really is able to move: it has an input
   slot or source_close() was requested - can deliver. *)
Theorem progress_lreach cfg n tin tout ultra st :
  cfg_safe cfg -> cfg_drops cfg -> 1 <= n -> 1 <= tin -> EMIT_THRESH < tout ->
  lreach cfg (init_state n tin tout ultra) st -> x_failed st = None -> final st = false ->
  x_running st <> [] \/ exists e st', step cfg st e = Some st' /\ productive st e = true.
Proof.
  intros CS CD Hn Hi Ho R NF NFIN.
  destruct (x_running st) as [|c r] eqn:RUN; [right|left; discriminate].
  assert (Hn' : 0 < n) by lia.
  destruct (livep_lreach _ _ _ _ _ _ CS CD Hn' R) as [I S C LI OW LT LD LM LR RD].
  pose proof (consts_lreach _ _ _ R) as K. unfold consts in K. simpl in K.
  assert (K2 : x_total_in st = tin) by congruence. assert (K3 : x_total_out st = tout) by congruence.
  apply (progress_core cfg st); auto; [rewrite K2; exact Hi|rewrite K3; exact Ho].
Qed.

(* ... and a worker inside an unlocked computation can always complete its second segment (XLiveRun.v):
   some event that is not a stutter is enabled in EVERY reachable, non-failed, non-final state *)
Theorem progress_all_lreach cfg n tin tout ultra st :
  cfg_safe cfg -> cfg_drops cfg -> 1 <= n -> 1 <= tin -> EMIT_THRESH < tout ->
  lreach cfg (init_state n tin tout ultra) st -> x_failed st = None -> final st = false ->
  exists e st', step cfg st e = Some st' /\ productive st e = true.
Proof.
  intros CS CD Hn Hi Ho R NF NFIN.
  destruct (progress_lreach cfg n tin tout ultra st CS CD Hn Hi Ho R NF NFIN) as [RUN|P]; [|exact P].
  destruct (x_running st) as [|c r] eqn:RQ; [congruence|].
  apply (running_returns cfg st c NF).
  - eapply lrun_reach; [exact CS|]. apply preach_reach. apply lreach_preach. exact R.
  - rewrite RQ. left. reflexivity.
Qed.

Theorem progress_sreach cfg n tin tout ultra st :
  cfg_safe cfg -> cfg_drops cfg -> 1 <= n -> 1 <= tin -> EMIT_THRESH < tout ->
  sreach cfg (init_state n tin tout ultra) st -> x_failed st = None -> final st = false ->
  (x_running st = [] -> exists e st', step cfg st e = Some st' /\ productive st e = true /\
                         match e with EvParse1 _ _ | EvRetr1 _ _ _ _ | EvRetr2 _ | EvEmit1 _ _ _ _ _ | EvScan1 _ _ _ _ _ => False | _ => True end) /\
  exists e st', step cfg st e = Some st' /\ productive st e = true.
Proof.
  intros CS CD Hn Hi Ho R NF NFIN.
  assert (L : lreach cfg (init_state n tin tout ultra) st) by (apply sreach_lreach; auto).
  split; [|exact (progress_all_lreach cfg n tin tout ultra st CS CD Hn Hi Ho L NF NFIN)].
  intro RUN. destruct (progress_lreach cfg n tin tout ultra st CS CD Hn Hi Ho L NF NFIN) as [X|(e & st' & S & P)]; [congruence|].
  exists e, st'. split; [exact S|]. split; [exact P|].
  (* with nobody running no second-segment event is defined *)
  unfold step in S. rewrite NF in S.
  destruct e; auto; simpl in S.
  - unfold parse1, del_run in S. rewrite RUN in S. simpl in S. discriminate.
  - unfold retr1, del_run in S. rewrite RUN in S. simpl in S. discriminate.
  - unfold retr2, del_run in S. rewrite RUN in S. simpl in S. discriminate.
  - unfold emit1, del_run in S. rewrite RUN in S. simpl in S. discriminate.
  - unfold scan1, del_run in S. rewrite RUN in S. simpl in S. discriminate.
Qed.

Lemma nodup_map_fst {A} (f : A -> pos) l : NoDup (map (fun x => fst (f x)) l) -> NoDup (map f l).
Proof.
  intro ND. assert (E : map (fun x => fst (f x)) l = map fst (map f l)) by (rewrite map_map; reflexivity).
  rewrite E in ND. eapply NoDup_map_inv; eauto.
Qed.

Lemma nodup_app_l {A} (a b : list A) : NoDup (a ++ b) -> NoDup a.
Proof. induction a as [|x a IH]; simpl; intro H; [constructor|]. inversion H; subst. constructor; [rewrite in_app_iff in *; tauto|auto]. Qed.

Lemma nodup_app_r {A} (a b : list A) : NoDup (a ++ b) -> NoDup b.
Proof. induction a as [|x a IH]; simpl; intro H; auto. inversion H; subst. auto. Qed.

Theorem queue_keys_distinct_lreach cfg n tin tout ultra st :
  cfg_safe cfg -> cfg_drops cfg -> 0 < n -> lreach cfg (init_state n tin tout ultra) st -> x_failed st = None ->
  NoDup (map d_pos (x_scan_q st)) /\ NoDup (map u_base (unord_q st)) /\
  NoDup (map e_base (x_emit_q st)) /\ NoDup (map o_base (x_reord_q st)).
Proof.
  intros CS CD Hn R NF. destruct (livep_lreach _ _ _ _ _ _ CS CD Hn R) as [I S C LI OW LT LD LM LR RD].
  specialize (LD NF). specialize (RD NF).
  split; [apply scan_pos_distinct; auto|]. split; [|split].
  - apply nodup_map_fst. exact (ll_udist _ LD).
  - apply nodup_map_fst. pose proof (ll_dist _ LD) as ND. unfold lines in ND.
    apply nodup_app_r in ND. apply nodup_app_l in ND. unfold estage in ND. rewrite map_app in ND. apply nodup_app_l in ND. exact ND.
  - exact (rd_nodup _ RD).
Qed.

Theorem queue_keys_distinct_sreach cfg n tin tout ultra st :
  cfg_safe cfg -> cfg_drops cfg -> 0 < n -> sreach cfg (init_state n tin tout ultra) st -> x_failed st = None ->
  NoDup (map d_pos (x_scan_q st)) /\ NoDup (map u_base (unord_q st)) /\
  NoDup (map e_base (x_emit_q st)) /\ NoDup (map o_base (x_reord_q st)).
Proof. intros CS CD Hn R NF. exact (queue_keys_distinct_lreach cfg n tin tout ultra st CS CD Hn (sreach_lreach cfg n tin tout ultra st CS CD R) NF). Qed.

(* retr_q: the keys (current positions) of two jobs CAN be equal *)
(* the master of the block at bit 40 and a candidate at bit 70 inside it both run to the end of the
   4-word input block and wait for the next one at (128, 4) *)
Definition tie_m : rjob := mkrjob (40, 0) (mkdbs 40 2) None.
Definition tie_s : rjob := mkrjob (70, 0) (mkdbs 70 3) (Some 0).
Definition tie_events : list event :=
  [ EvInput 4 0; EvParse0; EvParse1 (Some 0) (POk (mkdbs 40 2) 0 9 0);
    EvRetr0 tie_m;
    EvScan0; EvScan1 (mkdbs 0 0) (Some 0) true (mkdbs 70 3) true;
    EvRetr0 tie_s;
    EvRetr1 tie_s (Some 0) MORE (mkdbs 128 4);
    EvRetr1 tie_m (Some 0) MORE (mkdbs 128 4) ].

(* executable form of the label hypotheses, to exhibit concrete [sreach] runs *)
Definition ev_progb (st : xstate) (e : event) : bool :=
  match e with EvParse1 _ (POk bs _ _ _) => x_next st + HDR_MIN <=? d_bit bs | _ => true end.
Definition ev_scan_progb (e : event) : bool :=
  match e with EvScan1 s _ true s' _ => d_bit s <? d_bit s' | _ => true end.

(* a run whose labels pass the test [ok]; what holds initially and is kept by the steps that pass holds at its end *)
Fixpoint brun (ok : xstate -> event -> bool) (cfg : xcfg) (st : xstate) (es : list event) : option xstate :=
  match es with
  | [] => Some st
  | e :: r => if ok st e then match step cfg st e with Some st' => brun ok cfg st' r | None => None end else None
  end.

Lemma brun_reach ok (P : xstate -> Prop) cfg es :
  (forall st e st', P st -> ok st e = true -> step cfg st e = Some st' -> P st') ->
  forall st st', P st -> brun ok cfg st es = Some st' -> P st'.
Proof.
  intro K. induction es as [|e r IH]; cbn [brun]; intros st st' R H; [injection H as <-; exact R|].
  destruct (ok st e) eqn:B; [|discriminate]. destruct (step cfg st e) as [s1|] eqn:S; [|discriminate].
  exact (IH _ _ (K _ _ _ R B S) H).
Qed.

Definition srun : xcfg -> xstate -> list event -> option xstate := brun (fun st e => ev_progb st e && ev_scan_progb e).

Lemma ev_progb_spec st e : ev_progb st e = true -> ev_prog st e.
Proof. destruct e; simpl; auto. destruct r; simpl; auto. intro H. apply N.leb_le. exact H. Qed.

Lemma ev_scan_progb_spec e : ev_scan_progb e = true -> ev_scan_prog e.
Proof. destruct e; simpl; auto. destruct found; auto. intro H. apply N.ltb_lt. exact H. Qed.

Lemma srun_sreach cfg s0 es : forall st st', sreach cfg s0 st -> srun cfg st es = Some st' -> sreach cfg s0 st'.
Proof.
  apply brun_reach. intros st e st' R B S. apply andb_true_iff in B as [B1 B2].
  econstructor; eauto using ev_progb_spec, ev_scan_progb_spec.
Qed.

Lemma retr_keys_tie_witness :
  exists st j1 j2, sreach gen_cfg (init_state 3 8 8 false) st /\ x_failed st = None /\
    x_retr_q st = [j1; j2] /\ r_base j1 <> r_base j2 /\ rkey j1 = rkey j2.
Proof.
  assert (R : exists st, srun gen_cfg (init_state 3 8 8 false) tie_events = Some st /\
                x_failed st = None /\ exists j1 j2, x_retr_q st = [j1; j2] /\ r_base j1 <> r_base j2 /\ rkey j1 = rkey j2).
  { eexists. split; [vm_compute; reflexivity|]. split; [reflexivity|]. eexists. eexists. split; [reflexivity|].
    split; [discriminate|reflexivity]. }
  destruct R as (st & RUN & NF & j1 & j2 & A & B & C). exists st, j1, j2. split; [|auto].
  eapply srun_sreach; [constructor|exact RUN].
Qed.

(* the same along [sreach] runs, from the initial state *)
Lemma livep_sreach cfg n tin tout ultra st :
  cfg_safe cfg -> cfg_drops cfg -> 0 < n -> sreach cfg (init_state n tin tout ultra) st -> livep st.
Proof. intros CS CD Hn R. apply (livep_lreach cfg n tin tout ultra st CS CD Hn). apply sreach_lreach; assumption. Qed.

(* the configurations of `lbzip2 -d`: all but one worker with --small *)
Lemma progress_dec_sreach cfg n small ultra st :
  cfg_safe cfg -> cfg_drops cfg -> 1 <= n -> (small = true -> 2 <= n) ->
  sreach cfg (init_dec n small ultra) st -> x_failed st = None -> final st = false ->
  exists e st', step cfg st e = Some st' /\ productive st e = true.
Proof.
  intros CS CD Hn Hs R NF NFIN. unfold init_dec in R.
  refine (proj2 (progress_sreach cfg n _ _ ultra st CS CD Hn _ _ R NF NFIN)).
  - unfold dec_total_in. destruct small; [discriminate|]. clear - Hn. lia.
  - unfold dec_total_out, EMIT_THRESH. destruct small; [specialize (Hs eq_refl)|]; lia.
Qed.

Lemma advance_any_tiebreak_reach cfg n tin tout ultra st (pick : list rjob -> option rjob) hd :
  cfg_safe cfg -> reach cfg (init_state n tin tout ultra) st ->
  (forall q j, pick q = Some j -> In j q /\ forall y, In y q -> pos_lt (rkey y) (rkey j) = false) ->
  (forall q, q <> [] -> exists j, pick q = Some j) ->
  snd (adv_retr_g pick (length (x_retr_q st)) hd (x_retr_q st)) = snd (adv_retr (length (x_retr_q st)) hd (x_retr_q st)) /\
  Permutation.Permutation (fst (adv_retr_g pick (length (x_retr_q st)) hd (x_retr_q st)))
                          (fst (adv_retr (length (x_retr_q st)) hd (x_retr_q st))).
Proof.
  intros CS R PM PS. apply adv_retr_any_tiebreak; auto.
  pose proof (i_jobs _ (inv_reach _ _ _ _ _ _ CS R)) as IJ. unfold all_jobs in IJ.
  apply Forall_app in IJ. destruct IJ as [IJ _]. eapply Forall_impl; [|exact IJ]. intros j J. apply J.
Qed.
