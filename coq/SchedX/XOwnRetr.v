(* Ownership invariant (XOwn.v): do_retrieve and do_scan. *)
From Coq Require Import List NArith Bool Lia Arith ZifyBool ZifyN Sorted.
From LBZ Require Import Gen.Consts SchedX.XState Gen.SchedXTab SchedX.XSet SchedX.XModel SchedX.XLemmas
  SchedX.XFrame SchedX.XStep SchedX.XInvDefs SchedX.XOps SchedX.XInv SchedX.XInv2 SchedX.XInv3 SchedX.XInv4 SchedX.XOracle
  SchedX.XSeq SchedX.XOwn SchedX.XOwnAdv.
Import ListNotations.
Local Open Scope N_scope.

Lemma jm_link us j j' : r_link j' = r_link j -> jm us j' = jm us j.
Proof. unfold jm. intros ->. reflexivity. Qed.

Lemma ownp_job_upd H j j' JL s :
  r_base j' = r_base j -> r_link j' = r_link j -> d_bit (r_cur j) <= d_bit (r_cur j') ->
  ownp H (j :: JL) s -> ownp H (j' :: JL) s.
Proof.
  intros EB EL LE [A B C D E F G K U3].
  constructor; auto.
  - intros h Hh. destruct (A h Hh) as [[Z (x & [<-|X1] & X2 & X3)]|L]; [left|left|right; auto]; split; auto.
    + exists j'. split; [left; auto|]. rewrite (jm_link _ _ _ EL), EB. auto.
    + exists x. split; [right; auto|auto].
  - intros x [<-|Hx] J.
    + rewrite (jm_link _ _ _ EL) in J. destruct (C j (or_introl eq_refl) J) as [C1 C2]. rewrite EB. split; auto.
      eapply N.le_trans; eauto.
    + apply C; auto. right; auto.
  - intros u Hu Cu. destruct (D u Hu Cu) as (x & [<-|X1] & X2).
    + exists j'. split; [left; auto|congruence].
    + exists x. split; [right; auto|auto].
  - intros u Hu Qu. destruct (U3 u Hu Qu) as (x & [<-|X1] & X2).
    + exists j'. split; [left; auto|congruence].
    + exists x. split; [right; auto|auto].
Qed.

(* a job that is not the master is dropped and gives its unord block back *)
Lemma ownp_drop H j s :
  inv s -> jm (x_unords s) j = false ->
  (forall id x, r_link j = Some id -> In x (all_jobs s) -> r_link x <> Some id) ->
  (forall u, In u (x_unords s) -> r_link j = Some (u_id u) -> u_inq u = true -> u_complete u = false ->
     orph s (fst (u_base u))) ->
  ownp H (j :: all_jobs s) s ->
  ownp H (all_jobs s) (set_unords (drop_link (r_link j) (x_unords s)) s).
Proof.
  intros IV NM SEP ORP [A B C D E F G K U3].
  set (us' := drop_link (r_link j) (x_unords s)).
  assert (JMold : forall x, jm us' x = true -> jm (x_unords s) x = true).
  { intro x. apply jm_stems; [apply drop_link_stems|apply IV]. }
  constructor; xs.
  - intros h Hh. destruct (A h Hh) as [[Z (x & [<-|X1] & X2 & X3)]|L]; [congruence|left; split; auto|right; exact L].
    exists x. split; auto. split; auto.
    unfold jm in *. destruct (r_link x) as [idx|] eqn:LX; auto.
    apply existsb_exists in X2. destruct X2 as (u0 & H0 & E0). apply existsb_exists. exists u0. split; auto.
    apply drop_link_other; auto. intro LJ. bool_hyps.
    match goal with X : (u_id u0 =? idx) = true |- _ => apply N.eqb_eq in X; rewrite X in LJ end.
    apply (SEP idx x LJ X1). exact LX.
  - exact B.
  - intros x Hx J. apply C; [right; auto|]. apply JMold. exact J.
  - intros u Hu Cu. destruct (drop_link_raised _ _ _ Hu) as [H0|(u0 & id & _ & _ & _ & _ & Eu)]; [|subst u; simpl in Cu; discriminate].
    destruct (D u H0 Cu) as (x & [<-|X1] & X2); [|exists x; auto].
    exfalso. fold us' in Hu. unfold us' in Hu. rewrite X2 in Hu. rewrite (drop_link_done _ _ _ Hu eq_refl) in Cu. discriminate.
  - intros u Hu Qu Cu. destruct (drop_link_raised _ _ _ Hu) as [H0|(u0 & id & H0 & LJ & Hid & C0 & Eu)].
    + exact (E u H0 Qu Cu).
    + right. subst u. unfold u_set_complete in Qu |- *. cbn [u_inq u_base] in Qu |- *. apply ORP; auto. rewrite LJ, Hid. reflexivity.
  - intros PD. specialize (F PD). apply Forall_forall. intros u Hu. rewrite Forall_forall in F.
    destruct (drop_link_stems _ _ _ Hu) as (u0 & H0 & (_ & _ & _ & S4 & _)). rewrite S4. auto.
  - exact G.
  - exact K.
  - intros u Hu Qu. destruct (drop_link_stems _ _ _ Hu) as (u0 & H0 & (S1 & _ & _ & S4 & _)).
    destruct (U3 u0 H0 ltac:(congruence)) as (x & [<-|X1] & X2); [|exists x; rewrite S1; auto].
    exfalso. fold us' in Hu. unfold us' in Hu. rewrite X2 in Hu. refine (drop_link_gone (u_id u0) (x_unords s) _ u Hu S1).
    intros v Hv Ev. assert (v = u0) by (apply (nodup_id_unique (x_unords s)); auto; apply IV). subst v.
    pose proof (i_unord _ IV) as UO. rewrite Forall_forall in UO. destruct (UO u0 H0) as (_ & O2 & _). apply O2. congruence.
Qed.

Lemma ownp_give_unit H JL s : ownp H JL s -> ownp H JL (give_unit s).
Proof. apply ownp_same; reflexivity. Qed.

Lemma jm_upd_other id f us x : r_link x <> Some id -> (forall u, u_id (f u) = u_id u) -> jm (upd_unord id f us) x = jm us x.
Proof.
  intros NL HF. unfold jm. destruct (r_link x) as [id2|]; auto.
  assert (id2 <> id) by congruence. unfold upd_unord. rewrite existsb_map. apply existsb_ext'. intros u Hu.
  destruct (u_id u =? id) eqn:E; auto. rewrite HF. replace (u_id u =? id2) with false by lia. reflexivity.
Qed.

(* an update of the store that changes nothing the invariant looks at *)
Lemma ownp_upd_keep H JL id f s :
  (forall u, u_id (f u) = u_id u /\ u_base (f u) = u_base u /\ u_inq (f u) = u_inq u /\
             u_complete (f u) = u_complete u /\ u_legit (f u) = u_legit u) ->
  ownp H JL s -> ownp H JL (set_unords (upd_unord id f (x_unords s)) s).
Proof.
  intros HF [A B C D E F G K U3].
  assert (JM : forall x, jm (upd_unord id f (x_unords s)) x = jm (x_unords s) x).
  { intro x. apply jm_upd_same. intro u. destruct (HF u) as (F1 & _ & _ & F4 & F5). auto. }
  assert (UP : forall u, In u (upd_unord id f (x_unords s)) -> exists u0, In u0 (x_unords s) /\
             u_id u = u_id u0 /\ u_base u = u_base u0 /\ u_inq u = u_inq u0 /\ u_complete u = u_complete u0).
  { intros u Hu. unfold upd_unord in Hu. apply in_map_iff in Hu. destruct Hu as (u0 & <- & H0). exists u0. split; auto.
    destruct (u_id u0 =? id); auto. destruct (HF u0) as (F1 & F2 & F3 & F4 & _). auto. }
  constructor; xs.
  - intros h Hh. destruct (A h Hh) as [[Z (x & X1 & X2 & X3)]|L]; [left; split; auto; exists x; rewrite JM; auto|right; exact L].
  - exact B.
  - intros x Hx J. rewrite JM in J. auto.
  - intros u Hu Cu. destruct (UP u Hu) as (u0 & H0 & E1 & E2 & E3 & E4). rewrite E1. apply D; auto. congruence.
  - intros u Hu Qu Cu. destruct (UP u Hu) as (u0 & H0 & E1 & E2 & E3 & E4). rewrite E2.
    apply (E u0 H0); congruence.
  - intros PD. specialize (F PD). apply Forall_forall. intros u Hu. rewrite Forall_forall in F.
    destruct (UP u Hu) as (u0 & H0 & E1 & E2 & E3 & E4). rewrite E3. auto.
  - exact G.
  - exact K.
  - intros u Hu Qu. destruct (UP u Hu) as (u0 & H0 & E1 & E2 & E3 & E4). rewrite E1. apply U3; auto. congruence.
Qed.

Lemma not_jm_incomplete s j id : inv s -> r_link j = Some id ->
  (forall u, In u (x_unords s) -> u_id u = id -> u_complete u = false \/ u_legit u = false) -> jm (x_unords s) j = false.
Proof.
  intros IV EL HU. unfold jm. rewrite EL. apply not_true_iff_false. intro X. apply existsb_exists in X.
  destruct X as (u & Hu & E). bool_hyps.
  match goal with K : (u_id u =? id) = true |- _ => apply N.eqb_eq in K; destruct (HU u Hu K) end; congruence.
Qed.

(* the master hands its block to the emit stage: the line of its emit job owns what it owned;
   [us']: the store without the unord block the job was linked to *)
Lemma ownp_retire H j JL s us' :
  la s (fst (r_base j)) 0 -> (forall x, In x JL -> jm (x_unords s) x = false) -> Forall unord_ok (x_unords s) ->
  (forall u, In u us' -> In u (x_unords s) /\ r_link j <> Some (u_id u)) ->
  ownp H (j :: JL) s -> ownp H JL (set_unords us' s).
Proof.
  intros LN NM UO SUB [A B C D E F G K U3].
  assert (JMs : forall x, jm us' x = true -> jm (x_unords s) x = true).
  { intro x. apply jm_stems; [|exact UO]. intros v Hv. exists v. split; [apply SUB; exact Hv|apply stems_refl]. }
  assert (OTHER : forall u x, In u us' -> In x (j :: JL) -> r_link x = Some (u_id u) -> In x JL).
  { intros u x Hu [<-|Hx] L; [exfalso; exact (proj2 (SUB u Hu) L)|exact Hx]. }
  constructor; xs.
  - intros h Hh. right. destruct (A h Hh) as [[Z (x & [<-|X1] & X2 & X3)]|L]; [rewrite <- X3, Z; exact LN| |exact L].
    rewrite (NM x X1) in X2. discriminate X2.
  - exact B.
  - intros x Hx J. apply JMs in J. rewrite (NM x Hx) in J. discriminate J.
  - intros u Hu Cu. destruct (D u (proj1 (SUB u Hu)) Cu) as (x & X1 & X2). exists x. split; [exact (OTHER u x Hu X1 X2)|exact X2].
  - intros u Hu. exact (E u (proj1 (SUB u Hu))).
  - intros PD. specialize (F PD). rewrite Forall_forall in F. apply Forall_forall. intros u Hu. exact (F u (proj1 (SUB u Hu))).
  - exact G.
  - exact K.
  - intros u Hu Qu. destruct (U3 u (proj1 (SUB u Hu)) Qu) as (x & X1 & X2). exists x. split; [exact (OTHER u x Hu X1 X2)|exact X2].
Qed.

(* the line of a job that has just entered the emit stage *)
Lemma la_add_run e st b : fst (e_base e) = b -> la (add_run (CRetr2 e) st) b 0.
Proof. intros <-. left. exists e. split; [apply in_or_app; right; left; reflexivity|]. split; [reflexivity|apply N.le_0_l]. Qed.

Lemma ownp_add_run H JL e st : ownp H JL st -> ownp H JL (add_run (CRetr2 e) st).
Proof.
  apply ownp_view; [|tauto]. constructor; try reflexivity. intros x Hx. unfold estage in *. rewrite add_run_nf. xs.
  apply in_app_or in Hx as [Hx|Hx]; apply in_or_app; [left; exact Hx|right; right; exact Hx].
Qed.

Lemma oretr1_master cfg j rv cur s2 :
  c_requeue_retr_checks_head cfg = true -> c_advance_drops_link cfg = true ->
  jfacts j s2 -> jm (x_unords s2) j = true -> x_parsing_done s2 = false ->
  dbs_ok cur = true -> d_bit (r_cur j) <= d_bit cur -> d_off (r_cur j) <= d_off cur ->
  ownp (x_order_q s2) (j :: all_jobs s2) s2 -> oshape s2 ->
  own (retr1_tail cfg j rv cur (fin_master (r_link j)) (advance cfg cur s2)).
Proof.
  intros CR CA F JM PD Hok Hbit Hoff OW OS. destruct (jfacts_master j s2 F JM) as (M0 & N0 & T0 & HJ).
  destruct F as (I2 & J2 & L2 & _). assert (HD : x_head_offs s2 <= d_off cur) by exact (N.le_trans _ _ _ HJ Hoff).
  set (j' := mkrjob (r_base j) cur (r_link j)).
  assert (OW' : ownp (x_order_q s2) (j' :: all_jobs s2) s2) by (apply (ownp_job_upd _ j j'); auto).
  destruct (o_m1 _ _ _ OW j (or_introl eq_refl) JM) as [BN PL].
  assert (MONO : d_bit (x_parser_bs s2) <= d_bit cur) by exact (N.le_trans _ _ _ PL Hbit).
  assert (NXB : x_next s2 <= d_bit cur) by exact (N.le_trans _ _ _ (o_next _ _ _ OW PD) MONO).
  assert (MB : forall j0, In j0 [j'] -> jm (x_unords s2) j0 = true -> d_bit cur <= d_bit (r_cur j0)).
  { intros j0 [<-|[]] _. apply N.le_refl. }
  assert (SEP : forall j0 id x, In j0 [j'] -> r_link j0 = Some id -> In x (all_jobs s2) -> r_link x <> Some id).
  { intros j0 id x [<-|[]] L Hx. exact (no_link_job id s2 x (L2 id L) Hx). }
  destruct (inv_advance cfg cur s2 I2 M0 HD) as (I3 & M3 & _ & H3b & _ & _).
  destruct (ownp_advance cfg cur s2 _ [j'] CA I2 M0 HD Hok PD MONO NXB MB SEP OW') as (OW3 & _). cbn [app] in OW3.
  assert (E3 : x_order_q (advance cfg cur s2) = x_order_q s2 /\ x_next (advance cfg cur s2) = x_next s2)
    by (rewrite advance_eq; auto).
  destruct E3 as (OQ3 & NX3). rewrite <- OQ3 in OW3. apply (oshape_view s2 _ OQ3 NX3) in OS.
  generalize dependent (advance cfg cur s2). intro st. intros. unfold retr1_tail. destruct (rv =? MORE).
  - (* queued again: not below head_offs, which advance() has just brought up to [cur] at most *)
    rewrite CR, (proj2 (N.ltb_ge _ _) H3b). cbn [andb].
    split; [apply (ownp_same _ _ st); try reflexivity; exact OW3|apply (oshape_view st); [reflexivity|reflexivity|exact OS]].
  - (* complete: the emit job takes over *)
    split; [|apply (oshape_view st); [destruct (r_link j); reflexivity|destruct (r_link j); reflexivity|exact OS]].
    set (e := mkejob (r_base j) rv (d_off cur)).
    assert (RET : forall us', (forall u, In u us' -> In u (x_unords st) /\ r_link j <> Some (u_id u)) ->
              ownp (x_order_q st) (all_jobs st) (set_unords us' (add_run (CRetr2 e) st))).
    { intros us' SUB. apply (ownp_retire _ j'); [apply la_add_run; reflexivity| |apply I3|exact SUB|apply ownp_add_run; exact OW3].
      intros x Hx. exact (no_masters_jm st x M3 Hx). }
    unfold fin_master. destruct (r_link j) as [id|].
    + eapply ownp_same; [..|apply (RET (del_unord id (x_unords st)))]; try reflexivity.
      intros u Hu. apply filter_In in Hu as [Hu K]. split; [exact Hu|]. intros [= ->]. rewrite N.eqb_refl in K. discriminate K.
    + eapply ownp_same; [..|apply (RET (x_unords st))]; try reflexivity. intros u Hu. split; [exact Hu|discriminate].
Qed.

Lemma oretr1_spec cfg j id rv cur s2 :
  c_requeue_retr_checks_head cfg = true -> c_stale_drops_link cfg = true ->
  jfacts j s2 -> r_link j = Some id -> x_parsing_done s2 = false ->
  (forall u, In u (x_unords s2) -> u_id u = id -> u_complete u = false) ->
  dbs_ok cur = true -> d_bit (r_cur j) <= d_bit cur -> (rv = MORE -> dbs_norm cur = true) ->
  ownp (x_order_q s2) (j :: all_jobs s2) s2 -> oshape s2 ->
  own (retr1_tail cfg j rv cur (fin_spec id cur) (set_unords (upd_unord id (u_set_end cur) (x_unords s2)) s2)).
Proof.
  intros CR CSD (I2 & J2 & L2 & B2 & M2) EL PD INC Hok Hbit Hn OW OS.
  pose proof (L2 id EL) as Z2. destruct J2 as (J1 & _ & _ & _ & J5).
  assert (NL : forall x, In x (all_jobs s2) -> r_link x <> Some id) by (intros x Hx; apply (no_link_job id s2 x Z2 Hx)).
  assert (UB : forall u, In u (x_unords s2) -> u_id u = id -> u_base u = r_base j) by (intros u Hu Hid; apply (J5 id u EL Hu Hid)).
  set (st := set_unords (upd_unord id (u_set_end cur) (x_unords s2)) s2).
  assert (I3 : inv st).
  { apply (inv_upd_spec id (u_set_end cur) s2 I2 Z2).
    - intro u. split; reflexivity.
    - intros u Hu Hid. pose proof (i_unord _ I2) as Iu. rewrite Forall_forall in Iu. destruct (Iu u Hu) as (O1 & O2 & O3).
      split; [|split; assumption]. intro Q. destruct (O1 Q) as (_ & _ & L).
      repeat split; auto. cbn. rewrite (UB u Hu Hid). exact (N.le_trans _ _ _ J1 Hbit). }
  assert (OW3 : ownp (x_order_q s2) (j :: all_jobs s2) st) by (apply ownp_upd_keep; [intro u; repeat split; reflexivity|exact OW]).
  (* the candidate of the job, with its end position updated *)
  assert (US : forall u, In u (x_unords st) -> exists u0, In u0 (x_unords s2) /\ u_id u = u_id u0 /\ u_base u = u_base u0 /\ u_complete u = u_complete u0).
  { intros u Hu. destruct (in_upd_unord_inv _ _ _ _ Hu) as (u0 & H0 & [(_ & ->)|(_ & ->)]); exists u0; auto. }
  assert (INC3 : forall u, In u (x_unords st) -> u_id u = id -> u_complete u = false).
  { intros u Hu Hid. destruct (US u Hu) as (u0 & H0 & E1 & _ & E4). rewrite E4. apply INC; auto. congruence. }
  assert (NJ : jm (x_unords st) j = false).
  { apply (not_jm_incomplete st j id I3 EL). intros u Hu Hid. left. apply INC3; auto. }
  assert (SH : forall st', x_order_q st' = x_order_q s2 -> x_next st' = x_next s2 -> oshape st') by (intros st' A B; exact (oshape_view s2 st' A B OS)).
  unfold retr1_tail. destruct (rv =? MORE) eqn:RV.
  - rewrite CR, CSD. cbn [andb drop_if]. apply N.eqb_eq in RV. specialize (Hn RV). destruct (d_off cur <? x_head_offs st) eqn:SL.
    + (* the master has released the input this job needs next: it is dropped *)
      split; [|apply SH; reflexivity].
      change (ownp (x_order_q s2) (all_jobs st) (give_unit (set_unords (drop_link (r_link j) (x_unords st)) st))).
      apply ownp_give_unit. apply ownp_drop; auto; rewrite EL.
      * intros id0 x [= <-] Hx. apply NL; exact Hx.
      * intros u Hu [= Hid] Qu Cu. destruct (US u Hu) as (u0 & H0 & E1 & E2 & _).
        rewrite E2, (UB u0 H0 ltac:(congruence)). right. apply N.ltb_lt in SL. change (x_head_offs st) with (x_head_offs s2) in *.
        clear - J1 Hbit Hn SL. unfold dbs_norm in Hn. lia.
    + split; [|apply SH; reflexivity].
      apply (ownp_same _ _ st); try reflexivity. rewrite EL in *. apply (ownp_job_upd _ j); auto.
  - (* complete: the candidate records it, the emit job is its line *)
    split; [|apply SH; reflexivity]. unfold fin_spec.
    set (e := mkejob (r_base j) rv (d_off cur)). set (f := fun u => u_set_complete (u_set_end cur u)).
    apply (ownp_same _ _ (set_unords (upd_unord id f (x_unords st)) (add_run (CRetr2 e) st))); try reflexivity.
    pose proof (la_add_run e st _ eq_refl) as LAe. apply (ownp_add_run _ _ e) in OW3.
    set (sa := add_run (CRetr2 e) st) in *.
    assert (UP : forall u, In u (upd_unord id f (x_unords st)) -> exists u0, In u0 (x_unords st) /\
               ((u_id u0 <> id /\ u = u0) \/ (u_id u0 = id /\ u = f u0))).
    { intros u Hu. destruct (in_upd_unord_inv _ _ _ _ Hu) as (u0 & H0 & [K|K]); exists u0; tauto. }
    destruct OW3 as [A B C D E F G K U3].
    constructor; xs.
    + intros h Hh. destruct (A h Hh) as [[Z (x & X1 & X2 & X3)]|L]; [left; split; auto|right; auto].
      destruct X1 as [<-|X1]; [exfalso; exact (eq_true_false_abs _ X2 NJ)|]. exists x. split; auto. split; auto.
      rewrite jm_upd_other; [exact X2|apply NL; exact X1|reflexivity].
    + exact B.
    + intros x Hx J. apply C; [right; auto|].
      eapply jm_upd_raise; [| |exact J]; [intro u; split; reflexivity|apply I3].
    + intros u Hu Cu. destruct (UP u Hu) as (u0 & H0 & [[NE ->]|[EQ ->]]); [|discriminate Cu].
      destruct (D u0 H0 Cu) as (x & [<-|X1] & X2); [congruence|exists x; auto].
    + intros u Hu Qu Cu. destruct (UP u Hu) as (u0 & H0 & [[NE ->]|[EQ ->]]); [exact (E u0 H0 Qu Cu)|].
      left. cbn. destruct (US u0 H0) as (u1 & H1 & E1 & E2 & _). rewrite E2, (UB u1 H1 ltac:(congruence)). exact LAe.
    + intro X. exfalso. exact (eq_true_false_abs _ X PD).
    + exact G.
    + exact K.
    + intros u Hu Qu. destruct (UP u Hu) as (u0 & H0 & [[NE ->]|[EQ ->]]).
      * destruct (U3 u0 H0 Qu) as (x & [<-|X1] & X2); [congruence|exists x; auto].
      * exfalso. cbn in Qu. pose proof (i_unord _ I3) as UO. rewrite Forall_forall in UO. destruct (UO u0 H0) as (_ & O2 & _).
        rewrite (INC3 u0 H0 EQ) in O2. discriminate (O2 Qu).
Qed.

Lemma own_retr1 cfg j att rv cur st st' :
  cfg_safe cfg -> cfg_drops cfg -> inv st -> own st -> retr1 cfg j att rv cur st = Some st' -> own st'.
Proof.
  intros (_ & _ & CR) (CSD & CDD & CAD & CA & _) I OW H.
  destruct (retr1_inv _ _ _ _ _ _ _ H) as (l1 & l2 & E & D & Hok & Hbit & Hoff & _ & _ & HnM & CASE).
  pose proof (jfacts_view j _ _ (view_detach att _) (inv_del_retr _ _ _ _ D I)) as F2.
  destruct (own_del_detach _ _ _ att _ E eq_refl OW) as (OP & OS). cbn [cjobs app] in OP.
  generalize dependent (detach att (set_running (l1 ++ l2) st)). intro s2. intros.
  destruct F2 as (I2 & J2 & L2 & B2 & M2). pose proof (conj I2 (conj J2 (conj L2 (conj B2 M2)))) as F2.
  assert (SEP : forall id x, r_link j = Some id -> In x (all_jobs s2) -> r_link x <> Some id)
    by (intros id x L Hx; exact (no_link_job id s2 x (L2 id L) Hx)).
  destruct CASE as [PD ->|u PD LS UC UL ->|PD JM ->|id PD EL INC ->].
  - rewrite CDD. cbn [drop_if]. split; [|apply (oshape_view s2); [reflexivity|reflexivity|exact OS]].
    change (ownp (x_order_q s2) (all_jobs s2) (give_unit (set_unords (drop_link (r_link j) (x_unords s2)) s2))). apply ownp_give_unit.
    apply ownp_drop; auto.
    + destruct (i_done _ I2 PD) as [_ T]. rewrite T in B2. destruct (jm (x_unords s2) j); [exfalso; cbn in B2; clear - B2; lia|reflexivity].
    + intros u Hu _ Qu _. exfalso. pose proof (o_noinq _ _ _ OP PD) as NI. rewrite Forall_forall in NI. rewrite (NI u Hu) in Qu. discriminate.
  - (* proven not legitimate: aborted *)
    rewrite CAD. cbn [drop_if]. split; [|apply (oshape_view s2); [reflexivity|reflexivity|exact OS]].
    change (ownp (x_order_q s2) (all_jobs s2) (give_unit (set_unords (drop_link (r_link j) (x_unords s2)) s2))). apply ownp_give_unit.
    destruct (link_state_spec _ _ _ LS) as (id & EL & Hu & Hid).
    assert (UNI : forall u0, In u0 (x_unords s2) -> u_id u0 = id -> u0 = u).
    { intros u0 Hv0 E0. apply (nodup_id_unique (x_unords s2)); auto; [apply I2|congruence]. }
    apply ownp_drop; auto.
    + apply (not_jm_incomplete s2 j id I2 EL). intros u0 Hv0 E0. right. rewrite (UNI u0 Hv0 E0). exact UL.
    + intros u0 Hv0 LJ _ C0. exfalso. rewrite EL in LJ. injection LJ as X. rewrite (UNI u0 Hv0 (eq_sym X)) in C0. congruence.
  - apply master_case_jm in JM. exact (oretr1_master cfg j rv cur s2 CR CA F2 JM PD Hok Hbit Hoff OP OS).
  - refine (oretr1_spec cfg j id rv cur s2 CR CSD F2 EL PD (spec_case_incomplete j id s2 (i_unodup _ I2) EL INC) Hok Hbit _ OP OS).
    intro M. exact (proj1 (proj2 (HnM M))).
Qed.

Lemma own_scan1 cfg s att found s' more st st' :
  inv st -> own st -> scan1 cfg s att found s' more st = Some st' -> own st'.
Proof.
  intros I OW H. destruct (scan1_inv _ _ _ _ _ _ _ _ H) as (l1 & l2 & E & D & C). cbv zeta in C.
  pose proof (inv_view _ _ (view_detach att _) (inv_view _ _ (view_del_run _ _ _ D eq_refl eq_refl) I)) as I2.
  pose proof (own_del_detach _ _ _ att _ E eq_refl OW) as O2. cbn [cjobs app] in O2.
  generalize dependent (detach att (set_running (l1 ++ l2) st)). intro s2. intros.
  destruct C as [(_ & ->)|(_ & PD & _ & _ & _ & _ & ->)]; [apply (own_same s2); try reflexivity; exact O2|].
  assert (O3 : own (scan1_cand cfg s' s2)).
  { unfold scan1_cand, new_cand. destruct (_ || _); [apply (own_same s2); try reflexivity; exact O2|].
    destruct (_ && _); [apply (own_same s2); try reflexivity; exact O2|].
    destruct O2 as [OP OS]. split; [|apply (oshape_view s2); [reflexivity|reflexivity|exact OS]]. xs.
    set (un := mkunord (x_next_uid s2) (d_pos s') s' false false true). set (jn := mkrjob (d_pos s') s' (Some (x_next_uid s2))).
    apply (ownp_same _ _ (set_unords (x_unords s2 ++ [un]) s2)); try reflexivity.
    assert (NJ : jm (x_unords s2 ++ [un]) jn = false) by exact (jm_fresh_false _ _ _ _ _ _ (i_ufresh _ I2)).
    assert (JO : forall x, jm (x_unords s2 ++ [un]) x = jm (x_unords s2) x) by (intro x; apply jm_app_new; reflexivity).
    destruct OP as [A B C0 D0 E0 F G K U3].
    constructor; xs.
    - intros h Hh. destruct (A h Hh) as [[Z (x & X1 & X2 & X3)]|L]; [left; split; auto|right; exact L].
      exists x. split; [right; exact X1|]. rewrite JO. auto.
    - exact B.
    - intros x [<-|Hx] J; [exfalso; exact (eq_true_false_abs _ J NJ)|]. apply C0; auto. rewrite <- JO. exact J.
    - intros u Hu Cu. apply in_app_or in Hu. destruct Hu as [Hu|[<-|[]]].
      + destruct (D0 u Hu Cu) as (x & X1 & X2). exists x. split; [right|]; auto.
      + exists jn. split; [left|]; reflexivity.
    - intros u Hu Qu Cu. apply in_app_or in Hu. destruct Hu as [Hu|[<-|[]]]; [exact (E0 u Hu Qu Cu)|discriminate Cu].
    - rewrite PD. discriminate.
    - exact G.
    - exact K.
    - intros u Hu Qu. apply in_app_or in Hu. destruct Hu as [Hu|[<-|[]]]; [|discriminate Qu].
      destruct (U3 u Hu Qu) as (x & X1 & X2). exists x. split; [right|]; auto. }
  unfold scan1_requeue. destruct (more && _); [apply (own_same (scan1_cand cfg s' s2)); try reflexivity|]; exact O3.
Qed.
