(* Capacity of scan_q: at most one scan job (queued or running) per live input block.
   pqueue_init(scan_q, in_slots) and deque_init(input_q, in_slots): length scan_q <= length input_q. *)
From Coq Require Import List NArith Bool Lia Arith ZifyBool ZifyN ZifyNat.
From LBZ Require Import Gen.Consts SchedX.XState Gen.SchedXTab SchedX.XSet SchedX.XModel SchedX.XLemmas
  SchedX.XFrame SchedX.XInvDefs SchedX.XOps SchedX.XInv SchedX.XInv2 SchedX.XInv3 SchedX.XInv4 SchedX.XCount.
Import ListNotations.
Local Open Scope N_scope.

Definition bshape (b : inblk) : N * N := (ib_off b, ib_size b).
Definition in_rng (r : N * N) (s : dbs) : bool := (fst r <=? d_off s) && (d_off s <? fst r + snd r).
Definition att_scan (o : N) (c : cont) : bool := match c with CScan _ (Some o') => o' =? o | _ => false end.
Definition is_scan (c : cont) : bool := match c with CScan _ _ => true | _ => false end.

Record sownp (SQ : list dbs) (IS : list (N * N)) (ZQ : list inblk) (hd tl : N) (R : list cont) : Prop := mksownp {
  s_lt : Forall (fun s => d_off s < tl) SQ;
  s_one : forall r, In r IS -> (length (filter (in_rng r) SQ) + length (filter (att_scan (fst r)) R) <= 1)%nat;
  s_run : forall s att, In (CScan s att) R -> exists o, att = Some o /\ o <= d_off s /\ o < tl;
  s_zomb : Forall (fun z => ib_end z <= hd) ZQ
}.

Definition sown (st : xstate) : Prop :=
  sownp (x_scan_q st) (map bshape (x_input_q st)) (x_zombies st) (x_head_offs st) (x_tail_offs st) (x_running st).

(* [R'] has no running scan job that [R] has not *)
Definition rsub (R' R : list cont) : Prop :=
  (forall o, (length (filter (att_scan o) R') <= length (filter (att_scan o) R))%nat) /\
  (forall s att, In (CScan s att) R' -> In (CScan s att) R).

Lemma rsub_refl R : rsub R R.
Proof. split; auto. Qed.

Lemma rsub_del l1 c l2 : rsub (l1 ++ l2) (l1 ++ c :: l2).
Proof.
  split.
  - intro o. rewrite !filter_app, !app_length. cbn [filter]. destruct (att_scan o c); cbn [length]; lia.
  - intros s att. rewrite !in_app_iff. cbn [In]. tauto.
Qed.

Lemma rsub_add c R : is_scan c = false -> rsub (c :: R) R.
Proof.
  intro NS. split.
  - intro o. destruct c; try discriminate; apply Nat.le_refl.
  - intros s att [X|X]; [subst c; discriminate|exact X].
Qed.

(* the invariant over lists survives when queues, blocks and running scans shrink *)
Lemma sownp_sub SQ SQ' IS IS' ZQ ZQ' hd hd' tl R R' :
  (forall q, (length (filter q SQ') <= length (filter q SQ))%nat) -> (forall P, Forall P SQ -> Forall P SQ') ->
  incl IS' IS -> rsub R' R -> Forall (fun z => ib_end z <= hd') ZQ' ->
  sownp SQ IS ZQ hd tl R -> sownp SQ' IS' ZQ' hd' tl R'.
Proof.
  intros HC HF HI [HR HIn] HZ [A B C D]. constructor; auto.
  intros r Hr. specialize (B r (HI r Hr)). specialize (HC (in_rng r)). specialize (HR (fst r)). lia.
Qed.

Lemma filter_len_le {A} (p : A -> bool) l l' : (forall q, (length (filter q l') <= length (filter q l))%nat) ->
  (length (filter p l') <= length (filter p l))%nat.
Proof. auto. Qed.

Lemma sownp_subq SQ SQ' IS ZQ hd tl R :
  (forall q, (length (filter q SQ') <= length (filter q SQ))%nat) -> (forall P, Forall P SQ -> Forall P SQ') ->
  sownp SQ IS ZQ hd tl R -> sownp SQ' IS ZQ hd tl R.
Proof. intros HC HF S. apply (sownp_sub SQ SQ' IS IS ZQ ZQ hd hd tl R R); auto using incl_refl, rsub_refl. apply S. Qed.

Lemma sownp_running SQ IS ZQ hd tl R R' : rsub R' R -> sownp SQ IS ZQ hd tl R -> sownp SQ IS ZQ hd tl R'.
Proof. intros HR S. apply (sownp_sub SQ SQ IS IS ZQ ZQ hd hd tl R R'); auto using incl_refl. apply S. Qed.

(* the scan job [s] of the block at [o] starts to run, or comes back as [s'] *)
Lemma sownp_start l1 l2 s IS ZQ hd tl R o :
  (forall r, In r IS -> in_rng r s = (fst r =? o)) -> o <= d_off s ->
  sownp (l1 ++ s :: l2) IS ZQ hd tl R -> sownp (l1 ++ l2) IS ZQ hd tl (CScan s (Some o) :: R).
Proof.
  intros K L1 [A B C D]. apply Forall_app in A as [A1 A2]. inversion_clear A2 as [|? ? L2 A2']. constructor; [| | |exact D].
  - apply Forall_app. split; assumption.
  - intros r Hr. specialize (B r Hr). rewrite !filter_app, !app_length in *. cbn [filter att_scan] in *.
    rewrite (K r Hr) in B. rewrite (N.eqb_sym o). destruct (fst r =? o); cbn [length] in *; lia.
  - intros s0 att0 [[= <- <-]|X]; [|auto]. exists o. split; [reflexivity|]. split; [exact L1|]. lia.
Qed.

Lemma sownp_requeue SQ IS ZQ hd tl l1 l2 s o s' :
  (forall r, In r IS -> in_rng r s' = (fst r =? o)) -> d_off s' < tl ->
  sownp SQ IS ZQ hd tl (l1 ++ CScan s (Some o) :: l2) -> sownp (s' :: SQ) IS ZQ hd tl (l1 ++ l2).
Proof.
  intros K LT [A B C D]. constructor; [constructor; assumption| | |exact D].
  - intros r Hr. specialize (B r Hr). rewrite !filter_app, !app_length in *. cbn [filter att_scan] in *.
    rewrite (K r Hr). rewrite (N.eqb_sym o) in B. destruct (fst r =? o); cbn [length] in *; lia.
  - intros s0 a Hc. apply C. rewrite in_app_iff in *. cbn [In]. tauto.
Qed.

Lemma adv_scan_count fuel hd q p : (length (filter p (adv_scan fuel hd q)) <= length (filter p q))%nat.
Proof.
  revert q; induction fuel as [|f IH]; intro q; simpl; auto.
  destruct (qmin d_pos pos_lt q) as [s|]; auto. destruct (d_off s <? hd); auto.
  destruct (remove_one dbs_eqb s q) as [q'|] eqn:R; auto.
  eapply Nat.le_trans; [apply IH|]. rewrite (remove_one_filter_len _ dbs_eqb_eq p _ _ _ R). lia.
Qed.

Lemma adv_scan_forall fuel hd q (P : dbs -> Prop) : Forall P q -> Forall P (adv_scan fuel hd q).
Proof.
  revert q; induction fuel as [|f IH]; intro q; simpl; auto. intro F.
  destruct (qmin d_pos pos_lt q) as [s|]; auto. destruct (d_off s <? hd); auto.
  destruct (remove_one dbs_eqb s q) as [q'|] eqn:R; auto.
  apply IH. destruct (remove_one_Forall _ dbs_eqb_eq P _ _ _ R F). auto.
Qed.

(* two blocks of input_q are the same range or disjoint *)
Definition rend (r : N * N) : N := fst r + snd r.
Definition sep (r r' : N * N) : Prop := r = r' \/ rend r <= fst r' \/ rend r' <= fst r.

Lemma sep_same r r' : sep r r' -> 0 < snd r -> 0 < snd r' -> fst r = fst r' -> r = r'.
Proof. unfold sep, rend. intros [E|[L|L]] P P' EQ; auto; exfalso; lia. Qed.

Lemma sep_point r r' x : sep r r' -> fst r <= x -> x < rend r -> fst r' <= x -> x < rend r' -> r = r'.
Proof. unfold sep. intros [E|[L|L]]; auto; intros; exfalso; lia. Qed.

Lemma in_rng_spec r s : in_rng r s = true <-> fst r <= d_off s /\ d_off s < rend r.
Proof. unfold in_rng, rend. lia. Qed.

Lemma contig_bounds h q t b : contig h q t -> In b q -> h <= ib_off b /\ ib_end b <= t /\ 0 < ib_size b.
Proof.
  revert h; induction q as [|a r IH]; simpl; intros h C Hb; [tauto|]. destruct C as (C1 & C2 & C3).
  pose proof (contig_le _ _ _ C3) as LE. unfold ib_end in *.
  destruct Hb as [->|Hb]; [lia|]. destruct (IH _ C3 Hb) as (A1 & A2 & A3). unfold ib_end in *. lia.
Qed.

Lemma shape_bounds h q t r : contig h q t -> In r (map bshape q) -> h <= fst r /\ rend r <= t /\ 0 < snd r.
Proof. intros C Hr. apply in_map_iff in Hr as (b & <- & Hb). exact (contig_bounds _ _ _ _ C Hb). Qed.

Lemma contig_sep h q t : contig h q t -> forall b b', In b q -> In b' q -> sep (bshape b) (bshape b').
Proof.
  revert h; induction q as [|a r IH]; simpl; intros h C b b' Hb Hb'; [tauto|]. destruct C as (C1 & C2 & C3).
  destruct Hb as [->|Hb], Hb' as [->|Hb'].
  - left; auto.
  - right; left. destruct (contig_bounds _ _ _ _ C3 Hb') as (A1 & _). exact A1.
  - right; right. destruct (contig_bounds _ _ _ _ C3 Hb) as (A1 & _). exact A1.
  - eapply IH; eauto.
Qed.

Lemma contig_disjoint h q t : contig h q t ->
  forall b b' x, In b q -> In b' q -> ib_off b <= x -> x < ib_end b -> ib_off b' <= x -> x < ib_end b' -> bshape b = bshape b'.
Proof. intros C b b' x Hb Hb'. exact (sep_point (bshape b) (bshape b') x (contig_sep _ _ _ C b b' Hb Hb')). Qed.

(* a stream position inside the block [b] lies in no other block, and no other block starts where [b] does *)
Lemma in_rng_blk h q t b s : contig h q t -> In b q -> in_rng (bshape b) s = true ->
  forall r, In r (map bshape q) -> in_rng r s = (fst r =? ib_off b).
Proof.
  intros C Hb IR r Hr. apply in_map_iff in Hr as (b' & <- & Hb').
  destruct (contig_bounds _ _ _ _ C Hb) as (_ & _ & P), (contig_bounds _ _ _ _ C Hb') as (_ & _ & P').
  revert IR. destruct (contig_sep _ _ _ C b b' Hb Hb') as [E|[L|L]]; [rewrite <- E|..];
    unfold in_rng, rend, bshape in *; cbn [fst snd] in *; lia.
Qed.

Lemma find_blk_spec off q : forall h t, contig h q t -> h <= off -> forall b, find_blk off q = Some b ->
  In b q /\ ib_off b <= off /\ off < ib_end b.
Proof.
  induction q as [|a r IH]; simpl; intros h t C Hl b F; [discriminate|]. destruct C as (C1 & C2 & C3).
  destruct (off <? ib_end a) eqn:E.
  - inversion F; subst b. split; auto. lia.
  - destruct (IH _ _ C3 ltac:(lia) b F) as (A & B). split; auto.
Qed.

Lemma pop_input_in lim q : forall h t, contig h q t ->
  (forall b, In b (fst (pop_input lim q)) -> In b q /\ ib_end b <= h + sum_sizes (fst (pop_input lim q))) /\
  (forall b, In b (snd (pop_input lim q)) -> In b q).
Proof.
  induction q as [|a r IH]; simpl; intros h t C; [split; intros b []|]. destruct C as (C1 & C2 & C3).
  destruct (ib_end a <=? lim) eqn:E.
  - specialize (IH _ _ C3). destruct (pop_input lim r) as [p k]. simpl in *. destruct IH as [I1 I2]. split.
    + intros b [<-|Hb]; [split; auto; unfold ib_end in *; lia|]. destruct (I1 b Hb) as [A B]. split; auto. unfold ib_end in *. lia.
    + intros b Hb. right. auto.
  - simpl. split; [intros b []|auto].
Qed.

(* attach() finds the block that holds the position *)
Lemma attach_block d st : contig (x_head_offs st) (x_input_q st) (x_tail_offs st) -> x_head_offs st <= d_off d ->
  d_off d < x_tail_offs st ->
  exists b, In b (x_input_q st) /\ in_rng (bshape b) d = true /\ snd (attach d st) = Some (ib_off b).
Proof.
  intros CT HD LT. destruct (find_blk_contig (d_off d) _ _ _ CT HD LT) as [b FB].
  destruct (find_blk_spec _ _ _ _ CT HD b FB) as (Hb & B1 & B2). exists b. split; [exact Hb|]. split; [apply in_rng_spec; auto|].
  unfold attach. replace (d_off d =? x_tail_offs st) with false by lia. destruct (_ && _); xs; rewrite FB; reflexivity.
Qed.

Lemma find_att_end o st : forall b, find (fun b => ib_off b =? o) (x_input_q st ++ x_zombies st) = Some b ->
  (In b (x_input_q st) /\ ib_off b = o) \/ (In b (x_zombies st) /\ ib_off b = o).
Proof.
  intros b F. apply find_some in F. destruct F as [F1 F2]. apply N.eqb_eq in F2. apply in_app_or in F1. tauto.
Qed.

(* the block a running job is attached to *)
Lemma att_end_block o st : 0 < att_end (Some o) st ->
  exists b, In b (x_input_q st ++ x_zombies st) /\ ib_off b = o /\ att_end (Some o) st = ib_end b.
Proof.
  unfold att_end. destruct (find (fun b => ib_off b =? o) (x_input_q st ++ x_zombies st)) as [b|] eqn:FD; [|lia].
  intros _. apply find_some in FD. destruct FD as [F1 F2]. apply N.eqb_eq in F2. exists b. auto.
Qed.

(* a running scan job is attached to a block, live or zombie, that starts at or below its position *)
Lemma run_block st s att : sown st -> In (CScan s att) (x_running st) -> 0 < att_end att st ->
  exists b, att = Some (ib_off b) /\ In b (x_input_q st ++ x_zombies st) /\ ib_off b <= d_off s /\ att_end att st = ib_end b.
Proof.
  intros S Hc P. destruct (s_run _ _ _ _ _ _ S s att Hc) as (o & -> & OL & _).
  destruct (att_end_block o st P) as (b & Hb & <- & AE). exists b. auto.
Qed.

(* attach() and detach() change reference counts only; blocks that leave input_q keep their range *)
Lemma shape_upd_ref f o q : map bshape (upd_ref f o q) = map bshape q.
Proof. unfold upd_ref. rewrite map_map. apply map_ext. intro b. destruct (ib_off b =? o); reflexivity. Qed.

Lemma shape_detach att st : map bshape (x_input_q (detach att st)) = map bshape (x_input_q st).
Proof. unfold detach. destruct att as [o|]; auto. destruct (has_blk o (x_input_q st)); xs; auto. apply shape_upd_ref. Qed.

Lemma shape_attach d st : map bshape (x_input_q (fst (attach d st))) = map bshape (x_input_q st).
Proof.
  unfold attach. destruct (can_attach_assert st d && (d_off d <=? x_tail_offs st));
    destruct (d_off d =? x_tail_offs st); simpl; xs; auto;
    destruct (find_blk (d_off d) (x_input_q st)); simpl; xs; auto; apply shape_upd_ref.
Qed.

Lemma detach_zshape att st : incl (map bshape (x_zombies (detach att st))) (map bshape (x_zombies st)).
Proof.
  unfold detach. destruct att as [o|]; [|apply incl_refl]. destruct (has_blk o (x_input_q st)); xs; [apply incl_refl|].
  intros r Hr. apply in_map_iff in Hr as (z & <- & Hz). apply filter_In in Hz as [Hz _].
  rewrite <- (shape_upd_ref N.pred o). apply in_map. exact Hz.
Qed.

Lemma zrel_shape l : incl (map bshape (zrel l)) (map bshape l).
Proof.
  unfold zrel. rewrite map_map. intros r Hr. apply in_map_iff in Hr as (b & <- & Hb). apply filter_In in Hb as [Hb _].
  exact (in_map bshape _ _ Hb).
Qed.

Lemma shape_end b b' : bshape b = bshape b' -> ib_end b = ib_end b'.
Proof. unfold bshape, ib_end. intros [= -> ->]. reflexivity. Qed.

Lemma ends_incl l l' hd : incl (map bshape l') (map bshape l) ->
  Forall (fun z => ib_end z <= hd) l -> Forall (fun z => ib_end z <= hd) l'.
Proof.
  intros I F. apply Forall_forall. intros z Hz. destruct (proj1 (in_map_iff _ _ _) (I _ (in_map bshape _ _ Hz))) as (b & E & Hb).
  rewrite <- (shape_end _ _ E). rewrite Forall_forall in F. auto.
Qed.

(* blocks below the new head leave input_q: the attached ones become zombies *)
Lemma zends_release ZQ l hd hd' : hd <= hd' -> Forall (fun b => ib_end b <= hd') l ->
  Forall (fun z => ib_end z <= hd) ZQ -> Forall (fun z => ib_end z <= hd') (ZQ ++ zrel l).
Proof.
  intros L Fl Fz. apply Forall_app. split; [|exact (ends_incl _ _ _ (zrel_shape l) Fl)].
  eapply Forall_impl; [|exact Fz]. cbv beta. intros z Hz. lia.
Qed.

Definition cg (st : xstate) : Prop := contig (x_head_offs st) (x_input_q st) (x_tail_offs st).

Lemma cg_view st st' : view_eq st st' -> cg st -> cg st'.
Proof. intros [] C. unfold cg in *. rewrite v_head, v_tail. apply v_inq. exact C. Qed.

Lemma cg_advance cfg bs st : cg st -> cg (advance cfg bs st).
Proof. unfold cg. intro C. rewrite advance_eq. cbv zeta. xs. exact (proj1 (pop_input_spec _ _ _ _ C)). Qed.

Lemma sown_del_run c l1 l2 st : x_running st = l1 ++ c :: l2 -> sown st -> sown (set_running (l1 ++ l2) st).
Proof. unfold sown. intros E S. rewrite E in S. exact (sownp_running _ _ _ _ _ _ _ (rsub_del l1 c l2) S). Qed.

Lemma sown_add_run c st : is_scan c = false -> sown st -> sown (add_run c st).
Proof. intros NS S. exact (sownp_running _ _ _ _ _ _ _ (rsub_add c _ NS) S). Qed.

Lemma sown_detach att st : sown st -> sown (detach att st).
Proof.
  intros [A B C D]. unfold sown. rewrite detach_nf. xs. unfold detach_inq, detach_zom. rewrite shape_detach.
  constructor; auto. exact (ends_incl _ _ _ (detach_zshape att st) D).
Qed.

Lemma sown_attach d st : sown st -> sown (fst (attach d st)).
Proof. unfold sown. rewrite attach_nf. xs. unfold attach_inq. rewrite shape_attach. exact (fun S => S). Qed.

Lemma sown_advance cfg bs st : cg st -> sown st -> sown (advance cfg bs st).
Proof.
  intros CT S. destruct (pop_input_in (d_off bs) (x_input_q st) _ _ CT) as [PI1 PI2].
  unfold sown. rewrite advance_eq. cbv zeta. xs. rewrite rel_zom_eq. xs.
  eapply sownp_sub; [apply adv_scan_count|apply adv_scan_forall|exact (incl_map bshape PI2)|apply rsub_refl| |exact S].
  apply (zends_release _ _ (x_head_offs st)); [lia| |apply S]. apply Forall_forall. intros b Hb. apply PI1, Hb.
Qed.

Lemma sown_parse_finish cfg g s : cg s -> sown s -> sown (parse_finish cfg g s).
Proof.
  intros CT S. rewrite parse_finish_eq. cbv zeta. destruct (_ && _); [exact S|]. unfold sown. xs.
  constructor; [constructor|intros r []|apply S|].
  apply (zends_release _ _ (x_head_offs s)); [lia| |apply S]. apply Forall_forall. intros b Hb.
  rewrite (contig_sum _ _ _ CT). apply (contig_bounds _ _ _ _ CT Hb).
Qed.

Lemma sown_parse_ok cfg lv crc s : cg s -> sown s -> sown (parse_ok cfg lv crc s).
Proof.
  intros CT S. destruct (parse_ok_cases cfg lv crc s) as [(_ & ->)|(u & _ & _ & ->)]; [exact S|]. cbv zeta.
  set (s2 := set_unords (discard_below _ _) _). pose proof (sown_advance cfg (u_end u) s2 CT S) as S3.
  generalize dependent (advance cfg (u_end u) s2). intros s3 S3. destruct (u_complete u); exact S3.
Qed.

Lemma sown_parse1 cfg att r st st' : inv st -> sown st -> parse1 cfg att r st = Some st' -> sown st'.
Proof.
  intros IV S H. destruct (parse1_inv _ _ _ _ _ H) as (l1 & l2 & E & _ & _ & _ & _ & _ & C). cbv zeta in C.
  pose proof (sown_detach att _ (sown_del_run _ _ _ _ E S)) as S2.
  assert (C2 : cg (detach att (set_running (l1 ++ l2) st))) by (apply (cg_view _ _ (view_detach att _)), IV).
  pose proof (sown_advance cfg (res_bs r) _ C2 S2) as S3. pose proof (cg_advance cfg (res_bs r) _ C2) as C3.
  generalize dependent (advance cfg (res_bs r) (detach att (set_running (l1 ++ l2) st))). intros s3 C S3 C3.
  destruct r; [destruct C as (_ & _ & ->)|destruct C as (_ & _ & ->)|destruct C as (_ & _ & _ & ->)|destruct C as (_ & ->)].
  - exact S3.
  - apply sown_parse_finish; assumption.
  - exact S3.
  - apply sown_parse_ok; assumption.
Qed.

Lemma sown_drop_if b l s : sown s -> sown (drop_if b l s).
Proof. destruct b; exact (fun S => S). Qed.

Lemma sown_retr1_tail cfg j rv cur fin sa : (forall s, sown s -> sown (fin s)) -> sown sa -> sown (retr1_tail cfg j rv cur fin sa).
Proof.
  intros F S. unfold retr1_tail. destruct (rv =? MORE); [destruct (_ && _)|].
  - exact (sown_drop_if _ _ _ S).
  - exact S.
  - apply sown_add_run; [reflexivity|]. apply F, S.
Qed.

Lemma sown_retr1 cfg j att rv cur st st' : inv st -> sown st -> retr1 cfg j att rv cur st = Some st' -> sown st'.
Proof.
  intros IV S H. destruct (retr1_inv _ _ _ _ _ _ _ H) as (l1 & l2 & E & _ & _ & _ & _ & _ & _ & _ & C).
  pose proof (sown_detach att _ (sown_del_run _ _ _ _ E S)) as S2.
  assert (C2 : cg (detach att (set_running (l1 ++ l2) st))) by (apply (cg_view _ _ (view_detach att _)), IV).
  destruct C as [_ ->|u _ _ _ _ ->|_ _ ->|id _ _ _ ->].
  - exact (sown_drop_if _ _ _ S2).
  - exact (sown_drop_if _ _ _ S2).
  - apply sown_retr1_tail; [|apply sown_advance; assumption]. intros s X. destruct (r_link j); exact X.
  - apply sown_retr1_tail; [|exact S2]. exact (fun s X => X).
Qed.

(* a new block at the tail and its scan job *)
Lemma sownp_input SQ IS ZQ hd t R sz : 0 < sz -> (forall r, In r IS -> rend r <= t) ->
  sownp SQ IS ZQ hd t R -> sownp (mkdbs (32 * t) t :: SQ) (IS ++ [(t, sz)]) ZQ hd (t + sz) R.
Proof.
  intros SZ IE [A B C D]. constructor; [| | |exact D].
  - constructor; [cbn [d_off]; lia|]. eapply Forall_impl; [|exact A]. cbv beta. intros s Hs. lia.
  - intros r Hr. cbn [filter]. apply in_app_or in Hr as [Hr|[<-|[]]].
    + replace (in_rng r (mkdbs (32 * t) t)) with false by (specialize (IE r Hr); unfold in_rng, rend in *; cbn [d_off]; lia).
      exact (B r Hr).
    + replace (in_rng (t, sz) (mkdbs (32 * t) t)) with true by (unfold in_rng; cbn [fst snd d_off]; lia). cbn [length fst].
      assert (Z1 : length (filter (in_rng (t, sz)) SQ) = 0%nat).
      { apply filter_len_zero. eapply Forall_impl; [|exact A]. cbv beta. intros s Hs. unfold in_rng. cbn [fst snd]. lia. }
      assert (Z2 : length (filter (att_scan t) R) = 0%nat).
      { apply filter_len_zero, Forall_forall. intros [| | | |s [o|]] Hc; try reflexivity.
        destruct (C _ _ Hc) as (o' & [= <-] & _ & LT). cbn [att_scan]. lia. }
      rewrite Z1, Z2. reflexivity.
  - intros s att Hc. destruct (C s att Hc) as (o & E & L1 & L2). exists o. repeat split; auto. lia.
Qed.

Lemma sown_input sz m st st' : cg st -> sown st -> input sz m st = Some st' -> sown st'.
Proof.
  intros CT S H. destruct (input_inv _ _ _ _ H) as (_ & _ & SZ & _ & EQ). destruct (x_parsing_done st); subst st'; [exact S|].
  unfold sown. xs. rewrite map_app. apply (sownp_input _ _ _ _ _ _ sz SZ); [|exact S].
  intros r Hr. apply (shape_bounds _ _ _ r CT Hr).
Qed.

(* scan0 attaches the job to the live block it lies in *)
Lemma scan0_block st s l1 l2 : inv st -> sown st -> x_scan_q st = l1 ++ s :: l2 ->
  exists b, In b (x_input_q st) /\ in_rng (bshape b) s = true /\
    snd (attach s (set_scan_q (l1 ++ l2) (set_work_units (N.pred (x_work_units st)) st))) = Some (ib_off b).
Proof.
  intros IV S EQ. pose proof (i_scan _ IV) as IS. pose proof (s_lt _ _ _ _ _ _ S) as LT. rewrite EQ in IS, LT.
  apply Forall_app in IS as [_ IS]. apply Forall_app in LT as [_ LT].
  exact (attach_block s (set_scan_q (l1 ++ l2) (set_work_units (N.pred (x_work_units st)) st)) (i_contig _ IV)
           (proj1 (Forall_inv IS)) (Forall_inv LT)).
Qed.

Lemma sown_scan0 st st' : inv st -> sown st -> scan0 st = Some st' -> sown st'.
Proof.
  intros IV S H. destruct (scan0_inv _ _ H) as (_ & s & l1 & l2 & _ & EQ & ->). cbv zeta.
  destruct (scan0_block st s l1 l2 IV S EQ) as (b & Hb & IR & ->).
  unfold sown in *. rewrite attach_nf, add_run_nf. xs. unfold attach_inq. rewrite shape_attach. xs. rewrite EQ in S.
  apply sownp_start; [exact (in_rng_blk _ _ _ b s (i_contig _ IV) Hb IR)|apply in_rng_spec in IR; apply IR|exact S].
Qed.

Lemma sown_cand cfg s' s2 : sown s2 -> sown (scan1_cand cfg s' s2).
Proof. unfold scan1_cand, new_cand. destruct (_ || _); [|destruct (_ && _)]; exact (fun S => S). Qed.

Lemma sown_scan1 cfg s att found s' more st st' :
  c_requeue_scan_checks_head cfg = true -> inv st -> sown st -> scan1 cfg s att found s' more st = Some st' -> sown st'.
Proof.
  intros CS IV S H. destruct (scan1_inv _ _ _ _ _ _ _ _ H) as (l1 & l2 & E & _ & C). cbv zeta in C. clear H.
  pose proof (sown_detach att _ (sown_del_run _ _ _ _ E S)) as S2.
  destruct C as [(_ & ->)|(_ & _ & _ & OS & _ & -> & ->)]; [exact S2|].
  apply (sown_cand cfg s') in S2. unfold scan1_requeue. rewrite CS. cbn [negb orb].
  destruct (_ && _) eqn:RQ; [|exact S2].
  (* the job is put back: it stays inside the block it was attached to, which is still live *)
  apply andb_true_iff in RQ as [MO HS]. unfold sown in S, S2 |- *.
  rewrite scan1_cand_eta in S2, HS |- *. cbv zeta in S2, HS |- *. rewrite detach_nf in S2, HS |- *.
  xs in S2. xs in HS. xs. unfold detach_inq in *. rewrite shape_detach in S2 |- *. xs in S2. xs.
  destruct (run_block st s att S) as (b & -> & Hb & OL & AE); [rewrite E; apply in_elt|lia|]. rewrite AE in MO.
  pose proof (i_contig _ IV) as CT.
  apply in_app_or in Hb as [Hb|Hb]; [|pose proof (proj1 (Forall_forall _ _) (s_zomb _ _ _ _ _ _ S) b Hb) as Z; cbv beta in Z; lia].
  assert (IR : in_rng (bshape b) s' = true) by (apply in_rng_spec; split; [exact (N.le_trans _ _ _ OL OS)|apply N.ltb_lt, MO]).
  apply (sownp_requeue _ _ _ _ _ _ _ s (ib_off b)); [exact (in_rng_blk _ _ _ b s' CT Hb IR)| |].
  - destruct (contig_bounds _ _ _ _ CT Hb) as (_ & LE & _). lia.
  - rewrite E in S. destruct S as [A B C _]. constructor; auto. apply S2.
Qed.

Lemma sown_init n tin tout ultra : sown (init_state n tin tout ultra).
Proof. unfold sown. simpl. constructor; [constructor|intros r []|intros s att []|constructor]. Qed.

Theorem sown_step cfg st e st' : cfg_safe cfg -> inv st -> sown st -> step cfg st e = Some st' -> sown st'.
Proof.
  intros (CS & _ & _) IV S H. unfold step in H. destruct (x_failed st); [discriminate|]. destruct e.
  - eapply sown_input; eauto. apply IV.
  - destruct (reader_eof_inv _ _ H) as (_ & ->). exact S.
  - destruct (written_inv _ _ H) as (_ & ->). exact S.
  - destruct (parse0_inv _ _ H) as (_ & ->). apply sown_add_run; [reflexivity|]. apply sown_attach. exact S.
  - eapply sown_parse1; eauto.
  - destruct (retr0_inv _ _ _ H) as (_ & q & _ & ->). apply sown_add_run; [reflexivity|]. apply sown_attach. exact S.
  - eapply sown_retr1; eauto.
  - destruct (retr2_inv _ _ _ H) as (l1 & l2 & E & _ & ->). exact (sown_del_run _ _ _ _ E S).
  - destruct (emit0_inv _ _ H) as (_ & e & l1 & l2 & _ & _ & ->). apply sown_add_run; [reflexivity|]. exact S.
  - destruct (emit1_inv _ _ _ _ _ _ _ H) as (l1 & l2 & E & _ & _ & _ & C). cbv zeta in C.
    destruct (rv =? MORE); subst st'; exact (sown_del_run _ _ _ _ E S).
  - destruct (reorder_inv _ _ H) as (_ & o & l1 & l2 & _ & _ & C). destruct C as [_ ->|? ? _ _ _ ->|? ? _ _ _ _ ->|? ? _ _ _ _ ->]; exact S.
  - eapply sown_scan0; eauto.
  - eapply sown_scan1; eauto.
Qed.

Theorem sown_reach cfg n tin tout ultra st : cfg_safe cfg -> reach cfg (init_state n tin tout ultra) st -> inv st /\ sown st.
Proof.
  intros CS R. induction R as [|st e st' R [I S] H].
  - split; [apply inv_init|apply sown_init].
  - split; [eapply inv_step; eauto|eapply sown_step; eauto].
Qed.

Lemma scan_le_blocks q : forall h t l, contig h q t -> Forall (fun s => h <= d_off s /\ d_off s < t) l ->
  (forall b, In b q -> (length (filter (in_rng (bshape b)) l) <= 1)%nat) -> (length l <= length q)%nat.
Proof.
  induction q as [|b r IH]; simpl; intros h t l C F ONE.
  - subst t. destruct l as [|s l']; auto. inversion F; subst. lia.
  - destruct C as (C1 & C2 & C3).
    pose proof (filter_split_len (in_rng (bshape b)) l) as SP.
    pose proof (ONE b (or_introl eq_refl)) as O1.
    assert (L2 : (length (filter (fun x => negb (in_rng (bshape b) x)) l) <= length r)%nat).
    { apply (IH (ib_end b) t); auto.
      - apply Forall_forall. intros s Hs. apply filter_In in Hs. destruct Hs as [Hs NI]. rewrite Forall_forall in F.
        specialize (F s Hs). unfold in_rng, bshape in NI. simpl in NI. unfold ib_end. split; lia.
      - intros b' Hb'. eapply Nat.le_trans; [|apply (ONE b' (or_intror Hb'))].
        clear. induction l as [|x l IHl]; simpl; auto. destruct (in_rng (bshape b) x); simpl; destruct (in_rng (bshape b') x); simpl; lia. }
    clear - SP O1 L2. lia.
Qed.

(* capacity of scan_q: pqueue_init(scan_q, in_slots) *)
Theorem scan_q_le_input_q cfg n tin tout ultra st :
  cfg_safe cfg -> reach cfg (init_state n tin tout ultra) st -> (length (x_scan_q st) <= length (x_input_q st))%nat.
Proof.
  intros CS R. destruct (sown_reach _ _ _ _ _ _ CS R) as [IV [A B _ _]].
  apply (scan_le_blocks _ (x_head_offs st) (x_tail_offs st)).
  - apply IV.
  - pose proof (i_scan _ IV) as IS. rewrite Forall_forall in *. intros s Hs. split; [apply IS; auto|apply A; auto].
  - intros b Hb. specialize (B (bshape b) (in_map bshape _ _ Hb)). lia.
Qed.

Theorem scan_q_capacity cfg n tin tout ultra st :
  cfg_safe cfg -> reach cfg (init_state n tin tout ultra) st -> x_failed st = None ->
  N.of_nat (length (x_scan_q st)) <= cap_scan_q (x_total_in st) (x_num_worker st) (x_total_out st).
Proof.
  intros CS R NF. pose proof (scan_q_le_input_q _ _ _ _ _ _ CS R) as L.
  assert (K : cnt st) by (clear - R; induction R; [apply cnt_init|eapply cnt_step; eauto]).
  destruct K as [_ _ KI]. specialize (KI NF). unfold in_held, cap_scan_q in *. lia.
Qed.
