From Coq Require Import List NArith Bool Lia Arith ZifyBool ZifyN.
From LBZ Require Import Gen.Consts SchedX.XState Gen.SchedXTab SchedX.XSet SchedX.XModel SchedX.XLemmas
  SchedX.XFrame SchedX.XInvDefs SchedX.XOps SchedX.XInv SchedX.XInv2.
Import ListNotations.
Local Open Scope N_scope.

Lemma nodup_id_unique us u v : NoDup (map u_id us) -> In u us -> In v us -> u_id u = u_id v -> u = v.
Proof.
  induction us as [|a r IH]; simpl; intros H Hu Hv E; [tauto|]. inversion H; subst.
  destruct Hu as [->|Hu], Hv as [->|Hv]; auto.
  - exfalso. apply H2. rewrite E. apply in_map; auto.
  - exfalso. apply H2. rewrite <- E. apply in_map; auto.
Qed.

Lemma get_unord_some id us u : get_unord id us = Some u -> In u us /\ u_id u = id.
Proof. unfold get_unord. intro H. apply find_some in H. destruct H. split; auto. lia. Qed.

Lemma get_unord_none id us u : get_unord id us = None -> In u us -> u_id u <> id.
Proof. unfold get_unord. intros H Hu E. eapply find_none in H; eauto. simpl in H. lia. Qed.

(* a retrieve continuation leaves the running set *)
Lemma inv_del_retr j att st s1 : del_run (CRetr j att) st = Some s1 -> inv st ->
  inv s1 /\ job_ok s1 j /\
  (forall id, r_link j = Some id -> length (filter (links id) (all_jobs s1)) = 0%nat) /\
  (b2n (x_parse_token s1) + nparse s1 + masters s1 + b2n (jm (x_unords s1) j) <= 1)%nat /\
  (jm (x_unords s1) j = true -> x_head_offs s1 <= d_off (r_cur j)).
Proof.
  intros D [Ic Ip Ir Is Iu If Ij Il Ie Im Id Ib Iq].
  destruct (del_run_inv _ _ _ D) as (l1 & l2 & E & ->). unfold masters, all_jobs, nparse in *.
  rewrite E in *. rewrite !run_jobs_app, run_jobs_cons in *. simpl cjobs in *. change ([j] ++ run_jobs l2) with (j :: run_jobs l2) in *.
  rewrite !filter_len_app in Ie. simpl in Ie.
  assert (Ij' := Ij). rewrite !Forall_app in Ij'. destruct Ij' as (J1 & J2 & J3). inversion J3 as [|? ? Jj J4]; subst.
  assert (Im' := Im). rewrite !Forall_app in Im'. destruct Im' as (M1 & M2). inversion M2 as [|? ? Mj M3]; subst.
  split; [|split; [|split; [|split]]].
  - constructor; unfold all_jobs, nparse; nrm; rewrite ?run_jobs_app; auto.
    + rewrite !Forall_app. repeat split; auto; eapply Forall_impl; try eassumption; intros; eapply job_ok_ext; try eassumption; nrm; auto.
    + intro id. specialize (Il id). rewrite !filter_len_app in *. simpl in Il. destruct (links id j); simpl in Il; lia.
    + rewrite !filter_len_app. destruct (jm (x_unords st) j); simpl in Ie; lia.
    + rewrite Forall_app. auto.
    + intro P. destruct (Id P) as [A B]. split; auto. rewrite !filter_len_app in *. simpl in A. lia.
  - eapply job_ok_ext; [| |exact Jj]; nrm; auto.
  - intros id L. nrm. rewrite ?run_jobs_app. specialize (Il id). rewrite !filter_len_app in *. simpl in Il.
    assert (LJ : links id j = true) by (unfold links; rewrite L; simpl; apply N.eqb_refl). rewrite LJ in Il. simpl in Il. lia.
  - nrm. rewrite ?run_jobs_app. rewrite !filter_len_app in *. destruct (jm (x_unords st) j); simpl in *; lia.
  - nrm. exact Mj.
Qed.

Lemma inv_drop_link l s : inv s ->
  inv (set_unords (drop_link l (x_unords s)) s) /\ (masters (set_unords (drop_link l (x_unords s)) s) <= masters s)%nat.
Proof.
  intro I. apply inv_stems; auto. apply drop_link_stems. apply nodup_drop_link. apply I.
Qed.

Lemma view_give_unit s : view_eq s (give_unit s).
Proof. unfold give_unit. view_tac. Qed.

Lemma no_link_job id s j : length (filter (links id) (all_jobs s)) = 0%nat -> In j (all_jobs s) -> r_link j <> Some id.
Proof.
  intros Z Hj E. assert (In j (filter (links id) (all_jobs s))).
  { apply filter_In. split; auto. unfold links. rewrite E. simpl. apply N.eqb_refl. }
  destruct (filter (links id) (all_jobs s)); [contradiction|discriminate].
Qed.

Lemma existsb_map {A B} (p : B -> bool) (g : A -> B) l : existsb p (map g l) = existsb (fun x => p (g x)) l.
Proof. induction l; simpl; congruence. Qed.

Lemma existsb_ext' {A} (p q : A -> bool) l : (forall x, In x l -> p x = q x) -> existsb p l = existsb q l.
Proof.
  induction l as [|a r IH]; simpl; intro H; auto. rewrite (H a (or_introl eq_refl)), IH; auto.
Qed.

Lemma inv_upd_spec id f s :
  inv s -> length (filter (links id) (all_jobs s)) = 0%nat ->
  (forall u, u_id (f u) = u_id u /\ u_base (f u) = u_base u) ->
  (forall u, In u (x_unords s) -> u_id u = id -> unord_ok (f u)) ->
  inv (set_unords (upd_unord id f (x_unords s)) s) /\
  masters (set_unords (upd_unord id f (x_unords s)) s) = masters s.
Proof.
  intros [Ic Ip Ir Is Iu If Ij Il Ie Im Id Ib Iq] Z HF HU.
  assert (NL := fun j => no_link_job id s j Z). unfold masters, all_jobs, nparse in *.
  assert (JM : forall j, In j (x_retr_q s ++ run_jobs (x_running s)) -> jm (upd_unord id f (x_unords s)) j = jm (x_unords s) j).
  { intros j Hj. specialize (NL j Hj). unfold jm. destruct (r_link j) as [id2|] eqn:L; auto.
    assert (id2 <> id) by congruence. unfold upd_unord. rewrite existsb_map. apply existsb_ext'. intros u Hu.
    destruct (u_id u =? id) eqn:E; auto. destruct (HF u) as [F1 _]. rewrite F1.
    replace (u_id u =? id2) with false by lia. reflexivity. }
  assert (ME : length (filter (jm (upd_unord id f (x_unords s))) (x_retr_q s ++ run_jobs (x_running s))) =
               length (filter (jm (x_unords s)) (x_retr_q s ++ run_jobs (x_running s)))) by (apply filter_len_ext; auto).
  split.
  - constructor; unfold all_jobs, nparse; nrm; auto.
    + unfold upd_unord. apply Forall_forall. intros u Hu. apply in_map_iff in Hu. destruct Hu as (u0 & <- & H0).
      destruct (u_id u0 =? id) eqn:E; [apply HU; auto; lia|]. rewrite Forall_forall in Iu; auto.
    + unfold upd_unord. apply Forall_forall. intros u Hu. apply in_map_iff in Hu. destruct Hu as (u0 & <- & H0).
      rewrite Forall_forall in If. destruct (u_id u0 =? id); [destruct (HF u0) as [-> _]|]; auto.
    + apply Forall_forall. intros j Hj. rewrite Forall_forall in Ij. destruct (Ij j Hj) as (J1 & J2 & J3 & J4 & J5).
      unfold job_ok. nrm. split; [auto|]. split; [auto|]. split; [auto|]. split; [auto|].
      intros id2 u L Hu Hid. unfold upd_unord in Hu. apply in_map_iff in Hu. destruct Hu as (u0 & <- & H0).
      destruct (u_id u0 =? id) eqn:E; [|eapply J5; eauto].
      exfalso. destruct (HF u0) as [F1 _]. rewrite F1 in Hid. apply (NL j Hj). rewrite L. f_equal. lia.
    + rewrite ME. exact Ie.
    + apply Forall_forall. intros j Hj. rewrite JM by (apply in_or_app; auto). rewrite Forall_forall in Im. auto.
    + rewrite map_id_upd; auto. intro u. apply HF.
  - nrm. exact ME.
Qed.

Lemma inv_requeue j s :
  inv s -> job_ok s j -> x_head_offs s <= d_off (r_cur j) ->
  (forall id, r_link j = Some id -> length (filter (links id) (all_jobs s)) = 0%nat) ->
  (b2n (x_parse_token s) + nparse s + masters s + b2n (jm (x_unords s) j) <= 1)%nat ->
  inv (set_retr_q (j :: x_retr_q s) s).
Proof.
  intros [Ic Ip Ir Is Iu If Ij Il Ie Im Id Ib Iq] J H L B. unfold masters, all_jobs, nparse in *.
  constructor; unfold all_jobs, nparse; nrm; auto.
  - simpl. constructor; [eapply job_ok_ext; [| |exact J]; nrm; auto|].
    eapply Forall_impl; [|exact Ij]. intros. eapply job_ok_ext; [| |eassumption]; nrm; auto.
  - intro id. simpl. unfold links at 1. destruct (optN_eqb (r_link j) (Some id)) eqn:E; [|apply Il].
    apply optN_eqb_eq in E. simpl. rewrite (L id E). lia.
  - simpl. destruct (jm (x_unords s) j); simpl in *; lia.
Qed.

(* what is known about a retrieve job that has just been taken out of the running set *)
Definition jfacts (j : rjob) (s : xstate) : Prop :=
  inv s /\ job_ok s j /\
  (forall id, r_link j = Some id -> length (filter (links id) (all_jobs s)) = 0%nat) /\
  (b2n (x_parse_token s) + nparse s + masters s + b2n (jm (x_unords s) j) <= 1)%nat /\
  (jm (x_unords s) j = true -> x_head_offs s <= d_off (r_cur j)).

Lemma jfacts_view j a b : view_eq a b -> jfacts j a -> jfacts j b.
Proof.
  intros V (I & J & L & B & M). pose proof (inv_view _ _ V I) as I'. destruct V.
  assert (AJ : all_jobs b = all_jobs a) by (unfold all_jobs; congruence).
  unfold jfacts, masters in *. split; [exact I'|]. split; [eapply job_ok_ext; eauto|].
  split; [intros id E; rewrite AJ; auto|]. split; [rewrite AJ, v_un, v_tok, v_np; exact B|].
  rewrite v_un, v_head. exact M.
Qed.

Lemma link_state_spec l s u : link_state l s = Some u -> exists id, l = Some id /\ In u (x_unords s) /\ u_id u = id.
Proof.
  unfold link_state. destruct l as [id|]; [|discriminate]. intro H. apply get_unord_some in H. exists id. tauto.
Qed.

Lemma jm_of_link_state j s u : link_state (r_link j) s = Some u -> u_complete u = true -> u_legit u = true -> jm (x_unords s) j = true.
Proof.
  intros H C L. destruct (link_state_spec _ _ _ H) as (id & E & Hu & Hid). unfold jm. rewrite E.
  apply existsb_exists. exists u. split; auto. rewrite C, L. replace (u_id u =? id) with true by lia. reflexivity.
Qed.

Lemma jm_upd_same id f us j :
  (forall u, u_id (f u) = u_id u /\ u_complete (f u) = u_complete u /\ u_legit (f u) = u_legit u) ->
  jm (upd_unord id f us) j = jm us j.
Proof.
  intro HF. unfold jm. destruct (r_link j) as [id2|]; auto. unfold upd_unord. rewrite existsb_map.
  apply existsb_ext'. intros u _. destruct (u_id u =? id); auto. destruct (HF u) as (-> & -> & ->). reflexivity.
Qed.

Lemma inv_set_token s : inv s -> masters s = 0%nat -> nparse s = 0%nat -> inv (set_parse_token true s).
Proof.
  intros [Ic Ip Ir Is Iu If Ij Il Ie Im Id Ib Iq] M0 N0. unfold masters, all_jobs, nparse in *.
  constructor; unfold all_jobs, nparse; nrm; auto.
  all: try (simpl; lia).
  all: try (intros; split; auto; apply Id; auto).
Qed.

Lemma retr1_master cfg j rv cur s2 :
  c_requeue_retr_checks_head cfg = true -> jfacts j s2 -> jm (x_unords s2) j = true -> x_parsing_done s2 = false ->
  d_bit (r_cur j) <= d_bit cur -> d_off (r_cur j) <= d_off cur -> (rv = MORE -> dbs_norm cur = true) ->
  inv (retr1_tail cfg j rv cur (fin_master (r_link j)) (advance cfg cur s2)).
Proof.
  intros CR (I2 & J2 & L2 & B2 & M2) JM PD Hbit Hoff Hn. rewrite JM in B2. simpl in B2.
  assert (M0 : masters s2 = 0%nat) by lia. assert (N0 : nparse s2 = 0%nat) by lia.
  assert (T0 : x_parse_token s2 = false) by (destruct (x_parse_token s2); simpl in B2; auto; lia).
  specialize (M2 JM).
  destruct (inv_advance cfg cur s2 I2 M0 ltac:(lia)) as (I3 & M3 & H3a & H3b & ST & RP).
  assert (NU : x_next_uid (advance cfg cur s2) = x_next_uid s2) by (rewrite advance_eq; reflexivity).
  assert (RU : x_running (advance cfg cur s2) = x_running s2) by (rewrite advance_eq; reflexivity).
  assert (TK : x_parse_token (advance cfg cur s2) = false) by (rewrite advance_eq; exact T0).
  set (st := advance cfg cur s2) in *. clearbody st.
  assert (NP : nparse st = 0%nat) by (unfold nparse in *; rewrite RU; auto).
  unfold retr1_tail. destruct (rv =? MORE) eqn:RV.
  - rewrite CR. replace (d_off cur <? x_head_offs st) with false by (clear - H3b; lia). cbn [andb].
    apply N.eqb_eq in RV. specialize (Hn RV).
    apply inv_requeue; auto.
    + destruct J2 as (J1 & J2' & J3 & J4 & J5). unfold job_ok; simpl. rewrite NU.
      split; [exact (N.le_trans _ _ _ J1 Hbit)|]. split; [auto|]. split; [auto|]. split; [auto|].
      intros id u E Hu Hid. destruct (ST u Hu) as (u0 & H0 & (S1 & S2 & S3 & S4 & S5 & S6)).
      destruct (J5 id u0 E H0 ltac:(congruence)) as [B1 _]. split; [congruence|].
      intro C. exfalso.
      (* the job is master-like: the only unord block with this identity is complete *)
      unfold jm in JM. rewrite E in JM. apply existsb_exists in JM. destruct JM as (u1 & H1 & E1). bool_hyps.
      match goal with K : (u_id u1 =? id) = true |- _ => apply N.eqb_eq in K; rename K into K1 end.
      assert (u1 = u0) by (apply (nodup_id_unique (x_unords s2)); [apply I2|exact H1|exact H0|congruence]). subst u1.
      match goal with K : u_complete u0 = true |- _ => specialize (S6 K) end. congruence.
    + simpl. intros id E. specialize (L2 id E). apply filter_len_zero in L2. apply filter_len_zero.
      unfold all_jobs in *. rewrite RU. apply Forall_app in L2. destruct L2 as [A B]. apply Forall_app. split; auto.
    + rewrite TK, NP, M3. simpl. destruct (jm (x_unords st) _); simpl; clear; lia.
  - eapply inv_view; [apply view_add_run; auto|].
    pose proof (inv_set_token st I3 M3 NP) as I4. unfold fin_master.
    destruct (r_link j) as [id|]; auto.
    apply inv_stems; auto.
    + unfold del_unord. intros u Hu. apply filter_In in Hu. exists u. split; [tauto|apply stems_refl].
    + unfold del_unord. apply nodup_map_filter. apply I4.
Qed.

Lemma retr1_spec cfg j id rv cur s2 :
  c_requeue_retr_checks_head cfg = true -> jfacts j s2 -> r_link j = Some id ->
  dbs_ok cur = true -> d_bit (r_cur j) <= d_bit cur -> (rv = MORE -> dbs_norm cur = true) ->
  inv (retr1_tail cfg j rv cur (fin_spec id cur) (set_unords (upd_unord id (u_set_end cur) (x_unords s2)) s2)).
Proof.
  intros CR (I2 & J2 & L2 & B2 & M2) EL Hok Hbit Hn.
  pose proof (L2 id EL) as Z2. destruct J2 as (J1 & J2' & J3 & J4 & J5).
  assert (UO : forall u, In u (x_unords s2) -> u_id u = id -> unord_ok u /\ u_base u = r_base j).
  { intros u Hu Hid. split; [destruct I2 as [_ _ _ _ Iu _ _ _ _ _ _ _ _]; rewrite Forall_forall in Iu; auto|].
    apply (J5 id u EL Hu Hid). }
  destruct (inv_upd_spec id (u_set_end cur) s2 I2 Z2) as (I3 & M3).
  { intro u. split; reflexivity. }
  { intros u Hu Hid. destruct (UO u Hu Hid) as ((O1 & O2 & O3) & B). unfold unord_ok, u_set_end; simpl.
    split; [intro Q; destruct (O1 Q) as (_ & _ & L); repeat split; auto; rewrite B; exact (N.le_trans _ _ _ J1 Hbit)|split; auto]. }
  set (st := set_unords (upd_unord id (u_set_end cur) (x_unords s2)) s2) in *.
  assert (Z3 : length (filter (links id) (all_jobs st)) = 0%nat) by exact Z2.
  assert (JMe : jm (x_unords st) j = jm (x_unords s2) j) by (apply jm_upd_same; intro u; repeat split; reflexivity).
  assert (NU : x_next_uid st = x_next_uid s2) by reflexivity.
  assert (TK : x_parse_token st = x_parse_token s2) by reflexivity.
  assert (NP : nparse st = nparse s2) by reflexivity.
  assert (US : x_unords st = upd_unord id (u_set_end cur) (x_unords s2)) by reflexivity.
  clearbody st.
  unfold retr1_tail, drop_if. destruct (rv =? MORE) eqn:RV.
  - rewrite CR. cbn [andb]. destruct (d_off cur <? x_head_offs st) eqn:SL.
    + eapply inv_view; [apply view_give_unit|].
      destruct (c_stale_drops_link cfg); auto. exact (proj1 (inv_drop_link (r_link j) st I3)).
    + apply N.eqb_eq in RV. specialize (Hn RV).
      apply inv_requeue; auto.
      * unfold job_ok; simpl. rewrite NU. split; [exact (N.le_trans _ _ _ J1 Hbit)|]. split; [auto|]. split; [auto|]. split; [auto|].
        intros id2 u E Hu Hid. rewrite EL in E. inversion E; subst id2. rewrite US in Hu.
        unfold upd_unord in Hu. apply in_map_iff in Hu. destruct Hu as (u0 & <- & Hin0).
        destruct (u_id u0 =? id) eqn:K.
        -- apply N.eqb_eq in K. simpl. split; [apply UO; auto|auto].
        -- exfalso. apply N.eqb_neq in K. congruence.
      * simpl. clear - SL. lia.
      * simpl. intros id2 E. rewrite EL in E. inversion E; subst id2. exact Z3.
      * simpl. change (jm (x_unords st) (mkrjob (r_base j) cur (r_link j))) with (jm (x_unords st) j).
        rewrite JMe, TK, NP, M3. exact B2.
  - eapply inv_view; [apply view_add_run; auto|].
    apply (inv_upd_spec id (fun u => u_set_complete (u_set_end cur u)) st I3 Z3).
    + intro u. split; reflexivity.
    + intros u Hu Hid. rewrite US in Hu. unfold upd_unord in Hu. apply in_map_iff in Hu. destruct Hu as (u0 & <- & Hin0).
      assert (K : u_id u0 = id) by (destruct (u_id u0 =? id); simpl in Hid; auto).
      destruct (UO u0 Hin0 K) as ((O1 & O2 & O3) & B). rewrite (proj2 (N.eqb_eq _ _) K).
      unfold unord_ok, u_set_complete, u_set_end; simpl.
      split; [intro Q; destruct (O1 Q) as (_ & _ & L); repeat split; auto; rewrite B; exact (N.le_trans _ _ _ J1 Hbit)|split; auto].
Qed.

Lemma inv_retr1 cfg j att rv cur st st' : cfg_safe cfg -> inv st -> retr1 cfg j att rv cur st = Some st' -> inv st'.
Proof.
  intros (_ & _ & CR) I H. apply retr1_inv in H. destruct H as (l1 & l2 & _ & D & Hok & Hbit & Hoff & _ & _ & Hn & H).
  assert (F2 : jfacts j (detach att (set_running (l1 ++ l2) st)))
    by (eapply jfacts_view; [apply view_detach|apply (inv_del_retr _ _ _ _ D I)]).
  set (s2 := detach _ _) in *. clearbody s2. clear I D.
  assert (Hn' : rv = MORE -> dbs_norm cur = true) by (intro E; apply Hn, E).
  destruct H as [PD ->|u PD LS UC UL ->|PD M ->|id PD EL SP ->].
  - eapply inv_view; [apply view_give_unit|]. unfold drop_if. destruct (c_retr_done_drops_link cfg); [|apply F2].
    exact (proj1 (inv_drop_link (r_link j) s2 (proj1 F2))).
  - eapply inv_view; [apply view_give_unit|]. unfold drop_if. destruct (c_retr_abort_drops_link cfg); [|apply F2].
    exact (proj1 (inv_drop_link (r_link j) s2 (proj1 F2))).
  - apply retr1_master; auto. destruct M as [EL|(u & LS & UC & UL)]; [unfold jm; rewrite EL; reflexivity|].
    eapply jm_of_link_state; eauto.
  - apply retr1_spec; auto.
Qed.
