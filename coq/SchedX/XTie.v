(* Tie-breaking in the priority queues.

   The real pqueue (binary heap, process.h/process.c) returns SOME minimal element when keys are
   equal (Properties_C11pool.v: C11_pqueue_refines_sorted, C11_pqueue_ties_not_fifo), the model's
   [qmin] the first minimal element in list order.  That is faithful if the keys of a queue are
   pairwise distinct or if the continuation does not depend on which of the tied elements is taken.

   scan_q   keys (bit positions) are pairwise distinct: one scan job per input block [sown], blocks
            are disjoint, streams are normalised                                   (here: scan_keys_distinct)
   unord_q, emit_q, reord_q
            keys are pairwise distinct along runs whose scanner labels are fresh    (XLive.v)
   retr_q   keys are the CURRENT positions of the jobs and CAN tie in the program: two retrieve jobs
            (e.g. the master and a spurious candidate inside its block) that both ran to the end of the
            same input block with the same number of buffered bits.  The model is tie-insensitive there:
            - do_retrieve: [retr0] takes a label-chosen minimal element ([take_min]);
            - can_retrieve: tied jobs have the same word offset, so the guard does not depend on
              which of them peek() returns                                            (can_retrieve_tie)
            - advance(): the loop "while peek(retr_q) lies below head_offs: dequeue" removes exactly
              the jobs below head_offs, whatever minimal element each peek returns      (adv_retr_any_tiebreak) *)
From Coq Require Import List NArith Bool Lia Arith ZifyBool ZifyN ZifyNat Permutation.
From LBZ Require Import Gen.Consts SchedX.XState Gen.SchedXTab SchedX.XSet SchedX.XModel SchedX.XLemmas
  SchedX.XFrame SchedX.XInvDefs SchedX.XOps SchedX.XInv SchedX.XInv2 SchedX.XCount SchedX.XScanOwn.
Import ListNotations.
Local Open Scope N_scope.

Lemma filter_len_cons_le {A} (p : A -> bool) a l : (length (filter p l) <= length (filter p (a :: l)))%nat.
Proof. simpl. destruct (p a); simpl; lia. Qed.

Lemma scan_nodup_aux (IS : list (N * N)) (l : list dbs) :
  (forall r, In r IS -> (length (filter (in_rng r) l) <= 1)%nat) ->
  Forall (fun s => dbs_norm s = true /\ exists r, In r IS /\ in_rng r s = true) l ->
  NoDup (map d_bit l).
Proof.
  induction l as [|a l IH]; intros ONE F; simpl; [constructor|].
  inversion F as [|? ? [Na (r & Hr & Ra)] F']; subst. constructor.
  - intro Hin. apply in_map_iff in Hin. destruct Hin as (s & Es & Hs).
    rewrite Forall_forall in F'. destruct (F' s Hs) as [Ns _].
    pose proof (norm_same_bit s a Ns Na Es) as EO.
    assert (Rs : in_rng r s = true) by (unfold in_rng in *; rewrite EO; exact Ra).
    specialize (ONE r Hr). simpl in ONE. rewrite Ra in ONE. simpl in ONE.
    assert (In s (filter (in_rng r) l)) by (apply filter_In; auto).
    destruct (filter (in_rng r) l); [contradiction|simpl in ONE; lia].
  - apply IH; auto. intros r0 H0. specialize (ONE r0 H0). pose proof (filter_len_cons_le (in_rng r0) a l). lia.
Qed.

Theorem scan_keys_distinct st : inv st -> sown st -> NoDup (map d_bit (x_scan_q st)).
Proof.
  intros I [SL ONE _ _]. apply (scan_nodup_aux (map bshape (x_input_q st))).
  - intros r Hr. specialize (ONE r Hr). lia.
  - pose proof (i_scan _ I) as IS. rewrite Forall_forall in *. intros s Hs. destruct (IS s Hs) as [HD NM]. split; auto.
    specialize (SL s Hs). simpl in SL.
    destruct (find_blk_contig (d_off s) _ _ _ (i_contig _ I) HD SL) as [b FB].
    destruct (find_blk_spec _ _ _ _ (i_contig _ I) HD b FB) as (Hb & L1 & L2).
    exists (bshape b). split; [apply in_map; exact Hb|]. unfold in_rng, bshape, ib_end in *. simpl. lia.
Qed.

(* keys of scan_q as positions *)
Corollary scan_pos_distinct st : inv st -> sown st -> NoDup (map d_pos (x_scan_q st)).
Proof.
  intros I S. pose proof (scan_keys_distinct st I S) as ND.
  assert (E : map d_bit (x_scan_q st) = map fst (map d_pos (x_scan_q st))) by (rewrite map_map; reflexivity).
  rewrite E in ND. eapply NoDup_map_inv; eauto.
Qed.

(* retr_q: tied jobs stand at the same word offset *)
Lemma retr_ties_same_off st x y :
  inv st -> In x (x_retr_q st) -> In y (x_retr_q st) -> rkey x = rkey y -> d_off (r_cur x) = d_off (r_cur y).
Proof.
  intros I Hx Hy E. pose proof (i_jobs _ I) as IJ. rewrite Forall_forall in IJ.
  assert (Nx : dbs_norm (r_cur x) = true) by (apply (IJ x); unfold all_jobs; apply in_or_app; auto).
  assert (Ny : dbs_norm (r_cur y) = true) by (apply (IJ y); unfold all_jobs; apply in_or_app; auto).
  apply norm_same_bit; auto. unfold rkey, d_pos in E. congruence.
Qed.

(* the guard can_retrieve() evaluates the same whichever minimal element peek() returns *)
Theorem can_retrieve_tie st x :
  inv st -> In x (x_retr_q st) -> is_minimal rkey pos_lt x (x_retr_q st) = true ->
  can_attach st (r_cur x) = can_attach st (r_cur (peek_retr pos_lt st)).
Proof.
  intros I Hx M. unfold peek_retr. destruct (qmin rkey pos_lt (x_retr_q st)) as [m|] eqn:Q.
  - pose proof (qmin_In _ _ _ Q) as Hm. pose proof (qmin_min _ _ _ _ Q Hx) as M1.
    rewrite is_minimal_spec in M. pose proof (M m Hm) as M2.
    assert (E : rkey x = rkey m) by (apply pos_lt_total; auto).
    unfold can_attach. rewrite (retr_ties_same_off st x m I Hx Hm E). reflexivity.
  - apply qmin_none in Q. rewrite Q in Hx. destruct Hx.
Qed.

(* advance(): the release loops under ANY tie-breaking rule *)
Section AnyTieBreak.
  (* peek/dequeue of some priority queue implementation: returns a minimal element *)
  Variable pick : list rjob -> option rjob.
  Hypothesis pick_min : forall q j, pick q = Some j -> In j q /\ forall y, In y q -> pos_lt (rkey y) (rkey j) = false.
  Hypothesis pick_some : forall q, q <> [] -> exists j, pick q = Some j.

  Fixpoint adv_retr_g (fuel : nat) (hd : N) (q : list rjob) : list rjob * list rjob :=
    match fuel with
    | O => ([], q)
    | S f =>
      match pick q with
      | Some j =>
        if d_off (r_cur j) <? hd then
          match remove_one rjob_eqb j q with
          | Some q' => let (d, k) := adv_retr_g f hd q' in (j :: d, k)
          | None => ([], q)
          end
        else ([], q)
      | None => ([], q)
      end
    end.

  Definition below (hd : N) (j : rjob) : bool := d_off (r_cur j) <? hd.

  Lemma adv_retr_g_release fuel hd q : adv_retr_g fuel hd q = release r_cur rjob_eqb pick fuel hd q.
  Proof.
    revert q. induction fuel as [|f IH]; intro q; [reflexivity|]. cbn [adv_retr_g release].
    destruct (pick q) as [j|]; [|reflexivity]. destruct (d_off (r_cur j) <? hd); [|reflexivity].
    destruct (remove_one rjob_eqb j q) as [q'|]; [|reflexivity]. rewrite IH. reflexivity.
  Qed.

  Theorem adv_retr_g_spec fuel hd q :
    (length q <= fuel)%nat -> Forall (fun j => dbs_norm (r_cur j) = true) q ->
    snd (adv_retr_g fuel hd q) = filter (fun j => negb (below hd j)) q /\
    Permutation (fst (adv_retr_g fuel hd q)) (filter (below hd) q).
  Proof. rewrite adv_retr_g_release. apply (release_spec r_cur rjob_eqb pick rjob_eqb_eq rjob_eqb_refl pick_min pick_some). Qed.
End AnyTieBreak.

(* the model's loop is the instance "first minimal element in list order" *)
Lemma adv_retr_is_g fuel hd q : adv_retr fuel hd q = adv_retr_g (qmin rkey pos_lt) fuel hd q.
Proof. rewrite adv_retr_g_release. apply adv_retr_release. Qed.

(* advance() keeps exactly the jobs at or above head_offs and drops exactly those below it: for the
   model's tie-breaking and for that of any other priority queue *)
Theorem adv_retr_any_tiebreak pick hd q :
  (forall q j, pick q = Some j -> In j q /\ forall y, In y q -> pos_lt (rkey y) (rkey j) = false) ->
  (forall q, q <> [] -> exists j, pick q = Some j) ->
  Forall (fun j => dbs_norm (r_cur j) = true) q ->
  snd (adv_retr_g pick (length q) hd q) = snd (adv_retr (length q) hd q) /\
  Permutation (fst (adv_retr_g pick (length q) hd q)) (fst (adv_retr (length q) hd q)).
Proof.
  intros PM PS NM.
  destruct (adv_retr_g_spec pick PM PS (length q) hd q (le_n _) NM) as [A1 A2].
  rewrite adv_retr_is_g.
  destruct (adv_retr_g_spec (qmin rkey pos_lt) (qmin_least rkey) (fun q => qmin_some rkey q) (length q) hd q (le_n _) NM) as [B1 B2].
  split; [congruence|]. eapply Permutation_trans; [exact A2|apply Permutation_sym; exact B2].
Qed.

Corollary adv_retr_exact st hd :
  inv st ->
  snd (adv_retr (length (x_retr_q st)) hd (x_retr_q st)) = filter (fun j => negb (below hd j)) (x_retr_q st) /\
  Permutation (fst (adv_retr (length (x_retr_q st)) hd (x_retr_q st))) (filter (below hd) (x_retr_q st)).
Proof.
  intro I. rewrite adv_retr_is_g. apply adv_retr_g_spec.
  - exact (qmin_least rkey).
  - intro q. apply qmin_some.
  - apply le_n.
  - apply inv_retr_norm, I.
Qed.
