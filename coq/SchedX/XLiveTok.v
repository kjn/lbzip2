(* Liveness of the decompression scheduler, group G2: [ltk] (XLiveDefs.v) is an inductive
   invariant.  While the parser has not finished exactly one of {parse token, running parser,
   master retrieve job} exists ([inv] gives "at most one", here "at least one"), a queued
   master stands at the parser's position, request_close = parsing_done and no retrieve
   job is queued once parsing is done. *)
From Coq Require Import List NArith Bool Lia Arith ZifyBool ZifyN ZifyNat Sorted.
From LBZ Require Import Gen.Consts SchedX.XState Gen.SchedXTab SchedX.XSet SchedX.XModel SchedX.XLemmas
  SchedX.XFrame SchedX.XStep SchedX.XInvDefs SchedX.XOps SchedX.XInv SchedX.XInv2 SchedX.XInv3 SchedX.XInv4 SchedX.XOracle
  SchedX.XSeq SchedX.XCount SchedX.XOwn SchedX.XOwnAdv SchedX.XOwnRetr SchedX.XOwnProofs SchedX.XLiveDefs.
Import ListNotations.
Local Open Scope N_scope.

Definition hasm (s : xstate) : Prop := exists j, In j (all_jobs s) /\ jm (x_unords s) j = true.
Definition tokp (s : xstate) : Prop := x_parse_token s = true \/ (1 <= nparse s)%nat \/ hasm s.
Definition mpq (s : xstate) : Prop :=
  forall j, In j (x_retr_q s) -> jm (x_unords s) j = true -> r_cur j = x_parser_bs s.

Lemma masters_pos s : (1 <= masters s)%nat <-> hasm s.
Proof.
  unfold masters, hasm. split.
  - intro P. destruct (filter (jm (x_unords s)) (all_jobs s)) as [|j r] eqn:F; [simpl in P; lia|].
    assert (Hf : In j (filter (jm (x_unords s)) (all_jobs s))) by (rewrite F; left; auto).
    apply filter_In in Hf. exists j. exact Hf.
  - intros (j & J1 & J2). assert (Hf : In j (filter (jm (x_unords s)) (all_jobs s))) by (apply filter_In; auto).
    destruct (filter (jm (x_unords s)) (all_jobs s)); [destruct Hf|simpl; lia].
Qed.

Lemma ex_tokp s : (1 <= b2n (x_parse_token s) + nparse s + masters s)%nat <-> tokp s.
Proof.
  unfold tokp. rewrite <- masters_pos. destruct (x_parse_token s); simpl.
  - split; [left; reflexivity|lia].
  - split; [lia|intros [H|[H|H]]; [discriminate|lia|lia]].
Qed.

Lemma ltk_mk s :
  x_closed s = x_parsing_done s -> (x_parsing_done s = true -> x_retr_q s = []) ->
  (x_parsing_done s = false -> tokp s) -> (x_parsing_done s = false -> mpq s) -> ltk s.
Proof.
  intros A B C D. constructor; auto.
  intro PD. apply (ex_tokp s). auto.
Qed.

Lemma ltk_tokp s : ltk s -> x_parsing_done s = false -> tokp s.
Proof. intros L PD. apply ex_tokp. apply (lt_ex _ L PD). Qed.

Lemma ltk_mpq s : ltk s -> x_parsing_done s = false -> mpq s.
Proof. intros L PD. exact (lt_mp _ L PD). Qed.

(* with the token free, or a parser running, no job is a master *)
Lemma inv_no_master s : inv s -> x_parse_token s = true \/ (1 <= nparse s)%nat -> masters s = 0%nat.
Proof.
  intros I H. pose proof (i_excl _ I) as E. fold (masters s) in E.
  destruct H as [H|H]; [rewrite H in E; simpl in E; lia|lia].
Qed.

Lemma mpq_no_master s : masters s = 0%nat -> mpq s.
Proof.
  intros M j Hj J. exfalso. rewrite (no_masters_jm s j M) in J; [discriminate|].
  unfold all_jobs. apply in_or_app. auto.
Qed.

Lemma ltk_eq st st' : ltk st ->
  x_closed st' = x_closed st -> x_parsing_done st' = x_parsing_done st -> x_retr_q st' = x_retr_q st ->
  x_parse_token st' = x_parse_token st -> x_unords st' = x_unords st -> x_parser_bs st' = x_parser_bs st ->
  nparse st' = nparse st -> run_jobs (x_running st') = run_jobs (x_running st) -> ltk st'.
Proof.
  intros [A B C D] EC v_done v_retr v_tok v_un v_pbs v_np v_rj.
  assert (AJ : all_jobs st' = all_jobs st) by (unfold all_jobs; congruence).
  constructor; unfold masters; rewrite ?AJ, ?EC, ?v_done, ?v_retr, ?v_tok, ?v_np, ?v_un, ?v_pbs; auto.
Qed.

Lemma ltk_del c st l1 l2 :
  cjobs c = [] -> is_parse c = false -> x_running st = l1 ++ c :: l2 -> ltk st -> ltk (set_running (l1 ++ l2) st).
Proof.
  intros CJ CP E L. apply (ltk_eq st _ L); try reflexivity.
  - unfold nparse. xs. rewrite E, !filter_len_app. simpl. rewrite CP. reflexivity.
  - xs. rewrite E, !run_jobs_app, run_jobs_cons, CJ. reflexivity.
Qed.

Lemma ltk_detach att s : ltk s -> ltk (detach att s).
Proof. intro L. rewrite detach_nf. apply (ltk_eq _ _ L); reflexivity. Qed.

Lemma ltk_parse0 st st' : ltk st -> parse0 st = Some st' -> ltk st'.
Proof.
  intros [A1 B1 C1 D1] H. destruct (parse0_inv _ _ H) as [_ ->]. cbv zeta. rewrite attach_nf. apply ltk_mk.
  - exact A1.
  - exact B1.
  - intros _. right. left. unfold add_run. rewrite nparse_cons. simpl. lia.
  - exact D1.
Qed.

Lemma ltk_retr0 j st st' : ltk st -> retr0 j st = Some st' -> ltk st'.
Proof.
  intros L H. destruct (retr0_inv _ _ _ H) as (_ & q & TM & ->). cbv zeta. rewrite attach_nf.
  destruct (take_min_split _ _ _ _ _ rjob_eqb_eq TM) as (l1 & l2 & EQ & ->).
  apply ltk_mk.
  - apply L.
  - intro PD. exfalso. rewrite (lt_r0 _ L PD) in EQ. destruct l1; discriminate.
  - intro PD. destruct (ltk_tokp st L PD) as [T|[N|(x & X1 & X2)]].
    + left. exact T.
    + right. left. unfold add_run. rewrite nparse_cons. exact N.
    + right. right. exists x. split; [|exact X2].
      unfold all_jobs, add_run in *. xs. rewrite run_jobs_cons. simpl cjobs.
      rewrite EQ in X1. apply In_app_mid. exact X1.
  - intros PD x Hx J. apply (lt_mp _ L PD); auto. rewrite EQ. change (In x (l1 ++ l2)) in Hx. rewrite in_app_iff in *. simpl. tauto.
Qed.

Lemma ltk_scan1 cfg s att found s' more st st' :
  inv st -> ltk st -> scan1 cfg s att found s' more st = Some st' -> ltk st'.
Proof.
  intros I L H. destruct (scan1_inv _ _ _ _ _ _ _ _ H) as (l1 & l2 & E & D & H'). cbv zeta in H'.
  assert (I2 : inv (detach att (set_running (l1 ++ l2) st)))
    by (eapply inv_view; [apply view_detach|]; eapply inv_view; [eapply view_del_run; eauto|exact I]).
  pose proof (ltk_detach att _ (ltk_del (CScan s att) _ _ _ eq_refl eq_refl E L)) as L2.
  clear I L D E. generalize dependent (detach att (set_running (l1 ++ l2) st)). intro s2. intros.
  destruct H' as [[_ ->]|(_ & PD & _ & _ & _ & _ & ->)]; [apply (ltk_eq _ _ L2); reflexivity|].
  assert (L3 : ltk (scan1_cand cfg s' s2)).
  { unfold scan1_cand. destruct (_ || _); [|destruct (_ && _)]; [apply (ltk_eq _ _ L2); reflexivity..|].
    unfold new_cand. set (un := mkunord (x_next_uid s2) (d_pos s') s' false false true).
    set (jn := mkrjob (d_pos s') s' (Some (x_next_uid s2))).
    assert (NJ : jm (x_unords s2 ++ [un]) jn = false).
    { unfold jm. simpl. rewrite existsb_app. simpl. rewrite andb_false_r. simpl. rewrite orb_false_r.
      apply not_true_iff_false. intro X. apply existsb_exists in X. destruct X as (u & Hu & X). bool_hyps.
      pose proof (i_ufresh _ I2) as If. rewrite Forall_forall in If. apply If in Hu.
      match goal with K : (u_id u =? x_next_uid s2) = true |- _ => apply N.eqb_eq in K; rewrite K in Hu end. exact (N.lt_irrefl _ Hu). }
    assert (JO : forall x, jm (x_unords s2 ++ [un]) x = jm (x_unords s2) x) by (intro x; apply jm_app_new; reflexivity).
    apply ltk_mk.
    + apply L2.
    + xs. intro X. congruence.
    + intros _. destruct (ltk_tokp s2 L2 PD) as [T|[N|(x & X1 & X2)]].
      * left. exact T.
      * right. left. exact N.
      * right. right. exists x. unfold all_jobs in *. xs. split; [right; exact X1|]. rewrite JO. exact X2.
    + intros _ x. xs. intros [<-|Hx] J; [congruence|].
      rewrite JO in J. apply (lt_mp _ L2 PD); auto. }
  unfold scan1_requeue. destruct (more && _); [apply (ltk_eq _ _ L3); reflexivity|exact L3].
Qed.

Definition ulinked (s : xstate) : Prop :=
  forall u, In u (x_unords s) -> u_complete u = false -> exists j, In j (all_jobs s) /\ r_link j = Some (u_id u).

(* parse_ok(): no candidate at the parser's position, a master job is created *)
Lemma ltk_new_master p s2 : masters s2 = 0%nat -> x_parsing_done s2 = false -> x_closed s2 = false ->
  ltk (set_retr_q (mkrjob p (x_parser_bs s2) None :: x_retr_q s2) s2).
Proof.
  intros M PD CL. apply ltk_mk; xs.
  - congruence.
  - intro X. congruence.
  - intros _. right. right. exists (mkrjob p (x_parser_bs s2) None). unfold all_jobs. xs. split; [left; reflexivity|reflexivity].
  - intros _. unfold mpq. xs. intros j [<-|Hj] J; [reflexivity|].
    exfalso. rewrite (no_masters_jm s2 j M) in J; [discriminate|]. unfold all_jobs. apply in_or_app. auto.
Qed.

(* parse_ok(): the candidate [u] is adopted and the parser jumps to its end *)
Lemma ltk_adopt cfg u s2 :
  c_advance_drops_link cfg = true -> inv s2 -> masters s2 = 0%nat -> x_parsing_done s2 = false -> x_closed s2 = false ->
  ulinked s2 -> In u (x_unords s2) -> x_head_offs s2 <= d_off (u_end u) ->
  let s3 := advance cfg (u_end u) s2 in
  let st' := give_unit (if u_complete u then set_parse_token true (set_unords (del_unord (u_id u) (x_unords s3)) s3)
                        else set_unords (upd_unord (u_id u) (u_detach true) (x_unords s3)) s3) in
  inv st' -> ltk st'.
Proof.
  intros CA I2 M2 PD2 CL2 UL2 Hu HD. cbv zeta.
  destruct (inv_advance cfg (u_end u) s2 I2 M2 HD) as (_ & M3 & _).
  pose proof (fun j => advance_jobs_sub cfg (u_end u) s2 j I2 M2 HD) as AJ3.
  pose proof (advance_pbs cfg (u_end u) s2) as PB3.
  rewrite <- (x_parsing_done_advance cfg (u_end u)) in PD2. rewrite <- (x_closed_advance cfg (u_end u)) in CL2.
  destruct (u_complete u) eqn:UC.
  - (* the candidate has been retrieved already: the token is free again *)
    clear M3 AJ3 PB3. generalize dependent (advance cfg (u_end u) s2). intros s3 PD3 CL3 IR. apply ltk_mk.
    + unfold give_unit; xs. congruence.
    + unfold give_unit; xs. intro X. congruence.
    + intros _. left. reflexivity.
    + intros _. apply mpq_no_master. apply inv_no_master; [exact IR|]. left. reflexivity.
  - (* the candidate is still being retrieved: its job becomes the master *)
    intros _. destruct (UL2 u Hu UC) as (jm0 & JA & JL).
    assert (JC : forall j, In j (all_jobs s2) -> r_link j = Some (u_id u) -> u_end u = r_cur j)
      by (intros j Hj L; exact (proj2 (link_job s2 u j I2 Hu Hj L) UC)).
    assert (KEEP : In jm0 (all_jobs (advance cfg (u_end u) s2))).
    { apply advance_keeps_job; auto. rewrite (JC jm0 JA JL). apply N.le_refl. }
    assert (UIN : In u (x_unords (advance cfg (u_end u) s2))).
    { apply advance_keeps_unord; auto. intros j Hj L. rewrite (JC j (in_or_app _ _ _ (or_introl Hj)) L). apply N.le_refl. }
    generalize dependent (advance cfg (u_end u) s2). intros s3 PD3 CL3 M3 AJ3 PB3 KEEP UIN. apply ltk_mk.
    + unfold give_unit; xs. congruence.
    + unfold give_unit; xs. intro X. congruence.
    + intros _. right. right. exists jm0. unfold give_unit, all_jobs in *; xs. split; [exact KEEP|].
      unfold jm. rewrite JL. apply existsb_exists. exists (u_detach true u). split.
      * pose proof (in_upd_unord (u_id u) (u_detach true) _ _ UIN) as X. rewrite N.eqb_refl in X. exact X.
      * simpl. rewrite N.eqb_refl. reflexivity.
    + intros _. unfold mpq, give_unit; xs. intros j Hj J.
      assert (Hj' : In j (all_jobs s3)) by (unfold all_jobs; apply in_or_app; auto).
      destruct (jm_detach _ _ _ J) as [J1|J1].
      * exfalso. rewrite (no_masters_jm s3 j M3 Hj') in J1. discriminate.
      * unfold links in J1. apply optN_eqb_eq in J1. rewrite PB3. symmetry. exact (JC j (AJ3 j Hj') J1).
Qed.

Lemma ltk_parse_ok cfg lv crc s :
  c_advance_drops_link cfg = true ->
  inv s -> masters s = 0%nat -> x_parsing_done s = false -> x_closed s = false ->
  dbs_norm (x_parser_bs s) = true -> ulinked s -> inv (parse_ok cfg lv crc s) ->
  ltk (parse_ok cfg lv crc s).
Proof.
  intros CA I M0 PD CL NB UL IR. destruct (parse_ok_split cfg lv crc s I M0 PD NB) as (I2 & M2 & PC).
  set (s2 := set_unords _ _) in *.
  assert (UL2 : ulinked s2).
  { intros u Hu Cu. destruct (discard_below_spec2 _ _ _ Hu) as (u0 & H0 & [->|(_ & _ & ->)]); [exact (UL u0 H0 Cu)|discriminate Cu]. }
  destruct PC as [E|(u & Hu & _ & _ & _ & _ & HD & E)]; rewrite E in IR |- *.
  - exact (ltk_new_master _ s2 M2 PD CL).
  - exact (ltk_adopt cfg u s2 CA I2 M2 PD CL UL2 Hu HD IR).
Qed.

Lemma ulinked_advance cfg bs s :
  c_advance_drops_link cfg = true -> ulinked s -> ulinked (advance cfg bs s).
Proof.
  intros CA UL u Hu Cu.
  destruct (adv_fields cfg bs s) as [EH EU]. cbv zeta in EH, EU. rewrite CA in EU.
  pose proof (adv_retr_q cfg bs s) as ER.
  rewrite EU in Hu. destruct (drop_links_complete _ _ _ Hu Cu) as [H0 N0].
  destruct (UL u H0 Cu) as (j & J1 & J2). exists j. split; auto.
  unfold all_jobs in *. rewrite x_running_advance, ER. apply in_app_or in J1. apply in_or_app. destruct J1 as [J1|J1]; auto. left.
  destruct (adv_retr_part (length (x_retr_q s)) (x_head_offs (adv_input (d_off bs) (set_parser_bs bs s))) (x_retr_q s) j J1) as [P|P]; auto.
  exfalso. apply (N0 j P). exact J2.
Qed.

Lemma ltk_parse1 cfg att r st st' :
  cfg_drops cfg -> inv st -> own st -> x_failed st' = None -> ltk st -> parse1 cfg att r st = Some st' -> ltk st'.
Proof.
  intros (_ & _ & _ & CA & CF) I OW NF' L H.
  pose proof (inv_parse1 _ _ _ _ _ I H) as IR.
  destruct (parse1_inv _ _ _ _ _ H) as (l1 & l2 & E & D & G). cbv zeta in G. destruct G as (_ & _ & LO & _ & G).
  destruct (inv_del_parse _ _ _ D I) as (I1 & M1 & N1 & T1 & PD1). xs in PD1.
  assert (UL1 : ulinked (set_running (l1 ++ l2) st)).
  { unfold ulinked, all_jobs. xs. intros u Hu Cu. destruct (o_u1 _ _ _ (proj1 OW) u Hu Cu) as (j & J1 & J2).
    exists j. split; auto. unfold all_jobs in J1. rewrite E, !run_jobs_app, run_jobs_cons in J1. simpl in J1.
    rewrite run_jobs_app. exact J1. }
  assert (CL1 : x_closed st = false) by (rewrite (lt_closed _ L); exact PD1).
  clear OW L H E.
  assert (I2 : inv (detach att (set_running (l1 ++ l2) st))) by (eapply inv_view; [apply view_detach|exact I1]).
  assert (M2 : masters (detach att (set_running (l1 ++ l2) st)) = 0%nat)
    by (unfold masters, all_jobs in *; rewrite x_retr_q_detach, x_running_detach, x_unords_detach; exact M1).
  assert (UL2 : ulinked (detach att (set_running (l1 ++ l2) st)))
    by (unfold ulinked, all_jobs in *; rewrite x_retr_q_detach, x_running_detach, x_unords_detach; exact UL1).
  assert (HD : x_head_offs (detach att (set_running (l1 ++ l2) st)) <= d_off (res_bs r)).
  { pose proof (i_parser _ I2) as X. rewrite x_parsing_done_detach, x_parser_bs_detach in X. specialize (X PD1). xs in X. exact (N.le_trans _ _ _ X LO). }
  assert (E2 : x_parsing_done (detach att (set_running (l1 ++ l2) st)) = false /\ x_closed (detach att (set_running (l1 ++ l2) st)) = false)
    by (rewrite x_parsing_done_detach, x_closed_detach; auto).
  destruct E2 as (PD2 & CL2). clear I1 UL1 M1 I D. generalize dependent (detach att (set_running (l1 ++ l2) st)). intro s2. intros.
  destruct (inv_advance cfg (res_bs r) s2 I2 M2 HD) as (I3 & M3 & H3a & H3b & ST & RP).
  pose proof (ulinked_advance cfg (res_bs r) s2 CA UL2) as UL3.
  assert (PD3 : x_parsing_done (advance cfg (res_bs r) s2) = false) by (rewrite x_parsing_done_advance; exact PD2).
  assert (CL3 : x_closed (advance cfg (res_bs r) s2) = false) by (rewrite x_closed_advance; exact CL2).
  pose proof (advance_pbs cfg (res_bs r) s2) as PB3.
  generalize dependent (advance cfg (res_bs r) s2). intro s3. intros.
  destruct r as [b ps|b g|b code|b ps lv crc]; cbn [res_bs] in *.
  - destruct G as (_ & _ & ->). apply ltk_mk.
    + xs. congruence.
    + xs. intro X. congruence.
    + intros _. left. reflexivity.
    + intros _. apply mpq_no_master. apply inv_no_master; [exact IR|]. left. reflexivity.
  - (* the end of the stream: request_close, every queued job is released *)
    destruct G as (_ & _ & ->). revert NF'. rewrite parse_finish_eq. cbv zeta. destruct (_ && _); [discriminate|]. intros _.
    apply ltk_mk; xs; [reflexivity|reflexivity|discriminate|discriminate].
  - destruct G as (_ & _ & _ & ->). discriminate NF'.
  - destruct G as (NB & ->).
    apply ltk_parse_ok; [exact CA| | | | | | |exact IR]; xs; try assumption.
    + eapply inv_view; [|exact I3]. constructor; try reflexivity; tauto.
    + rewrite PB3. exact NB.
Qed.

(* the state after the retrieve continuation of [j] has left the running set *)
Definition lcore (j : rjob) (s : xstate) : Prop :=
  x_closed s = x_parsing_done s /\ (x_parsing_done s = true -> x_retr_q s = []) /\
  (x_parsing_done s = false -> tokp s \/ jm (x_unords s) j = true) /\ (x_parsing_done s = false -> mpq s).

Lemma lcore_ltk j s : lcore j s -> (x_parsing_done s = false -> jm (x_unords s) j = false) -> ltk s.
Proof.
  intros (A & B & C & D) NJ. apply ltk_mk; auto.
  intro PD. destruct (C PD) as [T|T]; auto. rewrite (NJ PD) in T. discriminate.
Qed.

Lemma lcore_del_retr j att st l1 l2 :
  x_running st = l1 ++ CRetr j att :: l2 -> ltk st -> lcore j (detach att (set_running (l1 ++ l2) st)).
Proof.
  intros E L. rewrite detach_nf. unfold lcore. xs. split; [apply L|]. split; [apply L|]. split.
  - intro PD. destruct (ltk_tokp st L PD) as [T|[N|(x & X1 & X2)]].
    + left. left. exact T.
    + left. right. left. unfold nparse in *. xs. rewrite E in N. rewrite !filter_len_app in *. simpl in N. exact N.
    + unfold all_jobs in X1. rewrite E, !run_jobs_app, run_jobs_cons in X1. simpl cjobs in X1.
      rewrite !in_app_iff in X1. simpl in X1.
      assert (K : x = j \/ In x (x_retr_q st ++ run_jobs (l1 ++ l2))).
      { rewrite run_jobs_app, !in_app_iff. destruct X1 as [X1|[X1|[[<-|[]]|X1]]]; auto. }
      destruct K as [->|K]; [right; exact X2|]. left. right. right. exists x. unfold all_jobs. xs. auto.
  - intro PD. exact (lt_mp _ L PD).
Qed.

(* a store in which the jobs keep their status *)
Lemma ltk_unords us' s :
  (forall x, In x (all_jobs s) -> jm us' x = jm (x_unords s) x) -> ltk s -> ltk (set_unords us' s).
Proof.
  intros JE L. apply ltk_mk; xs; try apply L.
  - intro PD. destruct (ltk_tokp s L PD) as [T|[N|(x & X1 & X2)]].
    + left. exact T.
    + right. left. exact N.
    + right. right. exists x. unfold all_jobs in *. xs. split; auto. rewrite JE; auto.
  - intros PD x Hx J. apply (lt_mp _ L PD); auto. rewrite <- JE; auto.
    unfold all_jobs. apply in_or_app. auto.
Qed.

(* a job that nobody else is linked with gives its unord block back *)
Lemma ltk_drop_if b l s :
  inv s -> (forall id x, l = Some id -> In x (all_jobs s) -> r_link x <> Some id) -> ltk s -> ltk (give_unit (drop_if b l s)).
Proof.
  intros I SEP L. destruct b; [|apply (ltk_eq _ _ L); reflexivity]. apply ltk_mk; try apply L.
  - intro PD. destruct (ltk_tokp s L PD) as [T|[N|(x & X1 & X2)]].
    + left. exact T.
    + right. left. exact N.
    + right. right. exists x. unfold all_jobs in *. xs. split; auto.
      unfold jm in *. destruct (r_link x) as [idx|] eqn:LX; auto.
      apply existsb_exists in X2. destruct X2 as (u0 & H0 & E0). apply existsb_exists. exists u0. split; auto.
      apply drop_link_other; auto. intro LJ. bool_hyps.
      match goal with X : (u_id u0 =? idx) = true |- _ => apply N.eqb_eq in X; rewrite X in LJ end.
      apply (SEP idx x LJ X1). exact LX.
  - intros PD x Hx J. apply (lt_mp _ L PD); auto.
    revert J. apply jm_stems; [apply drop_link_stems|apply I].
Qed.

Lemma ltk_requeue j' s :
  x_parsing_done s = false -> jm (x_unords s) j' = false -> ltk s -> ltk (set_retr_q (j' :: x_retr_q s) s).
Proof.
  intros PD NJ L. apply ltk_mk; xs; try apply L.
  - intro X. congruence.
  - intros _. destruct (ltk_tokp s L PD) as [T|[N|(x & X1 & X2)]].
    + left. exact T.
    + right. left. exact N.
    + right. right. exists x. unfold all_jobs in *. xs. split; auto. right. exact X1.
  - intros _ x. xs. intros [<-|Hx] J; [congruence|]. apply (lt_mp _ L PD); auto.
Qed.

(* the master (created by the parser, or adopted) *)
Lemma lretr1_master cfg j rv cur s2 st' :
  c_requeue_retr_checks_head cfg = true -> jfacts j s2 -> jm (x_unords s2) j = true -> x_parsing_done s2 = false ->
  x_closed s2 = false -> d_off (r_cur j) <= d_off cur -> inv st' ->
  st' = retr1_tail cfg j rv cur (fin_master (r_link j)) (advance cfg cur s2) -> ltk st'.
Proof.
  intros CR F JM PD CL Hoff IR ->. destruct (jfacts_master j s2 F JM) as (M0 & _ & _ & HJ).
  destruct F as (I2 & J2 & L2 & _). assert (HD : x_head_offs s2 <= d_off cur) by exact (N.le_trans _ _ _ HJ Hoff).
  destruct (inv_advance cfg cur s2 I2 M0 HD) as (_ & M3 & _ & H3b & _).
  assert (JM3 : jm (x_unords (advance cfg cur s2)) j = true).
  { rewrite (proj2 (adv_fields cfg cur s2)). destruct (c_advance_drops_link cfg); [|exact JM].
    unfold jm in *. destruct (r_link j) as [id|] eqn:L; auto.
    apply existsb_exists in JM. destruct JM as (u0 & H0 & E0). apply existsb_exists. exists u0. split; auto.
    apply drop_links_other; auto. intros j' Hj'. bool_hyps.
    match goal with X : (u_id u0 =? id) = true |- _ => apply N.eqb_eq in X; rewrite X end.
    apply (no_link_job id s2 j' (L2 id eq_refl)). unfold all_jobs. apply in_or_app. left.
    exact (proj1 (advance_dropped cfg cur s2 j' I2 M0 HD Hj')). }
  assert (PD3 : x_parsing_done (advance cfg cur s2) = false) by (rewrite x_parsing_done_advance; exact PD).
  assert (CL3 : x_closed (advance cfg cur s2) = false) by (rewrite x_closed_advance; exact CL).
  pose proof (advance_pbs cfg cur s2) as PB3.
  generalize dependent (advance cfg cur s2). intros sa IR M3 H3b JM3 PD3 CL3 PB3. unfold retr1_tail in *.
  destruct (rv =? MORE) eqn:RV.
  - rewrite CR, (proj2 (N.ltb_ge _ _) H3b). cbn [andb]. apply ltk_mk; xs.
    + congruence.
    + intro X. congruence.
    + intros _. right. right. exists (mkrjob (r_base j) cur (r_link j)). unfold all_jobs. xs. split; [left; reflexivity|].
      rewrite (jm_link _ j); [exact JM3|reflexivity].
    + intros _. unfold mpq. xs. intros x [<-|Hx] J; [simpl; congruence|].
      exfalso. rewrite (no_masters_jm sa x M3) in J; [discriminate|]. unfold all_jobs. apply in_or_app. auto.
  - rewrite fin_master_nf in *. apply ltk_mk.
    + exact (eq_trans CL3 (eq_sym PD3)).
    + intro X. exfalso. exact (diff_false_true (eq_trans (eq_sym PD3) X)).
    + intros _. left. reflexivity.
    + intros _. apply mpq_no_master. apply inv_no_master; [exact IR|]. left. reflexivity.
Qed.

(* a speculative job *)
Lemma lretr1_spec cfg j id rv cur s2 :
  c_requeue_retr_checks_head cfg = true -> jfacts j s2 -> r_link j = Some id ->
  jm (x_unords s2) j = false -> x_parsing_done s2 = false -> ltk s2 ->
  dbs_ok cur = true -> d_bit (r_cur j) <= d_bit cur ->
  ltk (retr1_tail cfg j rv cur (fin_spec id cur) (set_unords (upd_unord id (u_set_end cur) (x_unords s2)) s2)).
Proof.
  intros CR (I2 & J2 & L2 & B2 & M2) EL NJ PD LT Hok Hbit.
  pose proof (L2 id EL) as Z2. destruct J2 as (J1 & J2' & J3 & J4 & J5).
  assert (UO : forall u, In u (x_unords s2) -> u_id u = id -> unord_ok u /\ u_base u = r_base j).
  { intros u Hu Hid. split; [pose proof (i_unord _ I2) as Iu; rewrite Forall_forall in Iu; auto|].
    apply (J5 id u EL Hu Hid). }
  destruct (inv_upd_spec id (u_set_end cur) s2 I2 Z2) as (I3 & M3).
  { intro u. split; reflexivity. }
  { intros u Hu Hid. destruct (UO u Hu Hid) as ((O1 & O2 & O3) & B). unfold unord_ok, u_set_end; simpl.
    split; [intro Q; destruct (O1 Q) as (_ & _ & LG); repeat split; auto; rewrite B; clear - J1 Hbit; lia|split; auto]. }
  assert (L3 : ltk (set_unords (upd_unord id (u_set_end cur) (x_unords s2)) s2)).
  { apply ltk_unords; auto. intros x _. apply jm_upd_same. intro u. repeat split; reflexivity. }
  set (sa := set_unords (upd_unord id (u_set_end cur) (x_unords s2)) s2) in *.
  assert (Z3 : length (filter (links id) (all_jobs sa)) = 0%nat) by exact Z2.
  assert (JMe : jm (x_unords sa) j = false).
  { subst sa. xs. rewrite <- NJ. apply jm_upd_same. intro u. repeat split; reflexivity. }
  assert (PD3 : x_parsing_done sa = false) by exact PD.
  clearbody sa. unfold retr1_tail.
  destruct (rv =? MORE) eqn:RV; [destruct (_ && _)|].
  - apply (ltk_drop_if _ (r_link j) sa); auto. rewrite EL. intros id0 x E0 Hx. inversion E0; subst id0. apply (no_link_job id sa x Z3 Hx).
  - apply ltk_requeue; auto.
  - apply (ltk_eq (fin_spec id cur sa)); try reflexivity.
    apply ltk_unords; auto. intros x Hx. apply jm_upd_other; [apply (no_link_job id sa x Z3 Hx)|reflexivity].
Qed.

Lemma ltk_retr1 cfg j att rv cur st st' :
  cfg_safe cfg -> inv st -> ltk st -> retr1 cfg j att rv cur st = Some st' -> ltk st'.
Proof.
  intros CS I L H. pose proof (inv_retr1 _ _ _ _ _ _ _ CS I H) as IR. destruct CS as (CS & CJ & CR).
  destruct (retr1_inv _ _ _ _ _ _ _ H) as (l1 & l2 & E & D & Hok & Hbit & Hoff & _ & _ & _ & C).
  assert (F2 : jfacts j (detach att (set_running (l1 ++ l2) st)))
    by (eapply jfacts_view; [apply view_detach|apply (inv_del_retr _ _ _ _ D I)]).
  pose proof (lcore_del_retr _ _ _ _ _ E L) as C2. clear I L D E H.
  generalize dependent (detach att (set_running (l1 ++ l2) st)). intro s2. intros.
  assert (F2' := F2). destruct F2' as (I2 & J2 & L2 & B2 & M2).
  assert (C2' := C2). destruct C2' as (CA & CB & CC & CD).
  assert (SEP : forall id x, r_link j = Some id -> In x (all_jobs s2) -> r_link x <> Some id).
  { intros id x E0 Hx. apply (no_link_job id s2 x (L2 id E0) Hx). }
  destruct C as [PD ->| u PD LS UC UL ->| PD MM E'| id PD EL NC ->].
  - rewrite drop_if_nf. unfold give_unit. apply ltk_mk; xs; [exact CA|exact CB|intro X; congruence|intro X; congruence].
  - (* proven not legitimate: aborted *)
    destruct (link_state_spec _ _ _ LS) as (id & EL & Hu & Hid).
    assert (NM : jm (x_unords s2) j = false).
    { apply (not_jm_incomplete s2 j id I2 EL). intros u0 Hv0 E0. right.
      rewrite (nodup_id_unique (x_unords s2) u0 u); auto; [apply I2|congruence]. }
    apply ltk_drop_if; auto. apply (lcore_ltk j); auto.
  - (* created by the parser, or adopted: acts as the master *)
    apply (lretr1_master cfg j rv cur s2 st' CR F2); auto; [|congruence].
    destruct MM as [EL|(u & LS & UC & UL)]; [unfold jm; rewrite EL; reflexivity|eapply jm_of_link_state; eauto].
  - (* speculative; a dangling link is treated alike, the update is void *)
    assert (NM : jm (x_unords s2) j = false).
    { apply (not_jm_incomplete s2 j id I2 EL). intros u0 Hv0 E0. left. apply NC. unfold link_state. rewrite EL.
      destruct (get_unord id (x_unords s2)) as [u1|] eqn:G; [|exfalso; eapply get_unord_none; eauto].
      destruct (get_unord_some _ _ _ G) as [H1 H2]. f_equal. apply (nodup_id_unique (x_unords s2)); auto; [apply I2|congruence]. }
    apply (lretr1_spec cfg j id rv cur s2 CR F2 EL NM PD); auto. apply (lcore_ltk j); auto.
Qed.

Lemma ltk_init n tin tout ultra : ltk (init_state n tin tout ultra).
Proof.
  apply ltk_mk.
  - reflexivity.
  - intros _. reflexivity.
  - intros _. left. reflexivity.
  - intros _ j [].
Qed.

Theorem ltk_step cfg st e st' :
  cfg_safe cfg -> cfg_drops cfg -> inv st -> own st -> x_failed st' = None -> ltk st ->
  step cfg st e = Some st' -> ltk st'.
Proof.
  intros CS CD I OW NF' L H. unfold step in H. destruct (x_failed st) eqn:NF; [discriminate|].
  destruct e.
  - destruct (input_inv _ _ _ _ H) as (_ & _ & _ & _ & H'). destruct (x_parsing_done st); subst st'; [exact L|].
    apply (ltk_eq _ _ L); reflexivity.
  - destruct (reader_eof_inv _ _ H) as [_ ->]. apply (ltk_eq _ _ L); reflexivity.
  - destruct (written_inv _ _ H) as [_ ->]. apply (ltk_eq _ _ L); reflexivity.
  - eapply ltk_parse0; eauto.
  - eapply ltk_parse1; eauto.
  - eapply ltk_retr0; eauto.
  - eapply ltk_retr1; eauto.
  - destruct (retr2_inv _ _ _ H) as (l1 & l2 & E & _ & ->).
    apply (ltk_eq _ _ (ltk_del (CRetr2 e) _ _ _ eq_refl eq_refl E L)); reflexivity.
  - destruct (emit0_inv _ _ H) as (_ & e & l1 & l2 & _ & _ & ->). apply (ltk_eq _ _ L); reflexivity.
  - destruct (emit1_inv _ _ _ _ _ _ _ H) as (l1 & l2 & E & _ & _ & _ & H'). cbv zeta in H'.
    destruct (rv =? MORE); subst st'; apply (ltk_eq _ _ (ltk_del (CEmit e) _ _ _ eq_refl eq_refl E L)); reflexivity.
  - destruct (reorder_inv _ _ H) as (_ & o & l1 & l2 & _ & _ & [C ->|ord rest C _ _ ->|ord rest C _ _ _ ->|ord rest C _ _ _ ->]);
      [apply (ltk_eq _ _ L); reflexivity..|discriminate NF'].
  - destruct (scan0_inv _ _ H) as (_ & s & l1 & l2 & _ & _ & ->). cbv zeta. rewrite attach_nf. apply (ltk_eq _ _ L); reflexivity.
  - eapply ltk_scan1; eauto.
Qed.

(* along runs whose parser labels make progress (XOwn.preach) *)
Theorem ltk_preach cfg n tin tout ultra st :
  cfg_safe cfg -> cfg_drops cfg -> preach cfg (init_state n tin tout ultra) st -> x_failed st = None -> ltk st.
Proof.
  intros CS CD R. induction R as [|st e st' R IH EV H]; intro NF.
  - apply ltk_init.
  - pose proof (step_not_failed _ _ _ _ H) as NF0.
    destruct (own_preach cfg n tin tout ultra st CS CD R) as [I OW].
    eapply ltk_step; eauto.
Qed.

Print Assumptions ltk_init.
Print Assumptions ltk_step.
Print Assumptions ltk_preach.
