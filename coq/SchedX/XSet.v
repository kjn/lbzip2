(* Field setters of the state record and their projection lemmas (mechanical). *)
From Coq Require Import List NArith Bool.
From LBZ Require Import SchedX.XState.

Definition set_eof v (st : xstate) : xstate := mkx v (x_work_units st) (x_out_slots st) (x_in_slots st) (x_num_worker st) (x_total_out st) (x_total_in st) (x_ultra st) (x_closed st) (x_outq st) (x_eof_missing st) (x_input_q st) (x_zombies st) (x_head_offs st) (x_tail_offs st) (x_retr_q st) (x_emit_q st) (x_reord_q st) (x_order_q st) (x_unords st) (x_next_uid st) (x_parse_token st) (x_parsing_done st) (x_scan_q st) (x_reord_offs st) (x_parser_bs st) (x_par st) (x_running st) (x_written st) (x_failed st) (x_bad_attach st) (x_next st).
Definition set_work_units v (st : xstate) : xstate := mkx (x_eof st) v (x_out_slots st) (x_in_slots st) (x_num_worker st) (x_total_out st) (x_total_in st) (x_ultra st) (x_closed st) (x_outq st) (x_eof_missing st) (x_input_q st) (x_zombies st) (x_head_offs st) (x_tail_offs st) (x_retr_q st) (x_emit_q st) (x_reord_q st) (x_order_q st) (x_unords st) (x_next_uid st) (x_parse_token st) (x_parsing_done st) (x_scan_q st) (x_reord_offs st) (x_parser_bs st) (x_par st) (x_running st) (x_written st) (x_failed st) (x_bad_attach st) (x_next st).
Definition set_out_slots v (st : xstate) : xstate := mkx (x_eof st) (x_work_units st) v (x_in_slots st) (x_num_worker st) (x_total_out st) (x_total_in st) (x_ultra st) (x_closed st) (x_outq st) (x_eof_missing st) (x_input_q st) (x_zombies st) (x_head_offs st) (x_tail_offs st) (x_retr_q st) (x_emit_q st) (x_reord_q st) (x_order_q st) (x_unords st) (x_next_uid st) (x_parse_token st) (x_parsing_done st) (x_scan_q st) (x_reord_offs st) (x_parser_bs st) (x_par st) (x_running st) (x_written st) (x_failed st) (x_bad_attach st) (x_next st).
Definition set_in_slots v (st : xstate) : xstate := mkx (x_eof st) (x_work_units st) (x_out_slots st) v (x_num_worker st) (x_total_out st) (x_total_in st) (x_ultra st) (x_closed st) (x_outq st) (x_eof_missing st) (x_input_q st) (x_zombies st) (x_head_offs st) (x_tail_offs st) (x_retr_q st) (x_emit_q st) (x_reord_q st) (x_order_q st) (x_unords st) (x_next_uid st) (x_parse_token st) (x_parsing_done st) (x_scan_q st) (x_reord_offs st) (x_parser_bs st) (x_par st) (x_running st) (x_written st) (x_failed st) (x_bad_attach st) (x_next st).
Definition set_closed v (st : xstate) : xstate := mkx (x_eof st) (x_work_units st) (x_out_slots st) (x_in_slots st) (x_num_worker st) (x_total_out st) (x_total_in st) (x_ultra st) v (x_outq st) (x_eof_missing st) (x_input_q st) (x_zombies st) (x_head_offs st) (x_tail_offs st) (x_retr_q st) (x_emit_q st) (x_reord_q st) (x_order_q st) (x_unords st) (x_next_uid st) (x_parse_token st) (x_parsing_done st) (x_scan_q st) (x_reord_offs st) (x_parser_bs st) (x_par st) (x_running st) (x_written st) (x_failed st) (x_bad_attach st) (x_next st).
Definition set_outq v (st : xstate) : xstate := mkx (x_eof st) (x_work_units st) (x_out_slots st) (x_in_slots st) (x_num_worker st) (x_total_out st) (x_total_in st) (x_ultra st) (x_closed st) v (x_eof_missing st) (x_input_q st) (x_zombies st) (x_head_offs st) (x_tail_offs st) (x_retr_q st) (x_emit_q st) (x_reord_q st) (x_order_q st) (x_unords st) (x_next_uid st) (x_parse_token st) (x_parsing_done st) (x_scan_q st) (x_reord_offs st) (x_parser_bs st) (x_par st) (x_running st) (x_written st) (x_failed st) (x_bad_attach st) (x_next st).
Definition set_eof_missing v (st : xstate) : xstate := mkx (x_eof st) (x_work_units st) (x_out_slots st) (x_in_slots st) (x_num_worker st) (x_total_out st) (x_total_in st) (x_ultra st) (x_closed st) (x_outq st) v (x_input_q st) (x_zombies st) (x_head_offs st) (x_tail_offs st) (x_retr_q st) (x_emit_q st) (x_reord_q st) (x_order_q st) (x_unords st) (x_next_uid st) (x_parse_token st) (x_parsing_done st) (x_scan_q st) (x_reord_offs st) (x_parser_bs st) (x_par st) (x_running st) (x_written st) (x_failed st) (x_bad_attach st) (x_next st).
Definition set_input_q v (st : xstate) : xstate := mkx (x_eof st) (x_work_units st) (x_out_slots st) (x_in_slots st) (x_num_worker st) (x_total_out st) (x_total_in st) (x_ultra st) (x_closed st) (x_outq st) (x_eof_missing st) v (x_zombies st) (x_head_offs st) (x_tail_offs st) (x_retr_q st) (x_emit_q st) (x_reord_q st) (x_order_q st) (x_unords st) (x_next_uid st) (x_parse_token st) (x_parsing_done st) (x_scan_q st) (x_reord_offs st) (x_parser_bs st) (x_par st) (x_running st) (x_written st) (x_failed st) (x_bad_attach st) (x_next st).
Definition set_zombies v (st : xstate) : xstate := mkx (x_eof st) (x_work_units st) (x_out_slots st) (x_in_slots st) (x_num_worker st) (x_total_out st) (x_total_in st) (x_ultra st) (x_closed st) (x_outq st) (x_eof_missing st) (x_input_q st) v (x_head_offs st) (x_tail_offs st) (x_retr_q st) (x_emit_q st) (x_reord_q st) (x_order_q st) (x_unords st) (x_next_uid st) (x_parse_token st) (x_parsing_done st) (x_scan_q st) (x_reord_offs st) (x_parser_bs st) (x_par st) (x_running st) (x_written st) (x_failed st) (x_bad_attach st) (x_next st).
Definition set_head_offs v (st : xstate) : xstate := mkx (x_eof st) (x_work_units st) (x_out_slots st) (x_in_slots st) (x_num_worker st) (x_total_out st) (x_total_in st) (x_ultra st) (x_closed st) (x_outq st) (x_eof_missing st) (x_input_q st) (x_zombies st) v (x_tail_offs st) (x_retr_q st) (x_emit_q st) (x_reord_q st) (x_order_q st) (x_unords st) (x_next_uid st) (x_parse_token st) (x_parsing_done st) (x_scan_q st) (x_reord_offs st) (x_parser_bs st) (x_par st) (x_running st) (x_written st) (x_failed st) (x_bad_attach st) (x_next st).
Definition set_tail_offs v (st : xstate) : xstate := mkx (x_eof st) (x_work_units st) (x_out_slots st) (x_in_slots st) (x_num_worker st) (x_total_out st) (x_total_in st) (x_ultra st) (x_closed st) (x_outq st) (x_eof_missing st) (x_input_q st) (x_zombies st) (x_head_offs st) v (x_retr_q st) (x_emit_q st) (x_reord_q st) (x_order_q st) (x_unords st) (x_next_uid st) (x_parse_token st) (x_parsing_done st) (x_scan_q st) (x_reord_offs st) (x_parser_bs st) (x_par st) (x_running st) (x_written st) (x_failed st) (x_bad_attach st) (x_next st).
Definition set_retr_q v (st : xstate) : xstate := mkx (x_eof st) (x_work_units st) (x_out_slots st) (x_in_slots st) (x_num_worker st) (x_total_out st) (x_total_in st) (x_ultra st) (x_closed st) (x_outq st) (x_eof_missing st) (x_input_q st) (x_zombies st) (x_head_offs st) (x_tail_offs st) v (x_emit_q st) (x_reord_q st) (x_order_q st) (x_unords st) (x_next_uid st) (x_parse_token st) (x_parsing_done st) (x_scan_q st) (x_reord_offs st) (x_parser_bs st) (x_par st) (x_running st) (x_written st) (x_failed st) (x_bad_attach st) (x_next st).
Definition set_emit_q v (st : xstate) : xstate := mkx (x_eof st) (x_work_units st) (x_out_slots st) (x_in_slots st) (x_num_worker st) (x_total_out st) (x_total_in st) (x_ultra st) (x_closed st) (x_outq st) (x_eof_missing st) (x_input_q st) (x_zombies st) (x_head_offs st) (x_tail_offs st) (x_retr_q st) v (x_reord_q st) (x_order_q st) (x_unords st) (x_next_uid st) (x_parse_token st) (x_parsing_done st) (x_scan_q st) (x_reord_offs st) (x_parser_bs st) (x_par st) (x_running st) (x_written st) (x_failed st) (x_bad_attach st) (x_next st).
Definition set_reord_q v (st : xstate) : xstate := mkx (x_eof st) (x_work_units st) (x_out_slots st) (x_in_slots st) (x_num_worker st) (x_total_out st) (x_total_in st) (x_ultra st) (x_closed st) (x_outq st) (x_eof_missing st) (x_input_q st) (x_zombies st) (x_head_offs st) (x_tail_offs st) (x_retr_q st) (x_emit_q st) v (x_order_q st) (x_unords st) (x_next_uid st) (x_parse_token st) (x_parsing_done st) (x_scan_q st) (x_reord_offs st) (x_parser_bs st) (x_par st) (x_running st) (x_written st) (x_failed st) (x_bad_attach st) (x_next st).
Definition set_order_q v (st : xstate) : xstate := mkx (x_eof st) (x_work_units st) (x_out_slots st) (x_in_slots st) (x_num_worker st) (x_total_out st) (x_total_in st) (x_ultra st) (x_closed st) (x_outq st) (x_eof_missing st) (x_input_q st) (x_zombies st) (x_head_offs st) (x_tail_offs st) (x_retr_q st) (x_emit_q st) (x_reord_q st) v (x_unords st) (x_next_uid st) (x_parse_token st) (x_parsing_done st) (x_scan_q st) (x_reord_offs st) (x_parser_bs st) (x_par st) (x_running st) (x_written st) (x_failed st) (x_bad_attach st) (x_next st).
Definition set_unords v (st : xstate) : xstate := mkx (x_eof st) (x_work_units st) (x_out_slots st) (x_in_slots st) (x_num_worker st) (x_total_out st) (x_total_in st) (x_ultra st) (x_closed st) (x_outq st) (x_eof_missing st) (x_input_q st) (x_zombies st) (x_head_offs st) (x_tail_offs st) (x_retr_q st) (x_emit_q st) (x_reord_q st) (x_order_q st) v (x_next_uid st) (x_parse_token st) (x_parsing_done st) (x_scan_q st) (x_reord_offs st) (x_parser_bs st) (x_par st) (x_running st) (x_written st) (x_failed st) (x_bad_attach st) (x_next st).
Definition set_next_uid v (st : xstate) : xstate := mkx (x_eof st) (x_work_units st) (x_out_slots st) (x_in_slots st) (x_num_worker st) (x_total_out st) (x_total_in st) (x_ultra st) (x_closed st) (x_outq st) (x_eof_missing st) (x_input_q st) (x_zombies st) (x_head_offs st) (x_tail_offs st) (x_retr_q st) (x_emit_q st) (x_reord_q st) (x_order_q st) (x_unords st) v (x_parse_token st) (x_parsing_done st) (x_scan_q st) (x_reord_offs st) (x_parser_bs st) (x_par st) (x_running st) (x_written st) (x_failed st) (x_bad_attach st) (x_next st).
Definition set_parse_token v (st : xstate) : xstate := mkx (x_eof st) (x_work_units st) (x_out_slots st) (x_in_slots st) (x_num_worker st) (x_total_out st) (x_total_in st) (x_ultra st) (x_closed st) (x_outq st) (x_eof_missing st) (x_input_q st) (x_zombies st) (x_head_offs st) (x_tail_offs st) (x_retr_q st) (x_emit_q st) (x_reord_q st) (x_order_q st) (x_unords st) (x_next_uid st) v (x_parsing_done st) (x_scan_q st) (x_reord_offs st) (x_parser_bs st) (x_par st) (x_running st) (x_written st) (x_failed st) (x_bad_attach st) (x_next st).
Definition set_parsing_done v (st : xstate) : xstate := mkx (x_eof st) (x_work_units st) (x_out_slots st) (x_in_slots st) (x_num_worker st) (x_total_out st) (x_total_in st) (x_ultra st) (x_closed st) (x_outq st) (x_eof_missing st) (x_input_q st) (x_zombies st) (x_head_offs st) (x_tail_offs st) (x_retr_q st) (x_emit_q st) (x_reord_q st) (x_order_q st) (x_unords st) (x_next_uid st) (x_parse_token st) v (x_scan_q st) (x_reord_offs st) (x_parser_bs st) (x_par st) (x_running st) (x_written st) (x_failed st) (x_bad_attach st) (x_next st).
Definition set_scan_q v (st : xstate) : xstate := mkx (x_eof st) (x_work_units st) (x_out_slots st) (x_in_slots st) (x_num_worker st) (x_total_out st) (x_total_in st) (x_ultra st) (x_closed st) (x_outq st) (x_eof_missing st) (x_input_q st) (x_zombies st) (x_head_offs st) (x_tail_offs st) (x_retr_q st) (x_emit_q st) (x_reord_q st) (x_order_q st) (x_unords st) (x_next_uid st) (x_parse_token st) (x_parsing_done st) v (x_reord_offs st) (x_parser_bs st) (x_par st) (x_running st) (x_written st) (x_failed st) (x_bad_attach st) (x_next st).
Definition set_reord_offs v (st : xstate) : xstate := mkx (x_eof st) (x_work_units st) (x_out_slots st) (x_in_slots st) (x_num_worker st) (x_total_out st) (x_total_in st) (x_ultra st) (x_closed st) (x_outq st) (x_eof_missing st) (x_input_q st) (x_zombies st) (x_head_offs st) (x_tail_offs st) (x_retr_q st) (x_emit_q st) (x_reord_q st) (x_order_q st) (x_unords st) (x_next_uid st) (x_parse_token st) (x_parsing_done st) (x_scan_q st) v (x_parser_bs st) (x_par st) (x_running st) (x_written st) (x_failed st) (x_bad_attach st) (x_next st).
Definition set_parser_bs v (st : xstate) : xstate := mkx (x_eof st) (x_work_units st) (x_out_slots st) (x_in_slots st) (x_num_worker st) (x_total_out st) (x_total_in st) (x_ultra st) (x_closed st) (x_outq st) (x_eof_missing st) (x_input_q st) (x_zombies st) (x_head_offs st) (x_tail_offs st) (x_retr_q st) (x_emit_q st) (x_reord_q st) (x_order_q st) (x_unords st) (x_next_uid st) (x_parse_token st) (x_parsing_done st) (x_scan_q st) (x_reord_offs st) v (x_par st) (x_running st) (x_written st) (x_failed st) (x_bad_attach st) (x_next st).
Definition set_par v (st : xstate) : xstate := mkx (x_eof st) (x_work_units st) (x_out_slots st) (x_in_slots st) (x_num_worker st) (x_total_out st) (x_total_in st) (x_ultra st) (x_closed st) (x_outq st) (x_eof_missing st) (x_input_q st) (x_zombies st) (x_head_offs st) (x_tail_offs st) (x_retr_q st) (x_emit_q st) (x_reord_q st) (x_order_q st) (x_unords st) (x_next_uid st) (x_parse_token st) (x_parsing_done st) (x_scan_q st) (x_reord_offs st) (x_parser_bs st) v (x_running st) (x_written st) (x_failed st) (x_bad_attach st) (x_next st).
Definition set_running v (st : xstate) : xstate := mkx (x_eof st) (x_work_units st) (x_out_slots st) (x_in_slots st) (x_num_worker st) (x_total_out st) (x_total_in st) (x_ultra st) (x_closed st) (x_outq st) (x_eof_missing st) (x_input_q st) (x_zombies st) (x_head_offs st) (x_tail_offs st) (x_retr_q st) (x_emit_q st) (x_reord_q st) (x_order_q st) (x_unords st) (x_next_uid st) (x_parse_token st) (x_parsing_done st) (x_scan_q st) (x_reord_offs st) (x_parser_bs st) (x_par st) v (x_written st) (x_failed st) (x_bad_attach st) (x_next st).
Definition set_written v (st : xstate) : xstate := mkx (x_eof st) (x_work_units st) (x_out_slots st) (x_in_slots st) (x_num_worker st) (x_total_out st) (x_total_in st) (x_ultra st) (x_closed st) (x_outq st) (x_eof_missing st) (x_input_q st) (x_zombies st) (x_head_offs st) (x_tail_offs st) (x_retr_q st) (x_emit_q st) (x_reord_q st) (x_order_q st) (x_unords st) (x_next_uid st) (x_parse_token st) (x_parsing_done st) (x_scan_q st) (x_reord_offs st) (x_parser_bs st) (x_par st) (x_running st) v (x_failed st) (x_bad_attach st) (x_next st).
Definition set_failed v (st : xstate) : xstate := mkx (x_eof st) (x_work_units st) (x_out_slots st) (x_in_slots st) (x_num_worker st) (x_total_out st) (x_total_in st) (x_ultra st) (x_closed st) (x_outq st) (x_eof_missing st) (x_input_q st) (x_zombies st) (x_head_offs st) (x_tail_offs st) (x_retr_q st) (x_emit_q st) (x_reord_q st) (x_order_q st) (x_unords st) (x_next_uid st) (x_parse_token st) (x_parsing_done st) (x_scan_q st) (x_reord_offs st) (x_parser_bs st) (x_par st) (x_running st) (x_written st) v (x_bad_attach st) (x_next st).
Definition set_bad_attach v (st : xstate) : xstate := mkx (x_eof st) (x_work_units st) (x_out_slots st) (x_in_slots st) (x_num_worker st) (x_total_out st) (x_total_in st) (x_ultra st) (x_closed st) (x_outq st) (x_eof_missing st) (x_input_q st) (x_zombies st) (x_head_offs st) (x_tail_offs st) (x_retr_q st) (x_emit_q st) (x_reord_q st) (x_order_q st) (x_unords st) (x_next_uid st) (x_parse_token st) (x_parsing_done st) (x_scan_q st) (x_reord_offs st) (x_parser_bs st) (x_par st) (x_running st) (x_written st) (x_failed st) v (x_next st).
Definition set_next v (st : xstate) : xstate := mkx (x_eof st) (x_work_units st) (x_out_slots st) (x_in_slots st) (x_num_worker st) (x_total_out st) (x_total_in st) (x_ultra st) (x_closed st) (x_outq st) (x_eof_missing st) (x_input_q st) (x_zombies st) (x_head_offs st) (x_tail_offs st) (x_retr_q st) (x_emit_q st) (x_reord_q st) (x_order_q st) (x_unords st) (x_next_uid st) (x_parse_token st) (x_parsing_done st) (x_scan_q st) (x_reord_offs st) (x_parser_bs st) (x_par st) (x_running st) (x_written st) (x_failed st) (x_bad_attach st) v.

Lemma x_eof_set_eof v st : x_eof (set_eof v st) = v. Proof. reflexivity. Qed.
Lemma x_work_units_set_eof v st : x_work_units (set_eof v st) = x_work_units st. Proof. reflexivity. Qed.
Lemma x_out_slots_set_eof v st : x_out_slots (set_eof v st) = x_out_slots st. Proof. reflexivity. Qed.
Lemma x_in_slots_set_eof v st : x_in_slots (set_eof v st) = x_in_slots st. Proof. reflexivity. Qed.
Lemma x_num_worker_set_eof v st : x_num_worker (set_eof v st) = x_num_worker st. Proof. reflexivity. Qed.
Lemma x_total_out_set_eof v st : x_total_out (set_eof v st) = x_total_out st. Proof. reflexivity. Qed.
Lemma x_total_in_set_eof v st : x_total_in (set_eof v st) = x_total_in st. Proof. reflexivity. Qed.
Lemma x_ultra_set_eof v st : x_ultra (set_eof v st) = x_ultra st. Proof. reflexivity. Qed.
Lemma x_closed_set_eof v st : x_closed (set_eof v st) = x_closed st. Proof. reflexivity. Qed.
Lemma x_outq_set_eof v st : x_outq (set_eof v st) = x_outq st. Proof. reflexivity. Qed.
Lemma x_eof_missing_set_eof v st : x_eof_missing (set_eof v st) = x_eof_missing st. Proof. reflexivity. Qed.
Lemma x_input_q_set_eof v st : x_input_q (set_eof v st) = x_input_q st. Proof. reflexivity. Qed.
Lemma x_zombies_set_eof v st : x_zombies (set_eof v st) = x_zombies st. Proof. reflexivity. Qed.
Lemma x_head_offs_set_eof v st : x_head_offs (set_eof v st) = x_head_offs st. Proof. reflexivity. Qed.
Lemma x_tail_offs_set_eof v st : x_tail_offs (set_eof v st) = x_tail_offs st. Proof. reflexivity. Qed.
Lemma x_retr_q_set_eof v st : x_retr_q (set_eof v st) = x_retr_q st. Proof. reflexivity. Qed.
Lemma x_emit_q_set_eof v st : x_emit_q (set_eof v st) = x_emit_q st. Proof. reflexivity. Qed.
Lemma x_reord_q_set_eof v st : x_reord_q (set_eof v st) = x_reord_q st. Proof. reflexivity. Qed.
Lemma x_order_q_set_eof v st : x_order_q (set_eof v st) = x_order_q st. Proof. reflexivity. Qed.
Lemma x_unords_set_eof v st : x_unords (set_eof v st) = x_unords st. Proof. reflexivity. Qed.
Lemma x_next_uid_set_eof v st : x_next_uid (set_eof v st) = x_next_uid st. Proof. reflexivity. Qed.
Lemma x_parse_token_set_eof v st : x_parse_token (set_eof v st) = x_parse_token st. Proof. reflexivity. Qed.
Lemma x_parsing_done_set_eof v st : x_parsing_done (set_eof v st) = x_parsing_done st. Proof. reflexivity. Qed.
Lemma x_scan_q_set_eof v st : x_scan_q (set_eof v st) = x_scan_q st. Proof. reflexivity. Qed.
Lemma x_reord_offs_set_eof v st : x_reord_offs (set_eof v st) = x_reord_offs st. Proof. reflexivity. Qed.
Lemma x_parser_bs_set_eof v st : x_parser_bs (set_eof v st) = x_parser_bs st. Proof. reflexivity. Qed.
Lemma x_par_set_eof v st : x_par (set_eof v st) = x_par st. Proof. reflexivity. Qed.
Lemma x_running_set_eof v st : x_running (set_eof v st) = x_running st. Proof. reflexivity. Qed.
Lemma x_written_set_eof v st : x_written (set_eof v st) = x_written st. Proof. reflexivity. Qed.
Lemma x_failed_set_eof v st : x_failed (set_eof v st) = x_failed st. Proof. reflexivity. Qed.
Lemma x_bad_attach_set_eof v st : x_bad_attach (set_eof v st) = x_bad_attach st. Proof. reflexivity. Qed.
Lemma x_next_set_eof v st : x_next (set_eof v st) = x_next st. Proof. reflexivity. Qed.
Lemma x_eof_set_work_units v st : x_eof (set_work_units v st) = x_eof st. Proof. reflexivity. Qed.
Lemma x_work_units_set_work_units v st : x_work_units (set_work_units v st) = v. Proof. reflexivity. Qed.
Lemma x_out_slots_set_work_units v st : x_out_slots (set_work_units v st) = x_out_slots st. Proof. reflexivity. Qed.
Lemma x_in_slots_set_work_units v st : x_in_slots (set_work_units v st) = x_in_slots st. Proof. reflexivity. Qed.
Lemma x_num_worker_set_work_units v st : x_num_worker (set_work_units v st) = x_num_worker st. Proof. reflexivity. Qed.
Lemma x_total_out_set_work_units v st : x_total_out (set_work_units v st) = x_total_out st. Proof. reflexivity. Qed.
Lemma x_total_in_set_work_units v st : x_total_in (set_work_units v st) = x_total_in st. Proof. reflexivity. Qed.
Lemma x_ultra_set_work_units v st : x_ultra (set_work_units v st) = x_ultra st. Proof. reflexivity. Qed.
Lemma x_closed_set_work_units v st : x_closed (set_work_units v st) = x_closed st. Proof. reflexivity. Qed.
Lemma x_outq_set_work_units v st : x_outq (set_work_units v st) = x_outq st. Proof. reflexivity. Qed.
Lemma x_eof_missing_set_work_units v st : x_eof_missing (set_work_units v st) = x_eof_missing st. Proof. reflexivity. Qed.
Lemma x_input_q_set_work_units v st : x_input_q (set_work_units v st) = x_input_q st. Proof. reflexivity. Qed.
Lemma x_zombies_set_work_units v st : x_zombies (set_work_units v st) = x_zombies st. Proof. reflexivity. Qed.
Lemma x_head_offs_set_work_units v st : x_head_offs (set_work_units v st) = x_head_offs st. Proof. reflexivity. Qed.
Lemma x_tail_offs_set_work_units v st : x_tail_offs (set_work_units v st) = x_tail_offs st. Proof. reflexivity. Qed.
Lemma x_retr_q_set_work_units v st : x_retr_q (set_work_units v st) = x_retr_q st. Proof. reflexivity. Qed.
Lemma x_emit_q_set_work_units v st : x_emit_q (set_work_units v st) = x_emit_q st. Proof. reflexivity. Qed.
Lemma x_reord_q_set_work_units v st : x_reord_q (set_work_units v st) = x_reord_q st. Proof. reflexivity. Qed.
Lemma x_order_q_set_work_units v st : x_order_q (set_work_units v st) = x_order_q st. Proof. reflexivity. Qed.
Lemma x_unords_set_work_units v st : x_unords (set_work_units v st) = x_unords st. Proof. reflexivity. Qed.
Lemma x_next_uid_set_work_units v st : x_next_uid (set_work_units v st) = x_next_uid st. Proof. reflexivity. Qed.
Lemma x_parse_token_set_work_units v st : x_parse_token (set_work_units v st) = x_parse_token st. Proof. reflexivity. Qed.
Lemma x_parsing_done_set_work_units v st : x_parsing_done (set_work_units v st) = x_parsing_done st. Proof. reflexivity. Qed.
Lemma x_scan_q_set_work_units v st : x_scan_q (set_work_units v st) = x_scan_q st. Proof. reflexivity. Qed.
Lemma x_reord_offs_set_work_units v st : x_reord_offs (set_work_units v st) = x_reord_offs st. Proof. reflexivity. Qed.
Lemma x_parser_bs_set_work_units v st : x_parser_bs (set_work_units v st) = x_parser_bs st. Proof. reflexivity. Qed.
Lemma x_par_set_work_units v st : x_par (set_work_units v st) = x_par st. Proof. reflexivity. Qed.
Lemma x_running_set_work_units v st : x_running (set_work_units v st) = x_running st. Proof. reflexivity. Qed.
Lemma x_written_set_work_units v st : x_written (set_work_units v st) = x_written st. Proof. reflexivity. Qed.
Lemma x_failed_set_work_units v st : x_failed (set_work_units v st) = x_failed st. Proof. reflexivity. Qed.
Lemma x_bad_attach_set_work_units v st : x_bad_attach (set_work_units v st) = x_bad_attach st. Proof. reflexivity. Qed.
Lemma x_next_set_work_units v st : x_next (set_work_units v st) = x_next st. Proof. reflexivity. Qed.
Lemma x_eof_set_out_slots v st : x_eof (set_out_slots v st) = x_eof st. Proof. reflexivity. Qed.
Lemma x_work_units_set_out_slots v st : x_work_units (set_out_slots v st) = x_work_units st. Proof. reflexivity. Qed.
Lemma x_out_slots_set_out_slots v st : x_out_slots (set_out_slots v st) = v. Proof. reflexivity. Qed.
Lemma x_in_slots_set_out_slots v st : x_in_slots (set_out_slots v st) = x_in_slots st. Proof. reflexivity. Qed.
Lemma x_num_worker_set_out_slots v st : x_num_worker (set_out_slots v st) = x_num_worker st. Proof. reflexivity. Qed.
Lemma x_total_out_set_out_slots v st : x_total_out (set_out_slots v st) = x_total_out st. Proof. reflexivity. Qed.
Lemma x_total_in_set_out_slots v st : x_total_in (set_out_slots v st) = x_total_in st. Proof. reflexivity. Qed.
Lemma x_ultra_set_out_slots v st : x_ultra (set_out_slots v st) = x_ultra st. Proof. reflexivity. Qed.
Lemma x_closed_set_out_slots v st : x_closed (set_out_slots v st) = x_closed st. Proof. reflexivity. Qed.
Lemma x_outq_set_out_slots v st : x_outq (set_out_slots v st) = x_outq st. Proof. reflexivity. Qed.
Lemma x_eof_missing_set_out_slots v st : x_eof_missing (set_out_slots v st) = x_eof_missing st. Proof. reflexivity. Qed.
Lemma x_input_q_set_out_slots v st : x_input_q (set_out_slots v st) = x_input_q st. Proof. reflexivity. Qed.
Lemma x_zombies_set_out_slots v st : x_zombies (set_out_slots v st) = x_zombies st. Proof. reflexivity. Qed.
Lemma x_head_offs_set_out_slots v st : x_head_offs (set_out_slots v st) = x_head_offs st. Proof. reflexivity. Qed.
Lemma x_tail_offs_set_out_slots v st : x_tail_offs (set_out_slots v st) = x_tail_offs st. Proof. reflexivity. Qed.
Lemma x_retr_q_set_out_slots v st : x_retr_q (set_out_slots v st) = x_retr_q st. Proof. reflexivity. Qed.
Lemma x_emit_q_set_out_slots v st : x_emit_q (set_out_slots v st) = x_emit_q st. Proof. reflexivity. Qed.
Lemma x_reord_q_set_out_slots v st : x_reord_q (set_out_slots v st) = x_reord_q st. Proof. reflexivity. Qed.
Lemma x_order_q_set_out_slots v st : x_order_q (set_out_slots v st) = x_order_q st. Proof. reflexivity. Qed.
Lemma x_unords_set_out_slots v st : x_unords (set_out_slots v st) = x_unords st. Proof. reflexivity. Qed.
Lemma x_next_uid_set_out_slots v st : x_next_uid (set_out_slots v st) = x_next_uid st. Proof. reflexivity. Qed.
Lemma x_parse_token_set_out_slots v st : x_parse_token (set_out_slots v st) = x_parse_token st. Proof. reflexivity. Qed.
Lemma x_parsing_done_set_out_slots v st : x_parsing_done (set_out_slots v st) = x_parsing_done st. Proof. reflexivity. Qed.
Lemma x_scan_q_set_out_slots v st : x_scan_q (set_out_slots v st) = x_scan_q st. Proof. reflexivity. Qed.
Lemma x_reord_offs_set_out_slots v st : x_reord_offs (set_out_slots v st) = x_reord_offs st. Proof. reflexivity. Qed.
Lemma x_parser_bs_set_out_slots v st : x_parser_bs (set_out_slots v st) = x_parser_bs st. Proof. reflexivity. Qed.
Lemma x_par_set_out_slots v st : x_par (set_out_slots v st) = x_par st. Proof. reflexivity. Qed.
Lemma x_running_set_out_slots v st : x_running (set_out_slots v st) = x_running st. Proof. reflexivity. Qed.
Lemma x_written_set_out_slots v st : x_written (set_out_slots v st) = x_written st. Proof. reflexivity. Qed.
Lemma x_failed_set_out_slots v st : x_failed (set_out_slots v st) = x_failed st. Proof. reflexivity. Qed.
Lemma x_bad_attach_set_out_slots v st : x_bad_attach (set_out_slots v st) = x_bad_attach st. Proof. reflexivity. Qed.
Lemma x_next_set_out_slots v st : x_next (set_out_slots v st) = x_next st. Proof. reflexivity. Qed.
Lemma x_eof_set_in_slots v st : x_eof (set_in_slots v st) = x_eof st. Proof. reflexivity. Qed.
Lemma x_work_units_set_in_slots v st : x_work_units (set_in_slots v st) = x_work_units st. Proof. reflexivity. Qed.
Lemma x_out_slots_set_in_slots v st : x_out_slots (set_in_slots v st) = x_out_slots st. Proof. reflexivity. Qed.
Lemma x_in_slots_set_in_slots v st : x_in_slots (set_in_slots v st) = v. Proof. reflexivity. Qed.
Lemma x_num_worker_set_in_slots v st : x_num_worker (set_in_slots v st) = x_num_worker st. Proof. reflexivity. Qed.
Lemma x_total_out_set_in_slots v st : x_total_out (set_in_slots v st) = x_total_out st. Proof. reflexivity. Qed.
Lemma x_total_in_set_in_slots v st : x_total_in (set_in_slots v st) = x_total_in st. Proof. reflexivity. Qed.
Lemma x_ultra_set_in_slots v st : x_ultra (set_in_slots v st) = x_ultra st. Proof. reflexivity. Qed.
Lemma x_closed_set_in_slots v st : x_closed (set_in_slots v st) = x_closed st. Proof. reflexivity. Qed.
Lemma x_outq_set_in_slots v st : x_outq (set_in_slots v st) = x_outq st. Proof. reflexivity. Qed.
Lemma x_eof_missing_set_in_slots v st : x_eof_missing (set_in_slots v st) = x_eof_missing st. Proof. reflexivity. Qed.
Lemma x_input_q_set_in_slots v st : x_input_q (set_in_slots v st) = x_input_q st. Proof. reflexivity. Qed.
Lemma x_zombies_set_in_slots v st : x_zombies (set_in_slots v st) = x_zombies st. Proof. reflexivity. Qed.
Lemma x_head_offs_set_in_slots v st : x_head_offs (set_in_slots v st) = x_head_offs st. Proof. reflexivity. Qed.
Lemma x_tail_offs_set_in_slots v st : x_tail_offs (set_in_slots v st) = x_tail_offs st. Proof. reflexivity. Qed.
Lemma x_retr_q_set_in_slots v st : x_retr_q (set_in_slots v st) = x_retr_q st. Proof. reflexivity. Qed.
Lemma x_emit_q_set_in_slots v st : x_emit_q (set_in_slots v st) = x_emit_q st. Proof. reflexivity. Qed.
Lemma x_reord_q_set_in_slots v st : x_reord_q (set_in_slots v st) = x_reord_q st. Proof. reflexivity. Qed.
Lemma x_order_q_set_in_slots v st : x_order_q (set_in_slots v st) = x_order_q st. Proof. reflexivity. Qed.
Lemma x_unords_set_in_slots v st : x_unords (set_in_slots v st) = x_unords st. Proof. reflexivity. Qed.
Lemma x_next_uid_set_in_slots v st : x_next_uid (set_in_slots v st) = x_next_uid st. Proof. reflexivity. Qed.
Lemma x_parse_token_set_in_slots v st : x_parse_token (set_in_slots v st) = x_parse_token st. Proof. reflexivity. Qed.
Lemma x_parsing_done_set_in_slots v st : x_parsing_done (set_in_slots v st) = x_parsing_done st. Proof. reflexivity. Qed.
Lemma x_scan_q_set_in_slots v st : x_scan_q (set_in_slots v st) = x_scan_q st. Proof. reflexivity. Qed.
Lemma x_reord_offs_set_in_slots v st : x_reord_offs (set_in_slots v st) = x_reord_offs st. Proof. reflexivity. Qed.
Lemma x_parser_bs_set_in_slots v st : x_parser_bs (set_in_slots v st) = x_parser_bs st. Proof. reflexivity. Qed.
Lemma x_par_set_in_slots v st : x_par (set_in_slots v st) = x_par st. Proof. reflexivity. Qed.
Lemma x_running_set_in_slots v st : x_running (set_in_slots v st) = x_running st. Proof. reflexivity. Qed.
Lemma x_written_set_in_slots v st : x_written (set_in_slots v st) = x_written st. Proof. reflexivity. Qed.
Lemma x_failed_set_in_slots v st : x_failed (set_in_slots v st) = x_failed st. Proof. reflexivity. Qed.
Lemma x_bad_attach_set_in_slots v st : x_bad_attach (set_in_slots v st) = x_bad_attach st. Proof. reflexivity. Qed.
Lemma x_next_set_in_slots v st : x_next (set_in_slots v st) = x_next st. Proof. reflexivity. Qed.
Lemma x_eof_set_closed v st : x_eof (set_closed v st) = x_eof st. Proof. reflexivity. Qed.
Lemma x_work_units_set_closed v st : x_work_units (set_closed v st) = x_work_units st. Proof. reflexivity. Qed.
Lemma x_out_slots_set_closed v st : x_out_slots (set_closed v st) = x_out_slots st. Proof. reflexivity. Qed.
Lemma x_in_slots_set_closed v st : x_in_slots (set_closed v st) = x_in_slots st. Proof. reflexivity. Qed.
Lemma x_num_worker_set_closed v st : x_num_worker (set_closed v st) = x_num_worker st. Proof. reflexivity. Qed.
Lemma x_total_out_set_closed v st : x_total_out (set_closed v st) = x_total_out st. Proof. reflexivity. Qed.
Lemma x_total_in_set_closed v st : x_total_in (set_closed v st) = x_total_in st. Proof. reflexivity. Qed.
Lemma x_ultra_set_closed v st : x_ultra (set_closed v st) = x_ultra st. Proof. reflexivity. Qed.
Lemma x_closed_set_closed v st : x_closed (set_closed v st) = v. Proof. reflexivity. Qed.
Lemma x_outq_set_closed v st : x_outq (set_closed v st) = x_outq st. Proof. reflexivity. Qed.
Lemma x_eof_missing_set_closed v st : x_eof_missing (set_closed v st) = x_eof_missing st. Proof. reflexivity. Qed.
Lemma x_input_q_set_closed v st : x_input_q (set_closed v st) = x_input_q st. Proof. reflexivity. Qed.
Lemma x_zombies_set_closed v st : x_zombies (set_closed v st) = x_zombies st. Proof. reflexivity. Qed.
Lemma x_head_offs_set_closed v st : x_head_offs (set_closed v st) = x_head_offs st. Proof. reflexivity. Qed.
Lemma x_tail_offs_set_closed v st : x_tail_offs (set_closed v st) = x_tail_offs st. Proof. reflexivity. Qed.
Lemma x_retr_q_set_closed v st : x_retr_q (set_closed v st) = x_retr_q st. Proof. reflexivity. Qed.
Lemma x_emit_q_set_closed v st : x_emit_q (set_closed v st) = x_emit_q st. Proof. reflexivity. Qed.
Lemma x_reord_q_set_closed v st : x_reord_q (set_closed v st) = x_reord_q st. Proof. reflexivity. Qed.
Lemma x_order_q_set_closed v st : x_order_q (set_closed v st) = x_order_q st. Proof. reflexivity. Qed.
Lemma x_unords_set_closed v st : x_unords (set_closed v st) = x_unords st. Proof. reflexivity. Qed.
Lemma x_next_uid_set_closed v st : x_next_uid (set_closed v st) = x_next_uid st. Proof. reflexivity. Qed.
Lemma x_parse_token_set_closed v st : x_parse_token (set_closed v st) = x_parse_token st. Proof. reflexivity. Qed.
Lemma x_parsing_done_set_closed v st : x_parsing_done (set_closed v st) = x_parsing_done st. Proof. reflexivity. Qed.
Lemma x_scan_q_set_closed v st : x_scan_q (set_closed v st) = x_scan_q st. Proof. reflexivity. Qed.
Lemma x_reord_offs_set_closed v st : x_reord_offs (set_closed v st) = x_reord_offs st. Proof. reflexivity. Qed.
Lemma x_parser_bs_set_closed v st : x_parser_bs (set_closed v st) = x_parser_bs st. Proof. reflexivity. Qed.
Lemma x_par_set_closed v st : x_par (set_closed v st) = x_par st. Proof. reflexivity. Qed.
Lemma x_running_set_closed v st : x_running (set_closed v st) = x_running st. Proof. reflexivity. Qed.
Lemma x_written_set_closed v st : x_written (set_closed v st) = x_written st. Proof. reflexivity. Qed.
Lemma x_failed_set_closed v st : x_failed (set_closed v st) = x_failed st. Proof. reflexivity. Qed.
Lemma x_bad_attach_set_closed v st : x_bad_attach (set_closed v st) = x_bad_attach st. Proof. reflexivity. Qed.
Lemma x_next_set_closed v st : x_next (set_closed v st) = x_next st. Proof. reflexivity. Qed.
Lemma x_eof_set_outq v st : x_eof (set_outq v st) = x_eof st. Proof. reflexivity. Qed.
Lemma x_work_units_set_outq v st : x_work_units (set_outq v st) = x_work_units st. Proof. reflexivity. Qed.
Lemma x_out_slots_set_outq v st : x_out_slots (set_outq v st) = x_out_slots st. Proof. reflexivity. Qed.
Lemma x_in_slots_set_outq v st : x_in_slots (set_outq v st) = x_in_slots st. Proof. reflexivity. Qed.
Lemma x_num_worker_set_outq v st : x_num_worker (set_outq v st) = x_num_worker st. Proof. reflexivity. Qed.
Lemma x_total_out_set_outq v st : x_total_out (set_outq v st) = x_total_out st. Proof. reflexivity. Qed.
Lemma x_total_in_set_outq v st : x_total_in (set_outq v st) = x_total_in st. Proof. reflexivity. Qed.
Lemma x_ultra_set_outq v st : x_ultra (set_outq v st) = x_ultra st. Proof. reflexivity. Qed.
Lemma x_closed_set_outq v st : x_closed (set_outq v st) = x_closed st. Proof. reflexivity. Qed.
Lemma x_outq_set_outq v st : x_outq (set_outq v st) = v. Proof. reflexivity. Qed.
Lemma x_eof_missing_set_outq v st : x_eof_missing (set_outq v st) = x_eof_missing st. Proof. reflexivity. Qed.
Lemma x_input_q_set_outq v st : x_input_q (set_outq v st) = x_input_q st. Proof. reflexivity. Qed.
Lemma x_zombies_set_outq v st : x_zombies (set_outq v st) = x_zombies st. Proof. reflexivity. Qed.
Lemma x_head_offs_set_outq v st : x_head_offs (set_outq v st) = x_head_offs st. Proof. reflexivity. Qed.
Lemma x_tail_offs_set_outq v st : x_tail_offs (set_outq v st) = x_tail_offs st. Proof. reflexivity. Qed.
Lemma x_retr_q_set_outq v st : x_retr_q (set_outq v st) = x_retr_q st. Proof. reflexivity. Qed.
Lemma x_emit_q_set_outq v st : x_emit_q (set_outq v st) = x_emit_q st. Proof. reflexivity. Qed.
Lemma x_reord_q_set_outq v st : x_reord_q (set_outq v st) = x_reord_q st. Proof. reflexivity. Qed.
Lemma x_order_q_set_outq v st : x_order_q (set_outq v st) = x_order_q st. Proof. reflexivity. Qed.
Lemma x_unords_set_outq v st : x_unords (set_outq v st) = x_unords st. Proof. reflexivity. Qed.
Lemma x_next_uid_set_outq v st : x_next_uid (set_outq v st) = x_next_uid st. Proof. reflexivity. Qed.
Lemma x_parse_token_set_outq v st : x_parse_token (set_outq v st) = x_parse_token st. Proof. reflexivity. Qed.
Lemma x_parsing_done_set_outq v st : x_parsing_done (set_outq v st) = x_parsing_done st. Proof. reflexivity. Qed.
Lemma x_scan_q_set_outq v st : x_scan_q (set_outq v st) = x_scan_q st. Proof. reflexivity. Qed.
Lemma x_reord_offs_set_outq v st : x_reord_offs (set_outq v st) = x_reord_offs st. Proof. reflexivity. Qed.
Lemma x_parser_bs_set_outq v st : x_parser_bs (set_outq v st) = x_parser_bs st. Proof. reflexivity. Qed.
Lemma x_par_set_outq v st : x_par (set_outq v st) = x_par st. Proof. reflexivity. Qed.
Lemma x_running_set_outq v st : x_running (set_outq v st) = x_running st. Proof. reflexivity. Qed.
Lemma x_written_set_outq v st : x_written (set_outq v st) = x_written st. Proof. reflexivity. Qed.
Lemma x_failed_set_outq v st : x_failed (set_outq v st) = x_failed st. Proof. reflexivity. Qed.
Lemma x_bad_attach_set_outq v st : x_bad_attach (set_outq v st) = x_bad_attach st. Proof. reflexivity. Qed.
Lemma x_next_set_outq v st : x_next (set_outq v st) = x_next st. Proof. reflexivity. Qed.
Lemma x_eof_set_eof_missing v st : x_eof (set_eof_missing v st) = x_eof st. Proof. reflexivity. Qed.
Lemma x_work_units_set_eof_missing v st : x_work_units (set_eof_missing v st) = x_work_units st. Proof. reflexivity. Qed.
Lemma x_out_slots_set_eof_missing v st : x_out_slots (set_eof_missing v st) = x_out_slots st. Proof. reflexivity. Qed.
Lemma x_in_slots_set_eof_missing v st : x_in_slots (set_eof_missing v st) = x_in_slots st. Proof. reflexivity. Qed.
Lemma x_num_worker_set_eof_missing v st : x_num_worker (set_eof_missing v st) = x_num_worker st. Proof. reflexivity. Qed.
Lemma x_total_out_set_eof_missing v st : x_total_out (set_eof_missing v st) = x_total_out st. Proof. reflexivity. Qed.
Lemma x_total_in_set_eof_missing v st : x_total_in (set_eof_missing v st) = x_total_in st. Proof. reflexivity. Qed.
Lemma x_ultra_set_eof_missing v st : x_ultra (set_eof_missing v st) = x_ultra st. Proof. reflexivity. Qed.
Lemma x_closed_set_eof_missing v st : x_closed (set_eof_missing v st) = x_closed st. Proof. reflexivity. Qed.
Lemma x_outq_set_eof_missing v st : x_outq (set_eof_missing v st) = x_outq st. Proof. reflexivity. Qed.
Lemma x_eof_missing_set_eof_missing v st : x_eof_missing (set_eof_missing v st) = v. Proof. reflexivity. Qed.
Lemma x_input_q_set_eof_missing v st : x_input_q (set_eof_missing v st) = x_input_q st. Proof. reflexivity. Qed.
Lemma x_zombies_set_eof_missing v st : x_zombies (set_eof_missing v st) = x_zombies st. Proof. reflexivity. Qed.
Lemma x_head_offs_set_eof_missing v st : x_head_offs (set_eof_missing v st) = x_head_offs st. Proof. reflexivity. Qed.
Lemma x_tail_offs_set_eof_missing v st : x_tail_offs (set_eof_missing v st) = x_tail_offs st. Proof. reflexivity. Qed.
Lemma x_retr_q_set_eof_missing v st : x_retr_q (set_eof_missing v st) = x_retr_q st. Proof. reflexivity. Qed.
Lemma x_emit_q_set_eof_missing v st : x_emit_q (set_eof_missing v st) = x_emit_q st. Proof. reflexivity. Qed.
Lemma x_reord_q_set_eof_missing v st : x_reord_q (set_eof_missing v st) = x_reord_q st. Proof. reflexivity. Qed.
Lemma x_order_q_set_eof_missing v st : x_order_q (set_eof_missing v st) = x_order_q st. Proof. reflexivity. Qed.
Lemma x_unords_set_eof_missing v st : x_unords (set_eof_missing v st) = x_unords st. Proof. reflexivity. Qed.
Lemma x_next_uid_set_eof_missing v st : x_next_uid (set_eof_missing v st) = x_next_uid st. Proof. reflexivity. Qed.
Lemma x_parse_token_set_eof_missing v st : x_parse_token (set_eof_missing v st) = x_parse_token st. Proof. reflexivity. Qed.
Lemma x_parsing_done_set_eof_missing v st : x_parsing_done (set_eof_missing v st) = x_parsing_done st. Proof. reflexivity. Qed.
Lemma x_scan_q_set_eof_missing v st : x_scan_q (set_eof_missing v st) = x_scan_q st. Proof. reflexivity. Qed.
Lemma x_reord_offs_set_eof_missing v st : x_reord_offs (set_eof_missing v st) = x_reord_offs st. Proof. reflexivity. Qed.
Lemma x_parser_bs_set_eof_missing v st : x_parser_bs (set_eof_missing v st) = x_parser_bs st. Proof. reflexivity. Qed.
Lemma x_par_set_eof_missing v st : x_par (set_eof_missing v st) = x_par st. Proof. reflexivity. Qed.
Lemma x_running_set_eof_missing v st : x_running (set_eof_missing v st) = x_running st. Proof. reflexivity. Qed.
Lemma x_written_set_eof_missing v st : x_written (set_eof_missing v st) = x_written st. Proof. reflexivity. Qed.
Lemma x_failed_set_eof_missing v st : x_failed (set_eof_missing v st) = x_failed st. Proof. reflexivity. Qed.
Lemma x_bad_attach_set_eof_missing v st : x_bad_attach (set_eof_missing v st) = x_bad_attach st. Proof. reflexivity. Qed.
Lemma x_next_set_eof_missing v st : x_next (set_eof_missing v st) = x_next st. Proof. reflexivity. Qed.
Lemma x_eof_set_input_q v st : x_eof (set_input_q v st) = x_eof st. Proof. reflexivity. Qed.
Lemma x_work_units_set_input_q v st : x_work_units (set_input_q v st) = x_work_units st. Proof. reflexivity. Qed.
Lemma x_out_slots_set_input_q v st : x_out_slots (set_input_q v st) = x_out_slots st. Proof. reflexivity. Qed.
Lemma x_in_slots_set_input_q v st : x_in_slots (set_input_q v st) = x_in_slots st. Proof. reflexivity. Qed.
Lemma x_num_worker_set_input_q v st : x_num_worker (set_input_q v st) = x_num_worker st. Proof. reflexivity. Qed.
Lemma x_total_out_set_input_q v st : x_total_out (set_input_q v st) = x_total_out st. Proof. reflexivity. Qed.
Lemma x_total_in_set_input_q v st : x_total_in (set_input_q v st) = x_total_in st. Proof. reflexivity. Qed.
Lemma x_ultra_set_input_q v st : x_ultra (set_input_q v st) = x_ultra st. Proof. reflexivity. Qed.
Lemma x_closed_set_input_q v st : x_closed (set_input_q v st) = x_closed st. Proof. reflexivity. Qed.
Lemma x_outq_set_input_q v st : x_outq (set_input_q v st) = x_outq st. Proof. reflexivity. Qed.
Lemma x_eof_missing_set_input_q v st : x_eof_missing (set_input_q v st) = x_eof_missing st. Proof. reflexivity. Qed.
Lemma x_input_q_set_input_q v st : x_input_q (set_input_q v st) = v. Proof. reflexivity. Qed.
Lemma x_zombies_set_input_q v st : x_zombies (set_input_q v st) = x_zombies st. Proof. reflexivity. Qed.
Lemma x_head_offs_set_input_q v st : x_head_offs (set_input_q v st) = x_head_offs st. Proof. reflexivity. Qed.
Lemma x_tail_offs_set_input_q v st : x_tail_offs (set_input_q v st) = x_tail_offs st. Proof. reflexivity. Qed.
Lemma x_retr_q_set_input_q v st : x_retr_q (set_input_q v st) = x_retr_q st. Proof. reflexivity. Qed.
Lemma x_emit_q_set_input_q v st : x_emit_q (set_input_q v st) = x_emit_q st. Proof. reflexivity. Qed.
Lemma x_reord_q_set_input_q v st : x_reord_q (set_input_q v st) = x_reord_q st. Proof. reflexivity. Qed.
Lemma x_order_q_set_input_q v st : x_order_q (set_input_q v st) = x_order_q st. Proof. reflexivity. Qed.
Lemma x_unords_set_input_q v st : x_unords (set_input_q v st) = x_unords st. Proof. reflexivity. Qed.
Lemma x_next_uid_set_input_q v st : x_next_uid (set_input_q v st) = x_next_uid st. Proof. reflexivity. Qed.
Lemma x_parse_token_set_input_q v st : x_parse_token (set_input_q v st) = x_parse_token st. Proof. reflexivity. Qed.
Lemma x_parsing_done_set_input_q v st : x_parsing_done (set_input_q v st) = x_parsing_done st. Proof. reflexivity. Qed.
Lemma x_scan_q_set_input_q v st : x_scan_q (set_input_q v st) = x_scan_q st. Proof. reflexivity. Qed.
Lemma x_reord_offs_set_input_q v st : x_reord_offs (set_input_q v st) = x_reord_offs st. Proof. reflexivity. Qed.
Lemma x_parser_bs_set_input_q v st : x_parser_bs (set_input_q v st) = x_parser_bs st. Proof. reflexivity. Qed.
Lemma x_par_set_input_q v st : x_par (set_input_q v st) = x_par st. Proof. reflexivity. Qed.
Lemma x_running_set_input_q v st : x_running (set_input_q v st) = x_running st. Proof. reflexivity. Qed.
Lemma x_written_set_input_q v st : x_written (set_input_q v st) = x_written st. Proof. reflexivity. Qed.
Lemma x_failed_set_input_q v st : x_failed (set_input_q v st) = x_failed st. Proof. reflexivity. Qed.
Lemma x_bad_attach_set_input_q v st : x_bad_attach (set_input_q v st) = x_bad_attach st. Proof. reflexivity. Qed.
Lemma x_next_set_input_q v st : x_next (set_input_q v st) = x_next st. Proof. reflexivity. Qed.
Lemma x_eof_set_zombies v st : x_eof (set_zombies v st) = x_eof st. Proof. reflexivity. Qed.
Lemma x_work_units_set_zombies v st : x_work_units (set_zombies v st) = x_work_units st. Proof. reflexivity. Qed.
Lemma x_out_slots_set_zombies v st : x_out_slots (set_zombies v st) = x_out_slots st. Proof. reflexivity. Qed.
Lemma x_in_slots_set_zombies v st : x_in_slots (set_zombies v st) = x_in_slots st. Proof. reflexivity. Qed.
Lemma x_num_worker_set_zombies v st : x_num_worker (set_zombies v st) = x_num_worker st. Proof. reflexivity. Qed.
Lemma x_total_out_set_zombies v st : x_total_out (set_zombies v st) = x_total_out st. Proof. reflexivity. Qed.
Lemma x_total_in_set_zombies v st : x_total_in (set_zombies v st) = x_total_in st. Proof. reflexivity. Qed.
Lemma x_ultra_set_zombies v st : x_ultra (set_zombies v st) = x_ultra st. Proof. reflexivity. Qed.
Lemma x_closed_set_zombies v st : x_closed (set_zombies v st) = x_closed st. Proof. reflexivity. Qed.
Lemma x_outq_set_zombies v st : x_outq (set_zombies v st) = x_outq st. Proof. reflexivity. Qed.
Lemma x_eof_missing_set_zombies v st : x_eof_missing (set_zombies v st) = x_eof_missing st. Proof. reflexivity. Qed.
Lemma x_input_q_set_zombies v st : x_input_q (set_zombies v st) = x_input_q st. Proof. reflexivity. Qed.
Lemma x_zombies_set_zombies v st : x_zombies (set_zombies v st) = v. Proof. reflexivity. Qed.
Lemma x_head_offs_set_zombies v st : x_head_offs (set_zombies v st) = x_head_offs st. Proof. reflexivity. Qed.
Lemma x_tail_offs_set_zombies v st : x_tail_offs (set_zombies v st) = x_tail_offs st. Proof. reflexivity. Qed.
Lemma x_retr_q_set_zombies v st : x_retr_q (set_zombies v st) = x_retr_q st. Proof. reflexivity. Qed.
Lemma x_emit_q_set_zombies v st : x_emit_q (set_zombies v st) = x_emit_q st. Proof. reflexivity. Qed.
Lemma x_reord_q_set_zombies v st : x_reord_q (set_zombies v st) = x_reord_q st. Proof. reflexivity. Qed.
Lemma x_order_q_set_zombies v st : x_order_q (set_zombies v st) = x_order_q st. Proof. reflexivity. Qed.
Lemma x_unords_set_zombies v st : x_unords (set_zombies v st) = x_unords st. Proof. reflexivity. Qed.
Lemma x_next_uid_set_zombies v st : x_next_uid (set_zombies v st) = x_next_uid st. Proof. reflexivity. Qed.
Lemma x_parse_token_set_zombies v st : x_parse_token (set_zombies v st) = x_parse_token st. Proof. reflexivity. Qed.
Lemma x_parsing_done_set_zombies v st : x_parsing_done (set_zombies v st) = x_parsing_done st. Proof. reflexivity. Qed.
Lemma x_scan_q_set_zombies v st : x_scan_q (set_zombies v st) = x_scan_q st. Proof. reflexivity. Qed.
Lemma x_reord_offs_set_zombies v st : x_reord_offs (set_zombies v st) = x_reord_offs st. Proof. reflexivity. Qed.
Lemma x_parser_bs_set_zombies v st : x_parser_bs (set_zombies v st) = x_parser_bs st. Proof. reflexivity. Qed.
Lemma x_par_set_zombies v st : x_par (set_zombies v st) = x_par st. Proof. reflexivity. Qed.
Lemma x_running_set_zombies v st : x_running (set_zombies v st) = x_running st. Proof. reflexivity. Qed.
Lemma x_written_set_zombies v st : x_written (set_zombies v st) = x_written st. Proof. reflexivity. Qed.
Lemma x_failed_set_zombies v st : x_failed (set_zombies v st) = x_failed st. Proof. reflexivity. Qed.
Lemma x_bad_attach_set_zombies v st : x_bad_attach (set_zombies v st) = x_bad_attach st. Proof. reflexivity. Qed.
Lemma x_next_set_zombies v st : x_next (set_zombies v st) = x_next st. Proof. reflexivity. Qed.
Lemma x_eof_set_head_offs v st : x_eof (set_head_offs v st) = x_eof st. Proof. reflexivity. Qed.
Lemma x_work_units_set_head_offs v st : x_work_units (set_head_offs v st) = x_work_units st. Proof. reflexivity. Qed.
Lemma x_out_slots_set_head_offs v st : x_out_slots (set_head_offs v st) = x_out_slots st. Proof. reflexivity. Qed.
Lemma x_in_slots_set_head_offs v st : x_in_slots (set_head_offs v st) = x_in_slots st. Proof. reflexivity. Qed.
Lemma x_num_worker_set_head_offs v st : x_num_worker (set_head_offs v st) = x_num_worker st. Proof. reflexivity. Qed.
Lemma x_total_out_set_head_offs v st : x_total_out (set_head_offs v st) = x_total_out st. Proof. reflexivity. Qed.
Lemma x_total_in_set_head_offs v st : x_total_in (set_head_offs v st) = x_total_in st. Proof. reflexivity. Qed.
Lemma x_ultra_set_head_offs v st : x_ultra (set_head_offs v st) = x_ultra st. Proof. reflexivity. Qed.
Lemma x_closed_set_head_offs v st : x_closed (set_head_offs v st) = x_closed st. Proof. reflexivity. Qed.
Lemma x_outq_set_head_offs v st : x_outq (set_head_offs v st) = x_outq st. Proof. reflexivity. Qed.
Lemma x_eof_missing_set_head_offs v st : x_eof_missing (set_head_offs v st) = x_eof_missing st. Proof. reflexivity. Qed.
Lemma x_input_q_set_head_offs v st : x_input_q (set_head_offs v st) = x_input_q st. Proof. reflexivity. Qed.
Lemma x_zombies_set_head_offs v st : x_zombies (set_head_offs v st) = x_zombies st. Proof. reflexivity. Qed.
Lemma x_head_offs_set_head_offs v st : x_head_offs (set_head_offs v st) = v. Proof. reflexivity. Qed.
Lemma x_tail_offs_set_head_offs v st : x_tail_offs (set_head_offs v st) = x_tail_offs st. Proof. reflexivity. Qed.
Lemma x_retr_q_set_head_offs v st : x_retr_q (set_head_offs v st) = x_retr_q st. Proof. reflexivity. Qed.
Lemma x_emit_q_set_head_offs v st : x_emit_q (set_head_offs v st) = x_emit_q st. Proof. reflexivity. Qed.
Lemma x_reord_q_set_head_offs v st : x_reord_q (set_head_offs v st) = x_reord_q st. Proof. reflexivity. Qed.
Lemma x_order_q_set_head_offs v st : x_order_q (set_head_offs v st) = x_order_q st. Proof. reflexivity. Qed.
Lemma x_unords_set_head_offs v st : x_unords (set_head_offs v st) = x_unords st. Proof. reflexivity. Qed.
Lemma x_next_uid_set_head_offs v st : x_next_uid (set_head_offs v st) = x_next_uid st. Proof. reflexivity. Qed.
Lemma x_parse_token_set_head_offs v st : x_parse_token (set_head_offs v st) = x_parse_token st. Proof. reflexivity. Qed.
Lemma x_parsing_done_set_head_offs v st : x_parsing_done (set_head_offs v st) = x_parsing_done st. Proof. reflexivity. Qed.
Lemma x_scan_q_set_head_offs v st : x_scan_q (set_head_offs v st) = x_scan_q st. Proof. reflexivity. Qed.
Lemma x_reord_offs_set_head_offs v st : x_reord_offs (set_head_offs v st) = x_reord_offs st. Proof. reflexivity. Qed.
Lemma x_parser_bs_set_head_offs v st : x_parser_bs (set_head_offs v st) = x_parser_bs st. Proof. reflexivity. Qed.
Lemma x_par_set_head_offs v st : x_par (set_head_offs v st) = x_par st. Proof. reflexivity. Qed.
Lemma x_running_set_head_offs v st : x_running (set_head_offs v st) = x_running st. Proof. reflexivity. Qed.
Lemma x_written_set_head_offs v st : x_written (set_head_offs v st) = x_written st. Proof. reflexivity. Qed.
Lemma x_failed_set_head_offs v st : x_failed (set_head_offs v st) = x_failed st. Proof. reflexivity. Qed.
Lemma x_bad_attach_set_head_offs v st : x_bad_attach (set_head_offs v st) = x_bad_attach st. Proof. reflexivity. Qed.
Lemma x_next_set_head_offs v st : x_next (set_head_offs v st) = x_next st. Proof. reflexivity. Qed.
Lemma x_eof_set_tail_offs v st : x_eof (set_tail_offs v st) = x_eof st. Proof. reflexivity. Qed.
Lemma x_work_units_set_tail_offs v st : x_work_units (set_tail_offs v st) = x_work_units st. Proof. reflexivity. Qed.
Lemma x_out_slots_set_tail_offs v st : x_out_slots (set_tail_offs v st) = x_out_slots st. Proof. reflexivity. Qed.
Lemma x_in_slots_set_tail_offs v st : x_in_slots (set_tail_offs v st) = x_in_slots st. Proof. reflexivity. Qed.
Lemma x_num_worker_set_tail_offs v st : x_num_worker (set_tail_offs v st) = x_num_worker st. Proof. reflexivity. Qed.
Lemma x_total_out_set_tail_offs v st : x_total_out (set_tail_offs v st) = x_total_out st. Proof. reflexivity. Qed.
Lemma x_total_in_set_tail_offs v st : x_total_in (set_tail_offs v st) = x_total_in st. Proof. reflexivity. Qed.
Lemma x_ultra_set_tail_offs v st : x_ultra (set_tail_offs v st) = x_ultra st. Proof. reflexivity. Qed.
Lemma x_closed_set_tail_offs v st : x_closed (set_tail_offs v st) = x_closed st. Proof. reflexivity. Qed.
Lemma x_outq_set_tail_offs v st : x_outq (set_tail_offs v st) = x_outq st. Proof. reflexivity. Qed.
Lemma x_eof_missing_set_tail_offs v st : x_eof_missing (set_tail_offs v st) = x_eof_missing st. Proof. reflexivity. Qed.
Lemma x_input_q_set_tail_offs v st : x_input_q (set_tail_offs v st) = x_input_q st. Proof. reflexivity. Qed.
Lemma x_zombies_set_tail_offs v st : x_zombies (set_tail_offs v st) = x_zombies st. Proof. reflexivity. Qed.
Lemma x_head_offs_set_tail_offs v st : x_head_offs (set_tail_offs v st) = x_head_offs st. Proof. reflexivity. Qed.
Lemma x_tail_offs_set_tail_offs v st : x_tail_offs (set_tail_offs v st) = v. Proof. reflexivity. Qed.
Lemma x_retr_q_set_tail_offs v st : x_retr_q (set_tail_offs v st) = x_retr_q st. Proof. reflexivity. Qed.
Lemma x_emit_q_set_tail_offs v st : x_emit_q (set_tail_offs v st) = x_emit_q st. Proof. reflexivity. Qed.
Lemma x_reord_q_set_tail_offs v st : x_reord_q (set_tail_offs v st) = x_reord_q st. Proof. reflexivity. Qed.
Lemma x_order_q_set_tail_offs v st : x_order_q (set_tail_offs v st) = x_order_q st. Proof. reflexivity. Qed.
Lemma x_unords_set_tail_offs v st : x_unords (set_tail_offs v st) = x_unords st. Proof. reflexivity. Qed.
Lemma x_next_uid_set_tail_offs v st : x_next_uid (set_tail_offs v st) = x_next_uid st. Proof. reflexivity. Qed.
Lemma x_parse_token_set_tail_offs v st : x_parse_token (set_tail_offs v st) = x_parse_token st. Proof. reflexivity. Qed.
Lemma x_parsing_done_set_tail_offs v st : x_parsing_done (set_tail_offs v st) = x_parsing_done st. Proof. reflexivity. Qed.
Lemma x_scan_q_set_tail_offs v st : x_scan_q (set_tail_offs v st) = x_scan_q st. Proof. reflexivity. Qed.
Lemma x_reord_offs_set_tail_offs v st : x_reord_offs (set_tail_offs v st) = x_reord_offs st. Proof. reflexivity. Qed.
Lemma x_parser_bs_set_tail_offs v st : x_parser_bs (set_tail_offs v st) = x_parser_bs st. Proof. reflexivity. Qed.
Lemma x_par_set_tail_offs v st : x_par (set_tail_offs v st) = x_par st. Proof. reflexivity. Qed.
Lemma x_running_set_tail_offs v st : x_running (set_tail_offs v st) = x_running st. Proof. reflexivity. Qed.
Lemma x_written_set_tail_offs v st : x_written (set_tail_offs v st) = x_written st. Proof. reflexivity. Qed.
Lemma x_failed_set_tail_offs v st : x_failed (set_tail_offs v st) = x_failed st. Proof. reflexivity. Qed.
Lemma x_bad_attach_set_tail_offs v st : x_bad_attach (set_tail_offs v st) = x_bad_attach st. Proof. reflexivity. Qed.
Lemma x_next_set_tail_offs v st : x_next (set_tail_offs v st) = x_next st. Proof. reflexivity. Qed.
Lemma x_eof_set_retr_q v st : x_eof (set_retr_q v st) = x_eof st. Proof. reflexivity. Qed.
Lemma x_work_units_set_retr_q v st : x_work_units (set_retr_q v st) = x_work_units st. Proof. reflexivity. Qed.
Lemma x_out_slots_set_retr_q v st : x_out_slots (set_retr_q v st) = x_out_slots st. Proof. reflexivity. Qed.
Lemma x_in_slots_set_retr_q v st : x_in_slots (set_retr_q v st) = x_in_slots st. Proof. reflexivity. Qed.
Lemma x_num_worker_set_retr_q v st : x_num_worker (set_retr_q v st) = x_num_worker st. Proof. reflexivity. Qed.
Lemma x_total_out_set_retr_q v st : x_total_out (set_retr_q v st) = x_total_out st. Proof. reflexivity. Qed.
Lemma x_total_in_set_retr_q v st : x_total_in (set_retr_q v st) = x_total_in st. Proof. reflexivity. Qed.
Lemma x_ultra_set_retr_q v st : x_ultra (set_retr_q v st) = x_ultra st. Proof. reflexivity. Qed.
Lemma x_closed_set_retr_q v st : x_closed (set_retr_q v st) = x_closed st. Proof. reflexivity. Qed.
Lemma x_outq_set_retr_q v st : x_outq (set_retr_q v st) = x_outq st. Proof. reflexivity. Qed.
Lemma x_eof_missing_set_retr_q v st : x_eof_missing (set_retr_q v st) = x_eof_missing st. Proof. reflexivity. Qed.
Lemma x_input_q_set_retr_q v st : x_input_q (set_retr_q v st) = x_input_q st. Proof. reflexivity. Qed.
Lemma x_zombies_set_retr_q v st : x_zombies (set_retr_q v st) = x_zombies st. Proof. reflexivity. Qed.
Lemma x_head_offs_set_retr_q v st : x_head_offs (set_retr_q v st) = x_head_offs st. Proof. reflexivity. Qed.
Lemma x_tail_offs_set_retr_q v st : x_tail_offs (set_retr_q v st) = x_tail_offs st. Proof. reflexivity. Qed.
Lemma x_retr_q_set_retr_q v st : x_retr_q (set_retr_q v st) = v. Proof. reflexivity. Qed.
Lemma x_emit_q_set_retr_q v st : x_emit_q (set_retr_q v st) = x_emit_q st. Proof. reflexivity. Qed.
Lemma x_reord_q_set_retr_q v st : x_reord_q (set_retr_q v st) = x_reord_q st. Proof. reflexivity. Qed.
Lemma x_order_q_set_retr_q v st : x_order_q (set_retr_q v st) = x_order_q st. Proof. reflexivity. Qed.
Lemma x_unords_set_retr_q v st : x_unords (set_retr_q v st) = x_unords st. Proof. reflexivity. Qed.
Lemma x_next_uid_set_retr_q v st : x_next_uid (set_retr_q v st) = x_next_uid st. Proof. reflexivity. Qed.
Lemma x_parse_token_set_retr_q v st : x_parse_token (set_retr_q v st) = x_parse_token st. Proof. reflexivity. Qed.
Lemma x_parsing_done_set_retr_q v st : x_parsing_done (set_retr_q v st) = x_parsing_done st. Proof. reflexivity. Qed.
Lemma x_scan_q_set_retr_q v st : x_scan_q (set_retr_q v st) = x_scan_q st. Proof. reflexivity. Qed.
Lemma x_reord_offs_set_retr_q v st : x_reord_offs (set_retr_q v st) = x_reord_offs st. Proof. reflexivity. Qed.
Lemma x_parser_bs_set_retr_q v st : x_parser_bs (set_retr_q v st) = x_parser_bs st. Proof. reflexivity. Qed.
Lemma x_par_set_retr_q v st : x_par (set_retr_q v st) = x_par st. Proof. reflexivity. Qed.
Lemma x_running_set_retr_q v st : x_running (set_retr_q v st) = x_running st. Proof. reflexivity. Qed.
Lemma x_written_set_retr_q v st : x_written (set_retr_q v st) = x_written st. Proof. reflexivity. Qed.
Lemma x_failed_set_retr_q v st : x_failed (set_retr_q v st) = x_failed st. Proof. reflexivity. Qed.
Lemma x_bad_attach_set_retr_q v st : x_bad_attach (set_retr_q v st) = x_bad_attach st. Proof. reflexivity. Qed.
Lemma x_next_set_retr_q v st : x_next (set_retr_q v st) = x_next st. Proof. reflexivity. Qed.
Lemma x_eof_set_emit_q v st : x_eof (set_emit_q v st) = x_eof st. Proof. reflexivity. Qed.
Lemma x_work_units_set_emit_q v st : x_work_units (set_emit_q v st) = x_work_units st. Proof. reflexivity. Qed.
Lemma x_out_slots_set_emit_q v st : x_out_slots (set_emit_q v st) = x_out_slots st. Proof. reflexivity. Qed.
Lemma x_in_slots_set_emit_q v st : x_in_slots (set_emit_q v st) = x_in_slots st. Proof. reflexivity. Qed.
Lemma x_num_worker_set_emit_q v st : x_num_worker (set_emit_q v st) = x_num_worker st. Proof. reflexivity. Qed.
Lemma x_total_out_set_emit_q v st : x_total_out (set_emit_q v st) = x_total_out st. Proof. reflexivity. Qed.
Lemma x_total_in_set_emit_q v st : x_total_in (set_emit_q v st) = x_total_in st. Proof. reflexivity. Qed.
Lemma x_ultra_set_emit_q v st : x_ultra (set_emit_q v st) = x_ultra st. Proof. reflexivity. Qed.
Lemma x_closed_set_emit_q v st : x_closed (set_emit_q v st) = x_closed st. Proof. reflexivity. Qed.
Lemma x_outq_set_emit_q v st : x_outq (set_emit_q v st) = x_outq st. Proof. reflexivity. Qed.
Lemma x_eof_missing_set_emit_q v st : x_eof_missing (set_emit_q v st) = x_eof_missing st. Proof. reflexivity. Qed.
Lemma x_input_q_set_emit_q v st : x_input_q (set_emit_q v st) = x_input_q st. Proof. reflexivity. Qed.
Lemma x_zombies_set_emit_q v st : x_zombies (set_emit_q v st) = x_zombies st. Proof. reflexivity. Qed.
Lemma x_head_offs_set_emit_q v st : x_head_offs (set_emit_q v st) = x_head_offs st. Proof. reflexivity. Qed.
Lemma x_tail_offs_set_emit_q v st : x_tail_offs (set_emit_q v st) = x_tail_offs st. Proof. reflexivity. Qed.
Lemma x_retr_q_set_emit_q v st : x_retr_q (set_emit_q v st) = x_retr_q st. Proof. reflexivity. Qed.
Lemma x_emit_q_set_emit_q v st : x_emit_q (set_emit_q v st) = v. Proof. reflexivity. Qed.
Lemma x_reord_q_set_emit_q v st : x_reord_q (set_emit_q v st) = x_reord_q st. Proof. reflexivity. Qed.
Lemma x_order_q_set_emit_q v st : x_order_q (set_emit_q v st) = x_order_q st. Proof. reflexivity. Qed.
Lemma x_unords_set_emit_q v st : x_unords (set_emit_q v st) = x_unords st. Proof. reflexivity. Qed.
Lemma x_next_uid_set_emit_q v st : x_next_uid (set_emit_q v st) = x_next_uid st. Proof. reflexivity. Qed.
Lemma x_parse_token_set_emit_q v st : x_parse_token (set_emit_q v st) = x_parse_token st. Proof. reflexivity. Qed.
Lemma x_parsing_done_set_emit_q v st : x_parsing_done (set_emit_q v st) = x_parsing_done st. Proof. reflexivity. Qed.
Lemma x_scan_q_set_emit_q v st : x_scan_q (set_emit_q v st) = x_scan_q st. Proof. reflexivity. Qed.
Lemma x_reord_offs_set_emit_q v st : x_reord_offs (set_emit_q v st) = x_reord_offs st. Proof. reflexivity. Qed.
Lemma x_parser_bs_set_emit_q v st : x_parser_bs (set_emit_q v st) = x_parser_bs st. Proof. reflexivity. Qed.
Lemma x_par_set_emit_q v st : x_par (set_emit_q v st) = x_par st. Proof. reflexivity. Qed.
Lemma x_running_set_emit_q v st : x_running (set_emit_q v st) = x_running st. Proof. reflexivity. Qed.
Lemma x_written_set_emit_q v st : x_written (set_emit_q v st) = x_written st. Proof. reflexivity. Qed.
Lemma x_failed_set_emit_q v st : x_failed (set_emit_q v st) = x_failed st. Proof. reflexivity. Qed.
Lemma x_bad_attach_set_emit_q v st : x_bad_attach (set_emit_q v st) = x_bad_attach st. Proof. reflexivity. Qed.
Lemma x_next_set_emit_q v st : x_next (set_emit_q v st) = x_next st. Proof. reflexivity. Qed.
Lemma x_eof_set_reord_q v st : x_eof (set_reord_q v st) = x_eof st. Proof. reflexivity. Qed.
Lemma x_work_units_set_reord_q v st : x_work_units (set_reord_q v st) = x_work_units st. Proof. reflexivity. Qed.
Lemma x_out_slots_set_reord_q v st : x_out_slots (set_reord_q v st) = x_out_slots st. Proof. reflexivity. Qed.
Lemma x_in_slots_set_reord_q v st : x_in_slots (set_reord_q v st) = x_in_slots st. Proof. reflexivity. Qed.
Lemma x_num_worker_set_reord_q v st : x_num_worker (set_reord_q v st) = x_num_worker st. Proof. reflexivity. Qed.
Lemma x_total_out_set_reord_q v st : x_total_out (set_reord_q v st) = x_total_out st. Proof. reflexivity. Qed.
Lemma x_total_in_set_reord_q v st : x_total_in (set_reord_q v st) = x_total_in st. Proof. reflexivity. Qed.
Lemma x_ultra_set_reord_q v st : x_ultra (set_reord_q v st) = x_ultra st. Proof. reflexivity. Qed.
Lemma x_closed_set_reord_q v st : x_closed (set_reord_q v st) = x_closed st. Proof. reflexivity. Qed.
Lemma x_outq_set_reord_q v st : x_outq (set_reord_q v st) = x_outq st. Proof. reflexivity. Qed.
Lemma x_eof_missing_set_reord_q v st : x_eof_missing (set_reord_q v st) = x_eof_missing st. Proof. reflexivity. Qed.
Lemma x_input_q_set_reord_q v st : x_input_q (set_reord_q v st) = x_input_q st. Proof. reflexivity. Qed.
Lemma x_zombies_set_reord_q v st : x_zombies (set_reord_q v st) = x_zombies st. Proof. reflexivity. Qed.
Lemma x_head_offs_set_reord_q v st : x_head_offs (set_reord_q v st) = x_head_offs st. Proof. reflexivity. Qed.
Lemma x_tail_offs_set_reord_q v st : x_tail_offs (set_reord_q v st) = x_tail_offs st. Proof. reflexivity. Qed.
Lemma x_retr_q_set_reord_q v st : x_retr_q (set_reord_q v st) = x_retr_q st. Proof. reflexivity. Qed.
Lemma x_emit_q_set_reord_q v st : x_emit_q (set_reord_q v st) = x_emit_q st. Proof. reflexivity. Qed.
Lemma x_reord_q_set_reord_q v st : x_reord_q (set_reord_q v st) = v. Proof. reflexivity. Qed.
Lemma x_order_q_set_reord_q v st : x_order_q (set_reord_q v st) = x_order_q st. Proof. reflexivity. Qed.
Lemma x_unords_set_reord_q v st : x_unords (set_reord_q v st) = x_unords st. Proof. reflexivity. Qed.
Lemma x_next_uid_set_reord_q v st : x_next_uid (set_reord_q v st) = x_next_uid st. Proof. reflexivity. Qed.
Lemma x_parse_token_set_reord_q v st : x_parse_token (set_reord_q v st) = x_parse_token st. Proof. reflexivity. Qed.
Lemma x_parsing_done_set_reord_q v st : x_parsing_done (set_reord_q v st) = x_parsing_done st. Proof. reflexivity. Qed.
Lemma x_scan_q_set_reord_q v st : x_scan_q (set_reord_q v st) = x_scan_q st. Proof. reflexivity. Qed.
Lemma x_reord_offs_set_reord_q v st : x_reord_offs (set_reord_q v st) = x_reord_offs st. Proof. reflexivity. Qed.
Lemma x_parser_bs_set_reord_q v st : x_parser_bs (set_reord_q v st) = x_parser_bs st. Proof. reflexivity. Qed.
Lemma x_par_set_reord_q v st : x_par (set_reord_q v st) = x_par st. Proof. reflexivity. Qed.
Lemma x_running_set_reord_q v st : x_running (set_reord_q v st) = x_running st. Proof. reflexivity. Qed.
Lemma x_written_set_reord_q v st : x_written (set_reord_q v st) = x_written st. Proof. reflexivity. Qed.
Lemma x_failed_set_reord_q v st : x_failed (set_reord_q v st) = x_failed st. Proof. reflexivity. Qed.
Lemma x_bad_attach_set_reord_q v st : x_bad_attach (set_reord_q v st) = x_bad_attach st. Proof. reflexivity. Qed.
Lemma x_next_set_reord_q v st : x_next (set_reord_q v st) = x_next st. Proof. reflexivity. Qed.
Lemma x_eof_set_order_q v st : x_eof (set_order_q v st) = x_eof st. Proof. reflexivity. Qed.
Lemma x_work_units_set_order_q v st : x_work_units (set_order_q v st) = x_work_units st. Proof. reflexivity. Qed.
Lemma x_out_slots_set_order_q v st : x_out_slots (set_order_q v st) = x_out_slots st. Proof. reflexivity. Qed.
Lemma x_in_slots_set_order_q v st : x_in_slots (set_order_q v st) = x_in_slots st. Proof. reflexivity. Qed.
Lemma x_num_worker_set_order_q v st : x_num_worker (set_order_q v st) = x_num_worker st. Proof. reflexivity. Qed.
Lemma x_total_out_set_order_q v st : x_total_out (set_order_q v st) = x_total_out st. Proof. reflexivity. Qed.
Lemma x_total_in_set_order_q v st : x_total_in (set_order_q v st) = x_total_in st. Proof. reflexivity. Qed.
Lemma x_ultra_set_order_q v st : x_ultra (set_order_q v st) = x_ultra st. Proof. reflexivity. Qed.
Lemma x_closed_set_order_q v st : x_closed (set_order_q v st) = x_closed st. Proof. reflexivity. Qed.
Lemma x_outq_set_order_q v st : x_outq (set_order_q v st) = x_outq st. Proof. reflexivity. Qed.
Lemma x_eof_missing_set_order_q v st : x_eof_missing (set_order_q v st) = x_eof_missing st. Proof. reflexivity. Qed.
Lemma x_input_q_set_order_q v st : x_input_q (set_order_q v st) = x_input_q st. Proof. reflexivity. Qed.
Lemma x_zombies_set_order_q v st : x_zombies (set_order_q v st) = x_zombies st. Proof. reflexivity. Qed.
Lemma x_head_offs_set_order_q v st : x_head_offs (set_order_q v st) = x_head_offs st. Proof. reflexivity. Qed.
Lemma x_tail_offs_set_order_q v st : x_tail_offs (set_order_q v st) = x_tail_offs st. Proof. reflexivity. Qed.
Lemma x_retr_q_set_order_q v st : x_retr_q (set_order_q v st) = x_retr_q st. Proof. reflexivity. Qed.
Lemma x_emit_q_set_order_q v st : x_emit_q (set_order_q v st) = x_emit_q st. Proof. reflexivity. Qed.
Lemma x_reord_q_set_order_q v st : x_reord_q (set_order_q v st) = x_reord_q st. Proof. reflexivity. Qed.
Lemma x_order_q_set_order_q v st : x_order_q (set_order_q v st) = v. Proof. reflexivity. Qed.
Lemma x_unords_set_order_q v st : x_unords (set_order_q v st) = x_unords st. Proof. reflexivity. Qed.
Lemma x_next_uid_set_order_q v st : x_next_uid (set_order_q v st) = x_next_uid st. Proof. reflexivity. Qed.
Lemma x_parse_token_set_order_q v st : x_parse_token (set_order_q v st) = x_parse_token st. Proof. reflexivity. Qed.
Lemma x_parsing_done_set_order_q v st : x_parsing_done (set_order_q v st) = x_parsing_done st. Proof. reflexivity. Qed.
Lemma x_scan_q_set_order_q v st : x_scan_q (set_order_q v st) = x_scan_q st. Proof. reflexivity. Qed.
Lemma x_reord_offs_set_order_q v st : x_reord_offs (set_order_q v st) = x_reord_offs st. Proof. reflexivity. Qed.
Lemma x_parser_bs_set_order_q v st : x_parser_bs (set_order_q v st) = x_parser_bs st. Proof. reflexivity. Qed.
Lemma x_par_set_order_q v st : x_par (set_order_q v st) = x_par st. Proof. reflexivity. Qed.
Lemma x_running_set_order_q v st : x_running (set_order_q v st) = x_running st. Proof. reflexivity. Qed.
Lemma x_written_set_order_q v st : x_written (set_order_q v st) = x_written st. Proof. reflexivity. Qed.
Lemma x_failed_set_order_q v st : x_failed (set_order_q v st) = x_failed st. Proof. reflexivity. Qed.
Lemma x_bad_attach_set_order_q v st : x_bad_attach (set_order_q v st) = x_bad_attach st. Proof. reflexivity. Qed.
Lemma x_next_set_order_q v st : x_next (set_order_q v st) = x_next st. Proof. reflexivity. Qed.
Lemma x_eof_set_unords v st : x_eof (set_unords v st) = x_eof st. Proof. reflexivity. Qed.
Lemma x_work_units_set_unords v st : x_work_units (set_unords v st) = x_work_units st. Proof. reflexivity. Qed.
Lemma x_out_slots_set_unords v st : x_out_slots (set_unords v st) = x_out_slots st. Proof. reflexivity. Qed.
Lemma x_in_slots_set_unords v st : x_in_slots (set_unords v st) = x_in_slots st. Proof. reflexivity. Qed.
Lemma x_num_worker_set_unords v st : x_num_worker (set_unords v st) = x_num_worker st. Proof. reflexivity. Qed.
Lemma x_total_out_set_unords v st : x_total_out (set_unords v st) = x_total_out st. Proof. reflexivity. Qed.
Lemma x_total_in_set_unords v st : x_total_in (set_unords v st) = x_total_in st. Proof. reflexivity. Qed.
Lemma x_ultra_set_unords v st : x_ultra (set_unords v st) = x_ultra st. Proof. reflexivity. Qed.
Lemma x_closed_set_unords v st : x_closed (set_unords v st) = x_closed st. Proof. reflexivity. Qed.
Lemma x_outq_set_unords v st : x_outq (set_unords v st) = x_outq st. Proof. reflexivity. Qed.
Lemma x_eof_missing_set_unords v st : x_eof_missing (set_unords v st) = x_eof_missing st. Proof. reflexivity. Qed.
Lemma x_input_q_set_unords v st : x_input_q (set_unords v st) = x_input_q st. Proof. reflexivity. Qed.
Lemma x_zombies_set_unords v st : x_zombies (set_unords v st) = x_zombies st. Proof. reflexivity. Qed.
Lemma x_head_offs_set_unords v st : x_head_offs (set_unords v st) = x_head_offs st. Proof. reflexivity. Qed.
Lemma x_tail_offs_set_unords v st : x_tail_offs (set_unords v st) = x_tail_offs st. Proof. reflexivity. Qed.
Lemma x_retr_q_set_unords v st : x_retr_q (set_unords v st) = x_retr_q st. Proof. reflexivity. Qed.
Lemma x_emit_q_set_unords v st : x_emit_q (set_unords v st) = x_emit_q st. Proof. reflexivity. Qed.
Lemma x_reord_q_set_unords v st : x_reord_q (set_unords v st) = x_reord_q st. Proof. reflexivity. Qed.
Lemma x_order_q_set_unords v st : x_order_q (set_unords v st) = x_order_q st. Proof. reflexivity. Qed.
Lemma x_unords_set_unords v st : x_unords (set_unords v st) = v. Proof. reflexivity. Qed.
Lemma x_next_uid_set_unords v st : x_next_uid (set_unords v st) = x_next_uid st. Proof. reflexivity. Qed.
Lemma x_parse_token_set_unords v st : x_parse_token (set_unords v st) = x_parse_token st. Proof. reflexivity. Qed.
Lemma x_parsing_done_set_unords v st : x_parsing_done (set_unords v st) = x_parsing_done st. Proof. reflexivity. Qed.
Lemma x_scan_q_set_unords v st : x_scan_q (set_unords v st) = x_scan_q st. Proof. reflexivity. Qed.
Lemma x_reord_offs_set_unords v st : x_reord_offs (set_unords v st) = x_reord_offs st. Proof. reflexivity. Qed.
Lemma x_parser_bs_set_unords v st : x_parser_bs (set_unords v st) = x_parser_bs st. Proof. reflexivity. Qed.
Lemma x_par_set_unords v st : x_par (set_unords v st) = x_par st. Proof. reflexivity. Qed.
Lemma x_running_set_unords v st : x_running (set_unords v st) = x_running st. Proof. reflexivity. Qed.
Lemma x_written_set_unords v st : x_written (set_unords v st) = x_written st. Proof. reflexivity. Qed.
Lemma x_failed_set_unords v st : x_failed (set_unords v st) = x_failed st. Proof. reflexivity. Qed.
Lemma x_bad_attach_set_unords v st : x_bad_attach (set_unords v st) = x_bad_attach st. Proof. reflexivity. Qed.
Lemma x_next_set_unords v st : x_next (set_unords v st) = x_next st. Proof. reflexivity. Qed.
Lemma x_eof_set_next_uid v st : x_eof (set_next_uid v st) = x_eof st. Proof. reflexivity. Qed.
Lemma x_work_units_set_next_uid v st : x_work_units (set_next_uid v st) = x_work_units st. Proof. reflexivity. Qed.
Lemma x_out_slots_set_next_uid v st : x_out_slots (set_next_uid v st) = x_out_slots st. Proof. reflexivity. Qed.
Lemma x_in_slots_set_next_uid v st : x_in_slots (set_next_uid v st) = x_in_slots st. Proof. reflexivity. Qed.
Lemma x_num_worker_set_next_uid v st : x_num_worker (set_next_uid v st) = x_num_worker st. Proof. reflexivity. Qed.
Lemma x_total_out_set_next_uid v st : x_total_out (set_next_uid v st) = x_total_out st. Proof. reflexivity. Qed.
Lemma x_total_in_set_next_uid v st : x_total_in (set_next_uid v st) = x_total_in st. Proof. reflexivity. Qed.
Lemma x_ultra_set_next_uid v st : x_ultra (set_next_uid v st) = x_ultra st. Proof. reflexivity. Qed.
Lemma x_closed_set_next_uid v st : x_closed (set_next_uid v st) = x_closed st. Proof. reflexivity. Qed.
Lemma x_outq_set_next_uid v st : x_outq (set_next_uid v st) = x_outq st. Proof. reflexivity. Qed.
Lemma x_eof_missing_set_next_uid v st : x_eof_missing (set_next_uid v st) = x_eof_missing st. Proof. reflexivity. Qed.
Lemma x_input_q_set_next_uid v st : x_input_q (set_next_uid v st) = x_input_q st. Proof. reflexivity. Qed.
Lemma x_zombies_set_next_uid v st : x_zombies (set_next_uid v st) = x_zombies st. Proof. reflexivity. Qed.
Lemma x_head_offs_set_next_uid v st : x_head_offs (set_next_uid v st) = x_head_offs st. Proof. reflexivity. Qed.
Lemma x_tail_offs_set_next_uid v st : x_tail_offs (set_next_uid v st) = x_tail_offs st. Proof. reflexivity. Qed.
Lemma x_retr_q_set_next_uid v st : x_retr_q (set_next_uid v st) = x_retr_q st. Proof. reflexivity. Qed.
Lemma x_emit_q_set_next_uid v st : x_emit_q (set_next_uid v st) = x_emit_q st. Proof. reflexivity. Qed.
Lemma x_reord_q_set_next_uid v st : x_reord_q (set_next_uid v st) = x_reord_q st. Proof. reflexivity. Qed.
Lemma x_order_q_set_next_uid v st : x_order_q (set_next_uid v st) = x_order_q st. Proof. reflexivity. Qed.
Lemma x_unords_set_next_uid v st : x_unords (set_next_uid v st) = x_unords st. Proof. reflexivity. Qed.
Lemma x_next_uid_set_next_uid v st : x_next_uid (set_next_uid v st) = v. Proof. reflexivity. Qed.
Lemma x_parse_token_set_next_uid v st : x_parse_token (set_next_uid v st) = x_parse_token st. Proof. reflexivity. Qed.
Lemma x_parsing_done_set_next_uid v st : x_parsing_done (set_next_uid v st) = x_parsing_done st. Proof. reflexivity. Qed.
Lemma x_scan_q_set_next_uid v st : x_scan_q (set_next_uid v st) = x_scan_q st. Proof. reflexivity. Qed.
Lemma x_reord_offs_set_next_uid v st : x_reord_offs (set_next_uid v st) = x_reord_offs st. Proof. reflexivity. Qed.
Lemma x_parser_bs_set_next_uid v st : x_parser_bs (set_next_uid v st) = x_parser_bs st. Proof. reflexivity. Qed.
Lemma x_par_set_next_uid v st : x_par (set_next_uid v st) = x_par st. Proof. reflexivity. Qed.
Lemma x_running_set_next_uid v st : x_running (set_next_uid v st) = x_running st. Proof. reflexivity. Qed.
Lemma x_written_set_next_uid v st : x_written (set_next_uid v st) = x_written st. Proof. reflexivity. Qed.
Lemma x_failed_set_next_uid v st : x_failed (set_next_uid v st) = x_failed st. Proof. reflexivity. Qed.
Lemma x_bad_attach_set_next_uid v st : x_bad_attach (set_next_uid v st) = x_bad_attach st. Proof. reflexivity. Qed.
Lemma x_next_set_next_uid v st : x_next (set_next_uid v st) = x_next st. Proof. reflexivity. Qed.
Lemma x_eof_set_parse_token v st : x_eof (set_parse_token v st) = x_eof st. Proof. reflexivity. Qed.
Lemma x_work_units_set_parse_token v st : x_work_units (set_parse_token v st) = x_work_units st. Proof. reflexivity. Qed.
Lemma x_out_slots_set_parse_token v st : x_out_slots (set_parse_token v st) = x_out_slots st. Proof. reflexivity. Qed.
Lemma x_in_slots_set_parse_token v st : x_in_slots (set_parse_token v st) = x_in_slots st. Proof. reflexivity. Qed.
Lemma x_num_worker_set_parse_token v st : x_num_worker (set_parse_token v st) = x_num_worker st. Proof. reflexivity. Qed.
Lemma x_total_out_set_parse_token v st : x_total_out (set_parse_token v st) = x_total_out st. Proof. reflexivity. Qed.
Lemma x_total_in_set_parse_token v st : x_total_in (set_parse_token v st) = x_total_in st. Proof. reflexivity. Qed.
Lemma x_ultra_set_parse_token v st : x_ultra (set_parse_token v st) = x_ultra st. Proof. reflexivity. Qed.
Lemma x_closed_set_parse_token v st : x_closed (set_parse_token v st) = x_closed st. Proof. reflexivity. Qed.
Lemma x_outq_set_parse_token v st : x_outq (set_parse_token v st) = x_outq st. Proof. reflexivity. Qed.
Lemma x_eof_missing_set_parse_token v st : x_eof_missing (set_parse_token v st) = x_eof_missing st. Proof. reflexivity. Qed.
Lemma x_input_q_set_parse_token v st : x_input_q (set_parse_token v st) = x_input_q st. Proof. reflexivity. Qed.
Lemma x_zombies_set_parse_token v st : x_zombies (set_parse_token v st) = x_zombies st. Proof. reflexivity. Qed.
Lemma x_head_offs_set_parse_token v st : x_head_offs (set_parse_token v st) = x_head_offs st. Proof. reflexivity. Qed.
Lemma x_tail_offs_set_parse_token v st : x_tail_offs (set_parse_token v st) = x_tail_offs st. Proof. reflexivity. Qed.
Lemma x_retr_q_set_parse_token v st : x_retr_q (set_parse_token v st) = x_retr_q st. Proof. reflexivity. Qed.
Lemma x_emit_q_set_parse_token v st : x_emit_q (set_parse_token v st) = x_emit_q st. Proof. reflexivity. Qed.
Lemma x_reord_q_set_parse_token v st : x_reord_q (set_parse_token v st) = x_reord_q st. Proof. reflexivity. Qed.
Lemma x_order_q_set_parse_token v st : x_order_q (set_parse_token v st) = x_order_q st. Proof. reflexivity. Qed.
Lemma x_unords_set_parse_token v st : x_unords (set_parse_token v st) = x_unords st. Proof. reflexivity. Qed.
Lemma x_next_uid_set_parse_token v st : x_next_uid (set_parse_token v st) = x_next_uid st. Proof. reflexivity. Qed.
Lemma x_parse_token_set_parse_token v st : x_parse_token (set_parse_token v st) = v. Proof. reflexivity. Qed.
Lemma x_parsing_done_set_parse_token v st : x_parsing_done (set_parse_token v st) = x_parsing_done st. Proof. reflexivity. Qed.
Lemma x_scan_q_set_parse_token v st : x_scan_q (set_parse_token v st) = x_scan_q st. Proof. reflexivity. Qed.
Lemma x_reord_offs_set_parse_token v st : x_reord_offs (set_parse_token v st) = x_reord_offs st. Proof. reflexivity. Qed.
Lemma x_parser_bs_set_parse_token v st : x_parser_bs (set_parse_token v st) = x_parser_bs st. Proof. reflexivity. Qed.
Lemma x_par_set_parse_token v st : x_par (set_parse_token v st) = x_par st. Proof. reflexivity. Qed.
Lemma x_running_set_parse_token v st : x_running (set_parse_token v st) = x_running st. Proof. reflexivity. Qed.
Lemma x_written_set_parse_token v st : x_written (set_parse_token v st) = x_written st. Proof. reflexivity. Qed.
Lemma x_failed_set_parse_token v st : x_failed (set_parse_token v st) = x_failed st. Proof. reflexivity. Qed.
Lemma x_bad_attach_set_parse_token v st : x_bad_attach (set_parse_token v st) = x_bad_attach st. Proof. reflexivity. Qed.
Lemma x_next_set_parse_token v st : x_next (set_parse_token v st) = x_next st. Proof. reflexivity. Qed.
Lemma x_eof_set_parsing_done v st : x_eof (set_parsing_done v st) = x_eof st. Proof. reflexivity. Qed.
Lemma x_work_units_set_parsing_done v st : x_work_units (set_parsing_done v st) = x_work_units st. Proof. reflexivity. Qed.
Lemma x_out_slots_set_parsing_done v st : x_out_slots (set_parsing_done v st) = x_out_slots st. Proof. reflexivity. Qed.
Lemma x_in_slots_set_parsing_done v st : x_in_slots (set_parsing_done v st) = x_in_slots st. Proof. reflexivity. Qed.
Lemma x_num_worker_set_parsing_done v st : x_num_worker (set_parsing_done v st) = x_num_worker st. Proof. reflexivity. Qed.
Lemma x_total_out_set_parsing_done v st : x_total_out (set_parsing_done v st) = x_total_out st. Proof. reflexivity. Qed.
Lemma x_total_in_set_parsing_done v st : x_total_in (set_parsing_done v st) = x_total_in st. Proof. reflexivity. Qed.
Lemma x_ultra_set_parsing_done v st : x_ultra (set_parsing_done v st) = x_ultra st. Proof. reflexivity. Qed.
Lemma x_closed_set_parsing_done v st : x_closed (set_parsing_done v st) = x_closed st. Proof. reflexivity. Qed.
Lemma x_outq_set_parsing_done v st : x_outq (set_parsing_done v st) = x_outq st. Proof. reflexivity. Qed.
Lemma x_eof_missing_set_parsing_done v st : x_eof_missing (set_parsing_done v st) = x_eof_missing st. Proof. reflexivity. Qed.
Lemma x_input_q_set_parsing_done v st : x_input_q (set_parsing_done v st) = x_input_q st. Proof. reflexivity. Qed.
Lemma x_zombies_set_parsing_done v st : x_zombies (set_parsing_done v st) = x_zombies st. Proof. reflexivity. Qed.
Lemma x_head_offs_set_parsing_done v st : x_head_offs (set_parsing_done v st) = x_head_offs st. Proof. reflexivity. Qed.
Lemma x_tail_offs_set_parsing_done v st : x_tail_offs (set_parsing_done v st) = x_tail_offs st. Proof. reflexivity. Qed.
Lemma x_retr_q_set_parsing_done v st : x_retr_q (set_parsing_done v st) = x_retr_q st. Proof. reflexivity. Qed.
Lemma x_emit_q_set_parsing_done v st : x_emit_q (set_parsing_done v st) = x_emit_q st. Proof. reflexivity. Qed.
Lemma x_reord_q_set_parsing_done v st : x_reord_q (set_parsing_done v st) = x_reord_q st. Proof. reflexivity. Qed.
Lemma x_order_q_set_parsing_done v st : x_order_q (set_parsing_done v st) = x_order_q st. Proof. reflexivity. Qed.
Lemma x_unords_set_parsing_done v st : x_unords (set_parsing_done v st) = x_unords st. Proof. reflexivity. Qed.
Lemma x_next_uid_set_parsing_done v st : x_next_uid (set_parsing_done v st) = x_next_uid st. Proof. reflexivity. Qed.
Lemma x_parse_token_set_parsing_done v st : x_parse_token (set_parsing_done v st) = x_parse_token st. Proof. reflexivity. Qed.
Lemma x_parsing_done_set_parsing_done v st : x_parsing_done (set_parsing_done v st) = v. Proof. reflexivity. Qed.
Lemma x_scan_q_set_parsing_done v st : x_scan_q (set_parsing_done v st) = x_scan_q st. Proof. reflexivity. Qed.
Lemma x_reord_offs_set_parsing_done v st : x_reord_offs (set_parsing_done v st) = x_reord_offs st. Proof. reflexivity. Qed.
Lemma x_parser_bs_set_parsing_done v st : x_parser_bs (set_parsing_done v st) = x_parser_bs st. Proof. reflexivity. Qed.
Lemma x_par_set_parsing_done v st : x_par (set_parsing_done v st) = x_par st. Proof. reflexivity. Qed.
Lemma x_running_set_parsing_done v st : x_running (set_parsing_done v st) = x_running st. Proof. reflexivity. Qed.
Lemma x_written_set_parsing_done v st : x_written (set_parsing_done v st) = x_written st. Proof. reflexivity. Qed.
Lemma x_failed_set_parsing_done v st : x_failed (set_parsing_done v st) = x_failed st. Proof. reflexivity. Qed.
Lemma x_bad_attach_set_parsing_done v st : x_bad_attach (set_parsing_done v st) = x_bad_attach st. Proof. reflexivity. Qed.
Lemma x_next_set_parsing_done v st : x_next (set_parsing_done v st) = x_next st. Proof. reflexivity. Qed.
Lemma x_eof_set_scan_q v st : x_eof (set_scan_q v st) = x_eof st. Proof. reflexivity. Qed.
Lemma x_work_units_set_scan_q v st : x_work_units (set_scan_q v st) = x_work_units st. Proof. reflexivity. Qed.
Lemma x_out_slots_set_scan_q v st : x_out_slots (set_scan_q v st) = x_out_slots st. Proof. reflexivity. Qed.
Lemma x_in_slots_set_scan_q v st : x_in_slots (set_scan_q v st) = x_in_slots st. Proof. reflexivity. Qed.
Lemma x_num_worker_set_scan_q v st : x_num_worker (set_scan_q v st) = x_num_worker st. Proof. reflexivity. Qed.
Lemma x_total_out_set_scan_q v st : x_total_out (set_scan_q v st) = x_total_out st. Proof. reflexivity. Qed.
Lemma x_total_in_set_scan_q v st : x_total_in (set_scan_q v st) = x_total_in st. Proof. reflexivity. Qed.
Lemma x_ultra_set_scan_q v st : x_ultra (set_scan_q v st) = x_ultra st. Proof. reflexivity. Qed.
Lemma x_closed_set_scan_q v st : x_closed (set_scan_q v st) = x_closed st. Proof. reflexivity. Qed.
Lemma x_outq_set_scan_q v st : x_outq (set_scan_q v st) = x_outq st. Proof. reflexivity. Qed.
Lemma x_eof_missing_set_scan_q v st : x_eof_missing (set_scan_q v st) = x_eof_missing st. Proof. reflexivity. Qed.
Lemma x_input_q_set_scan_q v st : x_input_q (set_scan_q v st) = x_input_q st. Proof. reflexivity. Qed.
Lemma x_zombies_set_scan_q v st : x_zombies (set_scan_q v st) = x_zombies st. Proof. reflexivity. Qed.
Lemma x_head_offs_set_scan_q v st : x_head_offs (set_scan_q v st) = x_head_offs st. Proof. reflexivity. Qed.
Lemma x_tail_offs_set_scan_q v st : x_tail_offs (set_scan_q v st) = x_tail_offs st. Proof. reflexivity. Qed.
Lemma x_retr_q_set_scan_q v st : x_retr_q (set_scan_q v st) = x_retr_q st. Proof. reflexivity. Qed.
Lemma x_emit_q_set_scan_q v st : x_emit_q (set_scan_q v st) = x_emit_q st. Proof. reflexivity. Qed.
Lemma x_reord_q_set_scan_q v st : x_reord_q (set_scan_q v st) = x_reord_q st. Proof. reflexivity. Qed.
Lemma x_order_q_set_scan_q v st : x_order_q (set_scan_q v st) = x_order_q st. Proof. reflexivity. Qed.
Lemma x_unords_set_scan_q v st : x_unords (set_scan_q v st) = x_unords st. Proof. reflexivity. Qed.
Lemma x_next_uid_set_scan_q v st : x_next_uid (set_scan_q v st) = x_next_uid st. Proof. reflexivity. Qed.
Lemma x_parse_token_set_scan_q v st : x_parse_token (set_scan_q v st) = x_parse_token st. Proof. reflexivity. Qed.
Lemma x_parsing_done_set_scan_q v st : x_parsing_done (set_scan_q v st) = x_parsing_done st. Proof. reflexivity. Qed.
Lemma x_scan_q_set_scan_q v st : x_scan_q (set_scan_q v st) = v. Proof. reflexivity. Qed.
Lemma x_reord_offs_set_scan_q v st : x_reord_offs (set_scan_q v st) = x_reord_offs st. Proof. reflexivity. Qed.
Lemma x_parser_bs_set_scan_q v st : x_parser_bs (set_scan_q v st) = x_parser_bs st. Proof. reflexivity. Qed.
Lemma x_par_set_scan_q v st : x_par (set_scan_q v st) = x_par st. Proof. reflexivity. Qed.
Lemma x_running_set_scan_q v st : x_running (set_scan_q v st) = x_running st. Proof. reflexivity. Qed.
Lemma x_written_set_scan_q v st : x_written (set_scan_q v st) = x_written st. Proof. reflexivity. Qed.
Lemma x_failed_set_scan_q v st : x_failed (set_scan_q v st) = x_failed st. Proof. reflexivity. Qed.
Lemma x_bad_attach_set_scan_q v st : x_bad_attach (set_scan_q v st) = x_bad_attach st. Proof. reflexivity. Qed.
Lemma x_next_set_scan_q v st : x_next (set_scan_q v st) = x_next st. Proof. reflexivity. Qed.
Lemma x_eof_set_reord_offs v st : x_eof (set_reord_offs v st) = x_eof st. Proof. reflexivity. Qed.
Lemma x_work_units_set_reord_offs v st : x_work_units (set_reord_offs v st) = x_work_units st. Proof. reflexivity. Qed.
Lemma x_out_slots_set_reord_offs v st : x_out_slots (set_reord_offs v st) = x_out_slots st. Proof. reflexivity. Qed.
Lemma x_in_slots_set_reord_offs v st : x_in_slots (set_reord_offs v st) = x_in_slots st. Proof. reflexivity. Qed.
Lemma x_num_worker_set_reord_offs v st : x_num_worker (set_reord_offs v st) = x_num_worker st. Proof. reflexivity. Qed.
Lemma x_total_out_set_reord_offs v st : x_total_out (set_reord_offs v st) = x_total_out st. Proof. reflexivity. Qed.
Lemma x_total_in_set_reord_offs v st : x_total_in (set_reord_offs v st) = x_total_in st. Proof. reflexivity. Qed.
Lemma x_ultra_set_reord_offs v st : x_ultra (set_reord_offs v st) = x_ultra st. Proof. reflexivity. Qed.
Lemma x_closed_set_reord_offs v st : x_closed (set_reord_offs v st) = x_closed st. Proof. reflexivity. Qed.
Lemma x_outq_set_reord_offs v st : x_outq (set_reord_offs v st) = x_outq st. Proof. reflexivity. Qed.
Lemma x_eof_missing_set_reord_offs v st : x_eof_missing (set_reord_offs v st) = x_eof_missing st. Proof. reflexivity. Qed.
Lemma x_input_q_set_reord_offs v st : x_input_q (set_reord_offs v st) = x_input_q st. Proof. reflexivity. Qed.
Lemma x_zombies_set_reord_offs v st : x_zombies (set_reord_offs v st) = x_zombies st. Proof. reflexivity. Qed.
Lemma x_head_offs_set_reord_offs v st : x_head_offs (set_reord_offs v st) = x_head_offs st. Proof. reflexivity. Qed.
Lemma x_tail_offs_set_reord_offs v st : x_tail_offs (set_reord_offs v st) = x_tail_offs st. Proof. reflexivity. Qed.
Lemma x_retr_q_set_reord_offs v st : x_retr_q (set_reord_offs v st) = x_retr_q st. Proof. reflexivity. Qed.
Lemma x_emit_q_set_reord_offs v st : x_emit_q (set_reord_offs v st) = x_emit_q st. Proof. reflexivity. Qed.
Lemma x_reord_q_set_reord_offs v st : x_reord_q (set_reord_offs v st) = x_reord_q st. Proof. reflexivity. Qed.
Lemma x_order_q_set_reord_offs v st : x_order_q (set_reord_offs v st) = x_order_q st. Proof. reflexivity. Qed.
Lemma x_unords_set_reord_offs v st : x_unords (set_reord_offs v st) = x_unords st. Proof. reflexivity. Qed.
Lemma x_next_uid_set_reord_offs v st : x_next_uid (set_reord_offs v st) = x_next_uid st. Proof. reflexivity. Qed.
Lemma x_parse_token_set_reord_offs v st : x_parse_token (set_reord_offs v st) = x_parse_token st. Proof. reflexivity. Qed.
Lemma x_parsing_done_set_reord_offs v st : x_parsing_done (set_reord_offs v st) = x_parsing_done st. Proof. reflexivity. Qed.
Lemma x_scan_q_set_reord_offs v st : x_scan_q (set_reord_offs v st) = x_scan_q st. Proof. reflexivity. Qed.
Lemma x_reord_offs_set_reord_offs v st : x_reord_offs (set_reord_offs v st) = v. Proof. reflexivity. Qed.
Lemma x_parser_bs_set_reord_offs v st : x_parser_bs (set_reord_offs v st) = x_parser_bs st. Proof. reflexivity. Qed.
Lemma x_par_set_reord_offs v st : x_par (set_reord_offs v st) = x_par st. Proof. reflexivity. Qed.
Lemma x_running_set_reord_offs v st : x_running (set_reord_offs v st) = x_running st. Proof. reflexivity. Qed.
Lemma x_written_set_reord_offs v st : x_written (set_reord_offs v st) = x_written st. Proof. reflexivity. Qed.
Lemma x_failed_set_reord_offs v st : x_failed (set_reord_offs v st) = x_failed st. Proof. reflexivity. Qed.
Lemma x_bad_attach_set_reord_offs v st : x_bad_attach (set_reord_offs v st) = x_bad_attach st. Proof. reflexivity. Qed.
Lemma x_next_set_reord_offs v st : x_next (set_reord_offs v st) = x_next st. Proof. reflexivity. Qed.
Lemma x_eof_set_parser_bs v st : x_eof (set_parser_bs v st) = x_eof st. Proof. reflexivity. Qed.
Lemma x_work_units_set_parser_bs v st : x_work_units (set_parser_bs v st) = x_work_units st. Proof. reflexivity. Qed.
Lemma x_out_slots_set_parser_bs v st : x_out_slots (set_parser_bs v st) = x_out_slots st. Proof. reflexivity. Qed.
Lemma x_in_slots_set_parser_bs v st : x_in_slots (set_parser_bs v st) = x_in_slots st. Proof. reflexivity. Qed.
Lemma x_num_worker_set_parser_bs v st : x_num_worker (set_parser_bs v st) = x_num_worker st. Proof. reflexivity. Qed.
Lemma x_total_out_set_parser_bs v st : x_total_out (set_parser_bs v st) = x_total_out st. Proof. reflexivity. Qed.
Lemma x_total_in_set_parser_bs v st : x_total_in (set_parser_bs v st) = x_total_in st. Proof. reflexivity. Qed.
Lemma x_ultra_set_parser_bs v st : x_ultra (set_parser_bs v st) = x_ultra st. Proof. reflexivity. Qed.
Lemma x_closed_set_parser_bs v st : x_closed (set_parser_bs v st) = x_closed st. Proof. reflexivity. Qed.
Lemma x_outq_set_parser_bs v st : x_outq (set_parser_bs v st) = x_outq st. Proof. reflexivity. Qed.
Lemma x_eof_missing_set_parser_bs v st : x_eof_missing (set_parser_bs v st) = x_eof_missing st. Proof. reflexivity. Qed.
Lemma x_input_q_set_parser_bs v st : x_input_q (set_parser_bs v st) = x_input_q st. Proof. reflexivity. Qed.
Lemma x_zombies_set_parser_bs v st : x_zombies (set_parser_bs v st) = x_zombies st. Proof. reflexivity. Qed.
Lemma x_head_offs_set_parser_bs v st : x_head_offs (set_parser_bs v st) = x_head_offs st. Proof. reflexivity. Qed.
Lemma x_tail_offs_set_parser_bs v st : x_tail_offs (set_parser_bs v st) = x_tail_offs st. Proof. reflexivity. Qed.
Lemma x_retr_q_set_parser_bs v st : x_retr_q (set_parser_bs v st) = x_retr_q st. Proof. reflexivity. Qed.
Lemma x_emit_q_set_parser_bs v st : x_emit_q (set_parser_bs v st) = x_emit_q st. Proof. reflexivity. Qed.
Lemma x_reord_q_set_parser_bs v st : x_reord_q (set_parser_bs v st) = x_reord_q st. Proof. reflexivity. Qed.
Lemma x_order_q_set_parser_bs v st : x_order_q (set_parser_bs v st) = x_order_q st. Proof. reflexivity. Qed.
Lemma x_unords_set_parser_bs v st : x_unords (set_parser_bs v st) = x_unords st. Proof. reflexivity. Qed.
Lemma x_next_uid_set_parser_bs v st : x_next_uid (set_parser_bs v st) = x_next_uid st. Proof. reflexivity. Qed.
Lemma x_parse_token_set_parser_bs v st : x_parse_token (set_parser_bs v st) = x_parse_token st. Proof. reflexivity. Qed.
Lemma x_parsing_done_set_parser_bs v st : x_parsing_done (set_parser_bs v st) = x_parsing_done st. Proof. reflexivity. Qed.
Lemma x_scan_q_set_parser_bs v st : x_scan_q (set_parser_bs v st) = x_scan_q st. Proof. reflexivity. Qed.
Lemma x_reord_offs_set_parser_bs v st : x_reord_offs (set_parser_bs v st) = x_reord_offs st. Proof. reflexivity. Qed.
Lemma x_parser_bs_set_parser_bs v st : x_parser_bs (set_parser_bs v st) = v. Proof. reflexivity. Qed.
Lemma x_par_set_parser_bs v st : x_par (set_parser_bs v st) = x_par st. Proof. reflexivity. Qed.
Lemma x_running_set_parser_bs v st : x_running (set_parser_bs v st) = x_running st. Proof. reflexivity. Qed.
Lemma x_written_set_parser_bs v st : x_written (set_parser_bs v st) = x_written st. Proof. reflexivity. Qed.
Lemma x_failed_set_parser_bs v st : x_failed (set_parser_bs v st) = x_failed st. Proof. reflexivity. Qed.
Lemma x_bad_attach_set_parser_bs v st : x_bad_attach (set_parser_bs v st) = x_bad_attach st. Proof. reflexivity. Qed.
Lemma x_next_set_parser_bs v st : x_next (set_parser_bs v st) = x_next st. Proof. reflexivity. Qed.
Lemma x_eof_set_par v st : x_eof (set_par v st) = x_eof st. Proof. reflexivity. Qed.
Lemma x_work_units_set_par v st : x_work_units (set_par v st) = x_work_units st. Proof. reflexivity. Qed.
Lemma x_out_slots_set_par v st : x_out_slots (set_par v st) = x_out_slots st. Proof. reflexivity. Qed.
Lemma x_in_slots_set_par v st : x_in_slots (set_par v st) = x_in_slots st. Proof. reflexivity. Qed.
Lemma x_num_worker_set_par v st : x_num_worker (set_par v st) = x_num_worker st. Proof. reflexivity. Qed.
Lemma x_total_out_set_par v st : x_total_out (set_par v st) = x_total_out st. Proof. reflexivity. Qed.
Lemma x_total_in_set_par v st : x_total_in (set_par v st) = x_total_in st. Proof. reflexivity. Qed.
Lemma x_ultra_set_par v st : x_ultra (set_par v st) = x_ultra st. Proof. reflexivity. Qed.
Lemma x_closed_set_par v st : x_closed (set_par v st) = x_closed st. Proof. reflexivity. Qed.
Lemma x_outq_set_par v st : x_outq (set_par v st) = x_outq st. Proof. reflexivity. Qed.
Lemma x_eof_missing_set_par v st : x_eof_missing (set_par v st) = x_eof_missing st. Proof. reflexivity. Qed.
Lemma x_input_q_set_par v st : x_input_q (set_par v st) = x_input_q st. Proof. reflexivity. Qed.
Lemma x_zombies_set_par v st : x_zombies (set_par v st) = x_zombies st. Proof. reflexivity. Qed.
Lemma x_head_offs_set_par v st : x_head_offs (set_par v st) = x_head_offs st. Proof. reflexivity. Qed.
Lemma x_tail_offs_set_par v st : x_tail_offs (set_par v st) = x_tail_offs st. Proof. reflexivity. Qed.
Lemma x_retr_q_set_par v st : x_retr_q (set_par v st) = x_retr_q st. Proof. reflexivity. Qed.
Lemma x_emit_q_set_par v st : x_emit_q (set_par v st) = x_emit_q st. Proof. reflexivity. Qed.
Lemma x_reord_q_set_par v st : x_reord_q (set_par v st) = x_reord_q st. Proof. reflexivity. Qed.
Lemma x_order_q_set_par v st : x_order_q (set_par v st) = x_order_q st. Proof. reflexivity. Qed.
Lemma x_unords_set_par v st : x_unords (set_par v st) = x_unords st. Proof. reflexivity. Qed.
Lemma x_next_uid_set_par v st : x_next_uid (set_par v st) = x_next_uid st. Proof. reflexivity. Qed.
Lemma x_parse_token_set_par v st : x_parse_token (set_par v st) = x_parse_token st. Proof. reflexivity. Qed.
Lemma x_parsing_done_set_par v st : x_parsing_done (set_par v st) = x_parsing_done st. Proof. reflexivity. Qed.
Lemma x_scan_q_set_par v st : x_scan_q (set_par v st) = x_scan_q st. Proof. reflexivity. Qed.
Lemma x_reord_offs_set_par v st : x_reord_offs (set_par v st) = x_reord_offs st. Proof. reflexivity. Qed.
Lemma x_parser_bs_set_par v st : x_parser_bs (set_par v st) = x_parser_bs st. Proof. reflexivity. Qed.
Lemma x_par_set_par v st : x_par (set_par v st) = v. Proof. reflexivity. Qed.
Lemma x_running_set_par v st : x_running (set_par v st) = x_running st. Proof. reflexivity. Qed.
Lemma x_written_set_par v st : x_written (set_par v st) = x_written st. Proof. reflexivity. Qed.
Lemma x_failed_set_par v st : x_failed (set_par v st) = x_failed st. Proof. reflexivity. Qed.
Lemma x_bad_attach_set_par v st : x_bad_attach (set_par v st) = x_bad_attach st. Proof. reflexivity. Qed.
Lemma x_next_set_par v st : x_next (set_par v st) = x_next st. Proof. reflexivity. Qed.
Lemma x_eof_set_running v st : x_eof (set_running v st) = x_eof st. Proof. reflexivity. Qed.
Lemma x_work_units_set_running v st : x_work_units (set_running v st) = x_work_units st. Proof. reflexivity. Qed.
Lemma x_out_slots_set_running v st : x_out_slots (set_running v st) = x_out_slots st. Proof. reflexivity. Qed.
Lemma x_in_slots_set_running v st : x_in_slots (set_running v st) = x_in_slots st. Proof. reflexivity. Qed.
Lemma x_num_worker_set_running v st : x_num_worker (set_running v st) = x_num_worker st. Proof. reflexivity. Qed.
Lemma x_total_out_set_running v st : x_total_out (set_running v st) = x_total_out st. Proof. reflexivity. Qed.
Lemma x_total_in_set_running v st : x_total_in (set_running v st) = x_total_in st. Proof. reflexivity. Qed.
Lemma x_ultra_set_running v st : x_ultra (set_running v st) = x_ultra st. Proof. reflexivity. Qed.
Lemma x_closed_set_running v st : x_closed (set_running v st) = x_closed st. Proof. reflexivity. Qed.
Lemma x_outq_set_running v st : x_outq (set_running v st) = x_outq st. Proof. reflexivity. Qed.
Lemma x_eof_missing_set_running v st : x_eof_missing (set_running v st) = x_eof_missing st. Proof. reflexivity. Qed.
Lemma x_input_q_set_running v st : x_input_q (set_running v st) = x_input_q st. Proof. reflexivity. Qed.
Lemma x_zombies_set_running v st : x_zombies (set_running v st) = x_zombies st. Proof. reflexivity. Qed.
Lemma x_head_offs_set_running v st : x_head_offs (set_running v st) = x_head_offs st. Proof. reflexivity. Qed.
Lemma x_tail_offs_set_running v st : x_tail_offs (set_running v st) = x_tail_offs st. Proof. reflexivity. Qed.
Lemma x_retr_q_set_running v st : x_retr_q (set_running v st) = x_retr_q st. Proof. reflexivity. Qed.
Lemma x_emit_q_set_running v st : x_emit_q (set_running v st) = x_emit_q st. Proof. reflexivity. Qed.
Lemma x_reord_q_set_running v st : x_reord_q (set_running v st) = x_reord_q st. Proof. reflexivity. Qed.
Lemma x_order_q_set_running v st : x_order_q (set_running v st) = x_order_q st. Proof. reflexivity. Qed.
Lemma x_unords_set_running v st : x_unords (set_running v st) = x_unords st. Proof. reflexivity. Qed.
Lemma x_next_uid_set_running v st : x_next_uid (set_running v st) = x_next_uid st. Proof. reflexivity. Qed.
Lemma x_parse_token_set_running v st : x_parse_token (set_running v st) = x_parse_token st. Proof. reflexivity. Qed.
Lemma x_parsing_done_set_running v st : x_parsing_done (set_running v st) = x_parsing_done st. Proof. reflexivity. Qed.
Lemma x_scan_q_set_running v st : x_scan_q (set_running v st) = x_scan_q st. Proof. reflexivity. Qed.
Lemma x_reord_offs_set_running v st : x_reord_offs (set_running v st) = x_reord_offs st. Proof. reflexivity. Qed.
Lemma x_parser_bs_set_running v st : x_parser_bs (set_running v st) = x_parser_bs st. Proof. reflexivity. Qed.
Lemma x_par_set_running v st : x_par (set_running v st) = x_par st. Proof. reflexivity. Qed.
Lemma x_running_set_running v st : x_running (set_running v st) = v. Proof. reflexivity. Qed.
Lemma x_written_set_running v st : x_written (set_running v st) = x_written st. Proof. reflexivity. Qed.
Lemma x_failed_set_running v st : x_failed (set_running v st) = x_failed st. Proof. reflexivity. Qed.
Lemma x_bad_attach_set_running v st : x_bad_attach (set_running v st) = x_bad_attach st. Proof. reflexivity. Qed.
Lemma x_next_set_running v st : x_next (set_running v st) = x_next st. Proof. reflexivity. Qed.
Lemma x_eof_set_written v st : x_eof (set_written v st) = x_eof st. Proof. reflexivity. Qed.
Lemma x_work_units_set_written v st : x_work_units (set_written v st) = x_work_units st. Proof. reflexivity. Qed.
Lemma x_out_slots_set_written v st : x_out_slots (set_written v st) = x_out_slots st. Proof. reflexivity. Qed.
Lemma x_in_slots_set_written v st : x_in_slots (set_written v st) = x_in_slots st. Proof. reflexivity. Qed.
Lemma x_num_worker_set_written v st : x_num_worker (set_written v st) = x_num_worker st. Proof. reflexivity. Qed.
Lemma x_total_out_set_written v st : x_total_out (set_written v st) = x_total_out st. Proof. reflexivity. Qed.
Lemma x_total_in_set_written v st : x_total_in (set_written v st) = x_total_in st. Proof. reflexivity. Qed.
Lemma x_ultra_set_written v st : x_ultra (set_written v st) = x_ultra st. Proof. reflexivity. Qed.
Lemma x_closed_set_written v st : x_closed (set_written v st) = x_closed st. Proof. reflexivity. Qed.
Lemma x_outq_set_written v st : x_outq (set_written v st) = x_outq st. Proof. reflexivity. Qed.
Lemma x_eof_missing_set_written v st : x_eof_missing (set_written v st) = x_eof_missing st. Proof. reflexivity. Qed.
Lemma x_input_q_set_written v st : x_input_q (set_written v st) = x_input_q st. Proof. reflexivity. Qed.
Lemma x_zombies_set_written v st : x_zombies (set_written v st) = x_zombies st. Proof. reflexivity. Qed.
Lemma x_head_offs_set_written v st : x_head_offs (set_written v st) = x_head_offs st. Proof. reflexivity. Qed.
Lemma x_tail_offs_set_written v st : x_tail_offs (set_written v st) = x_tail_offs st. Proof. reflexivity. Qed.
Lemma x_retr_q_set_written v st : x_retr_q (set_written v st) = x_retr_q st. Proof. reflexivity. Qed.
Lemma x_emit_q_set_written v st : x_emit_q (set_written v st) = x_emit_q st. Proof. reflexivity. Qed.
Lemma x_reord_q_set_written v st : x_reord_q (set_written v st) = x_reord_q st. Proof. reflexivity. Qed.
Lemma x_order_q_set_written v st : x_order_q (set_written v st) = x_order_q st. Proof. reflexivity. Qed.
Lemma x_unords_set_written v st : x_unords (set_written v st) = x_unords st. Proof. reflexivity. Qed.
Lemma x_next_uid_set_written v st : x_next_uid (set_written v st) = x_next_uid st. Proof. reflexivity. Qed.
Lemma x_parse_token_set_written v st : x_parse_token (set_written v st) = x_parse_token st. Proof. reflexivity. Qed.
Lemma x_parsing_done_set_written v st : x_parsing_done (set_written v st) = x_parsing_done st. Proof. reflexivity. Qed.
Lemma x_scan_q_set_written v st : x_scan_q (set_written v st) = x_scan_q st. Proof. reflexivity. Qed.
Lemma x_reord_offs_set_written v st : x_reord_offs (set_written v st) = x_reord_offs st. Proof. reflexivity. Qed.
Lemma x_parser_bs_set_written v st : x_parser_bs (set_written v st) = x_parser_bs st. Proof. reflexivity. Qed.
Lemma x_par_set_written v st : x_par (set_written v st) = x_par st. Proof. reflexivity. Qed.
Lemma x_running_set_written v st : x_running (set_written v st) = x_running st. Proof. reflexivity. Qed.
Lemma x_written_set_written v st : x_written (set_written v st) = v. Proof. reflexivity. Qed.
Lemma x_failed_set_written v st : x_failed (set_written v st) = x_failed st. Proof. reflexivity. Qed.
Lemma x_bad_attach_set_written v st : x_bad_attach (set_written v st) = x_bad_attach st. Proof. reflexivity. Qed.
Lemma x_next_set_written v st : x_next (set_written v st) = x_next st. Proof. reflexivity. Qed.
Lemma x_eof_set_failed v st : x_eof (set_failed v st) = x_eof st. Proof. reflexivity. Qed.
Lemma x_work_units_set_failed v st : x_work_units (set_failed v st) = x_work_units st. Proof. reflexivity. Qed.
Lemma x_out_slots_set_failed v st : x_out_slots (set_failed v st) = x_out_slots st. Proof. reflexivity. Qed.
Lemma x_in_slots_set_failed v st : x_in_slots (set_failed v st) = x_in_slots st. Proof. reflexivity. Qed.
Lemma x_num_worker_set_failed v st : x_num_worker (set_failed v st) = x_num_worker st. Proof. reflexivity. Qed.
Lemma x_total_out_set_failed v st : x_total_out (set_failed v st) = x_total_out st. Proof. reflexivity. Qed.
Lemma x_total_in_set_failed v st : x_total_in (set_failed v st) = x_total_in st. Proof. reflexivity. Qed.
Lemma x_ultra_set_failed v st : x_ultra (set_failed v st) = x_ultra st. Proof. reflexivity. Qed.
Lemma x_closed_set_failed v st : x_closed (set_failed v st) = x_closed st. Proof. reflexivity. Qed.
Lemma x_outq_set_failed v st : x_outq (set_failed v st) = x_outq st. Proof. reflexivity. Qed.
Lemma x_eof_missing_set_failed v st : x_eof_missing (set_failed v st) = x_eof_missing st. Proof. reflexivity. Qed.
Lemma x_input_q_set_failed v st : x_input_q (set_failed v st) = x_input_q st. Proof. reflexivity. Qed.
Lemma x_zombies_set_failed v st : x_zombies (set_failed v st) = x_zombies st. Proof. reflexivity. Qed.
Lemma x_head_offs_set_failed v st : x_head_offs (set_failed v st) = x_head_offs st. Proof. reflexivity. Qed.
Lemma x_tail_offs_set_failed v st : x_tail_offs (set_failed v st) = x_tail_offs st. Proof. reflexivity. Qed.
Lemma x_retr_q_set_failed v st : x_retr_q (set_failed v st) = x_retr_q st. Proof. reflexivity. Qed.
Lemma x_emit_q_set_failed v st : x_emit_q (set_failed v st) = x_emit_q st. Proof. reflexivity. Qed.
Lemma x_reord_q_set_failed v st : x_reord_q (set_failed v st) = x_reord_q st. Proof. reflexivity. Qed.
Lemma x_order_q_set_failed v st : x_order_q (set_failed v st) = x_order_q st. Proof. reflexivity. Qed.
Lemma x_unords_set_failed v st : x_unords (set_failed v st) = x_unords st. Proof. reflexivity. Qed.
Lemma x_next_uid_set_failed v st : x_next_uid (set_failed v st) = x_next_uid st. Proof. reflexivity. Qed.
Lemma x_parse_token_set_failed v st : x_parse_token (set_failed v st) = x_parse_token st. Proof. reflexivity. Qed.
Lemma x_parsing_done_set_failed v st : x_parsing_done (set_failed v st) = x_parsing_done st. Proof. reflexivity. Qed.
Lemma x_scan_q_set_failed v st : x_scan_q (set_failed v st) = x_scan_q st. Proof. reflexivity. Qed.
Lemma x_reord_offs_set_failed v st : x_reord_offs (set_failed v st) = x_reord_offs st. Proof. reflexivity. Qed.
Lemma x_parser_bs_set_failed v st : x_parser_bs (set_failed v st) = x_parser_bs st. Proof. reflexivity. Qed.
Lemma x_par_set_failed v st : x_par (set_failed v st) = x_par st. Proof. reflexivity. Qed.
Lemma x_running_set_failed v st : x_running (set_failed v st) = x_running st. Proof. reflexivity. Qed.
Lemma x_written_set_failed v st : x_written (set_failed v st) = x_written st. Proof. reflexivity. Qed.
Lemma x_failed_set_failed v st : x_failed (set_failed v st) = v. Proof. reflexivity. Qed.
Lemma x_bad_attach_set_failed v st : x_bad_attach (set_failed v st) = x_bad_attach st. Proof. reflexivity. Qed.
Lemma x_next_set_failed v st : x_next (set_failed v st) = x_next st. Proof. reflexivity. Qed.
Lemma x_eof_set_bad_attach v st : x_eof (set_bad_attach v st) = x_eof st. Proof. reflexivity. Qed.
Lemma x_work_units_set_bad_attach v st : x_work_units (set_bad_attach v st) = x_work_units st. Proof. reflexivity. Qed.
Lemma x_out_slots_set_bad_attach v st : x_out_slots (set_bad_attach v st) = x_out_slots st. Proof. reflexivity. Qed.
Lemma x_in_slots_set_bad_attach v st : x_in_slots (set_bad_attach v st) = x_in_slots st. Proof. reflexivity. Qed.
Lemma x_num_worker_set_bad_attach v st : x_num_worker (set_bad_attach v st) = x_num_worker st. Proof. reflexivity. Qed.
Lemma x_total_out_set_bad_attach v st : x_total_out (set_bad_attach v st) = x_total_out st. Proof. reflexivity. Qed.
Lemma x_total_in_set_bad_attach v st : x_total_in (set_bad_attach v st) = x_total_in st. Proof. reflexivity. Qed.
Lemma x_ultra_set_bad_attach v st : x_ultra (set_bad_attach v st) = x_ultra st. Proof. reflexivity. Qed.
Lemma x_closed_set_bad_attach v st : x_closed (set_bad_attach v st) = x_closed st. Proof. reflexivity. Qed.
Lemma x_outq_set_bad_attach v st : x_outq (set_bad_attach v st) = x_outq st. Proof. reflexivity. Qed.
Lemma x_eof_missing_set_bad_attach v st : x_eof_missing (set_bad_attach v st) = x_eof_missing st. Proof. reflexivity. Qed.
Lemma x_input_q_set_bad_attach v st : x_input_q (set_bad_attach v st) = x_input_q st. Proof. reflexivity. Qed.
Lemma x_zombies_set_bad_attach v st : x_zombies (set_bad_attach v st) = x_zombies st. Proof. reflexivity. Qed.
Lemma x_head_offs_set_bad_attach v st : x_head_offs (set_bad_attach v st) = x_head_offs st. Proof. reflexivity. Qed.
Lemma x_tail_offs_set_bad_attach v st : x_tail_offs (set_bad_attach v st) = x_tail_offs st. Proof. reflexivity. Qed.
Lemma x_retr_q_set_bad_attach v st : x_retr_q (set_bad_attach v st) = x_retr_q st. Proof. reflexivity. Qed.
Lemma x_emit_q_set_bad_attach v st : x_emit_q (set_bad_attach v st) = x_emit_q st. Proof. reflexivity. Qed.
Lemma x_reord_q_set_bad_attach v st : x_reord_q (set_bad_attach v st) = x_reord_q st. Proof. reflexivity. Qed.
Lemma x_order_q_set_bad_attach v st : x_order_q (set_bad_attach v st) = x_order_q st. Proof. reflexivity. Qed.
Lemma x_unords_set_bad_attach v st : x_unords (set_bad_attach v st) = x_unords st. Proof. reflexivity. Qed.
Lemma x_next_uid_set_bad_attach v st : x_next_uid (set_bad_attach v st) = x_next_uid st. Proof. reflexivity. Qed.
Lemma x_parse_token_set_bad_attach v st : x_parse_token (set_bad_attach v st) = x_parse_token st. Proof. reflexivity. Qed.
Lemma x_parsing_done_set_bad_attach v st : x_parsing_done (set_bad_attach v st) = x_parsing_done st. Proof. reflexivity. Qed.
Lemma x_scan_q_set_bad_attach v st : x_scan_q (set_bad_attach v st) = x_scan_q st. Proof. reflexivity. Qed.
Lemma x_reord_offs_set_bad_attach v st : x_reord_offs (set_bad_attach v st) = x_reord_offs st. Proof. reflexivity. Qed.
Lemma x_parser_bs_set_bad_attach v st : x_parser_bs (set_bad_attach v st) = x_parser_bs st. Proof. reflexivity. Qed.
Lemma x_par_set_bad_attach v st : x_par (set_bad_attach v st) = x_par st. Proof. reflexivity. Qed.
Lemma x_running_set_bad_attach v st : x_running (set_bad_attach v st) = x_running st. Proof. reflexivity. Qed.
Lemma x_written_set_bad_attach v st : x_written (set_bad_attach v st) = x_written st. Proof. reflexivity. Qed.
Lemma x_failed_set_bad_attach v st : x_failed (set_bad_attach v st) = x_failed st. Proof. reflexivity. Qed.
Lemma x_bad_attach_set_bad_attach v st : x_bad_attach (set_bad_attach v st) = v. Proof. reflexivity. Qed.
Lemma x_next_set_bad_attach v st : x_next (set_bad_attach v st) = x_next st. Proof. reflexivity. Qed.
Lemma x_eof_set_next v st : x_eof (set_next v st) = x_eof st. Proof. reflexivity. Qed.
Lemma x_work_units_set_next v st : x_work_units (set_next v st) = x_work_units st. Proof. reflexivity. Qed.
Lemma x_out_slots_set_next v st : x_out_slots (set_next v st) = x_out_slots st. Proof. reflexivity. Qed.
Lemma x_in_slots_set_next v st : x_in_slots (set_next v st) = x_in_slots st. Proof. reflexivity. Qed.
Lemma x_num_worker_set_next v st : x_num_worker (set_next v st) = x_num_worker st. Proof. reflexivity. Qed.
Lemma x_total_out_set_next v st : x_total_out (set_next v st) = x_total_out st. Proof. reflexivity. Qed.
Lemma x_total_in_set_next v st : x_total_in (set_next v st) = x_total_in st. Proof. reflexivity. Qed.
Lemma x_ultra_set_next v st : x_ultra (set_next v st) = x_ultra st. Proof. reflexivity. Qed.
Lemma x_closed_set_next v st : x_closed (set_next v st) = x_closed st. Proof. reflexivity. Qed.
Lemma x_outq_set_next v st : x_outq (set_next v st) = x_outq st. Proof. reflexivity. Qed.
Lemma x_eof_missing_set_next v st : x_eof_missing (set_next v st) = x_eof_missing st. Proof. reflexivity. Qed.
Lemma x_input_q_set_next v st : x_input_q (set_next v st) = x_input_q st. Proof. reflexivity. Qed.
Lemma x_zombies_set_next v st : x_zombies (set_next v st) = x_zombies st. Proof. reflexivity. Qed.
Lemma x_head_offs_set_next v st : x_head_offs (set_next v st) = x_head_offs st. Proof. reflexivity. Qed.
Lemma x_tail_offs_set_next v st : x_tail_offs (set_next v st) = x_tail_offs st. Proof. reflexivity. Qed.
Lemma x_retr_q_set_next v st : x_retr_q (set_next v st) = x_retr_q st. Proof. reflexivity. Qed.
Lemma x_emit_q_set_next v st : x_emit_q (set_next v st) = x_emit_q st. Proof. reflexivity. Qed.
Lemma x_reord_q_set_next v st : x_reord_q (set_next v st) = x_reord_q st. Proof. reflexivity. Qed.
Lemma x_order_q_set_next v st : x_order_q (set_next v st) = x_order_q st. Proof. reflexivity. Qed.
Lemma x_unords_set_next v st : x_unords (set_next v st) = x_unords st. Proof. reflexivity. Qed.
Lemma x_next_uid_set_next v st : x_next_uid (set_next v st) = x_next_uid st. Proof. reflexivity. Qed.
Lemma x_parse_token_set_next v st : x_parse_token (set_next v st) = x_parse_token st. Proof. reflexivity. Qed.
Lemma x_parsing_done_set_next v st : x_parsing_done (set_next v st) = x_parsing_done st. Proof. reflexivity. Qed.
Lemma x_scan_q_set_next v st : x_scan_q (set_next v st) = x_scan_q st. Proof. reflexivity. Qed.
Lemma x_reord_offs_set_next v st : x_reord_offs (set_next v st) = x_reord_offs st. Proof. reflexivity. Qed.
Lemma x_parser_bs_set_next v st : x_parser_bs (set_next v st) = x_parser_bs st. Proof. reflexivity. Qed.
Lemma x_par_set_next v st : x_par (set_next v st) = x_par st. Proof. reflexivity. Qed.
Lemma x_running_set_next v st : x_running (set_next v st) = x_running st. Proof. reflexivity. Qed.
Lemma x_written_set_next v st : x_written (set_next v st) = x_written st. Proof. reflexivity. Qed.
Lemma x_failed_set_next v st : x_failed (set_next v st) = x_failed st. Proof. reflexivity. Qed.
Lemma x_bad_attach_set_next v st : x_bad_attach (set_next v st) = x_bad_attach st. Proof. reflexivity. Qed.
Lemma x_next_set_next v st : x_next (set_next v st) = v. Proof. reflexivity. Qed.

(* fast normalisation of projections of setters *)
Ltac xs := cbn [x_eof x_work_units x_out_slots x_in_slots x_num_worker x_total_out x_total_in x_ultra x_closed x_outq x_eof_missing x_input_q x_zombies x_head_offs x_tail_offs x_retr_q x_emit_q x_reord_q x_order_q x_unords x_next_uid x_parse_token x_parsing_done x_scan_q x_reord_offs x_parser_bs x_par x_running x_written x_failed x_bad_attach x_next set_eof set_work_units set_out_slots set_in_slots set_closed set_outq set_eof_missing set_input_q set_zombies set_head_offs set_tail_offs set_retr_q set_emit_q set_reord_q set_order_q set_unords set_next_uid set_parse_token set_parsing_done set_scan_q set_reord_offs set_parser_bs set_par set_running set_written set_failed set_bad_attach set_next].
Tactic Notation "xs" "in" hyp(H) := cbn [x_eof x_work_units x_out_slots x_in_slots x_num_worker x_total_out x_total_in x_ultra x_closed x_outq x_eof_missing x_input_q x_zombies x_head_offs x_tail_offs x_retr_q x_emit_q x_reord_q x_order_q x_unords x_next_uid x_parse_token x_parsing_done x_scan_q x_reord_offs x_parser_bs x_par x_running x_written x_failed x_bad_attach x_next set_eof set_work_units set_out_slots set_in_slots set_closed set_outq set_eof_missing set_input_q set_zombies set_head_offs set_tail_offs set_retr_q set_emit_q set_reord_q set_order_q set_unords set_next_uid set_parse_token set_parsing_done set_scan_q set_reord_offs set_parser_bs set_par set_running set_written set_failed set_bad_attach set_next] in H.
