(* The invariant [lin] (XLiveDefs: reference counts of the input blocks, position of the
   parser inside input_q) is inductive.

   [lin] is split into a block part [lblk] (clauses li_refq, li_refz, li_att: input_q, zombies,
   head_offs, running) and a position part [lpos] (li_pbs, li_first, li_retr, li_uend: input_q's
   shape, tail_offs, parsing_done, parser_bs, retr_q, unords), both stated over the lists, so
   that attach / detach / release are list operations. *)
From Coq Require Import List NArith Bool Lia Arith ZifyBool ZifyN ZifyNat.
From LBZ Require Import Gen.Consts SchedX.XState Gen.SchedXTab SchedX.XSet SchedX.XModel SchedX.XLemmas
  SchedX.XFrame SchedX.XInvDefs SchedX.XOps SchedX.XInv2 SchedX.XInv4 SchedX.XScanOwn SchedX.XLiveDefs.
Import ListNotations.
Local Open Scope N_scope.

Lemma att_is_true o c : att_is o c = true <-> catt c = Some o.
Proof.
  unfold att_is. destruct (catt c) as [x|]; simpl; split; intro H; try discriminate.
  - apply N.eqb_eq in H. congruence.
  - inversion H. apply N.eqb_refl.
Qed.

Lemma att_is_false o c : catt c <> Some o -> att_is o c = false.
Proof. intro H. destruct (att_is o c) eqn:E; auto. apply att_is_true in E. contradiction. Qed.

Lemma att_is_other o o' c : catt c = Some o -> o' <> o -> att_is o' c = false.
Proof. intros Hc NE. apply att_is_false. rewrite Hc. congruence. Qed.

Lemma natt_app o a b : natt o (a ++ b) = natt o a + natt o b.
Proof. unfold natt. rewrite filter_app, app_length. lia. Qed.

Lemma natt_cons o c r : natt o (c :: r) = (if att_is o c then 1 else 0) + natt o r.
Proof. unfold natt. cbn [filter]. destruct (att_is o c); cbn [length]; lia. Qed.

Lemma natt_elt o l1 c l2 : natt o (l1 ++ c :: l2) = natt o (l1 ++ l2) + (if att_is o c then 1 else 0).
Proof. rewrite !natt_app, natt_cons. lia. Qed.

Lemma natt_pos o c r : In c r -> catt c = Some o -> 0 < natt o r.
Proof.
  intros Hc Ha. apply att_is_true in Ha. unfold natt.
  assert (X : In c (filter (att_is o) r)) by (apply filter_In; auto).
  destruct (filter (att_is o) r); [contradiction|cbn [length]; lia].
Qed.

Lemma natt_zero o r : (forall c, In c r -> catt c <> Some o) -> natt o r = 0.
Proof.
  intro H. induction r as [|c r IH]; [reflexivity|]. rewrite natt_cons, IH.
  - rewrite att_is_false; [reflexivity|]. apply H. left; auto.
  - intros c' Hc'. apply H. right; auto.
Qed.

Record lblk (IQ ZQ : list inblk) (hd : N) (R : list cont) : Prop := mklblk {
  lb_refq : forall b, In b IQ -> ib_ref b = 1 + natt (ib_off b) R;
  lb_refz : forall z, In z ZQ -> ib_ref z = natt (ib_off z) R /\ 0 < ib_ref z /\ 0 < ib_size z /\ ib_end z <= hd;
  lb_att : forall c o, In c R -> catt c = Some o -> exists b, In b (IQ ++ ZQ) /\ ib_off b = o
}.

Definition uend_ok (tl : N) (u : unord) : Prop := u_inq u = true -> d_off (u_end u) <= tl.

Record lpos (IS : list (N * N)) (tl : N) (done : bool) (pbs : dbs) (RQ : list rjob) (US : list unord) : Prop := mklpos {
  lp_pbs : done = false -> d_off pbs <= tl;
  lp_first : done = false -> forall r rest, IS = r :: rest -> d_off pbs < fst r + snd r;
  lp_retr : Forall (fun j => d_off (r_cur j) <= tl) RQ;
  lp_uend : Forall (uend_ok tl) US
}.

Definition lblk_st (st : xstate) : Prop := lblk (x_input_q st) (x_zombies st) (x_head_offs st) (x_running st).

Lemma find_blk_In off q b : find_blk off q = Some b -> In b q.
Proof.
  induction q as [|a r IH]; simpl; [discriminate|]. destruct (off <? ib_end a); [intro H; inversion H; auto|auto].
Qed.

Lemma upd_ref_In f o q b' : In b' (upd_ref f o q) ->
  exists b, In b q /\ b' = (if ib_off b =? o then set_ref (f (ib_ref b)) b else b).
Proof. unfold upd_ref. rewrite in_map_iff. intros (b & E & Hb). exists b. auto. Qed.

Lemma upd_ref_img f o q b : In b q -> In (if ib_off b =? o then set_ref (f (ib_ref b)) b else b) (upd_ref f o q).
Proof. intro Hb. unfold upd_ref. apply in_map_iff. exists b. auto. Qed.

Lemma img_off f o b : ib_off (if ib_off b =? o then set_ref (f (ib_ref b)) b else b) = ib_off b.
Proof. destruct (ib_off b =? o); reflexivity. Qed.

Lemma zomb_lt IQ ZQ hd tl R z b : contig hd IQ tl -> lblk IQ ZQ hd R -> In z ZQ -> In b IQ -> ib_off z < ib_off b.
Proof.
  intros CT L Hz Hb. destruct (lb_refz _ _ _ _ L z Hz) as (_ & _ & Z1 & Z2).
  destruct (contig_bounds _ _ _ _ CT Hb) as (B1 & _). unfold ib_end in *. lia.
Qed.

Lemma lblk_running IQ ZQ hd R R' :
  (forall o, natt o R' = natt o R) -> (forall c, In c R' -> catt c <> None -> In c R) ->
  lblk IQ ZQ hd R -> lblk IQ ZQ hd R'.
Proof.
  intros HN HI [A B C]. constructor.
  - intros b Hb. rewrite HN. auto.
  - intros z Hz. rewrite HN. auto.
  - intros c o Hc Ho. apply (C c o); auto. apply HI; auto. congruence.
Qed.

Lemma lblk_add_none IQ ZQ hd R c : catt c = None -> lblk IQ ZQ hd R -> lblk IQ ZQ hd (c :: R).
Proof.
  intro N0. apply lblk_running.
  - intro o. rewrite natt_cons, att_is_false; [reflexivity|congruence].
  - intros c' [<-|H] NN; [contradiction|auto].
Qed.

Lemma lblk_del_none IQ ZQ hd l1 l2 c : catt c = None -> lblk IQ ZQ hd (l1 ++ c :: l2) -> lblk IQ ZQ hd (l1 ++ l2).
Proof.
  intro N0. apply lblk_running.
  - intro o. rewrite natt_elt, att_is_false; [lia|congruence].
  - intros c' H _. apply in_app_or in H. apply in_or_app. simpl. tauto.
Qed.

Lemma lblk_upd f IQ ZQ hd tl R R' b :
  contig hd IQ tl -> In b IQ ->
  (forall o, o <> ib_off b -> natt o R' = natt o R) -> f (1 + natt (ib_off b) R) = 1 + natt (ib_off b) R' ->
  (forall c o, In c R' -> catt c = Some o -> o = ib_off b \/ In c R) ->
  lblk IQ ZQ hd R -> lblk (upd_ref f (ib_off b) IQ) ZQ hd R'.
Proof.
  intros CT Hb NO NB HR L. pose proof L as [A B C]. constructor.
  - intros b' Hb'. destruct (upd_ref_In _ _ _ _ Hb') as (b0 & H0 & ->). rewrite img_off.
    specialize (A b0 H0). destruct (ib_off b0 =? ib_off b) eqn:E.
    + apply N.eqb_eq in E. rewrite E in *. cbn [ib_ref set_ref]. rewrite A. exact NB.
    + apply N.eqb_neq in E. rewrite NO; assumption.
  - intros z Hz. pose proof (zomb_lt _ _ _ _ _ z b CT L Hz Hb) as LT. rewrite NO; [apply B; exact Hz|lia].
  - intros c o Hc Ho. assert (X : exists b1, In b1 (IQ ++ ZQ) /\ ib_off b1 = o).
    { destruct (HR c o Hc Ho) as [->|Hc']; [|eauto]. exists b. split; [apply in_or_app|]; auto. }
    destruct X as (b1 & H1 & O1). apply in_app_or in H1. destruct H1 as [H1|H1].
    + eexists. split; [apply in_or_app; left; apply upd_ref_img; exact H1|]. rewrite img_off. exact O1.
    + exists b1. split; auto. apply in_or_app; auto.
Qed.

Lemma lblk_attach IQ ZQ hd tl R b c :
  contig hd IQ tl -> In b IQ -> catt c = Some (ib_off b) -> lblk IQ ZQ hd R ->
  lblk (upd_ref N.succ (ib_off b) IQ) ZQ hd (c :: R).
Proof.
  intros CT Hb Hc. apply (lblk_upd _ _ _ _ tl); auto.
  - intros o NE. rewrite natt_cons, (att_is_other _ _ _ Hc NE). reflexivity.
  - rewrite natt_cons, (proj2 (att_is_true _ _) Hc). lia.
  - intros c' o [<-|Hc'] Ho; [left; congruence|right; exact Hc'].
Qed.

Lemma has_blk_true o q : has_blk o q = true -> exists b, In b q /\ ib_off b = o.
Proof. unfold has_blk. rewrite existsb_exists. intros (b & Hb & E). apply N.eqb_eq in E. eauto. Qed.

Lemma has_blk_false o q b : has_blk o q = false -> In b q -> ib_off b <> o.
Proof.
  unfold has_blk. intros H Hb E. assert (X : existsb (fun b => ib_off b =? o) q = true); [|congruence].
  apply existsb_exists. exists b. split; auto. apply N.eqb_eq; auto.
Qed.

Lemma lblk_detach_q IQ ZQ hd tl l1 l2 c o :
  contig hd IQ tl -> catt c = Some o -> has_blk o IQ = true -> lblk IQ ZQ hd (l1 ++ c :: l2) ->
  lblk (upd_ref N.pred o IQ) ZQ hd (l1 ++ l2).
Proof.
  intros CT Hc HB. destruct (has_blk_true _ _ HB) as (b & Hb & <-). apply (lblk_upd _ _ _ _ tl); auto.
  - intros o NE. rewrite natt_elt, (att_is_other _ _ _ Hc NE). lia.
  - rewrite natt_elt, (proj2 (att_is_true _ _) Hc). lia.
  - intros c' o Hc' _. right. apply in_app_or in Hc'. apply in_or_app. simpl. tauto.
Qed.

Lemma lblk_detach_z IQ ZQ hd l1 l2 c o :
  catt c = Some o -> has_blk o IQ = false -> lblk IQ ZQ hd (l1 ++ c :: l2) ->
  lblk IQ (filter (fun b => negb (ib_ref b =? 0)) (upd_ref N.pred o ZQ)) hd (l1 ++ l2).
Proof.
  intros Hc HB L. pose proof L as [A B C].
  assert (X : att_is o c = true) by (apply att_is_true; auto).
  pose proof (fun o' => natt_elt o' l1 c l2) as NE.
  assert (ZI : forall z, In z ZQ -> let z' := (if ib_off z =? o then set_ref (N.pred (ib_ref z)) z else z) in
                ib_ref z' = natt (ib_off z) (l1 ++ l2) /\ ib_off z' = ib_off z /\ ib_size z' = ib_size z).
  { intros z Hz. specialize (B z Hz). rewrite NE in B. destruct (ib_off z =? o) eqn:E; cbn [ib_ref ib_off ib_size set_ref].
    - apply N.eqb_eq in E. rewrite E in *. rewrite X in B. lia.
    - apply N.eqb_neq in E. rewrite att_is_false in B; [repeat split; lia|]. rewrite Hc. congruence. }
  constructor.
  - intros b Hb. specialize (A b Hb). rewrite NE in A. rewrite att_is_false in A; [lia|].
    rewrite Hc. intro Y. inversion Y. eapply has_blk_false; eauto.
  - intros z' Hz'. apply filter_In in Hz'. destruct Hz' as [Hz' NZ]. destruct (upd_ref_In _ _ _ _ Hz') as (z & Hz & ->).
    destruct (ZI z Hz) as (Z1 & Z2 & Z3). cbv zeta in *. destruct (B z Hz) as (_ & _ & Z4 & Z5).
    unfold ib_end in *. rewrite Z2, Z3, Z1 in *. repeat split; auto. lia.
  - intros c' o' Hc' Ho'. destruct (C c' o') as (b1 & H1 & O1); auto.
    { apply in_app_or in Hc'. apply in_or_app. simpl. tauto. }
    apply in_app_or in H1. destruct H1 as [H1|H1]; [exists b1; split; auto; apply in_or_app; auto|].
    destruct (ZI b1 H1) as (Z1 & Z2 & Z3). cbv zeta in *. eexists. split; [|rewrite Z2; exact O1].
    apply in_or_app. right. apply filter_In. split; [apply upd_ref_img; exact H1|].
    rewrite Z1, O1. pose proof (natt_pos o' c' _ Hc' Ho'). lia.
Qed.

Lemma pop_input_app lim q : q = fst (pop_input lim q) ++ snd (pop_input lim q).
Proof.
  induction q as [|b r IH]; simpl; auto. destruct (ib_end b <=? lim); [|reflexivity].
  destruct (pop_input lim r) as [p k]. simpl in *. congruence.
Qed.

Lemma pop_input_first lim q b rest : snd (pop_input lim q) = b :: rest -> lim < ib_end b.
Proof.
  induction q as [|a r IH]; simpl; [discriminate|]. destruct (ib_end a <=? lim) eqn:E.
  - destruct (pop_input lim r) as [p k]. simpl in *. exact IH.
  - simpl. intro H. inversion H; subst. lia.
Qed.

Lemma lblk_release p k ZQ hd hd' tl R :
  contig hd (p ++ k) tl -> hd <= hd' -> (forall b, In b p -> ib_end b <= hd') ->
  lblk (p ++ k) ZQ hd R -> lblk k (ZQ ++ zrel p) hd' R.
Proof.
  intros CT HH HE [A B C]. constructor.
  - intros b Hb. apply A. apply in_or_app; auto.
  - intros z Hz. apply in_app_or in Hz. destruct Hz as [Hz|Hz].
    + destruct (B z Hz) as (B1 & B2 & B3 & B4). repeat split; auto. lia.
    + unfold zrel in Hz. apply in_map_iff in Hz. destruct Hz as (b & <- & Hb). apply filter_In in Hb. destruct Hb as [Hb NR].
      assert (Hb' : In b (p ++ k)) by (apply in_or_app; auto).
      specialize (A b Hb'). destruct (contig_bounds _ _ _ _ CT Hb') as (_ & _ & SZ). specialize (HE b Hb).
      unfold ib_end in *. cbn [ib_ref ib_off ib_size set_ref]. repeat split; auto; lia.
  - intros c o Hc Ho. destruct (C c o Hc Ho) as (b & Hb & Ob). rewrite <- app_assoc in Hb. apply in_app_or in Hb.
    destruct Hb as [Hb|Hb].
    + exists (set_ref (N.pred (ib_ref b)) b). split; [|exact Ob]. apply in_or_app. right. apply in_or_app. right.
      unfold zrel. apply in_map_iff. exists b. split; auto. apply filter_In. split; auto.
      assert (Hb' : In b (p ++ k)) by (apply in_or_app; auto). specialize (A b Hb'). rewrite Ob in A.
      pose proof (natt_pos o c R Hc Ho). lia.
    + exists b. split; auto. apply in_app_or in Hb. apply in_or_app. destruct Hb; auto.
      right. apply in_or_app; auto.
Qed.

Definition rqrel (tl : N) (RQ RQ' : list rjob) : Prop := forall j, In j RQ' -> In j RQ \/ d_off (r_cur j) <= tl.
Definition usrel (tl : N) (US US' : list unord) : Prop :=
  forall u, In u US' -> (exists u0, In u0 US /\ stems u u0) \/ uend_ok tl u.

Lemma rq_refl tl RQ : rqrel tl RQ RQ.
Proof. intros j Hj; auto. Qed.

Lemma rq_cons tl RQ j : d_off (r_cur j) <= tl -> rqrel tl RQ (j :: RQ).
Proof. intros Hj j' [<-|H]; auto. Qed.

Lemma rq_nil tl RQ : rqrel tl RQ [].
Proof. intros j []. Qed.

Lemma uend_stems tl u u0 : stems u u0 -> uend_ok tl u0 -> uend_ok tl u.
Proof. unfold stems, uend_ok. intros (_ & _ & E3 & E4 & _). rewrite E3, E4. auto. Qed.

Lemma us_refl tl US : usrel tl US US.
Proof. intros u Hu. left. exists u. split; auto. apply stems_refl. Qed.

Lemma us_drop_link tl l US : usrel tl US (drop_link l US).
Proof. intros u Hu. left. apply drop_link_stems in Hu. exact Hu. Qed.

Lemma us_drop_links tl js US : usrel tl US (drop_links js US).
Proof. intros u Hu. left. apply drop_links_stems in Hu. exact Hu. Qed.

Lemma us_upd tl id f US : (forall u, In u US -> uend_ok tl u -> uend_ok tl (f u)) -> Forall (uend_ok tl) US -> usrel tl US (upd_unord id f US).
Proof.
  intros Hf FA u Hu. unfold upd_unord in Hu. apply in_map_iff in Hu. destruct Hu as (u0 & <- & H0).
  rewrite Forall_forall in FA. destruct (u_id u0 =? id); [right; apply Hf; auto|left; exists u0; split; auto; apply stems_refl].
Qed.

Lemma us_upd_end tl id f US : (forall u, u_inq (f u) = true -> d_off (u_end (f u)) <= tl) -> usrel tl US (upd_unord id f US).
Proof.
  intros Hf u Hu. unfold upd_unord in Hu. apply in_map_iff in Hu. destruct Hu as (u0 & <- & H0).
  destruct (u_id u0 =? id); [right; unfold uend_ok; apply Hf|left; exists u0; split; auto; apply stems_refl].
Qed.

Lemma us_del tl id US : usrel tl US (del_unord id US).
Proof. intros u Hu. unfold del_unord in Hu. apply filter_In in Hu. left. exists u. split; [tauto|apply stems_refl]. Qed.

Lemma us_discard tl p US : usrel tl US (discard_below p US).
Proof.
  intros u Hu. unfold discard_below in Hu. apply in_map_iff in Hu. destruct Hu as (u0 & <- & H0). apply filter_In in H0.
  destruct (u_inq u0 && pos_lt (u_base u0) p && negb (u_complete u0)).
  - right. unfold uend_ok, u_detach. simpl. discriminate.
  - left. exists u0. split; [tauto|apply stems_refl].
Qed.

Lemma us_flush tl US : usrel tl US (flush_unords US).
Proof.
  intros u Hu. unfold flush_unords in Hu. apply in_map_iff in Hu. destruct Hu as (u0 & <- & H0). apply filter_In in H0.
  destruct (u_inq u0).
  - right. unfold uend_ok, u_detach. simpl. discriminate.
  - left. exists u0. split; [tauto|apply stems_refl].
Qed.

Lemma us_snoc tl US u : uend_ok tl u -> usrel tl US (US ++ [u]).
Proof. intros Hu u' H. apply in_app_or in H. destruct H as [H|[<-|[]]]; auto. left. exists u'. split; auto. apply stems_refl. Qed.

Lemma us_trans tl A B C : usrel tl A B -> usrel tl B C -> usrel tl A C.
Proof.
  intros AB BC u Hu. destruct (BC u Hu) as [(u1 & H1 & S1)|OK]; auto.
  destruct (AB u1 H1) as [(u0 & H0 & S0)|OK1].
  - left. exists u0. split; auto. unfold stems in *. intuition congruence.
  - right. eapply uend_stems; eauto.
Qed.

Lemma us_forall tl US US' : usrel tl US US' -> Forall (uend_ok tl) US -> Forall (uend_ok tl) US'.
Proof.
  intros R F. rewrite Forall_forall in *. intros u Hu. destruct (R u Hu) as [(u0 & H0 & S0)|OK]; auto.
  eapply uend_stems; eauto.
Qed.

(* [lin] as a statement about the fields it reads, retr_q and the unord store given apart: a state
   that differs from [st] by setters of other fields satisfies it by conversion *)
Definition linq (st : xstate) (rq : list rjob) (us : list unord) : Prop :=
  lblk_st st /\ lpos (map bshape (x_input_q st)) (x_tail_offs st) (x_parsing_done st) (x_parser_bs st) rq us.
Definition linp (st : xstate) : Prop := linq st (x_retr_q st) (x_unords st).

Lemma lin_split st : lin st <-> linp st.
Proof.
  split.
  - intros [A B C D E F G]. split; constructor; auto.
    intros Hd r rest EQ. destruct (x_input_q st) as [|b q] eqn:IQ; [discriminate|]. simpl in EQ. inversion EQ; subst.
    simpl. apply (E Hd b q eq_refl).
  - intros [[A B C] [D E F G]]. constructor; auto.
    intros Hd b rest EQ. rewrite EQ in E. apply (E Hd (bshape b) (map bshape rest) eq_refl).
Qed.

Lemma linq_mono st rq us rq' us' :
  linq st rq us -> rqrel (x_tail_offs st) rq rq' -> usrel (x_tail_offs st) us us' -> linq st rq' us'.
Proof.
  intros [LB [P1 P2 P3 P4]] RR UR. split; [exact LB|]. constructor; auto.
  - rewrite Forall_forall in *. intros j Hj. destruct (RR j Hj); auto.
  - eapply us_forall; eauto.
Qed.

Lemma linp_add_none c st : catt c = None -> linp st -> linp (add_run c st).
Proof. intros Hc [LB LP]. split; [|exact LP]. apply lblk_add_none; assumption. Qed.

Lemma linp_del_none c l1 l2 st : catt c = None -> x_running st = l1 ++ c :: l2 -> linp st -> linp (set_running (l1 ++ l2) st).
Proof. intros Hc E [LB LP]. split; [|exact LP]. unfold lblk_st in LB. rewrite E in LB. exact (lblk_del_none _ _ _ _ _ _ Hc LB). Qed.

Lemma linp_drop_if b l st : linp st -> linp (drop_if b l st).
Proof. intro L. unfold drop_if. destruct b; [|exact L]. exact (linq_mono _ _ _ _ _ L (rq_refl _ _) (us_drop_link _ _ _)). Qed.

Lemma attach_cases d st :
  (attach_inq d st = x_input_q st /\ snd (attach d st) = None) \/
  (exists b, In b (x_input_q st) /\ attach_inq d st = upd_ref N.succ (ib_off b) (x_input_q st) /\
             snd (attach d st) = Some (ib_off b)).
Proof.
  unfold attach_inq, attach. destruct (_ && _);
    destruct (d_off d =? x_tail_offs st); cbn [fst snd]; xs; auto;
    destruct (find_blk (d_off d) (x_input_q st)) as [b|] eqn:F; cbn [fst snd]; xs; auto;
    right; exists b; split; auto; eapply find_blk_In; eauto.
Qed.

Lemma linp_attach_run d st mk : (forall a, catt (mk a) = a) -> cg st -> linp st ->
  linp (add_run (mk (snd (attach d st))) (fst (attach d st))).
Proof.
  intros Hmk CT [LB LP]. pose proof (shape_attach d st) as SH. unfold linp, linq, lblk_st in *.
  rewrite add_run_nf, attach_nf in *. xs in SH. xs. rewrite SH. split; [|exact LP].
  destruct (attach_cases d st) as [[E1 E2]|(b & Hb & E1 & E2)]; rewrite E1, E2.
  - apply lblk_add_none; auto.
  - eapply lblk_attach; eauto.
Qed.

Lemma att_end_le att st : cg st -> lin st -> att_end att st <= x_tail_offs st.
Proof.
  intros CT L. unfold att_end. destruct att as [o|]; [|lia].
  destruct (find (fun b => ib_off b =? o) (x_input_q st ++ x_zombies st)) as [b|] eqn:F; [|lia].
  destruct (find_att_end o st b F) as [[X _]|[X _]].
  - destruct (contig_bounds _ _ _ _ CT X) as (_ & B2 & _). exact B2.
  - destruct (li_refz _ L b X) as (_ & _ & _ & Z). pose proof (contig_le _ _ _ CT). lia.
Qed.

Lemma linp_del_detach c l1 l2 p st : cg st -> linp st -> x_running st = l1 ++ c :: l2 -> p <= att_end (catt c) st ->
  let s2 := detach (catt c) (set_running (l1 ++ l2) st) in cg s2 /\ linp s2 /\ p <= x_tail_offs s2.
Proof.
  intros CT L E AE s2. pose proof (att_end_le (catt c) st CT (proj2 (lin_split st) L)) as AT. destruct L as [LB LP].
  split; [apply (cg_view _ _ (view_detach _ _)); exact CT|]. split; [|subst s2; rewrite x_tail_offs_detach; cbn; lia].
  unfold lblk_st in LB. rewrite E in LB. subst s2. split.
  - unfold lblk_st, detach. destruct (catt c) as [o|] eqn:Hc; xs.
    + destruct (has_blk o (x_input_q st)) eqn:HB; xs.
      * eapply lblk_detach_q; eauto.
      * eapply lblk_detach_z; eauto.
    + eapply lblk_del_none; eauto.
  - rewrite shape_detach, detach_nf. exact LP.
Qed.

Lemma linp_advance cfg bs st : cg st -> d_off bs <= x_tail_offs st -> linp st -> linp (advance cfg bs st).
Proof.
  intros CT LE [LB LP]. unfold linp, linq, lblk_st, cg in *. rewrite advance_eq. cbv zeta. xs. rewrite rel_zom_eq. xs.
  set (pk := pop_input (d_off bs) (x_input_q st)). pose proof (pop_input_app (d_off bs) (x_input_q st)) as EQ. fold pk in EQ.
  split.
  - pose proof (pop_input_in (d_off bs) _ _ _ CT) as [PI _]. fold pk in PI. rewrite EQ in CT, LB.
    apply (lblk_release _ _ _ (x_head_offs st) _ (x_tail_offs st)); auto; [lia|]. intros b Hb. apply PI. exact Hb.
  - destruct LP as [P1 P2 P3 P4]. constructor.
    + intros _. exact LE.
    + intros _ r rest ER. destruct (snd pk) as [|b k] eqn:PK; [discriminate|]. injection ER as <- _.
      apply pop_input_first in PK. exact PK.
    + rewrite Forall_forall in *. intros j Hj. apply P3. eapply adv_retr_sub; eauto.
    + destruct (c_advance_drops_link cfg); [|exact P4]. exact (us_forall _ _ _ (us_drop_links _ _ _) P4).
Qed.

Lemma lin_init n tin tout ultra : lin (init_state n tin tout ultra).
Proof.
  constructor; simpl; try (intros; contradiction); try constructor.
  - intros _. lia.
  - intros _ b rest E. discriminate.
Qed.

Lemma linp_input sz m st st' : cg st -> linp st -> input sz m st = Some st' -> linp st'.
Proof.
  intros CT L H. destruct (input_inv _ _ _ _ H) as (_ & _ & SZ & _ & C).
  destruct (x_parsing_done st) eqn:PD; subst st'; [exact L|].
  destruct L as [[A B C0] [P1 P2 P3 P4]]. unfold linp, linq, lblk_st, cg in *. xs.
  set (t := x_tail_offs st) in *. pose proof (contig_le _ _ _ CT) as HT. split; constructor.
  - intros b Hb. apply in_app_or in Hb. destruct Hb as [Hb|[<-|[]]]; auto. cbn [ib_ref ib_off].
    rewrite natt_zero; [reflexivity|]. intros c Hc Ho. destruct (C0 c t Hc Ho) as (b & Hb & Ob).
    apply in_app_or in Hb. destruct Hb as [Hb|Hb].
    + destruct (contig_bounds _ _ _ _ CT Hb) as (_ & B2 & B3). unfold ib_end in *. lia.
    + destruct (B b Hb) as (_ & _ & B3 & B4). unfold ib_end in *. lia.
  - exact B.
  - intros c o Hc Ho. destruct (C0 c o Hc Ho) as (b & Hb & Ob). exists b. split; auto.
    apply in_app_or in Hb. apply in_or_app. destruct Hb; auto. left. apply in_or_app; auto.
  - intros _. specialize (P1 PD). lia.
  - intros _ r rest EQ. rewrite map_app in EQ. specialize (P1 PD). destruct (x_input_q st) as [|b q]; injection EQ as <- _.
    + cbn. lia.
    + exact (P2 PD _ _ eq_refl).
  - eapply Forall_impl; [|exact P3]. cbn beta. clear. intros. lia.
  - eapply Forall_impl; [|exact P4]. unfold uend_ok. clear. intros u Hu I. specialize (Hu I). lia.
Qed.

Lemma linp_parse_finish cfg g s : cg s -> linp s -> linp (parse_finish cfg g s).
Proof.
  intros CT [LB [P1 P2 P3 P4]]. rewrite parse_finish_eq. cbv zeta. unfold linp, linq, lblk_st, cg in *.
  destruct (_ && _); xs; [split; [exact LB|constructor; auto; discriminate]|]. split.
  - apply (lblk_release (x_input_q s) [] _ (x_head_offs s) _ (x_tail_offs s)); rewrite ?app_nil_r; auto.
    + lia.
    + intros b Hb. destruct (contig_bounds _ _ _ _ CT Hb) as (_ & LE & _). pose proof (contig_sum _ _ _ CT). lia.
  - constructor; try discriminate; [constructor|]. apply (us_forall _ _ _ (us_flush _ _)).
    destruct (c_finish_drops_link cfg); [|exact P4]. exact (us_forall _ _ _ (us_drop_links _ _ _) P4).
Qed.

Lemma linp_parse_ok cfg lv crc s : cg s -> d_off (x_parser_bs s) <= x_tail_offs s -> linp s -> linp (parse_ok cfg lv crc s).
Proof.
  intros CT PB L. pose proof (parse_ok_cases cfg lv crc s) as PC. cbv zeta in PC.
  destruct PC as [(_ & ->)|(u & Q & _ & ->)].
  { apply (linq_mono _ _ _ _ _ L); [apply rq_cons; exact PB|apply us_discard]. }
  match type of Q with context [unord_q ?x] => set (s2 := x) in * end.
  assert (L2 : linp s2) by exact (linq_mono _ _ _ _ _ L (rq_refl _ _) (us_discard _ _ _)).
  apply qmin_In in Q. unfold unord_q in Q. apply filter_In in Q. destruct Q as [Q1 Q2].
  assert (UE : d_off (u_end u) <= x_tail_offs s2).
  { pose proof (lp_uend _ _ _ _ _ _ (proj2 L2)) as F. rewrite Forall_forall in F. exact (F u Q1 Q2). }
  pose proof (linp_advance cfg (u_end u) s2 CT UE L2) as L3. clear - L3. generalize dependent (advance cfg (u_end u) s2). intros s3 L3.
  destruct (u_complete u).
  - exact (linq_mono _ _ _ _ _ L3 (rq_refl _ _) (us_del _ _ _)).
  - apply (linq_mono _ _ _ _ _ L3 (rq_refl _ _)). apply us_upd_end. discriminate.
Qed.

Lemma linp_parse1 cfg att r st st' : cg st -> linp st -> parse1 cfg att r st = Some st' -> linp st'.
Proof.
  intros CT L H. destruct (parse1_inv _ _ _ _ _ H) as (l1 & l2 & E & _ & G). clear H. cbv zeta in G. destruct G as (_ & _ & _ & AE & CASE).
  destruct (linp_del_detach (CParse att) _ _ _ _ CT L E AE) as (C2 & L2 & BT). cbn [catt] in *.
  (* the intermediate states become variables by [generalize]: a state that is let-bound ([set],
     [clearbody]) is unfolded again by the kernel when it checks the frame steps ([exact L3]) *)
  generalize dependent (detach att (set_running (l1 ++ l2) st)). intros s2 CASE C2 L2 BT.
  pose proof (linp_advance cfg (res_bs r) s2 C2 BT L2) as L3. pose proof (cg_advance cfg (res_bs r) s2 C2) as C3.
  assert (B3 : d_off (x_parser_bs (advance cfg (res_bs r) s2)) <= x_tail_offs (advance cfg (res_bs r) s2))
    by (rewrite advance_pbs, x_tail_offs_advance; exact BT).
  clear C2 L2 BT. generalize dependent (advance cfg (res_bs r) s2). intros s3 CASE L3 C3 B3.
  destruct r as [bs ps|bs g|bs code|bs ps lv crc].
  - destruct CASE as (_ & _ & ->). exact L3.
  - destruct CASE as (_ & _ & ->). apply linp_parse_finish; assumption.
  - destruct CASE as (_ & _ & _ & ->). exact L3.
  - destruct CASE as (_ & ->). apply linp_parse_ok; [exact C3|exact B3|exact L3].
Qed.

Lemma linp_retr1_tail cfg j rv cur fin sa :
  d_off cur <= x_tail_offs sa -> linp sa -> linp (fin sa) -> linp (retr1_tail cfg j rv cur fin sa).
Proof.
  intros BT L F. unfold retr1_tail. destruct (rv =? MORE); [|apply linp_add_none; [reflexivity|exact F]].
  destruct (_ && _); [exact (linp_drop_if _ _ _ L)|].
  apply (linq_mono _ _ _ _ _ L); [apply rq_cons; exact BT|apply us_refl].
Qed.

Lemma linp_upd_end id f st : (forall u, d_off (u_end (f u)) <= x_tail_offs st) -> linp st ->
  linp (set_unords (upd_unord id f (x_unords st)) st).
Proof. intros Hf L. apply (linq_mono _ _ _ _ _ L (rq_refl _ _)). apply us_upd_end. intros u _. apply Hf. Qed.

Lemma linp_retr1 cfg j att rv cur st st' : cg st -> linp st -> retr1 cfg j att rv cur st = Some st' -> linp st'.
Proof.
  intros CT L H. destruct (retr1_inv _ _ _ _ _ _ _ H) as (l1 & l2 & E & _ & _ & _ & _ & AE & _ & _ & CASE). clear H.
  destruct (linp_del_detach (CRetr j att) _ _ _ _ CT L E AE) as (C2 & L2 & BT). cbn [catt] in *.
  generalize dependent (detach att (set_running (l1 ++ l2) st)). intros s2 CASE C2 L2 BT.
  destruct CASE as [_ ->|u _ _ _ _ ->|_ _ ->|id _ _ _ ->].
  - exact (linp_drop_if _ _ _ L2).
  - exact (linp_drop_if _ _ _ L2).
  - pose proof (linp_advance cfg cur s2 C2 BT L2) as L3. rewrite <- (x_tail_offs_advance cfg cur s2) in BT.
    clear C2 L2. generalize dependent (advance cfg cur s2). intros s3 BT L3. apply linp_retr1_tail; [exact BT|exact L3|].
    unfold fin_master. destruct (r_link j); [|exact L3]. exact (linq_mono _ _ _ _ _ L3 (rq_refl _ _) (us_del _ _ _)).
  - pose proof (linp_upd_end id (u_set_end cur) s2 (fun _ => BT) L2) as L3.
    apply linp_retr1_tail; [exact BT|exact L3|].
    unfold fin_spec. apply linp_upd_end; [intro u; exact BT|exact L3].
Qed.

Lemma linp_scan1 cfg s att found s' more st st' : cg st -> linp st -> scan1 cfg s att found s' more st = Some st' -> linp st'.
Proof.
  intros CT L H. destruct (scan1_inv _ _ _ _ _ _ _ _ H) as (l1 & l2 & E & _ & CASE). clear H. cbv zeta in CASE.
  destruct CASE as [(_ & ->)|(_ & _ & _ & _ & AE & _ & ->)].
  { exact (proj1 (proj2 (linp_del_detach (CScan s att) _ _ 0 _ CT L E (N.le_0_l _)))). }
  destruct (linp_del_detach (CScan s att) _ _ _ _ CT L E AE) as (_ & L2 & BT). cbn [catt] in *.
  generalize dependent (detach att (set_running (l1 ++ l2) st)). intros s2 L2 BT.
  assert (L3 : linp (scan1_cand cfg s' s2)).
  { unfold scan1_cand, new_cand. destruct (_ || _); [exact L2|]. destruct (_ && _); [exact L2|].
    apply (linq_mono _ _ _ _ _ L2); [apply rq_cons; exact BT|apply us_snoc; intros _; exact BT]. }
  unfold scan1_requeue. destruct (_ && _); exact L3.
Qed.

Theorem lin_step_min cfg st e st' : inv st -> lin st -> step cfg st e = Some st' -> lin st'.
Proof.
  intros IV L H. pose proof (i_contig _ IV : cg st) as CT. apply lin_split in L. apply lin_split.
  unfold step in H. destruct (x_failed st); [discriminate|]. destruct e.
  - eapply linp_input; eauto.
  - destruct (reader_eof_inv _ _ H) as (_ & ->). exact L.
  - destruct (written_inv _ _ H) as (_ & ->). exact L.
  - destruct (parse0_inv _ _ H) as (_ & ->). apply (linp_attach_run _ _ CParse (fun _ => eq_refl)); [exact CT|exact L].
  - eapply linp_parse1; eauto.
  - destruct (retr0_inv _ _ _ H) as (_ & q & TM & ->). apply (linp_attach_run _ _ (CRetr j) (fun _ => eq_refl)); [exact CT|].
    apply (take_min_split _ _ _ _ _ rjob_eqb_eq) in TM as (l1 & l2 & E & ->).
    apply (linq_mono _ _ _ _ _ L); [|apply us_refl]. intros j' Hj. left. rewrite E. apply in_app_or in Hj. apply in_or_app. simpl. tauto.
  - eapply linp_retr1; eauto.
  - destruct (retr2_inv _ _ _ H) as (l1 & l2 & E & _ & ->). exact (linp_del_none (CRetr2 e) _ _ _ eq_refl E L).
  - destruct (emit0_inv _ _ H) as (_ & e & l1 & l2 & _ & _ & ->). exact (linp_add_none (CEmit e) _ eq_refl L).
  - destruct (emit1_inv _ _ _ _ _ _ _ H) as (l1 & l2 & E & _ & _ & _ & C). cbv zeta in C.
    destruct (rv =? MORE); subst st'; exact (linp_del_none (CEmit e) _ _ _ eq_refl E L).
  - destruct (reorder_inv _ _ H) as (_ & o & l1 & l2 & _ & _ & [_ ->|? ? _ _ _ ->|? ? _ _ _ _ ->|? ? _ _ _ _ ->]); exact L.
  - destruct (scan0_inv _ _ H) as (_ & s & l1 & l2 & _ & _ & ->). apply (linp_attach_run _ _ (CScan s) (fun _ => eq_refl)); [exact CT|exact L].
  - eapply linp_scan1; eauto.
Qed.

Theorem lin_step cfg st e st' : cfg_safe cfg -> inv st -> sown st -> lin st -> step cfg st e = Some st' -> lin st'.
Proof. intros _ IV _. apply lin_step_min. exact IV. Qed.

Theorem lin_reach cfg n tin tout ultra st : cfg_safe cfg -> reach cfg (init_state n tin tout ultra) st -> lin st.
Proof.
  intros CS R. induction R as [|st e st' R IH H]; [apply lin_init|].
  destruct (sown_reach _ _ _ _ _ _ CS R) as [IV _]. eapply lin_step_min; eauto.
Qed.

Print Assumptions lin_init.
Print Assumptions lin_step.
Print Assumptions lin_reach.
