(* The scanner's frontier (XLiveDefs.lsf): a candidate position reported by scan() is never
   the base of a candidate that is still in unord_q.

   [lsf]: the candidates the scan job of the input block [o, e) may still report lie in
   (d_bit s, 32 e]; no queued candidate lies in that range.  From it the label hypothesis
   [ev_fresh] of the liveness runs follows ([fresh_of_front]); it is maintained under the much
   weaker label hypothesis [ev_scan_prog] (a scan() call that finds a magic ends strictly after
   the position it started from).

   [lsf] alone is not inductive: for scan jobs that run on a block that has been shifted out
   of input_q (a zombie) one needs that zombies are non-empty, pairwise disjoint, and that at
   most one running scan is attached to a zombie ([sown] of XScanOwn.v says so only for the
   blocks of input_q).  [lsf'] adds these three clauses; it is inductive ([lsf'_step]) and
   implies [lsf].

   Organisation: the invariant is restated over lists ([frontp], [zombp]); every event except
   input / scan0 / scan1 only takes a "sub-structure" of the state ([ssub]: scan_q, input_q,
   running scans, unord_q shrink, zombies come from old zombies or old input blocks), under
   which the invariant is monotone ([lsx_ssub]). *)
From Coq Require Import List NArith Bool Lia Arith ZifyBool ZifyN ZifyNat.
From LBZ Require Import Gen.Consts SchedX.XState Gen.SchedXTab SchedX.XSet SchedX.XModel SchedX.XLemmas
  SchedX.XFrame SchedX.XInvDefs SchedX.XOps SchedX.XInv4 SchedX.XOwn SchedX.XOwnProofs SchedX.XScanOwn SchedX.XLiveDefs.
Import ListNotations.
Local Open Scope N_scope.

Definition ubl (us : list unord) : list N := map ubit (filter u_inq us).
Definition clr (U : list N) (lo hi : N) : Prop := forall x, In x U -> x <= lo \/ hi < x.

Lemma ubits_ubl st : ubits st = ubl (x_unords st).
Proof. reflexivity. Qed.

Lemma clear_of_clr st s e : clear_of st s e <-> clr (ubl (x_unords st)) (d_bit s) (32 * e).
Proof.
  unfold clear_of, clr, ubl, unord_q. split.
  - intros H x Hx. apply in_map_iff in Hx. destruct Hx as (u & <- & Hu). auto.
  - intros H u Hu. apply H. apply in_map. exact Hu.
Qed.

Lemma clr_incl U U' lo hi : incl U' U -> clr U lo hi -> clr U' lo hi.
Proof. intros I C x Hx. apply C, I, Hx. Qed.

(* [us'] has no queued candidate that [us] has not *)
Definition usub (us' us : list unord) : Prop :=
  forall u, In u us' -> u_inq u = true -> exists u0, In u0 us /\ u_inq u0 = true /\ u_base u0 = u_base u.

Lemma ubl_usub us' us : usub us' us -> incl (ubl us') (ubl us).
Proof.
  intros H x Hx. unfold ubl in *. apply in_map_iff in Hx. destruct Hx as (u & <- & Hu). apply filter_In in Hu.
  destruct Hu as [Hu Q]. destruct (H u Hu Q) as (u0 & H0 & Q0 & E). apply in_map_iff. exists u0.
  split; [unfold ubit; rewrite E; auto|apply filter_In; auto].
Qed.

Lemma usub_refl us : usub us us.
Proof. intros u Hu Q. exists u. auto. Qed.

Lemma usub_stems us' us us0 : (forall u, In u us' -> exists u1, In u1 us /\ stems u u1) -> usub us us0 -> usub us' us0.
Proof.
  intros H S u Hu Q. destruct (H u Hu) as (u1 & H1 & (E1 & E2 & E3 & E4 & _)).
  destruct (S u1 H1) as (u0 & H0 & Q0 & E0); [congruence|]. exists u0. repeat split; auto. congruence.
Qed.

Lemma usub_drop_link l us us0 : usub us us0 -> usub (drop_link l us) us0.
Proof. apply usub_stems. apply drop_link_stems. Qed.

Lemma usub_drop_links js us us0 : usub us us0 -> usub (drop_links js us) us0.
Proof. apply usub_stems. apply drop_links_stems. Qed.

Lemma usub_filter p us us0 : usub us us0 -> usub (filter p us) us0.
Proof. intros S u Hu Q. apply filter_In in Hu. destruct Hu as [Hu _]. auto. Qed.

Lemma usub_del id us us0 : usub us us0 -> usub (del_unord id us) us0.
Proof. apply usub_filter. Qed.

Definition keeps (f : unord -> unord) : Prop := forall u, u_base (f u) = u_base u /\ (u_inq (f u) = true -> u_inq u = true).

Lemma usub_map f us us0 : keeps f -> usub us us0 -> usub (map f us) us0.
Proof.
  intros K S u Hu Q. apply in_map_iff in Hu. destruct Hu as (u1 & <- & H1). destruct (K u1) as [K1 K2].
  destruct (S u1 H1 (K2 Q)) as (u0 & H0 & Q0 & E0). exists u0. repeat split; auto. congruence.
Qed.

Lemma usub_upd id f us us0 : keeps f -> usub us us0 -> usub (upd_unord id f us) us0.
Proof.
  intros K. unfold upd_unord. apply usub_map. intro u. destruct (u_id u =? id); [apply K|auto].
Qed.

Lemma keeps_end c : keeps (u_set_end c).                 Proof. intro u; simpl; auto. Qed.
Lemma keeps_complete : keeps u_set_complete.             Proof. intro u; simpl; auto. Qed.
Lemma keeps_detach b : keeps (u_detach b).               Proof. intro u; simpl; split; [auto|discriminate]. Qed.
Lemma keeps_ce c : keeps (fun u => u_set_complete (u_set_end c u)). Proof. intro u; simpl; auto. Qed.

Lemma usub_discard p us us0 : usub us us0 -> usub (discard_below p us) us0.
Proof.
  intro S. unfold discard_below. apply usub_map; [|apply usub_filter; exact S].
  intro u. destruct (u_inq u && pos_lt (u_base u) p && negb (u_complete u)); [apply keeps_detach|auto].
Qed.

Lemma usub_flush us us0 : usub us us0 -> usub (flush_unords us) us0.
Proof.
  intro S. unfold flush_unords. apply usub_map; [|apply usub_filter; exact S].
  intro u. destruct (u_inq u) eqn:Q; simpl; [split; [reflexivity|discriminate]|rewrite Q; auto].
Qed.

Create HintDb usb.
#[local] Hint Resolve usub_refl usub_drop_link usub_drop_links usub_del usub_upd usub_discard usub_flush
  keeps_end keeps_complete keeps_detach keeps_ce : usb.

(* SQ scan_q, IS shapes of input_q, BS shapes of input_q ++ zombies, R running, U bit positions of unord_q *)
Record frontp (SQ : list dbs) (IS BS : list (N * N)) (R : list cont) (U : list N) (tl : N) : Prop := mkfrontp {
  f_q : forall s r, In s SQ -> In r IS -> in_rng r s = true -> 32 * fst r <= d_bit s /\ clr U (d_bit s) (32 * rend r);
  f_r : forall s o r, In (CScan s (Some o)) R -> In r BS -> fst r = o -> 32 * o <= d_bit s /\ clr U (d_bit s) (32 * rend r);
  f_t : forall x, In x U -> x <= 32 * tl
}.

Record zombp (ZS : list (N * N)) (R : list cont) : Prop := mkzombp {
  z_pos : forall r, In r ZS -> 0 < snd r;
  z_sep : forall r r', In r ZS -> In r' ZS -> sep r r';
  z_one : forall r, In r ZS -> (length (filter (att_scan (fst r)) R) <= 1)%nat
}.

(* what [inv], [sown] and [zombp] say about the blocks *)
Record geo (SQ : list dbs) (IS BS : list (N * N)) (R : list cont) (tl : N) : Prop := mkgeo {
  g_pos : forall r, In r BS -> 0 < snd r;
  g_sep : forall r r', In r BS -> In r' BS -> sep r r';
  g_one : forall r, In r IS -> (length (filter (in_rng r) SQ) + length (filter (att_scan (fst r)) R) <= 1)%nat;
  g_att : forall r, In r BS -> (length (filter (att_scan (fst r)) R) <= 1)%nat;
  g_tl : forall r, In r BS -> rend r <= tl
}.

Lemma front_mono SQ SQ' IS IS' BS BS' R R' U U' tl tl' :
  incl SQ' SQ -> incl IS' IS -> incl BS' BS -> (forall s o, In (CScan s (Some o)) R' -> In (CScan s (Some o)) R) ->
  incl U' U -> tl <= tl' -> frontp SQ IS BS R U tl -> frontp SQ' IS' BS' R' U' tl'.
Proof.
  intros HQ HI HB HR HU HT [A B C]. constructor.
  - intros s r Hs Hr IR. destruct (A s r (HQ _ Hs) (HI _ Hr) IR) as [X Y]. split; [exact X|eapply clr_incl; eauto].
  - intros s o r Hc Hr E. destruct (B s o r (HR _ _ Hc) (HB _ Hr) E) as [X Y]. split; [exact X|eapply clr_incl; eauto].
  - intros x Hx. specialize (C x (HU _ Hx)). lia.
Qed.

Lemma zomb_sub SQ IS BS R tl ZS' R' :
  geo SQ IS BS R tl -> (forall r, In r ZS' -> In r BS) ->
  (forall o, (length (filter (att_scan o) R') <= length (filter (att_scan o) R))%nat) -> zombp ZS' R'.
Proof.
  intros [GP GS GO GA GT] HZ HC. constructor.
  - intros r Hr. apply GP. auto.
  - intros r r' Hr Hr'. apply GS; auto.
  - intros r Hr. eapply Nat.le_trans; [apply HC|]. apply GA. auto.
Qed.

(* input: a new block at the tail and its scan job *)
Lemma front_input SQ IS ZS R U t sz :
  frontp SQ IS (IS ++ ZS) R U t -> Forall (fun s => d_off s < t) SQ -> (forall r, In r IS -> rend r <= t) ->
  (forall s o, In (CScan s (Some o)) R -> o < t) ->
  frontp (mkdbs (32 * t) t :: SQ) (IS ++ [(t, sz)]) ((IS ++ [(t, sz)]) ++ ZS) R U (t + sz).
Proof.
  intros [A B C] LT IE RO. constructor.
  - intros s r Hs Hr IR. apply in_rng_spec in IR. destruct Hs as [<-|Hs]; apply in_app_or in Hr; destruct Hr as [Hr|[<-|[]]]; simpl in *.
    + exfalso. specialize (IE r Hr). lia.
    + split; [lia|]. intros x Hx. left. auto.
    + apply A; auto. apply in_rng_spec; auto.
    + exfalso. rewrite Forall_forall in LT. specialize (LT s Hs). lia.
  - intros s o r Hc Hr E. assert (K : In r (IS ++ ZS) \/ r = (t, sz)).
    { rewrite !in_app_iff in *. simpl in Hr. intuition. }
    destruct K as [K| ->]; [apply (B s o r); auto|]. exfalso. specialize (RO s o Hc). simpl in E. lia.
  - intros x Hx. specialize (C x Hx). lia.
Qed.

(* scan0: the job [s] of the block [rb] starts to run *)
Lemma front_scan0 l1 l2 s IS BS R U tl rb :
  geo (l1 ++ s :: l2) IS BS R tl -> incl IS BS -> frontp (l1 ++ s :: l2) IS BS R U tl -> In rb IS -> in_rng rb s = true ->
  frontp (l1 ++ l2) IS BS (CScan s (Some (fst rb)) :: R) U tl.
Proof.
  intros [GP GS GO GA GT] II [A B C] Hrb IR. constructor.
  - intros s2 r Hs Hr. apply A; auto. rewrite in_app_iff in *. simpl. tauto.
  - intros s2 o r [X|Hc] Hr E.
    + inversion X; subst s2 o. assert (r = rb) by (apply sep_same; auto). subst r.
      apply A; auto. apply in_or_app; right; left; auto.
    + apply (B s2 o r); auto.
  - exact C.
Qed.

(* scan1: the job [s] attached to the block [rb] comes back having found a magic at [s'] *)
Lemma front_scan1 SQ IS BS BS' l1 l2 U tl s o rb s' (addc requeue : bool) :
  geo SQ IS BS (l1 ++ CScan s (Some o) :: l2) tl -> incl IS BS -> incl BS' BS ->
  frontp SQ IS BS (l1 ++ CScan s (Some o) :: l2) U tl ->
  In rb BS -> fst rb = o -> d_bit s < d_bit s' -> d_bit s' <= 32 * rend rb ->
  (requeue = true -> o <= d_off s' /\ d_off s' < rend rb) ->
  frontp (if requeue then s' :: SQ else SQ) IS BS' (l1 ++ l2) (if addc then U ++ [d_bit s'] else U) tl.
Proof.
  intros [GP GS GO GA GT] II BI [A B C] Hrb Eo LT LE RQ.
  assert (Hc : In (CScan s (Some o)) (l1 ++ CScan s (Some o) :: l2)) by (apply in_or_app; right; left; auto).
  destruct (B s o rb Hc Hrb Eo) as [B1 B2].
  (* the new candidate and another job standing at [d] on the block [r] *)
  assert (NEW : forall r d, In r BS -> r <> rb -> 32 * fst r <= d -> d_bit s' <= d \/ 32 * rend r < d_bit s').
  { intros r d Hr NE L. destruct (GS r rb Hr Hrb) as [X|[X|X]]; [contradiction| |].
    - right. clear - X Eo B1 LT. lia.
    - left. clear - X LE L. lia. }
  assert (CL : forall r d, In r BS -> r <> rb -> 32 * fst r <= d -> clr U d (32 * rend r) ->
                           clr (if addc then U ++ [d_bit s'] else U) d (32 * rend r)).
  { intros r d Hr NE L K. destruct addc; [|exact K]. intros x Hx. apply in_app_or in Hx.
    destruct Hx as [Hx|[<-|[]]]; [auto|]. apply NEW; auto. }
  assert (F1 : frontp SQ IS BS' (l1 ++ l2) (if addc then U ++ [d_bit s'] else U) tl).
  { constructor.
    - intros s2 r Hs Hr IR. destruct (A s2 r Hs Hr IR) as [X Y]. split; [exact X|]. apply CL; auto.
      intro EQ. subst r. pose proof (GO rb Hr) as O1.
      pose proof (proj2 (filter_len_pos (in_rng rb) SQ) (ex_intro _ s2 (conj Hs IR))) as P1.
      assert (P2 : (1 <= length (filter (att_scan (fst rb)) (l1 ++ CScan s (Some o) :: l2)))%nat).
      { apply filter_len_pos. eexists. split; [exact Hc|]. simpl. rewrite Eo. apply N.eqb_refl. }
      clear - O1 P1 P2. lia.
    - intros s2 o2 r Hc2 Hr E2.
      assert (Hc2' : In (CScan s2 (Some o2)) (l1 ++ CScan s (Some o) :: l2)).
      { rewrite in_app_iff in *. simpl. tauto. }
      destruct (B s2 o2 r Hc2' (BI _ Hr) E2) as [X Y]. split; [exact X|]. apply CL; auto; [|rewrite E2; exact X].
      intro EQ. subst r. pose proof (GA rb Hrb) as O1.
      rewrite filter_app, app_length in O1. simpl in O1. rewrite Eo, N.eqb_refl in O1. simpl in O1.
      assert (P2 : (1 <= length (filter (att_scan o) (l1 ++ l2)))%nat).
      { apply filter_len_pos. eexists. split; [exact Hc2|]. simpl. rewrite <- E2, Eo. apply N.eqb_refl. }
      rewrite filter_app, app_length in P2. clear - O1 P2. lia.
    - intros x Hx. destruct addc; [|auto]. apply in_app_or in Hx. destruct Hx as [Hx|[<-|[]]]; auto.
      pose proof (GT rb Hrb) as T1. clear - T1 LE. lia. }
  destruct requeue; [|exact F1]. destruct (RQ eq_refl) as [R1 R2]. destruct F1 as [A1 B1' C1]. constructor; auto.
  intros s2 r [<-|Hs] Hr IR; [|auto].
  assert (r = rb).
  { apply in_rng_spec in IR. destruct IR as [I1 I2]. apply (sep_point r rb (d_off s')); auto. rewrite Eo. exact R1. }
  subst r. split; [clear - B1 LT Eo; lia|]. intros x Hx.
  assert (K : In x U \/ x = d_bit s').
  { destruct addc; auto. apply in_app_or in Hx. destruct Hx as [Hx|[<-|[]]]; auto. }
  destruct K as [K| ->]; [|left; apply N.le_refl]. destruct (B2 x K) as [Y|Y]; [left; clear - Y LT; lia|right; exact Y].
Qed.

Definition ishapes (st : xstate) : list (N * N) := map bshape (x_input_q st).
Definition zshapes (st : xstate) : list (N * N) := map bshape (x_zombies st).
Definition front (st : xstate) : Prop :=
  frontp (x_scan_q st) (ishapes st) (ishapes st ++ zshapes st) (x_running st) (ubl (x_unords st)) (x_tail_offs st).
Definition zomb (st : xstate) : Prop := zombp (zshapes st) (x_running st).
Definition lsx (st : xstate) : Prop := front st /\ zomb st.

(* [lsf] and what it lacks: zombies are non-empty and pairwise disjoint, and at most one running scan
   is attached to a zombie *)
Record lsf' (st : xstate) : Prop := mklsf' {
  sf_lsf : lsf st;
  sf_zpos : forall z, In z (x_zombies st) -> 0 < ib_size z;
  sf_zsep : forall z z', In z (x_zombies st) -> In z' (x_zombies st) ->
            bshape z = bshape z' \/ ib_end z <= ib_off z' \/ ib_end z' <= ib_off z;
  sf_u : forall z, In z (x_zombies st) -> (length (filter (att_scan (ib_off z)) (x_running st)) <= 1)%nat
}.

Lemma front_lsf st : front st <-> lsf st.
Proof.
  split.
  - intros [A B C]. constructor.
    + intros s b Hs Hb L1 L2. destruct (A s (bshape b)) as [X Y]; auto.
      * apply in_map. exact Hb.
      * apply in_rng_spec. split; [exact L1|exact L2].
      * split; [exact X|apply clear_of_clr; exact Y].
    + intros s o b Hc Hb E. destruct (B s o (bshape b)) as [X Y]; auto.
      * unfold ishapes, zshapes. rewrite <- map_app. apply in_map. exact Hb.
      * split; [exact X|apply clear_of_clr; exact Y].
    + intros u Hu. apply C. unfold ubl. apply in_map. exact Hu.
  - intros [A B C]. constructor.
    + intros s r Hs Hr IR. apply in_map_iff in Hr. destruct Hr as (b & <- & Hb). apply in_rng_spec in IR. destruct IR as [L1 L2].
      destruct (A s b Hs Hb L1 L2) as [X Y]. split; [exact X|apply clear_of_clr in Y; exact Y].
    + intros s o r Hc Hr E. unfold ishapes, zshapes in Hr. rewrite <- map_app in Hr. apply in_map_iff in Hr.
      destruct Hr as (b & <- & Hb). destruct (B s o b Hc Hb E) as [X Y]. split; [exact X|apply clear_of_clr in Y; exact Y].
    + intros x Hx. unfold ubl in Hx. apply in_map_iff in Hx. destruct Hx as (u & <- & Hu). apply C. exact Hu.
Qed.

Lemma lsf'_lsx st : lsf' st <-> lsx st.
Proof.
  split.
  - intros [A B C D]. split; [apply front_lsf; exact A|]. constructor.
    + intros r Hr. apply in_map_iff in Hr. destruct Hr as (z & <- & Hz). apply B. exact Hz.
    + intros r r' Hr Hr'. apply in_map_iff in Hr, Hr'. destruct Hr as (z & <- & Hz), Hr' as (z' & <- & Hz'). apply (C z z'); auto.
    + intros r Hr. apply in_map_iff in Hr. destruct Hr as (z & <- & Hz). apply (D z). exact Hz.
  - intros [A [B C D]]. constructor.
    + apply front_lsf. exact A.
    + intros z Hz. apply (B (bshape z)). apply in_map. exact Hz.
    + intros z z' Hz Hz'. apply (C (bshape z) (bshape z')); apply in_map; auto.
    + intros z Hz. apply (D (bshape z)). apply in_map. exact Hz.
Qed.

Lemma lsf'_lsf st : lsf' st -> lsf st.
Proof. apply sf_lsf. Qed.

Lemma geo_st st : cg st -> sown st -> zomb st ->
  geo (x_scan_q st) (ishapes st) (ishapes st ++ zshapes st) (x_running st) (x_tail_offs st) /\
  (forall r, In r (ishapes st) -> x_head_offs st <= fst r) /\ (forall r, In r (zshapes st) -> rend r <= x_head_offs st).
Proof.
  intros CT [SA SB SC SD] [ZP ZS ZO].
  pose proof (fun r => shape_bounds _ _ _ r CT) as HI. fold (ishapes st) in HI.
  assert (HZ : forall r, In r (zshapes st) -> rend r <= x_head_offs st).
  { intros r Hr. apply in_map_iff in Hr. destruct Hr as (b & <- & Hb). rewrite Forall_forall in SD. apply (SD b Hb). }
  pose proof (contig_le _ _ _ CT) as HT.
  split; [|split; [intros r Hr; apply HI; auto|exact HZ]]. constructor.
  - intros r Hr. apply in_app_or in Hr. destruct Hr as [Hr|Hr]; [apply HI; auto|apply ZP; auto].
  - intros r r' Hr Hr'. apply in_app_or in Hr, Hr'. destruct Hr as [Hr|Hr], Hr' as [Hr'|Hr'].
    + apply in_map_iff in Hr, Hr'. destruct Hr as (b & <- & Hb), Hr' as (b' & <- & Hb'). eapply contig_sep; eauto.
    + right; right. specialize (HZ r' Hr'). destruct (HI r Hr) as (X & _). clear - HZ X. lia.
    + right; left. specialize (HZ r Hr). destruct (HI r' Hr') as (X & _). clear - HZ X. lia.
    + apply ZS; auto.
  - exact SB.
  - intros r Hr. apply in_app_or in Hr. destruct Hr as [Hr|Hr]; [|apply ZO; auto].
    specialize (SB r Hr). clear - SB. lia.
  - intros r Hr. apply in_app_or in Hr. destruct Hr as [Hr|Hr]; [apply HI; auto|]. specialize (HZ r Hr). clear - HZ HT. lia.
Qed.

Record ssub (st st' : xstate) : Prop := mkssub {
  ss_sq : incl (x_scan_q st') (x_scan_q st);
  ss_iq : incl (ishapes st') (ishapes st);
  ss_zq : forall r, In r (zshapes st') -> In r (zshapes st) \/ In r (ishapes st);
  ss_ru : forall s a, In (CScan s a) (x_running st') -> In (CScan s a) (x_running st);
  ss_rc : forall o, (length (filter (att_scan o) (x_running st')) <= length (filter (att_scan o) (x_running st)))%nat;
  ss_un : usub (x_unords st') (x_unords st);
  ss_tl : x_tail_offs st' = x_tail_offs st
}.

Lemma lsx_ssub st st' : cg st -> sown st -> ssub st st' -> lsx st -> lsx st'.
Proof.
  intros CT S [Q I Z RU RC UN TL] [F ZB]. destruct (geo_st st CT S ZB) as (G & _ & _).
  assert (BI : incl (ishapes st' ++ zshapes st') (ishapes st ++ zshapes st)).
  { intros r Hr. apply in_app_or in Hr. apply in_or_app. destruct Hr as [Hr|Hr]; [left; auto|]. destruct (Z r Hr); auto. }
  split.
  - unfold front. rewrite TL. eapply front_mono; try exact F; auto.
    + apply ubl_usub. exact UN.
    + apply N.le_refl.
  - eapply zomb_sub; [exact G| |exact RC]. intros r Hr. apply BI. apply in_or_app. right. exact Hr.
Qed.

Lemma ssub_trans a b c : ssub a b -> ssub b c -> ssub a c.
Proof.
  intros [Q1 I1 Z1 U1 C1 N1 T1] [Q2 I2 Z2 U2 C2 N2 T2]. constructor.
  - eapply incl_tran; eauto.
  - eapply incl_tran; eauto.
  - intros r Hr. destruct (Z2 r Hr) as [X|X]; auto.
  - auto.
  - intro o. eapply Nat.le_trans; eauto.
  - intros u Hu Q. destruct (N2 u Hu Q) as (u1 & H1 & Q1' & E1). destruct (N1 u1 H1 Q1') as (u0 & H0 & Q0 & E0).
    exists u0. repeat split; auto. congruence.
  - congruence.
Qed.

(* the state keeps scan_q, the ranges of the live blocks and tail_offs; zombies, running scans and queued candidates shrink *)
Lemma ssub_fields st st' :
  x_scan_q st' = x_scan_q st -> ishapes st' = ishapes st -> incl (zshapes st') (zshapes st) -> x_tail_offs st' = x_tail_offs st ->
  rsub (x_running st') (x_running st) -> usub (x_unords st') (x_unords st) -> ssub st st'.
Proof. intros Q I Z T [RC RI] U. constructor; rewrite ?Q, ?I; auto using incl_refl. Qed.

(* for a state written as setters over [st] that leave alone what [ssub] reads, except the unord store *)
Ltac ss_tac := apply ssub_fields; [reflexivity|reflexivity|apply incl_refl|reflexivity|apply rsub_refl|xnorm; auto with usb].

Lemma ssub_refl st : ssub st st.
Proof. ss_tac. Qed.

Lemma ssub_del_run c l1 l2 st : x_running st = l1 ++ c :: l2 -> ssub st (set_running (l1 ++ l2) st).
Proof.
  intro E. apply ssub_fields; [reflexivity|reflexivity|apply incl_refl|reflexivity| |apply usub_refl]. xs. rewrite E. apply rsub_del.
Qed.

Lemma ssub_add_run c st : is_scan c = false -> ssub st (add_run c st).
Proof.
  intro NS. apply ssub_fields; [reflexivity|reflexivity|apply incl_refl|reflexivity|exact (rsub_add c _ NS)|apply usub_refl].
Qed.

Lemma ssub_detach att st : ssub st (detach att st).
Proof.
  apply ssub_fields; [apply x_scan_q_detach|apply shape_detach|apply detach_zshape|apply x_tail_offs_detach| |].
  - rewrite x_running_detach. apply rsub_refl.
  - rewrite x_unords_detach. apply usub_refl.
Qed.

Lemma ssub_attach d st : ssub st (fst (attach d st)).
Proof.
  apply ssub_fields; [apply x_scan_q_attach|apply shape_attach| |apply x_tail_offs_attach| |].
  - unfold zshapes. rewrite x_zombies_attach. apply incl_refl.
  - rewrite x_running_attach. apply rsub_refl.
  - rewrite x_unords_attach. apply usub_refl.
Qed.

Lemma pop_input_incl lim q : incl (fst (pop_input lim q)) q /\ incl (snd (pop_input lim q)) q.
Proof.
  induction q as [|a r IH]; simpl; [split; apply incl_refl|]. destruct (ib_end a <=? lim).
  - destruct (pop_input lim r) as [p k]. simpl in *. destruct IH as [I1 I2]. split.
    + intros b [<-|Hb]; [left; auto|right; auto].
    + intros b Hb. right. auto.
  - simpl. split; [intros b []|apply incl_refl].
Qed.

Lemma adv_scan_incl fuel hd q : incl (adv_scan fuel hd q) q.
Proof.
  intros s Hs. assert (F : Forall (fun x => In x q) (adv_scan fuel hd q)) by (apply adv_scan_forall; apply Forall_forall; auto).
  rewrite Forall_forall in F. auto.
Qed.

(* blocks that leave input_q become zombies with the range they had *)
Lemma zshapes_release ZQ l IS : incl (map bshape l) IS ->
  forall r, In r (map bshape (ZQ ++ zrel l)) -> In r (map bshape ZQ) \/ In r IS.
Proof.
  intros I r Hr. rewrite map_app in Hr. apply in_app_or in Hr as [Hr|Hr]; [left; exact Hr|right; exact (I _ (zrel_shape _ _ Hr))].
Qed.

Lemma ssub_advance cfg bs st : ssub st (advance cfg bs st).
Proof.
  destruct (pop_input_incl (d_off bs) (x_input_q st)) as [PI1 PI2].
  rewrite advance_eq. cbv zeta. constructor; unfold ishapes, zshapes; xs; auto using incl_refl.
  - apply adv_scan_incl.
  - apply incl_map. exact PI2.
  - rewrite rel_zom_eq. xs. exact (zshapes_release _ _ _ (incl_map bshape PI1)).
  - destruct (c_advance_drops_link cfg); auto with usb.
Qed.

Lemma ssub_parse_finish cfg g s : ssub s (parse_finish cfg g s).
Proof.
  rewrite parse_finish_eq. cbv zeta. destruct (_ && _); [ss_tac|].
  constructor; unfold ishapes, zshapes; xs; auto using incl_refl with usb; try (intros x []).
  - exact (zshapes_release _ _ _ (incl_refl _)).
  - destruct (c_finish_drops_link cfg); auto with usb.
Qed.

Lemma ssub_parse_ok cfg lv crc s : ssub s (parse_ok cfg lv crc s).
Proof.
  destruct (parse_ok_cases cfg lv crc s) as [(_ & ->)|(u & _ & _ & ->)]; [ss_tac|]. cbv zeta.
  (* the parser adopts the candidate [u] *)
  set (s2 := set_unords (discard_below _ _) _). eapply ssub_trans; [|eapply ssub_trans; [apply (ssub_advance cfg (u_end u) s2)|]].
  - subst s2. ss_tac.
  - generalize (advance cfg (u_end u) s2). intro s3. destruct (u_complete u); ss_tac.
Qed.

Lemma ssub_parse1 cfg att r st st' : parse1 cfg att r st = Some st' -> ssub st st'.
Proof.
  intros H. destruct (parse1_inv _ _ _ _ _ H) as (l1 & l2 & E & _ & _ & _ & _ & _ & CASE). cbv zeta in CASE.
  eapply ssub_trans; [exact (ssub_del_run _ _ _ _ E)|]. eapply ssub_trans; [apply (ssub_detach att)|].
  eapply ssub_trans; [apply (ssub_advance cfg (res_bs r))|].
  generalize dependent (advance cfg (res_bs r) (detach att (set_running (l1 ++ l2) st))). intros s3 CASE.
  destruct r as [bs ps|bs g|bs code|bs ps lv crc].
  - destruct CASE as (_ & _ & ->). ss_tac.
  - destruct CASE as (_ & _ & ->). apply ssub_parse_finish.
  - destruct CASE as (_ & _ & _ & ->). ss_tac.
  - destruct CASE as (_ & ->). eapply ssub_trans; [|apply ssub_parse_ok]. ss_tac.
Qed.

Lemma ssub_retr1_tail cfg j rv cur fin sa : (forall s, ssub s (fin s)) -> ssub sa (retr1_tail cfg j rv cur fin sa).
Proof.
  intro F. unfold retr1_tail, drop_if. destruct (rv =? MORE).
  - destruct (_ && _); [destruct (c_stale_drops_link cfg)|]; ss_tac.
  - eapply ssub_trans; [apply F|apply ssub_add_run; reflexivity].
Qed.

Lemma ssub_retr1 cfg j att rv cur st st' : retr1 cfg j att rv cur st = Some st' -> ssub st st'.
Proof.
  intros H. destruct (retr1_inv _ _ _ _ _ _ _ H) as (l1 & l2 & E & _ & _ & _ & _ & _ & _ & _ & CASE).
  eapply ssub_trans; [exact (ssub_del_run _ _ _ _ E)|]. eapply ssub_trans; [apply (ssub_detach att)|].
  generalize dependent (detach att (set_running (l1 ++ l2) st)). intros s2 CASE.
  destruct CASE as [_ ->|u _ _ _ _ ->|_ _ ->|id _ _ _ ->].
  - unfold drop_if. destruct (c_retr_done_drops_link cfg); ss_tac.
  - unfold drop_if. destruct (c_retr_abort_drops_link cfg); ss_tac.
  - eapply ssub_trans; [apply (ssub_advance cfg cur)|]. generalize (advance cfg cur s2). intro s3.
    apply ssub_retr1_tail. intro s. unfold fin_master. destruct (r_link j); ss_tac.
  - eapply ssub_trans; [|apply ssub_retr1_tail; intro s; unfold fin_spec; ss_tac]. ss_tac.
Qed.

Lemma lsx_input sz m st st' : inv st -> sown st -> lsx st -> input sz m st = Some st' -> lsx st'.
Proof.
  intros IV S [F ZB] H. destruct (input_inv _ _ _ _ H) as (_ & _ & _ & _ & C).
  destruct (x_parsing_done st); subst st'; [split; assumption|].
  pose proof (i_contig _ IV) as CT. destruct S as [SA SB SC SD].
  split; [|exact ZB].
  unfold front, ishapes, zshapes. xs. rewrite map_app. cbn [map bshape ib_off ib_size].
  apply front_input.
  - exact F.
  - exact SA.
  - intros r Hr. apply (shape_bounds _ _ _ r CT Hr).
  - intros s o Hc. destruct (SC _ _ Hc) as (o' & [= <-] & _ & LT). exact LT.
Qed.

Lemma lsx_scan0 st st' : inv st -> sown st -> lsx st -> scan0 st = Some st' -> lsx st'.
Proof.
  intros IV S [F ZB] H. destruct (scan0_inv _ _ H) as (_ & s & l1 & l2 & _ & EQ & ->). cbv zeta.
  pose proof (i_contig _ IV) as CT. destruct (geo_st st CT S ZB) as (G & GI & GZ).
  destruct (scan0_block st s l1 l2 IV S EQ) as (b & Hb & IR & ->).
  assert (Hrb : In (bshape b) (ishapes st)) by (apply in_map; exact Hb).
  unfold lsx, front, zomb, ishapes, zshapes in *. rewrite attach_nf, add_run_nf. xs. unfold attach_inq. rewrite shape_attach. xs.
  rewrite EQ in F, G. split.
  - apply (front_scan0 l1 l2 s _ _ _ _ _ (bshape b)); auto using incl_appl, incl_refl.
  - destruct ZB as [ZP ZS ZO]. constructor; auto. intros r Hr. specialize (ZO r Hr). cbn [filter att_scan].
    destruct (ib_off b =? fst r) eqn:EO; [|exact ZO]. exfalso. apply N.eqb_eq in EO.
    specialize (GZ r Hr). specialize (ZP r Hr). specialize (GI _ Hrb). cbn in GI. unfold rend in GZ. clear - EO GZ ZP GI. lia.
Qed.

Lemma dbs_norm_bit s : dbs_norm s = true -> d_bit s <= 32 * d_off s.
Proof. unfold dbs_norm. lia. Qed.

(* the candidate is passed over or registered *)
Lemma cand_ubl cfg s' s2 : exists addc : bool,
  ubl (x_unords (scan1_cand cfg s' s2)) = if addc then ubl (x_unords s2) ++ [d_bit s'] else ubl (x_unords s2).
Proof.
  unfold scan1_cand, new_cand. destruct (_ || _); [|destruct (_ && _)]; [exists false|exists false|exists true]; try reflexivity.
  xs. unfold ubl. rewrite filter_app, map_app. reflexivity.
Qed.

Lemma scan1_requeue_eta cfg s' more s3 :
  scan1_requeue cfg s' more s3 =
  set_scan_q (if more && (negb (c_requeue_scan_checks_head cfg) || (x_head_offs s3 <=? d_off s')) then s' :: x_scan_q s3 else x_scan_q s3) s3.
Proof. unfold scan1_requeue. destruct (_ && _); [reflexivity|destruct s3; reflexivity]. Qed.

Lemma lsx_scan1 cfg s att found s' more st st' :
  inv st -> sown st -> (found = true -> d_bit s < d_bit s') -> lsx st ->
  scan1 cfg s att found s' more st = Some st' -> lsx st'.
Proof.
  intros IV S PR [F ZB] H. destruct (scan1_inv _ _ _ _ _ _ _ _ H) as (l1 & l2 & E & _ & C). cbv zeta in C. clear H.
  pose proof (i_contig _ IV) as CT. destruct (geo_st st CT S ZB) as (G & GI & GZ).
  assert (SS : ssub st (detach att (set_running (l1 ++ l2) st)))
    by (eapply ssub_trans; [exact (ssub_del_run _ _ _ _ E)|apply ssub_detach]).
  destruct C as [(_ & ->)|(FT & _ & NS & OS & LE & -> & ->)].
  { eapply lsx_ssub; [exact CT|exact S| |split; assumption]. eapply ssub_trans; [exact SS|ss_tac]. }
  specialize (PR FT). pose proof (dbs_norm_bit _ NS) as NB.
  destruct (run_block st s att S) as (b & -> & Hb & OL & AE); [rewrite E; apply in_elt|clear - LE NB PR; lia|]. rewrite AE in *.
  assert (Hrb : In (bshape b) (ishapes st ++ zshapes st)) by (unfold ishapes, zshapes; rewrite <- map_app; apply in_map; exact Hb).
  pose proof (ss_zq _ _ SS) as SZ. pose proof (ss_rc _ _ SS) as SC. clear SS.
  destruct (cand_ubl cfg s' (detach (Some (ib_off b)) (set_running (l1 ++ l2) st))) as (addc & UE).
  rewrite scan1_requeue_eta. set (requeue := _ && _).
  unfold lsx, front, zomb, ishapes, zshapes in *. rewrite scan1_cand_eta. cbv zeta. xs. rewrite UE.
  rewrite x_scan_q_detach, shape_detach, x_running_detach, x_tail_offs_detach, x_unords_detach in *. xs. xs in SC.
  rewrite E in F, G. split.
  - apply (front_scan1 _ _ _ _ _ _ _ _ s (ib_off b) (bshape b) s' addc requeue G); auto using incl_appl, incl_refl.
    + intros r Hr. apply in_app_or in Hr as [Hr|Hr]; [apply in_or_app; left; exact Hr|]. apply in_or_app. destruct (SZ r Hr); auto.
    + change (rend (bshape b)) with (ib_end b). clear - LE NB. lia.
    + intro RQ. change (rend (bshape b)) with (ib_end b). subst requeue. apply andb_true_iff in RQ as [MO _]. clear - MO OS OL. lia.
  - eapply zomb_sub; [exact G| |rewrite <- E; exact SC]. intros r Hr. apply in_or_app. destruct (SZ r Hr); auto.
Qed.

Lemma lsx_init n tin tout ultra : lsx (init_state n tin tout ultra).
Proof.
  split.
  - unfold front. simpl. constructor; [intros s r []|intros s o r []|intros x []].
  - unfold zomb. simpl. constructor; [intros r []|intros r r' []|intros r []].
Qed.

Theorem lsx_step cfg st e st' :
  inv st -> sown st -> ev_scan_prog e -> lsx st -> step cfg st e = Some st' -> lsx st'.
Proof.
  intros IV S EP L H. unfold step in H. destruct (x_failed st); [discriminate|].
  pose proof (i_contig _ IV) as CT.
  assert (SUB : ssub st st' -> lsx st') by (intro X; eapply lsx_ssub; eauto).
  destruct e.
  - eapply lsx_input; eauto.
  - apply SUB. destruct (reader_eof_inv _ _ H) as (_ & ->). ss_tac.
  - apply SUB. destruct (written_inv _ _ H) as (_ & ->). ss_tac.
  - apply SUB. destruct (parse0_inv _ _ H) as (_ & ->). cbv zeta.
    eapply ssub_trans; [|apply ssub_add_run; reflexivity]. eapply ssub_trans; [|apply ssub_attach]. ss_tac.
  - apply SUB. eapply ssub_parse1; eauto.
  - apply SUB. destruct (retr0_inv _ _ _ H) as (_ & q & T & ->). cbv zeta.
    eapply ssub_trans; [|apply ssub_add_run; reflexivity]. eapply ssub_trans; [|apply ssub_attach]. ss_tac.
  - apply SUB. eapply ssub_retr1; eauto.
  - apply SUB. destruct (retr2_inv _ _ _ H) as (l1 & l2 & E & _ & ->).
    eapply ssub_trans; [exact (ssub_del_run _ _ _ _ E)|]. ss_tac.
  - apply SUB. destruct (emit0_inv _ _ H) as (_ & e & l1 & l2 & _ & _ & ->).
    eapply ssub_trans; [|apply ssub_add_run; reflexivity]. ss_tac.
  - apply SUB. destruct (emit1_inv _ _ _ _ _ _ _ H) as (l1 & l2 & E & _ & _ & _ & C). cbv zeta in C.
    eapply ssub_trans; [exact (ssub_del_run _ _ _ _ E)|]. destruct (rv =? MORE); subst st'; ss_tac.
  - apply SUB. destruct (reorder_inv _ _ H) as (_ & o & l1 & l2 & _ & _ & [_ ->|? ? _ _ _ ->|? ? _ _ _ _ ->|? ? _ _ _ _ ->]);
      unfold ro_hand, ro_offs; ss_tac.
  - eapply lsx_scan0; eauto.
  - eapply lsx_scan1; eauto. simpl in EP. intro FT. subst found. exact EP.
Qed.

Lemma lsf'_init n tin tout ultra : lsf' (init_state n tin tout ultra).
Proof. apply lsf'_lsx. apply lsx_init. Qed.

Lemma lsf_init n tin tout ultra : lsf (init_state n tin tout ultra).
Proof. apply lsf'_lsf. apply lsf'_init. Qed.

Theorem lsf'_step cfg st e st' :
  cfg_safe cfg -> inv st -> sown st -> ev_scan_prog e -> lsf' st -> step cfg st e = Some st' -> lsf' st'.
Proof. intros _ IV S EP L H. apply lsf'_lsx. apply lsf'_lsx in L. eapply lsx_step; eauto. Qed.

Corollary lsf_step cfg st e st' :
  cfg_safe cfg -> inv st -> sown st -> ev_scan_prog e -> lsf' st -> step cfg st e = Some st' -> lsf st'.
Proof. intros CS IV S EP L H. apply lsf'_lsf. eapply lsf'_step; eauto. Qed.

Theorem fresh_of_front cfg st e st' :
  cfg_safe cfg -> inv st -> own st -> sown st -> lsf st -> ev_scan_prog e -> step cfg st e = Some st' -> ev_fresh st e.
Proof.
  intros _ IV OW S L EP H. destruct e; try exact I. destruct found; [|exact I]. simpl in EP. simpl.
  unfold step in H. destruct (x_failed st); [discriminate|].
  destruct (scan1_inv _ _ _ _ _ _ _ _ H) as (l1 & l2 & E & _ & C). cbv zeta in C.
  assert (Hc : In (CScan s att) (x_running st)) by (rewrite E; apply in_elt).
  rewrite x_parsing_done_detach in C. xs in C. destruct C as [([X|PD] & _)|(_ & _ & NS & _ & LE & _)]; [discriminate X| |].
  - (* unord_q is empty once the parser is done *)
    pose proof (o_noinq _ _ _ (proj1 OW) PD) as NQ. rewrite Forall_forall in NQ.
    unfold ubits, unord_q. intro Hin. apply in_map_iff in Hin. destruct Hin as (u & _ & Hu). apply filter_In in Hu.
    destruct Hu as [Hu Q]. rewrite (NQ u Hu) in Q. discriminate.
  - pose proof (dbs_norm_bit _ NS) as NB.
    destruct (run_block st s att S Hc) as (b & -> & Hb & _ & AE); [clear - LE NB EP; lia|].
    destruct (sf_r _ L s _ b Hc Hb eq_refl) as [_ CL].
    unfold ubits. intro Hin. apply in_map_iff in Hin. destruct Hin as (u & EU & Hu).
    destruct (CL u Hu) as [X|X]; rewrite EU in X; rewrite <- AE in *; clear - X EP LE NB; lia.
Qed.

Lemma sreach_inv cfg n tin tout ultra st :
  cfg_safe cfg -> cfg_drops cfg -> sreach cfg (init_state n tin tout ultra) st ->
  lreach cfg (init_state n tin tout ultra) st /\ inv st /\ sown st /\ lsf' st /\ (x_failed st = None -> own st).
Proof.
  intros CS CD R. induction R as [|st e st' R (LR & IV & S & L & OW) EV EP H].
  - split; [constructor|]. split; [apply inv_init|]. split; [apply sown_init|]. split; [apply lsf'_init|].
    intros _. apply own_init.
  - pose proof (step_not_failed _ _ _ _ H) as NF. specialize (OW NF).
    assert (FR : ev_fresh st e) by (eapply fresh_of_front; eauto; apply lsf'_lsf; exact L).
    split; [econstructor; eauto|]. split; [eapply inv_step; eauto|]. split; [eapply sown_step; eauto|].
    split; [eapply lsf'_step; eauto|]. intro NF'. eapply own_step; eauto.
Qed.

Theorem sreach_lreach cfg n tin tout ultra st :
  cfg_safe cfg -> cfg_drops cfg -> sreach cfg (init_state n tin tout ultra) st -> lreach cfg (init_state n tin tout ultra) st.
Proof. intros CS CD R. apply (sreach_inv _ _ _ _ _ _ CS CD R). Qed.

Theorem lsf'_sreach cfg n tin tout ultra st :
  cfg_safe cfg -> cfg_drops cfg -> sreach cfg (init_state n tin tout ultra) st -> lsf' st.
Proof. intros CS CD R. apply (sreach_inv _ _ _ _ _ _ CS CD R). Qed.

Theorem lsf_sreach cfg n tin tout ultra st :
  cfg_safe cfg -> cfg_drops cfg -> sreach cfg (init_state n tin tout ultra) st -> lsf st.
Proof. intros CS CD R. apply lsf'_lsf. eapply lsf'_sreach; eauto. Qed.

Print Assumptions lsf'_step.
Print Assumptions fresh_of_front.
Print Assumptions sreach_lreach.
Print Assumptions lsf_sreach.
