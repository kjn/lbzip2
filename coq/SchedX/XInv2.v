From Coq Require Import List NArith Bool Lia Arith ZifyBool ZifyN.
From LBZ Require Import Gen.Consts SchedX.XState Gen.SchedXTab SchedX.XSet SchedX.XModel SchedX.XLemmas
  SchedX.XFrame SchedX.XInvDefs SchedX.XOps SchedX.XInv.
Import ListNotations.
Local Open Scope N_scope.

Lemma job_ok_ext st st' j : x_next_uid st' = x_next_uid st -> x_unords st' = x_unords st -> job_ok st j -> job_ok st' j.
Proof. unfold job_ok. intros -> ->. auto. Qed.

Lemma inv_input sz m st st' : inv st -> input sz m st = Some st' -> inv st'.
Proof.
  intros I H. apply input_inv in H. destruct H as (_ & _ & Hs & _ & H).
  destruct (x_parsing_done st); subst st'; [exact I|].
  destruct I as [Ic Ip Ir Is Iu If Ij Il Ie Im Id Ib Iq]. unfold all_jobs, nparse in *.
  constructor; unfold all_jobs, nparse; xs; auto.
  - apply contig_app; auto.
  - constructor; auto. simpl. apply contig_le in Ic. unfold dbs_norm; simpl. clear - Ic. split; lia.
Qed.

Lemma can_attach_le st d : can_attach st d = true -> d_off d <= x_tail_offs st.
Proof. unfold can_attach. lia. Qed.

Ltac bool_hyps := repeat match goal with
  | H : _ && _ = true |- _ => apply andb_true_iff in H; destruct H
  | H : negb _ = true |- _ => apply negb_true_iff in H
  | H : negb _ = false |- _ => apply negb_false_iff in H
  | H : _ || _ = false |- _ => apply orb_false_iff in H; destruct H
  end.

Ltac nrm := unfold all_jobs, nparse; xnorm.

(* the first segment of a task ends by attaching the bit stream, which only touches reference counts *)
Lemma view_attach d s :
  contig (x_head_offs s) (x_input_q s) (x_tail_offs s) -> x_bad_attach s = false ->
  x_head_offs s <= d_off d -> d_off d <= x_tail_offs s -> view_eq s (fst (attach d s)).
Proof.
  intros C B L U. constructor; try (rewrite attach_nf; reflexivity).
  - intros h t. apply attach_contig.
  - rewrite attach_ok; auto.
Qed.

Lemma view_add_run_both c a b : view_eq a b -> view_eq (add_run c a) (add_run c b).
Proof.
  intros []. constructor; unfold add_run, nparse in *; xs; auto.
  - rewrite !run_jobs_cons. congruence.
  - simpl. destruct (is_parse c); simpl; congruence.
Qed.

Lemma inv_start c d s0 :
  inv (add_run c s0) -> x_head_offs s0 <= d_off d -> d_off d <= x_tail_offs s0 -> inv (add_run c (fst (attach d s0))).
Proof. intros I L U. eapply inv_view; [apply view_add_run_both, view_attach|exact I]; auto; apply I. Qed.

Lemma inv_parse0 st st' : inv st -> parse0 st = Some st' -> inv st'.
Proof.
  intros I H. apply parse0_inv in H. destruct H as [S ->]. cbv zeta.
  apply selects_ready in S. cbn [ready] in S. unfold can_parse in S.
  assert (G : x_parsing_done st = false /\ x_parse_token st = true /\ d_off (x_parser_bs st) <= x_tail_offs st)
    by (unfold can_attach in S; clear - S; lia).
  destruct G as (PD & TK & U). clear S. apply inv_start; xs; [|apply I; exact PD|exact U].
  destruct I as [Ic Ip Ir Is Iu If Ij Il Ie Im Id Ib Iq]. unfold all_jobs, nparse in *.
  constructor; unfold all_jobs, nparse, add_run; xs; auto.
  - simpl. rewrite TK in Ie. simpl in Ie. clear - Ie. lia.
  - congruence.
Qed.

Lemma norm_same_bit a b : dbs_norm a = true -> dbs_norm b = true -> d_bit a = d_bit b -> d_off a = d_off b.
Proof. unfold dbs_norm. lia. Qed.

Lemma move_job {A} (l1 l2 R : list A) j :
  (forall P, Forall P ((l1 ++ j :: l2) ++ R) <-> Forall P ((l1 ++ l2) ++ j :: R)) /\
  (forall p, length (filter p ((l1 ++ l2) ++ j :: R)) = length (filter p ((l1 ++ j :: l2) ++ R))).
Proof.
  split.
  - intro P. rewrite !Forall_app. split.
    + intros [[H1 H2] H3]. inversion H2; subst. repeat split; auto.
    + intros [[H1 H2] H3]. inversion H3; subst. repeat split; auto.
  - intro p. rewrite !filter_len_app. simpl. destruct (p j); simpl; rewrite ?filter_len_app; simpl; lia.
Qed.

Lemma inv_retr0 j st st' : inv st -> retr0 j st = Some st' -> inv st'.
Proof.
  intros I H. apply retr0_inv in H. destruct H as (S & q & T & ->). cbv zeta.
  apply selects_ready in S. cbn [ready] in S. unfold can_retrieve in S.
  apply take_min_spec in T. destruct T as [R M].
  destruct (remove_one_split _ rjob_eqb_eq _ _ _ R) as (l1 & l2 & EQ & ->).
  assert (Jin : In j (x_retr_q st)) by (rewrite EQ; apply in_or_app; right; left; reflexivity).
  assert (Hj : x_head_offs st <= d_off (r_cur j)) by (destruct I as [_ _ Ir _ _ _ _ _ _ _ _ _ _]; rewrite Forall_forall in Ir; auto).
  assert (Tj : d_off (r_cur j) <= x_tail_offs st).
  { (* the guard looked at the first minimal job; [j] has the same key, hence the same offset *)
    destruct I as [_ _ _ _ _ _ Ij _ _ _ _ _ _]. rewrite Forall_forall in Ij. unfold all_jobs in Ij.
    assert (CA : d_off (r_cur (peek_retr pos_lt st)) <= x_tail_offs st) by (apply can_attach_le; clear - S; lia).
    unfold peek_retr in CA. destruct (qmin rkey pos_lt (x_retr_q st)) as [p|] eqn:Q; [|apply qmin_none in Q; rewrite Q in Jin; destruct Jin].
    pose proof (qmin_In _ _ _ Q) as Pin.
    pose proof (pos_lt_total _ _ (qmin_min _ _ _ _ Q Jin) (M _ Pin)) as KE. unfold rkey, d_pos in KE. inversion KE as [KB].
    destruct (Ij j) as (_ & Nj & _); [apply in_or_app; auto|]. destruct (Ij p) as (_ & Np & _); [apply in_or_app; auto|].
    rewrite (norm_same_bit _ _ Nj Np KB). exact CA. }
  apply inv_start; xs; auto.
  destruct I as [Ic Ip Ir Is Iu If Ij Il Ie Im Id Ib Iq]. unfold all_jobs, nparse in *.
  destruct (move_job l1 l2 (run_jobs (x_running st)) j) as [MF ML].
  constructor; unfold all_jobs, nparse, add_run; xs; rewrite ?run_jobs_cons; simpl cjobs; simpl app; auto.
  - rewrite EQ in Ir. rewrite Forall_app in *. destruct Ir as [A1 A2]. inversion A2; subst. auto.
  - apply MF. rewrite <- EQ. exact Ij.
  - intro id. rewrite ML, <- EQ. apply Il.
  - simpl. rewrite ML, <- EQ. exact Ie.
Qed.

Lemma inv_scan0 st st' : inv st -> scan0 st = Some st' -> inv st'.
Proof.
  intros I H. apply scan0_inv in H. destruct H as (S & s & l1 & l2 & Q & EQ & ->). cbv zeta.
  apply selects_ready in S. cbn [ready] in S. unfold can_scan, peek_scan in S. rewrite Q in S.
  assert (CA : d_off s <= x_tail_offs st) by (apply can_attach_le; clear - S; lia). clear S.
  assert (Hs : x_head_offs st <= d_off s).
  { destruct I as [_ _ _ Is _ _ _ _ _ _ _ _ _]. rewrite Forall_forall in Is. apply Is. rewrite EQ. apply in_or_app; right; left; reflexivity. }
  apply inv_start; xs; auto.
  destruct I as [Ic Ip Ir Is Iu If Ij Il Ie Im Id Ib Iq]. unfold all_jobs, nparse in *.
  constructor; unfold all_jobs, nparse, add_run; xs; auto.
  rewrite EQ in Is. rewrite Forall_app in *. destruct Is as [A1 A2]. inversion A2; subst. auto.
Qed.

Lemma jm_app_new us u j : u_complete u = false -> jm (us ++ [u]) j = jm us j.
Proof.
  intro C. unfold jm. destruct (r_link j); auto. rewrite existsb_app. simpl. rewrite C.
  rewrite andb_false_r. simpl. rewrite !orb_false_r. reflexivity.
Qed.

Lemma view_detach att st : view_eq st (detach att st).
Proof.
  constructor; nrm; auto. intros. apply detach_contig.
Qed.

Lemma job_ok_fresh st st' j u : x_unords st' = x_unords st ++ [u] -> x_next_uid st' = x_next_uid st + 1 ->
  u_id u = x_next_uid st -> job_ok st j -> job_ok st' j.
Proof.
  intros EU EN EI (J1 & J2 & J3 & J4 & J5). unfold job_ok. rewrite EU, EN.
  split; [auto|]. split; [auto|]. split; [auto|]. split.
  - intros id E. specialize (J4 id E). lia.
  - intros id u0 E Hin Hid. apply in_app_or in Hin. destruct Hin as [Hin|[Hin|[]]]; [eapply J5; eauto|].
    subst u0. specialize (J4 _ E). lia.
Qed.

Lemma job_ok_new st st' b s id : x_unords st' = x_unords st ++ [mkunord id (d_pos s) s false false true] ->
  x_next_uid st' = id + 1 -> id = x_next_uid st -> Forall (fun u => u_id u < x_next_uid st) (x_unords st) ->
  dbs_norm s = true -> b = d_pos s -> job_ok st' (mkrjob b s (Some id)).
Proof.
  intros EU EN EI If Ns ->. unfold job_ok; simpl. rewrite EU, EN.
  split; [lia|]. split; [auto|]. split; [auto|]. split.
  - intros id0 E. inversion E; subst. lia.
  - intros id0 u E Hin Hid. inversion E; subst id0. apply in_app_or in Hin. destruct Hin as [Hin|[Hin|[]]].
    + rewrite Forall_forall in If. apply If in Hin. lia.
    + subst u. simpl. auto.
Qed.

Lemma nodup_snoc {A} (l : list A) x : NoDup l -> ~ In x l -> NoDup (l ++ [x]).
Proof.
  induction l as [|a r IH]; simpl; intros H N.
  - constructor; auto.
  - inversion H; subst. constructor.
    + rewrite in_app_iff. simpl. intros [K|[K|[]]]; auto.
    + apply IH; auto.
Qed.

Lemma fresh_not_in us id : Forall (fun u => u_id u < id) us -> ~ In id (map u_id us).
Proof. rewrite Forall_forall, in_map_iff. intros H (u & E & Hu). apply H in Hu. lia. Qed.

(* do_scan records a candidate: a fresh unord_blk, and the retrieve job linked to it *)
Lemma inv_register s' s : inv s -> dbs_norm s' = true -> x_head_offs s <= d_off s' ->
  inv (set_retr_q (mkrjob (d_pos s') s' (Some (x_next_uid s)) :: x_retr_q s)
         (set_next_uid (x_next_uid s + 1)
            (set_unords (x_unords s ++ [mkunord (x_next_uid s) (d_pos s') s' false false true]) s))).
Proof.
  intros [Ic Ip Ir Is Iu If Ij Il Ie Im Id Ib Iq] Ns K. unfold all_jobs, nparse in *.
  constructor; unfold all_jobs, nparse; xs; auto.
  - apply Forall_app. split; auto. constructor; auto. unfold unord_ok; simpl.
    split; [intros _; split; [apply dbs_norm_ok; auto|split; [apply N.le_refl|auto]]|split; [discriminate|auto]].
  - apply Forall_app. split.
    + eapply Forall_impl; [|exact If]. simpl. intros u L. clear - L. lia.
    + constructor; auto. simpl. clear. lia.
  - constructor.
    + eapply job_ok_new with (st := s); xs; auto.
    + eapply Forall_impl; [|exact Ij]. intros j. eapply job_ok_fresh; xs; simpl; auto.
  - intro id. simpl. unfold links at 1. simpl.
    destruct (x_next_uid s =? id) eqn:E; [|apply Il].
    apply N.eqb_eq in E. subst id. simpl.
    replace (length (filter (links (x_next_uid s)) (x_retr_q s ++ run_jobs (x_running s)))) with 0%nat; [auto|].
    symmetry. apply length_zero_iff_nil.
    destruct (filter (links (x_next_uid s)) (x_retr_q s ++ run_jobs (x_running s))) as [|j r] eqn:FL; auto.
    assert (Hin : In j (filter (links (x_next_uid s)) (x_retr_q s ++ run_jobs (x_running s)))) by (rewrite FL; left; auto).
    apply filter_In in Hin. destruct Hin as [Hin Hl]. unfold links in Hl. apply optN_eqb_eq in Hl.
    rewrite Forall_forall in Ij. destruct (Ij _ Hin) as (_ & _ & _ & J4 & _). specialize (J4 _ Hl). clear - J4. lia.
  - simpl. unfold jm at 1. simpl. rewrite existsb_app. simpl.
    replace (existsb (fun u => (u_id u =? x_next_uid s) && u_complete u && u_legit u) (x_unords s)) with false.
    + rewrite andb_false_r. simpl.
      rewrite (filter_len_ext (jm (x_unords s ++ [mkunord (x_next_uid s) (d_pos s') s' false false true])) (jm (x_unords s)));
        [exact Ie|]. intros. apply jm_app_new. reflexivity.
    + symmetry. apply not_true_iff_false. intro E. apply existsb_exists in E. destruct E as (u & Hu & E).
      rewrite Forall_forall in If. apply If in Hu. clear - Hu E. lia.
  - eapply Forall_impl; [|exact Im]. intros j. rewrite jm_app_new by reflexivity. auto.
  - rewrite map_app. simpl. apply nodup_snoc; auto. apply fresh_not_in; auto.
Qed.

Lemma inv_scan1 cfg s att found s' more st st' : cfg_safe cfg -> inv st -> scan1 cfg s att found s' more st = Some st' -> inv st'.
Proof.
  intros (CS & CJ & _) I H. apply scan1_inv in H. destruct H as (l1 & l2 & _ & D & H). cbv zeta in H.
  assert (I2 : inv (detach att (set_running (l1 ++ l2) st)))
    by (eapply inv_view; [apply view_detach|]; eapply inv_view; [eapply view_del_run; eauto|auto]).
  set (s2 := detach _ _) in *. clearbody s2. clear I D.
  destruct H as [[_ ->]|(_ & _ & Ns & _ & _ & _ & ->)]; [eapply inv_view; [|exact I2]; view_tac|].
  assert (I3 : inv (scan1_cand cfg s' s2) /\ x_head_offs (scan1_cand cfg s' s2) = x_head_offs s2 /\
               x_scan_q (scan1_cand cfg s' s2) = x_scan_q s2).
  { unfold scan1_cand. rewrite CJ. cbn [andb]. destruct (pos_le _ _ || (d_off s' <? x_head_offs s2)) eqn:K;
      [|destruct (_ && _)]; (split; [|split; reflexivity]).
    - eapply inv_view; [|exact I2]. view_tac.
    - eapply inv_view; [|exact I2]. view_tac.
    - apply inv_register; auto. clear - K. lia. }
  set (s3 := scan1_cand cfg s' s2) in *. clearbody s3. destruct I3 as (I3 & Hh3 & Q3).
  unfold scan1_requeue. rewrite CS. cbn [negb orb]. destruct (more && (x_head_offs s3 <=? d_off s')) eqn:RQ; [|exact I3].
  destruct I3 as [Ic Ip Ir Is Iu If Ij Il Ie Im Id Ib Iq]. unfold all_jobs, nparse in *.
  constructor; unfold all_jobs, nparse; xs; auto.
  constructor; auto. split; auto. clear - RQ. lia.
Qed.

Lemma jm_stems us us' j : (forall u, In u us' -> exists u0, In u0 us /\ stems u u0) -> Forall unord_ok us ->
  jm us' j = true -> jm us j = true.
Proof.
  intros HS HO. unfold jm. destruct (r_link j) as [id|]; auto. rewrite !existsb_exists.
  intros (u & Hu & E). destruct (HS u Hu) as (u0 & H0 & (S1 & S2 & S3 & S4 & S5 & S6)). exists u0. split; auto.
  bool_hyps. rewrite Forall_forall in HO. destruct (HO _ H0) as (O1 & O2 & _).
  rewrite <- S1, <- S5.
  destruct (u_complete u0) eqn:C0.
  - rewrite H, H1. reflexivity.
  - destruct (u_inq u0) eqn:Q0; [|specialize (O2 eq_refl); congruence].
    destruct (O1 eq_refl) as (_ & _ & L). congruence.
Qed.

Lemma job_ok_stems st st' j : x_next_uid st' = x_next_uid st ->
  (forall u, In u (x_unords st') -> exists u0, In u0 (x_unords st) /\ stems u u0) ->
  job_ok st j -> job_ok st' j.
Proof.
  intros EN HS (J1 & J2 & J3 & J4 & J5). unfold job_ok. rewrite EN.
  split; [auto|]. split; [auto|]. split; [auto|]. split; [auto|].
  intros id u E Hin Hid. destruct (HS u Hin) as (u0 & H0 & (S1 & S2 & S3 & S4 & S5 & S6)).
  destruct (J5 id u0 E H0 ltac:(congruence)) as [B1 B2]. split; [congruence|].
  intro C. rewrite S3. apply B2. destruct (u_complete u0); auto. specialize (S6 eq_refl). congruence.
Qed.

Lemma nodup_map_filter {A B} (f : A -> B) p l : NoDup (map f l) -> NoDup (map f (filter p l)).
Proof.
  induction l as [|a r IH]; simpl; intro H; auto. inversion H; subst.
  destruct (p a); simpl; auto. constructor; auto.
  intro K. apply H2. apply in_map_iff in K. destruct K as (x & E & Hx). apply filter_In in Hx.
  apply in_map_iff. exists x. tauto.
Qed.

Lemma map_id_upd id f us : (forall u, u_id (f u) = u_id u) -> map u_id (upd_unord id f us) = map u_id us.
Proof.
  intro H. unfold upd_unord. rewrite map_map. apply map_ext. intro u. destruct (u_id u =? id); auto.
Qed.

Lemma nodup_drop_link l us : NoDup (map u_id us) -> NoDup (map u_id (drop_link l us)).
Proof.
  intro H. unfold drop_link. destruct l as [id|]; auto. destruct (get_unord id us) as [u|]; auto.
  destruct (u_complete u).
  - apply nodup_map_filter; auto.
  - rewrite map_id_upd; auto.
Qed.

Lemma nodup_drop_links js us : NoDup (map u_id us) -> NoDup (map u_id (drop_links js us)).
Proof.
  unfold drop_links. revert us. induction js as [|j r IH]; simpl; intros us H; auto.
  apply IH. apply nodup_drop_link. auto.
Qed.

Definition masters (st : xstate) : nat := length (filter (jm (x_unords st)) (all_jobs st)).

Lemma inv_stems s us' :
  (forall u, In u us' -> exists u0, In u0 (x_unords s) /\ stems u u0) -> NoDup (map u_id us') ->
  inv s -> inv (set_unords us' s) /\ (masters (set_unords us' s) <= masters s)%nat.
Proof.
  intros ST ND [Ic Ip Ir Is Iu If Ij Il Ie Im Id Ib Iq]. unfold masters, all_jobs, nparse in *.
  assert (JM : forall j, jm us' j = true -> jm (x_unords s) j = true) by (intro j; apply jm_stems; auto).
  assert (LE : (length (filter (jm us') (x_retr_q s ++ run_jobs (x_running s))) <=
                length (filter (jm (x_unords s)) (x_retr_q s ++ run_jobs (x_running s))))%nat)
    by (apply filter_len_mono; intros; auto).
  split.
  - constructor; unfold all_jobs, nparse; nrm; auto.
    + apply Forall_forall. intros u Hu. destruct (ST u Hu) as (u0 & H0 & S0). eapply unord_ok_stems; eauto.
      rewrite Forall_forall in Iu. auto.
    + apply Forall_forall. intros u Hu. destruct (ST u Hu) as (u0 & H0 & S0). rewrite Forall_forall in If.
      destruct S0 as (S1 & _). rewrite S1. auto.
    + eapply Forall_impl; [|exact Ij]. intros j. apply job_ok_stems; nrm; auto.
    + lia.
    + eapply Forall_impl; [|exact Im]. simpl. intros j H K. auto.
  - nrm. exact LE.
Qed.

Lemma inv_retr_norm st : inv st -> Forall (fun j => dbs_norm (r_cur j) = true) (x_retr_q st).
Proof.
  intro I. pose proof (i_jobs _ I) as Ij. apply Forall_app in Ij. eapply Forall_impl; [|exact (proj1 Ij)]. intros j J. apply J.
Qed.

Lemma inv_advance cfg bs st :
  inv st -> masters st = 0%nat -> x_head_offs st <= d_off bs ->
  inv (advance cfg bs st) /\ masters (advance cfg bs st) = 0%nat /\
  x_head_offs st <= x_head_offs (advance cfg bs st) /\
  x_head_offs (advance cfg bs st) <= d_off bs /\
  (forall u, In u (x_unords (advance cfg bs st)) -> exists u0, In u0 (x_unords st) /\ stems u u0) /\
  (forall P, Forall P (x_retr_q st) -> Forall P (x_retr_q (advance cfg bs st))).
Proof.
  intros I M0 Hb. rewrite advance_eq. cbv zeta.
  destruct (pop_input_spec (d_off bs) _ _ _ (i_contig _ I)) as [Ca1 Ca3]. specialize (Ca3 Hb).
  set (hd := x_head_offs st + sum_sizes (fst (pop_input (d_off bs) (x_input_q st)))) in *.
  pose proof (inv_retr_norm _ I) as Nq.
  assert (Ns : Forall (fun s => dbs_norm s = true) (x_scan_q st)) by (eapply Forall_impl; [|exact (i_scan _ I)]; simpl; tauto).
  rewrite (adv_retr_kept hd _ Nq), (adv_scan_kept hd _ Ns).
  set (kept := filter (fun j => negb (d_off (r_cur j) <? hd)) (x_retr_q st)).
  (* the store first: the dropped jobs give their unord blocks back *)
  set (us' := if c_advance_drops_link cfg then _ else x_unords st).
  assert (ST : forall u, In u us' -> exists u0, In u0 (x_unords st) /\ stems u u0).
  { subst us'. destruct (c_advance_drops_link cfg); [apply drop_links_stems|]. intros; eexists; split; eauto using stems_refl. }
  destruct (inv_stems st us' ST) as ([Ic Ip Ir Is Iu If Ij Il Ie Im Id Ib Iq] & M1); auto.
  { subst us'. destruct (c_advance_drops_link cfg); [apply nodup_drop_links|]; apply I. }
  unfold masters, all_jobs, nparse in *. xs in Ij. xs in Il. xs in Ie. xs in M1. xs in Iu. xs in If. xs in Iq. xs in Ir. xs in Is. clear I Im.
  assert (MZ : Forall (fun j => jm us' j = false) (x_retr_q st ++ run_jobs (x_running st))) by (apply filter_len_zero; lia).
  assert (SUB : forall j, In j (kept ++ run_jobs (x_running st)) -> In j (x_retr_q st ++ run_jobs (x_running st))).
  { intros j Hj. apply in_app_or in Hj. apply in_or_app. destruct Hj as [Hj|Hj]; auto. apply filter_In in Hj. tauto. }
  assert (MZ' : length (filter (jm us') (kept ++ run_jobs (x_running st))) = 0%nat).
  { apply filter_len_zero, Forall_forall. intros j Hj. rewrite Forall_forall in MZ. auto. }
  xs. split; [|split; [|split; [|split; [|split]]]].
  - constructor; unfold all_jobs, nparse; xs; auto.
    + apply Forall_forall. intros j Hj. apply filter_In in Hj. clear - Hj. lia.
    + apply Forall_forall. intros s Hs. apply filter_In in Hs. rewrite Forall_forall in Is. split; [clear - Hs; lia|apply Is, Hs].
    + apply Forall_forall. intros j Hj. rewrite Forall_forall in Ij.
      eapply job_ok_ext; [| |exact (Ij j (SUB j Hj))]; reflexivity.
    + intro id. specialize (Il id). rewrite filter_len_app in *. pose proof (filter_len_filter (links id) (fun j => negb (d_off (r_cur j) <? hd)) (x_retr_q st)). fold kept in H. lia.
    + rewrite MZ'. clear - Ie. lia.
    + apply Forall_forall. intros j Hj Hm. rewrite Forall_forall in MZ. rewrite MZ in Hm; [discriminate|]. apply in_or_app; auto.
  - exact MZ'.
  - clear. lia.
  - exact Ca3.
  - exact ST.
  - intros P HP. apply Forall_forall. intros j Hj. apply filter_In in Hj. rewrite Forall_forall in HP. apply HP, Hj.
Qed.
