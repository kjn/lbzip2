(* Tie-breaking (continued, see XTie.v): the unord blocks that advance() gives back do not depend on the
   order in which the dropped retrieve jobs are dequeued. *)
From Coq Require Import List NArith Bool Lia Arith ZifyBool ZifyN ZifyNat Permutation.
From LBZ Require Import Gen.Consts SchedX.XState Gen.SchedXTab SchedX.XSet SchedX.XModel SchedX.XLemmas
  SchedX.XInvDefs SchedX.XInv2 SchedX.XInv4 SchedX.XC10 SchedX.XTie.
Import ListNotations.
Local Open Scope N_scope.

(* the unord blocks given back by advance() do not depend on the order of the dropped jobs *)
Lemma get_unord_del_other id1 id2 us : id1 <> id2 -> get_unord id1 (del_unord id2 us) = get_unord id1 us.
Proof.
  intro NE. unfold get_unord, del_unord. induction us as [|u r IH]; simpl; auto.
  destruct (u_id u =? id2) eqn:E2; simpl.
  - destruct (u_id u =? id1) eqn:E1; [exfalso; apply NE; apply N.eqb_eq in E1; apply N.eqb_eq in E2; congruence|exact IH].
  - destruct (u_id u =? id1); auto.
Qed.

Lemma get_unord_upd_other id1 id2 f us : id1 <> id2 -> (forall u, u_id (f u) = u_id u) ->
  get_unord id1 (upd_unord id2 f us) = get_unord id1 us.
Proof.
  intros NE HF. unfold get_unord, upd_unord. induction us as [|u r IH]; simpl; auto.
  destruct (u_id u =? id2) eqn:E2.
  - rewrite HF. destruct (u_id u =? id1) eqn:E1; [exfalso; apply NE; apply N.eqb_eq in E1; apply N.eqb_eq in E2; congruence|exact IH].
  - destruct (u_id u =? id1); auto.
Qed.

Lemma del_del_comm a b us : del_unord a (del_unord b us) = del_unord b (del_unord a us).
Proof.
  unfold del_unord. induction us as [|u r IH]; simpl; auto.
  destruct (u_id u =? b) eqn:Eb; destruct (u_id u =? a) eqn:Ea; simpl; rewrite ?Ea, ?Eb; simpl; rewrite ?IH; auto.
Qed.

Lemma del_upd_comm a b f us : (forall u, u_id (f u) = u_id u) ->
  del_unord a (upd_unord b f us) = upd_unord b f (del_unord a us).
Proof.
  intro HF. unfold del_unord, upd_unord. induction us as [|u r IH]; simpl; auto.
  destruct (u_id u =? b) eqn:Eb; [rewrite HF|]; destruct (u_id u =? a) eqn:Ea; simpl; rewrite ?Eb; rewrite ?IH; auto.
Qed.

Lemma upd_upd_comm a b f g us : a <> b -> (forall u, u_id (f u) = u_id u) -> (forall u, u_id (g u) = u_id u) ->
  upd_unord a f (upd_unord b g us) = upd_unord b g (upd_unord a f us).
Proof.
  intros NE HF HG. unfold upd_unord. rewrite !map_map. apply map_ext. intro u.
  destruct (u_id u =? b) eqn:Eb; destruct (u_id u =? a) eqn:Ea; rewrite ?HG, ?HF, ?Ea, ?Eb; auto.
  exfalso. apply NE. apply N.eqb_eq in Ea. apply N.eqb_eq in Eb. congruence.
Qed.

Lemma get_unord_drop_other a b us : a <> b -> get_unord a (drop_link (Some b) us) = get_unord a us.
Proof.
  intro NE. unfold drop_link. destruct (get_unord b us) as [ub|]; auto. destruct (u_complete ub).
  - apply get_unord_del_other. exact NE.
  - apply get_unord_upd_other; auto.
Qed.

Lemma drop_link_comm l1 l2 us : l1 <> l2 \/ l1 = None -> drop_link l1 (drop_link l2 us) = drop_link l2 (drop_link l1 us).
Proof.
  intro D. destruct l1 as [a|]; [|reflexivity]. destruct l2 as [b|]; [|reflexivity].
  assert (NE : a <> b) by (destruct D as [D|D]; congruence). assert (NE' : b <> a) by congruence.
  assert (SC : forall u, u_id (u_set_complete u) = u_id u) by reflexivity.
  set (X := drop_link (Some b) us). set (Y := drop_link (Some a) us). unfold drop_link.
  assert (GA : get_unord a X = get_unord a us) by (subst X; apply get_unord_drop_other; exact NE).
  assert (GB : get_unord b Y = get_unord b us) by (subst Y; apply get_unord_drop_other; exact NE').
  rewrite GA, GB. subst X Y. unfold drop_link.
  destruct (get_unord a us) as [ua|] eqn:Ga; destruct (get_unord b us) as [ub|] eqn:Gb; auto;
    try (destruct (u_complete ua); reflexivity); try (destruct (u_complete ub); reflexivity).
  - destruct (u_complete ua) eqn:Ca; destruct (u_complete ub) eqn:Cb.
    + apply del_del_comm.
    + apply del_upd_comm. exact SC.
    + symmetry. apply del_upd_comm. exact SC.
    + apply upd_upd_comm; auto.
Qed.

(* jobs with pairwise distinct links (or none) *)
Definition links_distinct (js : list rjob) : Prop :=
  forall l1 j l2 j' l3, js = l1 ++ j :: l2 ++ j' :: l3 -> r_link j <> r_link j' \/ r_link j = None.

Lemma drop_links_cons j js us : drop_links (j :: js) us = drop_links js (drop_link (r_link j) us).
Proof. reflexivity. Qed.

Lemma drop_links_swap_head j js us :
  (forall j', In j' js -> r_link j <> r_link j' \/ r_link j = None) ->
  drop_links js (drop_link (r_link j) us) = drop_link (r_link j) (drop_links js us).
Proof.
  revert us. induction js as [|a r IH]; intros us H; [reflexivity|].
  rewrite !drop_links_cons. rewrite <- IH by (intros; apply H; right; auto).
  f_equal. symmetry. apply drop_link_comm. apply H. left. reflexivity.
Qed.

Theorem drop_links_perm js js' us :
  Permutation js js' ->
  (forall j j', In j js -> In j' js -> j <> j' -> r_link j <> r_link j' \/ r_link j = None) ->
  NoDup js ->
  drop_links js us = drop_links js' us.
Proof.
  intros P. revert us. induction P as [|x l l' P IH|x y l|l l' l'' P1 IH1 P2 IH2]; intros us SEP ND.
  - reflexivity.
  - rewrite !drop_links_cons. apply IH.
    + intros j j' Hj Hj'. apply SEP; right; auto.
    + inversion ND; auto.
  - rewrite !drop_links_cons. f_equal. apply drop_link_comm.
    inversion ND as [|? ? N1 N2]; subst. apply SEP; [right; left; auto|left; auto|]. intro E. subst. apply N1. left. reflexivity.
  - rewrite IH1 by auto. apply IH2.
    + intros j j' Hj Hj' NE. apply SEP; auto; eapply Permutation_in; try apply Permutation_sym; eauto.
    + eapply Permutation_NoDup; eauto.
Qed.

(* the retrieve jobs of a reachable state are pairwise different and have different links *)
Lemma filter_two {A} (p : A -> bool) (l : list A) x y :
  In x l -> In y l -> x <> y -> p x = true -> p y = true -> (2 <= length (filter p l))%nat.
Proof.
  induction l as [|a r IH]; simpl; intros Hx Hy NE Px Py; [tauto|].
  destruct Hx as [->|Hx], Hy as [->|Hy].
  - congruence.
  - rewrite Px. simpl. assert (In y (filter p r)) by (apply filter_In; auto). destruct (filter p r); [contradiction|simpl; lia].
  - rewrite Py. simpl. assert (In x (filter p r)) by (apply filter_In; auto). destruct (filter p r); [contradiction|simpl; lia].
  - specialize (IH Hx Hy NE Px Py). destruct (p a); simpl; lia.
Qed.

Lemma nodup_by_count {A} (l : list A) :
  (forall x, In x l -> exists p : A -> bool, p x = true /\ (length (filter p l) <= 1)%nat) -> NoDup l.
Proof.
  induction l as [|a r IH]; intro H; constructor.
  - intro Ha. destruct (H a (or_introl eq_refl)) as (p & Pa & L). simpl in L. rewrite Pa in L. simpl in L.
    assert (In a (filter p r)) by (apply filter_In; auto). destruct (filter p r); [contradiction|simpl in L; lia].
  - apply IH. intros x Hx. destruct (H x (or_intror Hx)) as (p & Px & L). exists p. split; auto.
    simpl in L. destruct (p a); simpl in L; lia.
Qed.

Lemma links_refl id j : r_link j = Some id -> links id j = true.
Proof. unfold links. intros ->. apply optN_eqb_refl. Qed.

Lemma jm_unlinked us j : r_link j = None -> jm us j = true.
Proof. unfold jm. intros ->. reflexivity. Qed.

Lemma all_jobs_sep st : inv st ->
  NoDup (all_jobs st) /\
  forall j j', In j (all_jobs st) -> In j' (all_jobs st) -> j <> j' -> r_link j <> r_link j' \/ r_link j = None.
Proof.
  intro I. pose proof (i_links _ I) as IL. pose proof (i_excl _ I) as IE. split.
  - apply nodup_by_count. intros x Hx. destruct (r_link x) as [id|] eqn:L.
    + exists (links id). split; [apply links_refl; auto|apply IL].
    + exists (jm (x_unords st)). split; [apply jm_unlinked; auto|lia].
  - intros j j' Hj Hj' NE. destruct (r_link j) as [id|] eqn:L; [left|right; reflexivity].
    intro E. pose proof (filter_two (links id) (all_jobs st) j j' Hj Hj' NE (links_refl id j L) (links_refl id j' (eq_sym E))).
    specialize (IL id). lia.
Qed.

(* advance(): the store of unord blocks after the dropped jobs have given theirs back is the same for
   every rule that picks some minimal element of retr_q *)
Theorem advance_unords_any_tiebreak st pick hd :
  inv st ->
  (forall q j, pick q = Some j -> In j q /\ forall y, In y q -> pos_lt (rkey y) (rkey j) = false) ->
  (forall q, q <> [] -> exists j, pick q = Some j) ->
  drop_links (fst (adv_retr_g pick (length (x_retr_q st)) hd (x_retr_q st))) (x_unords st) =
  drop_links (fst (adv_retr (length (x_retr_q st)) hd (x_retr_q st))) (x_unords st).
Proof.
  intros I PM PS.
  pose proof (inv_retr_norm _ I) as NM.
  destruct (adv_retr_any_tiebreak pick hd (x_retr_q st) PM PS NM) as [_ P].
  destruct (adv_retr_g_spec pick PM PS (length (x_retr_q st)) hd (x_retr_q st) (le_n _) NM) as [_ PG].
  destruct (all_jobs_sep st I) as [ND SEP].
  assert (SUB : forall j, In j (fst (adv_retr_g pick (length (x_retr_q st)) hd (x_retr_q st))) -> In j (all_jobs st)).
  { intros j Hj. apply (Permutation_in _ PG) in Hj. apply filter_In in Hj. unfold all_jobs. apply in_or_app. left. tauto. }
  apply drop_links_perm; [exact P| |].
  - intros j j' Hj Hj' NE. apply SEP; auto.
  - apply (Permutation_NoDup (Permutation_sym PG)). apply NoDup_filter.
    unfold all_jobs in ND. clear - ND. induction (x_retr_q st) as [|a r IH]; [constructor|].
    simpl in ND. inversion ND; subst. constructor; [rewrite in_app_iff in *; tauto|auto].
Qed.

Lemma C11x_advance_unords_any_tiebreak_gen n tin tout ultra st (pick : list rjob -> option rjob) hd :
  reach gen_cfg (init_state n tin tout ultra) st ->
  (forall q j, pick q = Some j -> In j q /\ forall y, In y q -> pos_lt (rkey y) (rkey j) = false) ->
  (forall q, q <> [] -> exists j, pick q = Some j) ->
  drop_links (fst (adv_retr_g pick (length (x_retr_q st)) hd (x_retr_q st))) (x_unords st) =
  drop_links (fst (adv_retr (length (x_retr_q st)) hd (x_retr_q st))) (x_unords st).
Proof. intro R. apply advance_unords_any_tiebreak. exact (inv_reach _ _ _ _ _ _ gen_cfg_safe R). Qed.
