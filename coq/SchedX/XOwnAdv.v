(* Ownership invariant (XOwn.v): advance() and the parser's events. *)
From Coq Require Import List NArith Bool Lia Arith ZifyBool ZifyN Sorted.
From LBZ Require Import Gen.Consts SchedX.XState Gen.SchedXTab SchedX.XSet SchedX.XModel SchedX.XLemmas
  SchedX.XFrame SchedX.XStep SchedX.XInvDefs SchedX.XOps SchedX.XInv SchedX.XInv2 SchedX.XInv3 SchedX.XInv4 SchedX.XOracle
  SchedX.XSeq SchedX.XOwn.
Import ListNotations.
Local Open Scope N_scope.

Lemma drop_link_done id us u : In u (drop_link (Some id) us) -> u_id u = id -> u_complete u = true.
Proof.
  unfold drop_link. destruct (get_unord id us) as [u1|] eqn:G.
  - destruct (u_complete u1).
    + unfold del_unord. rewrite filter_In. intros [_ K] E. rewrite E, N.eqb_refl in K. discriminate.
    + unfold upd_unord. rewrite in_map_iff. intros (u0 & E0 & H0) E. destruct (u_id u0 =? id) eqn:K.
      * subst u. reflexivity.
      * subst u. rewrite E, N.eqb_refl in K. discriminate.
  - intros Hu E. exfalso. eapply get_unord_none; eauto.
Qed.

Lemma drop_link_other l us u : In u us -> l <> Some (u_id u) -> In u (drop_link l us).
Proof.
  intros Hu N. unfold drop_link. destruct l as [id|]; auto. destruct (get_unord id us) as [u1|]; auto.
  assert (K : (u_id u =? id) = false) by (apply N.eqb_neq; congruence).
  destruct (u_complete u1).
  - unfold del_unord. apply filter_In. split; auto. rewrite K. reflexivity.
  - unfold upd_unord. apply in_map_iff. exists u. rewrite K. auto.
Qed.

Lemma drop_links_other js us u : In u us -> (forall j, In j js -> r_link j <> Some (u_id u)) -> In u (drop_links js us).
Proof.
  unfold drop_links. revert us. induction js as [|j r IH]; simpl; intros us Hu N; auto.
  apply IH; [apply drop_link_other; auto|auto].
Qed.

Lemma drop_links_complete js us u : In u (drop_links js us) -> u_complete u = false ->
  In u us /\ forall j, In j js -> r_link j <> Some (u_id u).
Proof.
  unfold drop_links. revert us. induction js as [|j r IH]; simpl; intros us Hu C; [split; auto|].
  destruct (IH _ Hu C) as [H1 N1]. split.
  - destruct (drop_link_raised _ _ _ H1) as [H2|(u0 & id & _ & _ & _ & _ & E)]; auto. subst u. simpl in C. discriminate.
  - intros j0 [<-|Hj]; auto. intro L. rewrite L in H1. rewrite (drop_link_done _ _ _ H1 eq_refl) in C. discriminate.
Qed.

(* a block whose job is dropped after it has been completed (detached by the parser) is freed *)
Lemma drop_link_gone id us : (forall u, In u us -> u_id u = id -> u_complete u = true) ->
  forall u, In u (drop_link (Some id) us) -> u_id u <> id.
Proof.
  intros HC u Hu E. unfold drop_link in Hu. destruct (get_unord id us) as [u1|] eqn:G.
  - destruct (get_unord_some _ _ _ G) as [H1 E1]. rewrite (HC u1 H1 E1) in Hu.
    unfold del_unord in Hu. apply filter_In in Hu. destruct Hu as [_ K]. rewrite E, N.eqb_refl in K. discriminate.
  - eapply get_unord_none; eauto.
Qed.

Lemma drop_link_ids l us u : In u (drop_link l us) -> exists u0, In u0 us /\ u_id u0 = u_id u /\ (u_complete u0 = true -> u_complete u = true).
Proof. intro Hu. destruct (drop_link_stems _ _ _ Hu) as (u0 & H0 & (S1 & _ & _ & _ & _ & S6)). exists u0. auto. Qed.

Lemma drop_links_gone js us id j : (forall u, In u us -> u_id u = id -> u_complete u = true) ->
  In j js -> r_link j = Some id -> forall u, In u (drop_links js us) -> u_id u <> id.
Proof.
  unfold drop_links. revert us. induction js as [|a r IH]; simpl; intros us HC Hj L u Hu; [tauto|].
  assert (HC' : forall v, In v (drop_link (r_link a) us) -> u_id v = id -> u_complete v = true).
  { intros v Hv Ev. destruct (drop_link_ids _ _ _ Hv) as (v0 & H0 & E0 & C0). apply C0. apply HC; auto. congruence. }
  destruct Hj as [->|Hj].
  - rewrite L in *. assert (NO : forall v, In v (drop_link (Some id) us) -> u_id v <> id) by (apply drop_link_gone; auto).
    clear - NO Hu. revert NO Hu. generalize (drop_link (Some id) us) as l. induction r as [|b r IH]; simpl; intros l NO Hu; auto.
    apply (IH (drop_link (r_link b) l)); auto. intros v Hv. destruct (drop_link_ids _ _ _ Hv) as (v0 & H0 & E0 & _). rewrite <- E0. auto.
  - eapply IH; eauto.
Qed.

Lemma discard_below_spec2 p us u : In u (discard_below p us) ->
  exists u0, In u0 us /\ (u = u0 \/ (u_inq u0 = true /\ u_complete u0 = false /\ u = u_detach false u0)).
Proof.
  unfold discard_below. rewrite in_map_iff. intros (u0 & E & H0). apply filter_In in H0. destruct H0 as [H0 _].
  exists u0. split; auto. destruct (u_inq u0 && pos_lt (u_base u0) p && negb (u_complete u0)) eqn:K; auto.
  right. bool_hyps. auto.
Qed.

Lemma flush_unords_spec2 us u : In u (flush_unords us) ->
  exists u0, In u0 us /\ ((u_inq u0 = false /\ u = u0) \/ (u_inq u0 = true /\ u_complete u0 = false /\ u = u_detach false u0)).
Proof.
  unfold flush_unords. rewrite in_map_iff. intros (u0 & E & H0). apply filter_In in H0. destruct H0 as [H0 K].
  exists u0. split; auto. destruct (u_inq u0) eqn:Q; auto. right. simpl in K. bool_hyps. auto.
Qed.

Lemma adv_retr_part fuel hd q j : In j q -> In j (fst (adv_retr fuel hd q)) \/ In j (snd (adv_retr fuel hd q)).
Proof.
  revert q; induction fuel as [|f IH]; intros q Hj; simpl; auto.
  destruct (qmin rkey pos_lt q) as [m|] eqn:Q; simpl; auto.
  destruct (d_off (r_cur m) <? hd); simpl; auto.
  destruct (remove_one rjob_eqb m q) as [q'|] eqn:R; simpl; auto.
  destruct (remove_one_split _ rjob_eqb_eq _ _ _ R) as (l1 & l2 & -> & ->).
  specialize (IH (l1 ++ l2)). destruct (adv_retr f hd (l1 ++ l2)) as [d k]. simpl in *.
  rewrite in_app_iff in Hj. simpl in Hj.
  assert (K : j = m \/ In j (l1 ++ l2)) by (rewrite in_app_iff; destruct Hj as [A|[A|A]]; auto).
  destruct K as [->|K]; auto. destruct (IH K); auto.
Qed.

Lemma adv_retr_q cfg bs st :
  x_retr_q (advance cfg bs st) =
  snd (adv_retr (length (x_retr_q st)) (x_head_offs (adv_input (d_off bs) (set_parser_bs bs st))) (x_retr_q st)).
Proof. rewrite advance_eq, adv_input_nf. reflexivity. Qed.

(* the job that retrieves a candidate agrees with it *)
Lemma link_job st u j : inv st -> In u (x_unords st) -> In j (all_jobs st) -> r_link j = Some (u_id u) ->
  u_base u = r_base j /\ (u_complete u = false -> u_end u = r_cur j).
Proof.
  intros I Hu Hj L. pose proof (i_jobs _ I) as Ij. rewrite Forall_forall in Ij.
  destruct (Ij j Hj) as (_ & _ & _ & _ & J5). exact (J5 _ u L Hu eq_refl).
Qed.

(* advance() drops only queued jobs that lie below the new parser position: a job at or above it stays,
   and so does the record of a candidate whose jobs are at or above it *)
Lemma advance_dropped (cfg : xcfg) bs st j : inv st -> masters st = 0%nat -> x_head_offs st <= d_off bs ->
  In j (fst (adv_retr (length (x_retr_q st)) (x_head_offs (adv_input (d_off bs) (set_parser_bs bs st))) (x_retr_q st))) ->
  In j (x_retr_q st) /\ d_off (r_cur j) < d_off bs.
Proof.
  intros I M HD Hj. destruct (inv_advance cfg bs st I M HD) as (_ & _ & _ & H3b & _).
  pose proof (adv_retr_dropped (length (x_retr_q st)) (x_head_offs (adv_input (d_off bs) (set_parser_bs bs st))) (x_retr_q st)) as DD.
  rewrite Forall_forall in DD. destruct (DD j Hj) as [Q1 Q2]. split; [exact Q2|].
  rewrite <- (proj1 (adv_fields cfg bs st)) in Q1. exact (N.lt_le_trans _ _ _ Q1 H3b).
Qed.

Lemma advance_keeps_job cfg bs st j : inv st -> masters st = 0%nat -> x_head_offs st <= d_off bs ->
  In j (all_jobs st) -> d_off bs <= d_off (r_cur j) -> In j (all_jobs (advance cfg bs st)).
Proof.
  intros I M HD Hj LE. unfold all_jobs in *. rewrite x_running_advance, adv_retr_q. apply in_app_or in Hj. apply in_or_app.
  destruct Hj as [Hj|Hj]; [left|right; exact Hj].
  destruct (adv_retr_part (length (x_retr_q st)) (x_head_offs (adv_input (d_off bs) (set_parser_bs bs st))) (x_retr_q st) j Hj) as [P|P];
    [|exact P].
  exfalso. destruct (advance_dropped cfg bs st j I M HD P) as [_ Q]. exact (N.lt_irrefl _ (N.lt_le_trans _ _ _ Q LE)).
Qed.

Lemma advance_keeps_unord cfg bs st u :
  c_advance_drops_link cfg = true -> inv st -> masters st = 0%nat -> x_head_offs st <= d_off bs -> In u (x_unords st) ->
  (forall j, In j (x_retr_q st) -> r_link j = Some (u_id u) -> d_off bs <= d_off (r_cur j)) -> In u (x_unords (advance cfg bs st)).
Proof.
  intros CA I M HD Hu K. rewrite (proj2 (adv_fields cfg bs st)), CA. apply drop_links_other; [exact Hu|]. intros j Hj L.
  destruct (advance_dropped cfg bs st j I M HD Hj) as [Q1 Q2]. exact (N.lt_irrefl _ (N.lt_le_trans _ _ _ Q2 (K j Q1 L))).
Qed.

Lemma la_advance cfg bs st b k : la (advance cfg bs st) b k <-> la st b k.
Proof. rewrite advance_eq. reflexivity. Qed.

Lemma ownp_advance cfg bs st H J0 :
  c_advance_drops_link cfg = true ->
  inv st -> masters st = 0%nat -> x_head_offs st <= d_off bs -> dbs_ok bs = true ->
  x_parsing_done st = false -> d_bit (x_parser_bs st) <= d_bit bs -> x_next st <= d_bit bs ->
  (forall j0, In j0 J0 -> jm (x_unords st) j0 = true -> d_bit bs <= d_bit (r_cur j0)) ->
  (forall j0 id j, In j0 J0 -> r_link j0 = Some id -> In j (all_jobs st) -> r_link j <> Some id) ->
  ownp H (J0 ++ all_jobs st) st ->
  ownp H (J0 ++ all_jobs (advance cfg bs st)) (advance cfg bs st) /\
  (forall B, 32 * d_off bs < B + 32 ->
     (forall u, In u (x_unords st) -> u_inq u = true -> u_complete u = true -> la st (fst (u_base u)) 0 \/ fst (u_base u) < B) ->
     (forall u, In u (x_unords (advance cfg bs st)) -> u_inq u = true -> u_complete u = true ->
        la (advance cfg bs st) (fst (u_base u)) 0 \/ fst (u_base u) < B)).
Proof.
  intros CA IV M0 HD OKB PD MONO NXB MB SEP [A B C D E F G K U3].
  destruct (inv_advance cfg bs st IV M0 HD) as (I3 & M3 & H3a & H3b & ST & _).
  destruct (adv_fields cfg bs st) as [EH EU]. cbv zeta in EH, EU. rewrite CA in EU.
  pose proof (adv_retr_q cfg bs st) as ER.
  pose proof (adv_retr_dropped (length (x_retr_q st)) (x_head_offs (adv_input (d_off bs) (set_parser_bs bs st))) (x_retr_q st)) as DD.
  rewrite Forall_forall in DD.
  set (dk := adv_retr (length (x_retr_q st)) (x_head_offs (adv_input (d_off bs) (set_parser_bs bs st))) (x_retr_q st)) in *.
  assert (E3 : x_running (advance cfg bs st) = x_running st /\ x_next (advance cfg bs st) = x_next st /\
               x_parsing_done (advance cfg bs st) = x_parsing_done st /\ x_parser_bs (advance cfg bs st) = bs /\
               x_reord_q (advance cfg bs st) = x_reord_q st) by (rewrite advance_eq; auto 6).
  destruct E3 as (RU & NX & PDn & PB & RO).
  (* a job that is kept stays; a job that is dropped has no unord block any more *)
  assert (KEPT : forall j, In j (all_jobs st) -> In j (all_jobs (advance cfg bs st)) \/ In j (fst dk)).
  { intros j Hj. unfold all_jobs in *. rewrite RU, ER. apply in_app_or in Hj as [Hj|Hj]; [|left; apply in_or_app; auto].
    destruct (adv_retr_part (length (x_retr_q st)) (x_head_offs (adv_input (d_off bs) (set_parser_bs bs st))) (x_retr_q st) j Hj);
      [right; assumption|left; apply in_or_app; auto]. }
  pose proof (fun j => advance_jobs_sub cfg bs st j IV M0 HD) as AJ3.
  pose proof (i_unord _ IV) as UO. rewrite Forall_forall in UO.
  assert (JMold : forall j, jm (x_unords (advance cfg bs st)) j = true -> jm (x_unords st) j = true)
    by (intro j; apply jm_stems; [exact ST|apply IV]).
  (* a candidate completed by advance() lies a whole word below head_offs *)
  assert (LOW : forall u0, In u0 (x_unords st) -> u_inq u0 = true -> d_off (u_end u0) < x_head_offs (advance cfg bs st) ->
                  fst (u_base u0) + 32 <= 32 * x_head_offs (advance cfg bs st)).
  { intros u0 H0 Qu LT. destruct (UO u0 H0) as (O1 & _). destruct (O1 Qu) as (Oe & Ob & _).
    clear - Oe Ob LT. unfold dbs_ok in Oe. lia. }
  split.
  - constructor.
    + intros h Hh. destruct (A h Hh) as [[Z (j & J1 & J2 & J3)]|L]; [|right; apply la_advance; auto].
      apply in_app_or in J1. destruct J1 as [J1|J1]; [|exfalso; rewrite (no_masters_jm st j M0 J1) in J2; discriminate].
      left. split; auto. exists j. split; [apply in_or_app; auto|]. split; auto.
      unfold jm in *. destruct (r_link j) as [id|] eqn:L; auto.
      apply existsb_exists in J2. destruct J2 as (u0 & H0 & E0). apply existsb_exists. exists u0. split; auto.
      rewrite EU. apply drop_links_other; auto. intros j' Hj'. bool_hyps.
      match goal with X : (u_id u0 =? id) = true |- _ => apply N.eqb_eq in X; rewrite X end.
      apply (SEP j id j' J1 L). unfold all_jobs. apply in_or_app. left. exact (proj2 (DD j' Hj')).
    + intros o Ho S. rewrite RO in Ho. apply la_advance. auto.
    + intros j Hj J. rewrite NX, PB. apply in_app_or in Hj. destruct Hj as [Hj|Hj].
      * destruct (C j (in_or_app _ _ _ (or_introl Hj)) (JMold j J)) as [C1 C2]. split; auto.
      * exfalso. pose proof (JMold j J) as JO. rewrite (no_masters_jm st j M0 (AJ3 _ Hj)) in JO. discriminate.
    + intros u Hu Cu. rewrite EU in Hu. destruct (drop_links_complete _ _ _ Hu Cu) as [H0 N0].
      destruct (D u H0 Cu) as (j & J1 & J2). exists j. split; auto.
      apply in_app_or in J1. apply in_or_app. destruct J1 as [J1|J1]; auto. right.
      destruct (KEPT j J1) as [P|P]; [exact P|]. exfalso. exact (N0 j P J2).
    + intros u Hu Qu Cu. unfold orph. rewrite NX.
      destruct (advance_unords cfg bs st u IV Hu) as [H0|(u0 & H0 & -> & LT)].
      * destruct (E u H0 Qu Cu) as [L|[L|L]]; [left; apply la_advance; auto|right; left; exact L|right; right].
        clear - L H3a. lia.
      * right. right. exact (LOW u0 H0 Qu LT).
    + rewrite PDn, PD. discriminate.
    + intros _. rewrite NX, PB. auto.
    + intros _. rewrite PB. auto.
    + intros u Hu Qu. destruct (ST u Hu) as (u0 & H0 & (S1 & _ & _ & S4 & _)).
      destruct (U3 u0 H0 ltac:(congruence)) as (j & J1 & J2). rewrite <- S1 in J2. exists j. split; auto.
      apply in_app_or in J1. apply in_or_app. destruct J1 as [J1|J1]; auto. right.
      destruct (KEPT j J1) as [P|P]; [exact P|]. exfalso. rewrite EU in Hu.
      refine (drop_links_gone (fst dk) (x_unords st) (u_id u) j _ P J2 u Hu eq_refl).
      intros v Hv Ev. assert (v = u0) by (apply (nodup_id_unique (x_unords st)); auto; [apply IV|congruence]). subst v.
      destruct (UO u0 H0) as (_ & O2 & _). apply O2. congruence.
  - intros Bd HB OLD u Hu Qu Cu.
    destruct (advance_unords cfg bs st u IV Hu) as [H0|(u0 & H0 & -> & LT)].
    + destruct (OLD u H0 Qu Cu) as [L|L]; [left; apply la_advance; auto|right; auto].
    + right. pose proof (LOW u0 H0 Qu LT) as X. cbn [u_set_complete u_base]. clear - X H3b HB. lia.
Qed.

Lemma no_masters_mastered s b : masters s = 0%nat -> ~ mastered (all_jobs s) (x_unords s) b.
Proof. intros M (j & J1 & J2 & _). rewrite (no_masters_jm s j M J1) in J2. discriminate. Qed.

(* without a master every head is owned by a line *)
Lemma ownp_heads_la H s : masters s = 0%nat -> ownp H (all_jobs s) s -> forall h, In h H -> la s (hb h) (hs h).
Proof. intros M OW h Hh. destruct (o_heads _ _ _ OW h Hh) as [[_ MS]|L]; [exfalso; exact (no_masters_mastered s _ M MS)|exact L]. Qed.

Lemma sorted_snoc l (p : N) : StronglySorted N.lt l -> Forall (fun x => x < p) l -> StronglySorted N.lt (l ++ [p]).
Proof.
  induction 1 as [|a l S IH F]; intro L; simpl.
  - constructor; constructor.
  - inversion L; subst. constructor; auto. apply Forall_app. split; auto.
Qed.

(* a new head and its owner: the master job the parser creates, or the line of a retrieved candidate *)
Lemma ownp_push_master H JL s h j :
  r_link j = None -> hs h = 0 -> fst (r_base j) = hb h -> hb h = x_next s -> d_bit (x_parser_bs s) <= d_bit (r_cur j) ->
  ownp H JL s -> ownp (H ++ [h]) (j :: JL) s.
Proof.
  intros L Z EB EN LE [A B C D E F G K U3].
  assert (JM : jm (x_unords s) j = true) by (unfold jm; rewrite L; reflexivity).
  constructor; auto.
  - intros h' Hh. apply in_app_or in Hh as [Hh|[<-|[]]].
    + destruct (A h' Hh) as [[Z' (x & X1 & X2)]|L']; [left; split; auto; exists x; split; [right|]; auto|right; auto].
    + left. split; [exact Z|]. exists j. split; [left; reflexivity|]. auto.
  - intros x [<-|Hx] J; [split; [congruence|exact LE]|auto].
  - intros u Hu Cu. destruct (D u Hu Cu) as (x & X1 & X2). exists x. split; [right|]; auto.
  - intros u Hu Qu. destruct (U3 u Hu Qu) as (x & X1 & X2). exists x. split; [right|]; auto.
Qed.

Lemma ownp_push_line H JL s h : la s (hb h) (hs h) -> ownp H JL s -> ownp (H ++ [h]) JL s.
Proof.
  intros LN [A B C D E F G K U3]. constructor; auto.
  intros h' Hh. apply in_app_or in Hh as [Hh|[<-|[]]]; [auto|right; exact LN].
Qed.

(* unord blocks are freed while no job is a master *)
Lemma ownp_unords_sub H JL s us' :
  (forall u, In u us' -> In u (x_unords s)) -> (forall x, In x JL -> jm (x_unords s) x = false) -> Forall unord_ok (x_unords s) ->
  ownp H JL s -> ownp H JL (set_unords us' s).
Proof.
  intros SUB NM UO [A B C D E F G K U3].
  assert (JMs : forall x, jm us' x = true -> jm (x_unords s) x = true).
  { intro x. apply jm_stems; [|exact UO]. intros v Hv. exists v. split; [auto|apply stems_refl]. }
  constructor; xs.
  - intros h Hh. destruct (A h Hh) as [[_ (x & X1 & X2 & _)]|L]; [rewrite (NM x X1) in X2; discriminate|right; exact L].
  - exact B.
  - intros x Hx J. apply JMs in J. rewrite (NM x Hx) in J. discriminate.
  - intros u Hu. exact (D u (SUB u Hu)).
  - intros u Hu. exact (E u (SUB u Hu)).
  - intros PD. specialize (F PD). rewrite Forall_forall in F. apply Forall_forall. auto.
  - exact G.
  - exact K.
  - intros u Hu. exact (U3 u (SUB u Hu)).
Qed.

(* the parser detaches or frees queued candidates *)
Lemma ownp_detached H s us' :
  (forall u, In u us' -> exists u0, In u0 (x_unords s) /\ (u = u0 \/ (u_inq u0 = true /\ u_complete u0 = false /\ u = u_detach false u0))) ->
  masters s = 0%nat -> masters (set_unords us' s) = 0%nat -> x_parsing_done s = false ->
  ownp H (all_jobs s) s ->
  ownp H (all_jobs (set_unords us' s)) (set_unords us' s) /\
  (forall B, (forall u, In u (x_unords s) -> u_inq u = true -> u_complete u = true -> la s (fst (u_base u)) 0 \/ fst (u_base u) < B) ->
     (forall u, In u us' -> u_inq u = true -> u_complete u = true -> la (set_unords us' s) (fst (u_base u)) 0 \/ fst (u_base u) < B)).
Proof.
  intros ST M0 M1 PD OW. pose proof (ownp_heads_la _ _ M0 OW) as NOM. destruct OW as [A B C D E F G K U3].
  split.
  - constructor; xs.
    + intros h Hh. right. exact (NOM h Hh).
    + exact B.
    + intros j Hj J. exfalso. exact (eq_true_false_abs _ J (no_masters_jm _ j M1 Hj)).
    + intros u Hu Cu. destruct (ST u Hu) as (u0 & H0 & [->|(_ & _ & ->)]); [auto|discriminate Cu].
    + intros u Hu Qu Cu. destruct (ST u Hu) as (u0 & H0 & [->|(_ & _ & ->)]); [exact (E u0 H0 Qu Cu)|discriminate Qu].
    + rewrite PD. discriminate.
    + exact G.
    + exact K.
    + intros u Hu Qu. destruct (ST u Hu) as (u0 & H0 & [->|(Q0 & C0 & ->)]); [auto|exact (D u0 H0 C0)].
  - intros Bd OLD u Hu Qu Cu. destruct (ST u Hu) as (u0 & H0 & [->|(_ & _ & ->)]); [exact (OLD u0 H0 Qu Cu)|discriminate Qu].
Qed.

Lemma own_parse_finish cfg g s :
  c_finish_drops_link cfg = true -> inv s -> masters s = 0%nat -> nparse s = 0%nat ->
  own s -> x_failed s = None -> x_failed (parse_finish cfg g s) = None -> own (parse_finish cfg g s).
Proof.
  intros CF IV M0 N0 [I S] NF NF'. pose proof (inv_parse_finish cfg g s IV M0 N0) as IR.
  pose proof (ownp_heads_la _ _ M0 I) as NOM.
  rewrite parse_finish_eq in *. cbv zeta in *. rewrite CF in *. destruct (_ && _); [discriminate NF'|].
  match goal with |- own ?r => set (r0 := r) in * end.
  assert (MR : masters r0 = 0%nat).
  { pose proof (i_excl _ IR) as Ie. change (x_parse_token r0) with true in Ie. unfold masters. cbn [b2n] in Ie. lia. }
  pose proof (flush_noinq (drop_links (x_retr_q s) (x_unords s))) as UR. rewrite Forall_forall in UR.
  pose proof (i_unord _ IR) as UOR. rewrite Forall_forall in UOR.
  destruct I as [A B C D E F G K U3].
  split; [|destruct S as [SA SB]; constructor; assumption].
  constructor.
  - intros h Hh. right. exact (NOM h Hh).
  - exact B.
  - intros j Hj J. exfalso. rewrite (no_masters_jm _ j MR Hj) in J. discriminate J.
  - (* unord_q has been flushed: every block left is complete *)
    intros u Hu Cu. exfalso. destruct (UOR u Hu) as (_ & O2 & _). rewrite (O2 (UR u Hu)) in Cu. discriminate Cu.
  - intros u Hu Qu Cu. exfalso. rewrite (UR u Hu) in Qu. discriminate Qu.
  - intros _. apply Forall_forall. exact UR.
  - discriminate.
  - discriminate.
  - (* a block outside unord_q still has its job: running, since retr_q has been emptied *)
    assert (RUN : forall j, In j (all_jobs s) -> ~ In j (x_retr_q s) -> In j (all_jobs r0))
      by (intros j Hj NQ; apply in_app_or in Hj as [Hj|Hj]; [contradiction|exact Hj]).
    intros u Hu _. destruct (flush_unords_spec2 _ _ Hu) as (u1 & H1 & [(Q1 & ->)|(Q1 & C1 & ->)]).
    + destruct (drop_links_stems _ _ _ H1) as (u0 & H0 & (S1 & _ & _ & S4 & _)).
      destruct (U3 u0 H0 ltac:(congruence)) as (j & J1 & J2). rewrite <- S1 in J2. exists j. split; [|exact J2].
      apply RUN; [exact J1|]. intro JQ.
      refine (drop_links_gone (x_retr_q s) (x_unords s) (u_id u1) j _ JQ J2 u1 H1 eq_refl).
      intros v Hv Ev. assert (v = u0) by (apply (nodup_id_unique (x_unords s)); auto; [apply IV|congruence]). subst v.
      pose proof (i_unord _ IV) as UO. rewrite Forall_forall in UO. destruct (UO u0 H0) as (_ & O2 & _). apply O2. congruence.
    + destruct (drop_links_complete _ _ _ H1 C1) as [H0 NO]. destruct (D u1 H0 C1) as (j & J1 & J2). exists j. split; [|exact J2].
      apply RUN; [exact J1|]. intro JQ. exact (NO j JQ J2).
Qed.

Lemma in_upd_unord id f us u : In u us -> In (if u_id u =? id then f u else u) (upd_unord id f us).
Proof. intro Hu. unfold upd_unord. apply in_map_iff. exists u. auto. Qed.

Lemma own_parse_ok cfg lv crc s :
  c_advance_drops_link cfg = true ->
  inv s -> masters s = 0%nat -> nparse s = 0%nat -> x_parse_token s = false -> x_parsing_done s = false ->
  dbs_norm (x_parser_bs s) = true -> x_next s = d_bit (x_parser_bs s) ->
  ownp (x_order_q s) (all_jobs s) s ->
  StronglySorted N.lt (map hb (x_order_q s)) -> Forall (fun h => hb h < d_bit (x_parser_bs s)) (x_order_q s) ->
  (forall u, In u (x_unords s) -> u_inq u = true -> u_complete u = true ->
     la s (fst (u_base u)) 0 \/ fst (u_base u) < d_bit (x_parser_bs s)) ->
  own (parse_ok cfg lv crc s).
Proof.
  intros CA I M0 N0 T0 PD NB NX OW SRT LTP ORB.
  destruct (parse_ok_split cfg lv crc s I M0 PD NB) as (I2 & M2' & PC).
  set (p := d_pos (x_parser_bs s)) in *. set (pb := d_bit (x_parser_bs s)) in *.
  set (H0 := x_order_q s) in *. set (hnew := mkhead p lv crc) in *. set (s1 := set_order_q (H0 ++ [hnew]) s) in *.
  assert (OW1 : ownp H0 (all_jobs s1) s1) by (apply (ownp_same _ _ s); try reflexivity; exact OW).
  set (s2 := set_unords (discard_below p (x_unords s)) s1) in *.
  destruct (ownp_detached H0 s1 (discard_below p (x_unords s)) (discard_below_spec2 p (x_unords s)) M0 M2' PD OW1) as (OW2 & ORB2).
  specialize (ORB2 pb ORB). fold s2 in OW2.
  (* the shape of the order after the push *)
  assert (SH : forall st', x_order_q st' = H0 ++ [hnew] -> x_next st' = pb -> oshape st').
  { intros st' EO EN. constructor; rewrite EO, ?EN.
    - rewrite map_app. apply sorted_snoc; [exact SRT|]. rewrite Forall_map. exact LTP.
    - apply Forall_app. split; [eapply Forall_impl; [|exact LTP]; intros h Hh; exact (N.lt_le_incl _ _ Hh)|].
      constructor; [apply N.le_refl|constructor]. }
  destruct PC as [->|(u & Hu & Qi & PE & Oe & P1 & HD & ->)].
  - (* no candidate here: a master job is created *)
    split; [|apply SH; [reflexivity|exact NX]].
    apply (ownp_same _ _ s2); try reflexivity.
    apply ownp_push_master; [reflexivity|reflexivity|reflexivity|symmetry; exact NX|apply N.le_refl|exact OW2].
  - (* the candidate at this position is adopted: the parser jumps to its end *)
    assert (FB : fst (u_base u) = pb) by (rewrite PE; reflexivity).
    pose proof (fun j => link_job s2 u j I2 Hu) as JOK.
    destruct (inv_advance cfg (u_end u) s2 I2 M2' HD) as (I3 & M3 & _).
    assert (P2 : x_next s2 <= d_bit (u_end u)) by (change (x_next s2) with (x_next s); rewrite NX; exact P1).
    destruct (ownp_advance cfg (u_end u) s2 H0 [] CA I2 M2' HD Oe PD P1 P2
                (fun j0 (X : In j0 []) => match X with end) (fun j0 id j (X : In j0 []) => match X with end) OW2) as (OW3 & _).
    cbn [app] in OW3.
    assert (E3 : x_running (advance cfg (u_end u) s2) = x_running s2 /\ x_order_q (advance cfg (u_end u) s2) = H0 ++ [hnew] /\
                 x_next (advance cfg (u_end u) s2) = x_next s /\ x_parsing_done (advance cfg (u_end u) s2) = false /\
                 x_parser_bs (advance cfg (u_end u) s2) = u_end u) by (rewrite advance_eq; auto 6).
    pose proof (fun j => advance_jobs_sub cfg (u_end u) s2 j I2 M2' HD) as AJ3.
    pose proof (la_advance cfg (u_end u) s2 pb 0) as LA3.
    (* while the candidate is retrieved its jobs are not dropped: they have not gone beyond the new head_offs *)
    assert (KEEP : u_complete u = false ->
                   forall j, In j (all_jobs s2) -> r_link j = Some (u_id u) -> In j (all_jobs (advance cfg (u_end u) s2))).
    { intros UC j Hj L. apply advance_keeps_job; auto. rewrite (proj2 (JOK j Hj L) UC). apply N.le_refl. }
    assert (UIN : u_complete u = false -> In u (x_unords (advance cfg (u_end u) s2))).
    { intro UC. apply advance_keeps_unord; auto. intros j Hj L. rewrite (proj2 (JOK j (in_or_app _ _ _ (or_introl Hj)) L) UC). apply N.le_refl. }
    generalize dependent (advance cfg (u_end u) s2). intros s3 I3 M3 OW3 (R3 & OQ3 & NX3 & PD3 & PB3) AJ3 LA3 KEEP UIN.
    destruct (u_complete u) eqn:UC.
    + (* retrieved already: its line owns the new head *)
      assert (LN : la s3 pb 0).
      { apply LA3. destruct (ORB2 u Hu Qi UC) as [L|L]; [rewrite <- FB; exact L|rewrite FB in L; exact (False_ind _ (N.lt_irrefl _ L))]. }
      split; [|apply SH; unfold give_unit; xs; [exact OQ3|rewrite NX3; exact NX]].
      unfold give_unit. xs. rewrite OQ3.
      apply (ownp_same _ _ (set_unords (del_unord (u_id u) (x_unords s3)) s3)); try reflexivity.
      apply ownp_unords_sub; [intros v Hv; apply filter_In in Hv; tauto|exact (fun x Hx => no_masters_jm s3 x M3 Hx)|apply I3|].
      apply ownp_push_line; [exact LN|exact OW3].
    + (* still being retrieved: its job becomes the master *)
      destruct (o_u1 _ _ _ OW2 u Hu UC) as (jm0 & JA & JL). destruct (JOK jm0 JA JL) as (JB & JC). specialize (JC eq_refl).
      specialize (KEEP eq_refl). specialize (UIN eq_refl).
      split; [|apply SH; unfold give_unit; xs; [exact OQ3|rewrite NX3; exact NX]].
      unfold give_unit. xs. rewrite OQ3.
      apply (ownp_same _ _ (set_unords (upd_unord (u_id u) (u_detach true) (x_unords s3)) s3)); try reflexivity.
      assert (UOLD : forall v, In v (upd_unord (u_id u) (u_detach true) (x_unords s3)) -> (u_complete v = false \/ u_inq v = true) -> In v (x_unords s3)).
      { intros v Hv Cv. destruct (in_upd_unord_inv _ _ _ _ Hv) as (v0 & H0v & [(_ & ->)|(_ & ->)]); [destruct Cv; discriminate|exact H0v]. }
      pose proof (ownp_heads_la _ _ M3 OW3) as NOM3. destruct OW3 as [A B C D E F G K U3].
      constructor; xs.
      * intros h Hh. apply in_app_or in Hh. destruct Hh as [Hh|[<-|[]]]; [right; exact (NOM3 h Hh)|].
        left. split; [reflexivity|]. exists jm0. split; [apply KEEP; auto|]. split; [|rewrite <- JB; exact FB].
        unfold jm. rewrite JL. apply existsb_exists. exists (u_detach true u). split.
        -- pose proof (in_upd_unord (u_id u) (u_detach true) _ _ UIN) as X. rewrite N.eqb_refl in X. exact X.
        -- cbn. rewrite N.eqb_refl. reflexivity.
      * exact B.
      * intros j Hj J. destruct (jm_detach _ _ _ J) as [J1|J1].
        -- exfalso. rewrite (no_masters_jm s3 j M3 Hj) in J1. discriminate.
        -- apply optN_eqb_eq in J1. destruct (JOK j (AJ3 j Hj) J1) as (JB' & JC'). specialize (JC' eq_refl).
           rewrite NX3, NX, PB3, <- JB', <- JC'. split; [exact FB|apply N.le_refl].
      * intros v Hv Cv. apply D; auto.
      * intros v Hv Qv Cv. exact (E v (UOLD v Hv (or_intror Qv)) Qv Cv).
      * rewrite PD3. discriminate.
      * exact G.
      * exact K.
      * intros v Hv Qv. destruct (in_upd_unord_inv _ _ _ _ Hv) as (v0 & H0v & [(EV & ->)|(EV & ->)]).
        -- exists jm0. split; [apply KEEP; auto|]. cbn. rewrite EV. exact JL.
        -- apply U3; auto.
Qed.

(* a continuation without emit-stage job leaves the running set: its retrieve job, if any, is kept aside *)
Lemma ownp_del_run H c l1 l2 st : x_running st = l1 ++ c :: l2 -> cejobs c = [] ->
  ownp H (all_jobs st) st -> ownp H (cjobs c ++ all_jobs (set_running (l1 ++ l2) st)) (set_running (l1 ++ l2) st).
Proof.
  intros E EJ. apply ownp_view.
  - constructor; try reflexivity. intros x Hx. apply (estage_del _ _ _ _ _ E) in Hx as [Hx|Hx]; [rewrite EJ in Hx; destruct Hx|exact Hx].
  - intro x. rewrite (all_jobs_del _ _ _ _ _ E), in_app_iff. tauto.
Qed.

(* ... and its bit stream is detached: the state the second segments start from *)
Lemma own_del_detach c l1 l2 att st : x_running st = l1 ++ c :: l2 -> cejobs c = [] -> own st ->
  let s2 := detach att (set_running (l1 ++ l2) st) in
  ownp (x_order_q s2) (cjobs c ++ all_jobs s2) s2 /\ oshape s2.
Proof.
  intros E EJ [OP OS]. cbv zeta. rewrite detach_nf. split.
  - apply (ownp_same _ _ (set_running (l1 ++ l2) st)); try reflexivity. exact (ownp_del_run _ _ _ _ _ E EJ OP).
  - apply (oshape_view st); [reflexivity|reflexivity|exact OS].
Qed.

Lemma own_parse1 cfg att r st st' :
  cfg_drops cfg -> x_failed st = None -> x_failed st' = None -> inv st -> own st ->
  ev_prog st (EvParse1 att r) -> parse1 cfg att r st = Some st' -> own st'.
Proof.
  intros (_ & _ & _ & CA & CF) NF NF' I OW EV H.
  destruct (parse1_inv _ _ _ _ _ H) as (l1 & l2 & E & D & G). cbv zeta in G. destruct G as (OKB & MONO & Hoff & _ & CASE).
  destruct (inv_del_parse _ _ _ D I) as (I1 & M1 & N1 & T1 & PD1).
  destruct (own_del_detach _ _ _ att _ E eq_refl OW) as (OP & OS). cbn [cjobs app] in OP.
  apply (inv_view _ _ (view_detach att _)) in I1.
  set (s2 := detach att (set_running (l1 ++ l2) st)) in *.
  assert (E2 : masters s2 = 0%nat /\ nparse s2 = 0%nat /\ x_parse_token s2 = false /\ x_parsing_done s2 = false /\
               x_parser_bs s2 = x_parser_bs st /\ x_failed s2 = None /\ x_next s2 = x_next st)
    by (subst s2; unfold masters, all_jobs, nparse in *; rewrite detach_nf; auto 10).
  destruct E2 as (M2 & N2 & T2 & PD2 & PB2 & NF2 & NX2).
  rewrite <- PB2 in MONO, Hoff.
  subst s2. generalize dependent (detach att (set_running (l1 ++ l2) st)). intro s2. intros. set (bs := res_bs r) in *.
  assert (HD : x_head_offs s2 <= d_off bs) by exact (N.le_trans _ _ _ (i_parser _ I1 PD2) Hoff).
  assert (NXB : x_next s2 <= d_bit bs) by exact (N.le_trans _ _ _ (o_next _ _ _ OP PD2) MONO).
  destruct (inv_advance cfg bs s2 I1 M2 HD) as (I3 & M3 & _).
  destruct (ownp_advance cfg bs s2 (x_order_q s2) [] CA I1 M2 HD OKB PD2 MONO NXB
              (fun j0 (X : In j0 []) => match X with end) (fun j0 id j (X : In j0 []) => match X with end) OP) as (OP3 & ORPH).
  cbn [app] in OP3.
  set (s3 := advance cfg bs s2) in *.
  assert (E3 : nparse s3 = 0%nat /\ x_parse_token s3 = false /\ x_parsing_done s3 = false /\ x_failed s3 = None /\
               x_order_q s3 = x_order_q s2 /\ x_next s3 = x_next s2 /\ x_parser_bs s3 = bs)
    by (subst s3; unfold nparse in *; rewrite advance_eq; auto 10).
  destruct E3 as (N3 & T3 & PD3 & NF3 & OQ3 & NX3 & PB3).
  pose proof (oshape_view s2 s3 OQ3 NX3 OS) as OS3. rewrite <- OQ3 in OP3.
  subst s3. generalize dependent (advance cfg bs s2). intro s3. intros.
  destruct r as [b ps|b g|b code|b ps lv crc]; cbn [res_bs] in bs; subst bs.
  - destruct CASE as (_ & _ & ->). apply (own_same s3); try reflexivity. exact (conj OP3 OS3).
  - destruct CASE as (_ & _ & ->). apply own_parse_finish; auto. exact (conj OP3 OS3).
  - destruct CASE as (_ & _ & _ & ->). discriminate NF'.
  - destruct CASE as (NB & ->). cbn [ev_prog] in EV. rewrite <- NX2 in EV.
    assert (LTP : Forall (fun h => hb h < d_bit b) (x_order_q s3)).
    { rewrite OQ3. eapply Forall_impl; [|exact (o_le_next _ OS)]. cbn beta. intros h Hh. clear - Hh EV. unfold HDR_MIN in *. lia. }
    set (s4 := set_par ps (set_next (d_bit b) s3)).
    pose proof (ownp_heads_la _ _ M3 OP3) as NOM3.
    assert (OW4 : ownp (x_order_q s4) (all_jobs s4) s4).
    { destruct OP3 as [A B C D0 E0 F G K U3]. constructor.
      - intros h Hh. right. exact (NOM3 h Hh).
      - exact B.
      - intros j Hj J. exfalso. exact (eq_true_false_abs _ J (no_masters_jm s3 j M3 Hj)).
      - exact D0.
      - intros u Hu Qu Cu. destruct (E0 u Hu Qu Cu) as [L|[L|L]]; [left; exact L|right; left|right; right; exact L].
        rewrite NX3 in L. exact (N.le_trans _ _ _ L NXB).
      - exact F.
      - intros _. change (d_bit b <= d_bit (x_parser_bs s3)). rewrite PB3. apply N.le_refl.
      - exact K.
      - exact U3. }
    apply own_parse_ok; try assumption.
    + apply (inv_view s3); [constructor; try reflexivity; intros; reflexivity|exact I3].
    + change (x_parser_bs s4) with (x_parser_bs s3). rewrite PB3. exact NB.
    + change (x_parser_bs s4) with (x_parser_bs s3). rewrite PB3. reflexivity.
    + exact (o_sorted _ OS3).
    + change (x_parser_bs s4) with (x_parser_bs s3). rewrite PB3. exact LTP.
    + change (x_parser_bs s4) with (x_parser_bs s3). rewrite PB3. apply (ORPH (d_bit b)).
      * clear - NB. unfold dbs_norm in NB. lia.
      * intros u0 Hu0 Q0 C0. destruct (o_u2 _ _ _ OP u0 Hu0 Q0 C0) as [L|[L|L]]; auto; right.
        -- clear - L EV. unfold HDR_MIN in EV. lia.
        -- clear - L HD NB. unfold dbs_norm in NB. lia.
Qed.
