From Coq Require Import List NArith Bool Lia Arith ZifyBool ZifyN.
From LBZ Require Import Gen.Consts SchedX.XState Gen.SchedXTab SchedX.XSet SchedX.XModel SchedX.XLemmas
  SchedX.XFrame SchedX.XInvDefs SchedX.XOps SchedX.XInv SchedX.XInv2 SchedX.XInv3.
Import ListNotations.
Local Open Scope N_scope.

(* the parser's continuation leaves the running set: nobody else may move head_offs *)
Lemma inv_del_parse att st s1 : del_run (CParse att) st = Some s1 -> inv st ->
  inv s1 /\ masters s1 = 0%nat /\ nparse s1 = 0%nat /\ x_parse_token s1 = false /\ x_parsing_done s1 = false.
Proof.
  intros D [Ic Ip Ir Is Iu If Ij Il Ie Im Id Ib Iq].
  destruct (del_run_inv _ _ _ D) as (l1 & l2 & E & ->). unfold masters, all_jobs, nparse in *.
  rewrite E in *. rewrite !run_jobs_app, run_jobs_cons in *. simpl cjobs in *. simpl app in *.
  rewrite !filter_len_app in Ie, Id. simpl in Ie, Id.
  assert (T : x_parse_token st = false) by (destruct (x_parse_token st); auto; exfalso; simpl in Ie; lia).
  assert (PD : x_parsing_done st = false) by (destruct (x_parsing_done st); auto; exfalso; destruct (Id eq_refl); lia).
  rewrite T in Ie. simpl in Ie. rewrite ?filter_len_app in Ie.
  split; [|nrm; rewrite ?run_jobs_app, ?filter_len_app; split; [lia|split; [lia|split; auto]]].
  constructor; unfold all_jobs, nparse; nrm; rewrite ?run_jobs_app, ?filter_len_app; auto.
  all: try (rewrite T; simpl; lia).
  all: try (intro K; congruence).
Qed.

(* a weaker relation between unord stores that is enough for the jobs *)
Definition stemsj (u u0 : unord) : Prop :=
  u_id u = u_id u0 /\ u_base u = u_base u0 /\ u_end u = u_end u0 /\ (u_complete u0 = true -> u_complete u = true).

Lemma job_ok_stemsj st st' j : x_next_uid st' = x_next_uid st ->
  (forall u, In u (x_unords st') -> exists u0, In u0 (x_unords st) /\ stemsj u u0) ->
  job_ok st j -> job_ok st' j.
Proof.
  intros EN HS (J1 & J2 & J3 & J4 & J5). unfold job_ok. rewrite EN.
  split; [auto|]. split; [auto|]. split; [auto|]. split; [auto|].
  intros id u E Hin Hid. destruct (HS u Hin) as (u0 & H0 & (S1 & S2 & S3 & S6)).
  destruct (J5 id u0 E H0 ltac:(congruence)) as [B1 B2]. split; [congruence|].
  intro C. rewrite S3. apply B2. destruct (u_complete u0); auto. specialize (S6 eq_refl). congruence.
Qed.

(* replacing the store by one in which some queued elements have been detached (not legitimate) or freed *)
Lemma inv_detached s us' :
  (forall u, In u us' -> exists u0, In u0 (x_unords s) /\ (u = u0 \/ (u_inq u0 = true /\ u = u_detach false u0))) ->
  NoDup (map u_id us') -> inv s ->
  inv (set_unords us' s) /\ (masters (set_unords us' s) <= masters s)%nat.
Proof.
  intros ST ND [Ic Ip Ir Is Iu If Ij Il Ie Im Id Ib Iq]. unfold masters, all_jobs, nparse in *.
  assert (JM : forall j, jm us' j = true -> jm (x_unords s) j = true).
  { intro j. unfold jm. destruct (r_link j) as [id|]; auto. rewrite !existsb_exists. intros (u & Hu & E).
    destruct (ST u Hu) as (u0 & H0 & [->|[_ ->]]); [exists u0; auto|]. simpl in E. rewrite andb_false_r in E. discriminate. }
  assert (LE : (length (filter (jm us') (x_retr_q s ++ run_jobs (x_running s))) <=
                length (filter (jm (x_unords s)) (x_retr_q s ++ run_jobs (x_running s))))%nat)
    by (apply filter_len_mono; intros; auto).
  split.
  - constructor; unfold all_jobs, nparse; nrm; auto.
    + apply Forall_forall. intros u Hu. rewrite Forall_forall in Iu. destruct (ST u Hu) as (u0 & H0 & [->|[Q ->]]); auto.
      destruct (Iu u0 H0) as (O1 & O2 & O3). unfold unord_ok, u_detach; simpl. split; [discriminate|split; auto].
    + apply Forall_forall. intros u Hu. rewrite Forall_forall in If. destruct (ST u Hu) as (u0 & H0 & [->|[Q ->]]); simpl; auto.
    + eapply Forall_impl; [|exact Ij]. intros j. apply job_ok_stemsj; nrm; auto.
      intros u Hu. destruct (ST u Hu) as (u0 & H0 & [->|[Q ->]]); exists u0; split; auto; unfold stemsj, u_detach; simpl; tauto.
    + lia.
    + eapply Forall_impl; [|exact Im]. simpl. intros j H K. auto.
  - nrm. exact LE.
Qed.

Lemma discard_below_spec p us u : In u (discard_below p us) ->
  exists u0, In u0 us /\ (u = u0 \/ (u_inq u0 = true /\ u = u_detach false u0)).
Proof.
  unfold discard_below. rewrite in_map_iff. intros (u0 & E & H0). apply filter_In in H0. destruct H0 as [H0 _].
  exists u0. split; auto. destruct (u_inq u0 && pos_lt (u_base u0) p && negb (u_complete u0)) eqn:K; auto.
  right. bool_hyps. auto.
Qed.

Lemma flush_unords_spec us u : In u (flush_unords us) ->
  exists u0, In u0 us /\ (u = u0 \/ (u_inq u0 = true /\ u = u_detach false u0)).
Proof.
  unfold flush_unords. rewrite in_map_iff. intros (u0 & E & H0). apply filter_In in H0. destruct H0 as [H0 _].
  exists u0. split; auto. destruct (u_inq u0) eqn:K; auto.
Qed.

Lemma nodup_map_idpres (f : unord -> unord) p us : (forall u, u_id (f u) = u_id u) ->
  NoDup (map u_id us) -> NoDup (map u_id (map f (filter p us))).
Proof.
  intros H ND. rewrite map_map. rewrite (map_ext _ u_id) by auto. apply nodup_map_filter. auto.
Qed.

Lemma nodup_discard p us : NoDup (map u_id us) -> NoDup (map u_id (discard_below p us)).
Proof. unfold discard_below. apply nodup_map_idpres. intro u. destruct (_ && _ && _); reflexivity. Qed.

Lemma nodup_flush us : NoDup (map u_id us) -> NoDup (map u_id (flush_unords us)).
Proof. unfold flush_unords. apply nodup_map_idpres. intro u. destruct (u_inq u); reflexivity. Qed.

Lemma contig_sum h q t : contig h q t -> h + sum_sizes q = t.
Proof.
  revert h; induction q as [|b r IH]; simpl; intros h H; [lia|]. destruct H as (H1 & H2 & H3).
  apply IH in H3. unfold ib_end in H3. lia.
Qed.

(* the end of parse_finish: every queued job is given back, input_q is released *)
Lemma inv_finish_clear s w w' z i :
  inv s -> x_parsing_done s = true -> masters s = 0%nat ->
  inv (set_work_units w' (set_head_offs (x_head_offs s + sum_sizes (x_input_q s)) (set_zombies z (set_in_slots i
        (set_input_q [] (set_scan_q [] (set_work_units w (set_retr_q [] s)))))))).
Proof.
  intros [Ic Ip Ir Is Iu If Ij Il Ie Im Id Ib Iq] PD M0. unfold masters, all_jobs, nparse in *.
  rewrite Forall_app in Ij. destruct Ij as [_ Ij]. rewrite filter_len_app in M0.
  constructor; unfold all_jobs, nparse; xs; simpl; auto.
  - apply contig_sum in Ic. auto.
  - congruence.
  - intro id. specialize (Il id). rewrite filter_len_app in Il. lia.
  - rewrite filter_len_app in Ie. lia.
  - apply Forall_forall. intros j Hj K. exfalso.
    assert (In j (filter (jm (x_unords s)) (run_jobs (x_running s)))) by (apply filter_In; auto).
    destruct (filter (jm (x_unords s)) (run_jobs (x_running s))); [contradiction|simpl in M0; lia].
Qed.

(* parse_finish after its first stage [s0] (flags set, parser position corrected): the links of
   the queued jobs are dropped, unord_q is flushed, the queues are emptied *)
Lemma inv_finish_release cfg s0 :
  inv s0 -> masters s0 = 0%nat -> x_parsing_done s0 = true ->
  let us := if c_finish_drops_link cfg then drop_links (x_retr_q s0) (x_unords s0) else x_unords s0 in
  let w := x_work_units s0 + N.of_nat (length (x_retr_q s0)) in
  inv (set_work_units (w + 1)
         (set_head_offs (x_head_offs s0 + sum_sizes (x_input_q s0))
            (set_zombies (x_zombies s0 ++ zrel (x_input_q s0)) (set_in_slots (x_in_slots s0 + nfree (x_input_q s0))
               (set_input_q [] (set_unords (flush_unords us) (set_scan_q []
                  (set_work_units w (set_retr_q [] (set_unords us s0)))))))))).
Proof.
  intros I0 M0 PD us w.
  destruct (inv_stems s0 us) as (I1 & M1); auto.
  { subst us. destruct (c_finish_drops_link cfg); [apply drop_links_stems|]. intros; eexists; split; eauto using stems_refl. }
  { subst us. destruct (c_finish_drops_link cfg); [apply nodup_drop_links|]; apply I0. }
  destruct (inv_detached (set_unords us s0) (flush_unords us)) as (I2 & M2); auto.
  { apply flush_unords_spec. } { apply nodup_flush. apply I1. }
  eapply inv_view; [|apply (inv_finish_clear _ w (w + 1) (x_zombies s0 ++ zrel (x_input_q s0)) (x_in_slots s0 + nfree (x_input_q s0)) I2 PD); lia].
  view_tac.
Qed.

Lemma inv_parse_finish cfg g s :
  inv s -> masters s = 0%nat -> nparse s = 0%nat -> inv (parse_finish cfg g s).
Proof.
  intros I M0 N0. rewrite parse_finish_eq. cbv zeta.
  set (s0 := set_parser_bs _ _).
  assert (I0 : inv s0).
  { destruct I as [Ic Ip Ir Is Iu If Ij Il Ie Im Id Ib Iq]. unfold masters, all_jobs, nparse in *.
    constructor; unfold all_jobs, nparse; xs; auto; try discriminate. simpl. lia. }
  destruct (_ && _); [eapply inv_view; [|exact I0]; view_tac|].
  exact (inv_finish_release cfg s0 I0 M0 eq_refl).
Qed.

Lemma jm_detach id us j : jm (upd_unord id (u_detach true) us) j = true -> jm us j = true \/ links id j = true.
Proof.
  unfold jm, links. destruct (r_link j) as [id2|]; auto. unfold upd_unord. rewrite existsb_map, !existsb_exists.
  intros (u & Hu & E). destruct (u_id u =? id) eqn:K.
  - right. simpl in E. bool_hyps. simpl. apply N.eqb_eq in K. apply N.eqb_eq. match goal with A : (u_id u =? id2) = true |- _ => apply N.eqb_eq in A end. congruence.
  - left. exists u. auto.
Qed.

Lemma inv_adopt id s :
  inv s -> masters s = 0%nat -> nparse s = 0%nat -> x_parse_token s = false ->
  (forall j, In j (run_jobs (x_running s)) -> links id j = true -> x_head_offs s <= d_off (r_cur j)) ->
  inv (set_unords (upd_unord id (u_detach true) (x_unords s)) s).
Proof.
  intros [Ic Ip Ir Is Iu If Ij Il Ie Im Id Ib Iq] M0 N0 T0 HR. unfold masters, all_jobs, nparse in *.
  constructor; unfold all_jobs, nparse; nrm; auto.
  - unfold upd_unord. apply Forall_forall. intros u Hu. apply in_map_iff in Hu. destruct Hu as (u0 & <- & H0).
    rewrite Forall_forall in Iu. specialize (Iu u0 H0). destruct (u_id u0 =? id); auto.
    destruct Iu as (O1 & O2 & O3). unfold unord_ok, u_detach; simpl. split; [discriminate|auto].
  - unfold upd_unord. apply Forall_forall. intros u Hu. apply in_map_iff in Hu. destruct Hu as (u0 & <- & H0).
    rewrite Forall_forall in If. specialize (If u0 H0). destruct (u_id u0 =? id); auto.
  - eapply Forall_impl; [|exact Ij]. intros j. apply job_ok_stemsj; nrm; auto.
    intros u Hu. unfold upd_unord in Hu. apply in_map_iff in Hu. destruct Hu as (u0 & <- & H0). exists u0. split; auto.
    destruct (u_id u0 =? id); unfold stemsj, u_detach; simpl; tauto.
  - rewrite T0, N0. simpl.
    pose proof (filter_len_mono2 (jm (upd_unord id (u_detach true) (x_unords s))) (jm (x_unords s)) (links id)
                 (x_retr_q s ++ run_jobs (x_running s)) (fun x _ => jm_detach id (x_unords s) x)) as LE.
    specialize (Il id). lia.
  - apply Forall_forall. intros j Hj K. destruct (jm_detach _ _ _ K) as [K1|K1]; [|auto].
    exfalso. assert (In j (filter (jm (x_unords s)) (x_retr_q s ++ run_jobs (x_running s)))) by (apply filter_In; split; auto; apply in_or_app; auto).
    destruct (filter (jm (x_unords s)) (x_retr_q s ++ run_jobs (x_running s))); [contradiction|discriminate].
  - rewrite map_id_upd; auto.
Qed.

Lemma inv_parse_ok cfg lv crc s :
  inv s -> masters s = 0%nat -> nparse s = 0%nat -> x_parse_token s = false -> x_parsing_done s = false ->
  dbs_norm (x_parser_bs s) = true -> inv (parse_ok cfg lv crc s).
Proof.
  intros I M0 N0 T0 PD NB.
  pose proof (parse_ok_cases cfg lv crc s) as C. cbv zeta in C.
  set (p := d_pos (x_parser_bs s)) in *.
  set (s1 := set_order_q (x_order_q s ++ [mkhead p lv crc]) s) in *.
  assert (I1 : inv s1) by (eapply inv_view; [|exact I]; subst s1; view_tac).
  destruct (inv_detached s1 (discard_below p (x_unords s))) as (I2 & M2); auto.
  { apply discard_below_spec. } { apply nodup_discard. apply I. }
  set (s2 := set_unords (discard_below p (x_unords s)) s1) in *.
  assert (E2 : masters s2 = 0%nat /\ nparse s2 = 0%nat /\ x_parse_token s2 = false /\ x_parsing_done s2 = false /\ x_parser_bs s2 = x_parser_bs s)
    by (repeat split; auto; change (masters s1) with (masters s) in M2; lia).
  destruct E2 as (M2' & N2 & T2 & PD2 & PB2). clear M2 I1 I M0 N0 T0 PD.
  change (x_retr_q s) with (x_retr_q s2) in C. rewrite <- PB2 in C. clearbody s2. clear s1.
  destruct C as [[_ ->]|(u & Q & PE & ->)].
  - apply inv_requeue; auto.
    + unfold job_ok; simpl. rewrite PB2. subst p. unfold d_pos; simpl. repeat split; auto; try apply N.le_refl; discriminate.
    + simpl. apply I2. auto.
    + simpl. discriminate.
    + rewrite T2, N2, M2'. simpl. lia.
  - apply qmin_In in Q. unfold unord_q in Q. apply filter_In in Q. destruct Q as [Hu Qi].
    assert (UO : unord_ok u) by (destruct I2 as [_ _ _ _ Iu _ _ _ _ _ _ _ _]; rewrite Forall_forall in Iu; auto).
    destruct UO as (O1 & O2 & O3). destruct (O1 Qi) as (Oe & Ob & Ol).
    assert (HD : x_head_offs s2 <= d_off (u_end u)).
    { assert (H : x_head_offs s2 <= d_off (x_parser_bs s2)) by (apply I2; auto).
      rewrite PE in Ob. subst p. unfold d_pos in Ob. simpl in Ob. rewrite PB2 in *. unfold dbs_ok, dbs_norm in *. clear - H Ob Oe NB. lia. }
    destruct (inv_advance cfg (u_end u) s2 I2 M2' HD) as (I3 & M3 & H3a & H3b & ST & RP).
    assert (RJ : forall j, In j (run_jobs (x_running s2)) -> links (u_id u) j = true -> u_complete u = false -> u_end u = r_cur j).
    { intros j Hj L C. destruct I2 as [_ _ _ _ _ _ Ij _ _ _ _ _ _]. rewrite Forall_forall in Ij.
      destruct (Ij j) as (_ & _ & _ & _ & J5); [unfold all_jobs; apply in_or_app; auto|].
      unfold links in L. apply optN_eqb_eq in L. destruct (J5 _ u L Hu eq_refl) as [_ B]. auto. }
    assert (E3 : nparse (advance cfg (u_end u) s2) = 0%nat /\ x_parse_token (advance cfg (u_end u) s2) = false /\
                 x_running (advance cfg (u_end u) s2) = x_running s2) by (unfold nparse in *; rewrite advance_eq; auto).
    set (s3 := advance cfg (u_end u) s2) in *. destruct E3 as (N3 & T3 & R3). clearbody s3.
    eapply inv_view; [apply view_give_unit|]. destruct (u_complete u) eqn:UC.
    + destruct (inv_stems s3 (del_unord (u_id u) (x_unords s3))) as (I4 & M4); auto.
      { unfold del_unord. intros v Hv. apply filter_In in Hv. exists v. split; [tauto|apply stems_refl]. }
      { unfold del_unord. apply nodup_map_filter. apply I3. }
      eapply inv_view; [|apply (inv_set_token _ I4); [clear - M3 M4; lia|exact N3]]. view_tac.
    + apply inv_adopt; auto. intros j Hj L. rewrite R3 in Hj. rewrite <- (RJ j Hj L eq_refl). exact H3b.
Qed.

Lemma inv_parse1 cfg att r st st' : inv st -> parse1 cfg att r st = Some st' -> inv st'.
Proof.
  intros I H. apply parse1_inv in H. destruct H as (l1 & l2 & _ & D & H). cbv zeta in H. destruct H as (_ & _ & Hoff & _ & H).
  destruct (inv_del_parse _ _ _ D I) as (I1 & M1 & N1 & T1 & PD1). clear D.
  change (x_parser_bs st) with (x_parser_bs (set_running (l1 ++ l2) st)) in Hoff. set (s1 := set_running _ _) in *. clearbody s1. clear I.
  assert (I2 : inv (detach att s1)) by (eapply inv_view; [apply view_detach|exact I1]).
  assert (E2 : masters (detach att s1) = 0%nat /\ nparse (detach att s1) = 0%nat /\ x_parse_token (detach att s1) = false /\
               x_parsing_done (detach att s1) = false /\ x_parser_bs (detach att s1) = x_parser_bs s1)
    by (unfold masters, all_jobs, nparse in *; rewrite detach_nf; auto).
  set (s2 := detach att s1) in *. destruct E2 as (M2 & N2 & T2 & PD2 & PB2). clearbody s2.
  assert (HD : x_head_offs s2 <= d_off (res_bs r)).
  { assert (x_head_offs s2 <= d_off (x_parser_bs s2)) by (apply I2; auto). rewrite PB2 in *. clear - H0 Hoff. lia. }
  destruct (inv_advance cfg (res_bs r) s2 I2 M2 HD) as (I3 & M3 & H3a & H3b & ST & RP).
  assert (E3 : nparse (advance cfg (res_bs r) s2) = 0%nat /\ x_parse_token (advance cfg (res_bs r) s2) = false /\
               x_parsing_done (advance cfg (res_bs r) s2) = false /\ x_parser_bs (advance cfg (res_bs r) s2) = res_bs r)
    by (unfold nparse in *; rewrite advance_eq; auto).
  set (s3 := advance cfg (res_bs r) s2) in *. destruct E3 as (N3 & T3 & PD3 & PB3). clearbody s3.
  destruct r as [bs ps|bs g|bs code|bs ps lv crc]; cbn [res_bs] in *.
  - destruct H as (_ & _ & ->). eapply inv_view; [|apply (inv_set_token s3 I3 M3 N3)]. view_tac.
  - destruct H as (_ & _ & ->). apply inv_parse_finish; auto.
  - destruct H as (_ & _ & _ & ->). eapply inv_view; [|exact I3]. view_tac.
  - destruct H as (NB & ->). apply inv_parse_ok; auto.
    + eapply inv_view; [|exact I3]. view_tac.
    + rewrite <- PB3 in NB. exact NB.
Qed.

Lemma inv_init n tin tout ultra : inv (init_state n tin tout ultra).
Proof.
  unfold init_state. constructor; unfold all_jobs, nparse; simpl; auto; try constructor; try lia; try discriminate.
Qed.

Theorem inv_step cfg st e st' : cfg_safe cfg -> inv st -> step cfg st e = Some st' -> inv st'.
Proof.
  intros C I H. unfold step in H. destruct (x_failed st); [discriminate|].
  destruct e.
  - eapply inv_input; eauto.
  - eapply inv_eof; eauto.
  - eapply inv_written; eauto.
  - eapply inv_parse0; eauto.
  - eapply inv_parse1; eauto.
  - eapply inv_retr0; eauto.
  - eapply inv_retr1; eauto.
  - eapply inv_retr2; eauto.
  - eapply inv_emit0; eauto.
  - eapply inv_emit1; eauto.
  - eapply inv_reorder; eauto.
  - eapply inv_scan0; eauto.
  - eapply inv_scan1; eauto.
Qed.

Theorem inv_reach cfg n tin tout ultra st : cfg_safe cfg -> reach cfg (init_state n tin tout ultra) st -> inv st.
Proof.
  intros C R. induction R; [apply inv_init|eapply inv_step; eauto].
Qed.

(* Finding F4, positive part: with the offset tests in place no bit stream is ever
   attached outside the live input, and no queued job lies below head_offs. *)
Theorem no_bad_attach cfg n tin tout ultra st :
  cfg_safe cfg -> reach cfg (init_state n tin tout ultra) st ->
  x_bad_attach st = false /\ Forall (fun j => x_head_offs st <= d_off (r_cur j)) (x_retr_q st) /\
  Forall (fun s => x_head_offs st <= d_off s) (x_scan_q st).
Proof.
  intros C R. pose proof (inv_reach _ _ _ _ _ _ C R) as [Ic Ip Ir Is Iu If Ij Il Ie Im Id Ib Iq].
  repeat split; auto. eapply Forall_impl; [|exact Is]. simpl. tauto.
Qed.
