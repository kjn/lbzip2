(* Capacity of unord_q (finding F9).  unord_q grows only when do_scan() records a
   candidate; every other event leaves its length alone or shrinks it.  When the source
   tests `size(unord_q) >= unord_cap` before recording (regenerated boolean
   scan_checks_unord_cap), the queue never exceeds the capacity it was allocated with.
   Without the test the bound is false: notes/XF9Refuted_before_fix.v. *)
From Coq Require Import List NArith Bool Lia Arith ZifyBool ZifyN ZifyNat.
From LBZ Require Import Gen.Consts SchedX.XState Gen.SchedXTab SchedX.XSet SchedX.XModel SchedX.XLemmas
  SchedX.XFrame SchedX.XInvDefs SchedX.XOps SchedX.XCount.
Import ListNotations.
Local Open Scope N_scope.

Definition inq_len (us : list unord) : nat := length (filter u_inq us).

Lemma inq_len_filter p us : (inq_len (filter p us) <= inq_len us)%nat.
Proof. unfold inq_len. induction us as [|u r IH]; simpl; auto. destruct (p u); simpl; destruct (u_inq u); simpl; lia. Qed.

Lemma inq_len_map f us : (forall u, u_inq (f u) = true -> u_inq u = true) -> (inq_len (map f us) <= inq_len us)%nat.
Proof.
  intro HF. unfold inq_len. induction us as [|u r IH]; simpl; auto.
  destruct (u_inq (f u)) eqn:E; [rewrite (HF u E)|destruct (u_inq u)]; simpl; lia.
Qed.

Lemma inq_len_upd id f us : (forall u, u_inq (f u) = true -> u_inq u = true) -> (inq_len (upd_unord id f us) <= inq_len us)%nat.
Proof. intro HF. unfold upd_unord. apply inq_len_map. intros u. destruct (u_id u =? id); auto. Qed.

Lemma inq_len_del id us : (inq_len (del_unord id us) <= inq_len us)%nat.
Proof. apply inq_len_filter. Qed.

Lemma inq_len_drop_link l us : (inq_len (drop_link l us) <= inq_len us)%nat.
Proof.
  unfold drop_link. destruct l as [id|]; auto. destruct (get_unord id us) as [u|]; auto.
  destruct (u_complete u); [apply inq_len_del|apply inq_len_upd; auto].
Qed.

Lemma inq_len_drop_links js us : (inq_len (drop_links js us) <= inq_len us)%nat.
Proof.
  unfold drop_links. revert us. induction js as [|j r IH]; simpl; intro us; auto.
  eapply Nat.le_trans; [apply IH|apply inq_len_drop_link].
Qed.

Lemma inq_len_discard p us : (inq_len (discard_below p us) <= inq_len us)%nat.
Proof.
  unfold discard_below. eapply Nat.le_trans; [apply inq_len_map|apply inq_len_filter].
  intro u. destruct (u_inq u && pos_lt (u_base u) p && negb (u_complete u)); simpl; auto. discriminate.
Qed.

Lemma inq_len_flush us : (inq_len (flush_unords us) <= inq_len us)%nat.
Proof.
  unfold flush_unords. eapply Nat.le_trans; [apply inq_len_map|apply inq_len_filter].
  intro u. destruct (u_inq u) eqn:E; simpl; intro X; congruence.
Qed.

Definition ulen (st : xstate) : nat := inq_len (x_unords st).

Lemma ulen_unord_q st : length (unord_q st) = ulen st.
Proof. reflexivity. Qed.

Lemma ulen_advance cfg bs st : (ulen (advance cfg bs st) <= ulen st)%nat.
Proof.
  unfold ulen. rewrite advance_eq. xs. destruct (c_advance_drops_link cfg); auto. apply inq_len_drop_links.
Qed.

Lemma ulen_parse_finish cfg g s : (ulen (parse_finish cfg g s) <= ulen s)%nat.
Proof.
  unfold ulen. rewrite parse_finish_eq. cbv zeta. destruct (_ && _); xs; auto.
  eapply Nat.le_trans; [apply inq_len_flush|]. destruct (c_finish_drops_link cfg); auto. apply inq_len_drop_links.
Qed.

Lemma ulen_parse_ok cfg lv crc s : (ulen (parse_ok cfg lv crc s) <= ulen s)%nat.
Proof.
  destruct (parse_ok_cases cfg lv crc s) as [[_ ->]|(u & _ & _ & ->)]; cbv zeta; unfold ulen; xs; [apply inq_len_discard|].
  match goal with |- context [advance cfg ?b ?x] => assert (L : (ulen (advance cfg b x) <= ulen s)%nat)
    by (eapply Nat.le_trans; [apply ulen_advance|apply inq_len_discard]); set (s3 := advance cfg b x) in *; clearbody s3 end.
  unfold ulen in L. destruct (u_complete u); xs; (eapply Nat.le_trans; [|exact L]); [apply inq_len_del|].
  apply inq_len_upd. intros v X. discriminate X.
Qed.

Lemma ulen_retr1_tail cfg j rv cur fin sa :
  (ulen (fin sa) <= ulen sa)%nat -> (ulen (retr1_tail cfg j rv cur fin sa) <= ulen sa)%nat.
Proof.
  intro F. unfold retr1_tail, drop_if. set (sf := fin sa) in *. clearbody sf.
  destruct (rv =? MORE); [destruct (_ && _); [destruct (c_stale_drops_link cfg)|]|]; unfold ulen in *; xs; auto.
  apply inq_len_drop_link.
Qed.

(* every event but the recording of a candidate leaves the length of unord_q alone or shrinks it *)
Lemma ulen_step cfg st e st' : step cfg st e = Some st' ->
  (ulen st' <= ulen st)%nat \/
  (exists s att s' more, e = EvScan1 s att true s' more /\ ulen st' = S (ulen st) /\
     (c_scan_checks_unord_cap cfg && unord_full st) = false).
Proof.
  unfold step. destruct (x_failed st); [discriminate|]. destruct e; intro H; [left..|].
  - apply input_inv in H. destruct H as (_ & _ & _ & _ & H). destruct (x_parsing_done st); subst st'; auto.
  - apply reader_eof_inv in H. destruct H as [_ ->]. auto.
  - apply written_inv in H. destruct H as [_ ->]. auto.
  - apply parse0_inv in H. destruct H as [_ ->]. unfold ulen. rewrite attach_nf. auto.
  - apply parse1_inv in H. destruct H as (l1 & l2 & _ & _ & H). cbv zeta in H. destruct H as (_ & _ & _ & _ & H).
    match type of H with context [advance cfg ?b (detach ?a ?s)] =>
      assert (L : (ulen (advance cfg b (detach a s)) <= ulen st)%nat)
        by (eapply Nat.le_trans; [apply ulen_advance|]; unfold ulen; rewrite detach_nf; auto);
      set (s3 := advance cfg b (detach a s)) in *; clearbody s3 end.
    destruct r; [destruct H as (_ & _ & ->)|destruct H as (_ & _ & ->)|destruct H as (_ & _ & _ & ->)|destruct H as (_ & ->)].
    + exact L.
    + eapply Nat.le_trans; [apply ulen_parse_finish|exact L].
    + exact L.
    + eapply Nat.le_trans; [apply ulen_parse_ok|exact L].
  - apply retr0_inv in H. destruct H as (_ & q & _ & ->). unfold ulen. rewrite attach_nf. auto.
  - apply retr1_inv in H. destruct H as (l1 & l2 & _ & _ & _ & _ & _ & _ & _ & _ & H).
    match type of H with retr1_case _ _ _ _ (detach ?a ?s) _ =>
      assert (E : ulen (detach a s) = ulen st) by (unfold ulen; rewrite detach_nf; reflexivity);
      set (s2 := detach a s) in *; clearbody s2 end.
    rewrite <- E.
    destruct H as [_ ->|u _ _ _ _ ->|_ _ ->|id _ _ _ ->]; unfold drop_if.
    + destruct (c_retr_done_drops_link cfg); unfold ulen; xs; auto. apply inq_len_drop_link.
    + destruct (c_retr_abort_drops_link cfg); unfold ulen; xs; auto. apply inq_len_drop_link.
    + eapply Nat.le_trans; [apply ulen_retr1_tail|apply ulen_advance].
      unfold fin_master, ulen. destruct (r_link j); xs; auto. apply inq_len_del.
    + eapply Nat.le_trans; [apply ulen_retr1_tail|]; unfold fin_spec, ulen; xs; apply inq_len_upd; auto.
  - apply retr2_inv in H. destruct H as (l1 & l2 & _ & _ & ->). auto.
  - apply emit0_inv in H. destruct H as (_ & e & l1 & l2 & _ & _ & ->). auto.
  - apply emit1_inv in H. destruct H as (l1 & l2 & _ & _ & _ & _ & H). cbv zeta in H. destruct (rv =? MORE); subst st'; auto.
  - apply reorder_inv in H. destruct H as (_ & o & l1 & l2 & _ & _ & H).
    destruct H as [_ ->|ord rest _ _ _ ->|ord rest _ _ _ _ ->|ord rest _ _ _ _ ->]; auto.
  - apply scan0_inv in H. destruct H as (_ & s & l1 & l2 & _ & _ & ->). unfold ulen. rewrite attach_nf. auto.
  - apply scan1_inv in H. destruct H as (l1 & l2 & _ & _ & H). cbv zeta in H.
    match type of H with context [give_unit (detach ?a ?s)] =>
      assert (E : x_unords (detach a s) = x_unords st /\ unord_full (detach a s) = unord_full st)
        by (unfold unord_full, unord_cap, unord_q; rewrite detach_nf; auto);
      set (s2 := detach a s) in *; clearbody s2 end.
    destruct E as [E F]. unfold ulen. rewrite <- E, <- F.
    destruct H as [[_ ->]|(-> & _ & _ & _ & _ & _ & ->)]; [left; auto|].
    replace (x_unords (scan1_requeue cfg s' more (scan1_cand cfg s' s2))) with (x_unords (scan1_cand cfg s' s2))
      by (unfold scan1_requeue; destruct (_ && _); reflexivity).
    unfold scan1_cand, new_cand. destruct (pos_le _ _ || _); [left; auto|].
    destruct (c_scan_checks_unord_cap cfg && unord_full s2); [left; auto|right].
    exists s, att, s', more. split; [reflexivity|]. split; [|reflexivity].
    xs. unfold inq_len. rewrite filter_app, app_length. simpl. lia.
Qed.

Definition ucap_ok (st : xstate) : Prop := N.of_nat (length (unord_q st)) <= unord_cap st.

Theorem unord_q_capacity cfg n tin tout ultra st :
  c_scan_checks_unord_cap cfg = true -> reach cfg (init_state n tin tout ultra) st -> ucap_ok st.
Proof.
  intros CU R. induction R as [|st e st' R IH H].
  - unfold ucap_ok. simpl. lia.
  - unfold ucap_ok in *. rewrite ulen_unord_q in *.
    assert (CE : unord_cap st' = unord_cap st).
    { pose proof (consts_step _ _ _ _ H) as K. inversion K as [[K1 K2 K3]]. unfold unord_cap. rewrite K1, K2, K3. reflexivity. }
    rewrite CE. destruct (ulen_step _ _ _ _ H) as [L|(s & att & s' & more & _ & L & G)]; [lia|].
    rewrite CU in G. simpl in G. unfold unord_full in G. rewrite ulen_unord_q in G. lia.
Qed.
