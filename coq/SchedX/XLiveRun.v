(* A worker that is inside an unlocked computation (an element of [x_running]) can always
   complete its second locked segment: some label is accepted by the corresponding event.
   This complements deadlock freedom (which speaks about states with x_running = []).

   [lrun]   what the second-segment events test, for every running continuation
   [lrun']  the inductive strengthening: instead of "the block that [find] returns ends at or
            after the position" it records "EVERY block of input_q ++ zombies with the attached
            offset ends at or after the position", plus  position <= tail_offs,
            emit_q holds no job whose status is FINISH, the parser's bit stream is well formed. *)
From Coq Require Import List NArith Bool Lia Arith ZifyBool ZifyN ZifyNat.
From LBZ Require Import Gen.Consts SchedX.XState Gen.SchedXTab SchedX.XSet SchedX.XModel SchedX.XLemmas
  SchedX.XFrame SchedX.XInvDefs SchedX.XOps SchedX.XInv3 SchedX.XInv4 SchedX.XScanOwn SchedX.XLiveDefs SchedX.XLiveIn.
Import ListNotations.
Local Open Scope N_scope.

Definition cont_ok (st : xstate) (c : cont) : Prop :=
  match c with
  | CParse att => x_parsing_done st = false /\ dbs_ok (x_parser_bs st) = true /\ d_off (x_parser_bs st) <= att_end att st
  | CRetr j att => dbs_ok (r_cur j) = true /\ d_off (r_cur j) <= att_end att st
  | CRetr2 e | CEmit e => e_status e <> FINISH
  | CScan _ _ => True
  end.
Definition lrun (st : xstate) : Prop := Forall (cont_ok st) (x_running st).

Definition shapes (st : xstate) : list (N * N) := map bshape (x_input_q st) ++ map bshape (x_zombies st).

(* position [p] of a bit stream attached to [att]; [SH]: shapes of the live blocks *)
Definition aok (SH : list (N * N)) (tl : N) (att : option N) (p : N) : Prop :=
  p <= tl /\ match att with None => True | Some o => forall r, In r SH -> fst r = o -> p <= fst r + snd r end.

Definition cok (SH : list (N * N)) (tl : N) (done : bool) (pbs : dbs) (c : cont) : Prop :=
  match c with
  | CParse att => done = false /\ dbs_ok pbs = true /\ aok SH tl att (d_off pbs)
  | CRetr j att => dbs_ok (r_cur j) = true /\ aok SH tl att (d_off (r_cur j))
  | CRetr2 e | CEmit e => e_status e <> FINISH
  | CScan _ _ => True
  end.

Definition eok (e : ejob) : Prop := e_status e <> FINISH.

Record lrc (SH : list (N * N)) (tl : N) (done : bool) (pbs : dbs) (R : list cont) (EQ : list ejob) : Prop := mklrc {
  lc_run : Forall (cok SH tl done pbs) R;
  lc_emit : Forall eok EQ;
  lc_pok : done = false -> dbs_ok pbs = true
}.

Definition cokS (st : xstate) : cont -> Prop := cok (shapes st) (x_tail_offs st) (x_parsing_done st) (x_parser_bs st).
Definition lrcS (st : xstate) : Prop :=
  lrc (shapes st) (x_tail_offs st) (x_parsing_done st) (x_parser_bs st) (x_running st) (x_emit_q st).

Record lrun' (st : xstate) : Prop := mklrun' {
  lr_core : lrcS st;
  lr_att : forall c o, In c (x_running st) -> catt c = Some o -> exists b, In b (x_input_q st ++ x_zombies st) /\ ib_off b = o
}.

Lemma aok_att_end st att p :
  (forall o, att = Some o -> exists b, In b (x_input_q st ++ x_zombies st) /\ ib_off b = o) ->
  aok (shapes st) (x_tail_offs st) att p -> p <= att_end att st.
Proof.
  intros EX [A B]. unfold att_end. destruct att as [o|]; [|exact A].
  destruct (find (fun b => ib_off b =? o) (x_input_q st ++ x_zombies st)) as [b|] eqn:F.
  - apply find_some in F. destruct F as [F1 F2]. apply N.eqb_eq in F2.
    assert (X : In (bshape b) (shapes st)).
    { unfold shapes. rewrite <- map_app. apply in_map. exact F1. }
    specialize (B _ X F2). unfold ib_end. exact B.
  - exfalso. destruct (EX o eq_refl) as (b & Hb & Ob). pose proof (find_none _ _ F b Hb) as K. simpl in K.
    apply N.eqb_neq in K. contradiction.
Qed.

Theorem lrun'_lrun st : lrun' st -> lrun st.
Proof.
  intros [[A _ _] B]. unfold lrun. apply Forall_forall. intros c Hc. rewrite Forall_forall in A. specialize (A c Hc).
  unfold cokS in A. destruct c as [att|j att|e|e|s att]; cbn [cok cont_ok] in *; auto.
  - destruct A as (A1 & A2 & A3). split; [|split]; auto. apply aok_att_end; auto.
    intros o E. apply (B (CParse att) o Hc). exact E.
  - destruct A as (A1 & A2). split; auto. apply aok_att_end; auto.
    intros o E. apply (B (CRetr j att) o Hc). exact E.
Qed.

Lemma aok_mono SH tl SH' tl' att p :
  (forall r, In r SH' -> In r SH \/ tl <= fst r + snd r) -> tl <= tl' -> aok SH tl att p -> aok SH' tl' att p.
Proof.
  intros HS HT [A B]. split; [lia|]. destruct att as [o|]; auto. intros r Hr E.
  destruct (HS r Hr) as [X|X]; [apply B; auto|lia].
Qed.

Lemma cok_mono SH tl done pbs SH' tl' done' pbs' c :
  (forall r, In r SH' -> In r SH \/ tl <= fst r + snd r) -> tl <= tl' ->
  (is_parse c = true -> done' = done /\ pbs' = pbs) ->
  cok SH tl done pbs c -> cok SH' tl' done' pbs' c.
Proof.
  intros HS HT HP. destruct c as [att|j att|e|e|s att]; cbn [cok]; auto.
  - destruct (HP eq_refl) as [-> ->]. intros (A1 & A2 & A3). split; [|split]; auto. eapply aok_mono; eauto.
  - intros (A1 & A2). split; auto. eapply aok_mono; eauto.
Qed.

Lemma lrc_chg SH tl done pbs R EQ SH' tl' done' pbs' :
  lrc SH tl done pbs R EQ ->
  (forall r, In r SH' -> In r SH \/ tl <= fst r + snd r) -> tl <= tl' ->
  ((done' = done /\ pbs' = pbs) \/ (Forall (fun c => is_parse c = false) R /\ (done' = false -> dbs_ok pbs' = true))) ->
  lrc SH' tl' done' pbs' R EQ.
Proof.
  intros [A B C] HS HT HP. constructor; auto.
  - rewrite Forall_forall in A. apply Forall_forall. intros c Hc. apply (cok_mono SH tl done pbs); auto.
    intro IP. destruct HP as [HP|[HP _]]; auto. rewrite Forall_forall in HP. rewrite (HP c Hc) in IP. discriminate.
  - destruct HP as [[-> ->]|[_ HP]]; auto.
Qed.

Lemma nparse_zero st : nparse st = 0%nat -> Forall (fun c => is_parse c = false) (x_running st).
Proof. unfold nparse. apply filter_len_zero. Qed.

(* [lrcS st] reads input_q, zombies, tail_offs, parsing_done, parser_bs, running and emit_q: a state
   that differs from [st] by setters of other fields satisfies it by conversion *)
Lemma lrcS_add c st : lrcS st -> cokS st c -> lrcS (add_run c st).
Proof. intros [A B C] K. constructor; auto. exact (Forall_cons _ K A). Qed.

Lemma lrcS_emitq q st : lrcS st -> Forall eok q -> lrcS (set_emit_q q st).
Proof. intros [A B C] K. constructor; auto. Qed.

Lemma lrcS_del c l1 l2 st : x_running st = l1 ++ c :: l2 -> lrcS st -> lrcS (set_running (l1 ++ l2) st) /\ cokS st c.
Proof.
  intros E [A B C]. rewrite E in A. apply Forall_app in A. destruct A as [A1 A2]. inversion A2 as [|? ? A3 A4]; subst.
  split; [|exact A3]. constructor; auto. apply Forall_app. auto.
Qed.

Lemma shapes_attach d st : shapes (fst (attach d st)) = shapes st.
Proof. unfold shapes. rewrite shape_attach, attach_nf. reflexivity. Qed.

Lemma lrcS_attach_run d st c : lrcS st -> cokS st c -> lrcS (add_run c (fst (attach d st))).
Proof.
  intros L K. apply lrcS_add; unfold lrcS, cokS; rewrite shapes_attach, attach_nf; assumption.
Qed.

Lemma shapes_detach att st r : In r (shapes (detach att st)) -> In r (shapes st).
Proof.
  unfold shapes. rewrite shape_detach. rewrite !in_app_iff. intros [X|X]; auto. right. revert X.
  unfold detach. destruct att as [o|]; [|auto]. destruct (has_blk o (x_input_q st)); xs; [auto|].
  rewrite !in_map_iff. intros (z & <- & Hz). apply filter_In in Hz. destruct Hz as [Hz _].
  apply upd_ref_In in Hz. destruct Hz as (b & Hb & ->). exists b. split; [|exact Hb]. destruct (ib_off b =? o); reflexivity.
Qed.

Lemma lrcS_detach att st : lrcS st -> lrcS (detach att st).
Proof.
  intro L. pose proof (shapes_detach att st) as SD. unfold lrcS. generalize dependent (shapes (detach att st)). intros SH SD.
  rewrite detach_nf. eapply lrc_chg; [exact L|intros r Hr; left; exact (SD r Hr)|apply N.le_refl|left; auto].
Qed.

Lemma shapes_advance cfg bs st r : In r (shapes (advance cfg bs st)) -> In r (shapes st).
Proof.
  unfold shapes. rewrite advance_eq. cbv zeta. xs. rewrite rel_zom_eq. xs.
  rewrite (pop_input_app (d_off bs) (x_input_q st)) at 3. rewrite !map_app, !in_app_iff.
  intros [X|[X|X]]; auto. apply zrel_shape in X. auto.
Qed.

(* advance() moves the parser's bit stream: no parser may be running *)
Lemma lrcS_advance cfg bs st : lrcS st -> nparse st = 0%nat -> (x_parsing_done st = false -> dbs_ok bs = true) ->
  lrcS (advance cfg bs st).
Proof.
  intros L N0 OK. pose proof (shapes_advance cfg bs st) as SA. unfold lrcS. generalize dependent (shapes (advance cfg bs st)). intros SH SA.
  rewrite advance_eq. eapply lrc_chg; [exact L|intros r Hr; left; exact (SA r Hr)|apply N.le_refl|].
  right. split; [apply nparse_zero; exact N0|exact OK].
Qed.

Lemma attach_snd d st o : snd (attach d st) = Some o ->
  exists b, find_blk (d_off d) (x_input_q st) = Some b /\ o = ib_off b.
Proof.
  unfold attach. destruct (_ && _); destruct (d_off d =? x_tail_offs st); cbn [snd]; xs; try discriminate;
    destruct (find_blk (d_off d) (x_input_q st)) as [b|]; cbn [snd]; try discriminate; intros [= <-]; eauto.
Qed.

Lemma aok_attach d st : cg st -> lblk_st st -> x_head_offs st <= d_off d -> d_off d <= x_tail_offs st ->
  aok (shapes st) (x_tail_offs st) (snd (attach d st)) (d_off d).
Proof.
  intros CT LB HD TL. split; [exact TL|]. destruct (snd (attach d st)) as [o|] eqn:A; [|exact I].
  destruct (attach_snd _ _ _ A) as (b & F & ->). unfold cg in CT.
  destruct (find_blk_spec _ _ _ _ CT HD b F) as (Hb & B1 & B2).
  intros r Hr E. unfold shapes in Hr. apply in_app_or in Hr. destruct Hr as [Hr|Hr]; apply in_map_iff in Hr; destruct Hr as (b' & <- & Hb').
  - cbn [bshape fst snd] in *.
    assert (S : bshape b = bshape b').
    { destruct (contig_bounds _ _ _ _ CT Hb) as (_ & _ & P). destruct (contig_bounds _ _ _ _ CT Hb') as (_ & _ & P').
      apply (contig_disjoint _ _ _ CT b b' (ib_off b)); auto; unfold ib_end; lia. }
    unfold bshape in S. inversion S. unfold ib_end in B2. lia.
  - exfalso. cbn [bshape fst] in E. pose proof (zomb_lt _ _ _ _ _ b' b CT LB Hb' Hb). lia.
Qed.

Lemma lrcS_init n tin tout ultra : lrcS (init_state n tin tout ultra).
Proof. constructor; simpl; auto. Qed.

Lemma lrcS_input sz m st st' : lrcS st -> input sz m st = Some st' -> lrcS st'.
Proof.
  intros L H. destruct (input_inv _ _ _ _ H) as (_ & _ & _ & _ & C).
  destruct (x_parsing_done st) eqn:PD; subst st'; [exact L|].
  unfold lrcS, shapes in *. xs. rewrite PD in *.
  eapply lrc_chg; [exact L| |lia|left; auto].
  intros r Hr. rewrite map_app in Hr. rewrite !in_app_iff in *. simpl in Hr.
  destruct Hr as [[X|[<-|[]]]|X]; auto. right. cbn [bshape fst snd ib_off ib_size]. lia.
Qed.

Lemma lrcS_parse0 st st' : inv st -> lin st -> lrcS st -> parse0 st = Some st' -> lrcS st'.
Proof.
  intros IV LI L H. destruct (parse0_inv _ _ H) as (SE & ->). cbv zeta.
  apply selects_ready in SE. cbn [ready] in SE. unfold can_parse in SE.
  assert (PD : x_parsing_done st = false) by (destruct (x_parsing_done st); [discriminate|reflexivity]).
  apply lrcS_attach_run; [exact L|]. split; [exact PD|]. split; [exact (lc_pok _ _ _ _ _ _ L PD)|].
  apply aok_attach; [exact (i_contig _ IV)|exact (proj1 (proj1 (lin_split st) LI))|exact (i_parser _ IV PD)|exact (li_pbs _ LI PD)].
Qed.

Lemma lrcS_retr0 j st st' : inv st -> lin st -> lrcS st -> retr0 j st = Some st' -> lrcS st'.
Proof.
  intros IV LI L H. destruct (retr0_inv _ _ _ H) as (_ & q & TM & ->). cbv zeta.
  apply (take_min_split _ _ _ _ _ rjob_eqb_eq) in TM as (l1 & l2 & E & ->).
  assert (Hj : In j (x_retr_q st)) by (rewrite E; apply in_elt).
  apply lrcS_attach_run; [exact L|]. split.
  - pose proof (i_jobs _ IV) as F. rewrite Forall_forall in F. apply dbs_norm_ok. apply (F j). unfold all_jobs. apply in_or_app; auto.
  - apply aok_attach; [exact (i_contig _ IV)|exact (proj1 (proj1 (lin_split st) LI))| |].
    + pose proof (i_retr _ IV) as F. rewrite Forall_forall in F. exact (F j Hj).
    + pose proof (li_retr _ LI) as F. rewrite Forall_forall in F. exact (F j Hj).
Qed.

Lemma lrcS_scan1 cfg s att found s' more st st' : lrcS st -> scan1 cfg s att found s' more st = Some st' -> lrcS st'.
Proof.
  intros L H. destruct (scan1_inv _ _ _ _ _ _ _ _ H) as (l1 & l2 & E & _ & CASE). clear H. cbv zeta in CASE.
  pose proof (lrcS_detach att _ (proj1 (lrcS_del _ _ _ _ E L))) as L2.
  generalize dependent (detach att (set_running (l1 ++ l2) st)). intros s2 CASE L2.
  destruct CASE as [(_ & ->)|(_ & _ & _ & _ & _ & _ & ->)]; [exact L2|].
  assert (L3 : lrcS (scan1_cand cfg s' s2))
    by (unfold scan1_cand, new_cand; destruct (_ || _); [|destruct (_ && _)]; exact L2).
  unfold scan1_requeue. destruct (_ && _); exact L3.
Qed.

Definition uok (u : unord) : Prop := u_inq u = true -> dbs_ok (u_end u) = true.

Lemma uok_stems u u0 : stems u u0 -> uok u0 -> uok u.
Proof. unfold stems, uok. intros (_ & _ & E3 & E4 & _). rewrite E3, E4. auto. Qed.

Lemma lrcS_parse_finish cfg g s : lrcS s -> nparse s = 0%nat -> lrcS (parse_finish cfg g s).
Proof.
  intros L N0. apply nparse_zero in N0. rewrite parse_finish_eq. cbv zeta. unfold lrcS, shapes in *.
  destruct (_ && _); xs; (eapply lrc_chg; [exact L| |apply N.le_refl|right; split; [exact N0|discriminate]]); [auto|].
  intros r Hr. left. cbn [map app] in Hr. rewrite map_app in Hr. rewrite !in_app_iff in *.
  destruct Hr as [X|X]; [auto|apply zrel_shape in X; auto].
Qed.

Lemma lrcS_parse_ok cfg lv crc s : lrcS s -> nparse s = 0%nat -> Forall uok (x_unords s) -> lrcS (parse_ok cfg lv crc s).
Proof.
  intros L N0 UO. pose proof (parse_ok_cases cfg lv crc s) as PC. cbv zeta in PC.
  destruct PC as [(_ & ->)|(u & Q & _ & ->)]; [exact L|].
  apply qmin_In in Q. unfold unord_q in Q. apply filter_In in Q. destruct Q as [Q1 Q2]. xs in Q1.
  assert (U2 : dbs_ok (u_end u) = true).
  { apply discard_below_spec in Q1. destruct Q1 as (u0 & H0 & [->|[_ ->]]); [|discriminate].
    rewrite Forall_forall in UO. exact (UO u0 H0 Q2). }
  match goal with |- context [advance cfg (u_end u) ?x] => pose proof (lrcS_advance cfg (u_end u) x L N0 (fun _ => U2)) as L3;
    clear - L3; generalize dependent (advance cfg (u_end u) x) end.
  intros s3 L3. destruct (u_complete u); exact L3.
Qed.

Lemma lrcS_parse1 cfg att r st st' : inv st -> lrcS st -> parse1 cfg att r st = Some st' -> lrcS st'.
Proof.
  intros IV L H. destruct (parse1_inv _ _ _ _ _ H) as (l1 & l2 & E & D & G). cbv zeta in G. destruct G as (OK & _ & _ & _ & CASE).
  destruct (inv_del_parse _ _ _ D IV) as (I1 & _ & N1 & _).
  pose proof (lrcS_detach att _ (proj1 (lrcS_del _ _ _ _ E L))) as L2.
  assert (N2 : nparse (detach att (set_running (l1 ++ l2) st)) = 0%nat) by (unfold nparse; rewrite x_running_detach; exact N1).
  assert (U2 : Forall uok (x_unords (detach att (set_running (l1 ++ l2) st)))).
  { rewrite x_unords_detach. eapply Forall_impl; [|apply (i_unord _ I1)]. intros u (O1 & _) Q. apply (O1 Q). }
  clear - OK CASE L2 N2 U2. generalize dependent (detach att (set_running (l1 ++ l2) st)). intros s2 CASE L2 N2 U2.
  pose proof (lrcS_advance cfg (res_bs r) s2 L2 N2 (fun _ => OK)) as L3.
  assert (N3 : nparse (advance cfg (res_bs r) s2) = 0%nat) by (unfold nparse; rewrite x_running_advance; exact N2).
  assert (U3 : Forall uok (x_unords (advance cfg (res_bs r) s2))).
  { rewrite advance_eq. cbv zeta. xs. destruct (c_advance_drops_link cfg); [|exact U2].
    rewrite Forall_forall in *. intros u Hu. destruct (drop_links_stems _ _ _ Hu) as (u0 & H0 & S0). eapply uok_stems; eauto. }
  clear L2 N2 U2. generalize dependent (advance cfg (res_bs r) s2). intros s3 CASE L3 N3 U3.
  destruct r as [bs ps|bs g|bs code|bs ps lv crc].
  - destruct CASE as (_ & _ & ->). exact L3.
  - destruct CASE as (_ & _ & ->). apply lrcS_parse_finish; assumption.
  - destruct CASE as (_ & _ & _ & ->). exact L3.
  - destruct CASE as (_ & ->). apply lrcS_parse_ok; assumption.
Qed.

Lemma lrcS_retr1_tail cfg j rv cur fin sa : rv <> FINISH -> lrcS sa -> lrcS (fin sa) -> lrcS (retr1_tail cfg j rv cur fin sa).
Proof.
  intros NF L F. unfold retr1_tail, drop_if. destruct (rv =? MORE); [|apply lrcS_add; [exact F|exact NF]].
  destruct (_ && _); [destruct (c_stale_drops_link cfg)|]; exact L.
Qed.

Lemma lrcS_retr1 cfg j att rv cur st st' : inv st -> lrcS st -> retr1 cfg j att rv cur st = Some st' -> lrcS st'.
Proof.
  intros IV L H. destruct (retr1_inv _ _ _ _ _ _ _ H) as (l1 & l2 & E & D & OK & _ & _ & _ & NF & _ & CASE).
  destruct (inv_del_retr _ _ _ _ D IV) as (_ & _ & _ & EX & _).
  pose proof (lrcS_detach att _ (proj1 (lrcS_del _ _ _ _ E L))) as L2.
  assert (EX2 : jm (x_unords (detach att (set_running (l1 ++ l2) st))) j = true -> nparse (detach att (set_running (l1 ++ l2) st)) = 0%nat).
  { unfold nparse in *. rewrite x_running_detach, x_unords_detach. intro JM. rewrite JM in EX. cbn [b2n] in EX. lia. }
  clear - OK NF CASE L2 EX2. generalize dependent (detach att (set_running (l1 ++ l2) st)). intros s2 CASE L2 EX2.
  destruct CASE as [_ ->|u _ _ _ _ ->|_ M ->|id _ _ _ ->]; unfold drop_if.
  - destruct (c_retr_done_drops_link cfg); exact L2.
  - destruct (c_retr_abort_drops_link cfg); exact L2.
  - assert (JM : jm (x_unords s2) j = true)
      by (destruct M as [M|(u & LS & UC & UL)]; [unfold jm; rewrite M; reflexivity|eapply jm_of_link_state; eauto]).
    pose proof (lrcS_advance cfg cur s2 L2 (EX2 JM) (fun _ => OK)) as L3. clear - NF L3. generalize dependent (advance cfg cur s2). intros s3 L3.
    apply lrcS_retr1_tail; [exact NF|exact L3|]. unfold fin_master. destruct (r_link j); exact L3.
  - apply lrcS_retr1_tail; [exact NF|exact L2|exact L2].
Qed.

Lemma lrun'_init n tin tout ultra : lrun' (init_state n tin tout ultra).
Proof. constructor; [apply lrcS_init|]. simpl. intros c o []. Qed.

Lemma lrun_init n tin tout ultra : lrun (init_state n tin tout ultra).
Proof. apply lrun'_lrun, lrun'_init. Qed.

Theorem lrcS_step cfg st e st' : inv st -> lin st -> lrcS st -> step cfg st e = Some st' -> lrcS st'.
Proof.
  intros IV LI L H. unfold step in H. destruct (x_failed st); [discriminate|]. destruct e.
  - eapply lrcS_input; eauto.
  - destruct (reader_eof_inv _ _ H) as (_ & ->). exact L.
  - destruct (written_inv _ _ H) as (_ & ->). exact L.
  - eapply lrcS_parse0; eauto.
  - eapply lrcS_parse1; eauto.
  - eapply lrcS_retr0; eauto.
  - eapply lrcS_retr1; eauto.
  - destruct (retr2_inv _ _ _ H) as (l1 & l2 & E & _ & ->). destruct (lrcS_del _ _ _ _ E L) as (L1 & K).
    apply lrcS_emitq; [exact L1|]. constructor; [exact K|exact (lc_emit _ _ _ _ _ _ L)].
  - destruct (emit0_inv _ _ H) as (_ & e & l1 & l2 & _ & E & ->).
    pose proof (lc_emit _ _ _ _ _ _ L) as FE. rewrite E in FE. apply Forall_app in FE. destruct FE as [F1 F2]. inversion F2; subst.
    apply lrcS_add; [|assumption]. apply lrcS_emitq; [exact L|]. apply Forall_app. auto.
  - destruct (emit1_inv _ _ _ _ _ _ _ H) as (l1 & l2 & E & _ & _ & _ & C). cbv zeta in C.
    destruct (lrcS_del _ _ _ _ E L) as (L1 & K). destruct (rv =? MORE); subst st'; [|exact L1].
    apply (lrcS_emitq _ _ L1). constructor; [exact K|exact (lc_emit _ _ _ _ _ _ L)].
  - destruct (reorder_inv _ _ H) as (_ & o & l1 & l2 & _ & _ & [_ ->|? ? _ _ _ ->|? ? _ _ _ _ ->|? ? _ _ _ _ ->]); exact L.
  - destruct (scan0_inv _ _ H) as (_ & s & l1 & l2 & _ & _ & ->). apply lrcS_attach_run; [exact L|exact I].
  - eapply lrcS_scan1; eauto.
Qed.

Theorem lrun'_step_min cfg st e st' : inv st -> lin st -> lrun' st -> step cfg st e = Some st' -> lrun' st'.
Proof.
  intros IV LI [L _] H. constructor; [eapply lrcS_step; eauto|].
  apply (li_att _ (lin_step_min cfg st e st' IV LI H)).
Qed.

Theorem lrun'_step cfg st e st' :
  cfg_safe cfg -> inv st -> sown st -> lin st -> x_failed st' = None -> lrun' st -> step cfg st e = Some st' -> lrun' st'.
Proof. intros _ IV _ LI _. apply lrun'_step_min; auto. Qed.

(* [lrun] alone is not inductive (it says nothing about emit_q, from which emit0 creates CEmit continuations,
   nor about the parser's bit stream, from which parse0 creates CParse): the step theorem for [lrun]
   starts from the strengthened invariant *)
Theorem lrun_step cfg st e st' :
  cfg_safe cfg -> inv st -> sown st -> lin st -> x_failed st' = None -> lrun' st -> step cfg st e = Some st' -> lrun st'.
Proof. intros CS IV SO LI NF L H. apply lrun'_lrun. eapply lrun'_step; eauto. Qed.

Theorem lrun'_reach cfg n tin tout ultra st : cfg_safe cfg -> reach cfg (init_state n tin tout ultra) st -> lrun' st.
Proof.
  intros CS R. induction R as [|st e st' R IH H]; [apply lrun'_init|].
  destruct (sown_reach _ _ _ _ _ _ CS R) as [IV _]. eapply lrun'_step_min; eauto. eapply lin_reach; eauto.
Qed.

Theorem lrun_reach cfg n tin tout ultra st : cfg_safe cfg -> reach cfg (init_state n tin tout ultra) st -> lrun st.
Proof. intros CS R. apply lrun'_lrun. eapply lrun'_reach; eauto. Qed.

Lemma del_run_in c st : In c (x_running st) -> exists l, del_run c st = Some (set_running l st).
Proof.
  intro H. destruct (In_remove_one_some cont_eqb cont_eqb_refl c _ H) as [l E]. exists l. unfold del_run. rewrite E. reflexivity.
Qed.

Lemma att_end_running att l st : att_end att (set_running l st) = att_end att st.
Proof. unfold att_end. xs. reflexivity. Qed.

Theorem running_returns cfg st c : x_failed st = None -> lrun st -> In c (x_running st) ->
  exists e st', step cfg st e = Some st' /\ productive st e = true.
Proof.
  intros NF L Hc. unfold lrun in L. rewrite Forall_forall in L. specialize (L c Hc).
  destruct (del_run_in c st Hc) as [l D].
  destruct c as [att|j att|e|e|s att]; cbn [cont_ok] in L.
  - (* parse: report an error *)
    destruct L as (PD & DK & LE). apply N.leb_le in LE.
    exists (EvParse1 att (PErr (x_parser_bs st) E_ERR_MAGIC)). unfold step. rewrite NF. unfold parse1. rewrite D.
    cbn [res_bs]. rewrite att_end_running. xs. rewrite DK, !N.leb_refl, LE. eexists. split; reflexivity.
  - (* retrieve: report an error *)
    destruct L as (DK & LE). apply N.leb_le in LE.
    exists (EvRetr1 j att E_ERR_BITMAP (r_cur j)). unfold step. rewrite NF. unfold retr1. rewrite D.
    rewrite att_end_running, DK, !N.leb_refl, LE. cbv zeta.
    change (E_ERR_BITMAP =? MORE) with false. change (E_ERR_BITMAP =? FINISH) with false. cbn [andb negb]. cbv iota.
    generalize (detach att (set_running l st)). intro s2.
    destruct (x_parsing_done s2); [eexists; split; reflexivity|].
    match goal with |- context [if ?c then _ else _] => destruct c end; eexists; split; reflexivity.
  - exists (EvRetr2 e). unfold step. rewrite NF. unfold retr2. rewrite D. eexists. split; reflexivity.
  - exists (EvEmit1 e (e_status e) 0 0 0). unfold step. rewrite NF. unfold emit1. rewrite D.
    rewrite N.eqb_refl, orb_true_r, (proj2 (N.eqb_neq _ _) L).
    cbn [andb negb]. destruct (e_status e =? MORE); eexists; split; reflexivity.
  - exists (EvScan1 s att false s false). unfold step. rewrite NF. unfold scan1. rewrite D.
    cbn [negb orb]. eexists. split; reflexivity.
Qed.

Corollary running_returns' cfg st c : x_failed st = None -> lrun' st -> In c (x_running st) ->
  exists e st', step cfg st e = Some st' /\ productive st e = true.
Proof. intros NF L. apply running_returns; auto. apply lrun'_lrun; auto. Qed.

Print Assumptions lrun_init.
Print Assumptions lrun_step.
Print Assumptions lrun'_lrun.
Print Assumptions lrun'_step.
Print Assumptions lrun'_reach.
Print Assumptions running_returns.
