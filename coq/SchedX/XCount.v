(* C11 (decompression part): conservation of work units, output slots and input slots.
   Every event moves a unit or a slot between the free count and one of the places that hold it
   (a queue, a running task, the writer); [bal] states the balance with the running task that is
   in the middle of a locked segment counted as a deficit. *)
From Coq Require Import List NArith Bool Lia Arith ZifyBool ZifyN ZifyNat.
From LBZ Require Import Gen.Consts SchedX.XState Gen.SchedXTab SchedX.XSet SchedX.XModel SchedX.XLemmas
  SchedX.XFrame SchedX.XInvDefs SchedX.XOps.
Import ListNotations.
Local Open Scope N_scope.

Definition is_emit (c : cont) : bool := match c with CEmit _ => true | _ => false end.
Definition nemit (st : xstate) : nat := length (filter is_emit (x_running st)).

Definition units_held (st : xstate) : N :=
  N.of_nat (length (x_retr_q st) + length (x_emit_q st) + length (x_running st)).
Definition slots_held (st : xstate) : N :=
  N.of_nat (length (x_reord_q st) + nemit st) + x_outq st.
Definition in_held (st : xstate) : N :=
  N.of_nat (length (x_input_q st) + length (x_zombies st)).

Record cnt (st : xstate) : Prop := mkcnt {
  k_units : x_failed st = None -> x_work_units st + units_held st = x_num_worker st;
  k_slots : x_failed st = None -> x_out_slots st + slots_held st = x_total_out st;
  k_in : x_failed st = None -> x_in_slots st + in_held st = x_total_in st
}.

Lemma cnt_init n tin tout ultra : cnt (init_state n tin tout ultra).
Proof. constructor; unfold units_held, slots_held, in_held, nemit; simpl; lia. Qed.

(* [du] work units and [ds] output slots are in the hands of the running segment *)
Definition bal (du ds : N) (st : xstate) : Prop :=
  x_work_units st + units_held st + du = x_num_worker st /\
  x_out_slots st + slots_held st + ds = x_total_out st /\
  x_in_slots st + in_held st = x_total_in st.

Lemma filter_split_len {A} (p : A -> bool) l :
  (length (filter p l) + length (filter (fun x => negb (p x)) l) = length l)%nat.
Proof. induction l as [|a r IH]; simpl; auto. destruct (p a); simpl; lia. Qed.

(* the operations on input blocks move slots between in_slots, input_q and zombies *)
Lemma zrel_count l : nfree l + N.of_nat (length (zrel l)) = N.of_nat (length l).
Proof.
  unfold zrel. induction l as [|b r IH]; cbn [nfree fold_right filter]; [reflexivity|].
  fold (nfree r). destruct (ib_ref b =? 1); cbn [negb map length]; lia.
Qed.

Lemma pop_input_len lim q : (length (fst (pop_input lim q)) + length (snd (pop_input lim q)) = length q)%nat.
Proof.
  induction q as [|b r IH]; simpl; auto. destruct (ib_end b <=? lim); simpl; auto.
  destruct (pop_input lim r); simpl in *. lia.
Qed.

Lemma adv_retr_len fuel hd q : (length (fst (adv_retr fuel hd q)) + length (snd (adv_retr fuel hd q)) = length q)%nat.
Proof.
  revert q. induction fuel as [|f IH]; intro q; simpl; auto.
  destruct (qmin rkey pos_lt q) as [j|]; simpl; auto. destruct (d_off (r_cur j) <? hd); simpl; auto.
  destruct (remove_one rjob_eqb j q) as [q'|] eqn:R; simpl; auto.
  specialize (IH q'). destruct (adv_retr f hd q'); simpl in *. rewrite (remove_one_length _ rjob_eqb_eq _ _ _ R). lia.
Qed.

Lemma bal_attach du ds d st : bal du ds st -> bal du ds (fst (attach d st)).
Proof.
  unfold bal, units_held, slots_held, in_held, nemit. rewrite attach_nf. xs.
  replace (length (attach_inq d st)) with (length (x_input_q st)); [auto|].
  unfold attach_inq, attach, upd_ref. destruct (_ && _); destruct (d_off d =? x_tail_offs st); cbn [fst]; xs; auto;
    destruct (find_blk _ _); cbn [fst]; xs; rewrite ?map_length; reflexivity.
Qed.

Lemma bal_detach du ds a st : bal du ds st -> bal du ds (detach a st).
Proof.
  unfold bal, units_held, slots_held, in_held, nemit. rewrite detach_nf. xs.
  enough (detach_ins a st + N.of_nat (length (detach_inq a st) + length (detach_zom a st)) =
          x_in_slots st + N.of_nat (length (x_input_q st) + length (x_zombies st))) as -> by auto.
  unfold detach_ins, detach_inq, detach_zom, detach, upd_ref. destruct a as [o|]; [|reflexivity].
  destruct (has_blk o (x_input_q st)); xs; rewrite ?map_length; [reflexivity|].
  pose proof (filter_split_len (fun b => ib_ref b =? 0) (map (fun b => if ib_off b =? o then set_ref (N.pred (ib_ref b)) b else b) (x_zombies st))) as F.
  rewrite map_length in F. lia.
Qed.

Lemma bal_advance du ds cfg bs st : bal du ds st -> bal du ds (advance cfg bs st).
Proof.
  unfold bal, units_held, slots_held, in_held, nemit. rewrite advance_eq. xs. rewrite rel_zom_eq, rel_ins_eq. xs.
  pose proof (adv_retr_len (length (x_retr_q st)) (x_head_offs st + sum_sizes (fst (pop_input (d_off bs) (x_input_q st)))) (x_retr_q st)).
  pose proof (pop_input_len (d_off bs) (x_input_q st)). pose proof (zrel_count (fst (pop_input (d_off bs) (x_input_q st)))).
  rewrite app_length. lia.
Qed.

(* a continuation leaves the running set: its unit (and slot, for an emit task) pass to the segment *)
Lemma bal_del c l1 l2 du ds st : x_running st = l1 ++ c :: l2 -> bal du ds st ->
  bal (du + 1) (ds + if is_emit c then 1 else 0) (set_running (l1 ++ l2) st).
Proof.
  unfold bal, units_held, slots_held, in_held, nemit. xs. intros ->.
  rewrite !filter_app, !app_length. cbn [filter length]. destruct (is_emit c); cbn [length]; lia.
Qed.

(* closes [bal _ _ st'] when [st'] is [st] under setters and the hypotheses give the balance of [st] *)
Ltac btac := unfold bal, units_held, slots_held, in_held, nemit, add_run, give_unit, fail in *; xs;
  cbn [length filter is_emit] in *; rewrite ?app_length in *; cbn [length] in *; lia.

(* the first segment of a parse, retrieve or scan task ends here *)
Lemma bal_run c d s0 : is_emit c = false -> bal 1 0 s0 -> bal 0 0 (add_run c (fst (attach d s0))).
Proof.
  intros E B. apply (bal_attach _ _ d) in B. revert B. generalize (fst (attach d s0)). intros s1 B. btac.
Qed.

Lemma bal_retr1_tail cfg j rv cur fin sa :
  bal 1 0 sa -> bal 1 0 (fin sa) -> bal 0 0 (retr1_tail cfg j rv cur fin sa).
Proof.
  intros B F. unfold retr1_tail, drop_if. revert F. generalize (fin sa). intros sf F.
  destruct (rv =? MORE); [destruct (_ && _); [destruct (c_stale_drops_link cfg)|]|]; btac.
Qed.

Lemma bal_parse_finish cfg g s : bal 1 0 s -> x_failed (parse_finish cfg g s) = None -> bal 0 0 (parse_finish cfg g s).
Proof.
  intro B. rewrite parse_finish_eq. cbv zeta. destruct (_ && _); [discriminate|]. intros _.
  pose proof (zrel_count (x_input_q s)). btac.
Qed.

Lemma bal_parse_ok cfg lv crc s : bal 1 0 s -> bal 0 0 (parse_ok cfg lv crc s).
Proof.
  intro B. destruct (parse_ok_cases cfg lv crc s) as [[_ ->]|(u & _ & _ & ->)]; cbv zeta; [btac|].
  match goal with |- context [advance cfg (u_end u) ?x] => assert (B2 : bal 1 0 x) by btac; apply (bal_advance _ _ cfg (u_end u)) in B2;
    revert B2; generalize (advance cfg (u_end u) x); intros s3 B2 end.
  clear B. destruct (u_complete u); btac.
Qed.

Lemma cnt_bal st : x_failed st = None -> cnt st -> bal 0 0 st.
Proof. intros F [A B C]. unfold bal. rewrite !N.add_0_r. auto. Qed.

Lemma cnt_step cfg st e st' : cnt st -> step cfg st e = Some st' -> cnt st'.
Proof.
  intros K H. unfold step in H. destruct (x_failed st) eqn:NF; [discriminate|]. apply (cnt_bal _ NF) in K.
  enough (G : x_failed st' = None -> bal 0 0 st')
    by (constructor; intro F; destruct (G F) as (A & B & C); rewrite ?N.add_0_r in A, B; assumption).
  clear NF. destruct e.
  - apply input_inv in H. destruct H as (_ & G & _ & _ & H). destruct (x_parsing_done st); subst st'; intros _; [exact K|btac].
  - apply reader_eof_inv in H. destruct H as [_ ->]. intros _. btac.
  - apply written_inv in H. destruct H as [G ->]. intros _. btac.
  - apply parse0_inv in H. destruct H as [S ->]. cbv zeta. intros _.
    apply selects_ready in S. cbn [ready] in S. unfold can_parse in S. apply bal_run; [reflexivity|btac].
  - apply parse1_inv in H. destruct H as (l1 & l2 & E & _ & H). cbv zeta in H. destruct H as (_ & _ & _ & _ & H).
    apply (bal_del _ _ _ _ _ _ E), (bal_detach _ _ att), (bal_advance _ _ cfg (res_bs r)) in K. cbn [is_emit] in K.
    clear E. generalize dependent (advance cfg (res_bs r) (detach att (set_running (l1 ++ l2) st))). intros s3 K H.
    destruct r; [destruct H as (_ & _ & ->)|destruct H as (_ & _ & ->)|destruct H as (_ & _ & _ & ->)|destruct H as (_ & ->)].
    + intros _. btac.
    + apply bal_parse_finish. exact K.
    + discriminate.
    + intros _. apply bal_parse_ok. btac.
  - apply retr0_inv in H. destruct H as (_ & q & T & ->). cbv zeta. intros _.
    apply take_min_split in T; [|exact rjob_eqb_eq]. destruct T as (l1 & l2 & E & ->).
    unfold bal, units_held in K. rewrite E in K. apply bal_run; [reflexivity|btac].
  - apply retr1_inv in H. destruct H as (l1 & l2 & E & _ & _ & _ & _ & _ & _ & _ & H).
    apply (bal_del _ _ _ _ _ _ E), (bal_detach _ _ att) in K. cbn [is_emit] in K.
    clear E. generalize dependent (detach att (set_running (l1 ++ l2) st)). intros s2 K H _.
    destruct H as [_ ->|u _ _ _ _ ->|_ _ ->|id _ _ _ ->]; unfold drop_if.
    + destruct (c_retr_done_drops_link cfg); btac.
    + destruct (c_retr_abort_drops_link cfg); btac.
    + apply (bal_advance _ _ cfg cur) in K. generalize dependent (advance cfg cur s2). intros sa K.
      apply bal_retr1_tail; [exact K|]. unfold fin_master. destruct (r_link j); btac.
    + apply bal_retr1_tail; unfold fin_spec; btac.
  - apply retr2_inv in H. destruct H as (l1 & l2 & E & _ & ->). intros _.
    apply (bal_del _ _ _ _ _ _ E) in K. cbn [is_emit] in K. set (s1 := set_running _ _) in *.
    change (x_emit_q st) with (x_emit_q s1). clearbody s1. btac.
  - apply emit0_inv in H. destruct H as (S & e & l1 & l2 & _ & E & ->). intros _.
    apply selects_ready in S. cbn [ready] in S. unfold can_emit, EMIT_THRESH in S. unfold bal, units_held in K. rewrite E in K. btac.
  - apply emit1_inv in H. destruct H as (l1 & l2 & E & _ & _ & _ & H). cbv zeta in H. intros _.
    apply (bal_del _ _ _ _ _ _ E) in K. cbn [is_emit] in K. set (s1 := set_running _ _) in *.
    change (x_emit_q st) with (x_emit_q s1) in H. change (x_reord_q st) with (x_reord_q s1) in H. clearbody s1.
    destruct (rv =? MORE); subst st'; btac.
  - apply reorder_inv in H. destruct H as (_ & o & l1 & l2 & _ & E & H).
    assert (B : bal 0 1 (set_reord_q (l1 ++ l2) st)) by (unfold bal, slots_held in K; rewrite E in K; btac).
    set (s1 := set_reord_q _ _) in *. clearbody s1. clear K E.
    destruct H as [_ ->|ord rest _ _ _ ->|ord rest _ _ _ _ ->|ord rest _ _ _ _ ->]; unfold ro_hand, ro_offs;
      [intros _; btac..|discriminate].
  - apply scan0_inv in H. destruct H as (S & s & l1 & l2 & _ & E & ->). cbv zeta. intros _.
    apply selects_ready in S. cbn [ready] in S. unfold can_scan, SCAN_THRESH in S. apply bal_run; [reflexivity|btac].
  - apply scan1_inv in H. destruct H as (l1 & l2 & E & _ & H). cbv zeta in H. intros _.
    apply (bal_del _ _ _ _ _ _ E), (bal_detach _ _ att) in K. cbn [is_emit] in K.
    clear E. generalize dependent (detach att (set_running (l1 ++ l2) st)). intros s2 K H.
    destruct H as [[_ ->]|(_ & _ & _ & _ & _ & _ & ->)]; [btac|].
    assert (B : bal 0 0 (scan1_cand cfg s' s2))
      by (unfold scan1_cand, new_cand; destruct (_ || _); [|destruct (_ && _)]; btac).
    clear K. revert B. generalize (scan1_cand cfg s' s2). intros s3 B.
    unfold scan1_requeue. destruct (_ && _); [btac|exact B].
Qed.

(* the configuration constants never change *)
Definition consts (st : xstate) := (x_num_worker st, x_total_in st, x_total_out st).

(* no setter writes them, so [consts (setters s) = consts s] holds by conversion; the operations
   that branch are covered by their normal forms *)
Lemma consts_attach d s : consts (fst (attach d s)) = consts s.
Proof. rewrite attach_nf. reflexivity. Qed.
Lemma consts_detach a s : consts (detach a s) = consts s.
Proof. rewrite detach_nf. reflexivity. Qed.
Lemma consts_advance cfg bs s : consts (advance cfg bs s) = consts s.
Proof. rewrite advance_eq. reflexivity. Qed.

Lemma consts_parse_finish cfg g s : consts (parse_finish cfg g s) = consts s.
Proof. rewrite parse_finish_eq. cbv zeta. destruct (_ && _); reflexivity. Qed.

Lemma consts_parse_ok cfg a b s : consts (parse_ok cfg a b s) = consts s.
Proof.
  destruct (parse_ok_cases cfg a b s) as [[_ ->]|(u & _ & _ & ->)]; cbv zeta; [reflexivity|].
  match goal with |- context [advance cfg ?b ?x] => pose proof (consts_advance cfg b x) as E; revert E; generalize (advance cfg b x); intros s3 E end.
  destruct (u_complete u); exact E.
Qed.

Lemma consts_retr1_tail cfg j rv cur fin sa : consts (fin sa) = consts sa -> consts (retr1_tail cfg j rv cur fin sa) = consts sa.
Proof.
  intro F. unfold retr1_tail, drop_if. revert F. generalize (fin sa). intros sf F.
  destruct (rv =? MORE); [destruct (_ && _); [destruct (c_stale_drops_link cfg)|]|]; try exact F; reflexivity.
Qed.

Lemma consts_step cfg st e st' : step cfg st e = Some st' -> consts st' = consts st.
Proof.
  unfold step. destruct (x_failed st); [discriminate|]. destruct e; intro H.
  - apply input_inv in H. destruct H as (_ & _ & _ & _ & H). destruct (x_parsing_done st); subst st'; reflexivity.
  - apply reader_eof_inv in H. destruct H as [_ ->]. reflexivity.
  - apply written_inv in H. destruct H as [_ ->]. reflexivity.
  - apply parse0_inv in H. destruct H as [_ ->]. exact (consts_attach _ _).
  - apply parse1_inv in H. destruct H as (l1 & l2 & _ & _ & H). cbv zeta in H. destruct H as (_ & _ & _ & _ & H).
    match type of H with context [advance cfg ?b (detach ?a ?s)] =>
      assert (E : consts (advance cfg b (detach a s)) = consts st) by (rewrite consts_advance; exact (consts_detach a s));
      revert H E; generalize (advance cfg b (detach a s)); intros s3 H E end.
    rewrite <- E.
    destruct r; [destruct H as (_ & _ & ->)|destruct H as (_ & _ & ->)|destruct H as (_ & _ & _ & ->)|destruct H as (_ & ->)].
    + reflexivity.
    + apply consts_parse_finish.
    + reflexivity.
    + rewrite consts_parse_ok. reflexivity.
  - apply retr0_inv in H. destruct H as (_ & q & _ & ->). exact (consts_attach _ _).
  - apply retr1_inv in H. destruct H as (l1 & l2 & _ & _ & _ & _ & _ & _ & _ & _ & H).
    match type of H with retr1_case _ _ _ _ (detach ?a ?s) _ => pose proof (consts_detach a s : _ = consts st) as E;
      revert H E; generalize (detach a s); intros s2 H E end.
    rewrite <- E.
    destruct H as [_ ->|u _ _ _ _ ->|_ _ ->|id _ _ _ ->]; unfold drop_if.
    + destruct (c_retr_done_drops_link cfg); reflexivity.
    + destruct (c_retr_abort_drops_link cfg); reflexivity.
    + rewrite consts_retr1_tail; [apply consts_advance|]. unfold fin_master. destruct (r_link j); reflexivity.
    + rewrite consts_retr1_tail; reflexivity.
  - apply retr2_inv in H. destruct H as (l1 & l2 & _ & _ & ->). reflexivity.
  - apply emit0_inv in H. destruct H as (_ & e & l1 & l2 & _ & _ & ->). reflexivity.
  - apply emit1_inv in H. destruct H as (l1 & l2 & _ & _ & _ & _ & H). cbv zeta in H. destruct (rv =? MORE); subst st'; reflexivity.
  - apply reorder_inv in H. destruct H as (_ & o & l1 & l2 & _ & _ & H).
    destruct H as [_ ->|ord rest _ _ _ ->|ord rest _ _ _ _ ->|ord rest _ _ _ _ ->]; reflexivity.
  - apply scan0_inv in H. destruct H as (_ & s & l1 & l2 & _ & _ & ->). exact (consts_attach _ _).
  - apply scan1_inv in H. destruct H as (l1 & l2 & _ & _ & H). cbv zeta in H.
    match type of H with context [give_unit (detach ?a ?s)] => pose proof (consts_detach a s : _ = consts st) as E;
      revert H E; generalize (detach a s); intros s2 H E end.
    rewrite <- E. destruct H as [[_ ->]|(_ & _ & _ & _ & _ & _ & ->)]; [reflexivity|].
    unfold scan1_requeue, scan1_cand, new_cand. ftac.
Qed.
