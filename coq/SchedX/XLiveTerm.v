(* Termination of the decompression scheduler model (expand.c on process.c): every event of a
   run that is not a stutter strictly decreases a lexicographic measure (style of SchedC/SchedCTerm.v).
   Together with deadlock freedom (XLive.v, progress_sreach) this gives: every maximal run is finite
   up to stuttering and ends in a final or failed state.

   The labels of the model are unconstrained and the input is supplied by EvInput events, so the
   statement needs label hypotheses ([ev_term]):
     T  total length of the input (32-bit words): the reader never delivers more than T words;
     a parse() call that returns MORE has consumed at least one bit (parse() reads 16 bits at a time and returns
        MORE only after it has used up what it had; at the end of the input a call may return MORE once more
        after consuming buffered bits without reaching a new word - observed on traces of truncated files);
     K  emit() of one block returns MORE fewer than K times (snd base = number of buffers produced).
   besides [ev_prog] (a confirmed block starts >= 32 bits after the previous one) and [ev_scan_prog]
   (a scan that finds a magic stops strictly after its start), the hypotheses of [sreach].

   Measure (most significant first), all components in N:
     0 fail    1 while not failed                                failf() ends the run
     1 input   (eof ? 0 : 1) + (T - tail_offs)                   EvInput, EvEof
     2 parse   parsing_done ? 0 : 1 + (32 T - x_next)            PFinish, POk
     3 scan    sum over scan jobs (queued, running) of (32 T - bit) + 1
     4 retr    sum over retrieve jobs (queued, running) of (T - offset) + 1
     5 pbs     32 T - bit position of the parser                  PMore
     6 emit    sum over emit-stage jobs of (K - snd base) + 1
     7 buf     2 |reord_q| + outq                                reorder, written
     8 noise   first segments (token/queue -> running), retr2 (running -> emit_q)
   advance() and parse_finish only remove queued scan / retrieve jobs, so components 3 and 4 never
   grow there ([msame]: what the measure sees of the states inside a second segment).  Only [inv]
   (parser exclusion), [lin] (an attached block ends at or before tail_offs) and tail_offs <= T
   are needed of the run. *)
From Coq Require Import List NArith Bool Lia Arith ZifyBool ZifyN ZifyNat Wellfounded.
From LBZ Require Import Gen.Consts SchedX.XState Gen.SchedXTab SchedX.XSet SchedX.XModel SchedX.XLemmas
  SchedX.XFrame SchedX.XStep SchedX.XInvDefs SchedX.XInv SchedX.XInv4 SchedX.XOwn SchedX.XOwnProofs
  SchedX.XLiveDefs SchedX.XLiveIn SchedX.XLiveRes SchedX.XLive.
Import ListNotations.
Local Open Scope N_scope.

Definition ev_term (T K : N) (st : xstate) (e : event) : Prop :=
  match e with
  | EvInput sz _ => x_tail_offs st + sz <= T
  | EvParse1 _ (PMore bs _) => d_bit (x_parser_bs st) < d_bit bs
  | EvEmit1 e rv _ _ _ => rv = MORE -> snd (e_base e) < K
  | _ => True
  end.

Inductive treach (T K : N) (cfg : xcfg) (s0 : xstate) : xstate -> Prop :=
| treach_init : treach T K cfg s0 s0
| treach_step st e st' : treach T K cfg s0 st -> ev_prog st e -> ev_scan_prog e -> ev_term T K st e ->
                         step cfg st e = Some st' -> treach T K cfg s0 st'.

Lemma treach_sreach T K cfg s0 st : treach T K cfg s0 st -> sreach cfg s0 st.
Proof. induction 1; [constructor|econstructor; eauto]. Qed.

Definition lexp {A} (ltA : A -> A -> Prop) (x y : N * A) : Prop :=
  fst x < fst y \/ (fst x = fst y /\ ltA (snd x) (snd y)).

Lemma lexp_wf {A} (ltA : A -> A -> Prop) : well_founded ltA -> well_founded (lexp ltA).
Proof.
  intro W. assert (G : forall a r, Acc (lexp ltA) (a, r)).
  { intro a. induction a as [a IHa] using (well_founded_induction N.lt_wf_0).
    intro r. induction r as [r IHr] using (well_founded_induction W).
    constructor. intros [a' r'] [H|[H1 H2]]; simpl in *.
    - apply IHa. exact H.
    - subst a'. apply IHr. exact H2. }
  intros [a r]. apply G.
Qed.

Lemma lexp_lt {A} (ltA : A -> A -> Prop) a a' r r' : a' < a -> lexp ltA (a', r') (a, r).
Proof. intro H. left. exact H. Qed.

Lemma lexp_le {A} (ltA : A -> A -> Prop) a a' r r' : a' <= a -> (a' = a -> ltA r' r) -> lexp ltA (a', r') (a, r).
Proof.
  intros H K. destruct (N.eq_dec a' a) as [E|NE]; [right; simpl; auto|left; simpl; lia].
Qed.

Definition mtype : Type := (N * (N * (N * (N * (N * (N * (N * (N * N))))))))%type.
Definition mlt : mtype -> mtype -> Prop :=
  lexp (lexp (lexp (lexp (lexp (lexp (lexp (lexp N.lt))))))).

Theorem mlt_wf : well_founded mlt.
Proof. unfold mlt. repeat apply lexp_wf. exact N.lt_wf_0. Qed.

Fixpoint sumN {A} (f : A -> N) (l : list A) : N :=
  match l with [] => 0 | x :: r => f x + sumN f r end.

Lemma sumN_app {A} (f : A -> N) a b : sumN f (a ++ b) = sumN f a + sumN f b.
Proof. induction a as [|x a IH]; simpl; [reflexivity|]. rewrite IH. lia. Qed.

Lemma sumN_mid {A} (f : A -> N) l1 x l2 : sumN f (l1 ++ x :: l2) = f x + sumN f (l1 ++ l2).
Proof. rewrite !sumN_app. simpl. lia. Qed.

Lemma adv_retr_le (f : rjob -> N) fuel hd q : sumN f (snd (adv_retr fuel hd q)) <= sumN f q.
Proof.
  revert q; induction fuel as [|n IH]; intro q; simpl; [lia|].
  destruct (qmin rkey pos_lt q) as [m|]; simpl; [|lia].
  destruct (d_off (r_cur m) <? hd); simpl; [|lia].
  destruct (remove_one rjob_eqb m q) as [q'|] eqn:R; simpl; [|lia].
  destruct (remove_one_split _ rjob_eqb_eq _ _ _ R) as (l1 & l2 & -> & ->).
  specialize (IH (l1 ++ l2)). destruct (adv_retr n hd (l1 ++ l2)) as [d k]. simpl in *.
  rewrite sumN_mid. lia.
Qed.

Lemma adv_scan_le (f : dbs -> N) fuel hd q : sumN f (adv_scan fuel hd q) <= sumN f q.
Proof.
  revert q; induction fuel as [|n IH]; intro q; simpl; [lia|].
  destruct (qmin d_pos pos_lt q) as [m|]; simpl; [|lia].
  destruct (d_off m <? hd); simpl; [|lia].
  destruct (remove_one dbs_eqb m q) as [q'|] eqn:R; simpl; [|lia].
  destruct (remove_one_split _ dbs_eqb_eq _ _ _ R) as (l1 & l2 & -> & ->).
  specialize (IH (l1 ++ l2)). rewrite sumN_mid. lia.
Qed.

Definition wscan (T : N) (s : dbs) : N := (32 * T - d_bit s) + 1.
Definition wretr (T : N) (j : rjob) : N := (T - d_off (r_cur j)) + 1.
Definition wemit (K : N) (e : ejob) : N := (K - snd (e_base e)) + 1.
Definition cscan (T : N) (c : cont) : N := match c with CScan s _ => wscan T s | _ => 0 end.
Definition cretr (T : N) (c : cont) : N := match c with CRetr j _ => wretr T j | _ => 0 end.
Definition cemit (K : N) (c : cont) : N := match c with CRetr2 e | CEmit e => wemit K e | _ => 0 end.
Definition wrun (c : cont) : N := match c with CRetr2 _ => 3 | _ => 1 end.
Definition len {A} (l : list A) : N := sumN (fun _ => 1) l.

Definition c_fail (st : xstate) : N := match x_failed st with None => 1 | Some _ => 0 end.
Definition c_in (T : N) (st : xstate) : N := (if x_eof st then 0 else 1) + (T - x_tail_offs st).
Definition c_parse (T : N) (st : xstate) : N := if x_parsing_done st then 0 else 1 + (32 * T - x_next st).
Definition c_scan (T : N) (st : xstate) : N := sumN (wscan T) (x_scan_q st) + sumN (cscan T) (x_running st).
Definition c_retr (T : N) (st : xstate) : N := sumN (wretr T) (x_retr_q st) + sumN (cretr T) (x_running st).
Definition c_pbs (T : N) (st : xstate) : N := 32 * T - d_bit (x_parser_bs st).
Definition c_emit (K : N) (st : xstate) : N := sumN (wemit K) (x_emit_q st) + sumN (cemit K) (x_running st).
Definition c_buf (st : xstate) : N := 2 * len (x_reord_q st) + x_outq st.
Definition c_noise (st : xstate) : N :=
  2 * (len (x_retr_q st) + len (x_emit_q st) + len (x_scan_q st)) + sumN wrun (x_running st) +
  (if x_parse_token st then 2 else 0).

Definition measure (T K : N) (st : xstate) : mtype :=
  (c_fail st, (c_in T st, (c_parse T st, (c_scan T st, (c_retr T st, (c_pbs T st, (c_emit K st, (c_buf st, c_noise st)))))))).

(* the emit-stage component is the sum over [estage] (XOwn.v) *)
Lemma c_emit_estage K st : c_emit K st = sumN (wemit K) (estage st).
Proof.
  unfold c_emit, estage. rewrite sumN_app. f_equal.
  induction (x_running st) as [|c r IH]; simpl; [reflexivity|]. rewrite sumN_app, <- IH.
  destruct c; simpl; lia.
Qed.

(* [keep]: the leading component does not grow: it is the same on both sides up to conversion,
   or by the tactic given *)
Tactic Notation "keep" "by" tactic(t) := apply lexp_le; [t|intros _].
Ltac keep := keep by apply N.le_refl.
Ltac comp :=
  unfold add_run, give_unit, fail, c_fail, c_in, c_parse, c_scan, c_retr, c_pbs, c_emit, c_buf, c_noise, len; xs;
  cbn [sumN cscan cretr cemit wrun].

(* the components a running continuation contributes to *)
Lemma measure_del T K st l1 c l2 : x_running st = l1 ++ c :: l2 ->
  let s1 := set_running (l1 ++ l2) st in
  measure T K st =
  (c_fail st, (c_in T st, (c_parse T st, (cscan T c + c_scan T s1, (cretr T c + c_retr T s1,
    (c_pbs T st, (cemit K c + c_emit K s1, (c_buf st, wrun c + c_noise s1)))))))).
Proof.
  intro E. unfold measure, c_scan, c_retr, c_emit, c_noise. xs. rewrite E, !sumN_mid.
  repeat (apply f_equal2; [reflexivity || lia|]). lia.
Qed.

Lemma term_input T K sz m st st' :
  x_tail_offs st + sz <= T -> x_parsing_done st = false -> input sz m st = Some st' ->
  mlt (measure T K st') (measure T K st).
Proof.
  intros HT PD H. destruct (input_inv _ _ _ _ H) as (E & _ & Z & _ & H'). rewrite PD in H'. subst st'.
  keep. apply lexp_lt. comp. rewrite E. lia.
Qed.

Lemma term_eof T K st st' : reader_eof st = Some st' -> mlt (measure T K st') (measure T K st).
Proof. intro H. destruct (reader_eof_inv _ _ H) as [E ->]. keep. apply lexp_lt. comp. rewrite E. lia. Qed.

Lemma term_written T K st st' : written st = Some st' -> mlt (measure T K st') (measure T K st).
Proof. intro H. destruct (written_inv _ _ H) as [E ->]. do 7 keep. apply lexp_lt. comp. lia. Qed.

Lemma term_parse0 T K st st' : parse0 st = Some st' -> mlt (measure T K st') (measure T K st).
Proof.
  intro H. destruct (parse0_inv _ _ H) as [S ->]. cbv zeta. rewrite attach_nf.
  apply selects_ready in S. cbn [ready] in S. unfold can_parse in S.
  do 8 keep. comp. destruct (x_parse_token st); [lia|]. rewrite andb_false_r in S. discriminate.
Qed.

Lemma term_retr0 T K j st st' : retr0 j st = Some st' -> mlt (measure T K st') (measure T K st).
Proof.
  intro H. destruct (retr0_inv _ _ _ H) as (_ & q & TM & ->). cbv zeta. rewrite attach_nf.
  destruct (take_min_split _ _ _ _ _ rjob_eqb_eq TM) as (l1 & l2 & EQ & ->).
  do 4 keep. keep by (comp; rewrite EQ, sumN_mid; lia). do 3 keep. comp. rewrite EQ, !sumN_mid. lia.
Qed.

Lemma term_scan0 T K st st' : scan0 st = Some st' -> mlt (measure T K st') (measure T K st).
Proof.
  intro H. destruct (scan0_inv _ _ H) as (_ & s & l1 & l2 & _ & EQ & ->). cbv zeta. rewrite attach_nf.
  do 3 keep. keep by (comp; rewrite EQ, sumN_mid; lia). do 4 keep. comp. rewrite EQ, !sumN_mid. lia.
Qed.

Lemma term_emit0 T K st st' : emit0 st = Some st' -> mlt (measure T K st') (measure T K st).
Proof.
  intro H. destruct (emit0_inv _ _ H) as (_ & e & l1 & l2 & _ & EQ & ->).
  do 6 keep. keep by (comp; rewrite EQ, sumN_mid; lia). keep. comp. rewrite EQ, !sumN_mid. lia.
Qed.

Lemma term_retr2 T K e st st' : retr2 e st = Some st' -> mlt (measure T K st') (measure T K st).
Proof.
  intro H. destruct (retr2_inv _ _ _ H) as (l1 & l2 & E & _ & ->). rewrite (measure_del T K _ _ _ _ E).
  do 6 keep. keep by (comp; lia). keep. comp. lia.
Qed.

Lemma term_emit1 T K e rv size crc blksz st st' :
  (rv = MORE -> snd (e_base e) < K) -> emit1 e rv size crc blksz st = Some st' ->
  mlt (measure T K st') (measure T K st).
Proof.
  intros HK H. destruct (emit1_inv _ _ _ _ _ _ _ H) as (l1 & l2 & E & _ & _ & _ & H'). cbv zeta in H'.
  rewrite (measure_del T K _ _ _ _ E).
  destruct (rv =? MORE) eqn:RV; subst st'; do 6 keep; apply lexp_lt; comp; unfold wemit; cbn [e_base snd]; lia.
Qed.

Lemma term_reorder T K st st' : x_failed st = None -> reorder st = Some st' -> mlt (measure T K st') (measure T K st).
Proof.
  intros NF H.
  destruct (reorder_inv _ _ H) as (_ & o & l1 & l2 & _ & EQ & [C ->|ord rest C _ _ ->|ord rest C _ _ _ ->|ord rest C _ _ _ ->]).
  4: apply lexp_lt; comp; rewrite NF; lia.
  all: do 7 keep; apply lexp_lt; unfold ro_hand, ro_offs; comp; rewrite EQ, sumN_mid; lia.
Qed.

(* [s]: a state the segment that started in [st] goes through after its continuation has left the
   running set ([l]); detach, advance and the bookkeeping of the unord store keep this relation *)
Definition msame (T : N) (l : list cont) (s st : xstate) : Prop :=
  x_failed s = x_failed st /\ x_eof s = x_eof st /\ x_tail_offs s = x_tail_offs st /\
  x_parsing_done s = x_parsing_done st /\ x_next s = x_next st /\ x_running s = l /\
  sumN (wscan T) (x_scan_q s) <= sumN (wscan T) (x_scan_q st) /\ sumN (wretr T) (x_retr_q s) <= sumN (wretr T) (x_retr_q st).

Lemma msame_comps T l s st : msame T l s st ->
  c_fail s = c_fail st /\ c_in T s = c_in T st /\ c_parse T s = c_parse T st /\
  c_scan T s <= c_scan T (set_running l st) /\ c_retr T s <= c_retr T (set_running l st).
Proof. intros (F1 & F2 & F3 & F4 & F5 & F6 & F7 & F8). comp. rewrite F1, F2, F3, F4, F5, F6. repeat split; lia. Qed.

Lemma msame_detach T att l st : msame T l (detach att (set_running l st)) st.
Proof. rewrite detach_nf. repeat split; apply N.le_refl. Qed.

Lemma msame_advance T cfg bs l s st : msame T l s st -> msame T l (advance cfg bs s) st.
Proof.
  intros (F1 & F2 & F3 & F4 & F5 & F6 & F7 & F8). unfold msame.
  rewrite advance_nf, adv_scans_nf, adv_jobs_nf, adv_input_nf. xs. repeat split; try assumption.
  - eapply N.le_trans; [apply adv_scan_le|exact F7].
  - eapply N.le_trans; [apply adv_retr_le|exact F8].
Qed.

Lemma term_scan1 T K cfg s att found s' more st st' :
  inv st -> lin st -> x_tail_offs st <= T -> (found = true -> d_bit s < d_bit s') ->
  scan1 cfg s att found s' more st = Some st' -> mlt (measure T K st') (measure T K st).
Proof.
  intros I L HT SP H. destruct (scan1_inv _ _ _ _ _ _ _ _ H) as (l1 & l2 & E & _ & H'). cbv zeta in H'.
  pose proof (att_end_le att st (i_contig _ I) L) as AE.
  rewrite (measure_del T K _ _ _ _ E). rewrite detach_nf in H'.
  destruct H' as [[_ ->]|(F & _ & NS & _ & LE & _ & ->)].
  - do 3 keep. apply lexp_lt. comp. unfold wscan. lia.
  - specialize (SP F). unfold dbs_norm in NS. rewrite scan1_cand_eta. unfold scan1_requeue.
    destruct (more && _); do 3 keep; apply lexp_lt; comp; unfold wscan; lia.
Qed.

Lemma nparse_in att st : In (CParse att) (x_running st) -> (0 < nparse st)%nat.
Proof.
  unfold nparse. induction (x_running st) as [|c r IH]; simpl; [tauto|].
  intros [->|H]; simpl; [lia|]. specialize (IH H). destruct (is_parse c); simpl; lia.
Qed.

Lemma term_parse1 T K cfg att r st st' :
  inv st -> lin st -> x_tail_offs st <= T -> x_failed st = None ->
  ev_prog st (EvParse1 att r) -> ev_term T K st (EvParse1 att r) ->
  parse1 cfg att r st = Some st' -> mlt (measure T K st') (measure T K st).
Proof.
  intros I L HT NF EP ET H. destruct (parse1_inv _ _ _ _ _ H) as (l1 & l2 & E & _ & G). cbv zeta in G.
  destruct G as (OKb & _ & _ & LE & G). pose proof (att_end_le att st (i_contig _ I) L) as AE.
  assert (B : d_bit (res_bs r) <= 32 * T) by (unfold dbs_ok in OKb; lia).
  assert (PD : x_parsing_done st = false).
  { destruct (x_parsing_done st) eqn:PD; [|reflexivity]. destruct (i_done _ I PD) as [Z _].
    pose proof (nparse_in att st) as X. rewrite E in X. specialize (X ltac:(apply in_or_app; right; left; reflexivity)). lia. }
  rewrite (measure_del T K _ _ _ _ E).
  pose proof (msame_advance T cfg (res_bs r) _ _ _ (msame_detach T att (l1 ++ l2) st)) as M.
  pose proof (advance_pbs cfg (res_bs r) (detach att (set_running (l1 ++ l2) st))) as PB.
  clear I L H AE LE OKb.
  generalize dependent (advance cfg (res_bs r) (detach att (set_running (l1 ++ l2) st))). intros s3 G M PB.
  destruct r as [bs ps|bs g|bs code|bs ps lv crc]; cbn [res_bs] in *.
  - (* MORE: the parser has moved on *)
    destruct G as (_ & _ & ->). cbn in ET.
    destruct (msame_comps _ _ (set_work_units (x_work_units s3 + 1) (set_parse_token true (set_par ps s3))) _ M)
      as (C1 & C2 & C3 & C4 & C5).
    keep by (rewrite C1; apply N.le_refl). keep by (rewrite C2; apply N.le_refl). keep by (rewrite C3; apply N.le_refl).
    keep by exact C4. keep by exact C5. apply lexp_lt. comp. rewrite PB. lia.
  - (* FINISH: parsing is done, or the stream is truncated *)
    destruct G as (_ & _ & ->). destruct M as (F1 & F2 & F3 & _). rewrite parse_finish_eq. cbv zeta. destruct (_ && _).
    + apply lexp_lt. comp. rewrite NF. lia.
    + keep by (comp; rewrite F1; apply N.le_refl). keep by (comp; rewrite F2, F3; apply N.le_refl).
      apply lexp_lt. comp. rewrite PD. lia.
  - destruct G as (_ & _ & _ & ->). apply lexp_lt. comp. rewrite NF. lia.
  - (* a block header: x_next moves on *)
    destruct G as (_ & ->). cbn in EP. unfold HDR_MIN in EP. destruct M as (F1 & F2 & F3 & F4 & _).
    destruct (parse_ok_fields cfg lv crc (set_par ps (set_next (d_bit bs) s3))) as (P1 & P2 & P3 & _ & P5 & P4 & _). cbv zeta in *.
    xs in P1. xs in P2. xs in P3. xs in P4. xs in P5.
    keep by (comp; rewrite P1, F1; apply N.le_refl). keep by (comp; rewrite P2, P3, F2, F3; apply N.le_refl).
    apply lexp_lt. comp. rewrite P4, P5, F4, PD. clear - EP B. lia.
Qed.

(* the retrieve component loses [j] (d = 0), or gets it back further on *)
Lemma mlt_retr T K l sb st st' j d rest :
  msame T l sb st -> c_fail st' = c_fail sb -> c_in T st' = c_in T sb -> c_parse T st' = c_parse T sb ->
  c_scan T st' = c_scan T sb -> c_retr T st' = d + c_retr T sb -> d < wretr T j ->
  mlt (measure T K st')
      (c_fail st, (c_in T st, (c_parse T st, (0 + c_scan T (set_running l st), (wretr T j + c_retr T (set_running l st), rest))))).
Proof.
  intros M E1 E2 E3 E4 E5 LT. destruct (msame_comps _ _ _ _ M) as (C1 & C2 & C3 & C4 & C5). unfold mlt, measure.
  rewrite E1, E2, E3, E4, E5, C1, C2, C3. do 3 keep. keep by exact C4. apply lexp_lt. lia.
Qed.

Lemma term_retr1_tail T K cfg j rv cur fin l sa st rest :
  msame T l sa st -> msame T l (fin sa) st ->
  (rv =? MORE = true -> wretr T (mkrjob (r_base j) cur (r_link j)) < wretr T j) -> 0 < wretr T j ->
  mlt (measure T K (retr1_tail cfg j rv cur fin sa))
      (c_fail st, (c_in T st, (c_parse T st, (0 + c_scan T (set_running l st), (wretr T j + c_retr T (set_running l st), rest))))).
Proof.
  intros M MF W W0. unfold retr1_tail. destruct (rv =? MORE); [destruct (_ && _)|].
  - rewrite drop_if_nf. apply (mlt_retr T K l sa st _ j 0); auto.
  - apply (mlt_retr T K l sa st _ j (wretr T (mkrjob (r_base j) cur (r_link j)))); auto. comp. symmetry. apply N.add_assoc.
  - apply (mlt_retr T K l (fin sa) st _ j 0); auto.
Qed.

Lemma term_retr1 T K cfg j att rv cur st st' :
  inv st -> lin st -> x_tail_offs st <= T ->
  retr1 cfg j att rv cur st = Some st' -> mlt (measure T K st') (measure T K st).
Proof.
  intros I L HT H. destruct (retr1_inv _ _ _ _ _ _ _ H) as (l1 & l2 & E & _ & _ & _ & _ & LE & _ & GM & C).
  pose proof (att_end_le att st (i_contig _ I) L) as AE.
  assert (W : rv =? MORE = true -> wretr T (mkrjob (r_base j) cur (r_link j)) < wretr T j)
    by (intro M; destruct (GM ltac:(lia)) as (_ & _ & X); unfold wretr; cbn [r_cur]; lia).
  assert (W0 : 0 < wretr T j) by (unfold wretr; lia).
  rewrite (measure_del T K _ _ _ _ E). pose proof (msame_detach T att (l1 ++ l2) st) as M.
  clear I L H AE LE GM. generalize dependent (detach att (set_running (l1 ++ l2) st)). intro s2. intros.
  destruct C as [_ ->| u _ _ _ _ ->| _ _ ->| id _ _ _ ->].
  - rewrite drop_if_nf. apply (mlt_retr T K _ s2 st _ j 0); auto.
  - rewrite drop_if_nf. apply (mlt_retr T K _ s2 st _ j 0); auto.
  - apply term_retr1_tail; auto; [apply msame_advance; exact M|]. rewrite fin_master_nf. apply msame_advance. exact M.
  - apply term_retr1_tail; auto; exact M.
Qed.

(* the reader never delivers more than T words *)
Lemma tail_step cfg st e st' : step cfg st e = Some st' ->
  x_tail_offs st' = x_tail_offs st \/ exists sz m, e = EvInput sz m /\ x_tail_offs st' = x_tail_offs st + sz.
Proof.
  unfold step. destruct (x_failed st); [discriminate|]. destruct e; intro H.
  1: destruct (input_inv _ _ _ _ H) as (_ & _ & _ & _ & H'); destruct (x_parsing_done st); subst st'; eauto.
  all: left.
  - destruct (reader_eof_inv _ _ H) as [_ ->]. reflexivity.
  - destruct (written_inv _ _ H) as [_ ->]. reflexivity.
  - destruct (parse0_inv _ _ H) as [_ ->]. cbv zeta. rewrite attach_nf. reflexivity.
  - destruct (parse1_inv _ _ _ _ _ H) as (l1 & l2 & _ & _ & G). cbv zeta in G. destruct G as (_ & _ & _ & _ & G).
    destruct (msame_advance 0 cfg (res_bs r) _ _ _ (msame_detach 0 att (l1 ++ l2) st)) as (_ & _ & F3 & _).
    generalize dependent (advance cfg (res_bs r) (detach att (set_running (l1 ++ l2) st))). intros s3 G F3.
    destruct r as [bs ps|bs g|bs code|bs ps lv crc];
      [destruct G as (_ & _ & ->)|destruct G as (_ & _ & ->)|destruct G as (_ & _ & _ & ->)|destruct G as (_ & ->)].
    + exact F3.
    + rewrite parse_finish_eq. cbv zeta. destruct (_ && _); exact F3.
    + exact F3.
    + destruct (parse_ok_fields cfg lv crc (set_par ps (set_next (d_bit bs) s3))) as (_ & _ & P3 & _). cbv zeta in P3.
      exact (eq_trans P3 F3).
  - destruct (retr0_inv _ _ _ H) as (_ & q & _ & ->). cbv zeta. rewrite attach_nf. reflexivity.
  - destruct (retr1_inv _ _ _ _ _ _ _ H) as (l1 & l2 & _ & _ & _ & _ & _ & _ & _ & _ & C).
    destruct (msame_detach 0 att (l1 ++ l2) st) as (_ & _ & F2 & _).
    destruct (msame_advance 0 cfg cur _ _ _ (msame_detach 0 att (l1 ++ l2) st)) as (_ & _ & F3 & _).
    destruct C as [_ ->| u _ _ _ _ ->| _ _ ->| id _ _ _ ->];
      [rewrite drop_if_nf; exact F2|rewrite drop_if_nf; exact F2
      |rewrite (retr1_tail_nf _ _ _ _ _ _ (fin_master_nf' _)); exact F3
      |rewrite (retr1_tail_nf _ _ _ _ _ _ (fin_spec_nf _ _)); exact F2].
  - destruct (retr2_inv _ _ _ H) as (l1 & l2 & _ & _ & ->). reflexivity.
  - destruct (emit0_inv _ _ H) as (_ & e & l1 & l2 & _ & _ & ->). reflexivity.
  - destruct (emit1_inv _ _ _ _ _ _ _ H) as (l1 & l2 & _ & _ & _ & _ & H'). cbv zeta in H'.
    destruct (rv =? MORE); subst st'; reflexivity.
  - destruct (reorder_inv _ _ H) as (_ & o & l1 & l2 & _ & _ & [C ->|ord rest C _ _ ->|ord rest C _ _ _ ->|ord rest C _ _ _ ->]);
      reflexivity.
  - destruct (scan0_inv _ _ H) as (_ & s & l1 & l2 & _ & _ & ->). cbv zeta. rewrite attach_nf. reflexivity.
  - destruct (scan1_inv _ _ _ _ _ _ _ _ H) as (l1 & l2 & _ & _ & H'). cbv zeta in H'. rewrite detach_nf in H'.
    destruct H' as [[_ ->]|(_ & _ & _ & _ & _ & _ & ->)]; [reflexivity|].
    rewrite scan1_cand_eta. unfold scan1_requeue. destruct (more && _); reflexivity.
Qed.

Lemma treach_tail T K cfg n tin tout ultra st :
  treach T K cfg (init_state n tin tout ultra) st -> x_tail_offs st <= T.
Proof.
  induction 1 as [|st e st' R IH EP ES ET H]; [simpl; unfold init_tail_offs; lia|].
  destruct (tail_step _ _ _ _ H) as [->|(sz & m & -> & ->)]; [exact IH|exact ET].
Qed.

Lemma treach_reach T K cfg s0 st : treach T K cfg s0 st -> reach cfg s0 st.
Proof. induction 1; [constructor|econstructor; eauto]. Qed.

(* the safety invariants [inv] and [lin] and the bound on tail_offs are all the run has to provide *)
Lemma terminates_step_reach T K cfg n tin tout ultra st e st' :
  cfg_safe cfg -> treach T K cfg (init_state n tin tout ultra) st ->
  ev_prog st e -> ev_scan_prog e -> ev_term T K st e -> step cfg st e = Some st' -> productive st e = true ->
  mlt (measure T K st') (measure T K st).
Proof.
  intros CS R EP ES ET H PR.
  pose proof (treach_tail _ _ _ _ _ _ _ _ R) as HT. apply treach_reach in R.
  pose proof (inv_reach _ _ _ _ _ _ CS R) as I. pose proof (lin_reach _ _ _ _ _ _ CS R) as L. clear R.
  pose proof (step_not_failed _ _ _ _ H) as NF.
  unfold step in H. rewrite NF in H. destruct e.
  - simpl in PR. apply negb_true_iff in PR. eapply term_input; eauto.
  - eapply term_eof; eauto.
  - eapply term_written; eauto.
  - eapply term_parse0; eauto.
  - eapply term_parse1; eauto.
  - eapply term_retr0; eauto.
  - eapply term_retr1; eauto.
  - eapply term_retr2; eauto.
  - eapply term_emit0; eauto.
  - eapply term_emit1; eauto.
  - eapply term_reorder; eauto.
  - eapply term_scan0; eauto.
  - eapply term_scan1; eauto. simpl in ES. intros ->. exact ES.
Qed.

Theorem terminates_step T K cfg n tin tout ultra st e st' :
  cfg_safe cfg -> cfg_drops cfg -> 0 < n -> treach T K cfg (init_state n tin tout ultra) st ->
  ev_prog st e -> ev_scan_prog e -> ev_term T K st e -> step cfg st e = Some st' -> productive st e = true ->
  mlt (measure T K st') (measure T K st).
Proof. intros CS _ _. apply terminates_step_reach. exact CS. Qed.

(* no infinite run of productive events: the relation "st' is a productive successor of the
   reachable state st" is well founded *)
Definition pstep (T K : N) (cfg : xcfg) (s0 : xstate) (st' st : xstate) : Prop :=
  treach T K cfg s0 st /\
  exists e, ev_prog st e /\ ev_scan_prog e /\ ev_term T K st e /\ step cfg st e = Some st' /\ productive st e = true.

Theorem no_infinite_run T K cfg n tin tout ultra :
  cfg_safe cfg -> cfg_drops cfg -> 0 < n -> well_founded (pstep T K cfg (init_state n tin tout ultra)).
Proof.
  intros CS CD Hn.
  apply (wf_incl _ _ (fun a b => mlt (measure T K a) (measure T K b))).
  - intros a b (R & e & EP & ES & ET & H & PR). eapply terminates_step; eauto.
  - apply wf_inverse_image. apply mlt_wf.
Qed.

(* ... and a run that has stopped at a non-failed, non-final state can be continued by a productive
   event (deadlock freedom, XLive.v) *)
Corollary treach_progress T K cfg n tin tout ultra st :
  cfg_safe cfg -> cfg_drops cfg -> 1 <= n -> 1 <= tin -> EMIT_THRESH < tout ->
  treach T K cfg (init_state n tin tout ultra) st -> x_failed st = None -> final st = false ->
  exists e st', step cfg st e = Some st' /\ productive st e = true.
Proof.
  intros CS CD Hn Hi Ho R NF NFIN.
  exact (proj2 (progress_sreach cfg n tin tout ultra st CS CD Hn Hi Ho (treach_sreach _ _ _ _ _ R) NF NFIN)).
Qed.

(* the hypotheses are satisfiable: a complete run *)
Definition ev_termb (T K : N) (st : xstate) (e : event) : bool :=
  match e with
  | EvInput sz _ => x_tail_offs st + sz <=? T
  | EvParse1 _ (PMore bs _) => d_bit (x_parser_bs st) <? d_bit bs
  | EvEmit1 e rv _ _ _ => negb (rv =? MORE) || (snd (e_base e) <? K)
  | _ => true
  end.

Lemma ev_termb_spec T K st e : ev_termb T K st e = true -> ev_term T K st e.
Proof.
  destruct e; simpl; auto.
  - intro H. apply N.leb_le. exact H.
  - destruct r; simpl; auto. intro H. apply N.ltb_lt. exact H.
  - intros H E. apply orb_true_iff in H. destruct H as [H|H].
    + apply negb_true_iff in H. apply N.eqb_neq in H. contradiction.
    + apply N.ltb_lt. exact H.
Qed.

Definition trun (T K : N) : xcfg -> xstate -> list event -> option xstate :=
  brun (fun st e => ev_progb st e && ev_scan_progb e && ev_termb T K st e).

Lemma trun_treach T K cfg s0 es : forall st st', treach T K cfg s0 st -> trun T K cfg st es = Some st' -> treach T K cfg s0 st'.
Proof.
  apply brun_reach. intros st e st' R B S. apply andb_true_iff in B as [B B3]. apply andb_true_iff in B as [B1 B2].
  econstructor; eauto using ev_progb_spec, ev_scan_progb_spec, ev_termb_spec.
Qed.

(* a 6-word input in two blocks: one bzip2 block at bit 40 (its retrieval straddles the input blocks,
   its emission takes two buffers), a bogus candidate at bit 150 found by the scanner and dropped,
   a parse() call that returns MORE, end of input *)
Definition ex_m0 : rjob := mkrjob (40, 0) (mkdbs 40 2) None.
Definition ex_m1 : rjob := mkrjob (40, 0) (mkdbs 128 4) None.
Definition ex_e0 : ejob := mkejob (40, 0) OK 5.
Definition ex_e1 : ejob := mkejob (40, 1) OK 5.
Definition ex_events : list event :=
  [ EvInput 4 0; EvParse0; EvParse1 (Some 0) (POk (mkdbs 40 2) 0 9 0);
    EvRetr0 ex_m0; EvRetr1 ex_m0 (Some 0) MORE (mkdbs 128 4);
    EvInput 2 0; EvRetr0 ex_m1; EvScan0; EvScan1 (mkdbs 128 4) (Some 4) true (mkdbs 150 5) true;
    EvRetr1 ex_m1 (Some 4) OK (mkdbs 150 5); EvRetr2 ex_e0; EvParse0;
    EvEmit0; EvEmit1 ex_e0 MORE 100 0 50; EvReorder; EvWritten;
    EvEmit0; EvEmit1 ex_e1 OK 100 0 50; EvReorder; EvWritten;
    EvParse1 (Some 4) (PMore (mkdbs 192 6) 0); EvEof;
    EvParse0; EvParse1 None (PFinish (mkdbs 192 6) 0) ].

Example term_example :
  exists st, treach 6 1 gen_cfg (init_state 3 8 8 false) st /\ x_failed st = None /\ final st = true.
Proof.
  assert (E : exists s, trun 6 1 gen_cfg (init_state 3 8 8 false) ex_events = Some s /\ x_failed s = None /\ final s = true)
    by (eexists; split; [vm_compute; reflexivity|split; reflexivity]).
  destruct E as (s & RUN & A & B). exists s. split; [|auto]. eapply trun_treach; [constructor|exact RUN].
Qed.

(* the run [tie_events] of XLive.v is a [treach] run too *)
Example term_example_tie : exists st, treach 4 1 gen_cfg (init_state 3 8 8 false) st /\ x_failed st = None /\ final st = false.
Proof.
  assert (E : exists s, trun 4 1 gen_cfg (init_state 3 8 8 false) tie_events = Some s /\ x_failed s = None /\ final s = false)
    by (eexists; split; [vm_compute; reflexivity|split; reflexivity]).
  destruct E as (s & RUN & A & B). exists s. split; [|auto]. eapply trun_treach; [constructor|exact RUN].
Qed.

Print Assumptions mlt_wf.
Print Assumptions terminates_step.
Print Assumptions no_infinite_run.
Print Assumptions treach_progress.
Print Assumptions term_example.
