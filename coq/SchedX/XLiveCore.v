(* Liveness of the decompression scheduler: the case analysis.

   A non-failed, non-final state in which no worker is inside an unlocked computation and
   which satisfies the invariants inv / own / cnt / lin / ltk / llm / lrs has an enabled
   event that is not a stutter: the reader or the writer can move, or some task is ready.
   No induction here; the invariants are established in XLiveIn / XLiveTok / XLiveDist /
   XLiveMh / XLiveRes. *)
From Coq Require Import List NArith Bool Lia Arith ZifyBool ZifyN ZifyNat Sorted.
From LBZ Require Import Gen.Consts SchedX.XState Gen.SchedXTab SchedX.XSet SchedX.XModel SchedX.XLemmas
  SchedX.XFrame SchedX.XInvDefs SchedX.XOps SchedX.XInv SchedX.XInv2 SchedX.XOracle SchedX.XCount
  SchedX.XSeq SchedX.XOwn SchedX.XOwnProofs SchedX.XScanOwn SchedX.XLiveDefs SchedX.XLiveTok.
Import ListNotations.
Local Open Scope N_scope.

Lemma ready_first t st : ready t st = true -> exists u, first_ready st = Some u.
Proof.
  intro R. unfold first_ready. destruct (find (fun t0 => ready t0 st) task_list) as [u|] eqn:F; [eauto|].
  exfalso. pose proof (find_none _ _ F t) as K. simpl in K. rewrite R in K.
  assert (In t task_list) by (destruct t; simpl; tauto). specialize (K H). discriminate.
Qed.

Lemma selects_first st u : first_ready st = Some u -> selects u st = true.
Proof. unfold selects. intros ->. destruct u; reflexivity. Qed.

Lemma oblk_eqb_refl a : oblk_eqb a a = true.
Proof. unfold oblk_eqb. rewrite pos_eqb_refl. lia. Qed.

(* a queue that is not empty has a least element, and dequeueing it succeeds *)
Lemma queue_min {A} (eqb : A -> A -> bool) (refl : forall a, eqb a a = true) (key : A -> pos) l :
  negb (nilb l) = true -> exists x q, qmin key pos_lt l = Some x /\ remove_one eqb x l = Some q.
Proof.
  intro NE. destruct (qmin_some key l) as [x Q]; [destruct l; discriminate|].
  destruct (In_remove_one_some eqb refl x l (qmin_In _ _ _ Q)) as [q R]. eauto.
Qed.

Lemma task_starts cfg st u :
  x_failed st = None -> first_ready st = Some u ->
  exists e st', step cfg st e = Some st' /\ productive st e = true.
Proof.
  intros NF FR. pose proof (selects_first _ _ FR) as SEL. pose proof (selects_ready _ _ SEL) as RD.
  destruct u; simpl in RD.
  - exists EvReorder. unfold step. rewrite NF. unfold reorder. rewrite SEL.
    destruct (queue_min oblk_eqb oblk_eqb_refl o_base _ (proj1 (andb_prop _ _ RD))) as (o & q & -> & ->).
    destruct (x_order_q (set_reord_q q st)) as [|ord rest]; [eexists; split; [reflexivity|reflexivity]|].
    destruct (pos_lt (o_base o) (h_base ord)); [eexists; split; reflexivity|].
    match goal with |- context [if ?c then _ else _] => destruct c end; [eexists; split; reflexivity|].
    match goal with |- context [if ?c then _ else _] => destruct c end; eexists; split; reflexivity.
  - exists EvParse0. unfold step. rewrite NF. unfold parse0. rewrite SEL.
    match goal with |- context [attach ?d ?s] => destruct (attach d s) as [s2 att] end. eexists; split; reflexivity.
  - exists EvEmit0. unfold step. rewrite NF. unfold emit0. rewrite SEL.
    destruct (queue_min ejob_eqb ejob_eqb_refl e_base _ (proj1 (andb_prop _ _ RD))) as (e & q & -> & ->).
    eexists; split; reflexivity.
  - destruct (queue_min rjob_eqb rjob_eqb_refl rkey _ (proj1 (andb_prop _ _ RD))) as (j & q & Q & R).
    exists (EvRetr0 j). unfold step. rewrite NF. unfold retr0. rewrite SEL. unfold take_min.
    assert (M : is_minimal rkey pos_lt j (x_retr_q st) = true) by (apply is_minimal_spec; intros y Hy; eapply qmin_min; eauto).
    rewrite M, R.
    match goal with |- context [attach ?d ?s] => destruct (attach d s) as [s2 att] end. eexists; split; reflexivity.
  - exists EvScan0. unfold step. rewrite NF. unfold scan0. rewrite SEL.
    destruct (queue_min dbs_eqb dbs_eqb_refl d_pos _ (proj2 (andb_prop _ _ (proj1 (andb_prop _ _ RD))))) as (s & q & -> & ->).
    match goal with |- context [attach ?d ?s] => destruct (attach d s) as [s2 att] end. eexists; split; reflexivity.
Qed.

Lemma ready_starts cfg st t :
  x_failed st = None -> ready t st = true -> exists e st', step cfg st e = Some st' /\ productive st e = true.
Proof. intros NF R. destruct (ready_first _ _ R) as [u F]. eapply task_starts; eauto. Qed.

Lemma lexlt_trans a b c : lexlt a b -> lexlt b c -> lexlt a c.
Proof. unfold lexlt. lia. Qed.

Lemma can_reorder_wit st h rest o :
  x_order_q st = h :: rest -> In o (x_reord_q st) -> ~ lexlt (h_base h) (o_base o) -> can_reorder st = true.
Proof.
  intros OQ Ho LE. unfold can_reorder, peek_reord, order_head. rewrite OQ. simpl.
  destruct (x_reord_q st) as [|a r] eqn:RQ; [destruct Ho|]. rewrite <- RQ in *.
  destruct (qmin_some o_base (x_reord_q st)) as [m Q]; [rewrite RQ; discriminate|]. rewrite Q.
  assert (NE : nilb (x_reord_q st) = false) by (rewrite RQ; reflexivity). rewrite NE. simpl.
  rewrite orb_false_r. unfold pos_le. apply negb_true_iff. apply not_true_iff_false. intro K. apply pos_lt_spec in K.
  pose proof (qmin_min _ _ _ _ Q Ho) as M. apply not_true_iff_false in M. rewrite pos_lt_spec in M.
  apply LE. unfold lexlt in *. lia.
Qed.

Lemma can_emit_wit st h rest e :
  x_order_q st = h :: rest -> In e (x_emit_q st) -> ~ lexlt (h_base h) (e_base e) -> 0 < x_out_slots st -> can_emit st = true.
Proof.
  intros OQ He LE S. unfold can_emit, peek_emit, order_head. rewrite OQ. simpl.
  destruct (x_emit_q st) as [|a r] eqn:EQ; [destruct He|]. rewrite <- EQ in *.
  destruct (qmin_some e_base (x_emit_q st)) as [m Q]; [rewrite EQ; discriminate|]. rewrite Q.
  assert (NE : nilb (x_emit_q st) = false) by (rewrite EQ; reflexivity). rewrite NE. simpl.
  apply orb_true_iff. right. apply andb_true_iff. split; [apply andb_true_iff; split; [apply N.ltb_lt; exact S|reflexivity]|].
  unfold pos_le. apply negb_true_iff. apply not_true_iff_false. intro K. apply pos_lt_spec in K.
  pose proof (qmin_min _ _ _ _ Q He) as M. apply not_true_iff_false in M. rewrite pos_lt_spec in M.
  apply LE. unfold lexlt in *. lia.
Qed.

Lemma head_moves st h rest :
  own st -> lrs st -> x_running st = [] -> x_outq st = 0 -> EMIT_THRESH <= x_total_out st ->
  x_order_q st = h :: rest -> (forall j, In j (all_jobs st) -> jm (x_unords st) j = false) ->
  can_reorder st = true \/ can_emit st = true.
Proof.
  intros [OP OS] [CH RS] RUN OUTQ TH OQ NOM.
  assert (Hh : In h (x_order_q st)) by (rewrite OQ; left; auto).
  assert (ES : estage st = x_emit_q st) by (unfold estage; rewrite RUN; simpl; apply app_nil_r).
  (* a buffer at the head itself, or the emit job of the head *)
  assert (K : (exists o, In o (x_reord_q st) /\ o_base o = h_base h) \/ (exists e, In e (x_emit_q st) /\ e_base e = h_base h)).
  { destruct (o_heads _ _ _ OP h Hh) as [[_ (j & J1 & J2 & _)]|L].
    { rewrite (NOM j J1) in J2. discriminate. }
    assert (X : exists x, In x (linepos st) /\ fst x = hb h /\ hs h <= snd x /\
                  ((exists o, In o (x_reord_q st) /\ o_base o = x) \/ (exists e, In e (x_emit_q st) /\ e_base e = x))).
    { destruct L as [(e & E1 & E2 & E3)|(o & O1 & O2 & O3 & O4)].
      - exists (e_base e). split; [unfold linepos; apply in_or_app; left; apply in_map; exact E1|].
        split; [exact E2|]. split; [exact E3|]. right. exists e. rewrite <- ES. auto.
      - exists (o_base o). split; [unfold linepos; apply in_or_app; right; apply in_map; exact O1|].
        split; [exact O3|]. split; [exact O4|]. left. exists o. auto. }
    destruct X as (x & X1 & X2 & X3 & X4).
    destruct (N.eq_dec (snd x) (hs h)) as [EQ|NE].
    - assert (x = h_base h) by (unfold hb, hs in *; destruct x, (h_base h); simpl in *; congruence). subst x.
      destruct X4 as [(o & A & B)|(e & A & B)]; [left; exists o; auto|right; exists e; auto].
    - left. assert (LT : hs h < snd x) by lia.
      destruct (CH x (hs h) X1 LT) as [(o & A & B & _)|[_ P]].
      + exists o. split; auto. rewrite B, X2. unfold hb, hs. destruct (h_base h); reflexivity.
      + exfalso. specialize (P h Hh). rewrite X2 in P. unfold hb, hs, lexlt in P. simpl in P. lia. }
  destruct K as [(o & O1 & O2)|(e & E1 & E2)].
  - left. eapply can_reorder_wit; eauto. rewrite O2. unfold lexlt. lia.
  - destruct (N.eq_dec (x_out_slots st) 0) as [Z|NZ].
    + left. specialize (RS TH). unfold rcount in RS. rewrite Z, OUTQ, RUN in RS. simpl in RS.
      assert (P : (0 < length (filter (fun o => atmostb st (o_base o)) (x_reord_q st)))%nat) by (unfold EMIT_THRESH in RS; lia).
      destruct (proj1 (filter_len_pos _ _) P) as (o & O1 & O2). unfold atmostb in O2. rewrite OQ in O2.
      eapply can_reorder_wit; eauto. apply pos_le_spec. exact O2.
    + right. eapply can_emit_wit; eauto; [rewrite E2; unfold lexlt; lia|lia].
Qed.

Lemma no_zombies st : lin st -> x_running st = [] -> x_zombies st = [].
Proof.
  intros L RUN. destruct (x_zombies st) as [|z r] eqn:Z; auto. exfalso.
  destruct (li_refz _ L z) as (A & B & _); [rewrite Z; left; auto|]. rewrite RUN in A. unfold natt in A. simpl in A. lia.
Qed.

Lemma parser_at_tail_input_empty st :
  inv st -> lin st -> x_parsing_done st = false -> d_off (x_parser_bs st) = x_tail_offs st -> x_input_q st = [].
Proof.
  intros I L PD E. destruct (x_input_q st) as [|b r] eqn:Q; auto. exfalso.
  pose proof (li_first _ L PD b r Q) as F.
  destruct (contig_bounds _ _ _ b (i_contig _ I)) as (_ & B & _); [rewrite Q; left; auto|]. lia.
Qed.

Lemma reader_fed st :
  inv st -> cnt st -> lin st -> x_failed st = None -> x_running st = [] -> x_parsing_done st = false ->
  d_off (x_parser_bs st) = x_tail_offs st -> 1 <= x_total_in st -> 0 < x_in_slots st.
Proof.
  intros I C L NF RUN PD E TI. pose proof (k_in _ C NF) as K. unfold in_held in K.
  rewrite (parser_at_tail_input_empty st I L PD E), (no_zombies st L RUN) in K. simpl in K. lia.
Qed.

Theorem progress_core cfg st :
  inv st -> own st -> cnt st -> lin st -> ltk st -> llm st -> lrs st ->
  x_failed st = None -> x_running st = [] -> final st = false ->
  1 <= x_total_in st -> EMIT_THRESH < x_total_out st ->
  exists e st', step cfg st e = Some st' /\ productive st e = true.
Proof.
  intros I OW C LI LT LL LR NF RUN NFIN TI TO.
  (* the reader *)
  destruct (reader_can_move st) eqn:RD.
  { exists EvEof. unfold step. rewrite NF. unfold reader_eof. unfold reader_can_move in RD.
    apply andb_true_iff in RD. destruct RD as [RD1 RD2]. apply negb_true_iff in RD1. rewrite RD1.
    eexists. split; [reflexivity|]. simpl. unfold reader_can_move. rewrite RD1, RD2. reflexivity. }
  (* the writer *)
  destruct (0 <? x_outq st) eqn:WR.
  { exists EvWritten. unfold step. rewrite NF. unfold written. rewrite WR. eexists. split; reflexivity. }
  apply N.ltb_ge in WR. assert (OUTQ : x_outq st = 0) by lia. clear WR.
  assert (TH : EMIT_THRESH <= x_total_out st) by lia.
  pose proof (k_units _ C NF) as KU. pose proof (k_slots _ C NF) as KS.
  unfold units_held in KU. unfold slots_held, nemit in KS. rewrite RUN in KU, KS. simpl in KU, KS. rewrite OUTQ in KS.
  assert (AJ : all_jobs st = x_retr_q st) by (unfold all_jobs; rewrite RUN; simpl; apply app_nil_r).
  assert (NP : nparse st = 0%nat) by (unfold nparse; rewrite RUN; reflexivity).
  (* it is enough to find a ready task *)
  assert (G : (exists t, ready t st = true) -> exists e st', step cfg st e = Some st' /\ productive st e = true).
  { intros [t R]. eapply ready_starts; eauto. }
  apply G. clear G.
  destruct (x_parsing_done st) eqn:PD.
  - (* the parser has finished *)
    pose proof (lt_closed _ LT) as CL. rewrite PD in CL.
    assert (EOF : x_eof st = true).
    { unfold reader_can_move in RD. rewrite CL, orb_true_r, andb_true_r in RD. apply negb_false_iff in RD. exact RD. }
    destruct (i_done _ I PD) as [_ TOK].
    pose proof (lt_r0 _ LT PD) as RQ.
    assert (NT : (x_work_units st =? x_num_worker st) && (x_out_slots st =? x_total_out st) = false).
    { unfold final in NFIN. rewrite RUN in NFIN. simpl in NFIN. rewrite andb_true_r in NFIN.
      unfold can_terminate in NFIN. rewrite EOF, PD, TOK in NFIN. simpl in NFIN.
      destruct (x_work_units st =? x_num_worker st); simpl in *; auto. }
    rewrite RQ in KU. simpl in KU.
    destruct (x_order_q st) as [|h rest] eqn:OQ.
    + destruct (x_reord_q st) as [|o r] eqn:RQQ.
      * (* only emit jobs are left and every output slot is free *)
        exists TEmit. simpl. unfold can_emit. simpl in KS.
        assert (S : x_out_slots st = x_total_out st) by (clear - KS; lia).
        assert (NE : x_emit_q st <> []).
        { intro Z. rewrite Z in KU. simpl in KU. rewrite S in NT.
          assert (x_work_units st = x_num_worker st) by (clear - KU; lia). rewrite H, !N.eqb_refl in NT. discriminate. }
        destruct (x_emit_q st); [congruence|]. simpl.
        apply orb_true_iff. left. apply N.ltb_lt. clear - S TO. lia.
      * exists TReorder. simpl. unfold can_reorder. rewrite RQQ, OQ, PD. reflexivity.
    + assert (NOM : forall j, In j (all_jobs st) -> jm (x_unords st) j = false) by (rewrite AJ, RQ; intros j []).
      destruct (head_moves st h rest OW LR RUN OUTQ TH OQ NOM) as [R|R]; [exists TReorder|exists TEmit]; exact R.
  - (* the parser has not finished *)
    pose proof (lt_closed _ LT) as CL. rewrite PD in CL.
    assert (RDF : x_eof st = true \/ x_in_slots st = 0).
    { unfold reader_can_move in RD. rewrite CL, orb_false_r in RD. apply andb_false_iff in RD.
      destruct RD as [RD|RD]; [left; apply negb_false_iff; exact RD|right; apply N.ltb_ge in RD; lia]. }
    (* a bit stream that cannot be attached stands at tail_offs, and the input has not ended *)
    assert (NA : forall d, d_off d <= x_tail_offs st -> can_attach st d = false -> d_off d = x_tail_offs st /\ x_eof st = false).
    { intros d LE CA. unfold can_attach in CA. apply orb_false_iff in CA. destruct CA as [CA1 CA2].
      apply N.ltb_ge in CA1. assert (E : d_off d = x_tail_offs st) by (clear - LE CA1; lia). split; auto.
      rewrite E, N.eqb_refl, andb_true_r in CA2. exact CA2. }
    assert (FED : d_off (x_parser_bs st) = x_tail_offs st -> x_eof st = false -> False).
    { intros E NE. pose proof (reader_fed st I C LI NF RUN PD E TI). destruct RDF as [X|X]; [congruence|]. clear - H X. lia. }
    pose proof (lt_ex _ LT PD) as EX. rewrite NP in EX.
    pose proof (i_excl _ I) as EXC. rewrite NP in EXC.
    destruct (x_parse_token st) eqn:TOK.
    + (* the token is free *)
      assert (NOM : forall j, In j (all_jobs st) -> jm (x_unords st) j = false).
      { intros j Hj. apply no_masters_jm; [|exact Hj]. unfold masters. simpl in EXC. clear - EXC. lia. }
      destruct (can_attach st (x_parser_bs st)) eqn:CA.
      * destruct (N.eq_dec (x_work_units st) 0) as [WZ|WNZ].
        -- destruct (ll_tw _ LL PD TOK WZ) as (h0 & _ & H0 & _).
           destruct (x_order_q st) as [|h rest] eqn:OQ; [destruct H0|].
           destruct (head_moves st h rest OW LR RUN OUTQ TH OQ NOM) as [R|R]; [exists TReorder|exists TEmit]; exact R.
        -- exists TParse. simpl. unfold can_parse. rewrite PD, TOK, CA. simpl. rewrite andb_true_r. apply N.ltb_lt. clear - WNZ. lia.
      * exfalso. destruct (NA _ (li_pbs _ LI PD) CA) as [E NE]. exact (FED E NE).
    + (* a master retriever is queued *)
      destruct (proj1 (masters_pos st) EX) as (j & J1 & J2). rewrite AJ in J1.
      assert (NE : x_retr_q st <> []) by (intro Z; rewrite Z in J1; destruct J1).
      destruct (qmin_some rkey _ NE) as [j0 Q].
      destruct (can_attach st (r_cur j0)) eqn:CA.
      * exists TRetrieve. simpl. unfold can_retrieve, peek_retr. rewrite Q, CA.
        destruct (x_retr_q st); [congruence|reflexivity].
      * exfalso.
        pose proof (li_retr _ LI) as LR'. rewrite Forall_forall in LR'.
        destruct (NA _ (LR' j0 (qmin_In _ _ _ Q)) CA) as [E0 NEOF].
        pose proof (qmin_min _ _ _ _ Q J1) as M. apply not_true_iff_false in M. rewrite pos_lt_spec in M.
        unfold rkey, d_pos, lexlt in M. simpl in M.
        pose proof (i_jobs _ I) as IJ. rewrite Forall_forall in IJ.
        assert (N1 : dbs_norm (r_cur j) = true) by (apply (IJ j); rewrite AJ; exact J1).
        assert (N0 : dbs_norm (r_cur j0) = true) by (apply (IJ j0); rewrite AJ; eapply qmin_In; eauto).
        pose proof (LR' j J1) as LJ.
        assert (EJ : d_off (r_cur j) = x_tail_offs st).
        { clear - M N1 N0 LJ E0. unfold dbs_norm in *. lia. }
        rewrite (lt_mp _ LT PD j J1 J2) in EJ. exact (FED EJ NEOF).
Qed.
