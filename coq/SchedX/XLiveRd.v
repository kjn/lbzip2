(* The keys of the priority queue reord_q of the decompression scheduler (expand.c) are
   pairwise distinct.

   [lrd]: the bases (bit, sub) of the buffers waiting in reord_q are pairwise distinct
   (rd_nodup); a buffer of a block lies strictly below the emit-stage job of that block
   (rd_below_e) and a buffer with status MORE strictly below the block's last buffer
   (rd_below_f).  The three clauses are inductive as stated, given the invariant [lld]
   (XLiveDefs: retrieve jobs, emit-stage jobs and last buffers have pairwise distinct bit
   positions) and [own] (XOwn: a buffer with status MORE is followed by its block's emit job
   or last buffer) of the pre-state.

   [lrd] reads reord_q and the emit-stage jobs only ([lrd_view]).  do_parse, do_retrieve and do_scan
   leave both alone ([eside]) except that do_retrieve may start an emit-stage job, on a bit position
   where no buffer waits ([lrd_retr1_tail]); [lrd_emit] is do_emit, [lrd_remove] do_reorder. *)
From Coq Require Import List NArith Bool Lia.
From LBZ Require Import Gen.Consts SchedX.XState SchedX.XSet SchedX.XModel SchedX.XFrame SchedX.XInvDefs SchedX.XOps
  SchedX.XOwn SchedX.XOwnProofs SchedX.XLiveDefs.
Import ListNotations.
Local Open Scope N_scope.

Record lrd (st : xstate) : Prop := mklrd {
  rd_nodup : NoDup (map o_base (x_reord_q st));
  (* a buffer of a block lies strictly below the emit job of that block *)
  rd_below_e : forall o e, In o (x_reord_q st) -> In e (estage st) -> ebit e = obit o -> snd (o_base o) < snd (e_base e);
  (* and strictly below the block's last buffer *)
  rd_below_f : forall o o', In o (x_reord_q st) -> In o' (x_reord_q st) -> o_status o = MORE -> o_status o' <> MORE ->
               obit o = obit o' -> snd (o_base o) < snd (o_base o')
}.

Lemma lrd_init n tin tout ultra : lrd (init_state n tin tout ultra).
Proof. constructor; simpl; [constructor|intros o e []|intros o o' []]. Qed.

Lemma nodup_app_l {A} (l1 l2 : list A) : NoDup (l1 ++ l2) -> NoDup l1.
Proof.
  induction l1 as [|a l IH]; simpl; intro H; [constructor|]. inversion H; subst. constructor; auto.
  intro X. apply H2. apply in_or_app. auto.
Qed.

Lemma nodup_app_r {A} (l1 l2 : list A) : NoDup (l1 ++ l2) -> NoDup l2.
Proof. induction l1 as [|a l IH]; simpl; intro H; auto. inversion H; auto. Qed.

Lemma nodup_app_disj {A} (l1 l2 : list A) x : NoDup (l1 ++ l2) -> In x l1 -> In x l2 -> False.
Proof.
  induction l1 as [|a l IH]; simpl; intros H H1 H2; [contradiction|]. inversion H; subst.
  destruct H1 as [->|H1]; [apply H4; apply in_or_app; auto|auto].
Qed.

Lemma is_final_true o : o_status o <> MORE -> is_final o = true.
Proof. intro H. unfold is_final. apply negb_true_iff. apply N.eqb_neq. exact H. Qed.

Lemma lines_job_emit st j e : lld st -> In j (all_jobs st) -> In e (estage st) -> jbit j <> ebit e.
Proof.
  intros L Hj He EQ. apply (nodup_app_disj _ _ (jbit j) (ll_dist _ L)).
  - apply in_map. exact Hj.
  - apply in_or_app. left. rewrite EQ. apply in_map. exact He.
Qed.

Lemma lines_job_final st j o : lld st -> In j (all_jobs st) -> In o (x_reord_q st) -> o_status o <> MORE -> jbit j <> obit o.
Proof.
  intros L Hj Ho F EQ. apply (nodup_app_disj _ _ (jbit j) (ll_dist _ L)).
  - apply in_map. exact Hj.
  - apply in_or_app. right. rewrite EQ. apply in_map. apply filter_In. split; auto using is_final_true.
Qed.

Lemma lines_emit_final st e o : lld st -> In e (estage st) -> In o (x_reord_q st) -> o_status o <> MORE -> obit o <> ebit e.
Proof.
  intros L He Ho F EQ. pose proof (nodup_app_r _ _ (ll_dist _ L)) as D.
  apply (nodup_app_disj _ _ (ebit e) D).
  - apply in_map. exact He.
  - rewrite <- EQ. apply in_map. apply filter_In. split; auto using is_final_true.
Qed.

Lemma lines_emit_other st e A B : lld st -> estage st = A ++ e :: B -> forall e2, In e2 (A ++ B) -> ebit e2 <> ebit e.
Proof.
  intros L ES e2 H2 EQ. pose proof (nodup_app_l _ _ (nodup_app_r _ _ (ll_dist _ L))) as D.
  rewrite ES, map_app in D. simpl in D. apply NoDup_remove_2 in D. apply D. rewrite <- map_app, <- EQ. apply in_map. exact H2.
Qed.

(* no buffer of the block of a retrieve job waits in reord_q *)
Lemma job_no_buffer st j o : lld st -> own st -> In j (all_jobs st) -> In o (x_reord_q st) -> obit o <> jbit j.
Proof.
  intros L [OP _] Hj Ho EQ.
  destruct (N.eq_dec (o_status o) MORE) as [M|F].
  - destruct (o_more _ _ _ OP o Ho M) as [(e & E1 & E2 & _)|(o' & O1 & O2 & O3 & _)].
    + apply (lines_job_emit st j e L Hj E1). unfold ebit, obit in *. congruence.
    + apply (lines_job_final st j o' L Hj O1 O2). unfold obit in *. congruence.
  - apply (lines_job_final st j o L Hj Ho F). auto.
Qed.

Lemma lrd_view st st' :
  x_reord_q st' = x_reord_q st -> (forall e, In e (estage st') -> In e (estage st)) -> lrd st -> lrd st'.
Proof. intros E S [A B C]. constructor; rewrite E; auto. Qed.

(* what the emit side of the scheduler consists of; do_parse, do_retrieve and do_scan leave it alone
   but for the continuation they take from and add to the running set *)
Definition eside (st : xstate) := (x_reord_q st, x_emit_q st, x_running st).

Lemma eside_reord s s' : eside s' = eside s -> x_reord_q s' = x_reord_q s.
Proof. intros [= A _ _]. exact A. Qed.

Lemma lrd_eside st st' : eside st' = eside st -> lrd st -> lrd st'.
Proof. intros [= A B C]. apply lrd_view; [exact A|]. unfold estage. rewrite B, C. auto. Qed.

Lemma eside_attach d s : eside (fst (attach d s)) = eside s.
Proof. rewrite attach_nf. reflexivity. Qed.
Lemma eside_detach a s : eside (detach a s) = eside s.
Proof. rewrite detach_nf. reflexivity. Qed.
Lemma eside_advance cfg bs s : eside (advance cfg bs s) = eside s.
Proof. rewrite advance_eq. reflexivity. Qed.

Lemma eside_parse_finish cfg g s : eside (parse_finish cfg g s) = eside s.
Proof. rewrite parse_finish_eq. cbv zeta. destruct (_ && _); reflexivity. Qed.

Lemma eside_parse_ok cfg lv crc s : eside (parse_ok cfg lv crc s) = eside s.
Proof.
  destruct (parse_ok_cases cfg lv crc s) as [[_ ->]|(u & _ & _ & ->)]; cbv zeta; [reflexivity|].
  match goal with |- context [advance cfg ?b ?x] => generalize (eside_advance cfg b x); generalize (advance cfg b x) end.
  intros s3 E. destruct (u_complete u); exact E.
Qed.

Lemma eside_scan1 cfg s' more s2 : eside (scan1_requeue cfg s' more (scan1_cand cfg s' s2)) = eside s2.
Proof.
  assert (E : eside (scan1_cand cfg s' s2) = eside s2)
    by (unfold scan1_cand, new_cand; destruct (_ || _); [|destruct (_ && _)]; reflexivity).
  revert E. generalize (scan1_cand cfg s' s2). intros s3 E. unfold scan1_requeue. destruct (_ && _); exact E.
Qed.

Lemma lrd_del c l1 l2 st : x_running st = l1 ++ c :: l2 -> lrd st -> lrd (set_running (l1 ++ l2) st).
Proof. intro E. apply lrd_view; [reflexivity|]. intros x Hx. apply (estage_del _ _ _ _ _ E). auto. Qed.

Lemma lrd_add_run c s : cejobs c = [] -> lrd s -> lrd (add_run c s).
Proof.
  intro C. apply lrd_view; [reflexivity|]. intro x. unfold estage, add_run. xs. rewrite run_ejobs_cons, C. auto.
Qed.

(* an emit-stage job on a bit position where no buffer waits *)
Lemma lrd_add_retr2 en s : (forall o, In o (x_reord_q s) -> obit o <> ebit en) -> lrd s -> lrd (add_run (CRetr2 en) s).
Proof.
  intros F [A B C]. constructor; auto.
  intros o e Ho He EB. unfold estage, add_run in He. xs in He. apply in_app_or in He.
  destruct He as [He|[<-|He]]; [| |]; try (apply B; auto; apply in_or_app; auto). exfalso. apply (F o Ho). auto.
Qed.

Lemma lrd_retr1_tail cfg j rv cur fin sa :
  eside (fin sa) = eside sa -> (forall o, In o (x_reord_q sa) -> obit o <> jbit j) -> lrd sa ->
  lrd (retr1_tail cfg j rv cur fin sa).
Proof.
  intros EF F I. unfold retr1_tail, drop_if. destruct (rv =? MORE).
  - apply (lrd_eside sa); [|exact I]. destruct (_ && _); [destruct (c_stale_drops_link cfg)|]; reflexivity.
  - apply lrd_add_retr2; [|exact (lrd_eside _ _ EF I)]. rewrite (eside_reord _ _ EF). exact F.
Qed.

(* do_emit: the buffer [o] of the job [e] enters reord_q; if it is not the last one, the job for the
   next sub-position takes the place of [e] *)
Lemma lrd_emit st st' e A B o :
  estage st = A ++ e :: B -> o_base o = e_base e ->
  (forall e2, In e2 (A ++ B) -> ebit e2 <> ebit e) ->
  (o_status o = MORE -> forall o', In o' (x_reord_q st) -> o_status o' <> MORE -> obit o' <> ebit e) ->
  x_reord_q st' = o :: x_reord_q st ->
  (forall x, In x (estage st') ->
     o_status o = MORE /\ x = mkejob (fst (e_base e), snd (e_base e) + 1) (e_status e) (e_end e) \/ In x (A ++ B)) ->
  lrd st -> lrd st'.
Proof.
  intros ES OB FB FA RQ S [N0 B0 C0].
  assert (Sub : forall x, In x (A ++ B) -> In x (estage st)).
  { rewrite ES. intros x Hx. apply in_app_or in Hx. apply in_or_app. simpl. tauto. }
  assert (BE : forall o', In o' (x_reord_q st) -> obit o' = ebit e -> snd (o_base o') < snd (e_base e))
    by (intros; apply B0; auto; rewrite ES; apply in_elt).
  assert (OE : obit o = ebit e) by (unfold obit, ebit; rewrite OB; reflexivity).
  constructor; rewrite RQ.
  - simpl. constructor; auto. intro X. apply in_map_iff in X. destruct X as (o' & Eo & Ho).
    specialize (BE o' Ho). unfold obit, ebit in BE. rewrite Eo, OB in BE. specialize (BE eq_refl). lia.
  - intros o' x [<-|Ho] Hx EB.
    + destruct (S x Hx) as [[_ ->]|K]; [rewrite OB; simpl; lia|]. exfalso. apply (FB x K). congruence.
    + destruct (S x Hx) as [[_ ->]|K]; [|apply B0; auto].
      unfold ebit in EB. simpl in EB. specialize (BE o' Ho (eq_sym EB)). simpl. lia.
  - intros o1 o2 [<-|H1] [<-|H2] SM SF EB.
    + congruence.
    + exfalso. apply (FA SM o2 H2 SF). congruence.
    + rewrite OB. apply BE; auto. congruence.
    + apply C0; auto.
Qed.

Lemma lrd_remove st l1 l2 o : x_reord_q st = l1 ++ o :: l2 -> lrd st -> lrd (set_reord_q (l1 ++ l2) st).
Proof.
  intros E [N0 B0 C0].
  assert (Sub : forall x, In x (l1 ++ l2) -> In x (x_reord_q st)).
  { rewrite E. intros x Hx. apply in_app_or in Hx. apply in_or_app. simpl. tauto. }
  constructor; xs.
  - rewrite E, map_app in N0. simpl in N0. apply NoDup_remove_1 in N0. rewrite map_app. exact N0.
  - intros o' e Ho. apply B0; auto.
  - intros; apply C0; auto.
Qed.

Lemma reord_keys_distinct st o1 o2 l1 l2 l3 :
  lrd st -> x_reord_q st = l1 ++ o1 :: l2 ++ o2 :: l3 -> o_base o1 <> o_base o2.
Proof.
  intros [N0 _ _] E EQ. rewrite E, map_app in N0. simpl in N0. apply NoDup_remove_2 in N0. apply N0.
  apply in_or_app. right. rewrite map_app. apply in_or_app. right. simpl. left. auto.
Qed.

(* [own] enters through its clause o_more (retr1), [lld] through ll_dist (retr1, emit1); nothing is asked
   of the labels, of the configuration or of failure *)
Theorem lrd_step cfg st e st' : own st -> lld st -> lrd st -> step cfg st e = Some st' -> lrd st'.
Proof.
  intros OW L I H. unfold step in H. destruct (x_failed st); [discriminate|].
  destruct e.
  - apply input_inv in H. destruct H as (_ & _ & _ & _ & H).
    destruct (x_parsing_done st); subst st'; [exact I|]. apply (lrd_eside st); [reflexivity|exact I].
  - apply reader_eof_inv in H. destruct H as [_ ->]. apply (lrd_eside st); [reflexivity|exact I].
  - apply written_inv in H. destruct H as [_ ->]. apply (lrd_eside st); [reflexivity|exact I].
  - apply parse0_inv in H. destruct H as [_ ->]. cbv zeta.
    apply lrd_add_run; [reflexivity|]. apply (lrd_eside st); [exact (eside_attach _ _)|exact I].
  - apply parse1_inv in H. destruct H as (l1 & l2 & E & _ & H). cbv zeta in H. destruct H as (_ & _ & _ & _ & H).
    apply (lrd_del _ _ _ _ E), (lrd_eside _ _ (eside_detach att _)), (lrd_eside _ _ (eside_advance cfg (res_bs r) _)) in I.
    revert H I. generalize (advance cfg (res_bs r) (detach att (set_running (l1 ++ l2) st))). intros s3 H I.
    destruct r; [destruct H as (_ & _ & ->)|destruct H as (_ & _ & ->)|destruct H as (_ & _ & _ & ->)|destruct H as (_ & ->)].
    + apply (lrd_eside s3); [reflexivity|exact I].
    + apply (lrd_eside s3); [exact (eside_parse_finish _ _ _)|exact I].
    + apply (lrd_eside s3); [reflexivity|exact I].
    + apply (lrd_eside s3); [exact (eside_parse_ok _ _ _ _)|exact I].
  - apply retr0_inv in H. destruct H as (_ & q & _ & ->). cbv zeta.
    apply lrd_add_run; [reflexivity|]. apply (lrd_eside st); [exact (eside_attach _ _)|exact I].
  - apply retr1_inv in H. destruct H as (l1 & l2 & E & _ & _ & _ & _ & _ & _ & _ & H).
    (* no buffer of the job's block waits in reord_q, so its emit job may enter the emit stage *)
    assert (F : forall o, In o (x_reord_q (detach att (set_running (l1 ++ l2) st))) -> obit o <> jbit j).
    { rewrite (eside_reord _ _ (eside_detach _ _)). intros o Ho. apply (job_no_buffer st j o L OW); [|exact Ho].
      apply (all_jobs_del _ _ _ _ _ E). left. left. reflexivity. }
    apply (lrd_del _ _ _ _ E), (lrd_eside _ _ (eside_detach att _)) in I.
    clear E. revert H F I. generalize (detach att (set_running (l1 ++ l2) st)). intros s2 H F I.
    destruct H as [_ ->|u _ _ _ _ ->|_ _ ->|id _ _ _ ->]; unfold drop_if.
    + apply (lrd_eside s2); [|exact I]. destruct (c_retr_done_drops_link cfg); reflexivity.
    + apply (lrd_eside s2); [|exact I]. destruct (c_retr_abort_drops_link cfg); reflexivity.
    + apply lrd_retr1_tail.
      * unfold fin_master. destruct (r_link j); reflexivity.
      * rewrite (eside_reord _ _ (eside_advance cfg cur s2)). exact F.
      * exact (lrd_eside _ _ (eside_advance _ _ _) I).
    + apply lrd_retr1_tail; [reflexivity|exact F|]. apply (lrd_eside s2); [reflexivity|exact I].
  - apply retr2_inv in H. destruct H as (l1 & l2 & E & _ & ->).
    apply (lrd_view st); [reflexivity| |exact I].
    intros x Hx. apply (estage_del _ _ _ _ _ E). destruct Hx as [<-|Hx]; [left; left; reflexivity|right; exact Hx].
  - apply emit0_inv in H. destruct H as (_ & e & l1 & l2 & _ & E & ->).
    apply (lrd_view st); [reflexivity| |exact I].
    intros x Hx. unfold estage in *. rewrite E. apply In_app_mid. exact Hx.
  - apply emit1_inv in H. destruct H as (l1 & l2 & E & _ & _ & _ & H). cbv zeta in H.
    assert (ES : estage st = (x_emit_q st ++ run_ejobs l1) ++ e :: run_ejobs l2).
    { unfold estage. rewrite E, run_ejobs_app, run_ejobs_cons. simpl. rewrite app_assoc. reflexivity. }
    assert (He : In e (estage st)) by (rewrite ES; apply in_elt).
    destruct (rv =? MORE) eqn:RV; subst st'.
    + apply (lrd_emit st _ e _ _ (mkoblk (e_base e) size crc blksz rv 0) ES eq_refl (lines_emit_other st e _ _ L ES));
        [|reflexivity| |exact I].
      * intros _ o Ho F. exact (lines_emit_final st e o L He Ho F).
      * intros x. unfold estage. xs. rewrite run_ejobs_app. simpl. rewrite !in_app_iff. apply N.eqb_eq in RV.
        intros [<-|K]; [left; auto|right; tauto].
    + apply (lrd_emit st _ e _ _ (mkoblk (e_base e) size crc blksz rv (e_end e)) ES eq_refl (lines_emit_other st e _ _ L ES));
        [|reflexivity| |exact I].
      * simpl. intro X. rewrite X in RV. discriminate.
      * intros x. unfold estage, give_unit. xs. rewrite run_ejobs_app, !in_app_iff. tauto.
  - apply reorder_inv in H. destruct H as (_ & o & l1 & l2 & _ & E & H).
    apply (lrd_remove _ _ _ _ E) in I. revert H I. generalize (set_reord_q (l1 ++ l2) st). intros s1 H I.
    apply (lrd_eside s1); [|exact I].
    destruct H as [_ ->|ord rest _ _ _ ->|ord rest _ _ _ _ ->|ord rest _ _ _ _ ->]; reflexivity.
  - apply scan0_inv in H. destruct H as (_ & s & l1 & l2 & _ & _ & ->). cbv zeta.
    apply lrd_add_run; [reflexivity|]. apply (lrd_eside st); [exact (eside_attach _ _)|exact I].
  - apply scan1_inv in H. destruct H as (l1 & l2 & E & _ & H). cbv zeta in H.
    apply (lrd_del _ _ _ _ E), (lrd_eside _ _ (eside_detach att _)) in I.
    revert H I. generalize (detach att (set_running (l1 ++ l2) st)). intros s2 H I.
    destruct H as [[_ ->]|(_ & _ & _ & _ & _ & _ & ->)]; apply (lrd_eside s2); try exact I; [reflexivity|apply eside_scan1].
Qed.

(* the same under the hypotheses that XLive.v has at hand for every component of [livep] *)
Corollary lrd_step_live cfg st e st' :
  cfg_safe cfg -> cfg_drops cfg -> inv st -> own st -> lld st -> x_failed st' = None ->
  lrd st -> step cfg st e = Some st' -> lrd st'.
Proof. intros _ _ _ OW L _ I H. eapply lrd_step; eauto. Qed.

Print Assumptions lrd_init.
Print Assumptions lrd_step.
Print Assumptions reord_keys_distinct.
