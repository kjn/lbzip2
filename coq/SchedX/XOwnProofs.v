(* Ownership invariant of order_q (XOwn.v): it holds in every non-failed state of a run
   whose POk labels make progress; consequences: capacity of order_q, order_q is empty
   when can_terminate() holds, the head of order_q always has an owner. *)
From Coq Require Import List NArith Bool Lia Arith ZifyBool ZifyN ZifyNat Sorted.
From LBZ Require Import Gen.Consts SchedX.XState Gen.SchedXTab SchedX.XSet SchedX.XModel SchedX.XLemmas
  SchedX.XFrame SchedX.XInvDefs SchedX.XOps SchedX.XInv SchedX.XInv2 SchedX.XInv3 SchedX.XInv4 SchedX.XOracle
  SchedX.XSeq SchedX.XCount SchedX.XC11 SchedX.XOwn SchedX.XOwnAdv SchedX.XOwnRetr.
Import ListNotations.
Local Open Scope N_scope.

Lemma own_init n tin tout ultra : own (init_state n tin tout ultra).
Proof.
  split.
  - constructor; simpl.
    + intros h [].
    + intros o [].
    + intros j [].
    + intros u [].
    + intros u [].
    + intros _. constructor.
    + intros _. apply N.le_refl.
    + intros _. reflexivity.
    + intros u [].
  - constructor; simpl; constructor.
Qed.

Theorem own_step cfg st e st' :
  cfg_safe cfg -> cfg_drops cfg -> x_failed st' = None -> inv st -> own st -> ev_prog st e ->
  step cfg st e = Some st' -> own st'.
Proof.
  intros CS CD NF' I OW EV H. unfold step in H. destruct (x_failed st) eqn:NF; [discriminate|].
  destruct e.
  - eapply own_input; eauto.
  - eapply own_eof; eauto.
  - eapply own_written; eauto.
  - eapply own_parse0; eauto.
  - eapply own_parse1; eauto.
  - eapply own_retr0; eauto.
  - eapply own_retr1; eauto.
  - eapply own_retr2; eauto.
  - eapply own_emit0; eauto.
  - eapply own_emit1; eauto.
  - eapply own_reorder; eauto.
  - eapply own_scan0; eauto.
  - eapply own_scan1; eauto.
Qed.

Lemma step_not_failed cfg st e st' : step cfg st e = Some st' -> x_failed st = None.
Proof. unfold step. destruct (x_failed st); [discriminate|auto]. Qed.

Theorem own_preach cfg n tin tout ultra st :
  cfg_safe cfg -> cfg_drops cfg -> preach cfg (init_state n tin tout ultra) st ->
  inv st /\ (x_failed st = None -> own st).
Proof.
  intros CS CD R. induction R as [|st e st' R [I OW] EV H].
  - split; [apply inv_init|intros _; apply own_init].
  - split; [eapply inv_step; eauto|]. intro NF'. eapply own_step; eauto. apply OW. eapply step_not_failed; eauto.
Qed.

Definition is_final (o : oblk) : bool := negb (o_status o =? MORE).
Definition owners (st : xstate) : list N :=
  map (fun j => fst (r_base j)) (filter (jm (x_unords st)) (all_jobs st)) ++
  map (fun e => fst (e_base e)) (estage st) ++
  map (fun o => fst (o_base o)) (filter is_final (x_reord_q st)).

Lemma sorted_lt_nodup l : StronglySorted N.lt l -> NoDup l.
Proof.
  induction 1 as [|a l S IH F]; constructor; auto.
  intro Hin. rewrite Forall_forall in F. specialize (F a Hin). lia.
Qed.

Lemma heads_in_owners st : own st -> incl (map hb (x_order_q st)) (owners st).
Proof.
  intros [OP _] b Hb. apply in_map_iff in Hb. destruct Hb as (h & <- & Hh). unfold owners.
  destruct (o_heads _ _ _ OP h Hh) as [[_ (j & J1 & J2 & J3)]|[(e & E1 & E2 & _)|(o & O1 & O2 & O3 & _)]].
  - apply in_or_app. left. apply in_map_iff. exists j. split; auto. apply filter_In. auto.
  - apply in_or_app. right. apply in_or_app. left. apply in_map_iff. exists e. auto.
  - apply in_or_app. right. apply in_or_app. right. apply in_map_iff. exists o. split; auto. apply filter_In. split; auto.
    unfold is_final. apply negb_true_iff. apply N.eqb_neq. exact O2.
Qed.

Lemma order_le_owners st : own st -> (length (x_order_q st) <= length (owners st))%nat.
Proof.
  intro OW. rewrite <- (map_length hb). apply NoDup_incl_length; [|apply heads_in_owners; auto].
  apply sorted_lt_nodup. apply OW.
Qed.

Lemma run_lists_len r : (length (run_jobs r) + length (run_ejobs r) <= length r)%nat.
Proof.
  induction r as [|c r IH]; simpl; auto. rewrite !app_length. destruct c; simpl; lia.
Qed.

Lemma owners_le_held st : N.of_nat (length (owners st)) <= units_held st + N.of_nat (length (x_reord_q st)).
Proof.
  unfold owners, units_held, estage, all_jobs. rewrite !app_length, !map_length, app_length.
  pose proof (filter_split_len (jm (x_unords st)) (x_retr_q st ++ run_jobs (x_running st))) as F1.
  pose proof (filter_split_len is_final (x_reord_q st)) as F2. rewrite app_length in F1.
  pose proof (run_lists_len (x_running st)). lia.
Qed.

(* capacity of order_q: deque_init(order_q, work_units + out_slots) *)
Theorem order_q_capacity cfg n tin tout ultra st :
  cfg_safe cfg -> cfg_drops cfg -> preach cfg (init_state n tin tout ultra) st -> x_failed st = None ->
  N.of_nat (length (x_order_q st)) <= cap_order_q (x_total_in st) (x_num_worker st) (x_total_out st).
Proof.
  intros CS CD R NF. destruct (own_preach _ _ _ _ _ _ CS CD R) as [_ OW]. specialize (OW NF).
  pose proof (order_le_owners st OW) as L1. pose proof (owners_le_held st) as L2.
  destruct (cnt_reach _ _ _ _ _ _ (preach_reach _ _ _ R)) as [KU KS _]. specialize (KU NF). specialize (KS NF).
  unfold cap_order_q, slots_held in *. lia.
Qed.

(* when the workers may exit nothing is left in the order: the run has completed *)
Theorem terminate_order_empty cfg n tin tout ultra st :
  cfg_safe cfg -> cfg_drops cfg -> preach cfg (init_state n tin tout ultra) st -> x_failed st = None ->
  can_terminate st = true -> x_order_q st = [].
Proof.
  intros CS CD R NF T. destruct (own_preach _ _ _ _ _ _ CS CD R) as [_ OW]. specialize (OW NF).
  pose proof (order_le_owners st OW) as L1. pose proof (owners_le_held st) as L2.
  destruct (cnt_reach _ _ _ _ _ _ (preach_reach _ _ _ R)) as [KU KS _]. specialize (KU NF). specialize (KS NF).
  unfold can_terminate in T. repeat (apply andb_true_iff in T; destruct T as [T ?]).
  unfold slots_held in *.
  assert (length (x_order_q st) = 0)%nat by lia. apply length_zero_iff_nil. assumption.
Qed.

(* the head of the order always has an owner: the master retriever of its block, an
   emit-stage job of its block that has not yet passed it, or the block's last buffer *)
Theorem order_head_owned cfg n tin tout ultra st h rest :
  cfg_safe cfg -> cfg_drops cfg -> preach cfg (init_state n tin tout ultra) st -> x_failed st = None ->
  x_order_q st = h :: rest ->
  (snd (h_base h) = 0 /\ exists j, In j (all_jobs st) /\ jm (x_unords st) j = true /\ fst (r_base j) = fst (h_base h)) \/
  (exists e, In e (estage st) /\ fst (e_base e) = fst (h_base h) /\ snd (h_base h) <= snd (e_base e)) \/
  (exists o, In o (x_reord_q st) /\ o_status o <> MORE /\ fst (o_base o) = fst (h_base h) /\ snd (h_base h) <= snd (o_base o)).
Proof.
  intros CS CD R NF OQ. destruct (own_preach _ _ _ _ _ _ CS CD R) as [_ OW]. destruct (OW NF) as [OP _].
  assert (Hh : In h (x_order_q st)) by (rewrite OQ; left; auto).
  destruct (o_heads _ _ _ OP h Hh) as [[Z M]|[L|L]]; [left; split; auto|right; left; auto|right; right; auto].
Qed.

(* every buffer with status MORE that waits in reord_q is followed by its block's emit job
   or last buffer *)
Theorem more_buffer_followed cfg n tin tout ultra st o :
  cfg_safe cfg -> cfg_drops cfg -> preach cfg (init_state n tin tout ultra) st -> x_failed st = None ->
  In o (x_reord_q st) -> o_status o = MORE -> la st (fst (o_base o)) (snd (o_base o) + 1).
Proof.
  intros CS CD R NF Ho S. destruct (own_preach _ _ _ _ _ _ CS CD R) as [_ OW]. destruct (OW NF) as [OP _].
  apply (o_more _ _ _ OP); auto.
Qed.

(* every record outside unord_q is referenced by a retrieve job, and no two by the same one *)
Definition link_ids (js : list rjob) : list N :=
  flat_map (fun j => match r_link j with Some id => [id] | None => [] end) js.

Lemma link_ids_len js : (length (link_ids js) <= length js)%nat.
Proof. induction js as [|j r IH]; simpl; auto. rewrite app_length. destruct (r_link j); simpl; lia. Qed.

Lemma link_ids_in js j id : In j js -> r_link j = Some id -> In id (link_ids js).
Proof. intros Hj L. unfold link_ids. apply in_flat_map. exists j. split; auto. rewrite L. left. auto. Qed.

Theorem unord_records_bound cfg n tin tout ultra st :
  cfg_safe cfg -> cfg_drops cfg -> preach cfg (init_state n tin tout ultra) st -> x_failed st = None ->
  (length (x_unords st) <= length (unord_q st) + length (all_jobs st))%nat.
Proof.
  intros CS CD R NF. destruct (own_preach _ _ _ _ _ _ CS CD R) as [IV OW]. destruct (OW NF) as [OP _].
  pose proof (filter_split_len u_inq (x_unords st)) as SP. unfold unord_q.
  assert (L : (length (filter (fun u => negb (u_inq u)) (x_unords st)) <= length (all_jobs st))%nat).
  { eapply Nat.le_trans; [|apply link_ids_len]. rewrite <- (map_length u_id).
    apply NoDup_incl_length.
    - apply nodup_map_filter. apply IV.
    - intros id Hid. apply in_map_iff in Hid. destruct Hid as (u & <- & Hu). apply filter_In in Hu. destruct Hu as [Hu Qu].
      apply negb_true_iff in Qu. destruct (o_u3 _ _ _ OP u Hu Qu) as (j & J1 & J2). eapply link_ids_in; eauto. }
  lia.
Qed.
