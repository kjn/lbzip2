(* Inversion of [step], event by event: the guards a locked segment has passed and the state it
   leaves, written as setters over the state it started from, so that every field of the new
   state reduces by [xs] (or by conversion alone).  attach, detach and advance stay folded:
   XFrame.v says what they overwrite (rewrite base xn). *)
From Coq Require Import List NArith Bool Lia ZifyBool ZifyN.
From LBZ Require Import Gen.Consts SchedX.XState Gen.SchedXTab SchedX.XSet SchedX.XModel SchedX.XLemmas SchedX.XFrame.
Import ListNotations.
Local Open Scope N_scope.

(* input blocks that leave input_q: freed if nobody is attached, zombies otherwise *)
Definition zrel (p : list inblk) : list inblk :=
  map (fun b => set_ref (N.pred (ib_ref b)) b) (filter (fun b => negb (ib_ref b =? 1)) p).
Definition nfree (p : list inblk) : N := fold_right (fun b a => (if ib_ref b =? 1 then 1 else 0) + a) 0 p.

Lemma rel_zom_eq l : forall st, rel_zom l st = x_zombies st ++ zrel l.
Proof.
  unfold rel_zom. induction l as [|b r IH]; intro st; cbn [fold_left].
  - symmetry. apply app_nil_r.
  - rewrite IH. unfold release_blk, zrel. cbn [filter]. destruct (ib_ref b =? 1); xs; [reflexivity|].
    rewrite <- app_assoc. reflexivity.
Qed.

Lemma rel_ins_eq l : forall st, rel_ins l st = x_in_slots st + nfree l.
Proof.
  unfold rel_ins. induction l as [|b r IH]; intro st; cbn [fold_left nfree fold_right].
  - symmetry. apply N.add_0_r.
  - rewrite IH. unfold release_blk. destruct (ib_ref b =? 1); xs; [symmetry; apply N.add_assoc|reflexivity].
Qed.

Lemma advance_pbs cfg bs st : x_parser_bs (advance cfg bs st) = bs.
Proof. autorewrite with xn. reflexivity. Qed.

Definition drop_if (b : bool) (l : option N) (s : xstate) : xstate :=
  if b then set_unords (drop_link l (x_unords s)) s else s.

(* do_retrieve after the unord store has been brought up to date ([sa]): the job is queued again
   (or dropped as stale), or it hands its block to the emit stage after [fin] *)
Definition retr1_tail (cfg : xcfg) (j : rjob) (rv : N) (cur : dbs) (fin : xstate -> xstate) (sa : xstate) : xstate :=
  if rv =? MORE then
    if c_requeue_retr_checks_head cfg && (d_off cur <? x_head_offs sa)
    then give_unit (drop_if (c_stale_drops_link cfg) (r_link j) sa)
    else set_retr_q (mkrjob (r_base j) cur (r_link j) :: x_retr_q sa) sa
  else add_run (CRetr2 (mkejob (r_base j) rv (d_off cur))) (fin sa).

Lemma drop_if_nf b l s : drop_if b l s = set_unords (x_unords (drop_if b l s)) s.
Proof. destruct b; [reflexivity|destruct s; reflexivity]. Qed.

Definition fin_master (l : option N) (s : xstate) : xstate :=
  match l with
  | Some id => set_unords (del_unord id (x_unords s)) (set_parse_token true s)
  | None => set_parse_token true s
  end.

Lemma fin_master_nf l s : fin_master l s = set_unords (x_unords (fin_master l s)) (set_parse_token true s).
Proof. destruct l; [reflexivity|destruct s; reflexivity]. Qed.

Definition fin_spec (id : N) (cur : dbs) (s : xstate) : xstate :=
  set_unords (upd_unord id (fun u => u_set_complete (u_set_end cur u)) (x_unords s)) s.

Lemma retr1_tail_nf cfg j rv cur fin sa :
  (forall s, fin s = set_unords (x_unords (fin s)) (set_parse_token (x_parse_token (fin s)) s)) ->
  let r := retr1_tail cfg j rv cur fin sa in
  r = set_running (x_running r) (set_parse_token (x_parse_token r) (set_unords (x_unords r)
        (set_retr_q (x_retr_q r) (set_work_units (x_work_units r) sa)))).
Proof.
  intro F. unfold retr1_tail, drop_if, add_run, give_unit.
  destruct (rv =? MORE); [destruct (_ && _); [destruct (c_stale_drops_link cfg)|]|rewrite (F sa)]; destruct sa; reflexivity.
Qed.

Lemma fin_master_nf' l s : fin_master l s = set_unords (x_unords (fin_master l s)) (set_parse_token (x_parse_token (fin_master l s)) s).
Proof. destruct l; destruct s; reflexivity. Qed.

Lemma fin_spec_nf id cur s : fin_spec id cur s = set_unords (x_unords (fin_spec id cur s)) (set_parse_token (x_parse_token (fin_spec id cur s)) s).
Proof. destruct s; reflexivity. Qed.

Inductive retr1_case (cfg : xcfg) (j : rjob) (rv : N) (cur : dbs) (s2 st' : xstate) : Prop :=
| R1done : x_parsing_done s2 = true ->
           st' = give_unit (drop_if (c_retr_done_drops_link cfg) (r_link j) s2) -> retr1_case cfg j rv cur s2 st'
| R1abort u : x_parsing_done s2 = false -> link_state (r_link j) s2 = Some u -> u_complete u = true -> u_legit u = false ->
           st' = give_unit (drop_if (c_retr_abort_drops_link cfg) (r_link j) s2) -> retr1_case cfg j rv cur s2 st'
| R1master : x_parsing_done s2 = false ->
           (r_link j = None \/ exists u, link_state (r_link j) s2 = Some u /\ u_complete u = true /\ u_legit u = true) ->
           st' = retr1_tail cfg j rv cur (fin_master (r_link j)) (advance cfg cur s2) -> retr1_case cfg j rv cur s2 st'
| R1spec id : x_parsing_done s2 = false -> r_link j = Some id ->
           (forall u, link_state (r_link j) s2 = Some u -> u_complete u = false) ->
           st' = retr1_tail cfg j rv cur (fin_spec id cur)
                   (set_unords (upd_unord id (u_set_end cur) (x_unords s2)) s2) -> retr1_case cfg j rv cur s2 st'.

(* the candidate [s'] reported by scan(): already known or stale, no room, or a new speculative job *)
Definition new_cand (s' : dbs) (s2 : xstate) : xstate :=
  set_retr_q (mkrjob (d_pos s') s' (Some (x_next_uid s2)) :: x_retr_q s2)
    (set_next_uid (x_next_uid s2 + 1)
       (set_unords (x_unords s2 ++ [mkunord (x_next_uid s2) (d_pos s') s' false false true]) s2)).

Definition scan1_cand (cfg : xcfg) (s' : dbs) (s2 : xstate) : xstate :=
  if pos_le (d_pos s') (d_pos (x_parser_bs s2)) || (c_scan_job_checks_head cfg && (d_off s' <? x_head_offs s2))
  then give_unit s2
  else if c_scan_checks_unord_cap cfg && unord_full s2 then give_unit s2 else new_cand s' s2.

Definition scan1_requeue (cfg : xcfg) (s' : dbs) (more : bool) (s3 : xstate) : xstate :=
  if more && (negb (c_requeue_scan_checks_head cfg) || (x_head_offs s3 <=? d_off s'))
  then set_scan_q (s' :: x_scan_q s3) s3 else s3.

Lemma scan1_cand_eta cfg s' s2 :
  let c := scan1_cand cfg s' s2 in
  c = set_work_units (x_work_units c) (set_retr_q (x_retr_q c) (set_next_uid (x_next_uid c) (set_unords (x_unords c) s2))).
Proof.
  unfold scan1_cand, new_cand, give_unit. destruct (_ || _); [|destruct (_ && _)]; destruct s2; reflexivity.
Qed.

Lemma del_run_inv c st s1 : del_run c st = Some s1 ->
  exists l1 l2, x_running st = l1 ++ c :: l2 /\ s1 = set_running (l1 ++ l2) st.
Proof.
  unfold del_run. destruct (remove_one cont_eqb c (x_running st)) as [r|] eqn:R; [|discriminate].
  intros [= <-]. destruct (remove_one_split _ cont_eqb_eq _ _ _ R) as (l1 & l2 & E1 & ->). eauto.
Qed.

Lemma selects_ready t st : selects t st = true -> ready t st = true.
Proof.
  unfold selects, first_ready. destruct (find _ task_list) as [u|] eqn:F; [|discriminate].
  destruct (find_some _ _ F) as [_ R]. destruct t, u; try discriminate; intros _; exact R.
Qed.

Lemma take_min_split {A} (eqb : A -> A -> bool) key x q q' :
  (forall a b, eqb a b = true -> a = b) -> take_min eqb key x q = Some q' ->
  exists l1 l2, q = l1 ++ x :: l2 /\ q' = l1 ++ l2.
Proof. intros EQ H. apply take_min_spec in H. exact (remove_one_split eqb EQ _ _ _ (proj1 H)). Qed.

Lemma input_inv sz m st st' : input sz m st = Some st' ->
  x_eof st = false /\ 0 < x_in_slots st /\ 0 < sz /\ m < 4 /\
  if x_parsing_done st then st' = st
  else st' = set_scan_q (mkdbs (32 * x_tail_offs st) (x_tail_offs st) :: x_scan_q st)
               (set_input_q (x_input_q st ++ [mkinblk (x_tail_offs st) sz 1])
                  (set_tail_offs (x_tail_offs st + sz) (set_eof_missing m (set_in_slots (N.pred (x_in_slots st)) st)))).
Proof.
  unfold input. destruct (_ && _) eqn:C; [|discriminate].
  assert (G : x_eof st = false /\ 0 < x_in_slots st /\ 0 < sz /\ m < 4) by (destruct (x_eof st); simpl in C; lia).
  destruct (x_parsing_done st); intros [= <-]; tauto.
Qed.

Lemma reader_eof_inv st st' : reader_eof st = Some st' -> x_eof st = false /\ st' = set_eof true st.
Proof. unfold reader_eof. destruct (x_eof st); [discriminate|]. intros [= <-]. auto. Qed.

Lemma written_inv st st' : written st = Some st' ->
  0 < x_outq st /\ st' = set_out_slots (x_out_slots st + 1) (set_outq (N.pred (x_outq st)) st).
Proof. unfold written. destruct (0 <? x_outq st) eqn:C; [|discriminate]. intros [= <-]. split; [lia|reflexivity]. Qed.

Lemma parse0_inv st st' : parse0 st = Some st' ->
  selects TParse st = true /\
  let a := attach (x_parser_bs st) (set_work_units (N.pred (x_work_units st)) (set_parse_token false st)) in
  st' = add_run (CParse (snd a)) (fst a).
Proof. unfold parse0. destruct (selects TParse st); [|discriminate]. destruct (attach _ _). intros [= <-]. auto. Qed.

Lemma retr0_inv j st st' : retr0 j st = Some st' ->
  selects TRetrieve st = true /\ exists q, take_min rjob_eqb rkey j (x_retr_q st) = Some q /\
  let a := attach (r_cur j) (set_retr_q q st) in st' = add_run (CRetr j (snd a)) (fst a).
Proof.
  unfold retr0. destruct (selects TRetrieve st); [|discriminate].
  destruct (take_min _ _ _ _) as [q|]; [|discriminate]. destruct (attach _ _) eqn:A. intros [= <-].
  split; [reflexivity|]. exists q. rewrite A. auto.
Qed.

Lemma scan0_inv st st' : scan0 st = Some st' ->
  selects TScan st = true /\ exists s l1 l2, qmin d_pos pos_lt (x_scan_q st) = Some s /\ x_scan_q st = l1 ++ s :: l2 /\
  let a := attach s (set_scan_q (l1 ++ l2) (set_work_units (N.pred (x_work_units st)) st)) in
  st' = add_run (CScan s (snd a)) (fst a).
Proof.
  unfold scan0. destruct (selects TScan st); [|discriminate].
  destruct (qmin _ _ _) as [s|]; [|discriminate]. destruct (remove_one _ _ _) as [q|] eqn:R; [|discriminate].
  destruct (remove_one_split _ dbs_eqb_eq _ _ _ R) as (l1 & l2 & E & ->).
  destruct (attach _ _) eqn:A. intros [= <-]. split; [reflexivity|]. exists s, l1, l2. rewrite A. auto.
Qed.

Lemma emit0_inv st st' : emit0 st = Some st' ->
  selects TEmit st = true /\ exists e l1 l2, qmin e_base pos_lt (x_emit_q st) = Some e /\ x_emit_q st = l1 ++ e :: l2 /\
  st' = add_run (CEmit e) (set_emit_q (l1 ++ l2) (set_out_slots (N.pred (x_out_slots st)) st)).
Proof.
  unfold emit0. destruct (selects TEmit st); [|discriminate].
  destruct (qmin _ _ _) as [e|]; [|discriminate]. destruct (remove_one _ _ _) as [q|] eqn:R; [|discriminate].
  destruct (remove_one_split _ ejob_eqb_eq _ _ _ R) as (l1 & l2 & E & ->).
  intros [= <-]. split; [reflexivity|]. exists e, l1, l2. auto.
Qed.

Lemma parse1_inv cfg att r st st' : parse1 cfg att r st = Some st' ->
  exists l1 l2, x_running st = l1 ++ CParse att :: l2 /\ del_run (CParse att) st = Some (set_running (l1 ++ l2) st) /\
  let bs := res_bs r in
  let s3 := advance cfg bs (detach att (set_running (l1 ++ l2) st)) in
  dbs_ok bs = true /\ d_bit (x_parser_bs st) <= d_bit bs /\ d_off (x_parser_bs st) <= d_off bs /\ d_off bs <= att_end att st /\
  match r with
  | PMore _ ps => d_off bs = att_end att st /\ dbs_norm bs = true /\ st' = set_work_units (x_work_units s3 + 1) (set_parse_token true (set_par ps s3))
  | PFinish _ g => g <= 32 /\ g <= d_bit bs /\ st' = parse_finish cfg g s3
  | PErr _ code => code <> OK /\ code <> MORE /\ code <> FINISH /\ st' = fail code s3
  | POk _ ps lv crc => dbs_norm bs = true /\ st' = parse_ok cfg lv crc (set_par ps (set_next (d_bit bs) s3))
  end.
Proof.
  unfold parse1. destruct (del_run _ st) as [s1|] eqn:D; [|discriminate].
  destruct (del_run_inv _ _ _ D) as (l1 & l2 & E & ->). intro H. exists l1, l2. split; [exact E|]. split; [reflexivity|]. cbv zeta.
  change (att_end att (set_running (l1 ++ l2) st)) with (att_end att st) in H.
  change (x_parser_bs (set_running (l1 ++ l2) st)) with (x_parser_bs st) in H.
  destruct (_ && _) eqn:C in H; [|discriminate].
  repeat (split; [clear H; lia|]).
  destruct r; cbn [res_bs] in *.
  - destruct (_ && _) eqn:C2 in H; [|discriminate]. injection H as <-. clear C. repeat split; lia.
  - destruct (_ && _) eqn:C2 in H; [|discriminate]. injection H as <-. clear C. repeat split; lia.
  - destruct (_ || _) eqn:C2 in H; [discriminate|]. injection H as <-. repeat split; intros ->; discriminate.
  - destruct (dbs_norm bs) eqn:C2; [|discriminate]. injection H as <-. auto.
Qed.

Lemma retr1_inv cfg j att rv cur st st' : retr1 cfg j att rv cur st = Some st' ->
  exists l1 l2, x_running st = l1 ++ CRetr j att :: l2 /\ del_run (CRetr j att) st = Some (set_running (l1 ++ l2) st) /\
  dbs_ok cur = true /\ d_bit (r_cur j) <= d_bit cur /\ d_off (r_cur j) <= d_off cur /\ d_off cur <= att_end att st /\
  rv <> FINISH /\ (rv = MORE -> d_off cur = att_end att st /\ dbs_norm cur = true /\ d_off (r_cur j) < d_off cur) /\
  retr1_case cfg j rv cur (detach att (set_running (l1 ++ l2) st)) st'.
Proof.
  unfold retr1. destruct (del_run _ st) as [s1|] eqn:D; [|discriminate].
  destruct (del_run_inv _ _ _ D) as (l1 & l2 & E & ->). intro H. exists l1, l2. split; [exact E|]. split; [reflexivity|].
  change (att_end att (set_running (l1 ++ l2) st)) with (att_end att st) in H.
  destruct (_ && _) eqn:C in H; [|discriminate].
  assert (G : dbs_ok cur = true /\ d_bit (r_cur j) <= d_bit cur /\ d_off (r_cur j) <= d_off cur /\ d_off cur <= att_end att st /\
              rv <> FINISH /\ (rv = MORE -> d_off cur = att_end att st /\ dbs_norm cur = true /\ d_off (r_cur j) < d_off cur))
    by (clear H; destruct (rv =? MORE) eqn:RV in C; repeat split; lia).
  destruct G as (G1 & G2 & G3 & G4 & G5 & G6). repeat (split; [assumption|]). clear C.
  set (s2 := detach att (set_running (l1 ++ l2) st)) in *. clearbody s2. cbv zeta in H.
  destruct (x_parsing_done s2) eqn:PD; [injection H as <-; apply R1done; auto|].
  destruct (link_state (r_link j) s2) as [u|] eqn:LS.
  - assert (L : exists id, r_link j = Some id) by (destruct (r_link j); [eauto|discriminate]). destruct L as [id L].
    rewrite L in H. cbn [andb negb orb] in H. destruct (u_complete u) eqn:UC; cbn [andb negb orb] in H.
    + destruct (u_legit u) eqn:UL; cbn [andb negb orb] in H.
      * apply R1master; [exact PD|right; eauto|].
        unfold retr1_tail, fin_master. rewrite L. destruct (rv =? MORE); [destruct (_ && _)|]; injection H as <-; reflexivity.
      * injection H as <-. apply (R1abort _ _ _ _ _ _ u PD LS UC UL). rewrite L. reflexivity.
    + apply (R1spec _ _ _ _ _ _ id); [exact PD|exact L|intros u0 X; congruence|].
      unfold retr1_tail, fin_spec. rewrite L. destruct (rv =? MORE); [destruct (_ && _)|]; injection H as <-; reflexivity.
  - destruct (r_link j) as [id|] eqn:L; cbn [andb negb orb] in H.
    + apply (R1spec _ _ _ _ _ _ id); [exact PD|exact L|rewrite L; intros u X; congruence|].
      unfold retr1_tail, fin_spec. rewrite L. destruct (rv =? MORE); [destruct (_ && _)|]; injection H as <-; reflexivity.
    + apply R1master; [exact PD|left; exact L|].
      unfold retr1_tail, fin_master. rewrite L. destruct (rv =? MORE); [destruct (_ && _)|]; injection H as <-; reflexivity.
Qed.

Lemma retr2_inv e st st' : retr2 e st = Some st' ->
  exists l1 l2, x_running st = l1 ++ CRetr2 e :: l2 /\ del_run (CRetr2 e) st = Some (set_running (l1 ++ l2) st) /\ st' = set_emit_q (e :: x_emit_q st) (set_running (l1 ++ l2) st).
Proof.
  unfold retr2. destruct (del_run _ st) as [s1|] eqn:D; [|discriminate].
  destruct (del_run_inv _ _ _ D) as (l1 & l2 & E & ->). intros [= <-]. eauto.
Qed.

Lemma emit1_inv e rv size crc blksz st st' : emit1 e rv size crc blksz st = Some st' ->
  exists l1 l2, x_running st = l1 ++ CEmit e :: l2 /\ del_run (CEmit e) st = Some (set_running (l1 ++ l2) st) /\
  (e_status e = OK \/ rv = e_status e) /\ rv <> FINISH /\
  let s1 := set_running (l1 ++ l2) st in
  if rv =? MORE
  then st' = set_reord_q (mkoblk (e_base e) size crc blksz rv 0 :: x_reord_q st)
               (set_emit_q (mkejob (fst (e_base e), snd (e_base e) + 1) (e_status e) (e_end e) :: x_emit_q st) s1)
  else st' = set_reord_q (mkoblk (e_base e) size crc blksz rv (e_end e) :: x_reord_q st) (give_unit s1).
Proof.
  unfold emit1. destruct (del_run _ st) as [s1|] eqn:D; [|discriminate].
  destruct (del_run_inv _ _ _ D) as (l1 & l2 & E & ->). destruct (_ && _) eqn:C; [|discriminate]. intro H.
  exists l1, l2. split; [exact E|]. split; [reflexivity|]. split; [lia|]. split; [lia|]. destruct (rv =? MORE); injection H as <-; reflexivity.
Qed.

(* do_reorder takes the least buffer [o]: it is dropped (nothing confirmed, or below the head of
   the order), or it belongs to the head [ord] and is handed to the writer *)
Definition ro_status (ord : head) (o : oblk) : N := if h_bs100k ord * 100000 <? o_blksz o then E_ERR_OVERFLOW else o_status o.
Definition ro_final (ord : head) (o : oblk) : N :=
  if (ro_status ord o =? OK) && negb (o_crc o =? h_crc ord) then E_ERR_BLKCRC else ro_status ord o.
Definition ro_hand (o : oblk) (st : xstate) : xstate :=
  set_outq (x_outq st + 1) (set_written (x_written st ++ [(o_base o, o_size o)]) st).
Definition ro_offs (o : oblk) (st : xstate) : xstate :=
  set_reord_offs (x_reord_offs st + (if x_reord_offs st <? o_end o then o_end o - x_reord_offs st else 0)) st.

Inductive reorder_case (o : oblk) (s1 st' : xstate) : Prop :=
| ROdrop : (x_order_q s1 = [] /\ x_parsing_done s1 = true \/
            exists ord rest, x_order_q s1 = ord :: rest /\ pos_lt (o_base o) (h_base ord) = true) ->
           st' = set_out_slots (x_out_slots s1 + 1) s1 -> reorder_case o s1 st'
| ROmore ord rest : x_order_q s1 = ord :: rest -> o_base o = h_base ord -> ro_status ord o = MORE ->
           st' = ro_hand o (set_order_q (mkhead (fst (h_base ord), snd (h_base ord) + 1) (h_bs100k ord) (h_crc ord) :: rest)
                              (ro_offs o s1)) -> reorder_case o s1 st'
| ROlast ord rest : x_order_q s1 = ord :: rest -> o_base o = h_base ord -> ro_status ord o <> MORE ->
           ro_final ord o = OK -> st' = ro_hand o (set_order_q rest (ro_offs o s1)) -> reorder_case o s1 st'
| ROfail ord rest : x_order_q s1 = ord :: rest -> o_base o = h_base ord -> ro_status ord o <> MORE ->
           ro_final ord o <> OK -> st' = fail (ro_final ord o) (set_order_q rest (ro_offs o s1)) -> reorder_case o s1 st'.

Lemma reorder_inv st st' : reorder st = Some st' ->
  selects TReorder st = true /\ exists o l1 l2, qmin o_base pos_lt (x_reord_q st) = Some o /\ x_reord_q st = l1 ++ o :: l2 /\
  reorder_case o (set_reord_q (l1 ++ l2) st) st'.
Proof.
  unfold reorder. destruct (selects TReorder st) eqn:SEL; [|discriminate].
  apply selects_ready in SEL. cbn [ready] in SEL. unfold can_reorder, peek_reord, order_head in SEL.
  destruct (qmin _ _ _) as [o|]; [|discriminate]. destruct (remove_one _ _ _) as [q|] eqn:R; [|discriminate].
  destruct (remove_one_split _ oblk_eqb_eq _ _ _ R) as (l1 & l2 & E & ->). intro H.
  split; [reflexivity|]. exists o, l1, l2. split; [reflexivity|]. split; [exact E|].
  change (x_order_q st) with (x_order_q (set_reord_q (l1 ++ l2) st)) in SEL.
  change (x_parsing_done st) with (x_parsing_done (set_reord_q (l1 ++ l2) st)) in SEL.
  set (s1 := set_reord_q (l1 ++ l2) st) in *. clearbody s1.
  destruct (x_order_q s1) as [|ord rest] eqn:OQ.
  { injection H as <-. apply ROdrop; [left; split; [exact OQ|]|reflexivity]. cbn in SEL. lia. }
  destruct (pos_lt (o_base o) (h_base ord)) eqn:LT; [injection H as <-; apply ROdrop; eauto|].
  assert (EB : o_base o = h_base ord).
  { apply pos_lt_total; [exact LT|]. cbn in SEL. unfold pos_le in SEL. clear H. lia. }
  fold (ro_offs o s1) in H. fold (ro_status ord o) in H.
  destruct (ro_status ord o =? MORE) eqn:SM; [injection H as <-; eapply ROmore; eauto; clear SEL; lia|].
  fold (ro_final ord o) in H.
  clear SEL. destruct (ro_final ord o =? OK) eqn:SF; injection H as <-; [eapply ROlast|eapply ROfail]; eauto; lia.
Qed.

Lemma scan1_inv cfg s att found s' more st st' : scan1 cfg s att found s' more st = Some st' ->
  exists l1 l2, x_running st = l1 ++ CScan s att :: l2 /\ del_run (CScan s att) st = Some (set_running (l1 ++ l2) st) /\
  let s2 := detach att (set_running (l1 ++ l2) st) in
  ((found = false \/ x_parsing_done s2 = true) /\ st' = give_unit s2) \/
  (found = true /\ x_parsing_done s2 = false /\ dbs_norm s' = true /\ d_off s <= d_off s' /\ d_off s' <= att_end att st /\
   more = (d_off s' <? att_end att st) /\ st' = scan1_requeue cfg s' more (scan1_cand cfg s' s2)).
Proof.
  unfold scan1. destruct (del_run _ st) as [s1|] eqn:D; [|discriminate].
  destruct (del_run_inv _ _ _ D) as (l1 & l2 & E & ->). intro H. exists l1, l2. split; [exact E|]. split; [reflexivity|]. cbv zeta.
  change (att_end att (set_running (l1 ++ l2) st)) with (att_end att st) in H.
  set (s2 := detach att (set_running (l1 ++ l2) st)) in *. clearbody s2.
  destruct (negb found || x_parsing_done s2) eqn:F; [injection H as <-; left; split; [|reflexivity]|].
  { destruct found; auto. }
  destruct (_ && _) eqn:C in H; [|discriminate]. right.
  assert (M : more = (d_off s' <? att_end att st)) by (clear H; apply eqb_prop; lia).
  destruct found; [|discriminate]. repeat (split; [clear H; lia|]).
  unfold scan1_requeue, scan1_cand, new_cand. cbv zeta in H.
  match type of H with (if ?c then _ else _) = _ => destruct c end; injection H as <-; reflexivity.
Qed.

Lemma parse_finish_eq cfg g s :
  let pb := x_parser_bs s in
  let pb' := mkdbs (d_bit pb - g) (if 32 <=? 32 * d_off pb - d_bit pb + g then N.pred (d_off pb) else d_off pb) in
  let s0 := set_parser_bs pb' (set_parsing_done true (set_parse_token true (set_closed true s))) in
  let us := if c_finish_drops_link cfg then drop_links (x_retr_q s) (x_unords s) else x_unords s in
  let w := x_work_units s + N.of_nat (length (x_retr_q s)) in
  parse_finish cfg g s =
  if (d_off pb' =? x_tail_offs s) && (32 * d_off pb' - d_bit pb' <? 8 * x_eof_missing s) then fail E_ERR_EOF s0
  else set_work_units (w + 1)
         (set_head_offs (x_head_offs s + sum_sizes (x_input_q s))
            (set_zombies (x_zombies s ++ zrel (x_input_q s)) (set_in_slots (x_in_slots s + nfree (x_input_q s))
               (set_input_q [] (set_unords (flush_unords us) (set_scan_q []
                  (set_work_units w (set_retr_q [] (set_unords us s0))))))))).
Proof.
  intros pb pb' s0 us w. unfold parse_finish. cbv zeta. fold pb pb' s0.
  destruct (_ && _); [reflexivity|]. rewrite fold_release_nf, rel_zom_eq, rel_ins_eq.
  (* the links are dropped or not: either way an overwrite of the store *)
  set (sb := if c_finish_drops_link cfg then _ else _).
  assert (E : sb = set_unords us s0)
    by (subst sb us; destruct (c_finish_drops_link cfg); [reflexivity|subst s0; destruct s; reflexivity]).
  rewrite E. unfold give_unit. xs. reflexivity.
Qed.

Lemma parse_ok_cases cfg lv crc s :
  let p := d_pos (x_parser_bs s) in
  let s2 := set_unords (discard_below p (x_unords s)) (set_order_q (x_order_q s ++ [mkhead p lv crc]) s) in
  ((forall u, qmin u_base pos_lt (unord_q s2) = Some u -> u_base u <> p) /\
   parse_ok cfg lv crc s = set_retr_q (mkrjob p (x_parser_bs s) None :: x_retr_q s) s2) \/
  exists u, qmin u_base pos_lt (unord_q s2) = Some u /\ u_base u = p /\
    let s3 := advance cfg (u_end u) s2 in
    parse_ok cfg lv crc s =
    give_unit (if u_complete u then set_parse_token true (set_unords (del_unord (u_id u) (x_unords s3)) s3)
               else set_unords (upd_unord (u_id u) (u_detach true) (x_unords s3)) s3).
Proof.
  cbv zeta. unfold parse_ok. set (s2 := set_unords _ _). destruct (qmin _ _ _) as [u|]; [|left; split; [discriminate|reflexivity]].
  destruct (pos_eq (u_base u) _) eqn:PE.
  - right. exists u. apply pos_eq_spec in PE. split; [reflexivity|]. split; [exact PE|]. destruct (u_complete u); reflexivity.
  - left. split; [|reflexivity]. intros u0 [= <-] X. apply pos_eq_spec in X. congruence.
Qed.
