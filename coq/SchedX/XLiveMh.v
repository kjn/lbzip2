(* Liveness of the decompression scheduler: the invariant [llm] (XLiveDefs.v).

     ll_mh  while the parser has not finished, the block of every master retrieve job
            still has its head in order_q
     ll_tw  the parse token is never stranded without a work unit: when the token is free
            and no work unit is, the block confirmed last is still in the emit stage (its
            emit job gives a unit back when it finishes)

   [llm] is inductive given [inv] (XInvDefs) and [lld] (the lines have pairwise distinct
   bit positions) of the pre-state; [lld] is needed for do_reorder only: a head leaves
   order_q when the last buffer of its block is consumed, and then no master job and no
   emit-stage job of that block exists.

   The two clauses are transferred separately ([mhp] with an explicit list of jobs, [twp]);
   [mview] is what they read of a state. *)
From Coq Require Import List NArith Bool Lia Arith ZifyBool ZifyN ZifyNat Sorted.
From LBZ Require Import Gen.Consts SchedX.XState Gen.SchedXTab SchedX.XSet SchedX.XModel SchedX.XLemmas
  SchedX.XFrame SchedX.XInvDefs SchedX.XOps SchedX.XInv SchedX.XInv2 SchedX.XInv3 SchedX.XInv4 SchedX.XOracle
  SchedX.XSeq SchedX.XCount SchedX.XOwn SchedX.XOwnAdv SchedX.XOwnRetr SchedX.XOwnProofs SchedX.XLiveDefs SchedX.XLiveRd SchedX.XLiveDist.
Import ListNotations.
Local Open Scope N_scope.

(* [JL]: the retrieve jobs (queued or running) *)
Definition mhp (JL : list rjob) (st : xstate) : Prop :=
  x_parsing_done st = false -> forall j, In j JL -> jm (x_unords st) j = true ->
  exists h, In h (x_order_q st) /\ hb h = jbit j.

Definition twp (st : xstate) : Prop :=
  x_parsing_done st = false -> x_parse_token st = true -> x_work_units st = 0 ->
  exists h e, In h (x_order_q st) /\ In e (estage st) /\ ebit e = hb h.

Lemma llm_parts st : llm st -> mhp (all_jobs st) st /\ twp st.
Proof. intros [A B]. split; auto. Qed.

Lemma llm_of_parts st : mhp (all_jobs st) st -> twp st -> llm st.
Proof. intros A B. constructor; auto. Qed.

Lemma llm_done st : x_parsing_done st = true -> llm st.
Proof. intro P. constructor; intro Q; congruence. Qed.

Lemma mhp_transfer JL JL' st st' :
  (x_parsing_done st' = false -> x_parsing_done st = false) ->
  (forall h, In h (x_order_q st) -> exists h', In h' (x_order_q st') /\ hb h' = hb h) ->
  (forall j, In j JL' -> jm (x_unords st') j = true ->
     exists j0, In j0 JL /\ jm (x_unords st) j0 = true /\ jbit j0 = jbit j) ->
  mhp JL st -> mhp JL' st'.
Proof.
  intros PD HO HJ A P j Hj J. destruct (HJ j Hj J) as (j0 & J1 & J2 & J3).
  destruct (A (PD P) j0 J1 J2) as (h & H1 & H2). destruct (HO h H1) as (h' & H3 & H4).
  exists h'. split; auto. congruence.
Qed.

Lemma mhp_same JL JL' st st' :
  x_parsing_done st' = x_parsing_done st -> x_order_q st' = x_order_q st -> x_unords st' = x_unords st ->
  (forall j, In j JL' -> In j JL) -> mhp JL st -> mhp JL' st'.
Proof.
  intros E1 E2 E3 EJ. apply mhp_transfer.
  - congruence.
  - intros h Hh. exists h. rewrite E2. auto.
  - intros j Hj J. exists j. rewrite E3 in J. auto.
Qed.

Lemma twp_transfer st st' :
  (x_parsing_done st' = false -> x_parsing_done st = false) ->
  (forall h, In h (x_order_q st) -> exists h', In h' (x_order_q st') /\ hb h' = hb h) ->
  (forall e, In e (estage st) -> exists e', In e' (estage st') /\ ebit e' = ebit e) ->
  (x_parse_token st' = true -> x_work_units st' = 0 -> x_parse_token st = true /\ x_work_units st = 0) ->
  twp st -> twp st'.
Proof.
  intros PD HO HE HT B P T W. destruct (HT T W) as [T0 W0].
  destruct (B (PD P) T0 W0) as (h & e & H1 & H2 & H3).
  destruct (HO h H1) as (h' & H4 & H5). destruct (HE e H2) as (e' & H6 & H7).
  exists h', e'. repeat split; auto. congruence.
Qed.

Lemma twp_same st st' :
  x_parsing_done st' = x_parsing_done st -> x_order_q st' = x_order_q st ->
  x_parse_token st' = x_parse_token st -> x_work_units st' = x_work_units st ->
  (forall e, In e (estage st) -> In e (estage st')) -> twp st -> twp st'.
Proof.
  intros E1 E2 E3 E4 EE. apply twp_transfer.
  - congruence.
  - intros h Hh. exists h. rewrite E2. auto.
  - intros e He. exists e. auto.
  - rewrite E3, E4. auto.
Qed.

Lemma twp_vac st :
  (x_parsing_done st = false -> x_parse_token st = true -> x_work_units st = 0 -> False) -> twp st.
Proof. intros V P T W. destruct (V P T W). Qed.

Lemma succ_not_zero (x : N) : x + 1 = 0 -> False.
Proof. lia. Qed.

(* no master at all and a free work unit *)
Lemma llm_nomaster_unit st :
  (forall j, In j (all_jobs st) -> jm (x_unords st) j = false) -> x_work_units st <> 0 -> llm st.
Proof.
  intros NM W. constructor.
  - intros _ j Hj J. rewrite (NM j Hj) in J. discriminate.
  - intros _ _ Z. destruct (W Z).
Qed.

Lemma jm_sub us us' j : (forall u, In u us' -> In u us) -> jm us' j = true -> jm us j = true.
Proof.
  intro S. unfold jm. destruct (r_link j) as [id|]; auto. rewrite !existsb_exists.
  intros (u & Hu & E). exists u. auto.
Qed.

(* advance(): jobs and masters only disappear *)
Lemma adv_jobs_sub cfg bs st j : In j (all_jobs (advance cfg bs st)) -> In j (all_jobs st).
Proof.
  unfold all_jobs. rewrite adv_retr_q, advance_eq. xs. rewrite !in_app_iff. intros [H|H]; auto.
  left. eapply adv_retr_sub; eauto.
Qed.

Lemma adv_jm cfg bs st j :
  Forall unord_ok (x_unords st) -> jm (x_unords (advance cfg bs st)) j = true -> jm (x_unords st) j = true.
Proof.
  intros UO. destruct (adv_fields cfg bs st) as [_ EU]. cbv zeta in EU. rewrite EU.
  destruct (c_advance_drops_link cfg); auto. apply jm_stems; auto.
  intros u Hu. eapply drop_links_stems; eauto.
Qed.

Lemma adv_unord_ok cfg bs st : Forall unord_ok (x_unords st) -> Forall unord_ok (x_unords (advance cfg bs st)).
Proof.
  intros UO. destruct (adv_fields cfg bs st) as [_ EU]. cbv zeta in EU. rewrite EU.
  destruct (c_advance_drops_link cfg); auto. apply Forall_forall. intros u Hu.
  destruct (drop_links_stems _ _ _ Hu) as (u0 & H0 & S0). eapply unord_ok_stems; eauto.
  rewrite Forall_forall in UO. auto.
Qed.

Lemma adv_nomaster cfg bs st :
  Forall unord_ok (x_unords st) -> (forall j, In j (all_jobs st) -> jm (x_unords st) j = false) ->
  forall j, In j (all_jobs (advance cfg bs st)) -> jm (x_unords (advance cfg bs st)) j = false.
Proof.
  intros UO NM j Hj. destruct (jm (x_unords (advance cfg bs st)) j) eqn:J; auto.
  apply adv_jm in J; auto. rewrite (NM j (adv_jobs_sub _ _ _ _ Hj)) in J. discriminate.
Qed.

Ltac lnrm := unfold all_jobs, estage; xnorm.

(* what [llm] reads of a state *)
Definition mview (st : xstate) :=
  (x_parsing_done st, x_order_q st, x_unords st, x_retr_q st, x_running st, x_emit_q st, x_parse_token st, x_work_units st).

Lemma llm_mview st st' : mview st' = mview st -> llm st -> llm st'.
Proof.
  intros [= E1 E2 E3 E4 E5 E6 E7 E8] I. destruct (llm_parts _ I) as [A B]. apply llm_of_parts.
  - eapply mhp_same; [..|exact A]; auto. unfold all_jobs. rewrite E4, E5. auto.
  - eapply twp_same; [..|exact B]; auto. unfold estage. rewrite E5, E6. auto.
Qed.

(* the parser takes the token *)
Lemma llm_parse0 st st' : llm st -> parse0 st = Some st' -> llm st'.
Proof.
  intros I H. destruct (parse0_inv _ _ H) as [_ ->]. cbv zeta. rewrite attach_nf.
  destruct (llm_parts _ I) as [MH TW]. apply llm_of_parts.
  - eapply mhp_same; [..|exact MH]; try reflexivity. auto.
  - apply twp_vac. intros _ T. discriminate T.
Qed.

(* can_scan(): the last work unit is not spent on scanning while the parse token is free *)
Lemma llm_scan0 st st' : llm st -> scan0 st = Some st' -> llm st'.
Proof.
  intros I H. destruct (scan0_inv _ _ H) as (SEL & s & l1 & l2 & _ & _ & ->). cbv zeta. rewrite attach_nf.
  apply selects_ready in SEL. simpl in SEL. unfold can_scan in SEL.
  destruct (llm_parts _ I) as [MH TW]. apply llm_of_parts.
  - eapply mhp_same; [..|exact MH]; try reflexivity. auto.
  - eapply twp_transfer; [| | | |exact TW]; unfold add_run; xs.
    + auto.
    + intros h Hh. exists h. auto.
    + intros e He. exists e. auto.
    + intros T W. exfalso. bool_hyps.
      match goal with K : _ || _ = true |- _ => rename K into G end.
      rewrite T in G. clear - G W. unfold SCAN_THRESH in G. lia.
Qed.

Lemma llm_retr0 j st st' : llm st -> retr0 j st = Some st' -> llm st'.
Proof.
  intros I H. destruct (retr0_inv _ _ _ H) as (_ & q & T & ->). cbv zeta.
  destruct (take_min_split _ _ _ _ _ rjob_eqb_eq T) as (l1 & l2 & E & ->). rewrite attach_nf.
  destruct (llm_parts _ I) as [MH TW]. apply llm_of_parts.
  - eapply mhp_same; [..|exact MH]; try reflexivity.
    intro x. unfold all_jobs, add_run. xs. rewrite run_jobs_cons. simpl cjobs. rewrite E. apply In_app_mid.
  - eapply twp_same; [..|exact TW]; try reflexivity. auto.
Qed.

Lemma llm_retr2 e st st' : llm st -> retr2 e st = Some st' -> llm st'.
Proof.
  intros I H. destruct (retr2_inv _ _ _ H) as (l1 & l2 & E & _ & ->).
  destruct (llm_parts _ I) as [MH TW]. apply llm_of_parts.
  - eapply mhp_same; [..|exact MH]; try reflexivity.
    intros x Hx. apply (all_jobs_del _ _ _ _ _ E). right. exact Hx.
  - eapply twp_same; [..|exact TW]; try reflexivity.
    intros x Hx. apply (estage_del _ _ _ _ _ E) in Hx as [[<-|[]]|Hx]; [left; reflexivity|right; exact Hx].
Qed.

Lemma llm_emit0 st st' : llm st -> emit0 st = Some st' -> llm st'.
Proof.
  intros I H. destruct (emit0_inv _ _ H) as (_ & e & l1 & l2 & _ & E & ->).
  destruct (llm_parts _ I) as [MH TW]. apply llm_of_parts.
  - eapply mhp_same; [..|exact MH]; try reflexivity. auto.
  - eapply twp_same; [..|exact TW]; try reflexivity.
    intros x Hx. unfold estage in *. rewrite E in Hx. apply In_app_mid. exact Hx.
Qed.

(* the job stays in the emit stage at the next sub-position, or gives its unit back *)
Lemma llm_emit1 e rv size crc blksz st st' : llm st -> emit1 e rv size crc blksz st = Some st' -> llm st'.
Proof.
  intros I H. destruct (emit1_inv _ _ _ _ _ _ _ H) as (l1 & l2 & E & _ & _ & _ & H1). cbv zeta in H1.
  destruct (llm_parts _ I) as [MH TW].
  assert (AJ : forall j, In j (all_jobs (set_running (l1 ++ l2) st)) -> In j (all_jobs st))
    by (intros j Hj; apply (all_jobs_del _ _ _ _ _ E); auto).
  destruct (rv =? MORE); subst st'; apply llm_of_parts.
  - eapply mhp_same; [..|exact MH]; try reflexivity. exact AJ.
  - eapply twp_transfer; [| | | |exact TW]; xs.
    + auto.
    + intros h Hh. exists h. auto.
    + intros e0 A. apply (estage_del _ _ _ _ _ E) in A as [[<-|[]]|A].
      * eexists. split; [left; reflexivity|reflexivity].
      * exists e0. split; [right; exact A|reflexivity].
    + auto.
  - eapply mhp_same; [..|exact MH]; try reflexivity. exact AJ.
  - apply twp_vac. intros _ _ W. exact (succ_not_zero _ W).
Qed.

(* do_reorder: a head leaves the order only with the last buffer of its block *)
Lemma llm_reorder st st' :
  x_failed st' = None -> lld st -> llm st -> reorder st = Some st' -> llm st'.
Proof.
  intros NF' LD I H. destruct (reorder_inv _ _ H) as (_ & o & l1 & l2 & _ & E & C).
  destruct (llm_parts _ I) as [MH TW].
  destruct C as [_ ->|ord rest OQ EB SM ->|ord rest OQ EB SM SF ->|ord rest OQ EB SM SF ->];
    [apply (llm_mview st); [reflexivity|exact I]| | |discriminate NF']; change (x_order_q st = ord :: rest) in OQ.
  - (* one more buffer of the block: the head moves on, same bit position *)
    apply llm_of_parts.
    + eapply mhp_transfer; [| | |exact MH]; unfold ro_hand, ro_offs; xs.
      * auto.
      * rewrite OQ. intros h [<-|Hh]; [eexists; split; [left; reflexivity|reflexivity]|exists h; split; [right; auto|auto]].
      * intros j Hj J. exists j. auto.
    + eapply twp_transfer; [| | | |exact TW]; unfold ro_hand, ro_offs; xs.
      * auto.
      * rewrite OQ. intros h [<-|Hh]; [eexists; split; [left; reflexivity|reflexivity]|exists h; split; [right; auto|auto]].
      * intros e He. exists e. auto.
      * auto.
  - (* the last buffer of the block: the head leaves the order; by [lld] no master job and no
       emit-stage job of that block is left *)
    assert (OF : o_status o <> MORE).
    { unfold ro_final, ro_status in *. destruct (h_bs100k ord * 100000 <? o_blksz o); [|exact SM].
      destruct (o_crc o =? h_crc ord); vm_compute in SF; discriminate. }
    assert (FIN : In (hb ord) (map obit (filter is_final (x_reord_q st)))).
    { replace (hb ord) with (obit o) by (unfold obit, hb; rewrite EB; reflexivity).
      apply in_map. apply filter_In. split; [rewrite E; apply in_elt|].
      unfold is_final. apply negb_true_iff. apply N.eqb_neq. exact OF. }
    pose proof (ll_dist _ LD) as ND. unfold lines in ND.
    apply llm_of_parts.
    + intros P j Hj J. destruct (MH P j Hj J) as (h & Hh & HB). rewrite OQ in Hh. destruct Hh as [<-|Hh].
      * exfalso. apply (nodup_app_disj _ _ (jbit j) ND); [apply in_map; exact Hj|].
        apply in_or_app. right. rewrite <- HB. exact FIN.
      * exists h. split; [exact Hh|exact HB].
    + intros P T W. destruct (TW P T W) as (h & e & Hh & He & HB). rewrite OQ in Hh. destruct Hh as [<-|Hh].
      * exfalso. apply nodup_app_r in ND. apply (nodup_app_disj _ _ (ebit e) ND); [apply in_map; exact He|].
        rewrite HB. exact FIN.
      * exists h, e. split; [exact Hh|]. split; [exact He|exact HB].
Qed.

Lemma llm_give_unit st : llm st -> llm (give_unit st).
Proof.
  intro L. destruct (llm_parts _ L) as [A B]. apply llm_of_parts.
  - eapply mhp_same; [..|exact A]; lnrm; auto.
  - apply twp_vac. unfold give_unit. xs. intros _ _ W. exact (succ_not_zero _ W).
Qed.

(* the new speculative job links a fresh record: it is no master *)
Lemma llm_scan1_cand cfg s' s2 : inv s2 -> llm s2 -> llm (scan1_cand cfg s' s2).
Proof.
  intros I2 L2. unfold scan1_cand.
  destruct (pos_le _ _ || _); [exact (llm_give_unit _ L2)|].
  destruct (c_scan_checks_unord_cap cfg && unord_full s2); [exact (llm_give_unit _ L2)|].
  destruct (llm_parts _ L2) as [A B]. apply llm_of_parts.
  - eapply mhp_transfer; [| | |exact A]; unfold new_cand; xs.
    + auto.
    + intros h Hh. exists h. auto.
    + intros j Hj J. rewrite jm_app_new in J by reflexivity.
      unfold all_jobs in Hj. xs in Hj. simpl in Hj. destruct Hj as [<-|Hj]; [|exists j; auto].
      exfalso. unfold jm in J. simpl in J. apply existsb_exists in J. destruct J as (u & Hu & K). bool_hyps.
      pose proof (i_ufresh _ I2) as FR. rewrite Forall_forall in FR. apply FR in Hu.
      match goal with X : (u_id u =? x_next_uid s2) = true |- _ => apply N.eqb_eq in X; rewrite X in Hu end.
      exact (N.lt_irrefl _ Hu).
  - eapply twp_same; [..|exact B]; try reflexivity. auto.
Qed.

Lemma llm_scan1 cfg s att found s' more st st' :
  inv st -> llm st -> scan1 cfg s att found s' more st = Some st' -> llm st'.
Proof.
  intros I LL H. destruct (scan1_inv _ _ _ _ _ _ _ _ H) as (l1 & l2 & E & D & H1). cbv zeta in H1. clear H.
  assert (I2 : inv (detach att (set_running (l1 ++ l2) st))).
  { eapply inv_view; [apply view_detach|]. eapply inv_view; [eapply view_del_run; eauto|exact I]. }
  assert (L2 : llm (detach att (set_running (l1 ++ l2) st))).
  { apply (llm_mview (set_running (l1 ++ l2) st)); [rewrite detach_nf; reflexivity|].
    destruct (llm_parts _ LL) as [A B]. apply llm_of_parts.
    - eapply mhp_same; [..|exact A]; try reflexivity. intros x Hx. apply (all_jobs_del _ _ _ _ _ E). auto.
    - eapply twp_same; [..|exact B]; try reflexivity.
      intros x Hx. apply (estage_del _ _ _ _ _ E) in Hx as [[]|Hx]. exact Hx. }
  clear I LL D E. revert H1 I2 L2. generalize (detach att (set_running (l1 ++ l2) st)). intros s2 H1 I2 L2.
  destruct H1 as [[_ ->]|(_ & _ & _ & _ & _ & _ & ->)]; [exact (llm_give_unit _ L2)|].
  generalize (llm_scan1_cand cfg s' s2 I2 L2). generalize (scan1_cand cfg s' s2). intros s3 O3. unfold scan1_requeue.
  destruct (_ && _); [|exact O3]. apply (llm_mview s3); [reflexivity|exact O3].
Qed.

Lemma parse_finish_done cfg g s :
  x_failed (parse_finish cfg g s) = None -> x_parsing_done (parse_finish cfg g s) = true.
Proof.
  rewrite parse_finish_eq. cbv zeta. destruct (_ && _); [discriminate|reflexivity].
Qed.

(* a block header: the new master (created or adopted) gets the head that is pushed; the token
   comes back only together with a work unit *)
Lemma llm_new_master j h s2 :
  masters s2 = 0%nat -> x_parse_token s2 = false -> In h (x_order_q s2) -> hb h = jbit j ->
  llm (set_retr_q (j :: x_retr_q s2) s2).
Proof.
  intros M T HN HB. constructor.
  - intros _ x Hx J. unfold all_jobs in Hx. xs in Hx. simpl in Hx. destruct Hx as [<-|Hx].
    + exists h. split; [exact HN|exact HB].
    + exfalso. xs in J. rewrite (no_masters_jm s2 x M Hx) in J. discriminate.
  - intros _ T'. xs in T'. congruence.
Qed.

Lemma llm_adopt cfg u h s2 :
  inv s2 -> masters s2 = 0%nat -> x_parse_token s2 = false -> In h (x_order_q s2) ->
  In u (x_unords s2) -> hb h = fst (u_base u) ->
  let s3 := advance cfg (u_end u) s2 in
  llm (give_unit (if u_complete u then set_parse_token true (set_unords (del_unord (u_id u) (x_unords s3)) s3)
                  else set_unords (upd_unord (u_id u) (u_detach true) (x_unords s3)) s3)).
Proof.
  intros I2 M2 T2 HN Hu HB. cbv zeta. unfold give_unit.
  assert (UO2 : Forall unord_ok (x_unords s2)) by apply I2.
  pose proof (adv_jobs_sub cfg (u_end u) s2) as AJ3.
  pose proof (adv_nomaster cfg (u_end u) s2 UO2 (fun j => no_masters_jm s2 j M2)) as NM3.
  assert (E3 : x_parse_token (advance cfg (u_end u) s2) = false /\ x_order_q (advance cfg (u_end u) s2) = x_order_q s2)
    by (rewrite advance_eq; auto).
  destruct E3 as (T3 & OQ3). revert AJ3 NM3 T3 OQ3. generalize (advance cfg (u_end u) s2). intros s3 AJ3 NM3 T3 OQ3.
  destruct (u_complete u) eqn:UC.
  - (* the candidate has been retrieved already *)
    apply llm_nomaster_unit.
    + intros j Hj. unfold all_jobs in Hj. xs in Hj. xs.
      destruct (jm (del_unord (u_id u) (x_unords s3)) j) eqn:J; auto.
      apply (jm_sub (x_unords s3)) in J; [|unfold del_unord; intros v Hv; apply filter_In in Hv; tauto].
      rewrite (NM3 j Hj) in J. discriminate.
    + xs. intro W. exact (succ_not_zero _ W).
  - (* its job becomes the master *)
    constructor.
    + intros _ j Hj J. unfold all_jobs in Hj. xs in Hj. xs in J.
      destruct (jm_detach _ _ _ J) as [J1|J1]; [rewrite (NM3 j Hj) in J1; discriminate|].
      unfold links in J1. apply optN_eqb_eq in J1.
      pose proof (i_jobs _ I2) as IJ. rewrite Forall_forall in IJ.
      destruct (IJ j (AJ3 j Hj)) as (_ & _ & _ & _ & J5). destruct (J5 _ u J1 Hu eq_refl) as [JB _].
      exists h. split; [xs; rewrite OQ3; exact HN|]. unfold jbit. rewrite <- JB. exact HB.
    + intros _ T. xs in T. congruence.
Qed.

Lemma llm_parse_ok cfg lv crc s :
  inv s -> masters s = 0%nat -> x_parse_token s = false -> llm (parse_ok cfg lv crc s).
Proof.
  intros I M0 T0. pose proof (parse_ok_cases cfg lv crc s) as C. cbv zeta in C.
  set (p := d_pos (x_parser_bs s)) in *. set (hnew := mkhead p lv crc) in *.
  set (s1 := set_order_q (x_order_q s ++ [hnew]) s) in *.
  assert (I1 : inv s1) by (eapply inv_view; [|exact I]; subst s1; view_tac).
  destruct (inv_detached s1 (discard_below p (x_unords s))) as (I2 & M2); auto.
  { apply discard_below_spec. } { apply nodup_discard. apply I. }
  assert (M2' : masters (set_unords (discard_below p (x_unords s)) s1) = 0%nat)
    by (assert (masters s1 = 0%nat) by exact M0; lia).
  assert (HN : In hnew (x_order_q (set_unords (discard_below p (x_unords s)) s1)))
    by (apply in_or_app; right; left; reflexivity).
  assert (T2 : x_parse_token (set_unords (discard_below p (x_unords s)) s1) = false) by exact T0.
  assert (RQ2 : x_retr_q (set_unords (discard_below p (x_unords s)) s1) = x_retr_q s) by reflexivity.
  revert C I2 M2' HN T2 RQ2. generalize (set_unords (discard_below p (x_unords s)) s1). intros s2 C I2 M2' HN T2 RQ2.
  destruct C as [[_ ->]|(u & Q & PE & ->)].
  - rewrite <- RQ2. apply (llm_new_master _ hnew); auto.
  - apply qmin_In in Q. unfold unord_q in Q. apply filter_In in Q. destruct Q as [Hu _].
    apply (llm_adopt cfg u hnew s2); auto. rewrite PE. reflexivity.
Qed.

Lemma llm_parse1 cfg att r st st' :
  inv st -> x_failed st' = None -> parse1 cfg att r st = Some st' -> llm st'.
Proof.
  intros I NF' H. destruct (parse1_inv _ _ _ _ _ H) as (l1 & l2 & E & D & H1). cbv zeta in H1.
  destruct H1 as (_ & _ & G3 & _ & H1). clear H.
  destruct (inv_del_parse _ _ _ D I) as (I1 & M1 & N1 & T1 & PD1). clear I D E.
  set (s1 := set_running (l1 ++ l2) st) in *.
  assert (I2 : inv (detach att s1)) by (eapply inv_view; [apply view_detach|exact I1]).
  assert (E2 : masters (detach att s1) = 0%nat /\ x_parse_token (detach att s1) = false /\
               x_parsing_done (detach att s1) = false /\ x_parser_bs (detach att s1) = x_parser_bs st)
    by (subst s1; unfold masters, all_jobs in *; nrm; auto).
  destruct E2 as (M2 & T2 & PD2 & PB2). clear I1 M1 N1 T1 PD1.
  revert H1 I2 M2 T2 PD2 PB2. generalize (detach att s1). intros s2 H1 I2 M2 T2 PD2 PB2.
  assert (HD : x_head_offs s2 <= d_off (res_bs r)).
  { assert (HP : x_head_offs s2 <= d_off (x_parser_bs s2)) by (apply I2; auto). rewrite PB2 in HP.
    exact (N.le_trans _ _ _ HP G3). }
  destruct (inv_advance cfg (res_bs r) s2 I2 M2 HD) as (I3 & M3 & _).
  assert (E3 : x_parse_token (advance cfg (res_bs r) s2) = false) by (rewrite advance_eq; auto).
  revert H1 I3 M3 E3. generalize (advance cfg (res_bs r) s2). intros s3 H1 I3 M3 E3.
  destruct r as [bs ps|bs g|bs code|bs ps lv crc]; simpl res_bs in *.
  - destruct H1 as (_ & _ & ->). apply llm_nomaster_unit.
    + intros j Hj. exact (no_masters_jm s3 j M3 Hj).
    + intro W. exact (succ_not_zero _ W).
  - destruct H1 as (_ & _ & ->). apply llm_done. apply parse_finish_done. exact NF'.
  - destruct H1 as (_ & _ & _ & ->). discriminate NF'.
  - destruct H1 as (_ & ->). apply llm_parse_ok.
    + eapply inv_view; [|exact I3]. view_tac.
    + exact M3.
    + exact E3.
Qed.

(* a job is dropped (and gives its unord block back): a work unit is released *)
Lemma llm_drop_unit JL l s (b : bool) :
  Forall unord_ok (x_unords s) -> mhp JL s -> (forall x, In x (all_jobs s) -> In x JL) ->
  llm (give_unit (drop_if b l s)).
Proof.
  intros UO MH SUB. unfold drop_if. apply llm_of_parts.
  - eapply mhp_transfer; [| | |exact MH].
    + destruct b; lnrm; auto.
    + intros h Hh. exists h. split; auto. destruct b; lnrm; auto.
    + intros j Hj J. exists j. split; [apply SUB; destruct b; exact Hj|]. split; auto.
      destruct b; unfold give_unit in J; xs in J; auto.
      eapply jm_stems; [|exact UO|exact J]. apply drop_link_stems.
  - apply twp_vac. unfold give_unit. xs. intros _ _ W. exact (succ_not_zero _ W).
Qed.

(* the master (created by the parser, or adopted): when it finishes, the token comes back and
   its emit job is the witness of ll_tw *)
Lemma llm_retr1_master cfg j rv cur s2 :
  Forall unord_ok (x_unords s2) -> x_parse_token s2 = false -> jm (x_unords s2) j = true ->
  mhp (j :: all_jobs s2) s2 ->
  llm (retr1_tail cfg j rv cur (fin_master (r_link j)) (advance cfg cur s2)).
Proof.
  intros UO T2 JM MH.
  assert (E3 : x_order_q (advance cfg cur s2) = x_order_q s2 /\ x_parsing_done (advance cfg cur s2) = x_parsing_done s2 /\
               x_parse_token (advance cfg cur s2) = false /\ x_running (advance cfg cur s2) = x_running s2 /\
               x_emit_q (advance cfg cur s2) = x_emit_q s2)
    by (rewrite advance_eq; auto).
  pose proof (adv_jobs_sub cfg cur s2) as AJ3. pose proof (fun x => adv_jm cfg cur s2 x UO) as JM3.
  pose proof (adv_unord_ok cfg cur s2 UO) as UO3.
  destruct E3 as (OQ3 & PD3 & TK3 & RU3 & EQ3). revert AJ3 JM3 UO3 OQ3 PD3 TK3 RU3 EQ3.
  generalize (advance cfg cur s2). intros st AJ3 JM3 UO3 OQ3 PD3 TK3 RU3 EQ3.
  assert (MH3 : mhp (all_jobs st) st).
  { eapply mhp_transfer; [| | |exact MH].
    - congruence.
    - intros h Hh. exists h. rewrite OQ3. auto.
    - intros x Hx J. exists x. split; [right; apply AJ3; exact Hx|]. split; auto. }
  unfold retr1_tail. destruct (rv =? MORE); [destruct (_ && _)|].
  - apply (llm_drop_unit (all_jobs st)); auto.
  - apply llm_of_parts.
    + intros P x Hx J. xs in P. xs in J. unfold all_jobs in Hx. xs in Hx. simpl in Hx. destruct Hx as [<-|Hx].
      * destruct (MH (eq_trans (eq_sym PD3) P) j (or_introl eq_refl) JM) as (h & Hh & HB).
        exists h. split; [xs; rewrite OQ3; exact Hh|exact HB].
      * destruct (MH3 P x Hx J) as (h & Hh & HB). exists h. split; [xs; exact Hh|exact HB].
    + apply twp_vac. xs. rewrite TK3. intros; discriminate.
  - set (sf := fin_master (r_link j) st).
    assert (EF : x_order_q sf = x_order_q st /\ x_emit_q sf = x_emit_q st /\ x_running sf = x_running st /\
                 x_retr_q sf = x_retr_q st /\ x_parsing_done sf = x_parsing_done st)
      by (subst sf; unfold fin_master; destruct (r_link j); xs; auto 10).
    destruct EF as (F1 & F3 & F4 & F6 & F8).
    assert (USub : forall u, In u (x_unords sf) -> In u (x_unords st)).
    { subst sf. unfold fin_master. destruct (r_link j); xs; auto. intros u Hu. unfold del_unord in Hu. apply filter_In in Hu. tauto. }
    revert F1 F3 F4 F6 F8 USub. generalize sf. clear sf. intros sf F1 F3 F4 F6 F8 USub.
    set (e := mkejob (r_base j) rv (d_off cur)).
    constructor.
    + intros P x Hx J. unfold add_run in P, J, Hx. xs in P. xs in J.
      unfold all_jobs in Hx. xs in Hx. rewrite run_jobs_cons in Hx. simpl in Hx. rewrite F6, F4 in Hx.
      rewrite F8 in P. apply (jm_sub (x_unords st)) in J; [|exact USub].
      destruct (MH3 P x Hx J) as (h & Hh & HB). exists h. split; [unfold add_run; xs; rewrite F1; exact Hh|exact HB].
    + intros P _ _. unfold add_run in P. xs in P. rewrite F8, PD3 in P.
      destruct (MH P j (or_introl eq_refl) JM) as (h & Hh & HB).
      exists h, e. split; [unfold add_run; xs; rewrite F1, OQ3; exact Hh|].
      split; [unfold estage, add_run; xs; rewrite run_ejobs_cons; simpl; apply in_or_app; right; left; reflexivity|].
      rewrite HB. reflexivity.
Qed.

(* a speculative job: nothing the invariant looks at changes, or a unit is released *)
Lemma llm_retr1_spec cfg j id rv cur s2 :
  jfacts j s2 -> r_link j = Some id -> dbs_ok cur = true -> d_bit (r_cur j) <= d_bit cur ->
  mhp (j :: all_jobs s2) s2 -> twp s2 ->
  llm (retr1_tail cfg j rv cur (fin_spec id cur) (set_unords (upd_unord id (u_set_end cur) (x_unords s2)) s2)).
Proof.
  intros (I2 & J2 & L2 & B2 & M2) EL Hok Hbit MH TW.
  pose proof (L2 id EL) as Z2. destruct J2 as (J1 & J2' & J3 & J4 & J5).
  assert (UB : forall u, In u (x_unords s2) -> u_id u = id -> u_base u = r_base j) by (intros u Hu Hid; apply (J5 id u EL Hu Hid)).
  assert (I3 : inv (set_unords (upd_unord id (u_set_end cur) (x_unords s2)) s2)).
  { apply (inv_upd_spec id (u_set_end cur) s2 I2 Z2).
    - intro u. split; reflexivity.
    - intros u Hu Hid. destruct I2 as [_ _ _ _ Iu _ _ _ _ _ _ _ _]. rewrite Forall_forall in Iu. destruct (Iu u Hu) as (O1 & O2 & O3).
      unfold unord_ok, u_set_end; simpl. split; [|split; auto]. intro Q. destruct (O1 Q) as (_ & _ & L).
      repeat split; auto. rewrite (UB u Hu Hid). clear - J1 Hbit. lia. }
  set (st := set_unords (upd_unord id (u_set_end cur) (x_unords s2)) s2) in *.
  assert (JMe : forall x, jm (x_unords st) x = jm (x_unords s2) x).
  { intro x. subst st. xs. apply jm_upd_same. intro u. repeat split; reflexivity. }
  assert (UO3 : Forall unord_ok (x_unords st)) by apply I3.
  assert (MH3 : mhp (j :: all_jobs st) st).
  { eapply mhp_transfer; [| | |exact MH].
    - auto.
    - intros h Hh. exists h. auto.
    - intros x Hx J. exists x. rewrite JMe in J. auto. }
  assert (TW3 : twp st) by (eapply twp_same; [..|exact TW]; auto).
  clear I3 MH TW. revert JMe UO3 MH3 TW3. generalize st. clear st. intros st JMe UO3 MH3 TW3.
  unfold retr1_tail. destruct (rv =? MORE); [destruct (_ && _)|].
  - apply (llm_drop_unit (j :: all_jobs st)); auto. intros x Hx. right. exact Hx.
  - apply llm_of_parts.
    + eapply mhp_transfer; [| | |exact MH3]; xs.
      * auto.
      * intros h Hh. exists h. auto.
      * intros x Hx J. unfold all_jobs in Hx. xs in Hx. simpl in Hx. destruct Hx as [<-|Hx].
        -- exists j. split; [left; reflexivity|]. split; [exact J|reflexivity].
        -- exists x. split; [right; exact Hx|]. auto.
    + eapply twp_same; [..|exact TW3]; xs; auto.
  - apply llm_of_parts.
    + eapply mhp_transfer; [| | |exact MH3]; unfold add_run, fin_spec; xs.
      * auto.
      * intros h Hh. exists h. auto.
      * intros x Hx J. exists x. split; [right; exact Hx|]. split; [|reflexivity].
        eapply jm_upd_raise; [|exact UO3|exact J]. intro u. split; reflexivity.
    + eapply twp_same; [..|exact TW3]; unfold add_run, fin_spec; xs; auto.
      intros x Hx. unfold estage in *. xs. rewrite run_ejobs_cons. simpl. rewrite in_app_iff in *. simpl. tauto.
Qed.

Lemma llm_retr1 cfg j att rv cur st st' :
  inv st -> llm st -> retr1 cfg j att rv cur st = Some st' -> llm st'.
Proof.
  intros I LL H. destruct (retr1_inv _ _ _ _ _ _ _ H) as (l1 & l2 & E & D & Hok & Hbit & _ & _ & _ & _ & C). clear H.
  pose proof (inv_del_retr _ _ _ _ D I : jfacts j _) as F1.
  assert (L1 : mhp (j :: all_jobs (set_running (l1 ++ l2) st)) (set_running (l1 ++ l2) st) /\ twp (set_running (l1 ++ l2) st)).
  { destruct (llm_parts _ LL) as [A B]. split.
    - eapply mhp_same; [..|exact A]; try reflexivity.
      intros x [<-|Hx]; apply (all_jobs_del _ _ _ _ _ E); [left; left; reflexivity|right; exact Hx].
    - eapply twp_same; [..|exact B]; try reflexivity.
      intros x Hx. apply (estage_del _ _ _ _ _ E) in Hx as [[]|Hx]. exact Hx. }
  clear I LL D E. revert C F1 L1. generalize (set_running (l1 ++ l2) st). intros s1 C F1 L1.
  (* detach leaves alone what the invariant reads *)
  assert (F2 : jfacts j (detach att s1)) by (eapply jfacts_view; [apply view_detach|exact F1]).
  assert (L2 : mhp (j :: all_jobs (detach att s1)) (detach att s1) /\ twp (detach att s1)).
  { destruct L1 as [A B]. rewrite detach_nf. split.
    - eapply mhp_same; [..|exact A]; try reflexivity. auto.
    - eapply twp_same; [..|exact B]; try reflexivity. auto. }
  clear F1 L1. revert C F2 L2. generalize (detach att s1). intros s2 C F2 L2.
  destruct L2 as [MH TW].
  assert (F2' := F2). destruct F2' as (I2 & J2 & LK2 & B2 & M2).
  assert (UO2 : Forall unord_ok (x_unords s2)) by apply I2.
  assert (TKM : jm (x_unords s2) j = true -> x_parse_token s2 = false).
  { intro JM. rewrite JM in B2. destruct (x_parse_token s2); auto. exfalso. simpl in B2. clear - B2. lia. }
  destruct C as [PD ->|u _ _ _ _ ->|_ M ->|id _ EL _ ->].
  - apply llm_done. unfold drop_if. destruct (c_retr_done_drops_link cfg); exact PD.
  - apply (llm_drop_unit (j :: all_jobs s2)); auto. intros x Hx. right. exact Hx.
  - assert (JM : jm (x_unords s2) j = true).
    { destruct M as [EL|(u & LS & UC & UL)]; [unfold jm; rewrite EL; reflexivity|eapply jm_of_link_state; eauto]. }
    apply llm_retr1_master; auto.
  - apply llm_retr1_spec; auto.
Qed.

(* with no work unit at all (n = 0) the initial state has the token but no unit and nothing
   in flight: ll_tw needs at least one worker *)
Lemma llm_init n tin tout ultra : 0 < n -> llm (init_state n tin tout ultra).
Proof.
  intro P. constructor; simpl.
  - intros _ j [].
  - intros _ _ W. exfalso. clear - P W. lia.
Qed.

Lemma llm_init_zero_refuted tin tout ultra : ~ llm (init_state 0 tin tout ultra).
Proof. intros [_ B]. destruct (B eq_refl eq_refl eq_refl) as (h & _ & [] & _). Qed.

(* [lld] is needed for do_reorder only *)
Theorem llm_step_min cfg st e st' :
  inv st -> lld st -> x_failed st' = None -> llm st -> step cfg st e = Some st' -> llm st'.
Proof.
  intros I LD NF' LL H. unfold step in H. destruct (x_failed st) eqn:NF; [discriminate|].
  destruct e.
  - apply input_inv in H. destruct H as (_ & _ & _ & _ & H). destruct (x_parsing_done st); subst st'; [exact LL|].
    apply (llm_mview st); [reflexivity|exact LL].
  - apply reader_eof_inv in H. destruct H as [_ ->]. apply (llm_mview st); [reflexivity|exact LL].
  - apply written_inv in H. destruct H as [_ ->]. apply (llm_mview st); [reflexivity|exact LL].
  - eapply llm_parse0; eauto.
  - eapply llm_parse1; eauto.
  - eapply llm_retr0; eauto.
  - eapply llm_retr1; eauto.
  - eapply llm_retr2; eauto.
  - eapply llm_emit0; eauto.
  - eapply llm_emit1; eauto.
  - eapply llm_reorder; eauto.
  - eapply llm_scan0; eauto.
  - eapply llm_scan1; eauto.
Qed.

(* the same under the hypotheses that XLive.v has at hand for every component of [livep] *)
Theorem llm_step cfg st e st' :
  cfg_safe cfg -> cfg_drops cfg -> inv st -> own st -> lld st -> ev_next st e -> x_failed st' = None ->
  llm st -> step cfg st e = Some st' -> llm st'.
Proof. intros _ _ I _ LD _ NF' LL H. eapply llm_step_min; eauto. Qed.

Print Assumptions llm_init.
Print Assumptions llm_step_min.
Print Assumptions llm_step.
