(* C05/C06/C08, retrieve(): the blocks of the symbol phase of the model (Safe/RetrModel.v): the head of the group loop
   (group_select; the fast path is reduced to the slow one in Safe/RetrChunk.v) and the code behind NEED(S_PREFIX).
   Each block runs without a fault, keeps the invariant, reads what Format.read_groups reads and computes what
   Format.unmtf computes: [blk_post] of Safe/RetrSpec.v. *)
From Coq Require Import List NArith Arith Bool Lia ZifyBool ZifyNat ZifyN.
From LBZ Require Import Common.ListArr Common.Bits Gen.Consts Gen.DecTabs Dec.Prog Dec.Format Dec.Sim Dec.Policies Safe.TreeModel
  Safe.TreeLemmas Safe.TreeProofs Safe.RetrModel Safe.RetrInv Safe.RetrSpec.
From LBZ Require Safe.SlideModel Safe.SlideProofs.
Import ListNotations.
Local Open Scope N_scope.

(* Format.unmtf is the symbol-by-symbol machine *)
Lemma unmtf_usteps limit : forall syms order run shift size acc,
  unmtf limit order run shift size acc syms =
  match usteps limit (order, run, shift, size, acc) syms with Ok u => ufinal limit u | Err e => Err e end.
Proof.
  induction syms as [|s r IH]; intros order run shift size acc.
  - reflexivity.
  - cbn [unmtf usteps ustep]. destruct (s <=? 1); [apply IH|].
    destruct (limit <? size + run); [reflexivity|]. unfold mtf_front. cbn [snd]. apply IH.
Qed.

Lemma usteps_app limit : forall a b u,
  usteps limit u (a ++ b) = match usteps limit u a with Ok u' => usteps limit u' b | Err e => Err e end.
Proof.
  induction a as [|s a IH]; intros b u; [reflexivity|].
  cbn [app usteps]. destruct (ustep limit u s); [apply IH|reflexivity].
Qed.

Lemma mtf_front_Forall (P : N -> Prop) i l : Forall P l -> (i < length l)%nat ->
  P (fst (mtf_front i l 0)) /\ Forall P (snd (mtf_front i l 0)).
Proof.
  intros H L. assert (Hx : P (nth i l 0)) by (apply Forall_nth; assumption).
  split; [exact Hx|]. constructor; [exact Hx|]. apply Forall_app. split; [apply Forall_firstn|apply Forall_skipn]; exact H.
Qed.

(* one step of undoing the MTF coding of the selectors *)
Definition sel_step (ord : list N) (s : N) : list N := snd (mtf_front (N.to_nat s) ord 0).

Lemma sel_order_eq sels : sel_order sels = fold_left sel_step sels [0; 1; 2; 3; 4; 5].
Proof. reflexivity. Qed.

Lemma unmtf_sel_length : forall l o, length (unmtf_selectors o l) = length l.
Proof. induction l as [|s l IH]; intro o; [reflexivity|]. cbn [unmtf_selectors mtf_front length]. rewrite IH. reflexivity. Qed.

Lemma unmtf_sel_skipn : forall g l o,
  skipn g (unmtf_selectors o l) = unmtf_selectors (fold_left sel_step (firstn g l) o) (skipn g l).
Proof.
  induction g as [|g IH]; intros l o; [reflexivity|]. destruct l as [|s l]; [reflexivity|].
  cbn [unmtf_selectors mtf_front skipn firstn fold_left]. rewrite IH. reflexivity.
Qed.

Lemma sel_order_snoc g l : (g < length l)%nat ->
  sel_order (firstn (S g) l) = snd (mtf_front (N.to_nat (nth g l 0)) (sel_order (firstn g l)) 0).
Proof. intro H. rewrite firstn_S_nth by exact H. rewrite !sel_order_eq, fold_left_app. reflexivity. Qed.

Lemma sels_skipn g l : (g < length l)%nat ->
  skipn g (unmtf_selectors [0; 1; 2; 3; 4; 5] l) =
  nth (N.to_nat (nth g l 0)) (sel_order (firstn g l)) 0 :: skipn (S g) (unmtf_selectors [0; 1; 2; 3; 4; 5] l).
Proof.
  intro H. rewrite !unmtf_sel_skipn. rewrite (skipn_cons_nth l g 0 H). cbn [unmtf_selectors mtf_front].
  f_equal. rewrite firstn_S_nth by exact H. rewrite fold_left_app. reflexivity.
Qed.

Lemma sels_nth g l : (g < length l)%nat ->
  nth g (unmtf_selectors [0; 1; 2; 3; 4; 5] l) 0 = nth 0 (sel_order (firstn (S g) l)) 0.
Proof.
  intro H. replace (nth g (unmtf_selectors [0; 1; 2; 3; 4; 5] l) 0) with (nth 0 (skipn g (unmtf_selectors [0; 1; 2; 3; 4; 5] l)) 0)
    by (rewrite nth_skipn; f_equal; lia).
  rewrite (sels_skipn g l H), (sel_order_snoc g l H). reflexivity.
Qed.

Lemma sel_order_len : forall l o, length o = 6%nat -> Forall (fun s => s < 6) l -> length (fold_left sel_step l o) = 6%nat.
Proof.
  induction l as [|s l IH]; intros o Ho F; [exact Ho|]. inversion F; subst. cbn [fold_left]. apply IH; [|assumption].
  unfold sel_step. rewrite SlideProofs.mtf_front_snd_length; lia.
Qed.

(* here and below [sel_clamp lbz_policy] = 18001 stays folded: a conversion that evaluates N.to_nat of it is dear *)
Lemma sels_of_eq selm : sels_of selm = unmtf_selectors [0; 1; 2; 3; 4; 5] (clamped selm).
Proof. unfold sels_of, clamped. reflexivity. Qed.

Lemma sels_of_length selm : length (sels_of selm) = length (clamped selm).
Proof. rewrite sels_of_eq. apply unmtf_sel_length. Qed.

(* what the relations look at *)
Definition stat (c : core) :=
  (d_rand c, d_bwt_idx c, r_num_trees c, r_alpha_size c, r_num_selectors c, r_selector c, r_mtf c, r_tree c).
Definition dyn (c : core) := (r_run c, r_shift c, c_ttp c, c_tt c, r_runChar c).

Lemma G_static_stat c c' h selm tables k : stat c' = stat c -> G_static c h selm tables k -> G_static c' h selm tables k.
Proof.
  unfold stat, G_static. intro E. injection E as E1 E2 E3 E4 E5 E6 E7 E8. rewrite E1, E2, E3, E4, E5, E6, E7, E8. auto.
Qed.

Lemma G_static_clamped c h selm tables k : G_static c h selm tables k -> length (clamped selm) = N.to_nat (r_num_selectors c).
Proof. intros (_ & _ & _ & _ & S5 & _ & S7 & _). unfold clamped. rewrite firstn_length, S5, S7. lia. Qed.

(* rs->mtf[] and the order of the tree numbers move to the front alike *)
Lemma imtf_step (P : N -> N -> Prop) (so mtf m' : list N) (i n : N) :
  i < n -> n <= N.of_nat (length so) -> n <= N.of_nat (length mtf) -> length m' = length mtf ->
  (forall p, (1 <= p <= N.to_nat i)%nat -> nth p m' 0 = nth (p - 1) mtf 0) ->
  (forall p, (p = 0 \/ N.to_nat i < p)%nat -> nth p m' 0 = nth p mtf 0) ->
  (forall j, j < n -> P (nth (N.to_nat j) so 0) (nth (N.to_nat j) mtf 0)) ->
  forall j, j < n ->
    P (nth (N.to_nat j) (snd (mtf_front (N.to_nat i) so 0)) 0) (nth (N.to_nat j) (upd 0 (nth (N.to_nat i) mtf 0) m') 0).
Proof.
  intros Hi Ls Lm L P1 P2 H j Hj. unfold mtf_front. cbn [snd]. rewrite SlideProofs.mtf_front_nth by lia.
  destruct (Nat.eqb_spec (N.to_nat j) 0) as [E0|E0].
  - rewrite E0, nth_upd_same by lia. exact (H i Hi).
  - rewrite nth_upd_other by exact E0. destruct (Nat.leb_spec (N.to_nat j) (N.to_nat i)) as [Hle|Hgt].
    + rewrite P1 by lia. replace (N.to_nat j - 1)%nat with (N.to_nat (j - 1)) by lia. apply (H (j - 1)). lia.
    + rewrite P2 by lia. exact (H j Hj).
Qed.

(* an entry of rs->mtf[] below MAX_TREES is the number of a tree that was built *)
Lemma tree_rel_built lens code t T' : tree_rel lens code t T' -> t < 6 -> code < 6 ->
  code = t /\ exists pad T, tree_pre lens pad T /\ make_tree (N.of_nat (length lens)) (lens ++ pad) T = Done (VBuilt, T').
Proof.
  intros (pad & T & vd & Hpre & Hmk & ->) Ht Hc. destruct vd; cbn [verdict_code] in Hc |- *.
  - split; [reflexivity|]. exists pad, T. split; assumption.
  - change E_ERR_INCOMPLT with 11 in Hc. lia.
  - change E_ERR_PREFIX with 10 in Hc. lia.
Qed.

Lemma G_static_good c h selm tables k : G_static c h selm tables k -> r_num_trees c <= 6 -> mtf_good c.
Proof.
  intros (_ & _ & S3 & _ & _ & _ & _ & _ & _ & S10) Hnt i Hi. cbv zeta. change MAX_TREES with 6. intro Hlt.
  rewrite S3 in Hi, Hnt. destruct (S10 i Hi) as (Tt & Tl & Tr).
  destruct (tree_rel_built _ _ _ _ Tr ltac:(lia) Hlt) as (E & pad & T & Hpre & Hmk).
  rewrite E. exists (nth (N.to_nat (nth (N.to_nat i) (sel_order (firstn k (clamped selm))) 0)) tables []), pad, T.
  split; [exact Tl|]. split; [exact Hpre|]. rewrite <- Tl. exact Hmk.
Qed.

(* What the head of the group loop needs of G_static: group g of the format description is coded with the tree t
   whose number the selector rs->selector[g] moves to the front; rs->mtf[] holds its number or the verdict of
   make_tree(); with rs->mtf[] updated the relation holds for g + 1. *)
Lemma G_static_group c h selm tables g : G_static c h selm tables g -> N.of_nat g = r_g c -> r_g c < r_num_selectors c ->
  r_num_trees c <= 6 -> length (r_mtf c) = 6%nat ->
  let i := nth (N.to_nat (r_g c)) (r_selector c) 0 in
  let code := nth (N.to_nat i) (r_mtf c) 0 in
  i < r_num_trees c ->
  exists t, t < 6 /\ skipn g (sels_of selm) = t :: skipn (S g) (sels_of selm) /\ nth g (sels_of selm) 0 = t /\
    N.of_nat (length (nth (N.to_nat t) tables [])) = r_alpha_size c /\
    tree_rel (nth (N.to_nat t) tables []) code t (nth (N.to_nat t) (r_tree c) garbage_tree) /\
    forall m', length m' = length (r_mtf c) ->
      (forall p, (1 <= p <= N.to_nat i)%nat -> nth p m' 0 = nth (p - 1) (r_mtf c) 0) ->
      (forall p, (p = 0 \/ N.to_nat i < p)%nat -> nth p m' 0 = nth p (r_mtf c) 0) ->
      G_static (set_r_mtf c (upd 0 code m')) h selm tables (S g).
Proof.
  intros GS Eg Hlt Hnt Lm i code Hi. pose proof (G_static_clamped _ _ _ _ _ GS) as Lcl.
  destruct GS as (S1 & S2 & S3 & S4 & S5 & S6 & S7 & S8 & S9 & S10).
  set (so := sel_order (firstn g (clamped selm))) in *.
  assert (Hgl : (g < length (clamped selm))%nat) by (clear - Lcl Eg Hlt; lia).
  assert (Ei : i = nth g (clamped selm) 0).
  { subst i. rewrite <- S8, nth_firstn by (clear - Eg Hlt; lia). f_equal. clear - Eg. lia. }
  assert (Lso : length so = 6%nat).
  { subst so. rewrite sel_order_eq. apply sel_order_len; [reflexivity|]. apply Forall_firstn, Forall_firstn.
    eapply Forall_impl; [|exact S6]. cbv beta. clear - Hnt S3. intros a Ha. lia. }
  assert (Esk : skipn g (sels_of selm) = nth (N.to_nat i) so 0 :: skipn (S g) (sels_of selm)).
  { rewrite sels_of_eq, (sels_skipn g _ Hgl), <- Ei. reflexivity. }
  rewrite S3 in Hi, Hnt. destruct (S10 i Hi) as (Tt & Tl & Tr).
  assert (Ls6 : h_nt h <= N.of_nat (length so) /\ h_nt h <= N.of_nat (length (r_mtf c))) by (clear - Hnt Lso Lm; lia).
  exists (nth (N.to_nat i) so 0). split; [clear - Tt Hnt; lia|]. split; [exact Esk|]. split; [|split; [exact Tl|split; [exact Tr|]]].
  { rewrite <- (Nat.add_0_r g), <- nth_skipn, Esk. reflexivity. }
  intros m' L P1 P2. unfold G_static. csimp. do 9 (split; [assumption|]).
  cbv zeta. rewrite (sel_order_snoc g _ Hgl), <- Ei. fold so.
  exact (imtf_step (fun t code => t < h_nt h /\ N.of_nat (length (nth (N.to_nat t) tables [])) = r_alpha_size c /\
                      tree_rel (nth (N.to_nat t) tables []) code t (nth (N.to_nat t) (r_tree c) garbage_tree))
           so (r_mtf c) m' i (h_nt h) Hi (proj1 Ls6) (proj2 Ls6) L P1 P2 S10).
Qed.

(* group_select: the selector of the group indexes the IMTF table r_mtf; [mtf_shift] moves the entries before it up by
   one and the code found goes to the front *)
Lemma mtf_shift_spec : forall i m, (i < length m)%nat ->
  exists m', mtf_shift i m = XV m' /\ length m' = length m /\
    (forall p, (1 <= p <= i)%nat -> nth p m' 0 = nth (p - 1) m 0) /\
    (forall p, (p = 0 \/ i < p)%nat -> nth p m' 0 = nth p m 0).
Proof.
  induction i as [|i IH]; intros m Hi.
  - exists m. cbn [mtf_shift]. repeat split; auto. intros; lia.
  - cbn [mtf_shift]. rewrite xget_bindX, xset_bindX by lia. rewrite !Nat2N.id.
    destruct (IH (upd (S i) (nth i m 0) m)) as (m' & E & L & P1 & P2); [rewrite upd_length; lia|].
    exists m'. split; [exact E|]. rewrite upd_length in L. split; [exact L|]. split.
    + intros p Hp. destruct (Nat.eq_dec p (S i)) as [->|Hne].
      * rewrite P2 by lia. rewrite nth_upd_same by lia. f_equal; lia.
      * rewrite P1 by lia. apply nth_upd_other. lia.
    + intros p Hp. rewrite P2 by lia. apply nth_upd_other. lia.
Qed.

Lemma group_select_val c : r_g c < r_num_selectors c -> r_g c < N.of_nat (length (r_selector c)) ->
  let i := nth (N.to_nat (r_g c)) (r_selector c) 0 in
  let code := nth (N.to_nat i) (r_mtf c) 0 in
  i < N.of_nat (length (r_mtf c)) ->
  exists m', length m' = length (r_mtf c) /\
    (forall p, (1 <= p <= N.to_nat i)%nat -> nth p m' 0 = nth (p - 1) (r_mtf c) 0) /\
    (forall p, (p = 0 \/ N.to_nat i < p)%nat -> nth p m' 0 = nth p (r_mtf c) 0) /\
    group_select c = if MAX_TREES <=? code then GOut (BRet code (set_r_t c code))
                     else GSel (set_r_mtf (set_r_t c code) (upd 0 code m')).
Proof.
  intros Hg Hgl i code Hi.
  destruct (mtf_shift_spec (N.to_nat i) (r_mtf c)) as (m' & E & L & P1 & P2); [lia|].
  exists m'. split; [exact L|]. split; [exact P1|]. split; [exact P2|].
  unfold group_select. apply N.ltb_lt in Hg. rewrite Hg. rewrite xget_ok by exact Hgl. fold i.
  rewrite xget_ok by exact Hi. fold code. destruct (MAX_TREES <=? code); [reflexivity|].
  csimp. rewrite E. cbn [bindX]. rewrite xset_ok by lia. reflexivity.
Qed.

(* the group loop of the format description, one group on *)
Lemma K_group_step h selm tables g syms t bits : skipn g (sels_of selm) = t :: skipn (S g) (sels_of selm) ->
  run (K_group h selm tables g syms) bits =
  match complete_only (nth (N.to_nat t) tables []) with
  | Ok _ => run (K_prefix h selm tables g syms (nth (N.to_nat t) tables []) 50) bits
  | Err e => Err e
  end.
Proof.
  intro E. unfold K_group, K_prefix. rewrite E. cbn [read_groups]. change (table_check lbz_policy) with complete_only.
  destruct (complete_only _); [|reflexivity]. change group_size with 50%nat.
  set (rg := read_group (nth (N.to_nat t) tables []) (h_eob h) 50).
  rewrite (run_bind (bind rg _)). rewrite !(run_bind rg).
  destruct (run rg bits) as [[gr r]|e]; [|reflexivity].
  destruct (snd gr); [reflexivity|].
  rewrite !run_bind. destruct (run (read_groups _ _ _ _) r) as [[more r']|e]; reflexivity.
Qed.

(* the head of the group loop (slow path): the tree of the group *)
Lemma ref_group f nx m c h selm tables g syms : R_group c h selm tables g syms -> buf_ok c -> 12 <= c_w c -> 4 * c_w c + 1 <= m ->
  blk_post f nx (run (K_group h selm tables g syms) (strm c nx)) m (fst (group_head false c [])).
Proof.
  intros (order & J & GS & Eg & GY) Hb _ Hm. unfold group_head.
  destruct (N.ltb_spec (r_g c) (r_num_selectors c)) as [Hlt|Hge].
  2:{ unfold group_select. rewrite (proj2 (N.ltb_ge _ _) Hge). cbn [fst blk_post]. unfold K_group.
      rewrite skipn_all2 by (rewrite sels_of_length, (G_static_clamped _ _ _ _ _ GS); clear - Eg Hge; lia). exact I. }
  destruct J as ((Ls & Lc & Lm & Lt4) & Htt & Httl & Hnt & Hal & Hlo & Hfo & Hns & Hg & Hsel & Hmg & Hdyn).
  pose proof (Hsel _ Hlt) as Hi. unfold sel in Hi. destruct Hnt as (Hnt2 & Hnt).
  destruct (group_select_val c Hlt) as (m' & L & P1 & P2 & E); [clear - Hlt Hns Ls; lia|clear - Hi Hnt Lm; lia|].
  rewrite E. clear E.
  destruct (G_static_group c h selm tables g GS Eg Hlt Hnt Lm Hi) as (t & Ht & Esk & Et & Tl & Tr & Hnext).
  rewrite (K_group_step _ _ _ _ _ t _ Esk). change MAX_TREES with 6.
  set (code := nth (N.to_nat (nth (N.to_nat (r_g c)) (r_selector c) 0)) (r_mtf c) 0) in *.
  destruct (N.leb_spec 6 code) as [Hc|Hc].
  - (* the table is not that of a complete code *)
    cbn [fst blk_post]. destruct Tr as (pad & T0 & vd & Hpre & Hmk & Hcode).
    rewrite <- (make_tree_verdict_policy _ _ _ _ _ Hpre Hmk).
    destruct vd; [cbn [verdict_code] in Hcode; clear - Hcode Ht Hc; lia|exact I..].
  - destruct (tree_rel_built _ _ _ _ Tr Ht Hc) as (Ect & pad & T0 & Hpre & Hmk).
    rewrite <- (make_tree_verdict_policy _ _ _ _ _ Hpre Hmk). cbn [verdict_result andb fst]. unfold slow_head. csimp.
    change (0 <? GROUP_SIZE) with true. cbv iota.
    pose proof (G_static_stat _ (set_r_j (set_r_mtf (set_r_t c code) (upd 0 code m')) 0) _ _ _ _ eq_refl (Hnext m' L P1 P2)) as GS'.
    cbn [blk_post]. exists (APrefix h selm tables g syms (nth (N.to_nat t) tables []) 50). cbn [Rel Kof sigma].
    split; [|split; [exact Hb|split; [csimp; clear - Hm; lia|reflexivity]]].
    exists order. split; [|split; [exact GS'|split; [exact Eg|split; [exact GY|split; [reflexivity|]]]]].
    + split; [|split; [exact Hlt|split; [reflexivity|split; [exact Hc|]]]].
      * assert (Lm' : length (upd 0 code m') = 6%nat) by (rewrite upd_length, L; exact Lm).
        exact (conj (conj Ls (conj Lc (conj Lm' Lt4))) (conj Htt (conj Httl (conj (conj Hnt2 Hnt) (conj Hal (conj Hlo (conj Hfo
                 (conj Hns (conj Hg (conj Hsel (conj (G_static_good _ _ _ _ _ GS' Hnt) Hdyn))))))))))).
      * csimp. rewrite Ect, <- Tl. exists (nth (N.to_nat t) tables []), pad, T0. auto.
    + csimp. rewrite Ect in Tr |- *. split; [exact Et|split; [reflexivity|exact Tr]].
Qed.

(* overflow is sticky *)
Lemma overflows_eq c run : c_ttp c <= MAX_BLOCK_SIZE -> overflows c run = (MAX_BLOCK_SIZE <? c_ttp c + run).
Proof.
  intro H. unfold overflows. change MAX_BLOCK_SIZE with 900000 in *.
  rewrite sub64_small by (rewrite ?W64_val; lia).
  destruct (N.ltb_spec (900000 - c_ttp c) run); destruct (N.ltb_spec 900000 (c_ttp c + run)); try reflexivity; lia.
Qed.

Lemma usteps_over limit : forall l order run shift size acc, limit < size + run ->
  match usteps limit (order, run, shift, size, acc) l with Ok u => ufinal limit u = Err ErrOverflow | Err e => e = ErrOverflow end.
Proof.
  induction l as [|s l IH]; intros order run shift size acc H; cbn [usteps ustep ufinal].
  - apply N.ltb_lt in H. rewrite H. reflexivity.
  - destruct (s <=? 1); [apply IH; lia|]. apply N.ltb_lt in H. rewrite H. reflexivity.
Qed.

(* the pending run does not fit: whatever follows, the format description reports an overflow *)
Lemma over_fails c h tables order syms l r : G_syms c h order syms -> MAX_BLOCK_SIZE < c_ttp c + r_run c ->
  fails (Ok (mk_rb h tables (syms ++ l), r)).
Proof.
  intros (run & shift & size & acc & U & <- & _ & <- & _) Ho. exists ErrOverflow.
  unfold post. cbn [mk_rb rb_used rb_mtfv]. unfold unmtf_block. rewrite unmtf_usteps, usteps_app, U.
  pose proof (usteps_over MAX_BLOCK_SIZE l order _ shift _ acc Ho) as S.
  destruct (usteps MAX_BLOCK_SIZE _ l) as [u|e]; [rewrite S|rewrite S]; reflexivity.
Qed.

(* [K_prefix]: what remains to be read inside a group *)
Lemma K_prefix_mtfv h selm tables g syms lens n bits rb r :
  run (K_prefix h selm tables g syms lens n) bits = Ok (rb, r) -> exists l, rb = mk_rb h tables (syms ++ l).
Proof.
  unfold K_prefix. rewrite run_bind. destruct (run (read_group lens (h_eob h) n) bits) as [[gr r0]|e]; [|discriminate].
  destruct (snd gr).
  - cbn [run]. intro H. injection H as <- _. eexists. reflexivity.
  - rewrite run_bind. destruct (run (read_groups _ _ _ _) r0) as [[more r1]|e]; [|discriminate].
    cbn [run]. intro H. injection H as <- _. eexists. reflexivity.
Qed.

Lemma K_prefix_over c h selm tables g order syms a lens n bits : G_syms c h order syms -> MAX_BLOCK_SIZE < c_ttp c + r_run c ->
  fails (run (K_prefix h selm tables g (syms ++ [a]) lens n) bits).
Proof.
  intros GY Ho. destruct (run _ bits) as [[rb r]|e] eqn:ER; [|exact I].
  destruct (K_prefix_mtfv _ _ _ _ _ _ _ _ _ _ ER) as (l & ->). rewrite <- app_assoc.
  exact (over_fails c h tables order syms _ r GY Ho).
Qed.

(* the group is complete *)
Lemma K_prefix_0 h selm tables g syms lens bits :
  run (K_prefix h selm tables g syms lens 0) bits = run (K_group h selm tables (S g) syms) bits.
Proof. unfold K_prefix, K_group. cbn [read_group]. rewrite run_bind. reflexivity. Qed.

(* one symbol of a group *)
Lemma K_prefix_S h selm tables g syms lens n a bits bits' : run (decode_sym lens) bits = Ok (a, bits') ->
  run (K_prefix h selm tables g syms lens (S n)) bits =
  if a =? h_eob h then Ok (mk_rb h tables syms, bits') else run (K_prefix h selm tables g (syms ++ [a]) lens n) bits'.
Proof.
  intro H. unfold K_prefix. cbn [read_group].
  rewrite (run_bind (bind (decode_sym lens) _)). rewrite (run_bind (decode_sym lens)), H.
  destruct (a =? h_eob h); [cbn [run fst snd]; rewrite app_nil_r; reflexivity|].
  rewrite !(run_bind (read_group lens (h_eob h) n)).
  destruct (run (read_group lens (h_eob h) n) bits') as [[r0 rest]|e]; [|reflexivity].
  cbn [run fst snd]. destruct (snd r0).
  - cbn [run]. rewrite <- app_assoc. reflexivity.
  - rewrite !run_bind. destruct (run (read_groups _ _ _ _) rest) as [[more r1]|e]; [|reflexivity].
    cbn [run]. rewrite <- app_assoc. reflexivity.
Qed.

(* one symbol off the stream *)
Lemma decode_strm c lens pad T0 T' : buf_ok c -> 32 <= c_w c -> tree_pre lens pad T0 ->
  make_tree (N.of_nat (length lens)) (lens ++ pad) T0 = Done (VBuilt, T') ->
  exists a k v',
    tree_decode (N.of_nat (length lens)) T' (c_v c) = Done (isym (N.of_nat (length lens)) a, N.of_nat k, v') /\
    (1 <= k <= 20)%nat /\ a < N.of_nat (length lens) /\ buf_ok (bufset c v' (c_w c - N.of_nat k)) /\
    forall nx, run (decode_sym lens) (strm c nx) = Ok (a, strm (bufset c v' (c_w c - N.of_nat k)) nx).
Proof.
  intros (q & B) Hw Hpre Hmk.
  destruct (tree_decode_correct lens pad T0 T' (c_v c) Hpre Hmk (buf_v_lt c q B)) as (a & k & rest & Ed & Hk & Ha & Hrun & Hrest & _).
  destruct (dump_ok c q (N.of_nat k) B ltac:(lia)) as (c2 & _ & -> & B2).
  exists a, k, ((c_v c * 2 ^ N.of_nat k) mod 2 ^ 64). split; [exact Ed|]. split; [exact Hk|]. split; [exact Ha|].
  split; [exists (q mod 2 ^ (c_w c - N.of_nat k)); exact B2|]. intro nx.
  destruct (run_frame _ _ _ _ Hrun) as (d & Hd & Hf).
  assert (Es : bits_msb 64 (c_v c) = bits_msb k (c_v c / 2 ^ N.of_nat (64 - k)) ++ bits_msb (64 - k) (c_v c)).
  { rewrite <- bits_msb_split. f_equal. lia. }
  rewrite Es, Hrest in Hd. apply app_inv_tail in Hd. subst d.
  rewrite (strm_split c q (N.of_nat k) _ nx B ltac:(lia) B2 eq_refl). rewrite Nat2N.id.
  replace (q / 2 ^ (c_w c - N.of_nat k)) with (c_v c / 2 ^ N.of_nat (64 - k)); [apply Hf|].
  destruct B as (Hw63 & Hq & Hv). rewrite Hv.
  replace (N.of_nat (64 - k)) with (64 - N.of_nat k) by lia.
  rewrite (pow2_split (64 - N.of_nat k) (64 - c_w c)) by lia.
  replace (64 - N.of_nat k - (64 - c_w c)) with (c_w c - N.of_nat k) by lia.
  apply N.div_mul_cancel_r; apply N.pow_nonzero; discriminate.
Qed.

(* Format.unmtf, one symbol on *)
Lemma rev_repeat_id {A} (x : A) n : rev (repeat x n) = repeat x n.
Proof. induction n; [reflexivity|]. cbn [repeat rev]. rewrite IHn. symmetry. apply repeat_cons. Qed.

Lemma expand_runs_app a b : expand_runs (a ++ b) = expand_runs a ++ expand_runs b.
Proof. induction a as [|[ch n] a IH]; [reflexivity|]. cbn [app expand_runs]. rewrite IH, app_assoc. reflexivity. Qed.

(* the cells of tt[] behind the pending run *)
Lemma tt_flush tt acc ch n : rev tt = expand_runs (rev acc) ->
  rev (repeat ch (N.to_nat n) ++ tt) = expand_runs (rev ((ch, n) :: acc)).
Proof.
  intro H. cbn [rev]. rewrite expand_runs_app. cbn [expand_runs]. rewrite app_nil_r, rev_app_distr, rev_repeat_id, H. reflexivity.
Qed.

(* a run symbol *)
Lemma G_syms_run c c1 h order syms a : G_syms c h order syms -> a <= 1 ->
  dyn c1 = (r_run c + N.shiftl (a + 1) (r_shift c), r_shift c + 1, c_ttp c, c_tt c, r_runChar c) ->
  G_syms c1 h order (syms ++ [a]).
Proof.
  intros (run & shift & size & acc & U & G1 & G2 & G3 & G4 & G5) Ha E. unfold dyn in E. injection E as E1 E2 E3 E4 E5.
  exists (run + N.shiftl (a + 1) shift), (shift + 1), size, acc.
  rewrite usteps_app, U. cbn [usteps ustep]. replace (a <=? 1) with true by lia.
  rewrite E1, E2, E3, E4, E5, G1, G2. auto 10.
Qed.

(* an MTF symbol, the pending run written *)
Lemma G_syms_sym c c1 h order syms a : G_syms c h order syms -> 2 <= a -> c_ttp c + r_run c <= MAX_BLOCK_SIZE ->
  dyn c1 = (1, 0, c_ttp c + r_run c, repeat (r_runChar c) (N.to_nat (r_run c)) ++ c_tt c,
            fst (mtf_front (N.to_nat (a - 1)) order 0)) ->
  G_syms c1 h (snd (mtf_front (N.to_nat (a - 1)) order 0)) (syms ++ [a]).
Proof.
  intros (run & shift & size & acc & U & G1 & G2 & G3 & G4 & G5) Ha Hf E. unfold dyn in E. injection E as E1 E2 E3 E4 E5.
  exists 1, 0, (size + run), ((hd 0 order, run) :: acc).
  rewrite usteps_app, U. cbn [usteps ustep]. replace (a <=? 1) with false by lia.
  replace (MAX_BLOCK_SIZE <? size + run) with false by lia.
  rewrite E1, E2, E3, E4, E5, G1, G3, G5. repeat split. apply tt_flush, G4.
Qed.

(* EOB, the pending run written *)
Lemma G_syms_eob c h order syms : G_syms c h order syms -> c_ttp c + r_run c <= MAX_BLOCK_SIZE ->
  unmtf_block MAX_BLOCK_SIZE (h_used h) syms = Ok (rev (repeat (r_runChar c) (N.to_nat (r_run c)) ++ c_tt c)).
Proof.
  intros (run & shift & size & acc & U & G1 & G2 & G3 & G4 & G5) Hf.
  unfold unmtf_block. rewrite unmtf_usteps, U. cbn [ufinal]. replace (MAX_BLOCK_SIZE <? size + run) with false by lia.
  rewrite G1, G5, (tt_flush _ acc _ _ G4). reflexivity.
Qed.

(* the invariant behind a symbol *)
(* what the symbol code reads of J_group *)
Lemma J_group_run c order : J_group c order ->
  length (d_ftab c) = 256%nat /\ c_ttp c = N.of_nat (length (c_tt c)) /\ c_ttp c <= MAX_BLOCK_SIZE /\
  r_alpha_size c = N.of_nat (length order) + 2 /\ (1 <= length order <= 256)%nat /\ Forall (fun x => x < 256) order /\
  SlideProofs.Sim_c (r_slide c) order /\ r_runChar c < 256 /\ run_ok (r_run c) (r_shift c).
Proof.
  intros ((_ & _ & _ & _ & _ & _ & Lf) & Htt & Httl & _ & Hal & Hlo & Hfo & _ & _ & _ & _ & Hsim & Hrc & Hro). auto 10.
Qed.

(* J_group with the run state, the slide and the written part of tt[] replaced *)
Lemma J_group_dyn c c1 order order' : J_group c order ->
  (stat c1, length (r_code_len c1), r_g c1) = (stat c, length (r_code_len c), r_g c) ->
  length (d_ftab c1) = 256%nat -> c_ttp c1 = N.of_nat (length (c_tt c1)) -> c_ttp c1 <= MAX_BLOCK_SIZE ->
  length order' = length order -> Forall (fun x => x < 256) order' -> SlideProofs.Sim_c (r_slide c1) order' ->
  r_runChar c1 < 256 -> run_ok (r_run c1) (r_shift c1) -> J_group c1 order'.
Proof.
  intros ((Ls & Lc & Lm & Lt & Lwf & _) & _ & _ & Hnt & Hal & Hlo & _ & Hns & Hg & Hsel & Hmg & _) E Lf Htt Httl Lo Hfo Hsim Hrc Hrun.
  unfold stat in E. injection E as _ _ E3 E4 E5 E6 E7 E8 E9 E10.
  unfold J_group, shape, sels_ok, sel, mtf_good in *. rewrite E3, E4, E5, E6, E7, E8, E9, E10, Lo.
  pose proof Hsim as ((Lsl & _) & _).
  exact (conj (conj Ls (conj Lc (conj Lm (conj Lt (conj Lwf (conj Lsl Lf))))))
           (conj Htt (conj Httl (conj Hnt (conj Hal (conj Hlo (conj Hfo (conj Hns (conj Hg (conj Hsel
           (conj Hmg (conj Hsim (conj Hrc Hrun))))))))))))).
Qed.

(* inside the group, a symbol on: the tables, the tree and the counters are those of c *)
Lemma R_prefix_next c c1 h selm tables g syms lens n order' syms' : R_prefix c h selm tables g syms lens n ->
  stat c1 = stat c -> (r_t c1, r_j c1, r_g c1) = (r_t c, r_j c, r_g c) -> J_group c1 order' -> G_syms c1 h order' syms' ->
  R_prefix c1 h selm tables g syms' lens n.
Proof.
  intros (order & (_ & Hg & Hj & Ht & TG) & GS & Eg & _ & En & Et & El & Tr) Es E J1 G1.
  injection E as Et' Ej Eg'. pose proof Es as Es'. unfold stat in Es'. injection Es' as _ _ _ E4 E5 _ _ E8.
  exists order'. unfold J_prefix. rewrite Et', Ej, Eg', E4, E5, E8.
  split; [split; [exact J1|split; [exact Hg|split; [exact Hj|split; [exact Ht|exact TG]]]]|].
  split; [exact (G_static_stat c c1 _ _ _ _ Es GS)|]. auto 10.
Qed.

Lemma R_prefix_lens c h selm tables g syms lens n : R_prefix c h selm tables g syms lens n ->
  N.of_nat (length lens) = r_alpha_size c.
Proof.
  intros (order & ((_ & _ & _ & Hnt & _) & Hg & _) & GS & Eg & _ & _ & Et & El & _).
  pose proof (G_static_clamped _ _ _ _ _ GS) as Lcl. destruct GS as (_ & _ & S3 & _ & _ & _ & _ & _ & _ & S10).
  destruct (S10 0 ltac:(lia)) as (_ & S0 & _). change (N.to_nat 0) with 0%nat in S0.
  rewrite <- (sels_nth g (clamped selm)), <- sels_of_eq, Et, <- El in S0 by lia. exact S0.
Qed.

(* the code behind the decode sequence: s is the symbol *)
Definition after_sym (c : core) (s : N) : bres :=
  if s =? EOB then eob c
  else if (256 <=? s) && run_guard 1 (r_run c) then
    sh <== ofM (shl32 (sub32 s 256) (r_shift c)) ;;
    let c := set_r_shift (set_r_run c (add32 (r_run c) sh)) (add32 (r_shift c) 1) in
    slow_head (set_r_j c (add32 (r_j c) 1))
  else if overflows c (r_run c) then BRet E_ERR_OVERFLOW c
  else
    c <== emit_run c (r_runChar c) (r_run c) ;;
    let c := set_r_run c UINT_MAX in
    match SlideModel.mtf_one_c (s mod W8) (r_slide c) with
    | SlideModel.Oob => BFault FSlideOob
    | SlideModel.Abort => BFault FSlideAbort
    | SlideModel.Done x sl =>
        let c := set_r_run (set_r_shift (set_r_runChar (set_r_slide c sl) x) 0) 1 in
        slow_head (set_r_j c (add32 (r_j c) 1))
    end.

Lemma after_prefix_unf c : after_prefix c =
  (T <== ofO (FRead RTree) (nth_error (r_tree c) (N.to_nat (r_t c))) ;;
   skv <== ofM (tree_decode (r_alpha_size c) T (c_v c)) ;;
   after_sym (set_c_w (set_c_v c (snd skv)) (sub32 (c_w c) (snd (fst skv)))) (fst (fst skv))).
Proof. reflexivity. Qed.

(* what the code behind a symbol leaves: [blk_post], and a continuing exit is one of the two of the slow path, with at
   most 20 bits fewer than the w there were before the symbol *)
Definition sym_post (f : nat) (nx : list N) (X : result (raw_block * list bool)) (m w : N) (r : bres) : Prop :=
  blk_post f nx X m r /\
  match r with
  | BGo P_GROUP c' | BNeed S_prefix c' => w <= c_w c' + 20
  | BGo _ _ | BNeed _ _ => False
  | _ => True
  end.

(* rs->j++ and the loop test; [syms] has the symbol just decoded *)
Lemma ref_slow f nx X m w c h selm tables g syms lens n : R_prefix c h selm tables g syms lens (S n) -> buf_ok c ->
  12 <= c_w c -> 4 * c_w c + 1 < m -> w <= c_w c + 20 -> X = run (K_prefix h selm tables g syms lens n) (strm c nx) ->
  sym_post f nx X m w (slow_head (set_r_j c (add32 (r_j c) 1))).
Proof.
  intros (order & (JG & Hg & Hj & Ht & TG) & GS & Eg & GY & En & Et & El & Tr) Hb Hw Hm Hw0 ->.
  unfold slow_head. csimp. rewrite add32_small by (rewrite W32_val; lia). change GROUP_SIZE with 50.
  destruct (N.ltb_spec (r_j c + 1) 50) as [Hlt|Hge]; (split; [cbn [blk_post]|exact Hw0]).
  - exists (APrefix h selm tables g syms lens n). cbn [Rel Kof sigma].
    split; [|split; [exact Hb|split; [csimp; lia|reflexivity]]].
    exists order. split; [exact (conj JG (conj Hg (conj Hlt (conj Ht TG))))|].
    split; [exact GS|]. split; [exact Eg|]. split; [exact GY|]. split; [csimp; lia|]. split; [exact Et|]. split; [exact El|exact Tr].
  - assert (Hns : r_num_selectors c <= 32767) by apply JG. assert (Hg' : r_g c + 1 <= r_num_selectors c) by lia.
    rewrite add32_small by (rewrite W32_val; lia). replace n with 0%nat by lia.
    exists (AGroup h selm tables (S g) syms). cbn [Rel Kof wlo sigma].
    split; [|split; [exact Hb|split; [exact Hw|split; [csimp; lia|apply K_prefix_0]]]].
    exists order. split; [|split; [exact GS|split; [csimp; lia|exact GY]]].
    destruct JG as (A1 & A2 & A3 & A4 & A5 & A6 & A7 & A8 & _ & A10).
    exact (conj A1 (conj A2 (conj A3 (conj A4 (conj A5 (conj A6 (conj A7 (conj A8 (conj Hg' A10))))))))).
Qed.

(* the pending run is written to tt[] unless it does not fit, in which case the format description overflows too *)
Lemma flush_run f nx X m w c order k : J_group c order -> (MAX_BLOCK_SIZE < c_ttp c + r_run c -> fails X) ->
  (c_ttp c + r_run c <= MAX_BLOCK_SIZE ->
   sym_post f nx X m w
     (k (set_c_ttp (set_c_tt (set_d_ftab c (upd (N.to_nat (r_runChar c)) (add32 (nth (N.to_nat (r_runChar c)) (d_ftab c) 0) (r_run c))
                                               (d_ftab c)))
                             (repeat (r_runChar c) (N.to_nat (r_run c)) ++ c_tt c)) (c_ttp c + r_run c)))) ->
  sym_post f nx X m w (if overflows c (r_run c) then BRet E_ERR_OVERFLOW c else bindB (emit_run c (r_runChar c) (r_run c)) k).
Proof.
  intros ((_ & _ & _ & _ & _ & _ & Lf) & _ & Httl & _ & _ & _ & _ & _ & _ & _ & _ & _ & Hrc & _) Hover Hfit.
  rewrite overflows_eq by exact Httl. destruct (N.ltb_spec MAX_BLOCK_SIZE (c_ttp c + r_run c)) as [Ho|Ho].
  - split; [exact (Hover Ho)|exact I].
  - rewrite emit_run_ok by assumption. exact (Hfit Ho).
Qed.

(* EOB ends the block: the format description returns the symbols read so far and leaves the same stream *)
Lemma ref_eob f nx m w c h selm tables g syms lens n : R_prefix c h selm tables g syms lens n ->
  sym_post f nx (Ok (mk_rb h tables syms, strm c nx)) m w (eob c).
Proof.
  intros (order & (JG & _) & (S1 & S2 & _) & _ & GY & _). unfold eob. apply (flush_run f nx _ m w c order _ JG).
  - rewrite <- (app_nil_r syms). apply (over_fails c h tables order syms [] _ GY).
  - intro Hfit. split; [|exact I]. exists (mk_rb h tables syms). split; [reflexivity|].
    cbn [mk_rb rb_used rb_mtfv rb_rand rb_idx]. csimp. split; [exact (G_syms_eob c h order syms GY Hfit)|].
    assert (Htt : c_ttp c = N.of_nat (length (c_tt c))) by apply JG.
    split; [rewrite app_length, repeat_length; lia|]. rewrite S1, S2. split; reflexivity.
Qed.

(* rs->run += RUN(s) << rs->shift++ under the guard rs->run <= MAX_BLOCK_SIZE *)
Lemma acc_arith run shift d : run_ok run shift -> run <= MAX_BLOCK_SIZE -> d = 1 \/ d = 2 ->
  shift < 32 /\ N.shiftl d shift < 2097152 /\ run_ok (run + N.shiftl d shift) (shift + 1).
Proof.
  intros (H1 & H2) Hr Hd. change MAX_BLOCK_SIZE with 900000 in Hr. unfold run_ok. change (2 ^ 32) with 4294967296 in *.
  assert (Hs : shift <= 19).
  { destruct (N.le_gt_cases shift 19) as [H|H]; [exact H|].
    assert (2 ^ 20 <= 2 ^ shift) by (apply N.pow_le_mono_r; lia). change (2 ^ 20) with 1048576 in *. lia. }
  rewrite N.shiftl_mul_pow2, N.pow_add_r. change (2 ^ 1) with 2. clear H2. destruct Hd as [-> | ->]; lia.
Qed.

(* a run symbol: s = RUN_A, RUN_B for a = 0, 1 *)
Lemma ref_acc f nx X m w c h selm tables g syms lens n a s : R_prefix c h selm tables g syms lens (S n) -> buf_ok c ->
  12 <= c_w c -> 4 * c_w c + 1 < m -> w <= c_w c + 20 -> a <= 1 -> s = a + 257 ->
  X = run (K_prefix h selm tables g (syms ++ [a]) lens n) (strm c nx) ->
  sym_post f nx X m w (after_sym c s).
Proof.
  intros HR Hb Hw Hm Hw0 Ha -> HX. pose proof HR as (order & (JG & _) & _ & _ & GY & _).
  destruct (J_group_run c order JG) as (Lf & Htt & Httl & _ & _ & Hfo & Hsim & Hrc & Hro).
  unfold after_sym. replace (a + 257 =? EOB) with false by (unfold EOB; lia). replace (256 <=? a + 257) with true by lia.
  rewrite sub32_small by (rewrite ?W32_val; lia). replace (a + 257 - 256) with (a + 1) by lia. cbn [andb].
  unfold run_guard. change (nth 1 run_acc_guards None) with (Some MAX_BLOCK_SIZE). cbv iota.
  destruct (N.leb_spec (r_run c) MAX_BLOCK_SIZE) as [Hgd|Hgd].
  - destruct (acc_arith _ _ (a + 1) Hro Hgd ltac:(lia)) as (Hs & Hsh & Hro').
    unfold shl32. replace (r_shift c <? 32) with true by lia. cbn [ofM bindB].
    change MAX_BLOCK_SIZE with 900000 in Hgd. clear Hro.
    rewrite N.mod_small by (rewrite W32_val; lia). rewrite !add32_small by (rewrite W32_val; lia). cbv zeta.
    apply (ref_slow f nx X m w _ h selm tables g (syms ++ [a]) lens n); try assumption.
    apply (R_prefix_next c _ _ _ _ _ _ _ _ order _ HR); [reflexivity..| |].
    + apply (J_group_dyn c _ order order JG);
        [reflexivity|exact Lf|exact Htt|exact Httl|reflexivity|exact Hfo|exact Hsim|exact Hrc|exact Hro'].
    + apply (G_syms_run c _ h order syms a GY Ha). reflexivity.
  - apply (flush_run f nx X m w c order _ JG).
    + intro Ho. rewrite HX. exact (K_prefix_over c _ _ _ _ order _ _ _ _ _ GY Ho).
    + change MAX_BLOCK_SIZE with 900000 in *. lia.
Qed.

(* an MTF symbol: flush the pending run, move to front, start a new run *)
Lemma ref_mtf f nx X m w c h selm tables g syms lens n a : R_prefix c h selm tables g syms lens (S n) -> buf_ok c ->
  12 <= c_w c -> 4 * c_w c + 1 < m -> w <= c_w c + 20 -> 2 <= a -> a + 1 < r_alpha_size c ->
  X = run (K_prefix h selm tables g (syms ++ [a]) lens n) (strm c nx) ->
  sym_post f nx X m w (after_sym c (a - 1)).
Proof.
  intros HR Hb Hw Hm Hw0 Ha1 Ha2 HX. pose proof HR as (order & (JG & _) & _ & _ & GY & _).
  destruct (J_group_run c order JG) as (Lf & Htt & _ & Hal & Hlo & Hfo & Hsim & _).
  unfold after_sym. replace (a - 1 =? EOB) with false by (unfold EOB; lia). replace (256 <=? a - 1) with false by lia.
  cbn [andb]. apply (flush_run f nx X m w c order _ JG).
  { intro Ho. rewrite HX. exact (K_prefix_over c _ _ _ _ order _ _ _ _ _ GY Ho). }
  intro Hfit. cbv beta zeta. cbn [r_slide set_r_run set_c_ttp set_c_tt set_d_ftab]. rewrite N.mod_small by (change W8 with 256; lia).
  destruct (SlideProofs.slide_step_sim (r_slide c) order (a - 1) Hsim ltac:(lia) ltac:(lia)) as (sl & Em & Hsim').
  rewrite Em. cbv beta iota zeta.
  destruct (mtf_front_Forall (fun x => x < 256) (N.to_nat (a - 1)) order Hfo ltac:(lia)) as (Fx & Fo).
  apply (ref_slow f nx X m w _ h selm tables g (syms ++ [a]) lens n); try assumption.
  apply (R_prefix_next c _ _ _ _ _ _ _ _ (snd (mtf_front (N.to_nat (a - 1)) order 0)) _ HR); [reflexivity..| |].
  - apply (J_group_dyn c _ order _ JG); csimp.
    + reflexivity.
    + rewrite upd_length. exact Lf.
    + rewrite app_length, repeat_length. lia.
    + exact Hfit.
    + apply SlideProofs.mtf_front_snd_length. lia.
    + exact Fo.
    + exact Hsim'.
    + exact Fx.
    + split; [cbn; lia|reflexivity].
  - apply (G_syms_sym c _ h order syms a GY Ha1 Hfit). reflexivity.
Qed.

(* a is the symbol of the alphabet of the format description, isym a what retrieve() makes of it *)
Lemma ref_symbol f nx m w c h selm tables g syms lens n a : R_prefix c h selm tables g syms lens (S n) -> buf_ok c ->
  12 <= c_w c -> 4 * c_w c + 1 < m -> w <= c_w c + 20 -> a < r_alpha_size c ->
  sym_post f nx (if a =? h_eob h then Ok (mk_rb h tables syms, strm c nx)
                 else run (K_prefix h selm tables g (syms ++ [a]) lens n) (strm c nx)) m w
    (after_sym c (isym (r_alpha_size c) a)).
Proof.
  intros HR Hb Hw Hm Hw0 Ha. pose proof HR as (order & (JG & _) & (_ & _ & _ & S4 & _) & _).
  destruct (J_group_run c order JG) as (_ & _ & _ & Hal & Hlo & _).
  assert (Heob : h_eob h = r_alpha_size c - 1) by (unfold h_eob; rewrite S4; reflexivity).
  unfold isym. rewrite Heob.
  destruct (N.eqb_spec a 0) as [->|E0]; [|destruct (N.eqb_spec a 1) as [->|E1];
    [|destruct (N.eqb_spec a (r_alpha_size c - 1)) as [E2|E2]]].
  - replace (0 =? r_alpha_size c - 1) with false by lia.
    apply (ref_acc f nx _ m w c h selm tables g syms lens n 0); (assumption || lia || reflexivity).
  - replace (1 =? r_alpha_size c - 1) with false by lia.
    apply (ref_acc f nx _ m w c h selm tables g syms lens n 1); (assumption || lia || reflexivity).
  - exact (ref_eob f nx m w c h selm tables g syms lens (S n) HR).
  - apply (ref_mtf f nx _ m w c h selm tables g syms lens n a); (assumption || lia || reflexivity).
Qed.

(* behind NEED(S_PREFIX): one symbol *)
Lemma ref_prefix f nx m c h selm tables g syms lens n : R_prefix c h selm tables g syms lens n -> buf_ok c ->
  32 <= c_w c -> 4 * c_w c <= m ->
  blk_post f nx (run (K_prefix h selm tables g syms lens n) (strm c nx)) m (after_prefix c) /\
  match after_prefix c with
  | BGo P_GROUP c' | BNeed S_prefix c' => c_w c <= c_w c' + 20
  | BGo _ _ | BNeed _ _ => False
  | _ => True
  end.
Proof.
  intros HR Hb Hw Hm. pose proof (R_prefix_lens _ _ _ _ _ _ _ _ HR) as Hlen.
  pose proof HR as (order & (JG & _ & Hj & Ht & _) & _ & _ & _ & En & _ & _ & Tr).
  assert (Lt : length (r_tree c) = 6%nat) by apply JG.
  destruct n as [|n]; [lia|].
  destruct (tree_rel_built _ _ _ _ Tr Ht Ht) as (_ & pad & T0 & Hpre & Hmk).
  destruct (decode_strm c lens pad T0 _ Hb Hw Hpre Hmk) as (a & k & v' & Ed & Hk & Ha & Hb2 & Hrun).
  rewrite after_prefix_unf, (nth_error_nth' (r_tree c) garbage_tree) by lia. cbn [ofO bindB].
  rewrite Hlen in Ed, Ha. rewrite Ed. cbn [ofM bindB fst snd].
  assert (Hw63 : c_w c < 64) by (destruct Hb as (q & B & _); lia).
  rewrite sub32_small by (rewrite ?W32_val; lia). rewrite (K_prefix_S _ _ _ _ _ _ _ _ _ _ (Hrun nx)).
  apply (ref_symbol f nx m (c_w c) (bufset c v' (c_w c - N.of_nat k)) h selm tables g syms lens n a HR Hb2); csimp;
    (exact Ha || lia).
Qed.

Print Assumptions unmtf_usteps.
Print Assumptions usteps_app.
Print Assumptions ref_group.
Print Assumptions ref_prefix.
