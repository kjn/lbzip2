(* C08/C09 (decompressor): statement-level RESUMABLE model of retrieve() of src/decode.c.

   retrieve() is a coroutine: `switch (rs->state)` jumps to a `case (s):` label hidden inside the
   NEED(s) macro, i.e. into the middle of the loops, and NEED(s) returns MORE (after saving the bit
   buffer and s) when the current input chunk is exhausted.  The model is the control-flow graph of
   that function:

   * [core]   the locals v, w and tt (as an offset into ds->tt) of retrieve() together with every field of
              `struct retriever_internal_state` and the fields of `struct decoder_state` that
              retrieve() writes (rand, bwt_idx, ftab[], the cells of tt[] written so far);
   * [rstate] adds the locals next/limit (the list [l_next] of the words of the CURRENT chunk not yet consumed)
              and what survives a return: rs->state, the saved bit stream bs->buff / bs->live /
              bs->data(..bs->limit) / bs->eof and ds->block_size (RESTORE() / SAVE());
              only NEED / NEED_FAST and the fast-path test look at next/limit, so the code between two NEEDs is a
              function of [core] alone;
   * one Gallina function per resumable state: [after_bwt_idx], [after_bitmap_big],
     [after_bitmap_small], [after_selector_mtf], [after_delta_tag], [after_prefix] = the C statements
     executed from the point just behind a successful NEED(S_x) (control point [After s], s : [site]) up to
     the next NEED site (result [BNeed s]), a `return` ([BRet]: an error code, no SAVE(); [BEob]: the end
     of the block, SAVE() and the final checks follow in [finish]) or one of the two loop heads that can be
     reached without passing a NEED: the head of the tree loop ([P_TREE]) and the head of the group loop
     ([P_GROUP]); the interior loop heads [sel_head], [tree_head], [delta_head], [slow_head] are inlined
     tails.  [step] dispatches on the control point, [onestep] adds NEED and the returns, [run_from]
     iterates (its fuel [call_fuel] provably suffices: Safe/RetrSafe.v);
   * the fast path of the symbol loop ([fast_loop], NEED_FAST, state in the C locals j, run, runChar,
     shift, taken when limit - next >= 32) and the slow path ([after_prefix], NEED(S_PREFIX), state in
     rs->j, rs->run, rs->runChar, rs->shift) are separate code, as in the C;
   * NEED(s) itself is [need_at] (reached from above) / the resume prologue in [retrieve_f] (reached
     through `case (s):`, including its two assert()s), NEED_FAST is [need_fast]: reading *next with
     next == limit is the fault [FInput];
   * C integer widths are explicit: unsigned / uint32_t mod 2^32 ([add32]/[sub32] of TreeModel),
     uint64_t mod 2^64, uint16_t / uint8_t stores truncated; a shift by >= the width is a fault;
   * arrays are lists of their declared lengths accessed through bounds-checked [xget]/[xset]
     (selector[MAX_SELECTORS], code_len[MAX_ALPHA_SIZE], mtf[MAX_TREES], tree[MAX_TREES], ftab[256],
     the constant tables table[], L[], R[], Rmin[], Rmax[]); imtf_row/imtf_slide and mtf_one() are
     Safe/SlideModel.v, make_tree() and the table decode sequence are Safe/TreeModel.v (re-used, not
     re-modelled); tt[] is the list of the cells written so far, most recent first, every write
     checked against MAX_BLOCK_SIZE ([tt_push]);
   * initial contents of the arrays are arbitrary (the state comes from xmalloc()): they are
     parameters of [init_core] (no "uninitialised" marker is modelled, except for perm[] inside TreeModel:
     the theorems hold for every content, so no result depends on it);
   * the flag [fast_ok] of [group_head]/[step]/[run_from]/[retrieve_f]/[retr_chunks_f] is [true] in
     [retrieve]/[retr_chunks] (the model of the C); [false] switches the fast path off and gives the
     reference machine used in the proofs (Safe/RetrChunk.v);
   * constants and tables regenerated from the source: Gen/Consts.v, Gen/DecTabs.v (in particular the
     delta range check, the selector clamp, the two run-accumulation guards [run_acc_guards] and the
     threshold [fast_path_words] of the fast-path test).

   One call:  [retrieve st]  =  RESTORE(); switch (rs->state) ...        with [attach]/[attach_eof]
   standing for what expand.c's attach() stores in the struct bitstream before the call (a non-empty
   part of the input; at the end of the input data = limit = NULL and eof = (live < 32)).
   [retr_chunks] feeds a list of chunks, then end of input; it also returns the chunks never attached.
   Tied to src/decode.c by checks/retr_part.py (harness/retr_h.c vs Extract/ExtractRetr.v). *)
From Coq Require Import List NArith Arith Bool.
From LBZ Require Import Gen.Consts Gen.DecTabs Safe.TreeModel.
From LBZ Require Safe.SlideModel.
Import ListNotations.
Local Open Scope N_scope.

(* ---- faults -------------------------------------------------------------------------------------- *)
Inductive rarr := RSelector | RCodeLen | RMtf | RTree | RFtab | RTt | RConst.

Inductive fault :=
| FUb (u : ub)             (* undefined event inside make_tree / the decode sequence / a shift (TreeModel) *)
| FSlideOob                (* mtf_one / the bitmap loop left imtf_slide[] or imtf_row[] *)
| FSlideAbort              (* mtf_one: default: abort() *)
| FRead (a : rarr)         (* read outside the declared array *)
| FWrite (a : rarr)        (* write outside the declared array *)
| FInput                   (* *next read with next == limit *)
| FAssert (id : N)         (* assert() of the NEED macro: 1 = assert(bs->eof), 2 = assert(w < 32u) *)
| FAbort                   (* switch (rs->state) default: abort() *)
| FFuel.                   (* model artefact, excluded by the theorems *)

Inductive X (A : Type) := XV (a : A) | XF (f : fault).
Arguments XV {A} a.
Arguments XF {A} f.

Definition bindX {A B} (x : X A) (k : A -> X B) : X B := match x with XV a => k a | XF f => XF f end.
Notation "x <-- p ;; q" := (bindX p (fun x => q)) (at level 61, p at next level, right associativity).

Definition ofM {A} (m : M A) : X A := match m with Done a => XV a | Undef u => XF (FUb u) end.
Definition ofO {A} (f : fault) (o : option A) : X A := match o with Some a => XV a | None => XF f end.

Definition xget (a : rarr) (l : list N) (i : N) : X N :=
  if i <? N.of_nat (length l) then XV (nth (N.to_nat i) l 0) else XF (FRead a).
Definition xset (a : rarr) (l : list N) (i x : N) : X (list N) :=
  if i <? N.of_nat (length l) then XV (upd (N.to_nat i) x l) else XF (FWrite a).

Fixpoint updt (i : nat) (x : tree) (l : list tree) : list tree :=
  match l with
  | [] => []
  | y :: r => match i with O => x :: r | S i' => y :: updt i' x r end
  end.

Definition W8 : N := 2 ^ 8.
(* unsigned x << c *)
Definition shl32 (x c : N) : M N := if c <? 32 then Done (N.shiftl x c mod W32) else Undef BadShift.

(* ---- FSM states (enum in decode.c) --------------------------------------------------------------- *)
Definition S_INIT : N := 0.
Definition S_BWT_IDX : N := 1.
Definition S_BITMAP_BIG : N := 2.
Definition S_BITMAP_SMALL : N := 3.
Definition S_SELECTOR_MTF : N := 4.
Definition S_DELTA_TAG : N := 5.
Definition S_PREFIX : N := 6.

(* the NEED sites = the states in which retrieve() can be suspended *)
Inductive site := S_bwt_idx | S_bitmap_big | S_bitmap_small | S_selector_mtf | S_delta_tag | S_prefix.

(* control points: behind NEED(S_x), and the two loop heads reachable without passing a NEED *)
Inductive pc := After (s : site) | P_TREE | P_GROUP.
Notation A_BWT_IDX := (After S_bwt_idx).
Notation A_BITMAP_BIG := (After S_bitmap_big).
Notation A_BITMAP_SMALL := (After S_bitmap_small).
Notation A_SELECTOR_MTF := (After S_selector_mtf).
Notation A_DELTA_TAG := (After S_delta_tag).
Notation A_PREFIX := (After S_prefix).

Definition state_no (s : site) : N :=
  match s with
  | S_bwt_idx => S_BWT_IDX | S_bitmap_big => S_BITMAP_BIG | S_bitmap_small => S_BITMAP_SMALL
  | S_selector_mtf => S_SELECTOR_MTF | S_delta_tag => S_DELTA_TAG | S_prefix => S_PREFIX
  end.

Definition site_of_state (s : N) : option site :=
  if s =? S_BWT_IDX then Some S_bwt_idx else if s =? S_BITMAP_BIG then Some S_bitmap_big
  else if s =? S_BITMAP_SMALL then Some S_bitmap_small else if s =? S_SELECTOR_MTF then Some S_selector_mtf
  else if s =? S_DELTA_TAG then Some S_delta_tag else if s =? S_PREFIX then Some S_prefix else None.

(* ---- the locals of retrieve() + *rs + the written part of *ds -------------------------------------- *)
Record core := mk_core {
  c_v : N;
  c_w : N;
  c_ttp : N;
  c_tt : list N;
  d_rand : N;
  d_bwt_idx : N;
  d_ftab : list N;
  r_selector : list N;
  r_num_trees : N;
  r_num_selectors : N;
  r_alpha_size : N;
  r_code_len : list N;
  r_mtf : list N;
  r_tree : list tree;
  r_big : N;
  r_small : N;
  r_j : N;
  r_t : N;
  r_g : N;
  r_slide : SlideModel.sstate;
  r_runChar : N;
  r_run : N;
  r_shift : N
}.

Definition set_c_v (c : core) (x : N) : core :=
  mk_core x (c_w c) (c_ttp c) (c_tt c) (d_rand c) (d_bwt_idx c) (d_ftab c) (r_selector c) (r_num_trees c) (r_num_selectors c) (r_alpha_size c) (r_code_len c) (r_mtf c) (r_tree c) (r_big c) (r_small c) (r_j c) (r_t c) (r_g c) (r_slide c) (r_runChar c) (r_run c) (r_shift c).
Definition set_c_w (c : core) (x : N) : core :=
  mk_core (c_v c) x (c_ttp c) (c_tt c) (d_rand c) (d_bwt_idx c) (d_ftab c) (r_selector c) (r_num_trees c) (r_num_selectors c) (r_alpha_size c) (r_code_len c) (r_mtf c) (r_tree c) (r_big c) (r_small c) (r_j c) (r_t c) (r_g c) (r_slide c) (r_runChar c) (r_run c) (r_shift c).
Definition set_c_ttp (c : core) (x : N) : core :=
  mk_core (c_v c) (c_w c) x (c_tt c) (d_rand c) (d_bwt_idx c) (d_ftab c) (r_selector c) (r_num_trees c) (r_num_selectors c) (r_alpha_size c) (r_code_len c) (r_mtf c) (r_tree c) (r_big c) (r_small c) (r_j c) (r_t c) (r_g c) (r_slide c) (r_runChar c) (r_run c) (r_shift c).
Definition set_c_tt (c : core) (x : list N) : core :=
  mk_core (c_v c) (c_w c) (c_ttp c) x (d_rand c) (d_bwt_idx c) (d_ftab c) (r_selector c) (r_num_trees c) (r_num_selectors c) (r_alpha_size c) (r_code_len c) (r_mtf c) (r_tree c) (r_big c) (r_small c) (r_j c) (r_t c) (r_g c) (r_slide c) (r_runChar c) (r_run c) (r_shift c).
Definition set_d_rand (c : core) (x : N) : core :=
  mk_core (c_v c) (c_w c) (c_ttp c) (c_tt c) x (d_bwt_idx c) (d_ftab c) (r_selector c) (r_num_trees c) (r_num_selectors c) (r_alpha_size c) (r_code_len c) (r_mtf c) (r_tree c) (r_big c) (r_small c) (r_j c) (r_t c) (r_g c) (r_slide c) (r_runChar c) (r_run c) (r_shift c).
Definition set_d_bwt_idx (c : core) (x : N) : core :=
  mk_core (c_v c) (c_w c) (c_ttp c) (c_tt c) (d_rand c) x (d_ftab c) (r_selector c) (r_num_trees c) (r_num_selectors c) (r_alpha_size c) (r_code_len c) (r_mtf c) (r_tree c) (r_big c) (r_small c) (r_j c) (r_t c) (r_g c) (r_slide c) (r_runChar c) (r_run c) (r_shift c).
Definition set_d_ftab (c : core) (x : list N) : core :=
  mk_core (c_v c) (c_w c) (c_ttp c) (c_tt c) (d_rand c) (d_bwt_idx c) x (r_selector c) (r_num_trees c) (r_num_selectors c) (r_alpha_size c) (r_code_len c) (r_mtf c) (r_tree c) (r_big c) (r_small c) (r_j c) (r_t c) (r_g c) (r_slide c) (r_runChar c) (r_run c) (r_shift c).
Definition set_r_selector (c : core) (x : list N) : core :=
  mk_core (c_v c) (c_w c) (c_ttp c) (c_tt c) (d_rand c) (d_bwt_idx c) (d_ftab c) x (r_num_trees c) (r_num_selectors c) (r_alpha_size c) (r_code_len c) (r_mtf c) (r_tree c) (r_big c) (r_small c) (r_j c) (r_t c) (r_g c) (r_slide c) (r_runChar c) (r_run c) (r_shift c).
Definition set_r_num_trees (c : core) (x : N) : core :=
  mk_core (c_v c) (c_w c) (c_ttp c) (c_tt c) (d_rand c) (d_bwt_idx c) (d_ftab c) (r_selector c) x (r_num_selectors c) (r_alpha_size c) (r_code_len c) (r_mtf c) (r_tree c) (r_big c) (r_small c) (r_j c) (r_t c) (r_g c) (r_slide c) (r_runChar c) (r_run c) (r_shift c).
Definition set_r_num_selectors (c : core) (x : N) : core :=
  mk_core (c_v c) (c_w c) (c_ttp c) (c_tt c) (d_rand c) (d_bwt_idx c) (d_ftab c) (r_selector c) (r_num_trees c) x (r_alpha_size c) (r_code_len c) (r_mtf c) (r_tree c) (r_big c) (r_small c) (r_j c) (r_t c) (r_g c) (r_slide c) (r_runChar c) (r_run c) (r_shift c).
Definition set_r_alpha_size (c : core) (x : N) : core :=
  mk_core (c_v c) (c_w c) (c_ttp c) (c_tt c) (d_rand c) (d_bwt_idx c) (d_ftab c) (r_selector c) (r_num_trees c) (r_num_selectors c) x (r_code_len c) (r_mtf c) (r_tree c) (r_big c) (r_small c) (r_j c) (r_t c) (r_g c) (r_slide c) (r_runChar c) (r_run c) (r_shift c).
Definition set_r_code_len (c : core) (x : list N) : core :=
  mk_core (c_v c) (c_w c) (c_ttp c) (c_tt c) (d_rand c) (d_bwt_idx c) (d_ftab c) (r_selector c) (r_num_trees c) (r_num_selectors c) (r_alpha_size c) x (r_mtf c) (r_tree c) (r_big c) (r_small c) (r_j c) (r_t c) (r_g c) (r_slide c) (r_runChar c) (r_run c) (r_shift c).
Definition set_r_mtf (c : core) (x : list N) : core :=
  mk_core (c_v c) (c_w c) (c_ttp c) (c_tt c) (d_rand c) (d_bwt_idx c) (d_ftab c) (r_selector c) (r_num_trees c) (r_num_selectors c) (r_alpha_size c) (r_code_len c) x (r_tree c) (r_big c) (r_small c) (r_j c) (r_t c) (r_g c) (r_slide c) (r_runChar c) (r_run c) (r_shift c).
Definition set_r_tree (c : core) (x : list tree) : core :=
  mk_core (c_v c) (c_w c) (c_ttp c) (c_tt c) (d_rand c) (d_bwt_idx c) (d_ftab c) (r_selector c) (r_num_trees c) (r_num_selectors c) (r_alpha_size c) (r_code_len c) (r_mtf c) x (r_big c) (r_small c) (r_j c) (r_t c) (r_g c) (r_slide c) (r_runChar c) (r_run c) (r_shift c).
Definition set_r_big (c : core) (x : N) : core :=
  mk_core (c_v c) (c_w c) (c_ttp c) (c_tt c) (d_rand c) (d_bwt_idx c) (d_ftab c) (r_selector c) (r_num_trees c) (r_num_selectors c) (r_alpha_size c) (r_code_len c) (r_mtf c) (r_tree c) x (r_small c) (r_j c) (r_t c) (r_g c) (r_slide c) (r_runChar c) (r_run c) (r_shift c).
Definition set_r_small (c : core) (x : N) : core :=
  mk_core (c_v c) (c_w c) (c_ttp c) (c_tt c) (d_rand c) (d_bwt_idx c) (d_ftab c) (r_selector c) (r_num_trees c) (r_num_selectors c) (r_alpha_size c) (r_code_len c) (r_mtf c) (r_tree c) (r_big c) x (r_j c) (r_t c) (r_g c) (r_slide c) (r_runChar c) (r_run c) (r_shift c).
Definition set_r_j (c : core) (x : N) : core :=
  mk_core (c_v c) (c_w c) (c_ttp c) (c_tt c) (d_rand c) (d_bwt_idx c) (d_ftab c) (r_selector c) (r_num_trees c) (r_num_selectors c) (r_alpha_size c) (r_code_len c) (r_mtf c) (r_tree c) (r_big c) (r_small c) x (r_t c) (r_g c) (r_slide c) (r_runChar c) (r_run c) (r_shift c).
Definition set_r_t (c : core) (x : N) : core :=
  mk_core (c_v c) (c_w c) (c_ttp c) (c_tt c) (d_rand c) (d_bwt_idx c) (d_ftab c) (r_selector c) (r_num_trees c) (r_num_selectors c) (r_alpha_size c) (r_code_len c) (r_mtf c) (r_tree c) (r_big c) (r_small c) (r_j c) x (r_g c) (r_slide c) (r_runChar c) (r_run c) (r_shift c).
Definition set_r_g (c : core) (x : N) : core :=
  mk_core (c_v c) (c_w c) (c_ttp c) (c_tt c) (d_rand c) (d_bwt_idx c) (d_ftab c) (r_selector c) (r_num_trees c) (r_num_selectors c) (r_alpha_size c) (r_code_len c) (r_mtf c) (r_tree c) (r_big c) (r_small c) (r_j c) (r_t c) x (r_slide c) (r_runChar c) (r_run c) (r_shift c).
Definition set_r_slide (c : core) (x : SlideModel.sstate) : core :=
  mk_core (c_v c) (c_w c) (c_ttp c) (c_tt c) (d_rand c) (d_bwt_idx c) (d_ftab c) (r_selector c) (r_num_trees c) (r_num_selectors c) (r_alpha_size c) (r_code_len c) (r_mtf c) (r_tree c) (r_big c) (r_small c) (r_j c) (r_t c) (r_g c) x (r_runChar c) (r_run c) (r_shift c).
Definition set_r_runChar (c : core) (x : N) : core :=
  mk_core (c_v c) (c_w c) (c_ttp c) (c_tt c) (d_rand c) (d_bwt_idx c) (d_ftab c) (r_selector c) (r_num_trees c) (r_num_selectors c) (r_alpha_size c) (r_code_len c) (r_mtf c) (r_tree c) (r_big c) (r_small c) (r_j c) (r_t c) (r_g c) (r_slide c) x (r_run c) (r_shift c).
Definition set_r_run (c : core) (x : N) : core :=
  mk_core (c_v c) (c_w c) (c_ttp c) (c_tt c) (d_rand c) (d_bwt_idx c) (d_ftab c) (r_selector c) (r_num_trees c) (r_num_selectors c) (r_alpha_size c) (r_code_len c) (r_mtf c) (r_tree c) (r_big c) (r_small c) (r_j c) (r_t c) (r_g c) (r_slide c) (r_runChar c) x (r_shift c).
Definition set_r_shift (c : core) (x : N) : core :=
  mk_core (c_v c) (c_w c) (c_ttp c) (c_tt c) (d_rand c) (d_bwt_idx c) (d_ftab c) (r_selector c) (r_num_trees c) (r_num_selectors c) (r_alpha_size c) (r_code_len c) (r_mtf c) (r_tree c) (r_big c) (r_small c) (r_j c) (r_t c) (r_g c) (r_slide c) (r_runChar c) (r_run c) x.

(* ---- result of running from one control point to the next -------------------------------------------- *)
Inductive bres :=
| BGo (p : pc) (c : core)        (* arrived at loop head p *)
| BNeed (s : site) (c : core)    (* arrived at NEED(state_no s) *)
| BRet (code : N) (c : core)     (* return code;  an error code: ERR_x or a tree verdict >= MAX_TREES (no SAVE()) *)
| BEob (c : core)                (* end of block reached: SAVE() and the final checks follow *)
| BFault (f : fault).

Definition bindB {A} (x : X A) (k : A -> bres) : bres := match x with XV a => k a | XF f => BFault f end.
Notation "x <== p ;; q" := (bindB p (fun x => q)) (at level 61, p at next level, right associativity).

(* ---- bit buffer macros ----------------------------------------------------------------------------------- *)
(* PEEK(k) = v >> (64u - (k)) *)
Definition peek (c : core) (k : N) : X N := ofM (shr64 (c_v c) (sub32 64 k)).
(* DUMP(k) = (v <<= (k), w -= (k)) *)
Definition dump (c : core) (k : N) : X core :=
  v' <-- ofM (shl64 (c_v c) k) ;; XV (set_c_w (set_c_v c v') (sub32 (c_w c) k)).

(* v |= (uint64_t)ntohl( *next ) << (64u - (w += 32u));  next++;      (x = the word at next, after ntohl) *)
Definition load (c : core) (x : N) : X core :=
  let w' := add32 (c_w c) 32 in
  sh <-- ofM (shl64 x (sub32 64 w')) ;;
  XV (set_c_w (set_c_v c (N.lor (c_v c) sh)) w').

(* NEED_FAST() *)
Definition need_fast (c : core) (next : list N) : X (core * list N) :=
  if c_w c <? 32 then
    match next with
    | [] => XF FInput
    | x :: r => c' <-- load c x ;; XV (c', r)
    end
  else XV (c, next).

(* ---- writing a run into tt[] ---------------------------------------------------------------------------- *)
(* *tt++ = runChar *)
Definition tt_push (ch : N) (c : X core) : X core :=
  c <-- c ;;
  if c_ttp c <? MAX_BLOCK_SIZE then XV (set_c_ttp (set_c_tt c (ch :: c_tt c)) (c_ttp c + 1)) else XF (FWrite RTt).

(* ds->ftab[runChar] += run;  while (run-- > 0) *tt++ = runChar;
   (the value the run counter is left with, UINT_MAX, is stored by the callers) *)
Definition emit_run (c : core) (runChar run : N) : X core :=
  f <-- xget RFtab (d_ftab c) runChar ;;
  ftab <-- xset RFtab (d_ftab c) runChar (add32 f run) ;;
  N.iter run (tt_push runChar) (XV (set_d_ftab c ftab)).

Definition UINT_MAX : N := W32 - 1.

(* run > (size_t)(tt_limit - tt) *)
Definition overflows (c : core) (run : N) : bool := sub64 MAX_BLOCK_SIZE (c_ttp c) <? run.

(* the guards `run <= MAX_BLOCK_SIZE` of the two run accumulations (fast path, slow path), regenerated *)
Definition run_guard (which : nat) (run : N) : bool :=
  match nth which run_acc_guards None with Some lim => run <=? lim | None => true end.

(* eob:  (rs->run and rs->runChar hold the pending run) *)
Definition eob (c : core) : bres :=
  if overflows c (r_run c) then BRet E_ERR_OVERFLOW c
  else
    c' <== emit_run c (r_runChar c) (r_run c) ;;
    BEob (set_r_run c' UINT_MAX).

(* ---- S_PREFIX: the symbol loop --------------------------------------------------------------------------- *)
(* for (rs->j = 0; rs->j < GROUP_SIZE; rs->j++) { NEED(S_PREFIX); ...      -- the loop test *)
Definition slow_head (c : core) : bres :=
  if r_j c <? GROUP_SIZE then BNeed S_prefix c
  else BGo P_GROUP (set_r_g c (add32 (r_g c) 1)).

(* behind NEED(S_PREFIX): one symbol on the slow path, then rs->j++ and the loop test *)
Definition after_prefix (c : core) : bres :=
  T <== ofO (FRead RTree) (nth_error (r_tree c) (N.to_nat (r_t c))) ;;        (* T = &rs->tree[rs->t] *)
  skv <== ofM (tree_decode (r_alpha_size c) T (c_v c)) ;;                     (* x = T->start[..] ... DUMP(k) *)
  let s := fst (fst skv) in let k := snd (fst skv) in
  let c := set_c_w (set_c_v c (snd skv)) (sub32 (c_w c) k) in
  if s =? EOB then eob c                                                      (* if (IS_EOB(s)) eob: *)
  else if (256 <=? s) && run_guard 1 (r_run c) then                           (* IS_RUN(s) && rs->run <= MAX_BLOCK_SIZE *)
    sh <== ofM (shl32 (sub32 s 256) (r_shift c)) ;;                           (* rs->run += RUN(s) << rs->shift++ *)
    let c := set_r_shift (set_r_run c (add32 (r_run c) sh)) (add32 (r_shift c) 1) in
    slow_head (set_r_j c (add32 (r_j c) 1))                                   (* continue *)
  else if overflows c (r_run c) then BRet E_ERR_OVERFLOW c
  else
    c <== emit_run c (r_runChar c) (r_run c) ;;
    let c := set_r_run c UINT_MAX in
    match SlideModel.mtf_one_c (s mod W8) (r_slide c) with                    (* mtf_one(.., (uint8_t)s) *)
    | SlideModel.Oob => BFault FSlideOob
    | SlideModel.Abort => BFault FSlideAbort
    | SlideModel.Done x sl =>
        let c := set_r_run (set_r_shift (set_r_runChar (set_r_slide c sl) x) 0) 1 in
        slow_head (set_r_j c (add32 (r_j c) 1))
    end.

(* the fast path (the symbol code is written out a second time, as in the C):
   for (j = 0; j < GROUP_SIZE; j++) { NEED_FAST(); ... } with n = GROUP_SIZE - j
   iterations to go, T = &rs->tree[rs->t], the locals run, runChar, shift and next (limit is the end of the list) *)
Fixpoint fast_loop (n : nat) (T : tree) (c : core) (next : list N) (run runChar shift : N) : bres * list N :=
  match n with
  | O =>
      (* rs->run = run; rs->runChar = runChar; rs->shift = shift;  and the g++ of the group loop *)
      let c := set_r_shift (set_r_runChar (set_r_run c run) runChar) shift in
      (BGo P_GROUP (set_r_g c (add32 (r_g c) 1)), next)
  | S n' =>
      match need_fast c next with
      | XF f => (BFault f, next)
      | XV (c, next) =>
        match ofM (tree_decode (r_alpha_size c) T (c_v c)) with
        | XF f => (BFault f, next)
        | XV skv =>
          let s := fst (fst skv) in let k := snd (fst skv) in
          let c := set_c_w (set_c_v c (snd skv)) (sub32 (c_w c) k) in
          if s =? EOB then (eob (set_r_runChar (set_r_run c run) runChar), next)   (* rs->run = run; rs->runChar = runChar; goto eob *)
          else if (256 <=? s) && run_guard 0 run then
            match ofM (shl32 (sub32 s 256) shift) with                            (* run += RUN(s) << shift++ *)
            | XF f => (BFault f, next)
            | XV sh => fast_loop n' T c next (add32 run sh) runChar (add32 shift 1)
            end
          else if overflows c run then (BRet E_ERR_OVERFLOW c, next)
          else
            match emit_run c runChar run with
            | XF f => (BFault f, next)
            | XV c =>
              match SlideModel.mtf_one_c (s mod W8) (r_slide c) with
              | SlideModel.Oob => (BFault FSlideOob, next)
              | SlideModel.Abort => (BFault FSlideAbort, next)
              | SlideModel.Done x sl => fast_loop n' T (set_r_slide c sl) next 1 x 0
              end
            end
        end
      end
  end.

(* for (; i > 0; i--) rs->mtf[i] = rs->mtf[i - 1]; *)
Fixpoint mtf_shift (i : nat) (m : list N) : X (list N) :=
  match i with
  | O => XV m
  | S i' => x <-- xget RMtf m (N.of_nat i') ;; m' <-- xset RMtf m (N.of_nat i) x ;; mtf_shift i' m'
  end.

(* the head of  for (rs->g = 0; rs->g < rs->num_selectors; rs->g++)  and the group prologue: select the tree,
   update the IMTF table of the selectors.  Result: the tree is usable ([GSel]), or a return / fault *)
Inductive gsel := GSel (c : core) | GOut (r : bres).
Definition group_select (c : core) : gsel :=
  if r_g c <? r_num_selectors c then
    match xget RSelector (r_selector c) (r_g c) with                          (* i = rs->selector[rs->g] *)
    | XF f => GOut (BFault f)
    | XV i =>
      match xget RMtf (r_mtf c) i with                                        (* rs->t = rs->mtf[i] *)
      | XF f => GOut (BFault f)
      | XV t =>
        let c := set_r_t c t in
        if MAX_TREES <=? t then GOut (BRet t c)                               (* if (rs->t >= MAX_TREES) return rs->t *)
        else
          match (m <-- mtf_shift (N.to_nat i) (r_mtf c) ;; xset RMtf m 0 t) with   (* ...; rs->mtf[0] = rs->t *)
          | XF f => GOut (BFault f)
          | XV m => GSel (set_r_mtf c m)
          end
      end
    end
  else GOut (BRet E_ERR_UNTERM c).

(* [fast_ok]: the test (limit - next) >= 32 is honoured (always so in retrieve(); RetrChunk.v also runs
   the machine with the fast path switched off, as the reference for chunk independence).  The threshold is the
   regenerated constant [fast_path_words] of Gen/DecTabs.v (transcribed from the test in retrieve()); the only
   fact the proofs use about it is [RetrSafe.fast_path_words_enough]: that many words hold a whole group. *)
Definition group_head (fast_ok : bool) (c : core) (next : list N) : bres * list N :=
  match group_select c with
  | GOut r => (r, next)
  | GSel c =>
      if fast_ok && (fast_path_words <=? N.of_nat (length next)) then         (* if ((limit - next) >= 32) *)
        match ofO (FRead RTree) (nth_error (r_tree c) (N.to_nat (r_t c))) with
        | XF f => (BFault f, next)
        | XV T => fast_loop (N.to_nat GROUP_SIZE) T c next (r_run c) (r_runChar c) (r_shift c)
        end
      else (slow_head (set_r_j c 0), next)
  end.

(* ---- behind the tree loop: IMTF and IBWT tables, selector clamp, g = 0 ---------------------------------- *)
Definition init_groups (c : core) : bres :=
  let rows := SlideModel.rows_init CMAP_BASE in                               (* imtf_row[i] = imtf_slide + CMAP_BASE + i * ROW_WIDTH *)
  let sl := SlideModel.Build_sstate (SlideModel.s_slide (r_slide c)) rows in
  r0 <== ofO FSlideOob (SlideModel.rd rows 0) ;;
  x <== ofO FSlideOob (SlideModel.rd (SlideModel.s_slide sl) r0) ;;           (* rs->runChar = rs->imtf_row[0][0] *)
  let c := set_r_shift (set_r_run (set_r_runChar (set_r_slide c sl) x) 0) 0 in
  let c := set_d_ftab c (repeat 0 256) in                                     (* memset(ds->ftab, 0, sizeof(ds->ftab)) *)
  let c := if sel_clamp_test <? r_num_selectors c then set_r_num_selectors c sel_clamp_value else c in
  BGo P_GROUP (set_r_g c 0).

(* ---- S_DELTA_TAG: code lengths ----------------------------------------------------------------------------- *)
Definition Rmin_tab : list N := if delta_check_excursion then match delta_Rmin with Some t => t | None => [] end else delta_R.
Definition Rmax_tab : list N := if delta_check_excursion then match delta_Rmax with Some t => t | None => [] end else delta_R.

(* while (rs->j < rs->alpha_size) { ... NEED(S_DELTA_TAG); }  make_tree(rs);  and the t++ of the tree loop *)
Definition delta_head (c : core) : bres :=
  if r_j c <? r_alpha_size c then
    k <== peek c 6 ;;
    cl <== xget RCodeLen (r_code_len c) (r_j c) ;;
    rmin <== xget RConst Rmin_tab k ;;
    rmax <== xget RConst Rmax_tab k ;;
    if (cl + rmin <? delta_check_lo) || (delta_check_hi <? cl + rmax) then BRet E_ERR_DELTA c
    else
      r <== xget RConst delta_R k ;;
      let cl := ((cl + r) mod W8 + W8 - delta_bias) mod W8 in                (* code_len[j] += R[k]; code_len[j] -= 3;  (uint8_t) *)
      cls <== xset RCodeLen (r_code_len c) (r_j c) cl ;;
      let c := set_r_code_len c cls in
      kk <== xget RConst delta_L k ;;                                         (* k = L[k] *)
      c <== (if negb (kk =? 6) then
               let c := set_r_j c (add32 (r_j c) 1) in
               if r_j c <? r_alpha_size c then
                 p <-- xget RCodeLen (r_code_len c) (sub32 (r_j c) 1) ;;
                 cls <-- xset RCodeLen (r_code_len c) (r_j c) p ;;
                 XV (set_r_code_len c cls)
               else XV c
             else XV c) ;;
      c <== dump c kk ;;
      BNeed S_delta_tag c
  else
    T <== ofO (FRead RTree) (nth_error (r_tree c) (N.to_nat (r_t c))) ;;
    vt <== ofM (make_tree (r_alpha_size c) (r_code_len c) T) ;;              (* make_tree(rs) *)
    m <== xset RMtf (r_mtf c) (r_t c) (verdict_code (r_t c) (fst vt)) ;;     (*   rs->mtf[rs->t] = ... *)
    let c := set_r_mtf (set_r_tree c (updt (N.to_nat (r_t c)) (snd vt) (r_tree c))) m in
    BGo P_TREE (set_r_t c (add32 (r_t c) 1)).

(* for (rs->t = 0; rs->t < rs->num_trees; rs->t++) { rs->j = 0; TAKE(rs->code_len[0], 5); while ... *)
Definition tree_head (c : core) : bres :=
  if r_t c <? r_num_trees c then
    let c := set_r_j c 0 in
    x <== peek c 5 ;;
    cls <== xset RCodeLen (r_code_len c) 0 (x mod W8) ;;
    c <== dump (set_r_code_len c cls) 5 ;;
    delta_head c
  else init_groups c.

Definition after_delta_tag (c : core) : bres := delta_head c.

(* ---- S_SELECTOR_MTF ------------------------------------------------------------------------------------------ *)
(* for (rs->j = 0; rs->j < rs->num_selectors; rs->j++) { k = table[PEEK(6u)]; ... NEED(S_SELECTOR_MTF); } *)
Definition sel_head (c : core) : bres :=
  if r_j c <? r_num_selectors c then
    x <== peek c 6 ;;
    k <== xget RConst sel_table x ;;
    if r_num_trees c <? k then BRet E_ERR_SELECTOR c
    else
      sel <== xset RSelector (r_selector c) (r_j c) (sub32 k 1 mod W8) ;;    (* rs->selector[rs->j] = k - 1u *)
      c <== dump (set_r_selector c sel) k ;;
      BNeed S_selector_mtf c
  else tree_head (set_r_t c 0).

Definition after_selector_mtf (c : core) : bres := sel_head (set_r_j c (add32 (r_j c) 1)).

(* ---- S_BITMAP_BIG / S_BITMAP_SMALL ------------------------------------------------------------------------------ *)
(* behind the bitmap: alphabet size, number of trees, number of selectors *)
Definition post_bitmap (c : core) : bres :=
  if r_alpha_size c =? 0 then BRet E_ERR_BITMAP c
  else
    let c := set_r_alpha_size c (add32 (r_alpha_size c) 2) in
    nt <== peek c 3 ;;
    c <== dump (set_r_num_trees c nt) 3 ;;
    if (nt <? MIN_TREES) || (MAX_TREES <? nt) then BRet E_ERR_TREES c
    else
      ns <== peek c 15 ;;
      c <== dump (set_r_num_selectors c ns) 15 ;;
      if ns =? 0 then BRet E_ERR_GROUPS c
      else sel_head (set_r_j c 0).

(* do { rs->imtf_slide[CMAP_BASE + rs->alpha_size] = rs->j++; rs->alpha_size += rs->small >> 15;
        rs->small <<= 1; } while (rs->j & 0xF);                   at most 16 iterations *)
Fixpoint bitmap_inner (n : nat) (c : core) : X core :=
  match n with
  | O => XF FFuel
  | S n' =>
      a <-- ofO FSlideOob (SlideModel.wr (SlideModel.s_slide (r_slide c)) (CMAP_BASE + r_alpha_size c) (r_j c mod W8)) ;;
      let c := set_r_slide c (SlideModel.Build_sstate a (SlideModel.s_rows (r_slide c))) in
      let c := set_r_j c (add32 (r_j c) 1) in
      sm <-- ofM (shr32 (r_small c) 15) ;;
      let c := set_r_alpha_size c (add32 (r_alpha_size c) sm) in
      let c := set_r_small c ((r_small c * 2) mod W16) in
      if N.land (r_j c) 15 =? 0 then XV c else bitmap_inner n' c
  end.

(* the outer do { if (rs->big & 0x8000) { TAKE(rs->small, 16u); NEED(S_BITMAP_SMALL); } <inner>; rs->big <<= 1; }
   while (rs->j < 256u);   entered behind the NEED (or behind the skipped if): at most 16 iterations *)
Fixpoint bitmap_from_inner (n : nat) (c : core) : bres :=
  match n with
  | O => BFault FFuel
  | S n' =>
      c <== bitmap_inner 16 c ;;
      let c := set_r_big c ((r_big c * 2) mod W16) in
      if r_j c <? 256 then
        if negb (N.land (r_big c) 0x8000 =? 0) then
          sm <== peek c 16 ;;
          c <== dump (set_r_small c sm) 16 ;;
          BNeed S_bitmap_small c
        else bitmap_from_inner n' c
      else post_bitmap c
  end.

Definition after_bitmap_small (c : core) : bres := bitmap_from_inner 16 c.

(* TAKE(rs->big, 16u); rs->small = 0; rs->alpha_size = 0u; rs->j = 0; do { ... *)
Definition after_bitmap_big (c : core) : bres :=
  big <== peek c 16 ;;
  c <== dump (set_r_big c big) 16 ;;
  let c := set_r_j (set_r_alpha_size (set_r_small c 0) 0) 0 in
  if negb (N.land (r_big c) 0x8000 =? 0) then
    sm <== peek c 16 ;;
    c <== dump (set_r_small c sm) 16 ;;
    BNeed S_bitmap_small c
  else bitmap_from_inner 16 c.

(* ---- S_BWT_IDX ----------------------------------------------------------------------------------------------------- *)
(* TAKE(ds->rand, 1u); TAKE(ds->bwt_idx, 24u); NEED(S_BITMAP_BIG); *)
Definition after_bwt_idx (c : core) : bres :=
  rnd <== peek c 1 ;;
  c <== dump (set_d_rand c rnd) 1 ;;
  idx <== peek c 24 ;;
  c <== dump (set_d_bwt_idx c idx) 24 ;;
  BNeed S_bitmap_big c.

(* the code between two NEEDs never looks at next/limit, except for the fast-path test and NEED_FAST *)
Definition step_core (p : pc) (c : core) : bres :=
  match p with
  | A_BWT_IDX => after_bwt_idx c
  | A_BITMAP_BIG => after_bitmap_big c
  | A_BITMAP_SMALL => after_bitmap_small c
  | A_SELECTOR_MTF => after_selector_mtf c
  | A_DELTA_TAG => after_delta_tag c
  | A_PREFIX => after_prefix c
  | P_TREE => tree_head c
  | P_GROUP => BFault FAbort           (* not used: see [step] *)
  end.

Definition step (fast_ok : bool) (p : pc) (c : core) (next : list N) : bres * list N :=
  match p with
  | P_GROUP => group_head fast_ok c next
  | _ => (step_core p c, next)
  end.

(* ---- what survives a return, and the locals next/limit ---------------------------------------------------------------- *)
Record rstate := mk_rstate {
  s_core : core;
  l_next : list N;          (* the locals next .. limit: the words of the current chunk not yet consumed (after ntohl) *)
  s_state : N;              (* rs->state *)
  b_live : N;               (* bs->live *)
  b_buff : N;               (* bs->buff *)
  b_data : list N;          (* the words bs->data .. bs->limit (after ntohl) *)
  b_eof : bool;             (* bs->eof *)
  d_block_size : N          (* ds->block_size *)
}.

Definition with_core (st : rstate) (c : core) : rstate :=
  mk_rstate c (l_next st) (s_state st) (b_live st) (b_buff st) (b_data st) (b_eof st) (d_block_size st).
Definition with_next (st : rstate) (nx : list N) : rstate :=
  mk_rstate (s_core st) nx (s_state st) (b_live st) (b_buff st) (b_data st) (b_eof st) (d_block_size st).
Definition with_state (st : rstate) (s : N) : rstate :=
  mk_rstate (s_core st) (l_next st) s (b_live st) (b_buff st) (b_data st) (b_eof st) (d_block_size st).

(* RESTORE(): v = bs->buff, w = bs->live, next = bs->data, limit = bs->limit, tt = ds->tt + ds->block_size *)
Definition restore (st : rstate) : rstate :=
  with_next (with_core st (set_c_ttp (set_c_w (set_c_v (s_core st) (b_buff st)) (b_live st)) (d_block_size st))) (b_data st).
(* SAVE(): bs->buff = v, bs->live = w, bs->data = next, ds->block_size = tt - ds->tt *)
Definition save (st : rstate) : rstate :=
  let c := s_core st in mk_rstate c (l_next st) (s_state st) (c_w c) (c_v c) (l_next st) (b_eof st) (c_ttp c).

Inductive cres :=
| RMore (st : rstate)            (* MORE: call again with more input *)
| ROk (st : rstate)              (* OK: block retrieved (the internal state is freed) *)
| RErr (code : N) (st : rstate)  (* ERR_* *)
| RFault (f : fault).

Inductive nres := NGo (st : rstate) | NRet (r : cres).

(* NEED(s), reached from above *)
Definition need_at (s : site) (st : rstate) : nres :=
  let c := s_core st in
  if c_w c <? 32 then
    match l_next st with
    | [] =>
        let st := save st in
        if b_eof st then NRet (RErr E_ERR_EOF st)                             (* return ERR_EOF *)
        else NRet (RMore (with_state st (state_no s)))                        (* rs->state = (s); return MORE *)
    | x :: r =>
        match load c x with XV c' => NGo (with_next (with_core st c') r) | XF f => NRet (RFault f) end
    end
  else NGo st.

(* the end of a block: SAVE(); if (ds->block_size == 0) return ERR_EMPTY;
   if (ds->bwt_idx >= ds->block_size) return ERR_BWTIDX; free(..); return OK; *)
Definition finish (st : rstate) : cres :=
  let st := save st in
  if d_block_size st =? 0 then RErr E_ERR_EMPTY st
  else if d_block_size st <=? d_bwt_idx (s_core st) then RErr E_ERR_BWTIDX st
  else ROk st.

(* one pass: from control point p to the next one, or to a return *)
Inductive out := Running (p : pc) (st : rstate) | Final (r : cres).

Definition onestep (fast_ok : bool) (p : pc) (st : rstate) : out :=
  let (b, nx) := step fast_ok p (s_core st) (l_next st) in
  let st := with_next st nx in
  match b with
  | BGo p' c => Running p' (with_core st c)
  | BNeed s c =>
      match need_at s (with_core st c) with
      | NGo st' => Running (After s) st'
      | NRet r => Final r
      end
  | BRet code c => Final (RErr code (with_core st c))
  | BEob c => Final (finish (with_core st c))
  | BFault fl => Final (RFault fl)
  end.

Fixpoint run_from (fast_ok : bool) (fuel : nat) (p : pc) (st : rstate) : cres :=
  match fuel with
  | O => RFault FFuel
  | S f =>
      match onestep fast_ok p st with
      | Running p' st' => run_from fast_ok f p' st'
      | Final r => r
      end
  end.

(* enough for every call (RetrSafe.v, [call_fuel_enough]): every pass through [run_from] either consumes a bit of the
   chunk or is one of at most three consecutive passes that do not *)
Definition call_fuel (st : rstate) : nat := N.to_nat (4 * (b_live st + 32 * N.of_nat (length (b_data st))) + 8).

(* int retrieve(struct decoder_state *ds, struct bitstream *bs), with explicit fuel *)
Definition retrieve_f (fuel : nat) (fast_ok : bool) (st : rstate) : cres :=
  let st := restore st in
  if s_state st =? S_INIT then
    (* case S_INIT: NEED(S_BWT_IDX); *)
    match need_at S_bwt_idx st with
    | NGo st' => run_from fast_ok fuel A_BWT_IDX st'
    | NRet r => r
    end
  else
    match site_of_state (s_state st) with
    | None => RFault FAbort                                                   (* default: abort() *)
    | Some s =>
        (* case (s): if (bs->data == bs->limit) { assert(bs->eof); return ERR_EOF; } RESTORE(); assert(w < 32u); *)
        match b_data st with
        | [] => if b_eof st then RErr E_ERR_EOF st else RFault (FAssert 1)
        | x :: r =>
            let st := restore st in
            if c_w (s_core st) <? 32 then
              match load (s_core st) x with
              | XV c' => run_from fast_ok fuel (After s) (with_next (with_core st c') r)
              | XF f => RFault f
              end
            else RFault (FAssert 2)
        end
    end.

Definition retrieve_gen (fast_ok : bool) (st : rstate) : cres := retrieve_f (call_fuel st) fast_ok st.

Definition retrieve : rstate -> cres := retrieve_gen true.

(* ---- the caller's side (expand.c: attach() / detach() around retrieve()) ------------------------------------------ *)
(* bs.data = base + ..., bs.limit = base + blk->size  (a non-empty part of the input); live, buff, eof carried over *)
Definition attach (st : rstate) (chunk : list N) : rstate :=
  mk_rstate (s_core st) (l_next st) (s_state st) (b_live st) (b_buff st) chunk (b_eof st) (d_block_size st).
(* at the end of the input: bs.data = bs.limit = NULL, bs.eof = (bs.live < 32u) *)
Definition attach_eof (st : rstate) : rstate :=
  mk_rstate (s_core st) (l_next st) (s_state st) (b_live st) (b_buff st) [] (b_live st <? 32) (d_block_size st).

(* the chunks one after the other, then end of input.  Also returns the chunks not yet attached. *)
Fixpoint retr_chunks_f (fuel : rstate -> nat) (fast_ok : bool) (st : rstate) (chunks : list (list N)) : cres * list (list N) :=
  match chunks with
  | [] =>
      match retrieve_f (fuel (attach_eof st)) fast_ok (attach_eof st) with
      | RMore st' => (retrieve_f (fuel (attach_eof st')) fast_ok (attach_eof st'), [])
      | r => (r, [])
      end
  | ch :: rest =>
      match retrieve_f (fuel (attach st ch)) fast_ok (attach st ch) with
      | RMore st' => retr_chunks_f fuel fast_ok st' rest
      | r => (r, rest)
      end
  end.

Definition retr_chunks : rstate -> list (list N) -> cres * list (list N) := retr_chunks_f call_fuel true.

(* ---- initial state: decoder_init() + bits_init()/the parser's bit stream ------------------------------------------- *)
(* all arrays hold arbitrary values of their declared lengths *)
Definition init_core (sel cl mtf : list N) (trees : list tree) (slide rows ftab : list N)
                     (rand idx asz nt ns big small j t g rc run shift : N) : core :=
  mk_core 0 0 0 [] rand idx ftab sel nt ns asz cl mtf trees big small j t g
          (SlideModel.Build_sstate slide rows) rc run shift.

Definition init_state (c : core) (buff live : N) : rstate :=
  mk_rstate c [] S_INIT live buff [] false 0.

(* a definite instance for tests and extraction: everything 0xAA.. as after memset(.., 0xAA, ..), except
   ds->rand = true (a bool) and the row pointers = imtf_slide; this is how harness/retr_h.c starts *)
Definition junk_core : core :=
  init_core (fill MAX_SELECTORS 0xAA) (fill MAX_ALPHA_SIZE 0xAA) (fill MAX_TREES 0xAAAAAAAA)
            (repeat garbage_tree (N.to_nat MAX_TREES)) (fill SLIDE_LENGTH 0xAA) (fill NUM_ROWS 0) (fill 256 0xAAAAAAAA)
            1 0xAAAAAAAA 0xAAAAAAAA 0xAAAAAAAA 0xAAAAAAAA 0xAAAA 0xAAAA 0xAAAAAAAA 0xAAAAAAAA 0xAAAAAAAA
            0xAAAAAAAA 0xAAAAAAAA 0xAAAAAAAA.

