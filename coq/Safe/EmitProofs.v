(* Proofs about the array-level model of decode()/emit() (Safe/EmitModel.v).

   emit(): the un-RLE automaton [sread] (one step per block byte, resumable, with an output
   budget); emit_model refines it, block by block of the C code; [sread] run over any sequence
   of budgets is [unrle] of Dec/Format.v.
   decode(): safety, and the list it builds is the [follow]/[ibwt] walk. *)
From Coq Require Import List NArith ZArith Arith Bool Lia ZifyBool ZifyClasses FinFun Permutation.
From LBZ Require Import Common.Bits Common.ListArr Gen.Consts Gen.CrcTab Gen.DecTabs Dec.Prog Dec.Format Safe.EmitModel.
Import ListNotations.
Local Open Scope N_scope.

(* lia knows the values of the model's constants *)
#[local] Instance Cst_W32 : CstOp W32 := { TCst := 4294967296%Z; TCstInj := eq_refl }.
Add Zify CstOp Cst_W32.
#[local] Instance Cst_M1 : CstOp M1 := { TCst := 4294967295%Z; TCstInj := eq_refl }.
Add Zify CstOp Cst_M1.
#[local] Instance Cst_MAX_BLOCK_SIZE : CstOp MAX_BLOCK_SIZE := { TCst := 900000%Z; TCstInj := eq_refl }.
Add Zify CstOp Cst_MAX_BLOCK_SIZE.

Lemma crc_table_length : length crc_table = 256%nat.
Proof. reflexivity. Qed.

Lemma crc_table_bound : forall i, nth i crc_table 0 < W32.
Proof.
  assert (H : forallb (fun x => x <? W32) crc_table = true) by (vm_compute; reflexivity).
  rewrite forallb_forall in H. intros i.
  destruct (Nat.lt_ge_cases i (length crc_table)) as [L|L].
  - apply N.ltb_lt, H, nth_In, L.
  - rewrite nth_overflow by exact L. reflexivity.
Qed.

Lemma crc_idx_lt s x : s < W32 -> x < 256 -> N.lxor (N.shiftr s 24) x < 256.
Proof.
  intros Hs Hx. change 256 with (2 ^ 8). apply lxor_lt_pow2; [|exact Hx].
  rewrite N.shiftr_div_pow2. apply N.div_lt_upper_bound; [discriminate|]. exact Hs.
Qed.

Lemma crc_step_lt s x : crc_step s x < W32.
Proof.
  unfold crc_step. change W32 with (2 ^ 32). apply lxor_lt_pow2.
  - eapply N.le_lt_trans with (m := mask32); [|reflexivity].
    change mask32 with (N.ones 32). rewrite N.land_ones.
    assert (H := N.mod_upper_bound (N.shiftl s 8) (2 ^ 32)).
    change (N.ones 32) with (2 ^ 32 - 1) in *. lia.
  - apply crc_table_bound.
Qed.

Lemma crc_bytes_lt : forall l s, s < W32 -> crc_bytes s l < W32.
Proof.
  induction l as [|x l IH]; intros s Hs; [exact Hs|].
  unfold crc_bytes in *. cbn [fold_left]. apply IH, crc_step_lt.
Qed.

Lemma crc_bytes_app s a b : crc_bytes s (a ++ b) = crc_bytes (crc_bytes s a) b.
Proof. unfold crc_bytes. apply fold_left_app. Qed.

Lemma get_nth l i d : (N.to_nat i < length l)%nat -> get l i = Good (nth (N.to_nat i) l d).
Proof. intros H. unfold get. rewrite (nth_error_nth' l d H). reflexivity. Qed.

Definition low8 (w : N) : N := w mod 256.
Lemma low8_lt w : low8 w < 256.
Proof. apply N.mod_upper_bound. discriminate. Qed.

(* State of the automaton = state of [unrle]: (cnt, prev) = (k, d), plus the rest of the
   block.  A byte that emit() has read but not yet written (states 1,2,3,5), and the
   remaining repeat count (state 4), are kept at the head of [rest] ("pushed back").
   [m] output budget, [s] running CRC, [out] bytes written so far in this call. *)
Inductive aresult :=
| AMore (out : list N) (k d : N) (rest : list N) (s : N)
| AOk (out : list N) (s m : N)
| AErr (out : list N).

Definition crc_rep (s d n : N) : N := crc_bytes s (repeat d (N.to_nat n)).

Fixpoint sread (k d : N) (rest : list N) (m s : N) (out : list N) : aresult :=
  match rest with
  | [] => if k =? 4 then AErr out else AOk out s m
  | x :: r =>
      if k =? 4 then
        if m <? x then AMore (out ++ repeat d (N.to_nat m)) 4 d ((x - m) :: r) (crc_rep s d m)
        else sread 0 256 r (m - x) (crc_rep s d x) (out ++ repeat d (N.to_nat x))
      else if m =? 0 then AMore out k d (x :: r) s
      else sread (if x =? d then k + 1 else 1) x r (m - 1) (crc_step s x) (out ++ [x])
  end.

Inductive Walk (tt : list N) : N -> list N -> Prop :=
| W_nil p : Walk tt p []
| W_cons p w ws : nth_error tt (N.to_nat (N.shiftr p 8)) = Some w -> Walk tt w ws -> Walk tt p (w :: ws).

Lemma put_ok r x : r_s r < W32 -> x < 256 ->
  put r x = Good (mkR (r_p r) (r_a r) (crc_step (r_s r) x) (r_c r) (r_d r) (r_m r) (r_out r ++ [x]) (r_st r)).
Proof.
  intros Hs Hx. unfold put.
  rewrite (get_nth crc_table _ 0).
  - reflexivity.
  - rewrite crc_table_length. pose proof (crc_idx_lt _ _ Hs Hx). lia.
Qed.

Lemma putn_ok : forall n r x, r_s r < W32 -> x < 256 ->
  putn n r x = Good (mkR (r_p r) (r_a r) (crc_bytes (r_s r) (repeat x n)) (r_c r) (r_d r) (r_m r)
                         (r_out r ++ repeat x n) (r_st r)).
Proof.
  induction n as [|n IH]; intros r x Hs Hx.
  - cbn [putn repeat crc_bytes fold_left]. rewrite app_nil_r. destruct r; reflexivity.
  - cbn [putn]. rewrite put_ok by assumption. cbn [bind]. rewrite IH; cbn [r_s r_p r_a r_c r_d r_m r_out r_st]; auto using crc_step_lt.
    cbn [repeat]. unfold crc_bytes. cbn [fold_left]. rewrite <- app_assoc. reflexivity.
Qed.

Lemma crc_rep_lt s d n : s < W32 -> crc_rep s d n < W32.
Proof. apply crc_bytes_lt. Qed.

Section EmitRefine.
  Variable tt : list N.
  Variable st0 : estate.
  Variable bufsz0 : N.

  Definition RegOK (r : regs) (ws : list N) : Prop :=
    Walk tt (r_p r) ws /\ r_a r = N.of_nat (length ws) /\ r_a r < M1 /\ r_s r < W32 /\
    r_m r < M1 /\ r_c r < 256 /\ r_d r < 256.

  Definition after_rd (r : regs) (w : N) : regs :=
    mkR w (r_a r - 1) (r_s r) (low8 w) (r_d r) (r_m r) (r_out r) (r_st r).
  Definition after_put (r : regs) : regs :=
    mkR (r_p r) (r_a r) (crc_step (r_s r) (r_c r)) (r_c r) (r_d r) (r_m r - 1) (r_out r ++ [r_c r]) (r_st r).
  Definition after_run (r : regs) : regs :=
    mkR (r_p r) (r_a r) (crc_rep (r_s r) (r_d r) (r_c r)) 255 (r_d r) (r_m r - r_c r)
        (r_out r ++ repeat (r_d r) (N.to_nat (r_c r))) (r_st r).

  (* what a saved state means *)
  Definition Inv (st : estate) (k d : N) (rest : list N) (s : N) : Prop :=
    exists ws, Walk tt (rle_index st) ws /\ rle_avail st = N.of_nat (length ws) /\ rle_avail st < M1 /\
      rle_crc st = s /\ s < W32 /\ rle_char st < 256 /\ rle_prev st < 256 /\
      ( (rle_state st = 0 /\ k = 0 /\ d = 256 /\ rest = map low8 ws)
     \/ (rle_state st = 5 /\ k = 0 /\ d = 256 /\ rest = rle_char st :: map low8 ws)
     \/ ((rle_state st = 1 \/ rle_state st = 2 \/ rle_state st = 3 \/ rle_state st = 4) /\
         k = rle_state st /\ d = rle_prev st /\ rest = rle_char st :: map low8 ws)).

  Definition Rres (x : res ret) (y : aresult) : Prop :=
    match y with
    | AMore out k d rest s =>
        exists st', x = Good (E_MORE, out, st', 0) /\ Inv st' k d rest s /\ ds_crc st' = ds_crc st0
    | AOk out s m => exists st', x = Good (E_OK, out, st', m) /\ ds_crc st' = N.lxor s M1
    | AErr out => x = Good (E_ERR_RUNLEN, out, st0, bufsz0)
    end.

  (* the automaton where the registers are [r]: before a byte is read, and with the byte (or count)
     [r_c r] read but not yet written *)
  Definition cfg (k d : N) (r : regs) (ws : list N) : aresult :=
    sread k d (map low8 ws) (r_m r) (r_s r) (r_out r).
  Definition cfg_c (k d : N) (r : regs) (ws : list N) : aresult :=
    sread k d (r_c r :: map low8 ws) (r_m r) (r_s r) (r_out r).

  Ltac rsimp := cbn [r_p r_a r_s r_c r_d r_m r_out r_st set_p set_a set_c set_d set_m set_st bind after_rd after_put after_run
                     rle_state rle_crc rle_index rle_avail rle_char rle_prev ds_crc] in *.
  Ltac regok H := destruct H as (? & ? & ? & ? & ? & ? & ?); unfold RegOK; rsimp;
    repeat split; auto using crc_step_lt, crc_rep_lt, low8_lt; lia.

  Local Notation AS := (after_switch tt st0 bufsz0).
  Local Notation RL := (ret_runlen st0 bufsz0).

  (* the exit protocol, reached through [finish] or (in the entry switch) [after_switch] *)
  Definition exits (fin : regs -> res ret) : Prop :=
    forall r, r_a r = M1 \/ r_m r = M1 -> fin r = finish st0 r.

  Lemma exits_finish : exits (finish st0).
  Proof. intros r _. reflexivity. Qed.

  Lemma exits_after_switch : exits AS.
  Proof.
    intros r [H|H]; unfold after_switch; rewrite H; cbn [N.eqb M1 Pos.eqb negb andb]; [reflexivity|].
    rewrite andb_false_r. reflexivity.
  Qed.
  Local Hint Resolve exits_finish exits_after_switch : core.

  (* the block is used up *)
  Lemma exit_ok {r ws} (HR : RegOK r ws) {fin} : exits fin ->
    Rres (fin (set_a r M1)) (AOk (r_out r) (r_s r) (r_m r)).
  Proof.
    intros Hf. destruct HR as (_ & _ & _ & _ & Hm & _). rewrite Hf by (left; reflexivity). unfold finish. rsimp.
    replace (r_m r =? M1) with false by lia. eexists. split; reflexivity.
  Qed.

  (* the buffer is full, with the byte [r_c r] (in state 4: the rest of a repeat count) not yet written *)
  Lemma exit_more fin r ws j k d : exits fin -> RegOK r ws ->
    (j = 5 /\ k = 0 /\ d = 256) \/ ((j = 1 \/ j = 2 \/ j = 3 \/ j = 4) /\ k = j /\ d = r_d r) ->
    Rres (fin (set_st (set_m r M1) j)) (AMore (r_out r) k d (r_c r :: map low8 ws) (r_s r)).
  Proof.
    intros Hf (HW & Ha & Ha1 & Hs & _ & Hc & Hd) Hj. rewrite Hf by (right; reflexivity). unfold finish. rsimp.
    replace (r_a r =? M1) with false by lia. eexists. split; [reflexivity|]. split; [|reflexivity].
    exists ws. rsimp. repeat (split; [assumption || reflexivity|]).
    destruct Hj as [(-> & H)|(Hj & -> & H)]; [right; left|right; right]; tauto.
  Qed.

  (* the building blocks of emit(): the labels of the entry switch and the loop body are compositions
     of these ([case0_eq] .. [ltail_eq]) *)
  (* if (!a--) <k0>;  c = p = t[p >> 8];  <k> *)
  Definition fetch (k0 k : regs -> res ret) (r : regs) : res ret :=
    if r_a r =? 0 then k0 r else r' <-- rd tt (set_a r (r_a r - 1)) ;; k r'.
  (* if (!m--) { state = j; <fin> }  s = ..( *b++ = c);  <k> *)
  Definition store (fin : regs -> res ret) (j : N) (k : regs -> res ret) (r : regs) : res ret :=
    if r_m r =? 0 then fin (set_st (set_m r M1) j) else r' <-- put (set_m r (r_m r - 1)) (r_c r) ;; k r'.
  (* if (c != d) <kne>;  <keq> *)
  Definition cmp (kne keq : regs -> res ret) (r : regs) : res ret :=
    if negb (r_c r =? r_d r) then kne r else keq r.
  (* if (m < c) { c -= m; while (m--) put d; state = 4; <fin> }  m -= c; while (c--) put d;  <k> *)
  Definition runpart (fin k : regs -> res ret) (r : regs) : res ret :=
    if r_m r <? r_c r then
      r' <-- putn (N.to_nat (r_m r)) (set_c r (r_c r - r_m r)) (r_d r) ;; fin (set_st (set_m r' M1) 4)
    else r' <-- putn (N.to_nat (r_c r)) (set_m r (r_m r - r_c r)) (r_d r) ;; k (set_c r' 255).

  Definition fin_a (fin : regs -> res ret) (r : regs) : res ret := fin (set_a r M1).

  Lemma case5_eq r : case5 tt st0 bufsz0 r = store AS 5 AS r.
  Proof. reflexivity. Qed.
  Lemma case0_eq r : case0 tt st0 bufsz0 r = fetch (fin_a AS) (case5 tt st0 bufsz0) r.
  Proof. reflexivity. Qed.
  Lemma case4_eq r : case4 tt st0 bufsz0 r = runpart AS (case0 tt st0 bufsz0) r.
  Proof. reflexivity. Qed.
  Lemma case3_eq r : case3 tt st0 bufsz0 r = store AS 3 (cmp AS (fetch RL (case4 tt st0 bufsz0))) r.
  Proof. reflexivity. Qed.
  Lemma case2_eq r : case2 tt st0 bufsz0 r = store AS 2 (cmp AS (fetch (fin_a AS) (case3 tt st0 bufsz0))) r.
  Proof. reflexivity. Qed.
  (* the break of case 1 leaves rle_state as it is *)
  Lemma case1_eq r : case1 tt st0 bufsz0 r = store AS (r_st r) (cmp AS (fetch (fin_a AS) (case2 tt st0 bufsz0))) r.
  Proof. reflexivity. Qed.
  Lemma ltail_eq r kcont : ltail tt st0 bufsz0 r kcont =
    fetch (fin_a (finish st0)) (store (finish st0) 2 (cmp kcont
      (fetch (fin_a (finish st0)) (store (finish st0) 3 (cmp kcont
        (fetch RL (runpart (finish st0) (fetch (fin_a (finish st0)) (store (finish st0) 5 kcont))))))))) r.
  Proof. reflexivity. Qed.

  Lemma regs_nil r : RegOK r [] -> (r_a r =? 0) = true.
  Proof. intros (_ & Ha & _). rewrite Ha. reflexivity. Qed.

  Lemma regs_cons r w ws : RegOK r (w :: ws) ->
    (r_a r =? 0) = false /\ rd tt (set_a r (r_a r - 1)) = Good (after_rd r w) /\ RegOK (after_rd r w) ws.
  Proof.
    intros HR. pose proof HR as (HW & Ha & _). inversion HW as [|p w' ws' Hn HW']; subst. cbn [length] in Ha.
    split; [apply N.eqb_neq; lia|]. split; [unfold rd, get; rsimp; rewrite Hn; reflexivity|]. regok HR.
  Qed.

  Lemma m_dec r : r_m r < M1 -> (r_m r =? 0) = false -> r_m r - 1 < M1.
  Proof using. intros. lia. Qed.

  (* d = c before the read, in the main loop *)
  Lemma rd_set_d r x : rd tt (set_d r x) = (r' <-- rd tt r ;; Good (set_d r' x)).
  Proof. unfold rd. rsimp. destruct (get tt _); reflexivity. Qed.

  Lemma fetch_ok {r ws} (HR : RegOK r ws) {k d k0 knext} :
    (ws = [] -> Rres (k0 r) (cfg k d r [])) ->
    (forall w ws', ws = w :: ws' -> RegOK (after_rd r w) ws' ->
       Rres (knext (after_rd r w)) (cfg_c k d (after_rd r w) ws')) ->
    Rres (fetch k0 knext r) (cfg k d r ws).
  Proof.
    intros H0 H1. unfold fetch. destruct ws as [|w ws].
    - rewrite (regs_nil _ HR). auto.
    - destruct (regs_cons _ _ _ HR) as (-> & -> & HR'). apply (H1 w ws); auto.
  Qed.

  Lemma store_ok {r ws} (HR : RegOK r ws) {fin} j k {d knext} : exits fin -> k <> 4 ->
    (j = 5 /\ k = 0 /\ d = 256) \/ ((j = 1 \/ j = 2 \/ j = 3 \/ j = 4) /\ k = j /\ d = r_d r) ->
    (RegOK (after_put r) ws ->
       Rres (knext (after_put r)) (cfg (if r_c (after_put r) =? d then k + 1 else 1) (r_c (after_put r)) (after_put r) ws)) ->
    Rres (store fin j knext r) (cfg_c k d r ws).
  Proof.
    intros Hf Hk Hj H. unfold store, cfg_c. cbn [sread]. replace (k =? 4) with false by lia.
    destruct (N.eqb_spec (r_m r) 0) as [E|E]; [apply exit_more; assumption|].
    pose proof HR as (_ & _ & _ & Hs & _ & Hc & _). rewrite put_ok by assumption. apply H. regok HR.
  Qed.

  Lemma cmp_ok kne keq r ws k d : r_d r = d ->
    (r_c r <> d -> Rres (kne r) (cfg 1 (r_c r) r ws)) ->
    (r_c r = d -> Rres (keq r) (cfg (k + 1) d r ws)) ->
    Rres (cmp kne keq r) (cfg (if r_c r =? d then k + 1 else 1) (r_c r) r ws).
  Proof.
    intros <- Hne Heq. unfold cmp. destruct (N.eqb_spec (r_c r) (r_d r)) as [E|E]; cbn [negb]; auto.
    rewrite E. auto.
  Qed.

  Lemma runpart_ok {r ws} (HR : RegOK r ws) {fin knext} : exits fin ->
    (RegOK (after_run r) ws ->
       Rres (knext (after_run r)) (cfg 0 256 (after_run r) ws)) ->
    Rres (runpart fin knext r) (cfg_c 4 (r_d r) r ws).
  Proof.
    intros Hf H. pose proof HR as (_ & _ & _ & Hs & _ & Hc & Hd). unfold runpart, cfg_c. cbn [sread N.eqb Pos.eqb].
    rewrite !putn_ok by assumption. cbn [bind]. destruct (N.ltb_spec (r_m r) (r_c r)) as [E|E].
    - apply (exit_more fin (mkR (r_p r) (r_a r) (crc_rep (r_s r) (r_d r) (r_m r)) (r_c r - r_m r) (r_d r) (r_m r)
                               (r_out r ++ repeat (r_d r) (N.to_nat (r_m r))) (r_st r)) ws 4); auto 6. regok HR.
    - apply H. regok HR.
  Qed.

  Lemma lstep_ok r ws kneq keq :
    RegOK r ws ->
    (forall r' ws', RegOK r' ws' -> (length ws' < length ws)%nat ->
       Rres (kneq r') (cfg 1 (r_c r') r' ws')) ->
    (forall r' ws', RegOK r' ws' -> (length ws' < length ws)%nat ->
       Rres (keq r') (cfg 2 (r_d r') r' ws')) ->
    Rres (lstep tt st0 r kneq keq) (cfg 1 (r_c r) r ws).
  Proof.
    intros HR Hn He. unfold lstep. destruct ws as [|w ws].
    - rewrite (regs_nil _ HR). apply (exit_ok HR); auto.
    - destruct (regs_cons _ _ _ HR) as (-> & Hrd & HR'). cbn zeta. rewrite rd_set_d, Hrd. cbn [bind map].
      assert (HR1 : RegOK (set_d (after_rd r w) (r_c r)) ws) by (destruct HR as (_ & _ & _ & _ & _ & Hc & _); regok HR').
      apply (store_ok HR1 1 1 (fin := finish st0) (knext := cmp kneq keq)); auto 7; [discriminate|].
      intros HR2. apply cmp_ok; [reflexivity|intros _; apply Hn; auto|intros _; apply He; auto].
  Qed.

  (* the rest of the loop body: two equal bytes already written *)
  Lemma ltail_ok r ws kcont :
    RegOK r ws ->
    (forall r' ws', RegOK r' ws' -> (length ws' < length ws)%nat ->
       Rres (kcont r') (cfg 1 (r_c r') r' ws')) ->
    Rres (ltail tt st0 bufsz0 r kcont) (cfg 2 (r_d r) r ws).
  Proof.
    intros HR Hk. rewrite ltail_eq.
    (* third byte *)
    apply (fetch_ok HR); [intros ->; apply (exit_ok HR); auto|intros w1 ws1 -> H1].
    apply (store_ok H1 2 2); auto 7; [discriminate|intros H1'].
    apply cmp_ok; [reflexivity|intros _; apply Hk; [exact H1'|cbn [length]; lia]|intros _].
    (* fourth byte *)
    apply (fetch_ok H1'); [intros ->; apply (exit_ok H1'); auto|intros w2 ws2 -> H2].
    apply (store_ok H2 3 3); auto 7; [discriminate|intros H2'].
    apply cmp_ok; [reflexivity|intros _; apply Hk; [exact H2'|cbn [length]; lia]|intros _].
    (* the repeat count *)
    apply (fetch_ok H2'); [reflexivity|intros w3 ws3 -> H3].
    apply (runpart_ok H3); auto. intros H3'.
    (* first byte after the run *)
    apply (fetch_ok H3'); [intros ->; apply (exit_ok H3'); auto|intros w4 ws4 -> H4].
    apply (store_ok H4 5 0); auto; [discriminate|intros H4'].
    destruct (_ =? 256); apply Hk; auto; cbn [length]; lia.
  Qed.

  Lemma loop_ok : forall fuel r ws, (length ws < fuel)%nat -> RegOK r ws ->
    Rres (loop tt st0 bufsz0 fuel r) (cfg 1 (r_c r) r ws).
  Proof.
    induction fuel as [|f IH]; intros r ws Hf HR; [lia|].
    cbn [loop].
    assert (HT : forall r' ws', RegOK r' ws' -> (length ws' < length ws)%nat ->
              Rres (ltail tt st0 bufsz0 r' (loop tt st0 bufsz0 f))
                   (cfg 2 (r_d r') r' ws')).
    { intros r' ws' H' L'. apply ltail_ok; auto. intros. apply IH; auto; lia. }
    apply lstep_ok; auto.
    intros r1 ws1 H1 L1. apply lstep_ok; auto; [|intros; apply HT; auto; lia].
    intros r2 ws2 H2 L2. apply lstep_ok; auto; [|intros; apply HT; auto; lia].
    intros r3 ws3 H3 L3. apply lstep_ok; auto; [|intros; apply HT; auto; lia].
    intros; apply IH; auto; lia.
  Qed.

  Lemma after_switch_loop r ws : RegOK r ws ->
    Rres (AS r) (cfg 1 (r_c r) r ws).
  Proof.
    intros HR. unfold after_switch. pose proof HR as (_ & Ha & Ha1 & _ & Hm & _).
    replace (r_a r =? M1) with false by lia. replace (r_m r =? M1) with false by lia. cbn [negb andb].
    apply loop_ok; [|exact HR]. rewrite Ha, Nat2N.id. lia.
  Qed.

  Lemma case5_ok r ws : RegOK r ws ->
    Rres (case5 tt st0 bufsz0 r) (cfg_c 0 256 r ws).
  Proof.
    intros HR. rewrite case5_eq. apply (store_ok HR 5 0); auto; [discriminate|intros HR'].
    destruct (_ =? 256); apply after_switch_loop, HR'.
  Qed.

  Lemma case0_ok r ws : RegOK r ws ->
    Rres (case0 tt st0 bufsz0 r) (cfg 0 256 r ws).
  Proof.
    intros HR. rewrite case0_eq.
    apply (fetch_ok HR); [intros ->; apply (exit_ok HR); auto|intros w ws' -> HR']. apply (case5_ok _ _ HR').
  Qed.

  Lemma case4_ok r ws : RegOK r ws ->
    Rres (case4 tt st0 bufsz0 r) (cfg_c 4 (r_d r) r ws).
  Proof. intros HR. rewrite case4_eq. apply (runpart_ok HR); auto. apply case0_ok. Qed.

  Lemma case3_ok r ws : RegOK r ws ->
    Rres (case3 tt st0 bufsz0 r) (cfg_c 3 (r_d r) r ws).
  Proof.
    intros HR. rewrite case3_eq. apply (store_ok HR 3 3); auto 7; [discriminate|intros HR'].
    apply cmp_ok; [reflexivity|intros _; apply after_switch_loop, HR'|intros _].
    apply (fetch_ok HR'); [reflexivity|intros w ws' -> HR1]. apply (case4_ok _ _ HR1).
  Qed.

  Lemma case2_ok r ws : RegOK r ws ->
    Rres (case2 tt st0 bufsz0 r) (cfg_c 2 (r_d r) r ws).
  Proof.
    intros HR. rewrite case2_eq. apply (store_ok HR 2 2); auto 7; [discriminate|intros HR'].
    apply cmp_ok; [reflexivity|intros _; apply after_switch_loop, HR'|intros _].
    apply (fetch_ok HR'); [intros ->; apply (exit_ok HR'); auto|intros w ws' -> HR1]. apply (case3_ok _ _ HR1).
  Qed.

  Lemma case1_ok r ws : RegOK r ws -> r_st r = 1 ->
    Rres (case1 tt st0 bufsz0 r) (cfg_c 1 (r_d r) r ws).
  Proof.
    intros HR Hst. rewrite case1_eq. apply (store_ok HR _ 1); auto 7; [discriminate|intros HR'].
    apply cmp_ok; [reflexivity|intros _; apply after_switch_loop, HR'|intros _].
    apply (fetch_ok HR'); [intros ->; apply (exit_ok HR'); auto|intros w ws' -> HR1]. apply (case2_ok _ _ HR1).
  Qed.

  (* one call of emit() from a saved state *)
  Lemma emit_entry_ok k d rest s : Inv st0 k d rest s -> 1 <= bufsz0 -> bufsz0 < M1 ->
    Rres (emit_entry tt st0 bufsz0) (sread k d rest bufsz0 s []).
  Proof.
    intros (ws & HW & Ha & Ha1 & Hcrc & Hs & Hc & Hd & Hst) Hb1 Hb2.
    unfold emit_entry. replace (bufsz0 =? 0) with false by lia.
    rewrite (N.mod_small bufsz0 W32) by lia.
    set (r := mkR (rle_index st0) (rle_avail st0) (rle_crc st0) (rle_char st0) (rle_prev st0) bufsz0 [] (rle_state st0)).
    assert (HR : RegOK r ws).
    { unfold RegOK, r; rsimp. subst s. repeat split; auto. }
    subst s.
    destruct Hst as [(E & -> & -> & ->)|[(E & -> & -> & ->)|(E & -> & -> & ->)]].
    - rewrite E. apply (case0_ok r ws HR).
    - rewrite E. apply (case5_ok r ws HR).
    - destruct E as [E|[E|[E|E]]]; rewrite E.
      + apply (case1_ok r ws HR). exact E.
      + apply (case2_ok r ws HR).
      + apply (case3_ok r ws HR).
      + apply (case4_ok r ws HR).
  Qed.
End EmitRefine.

Lemma rbind_id {A} (a : result A) : rbind a (fun o => Ok o) = a.
Proof. destruct a; reflexivity. Qed.

Lemma rbind_comp (a : result (list N)) (f g : list N -> list N) :
  rbind (rbind a (fun o => Ok (f o))) (fun o => Ok (g o)) = rbind a (fun o => Ok (g (f o))).
Proof. destruct a; reflexivity. Qed.

Lemma rbind_ext {A B} (a : result A) (f g : A -> result B) : (forall x, f x = g x) -> rbind a f = rbind a g.
Proof. intros H. destruct a; cbn; auto. Qed.

Lemma repeat_split (d m x : N) : m <= x ->
  repeat d (N.to_nat m) ++ repeat d (N.to_nat (x - m)) = repeat d (N.to_nat x).
Proof. intros H. rewrite <- repeat_app. f_equal. lia. Qed.

(* what a run of the automaton with budget [m] tells about [u strict] = unrle of the same block:
   [w] = the bytes written *)
Definition sread_rel (u : bool -> result (list N)) (m s : N) (out : list N) (y : aresult) : Prop :=
  match y with
  | AMore out' k' d' rest' s' =>
      exists w, out' = out ++ w /\ N.of_nat (length w) = m /\ s' = crc_bytes s w /\
        (forall strict, u strict = rbind (unrle strict d' k' rest') (fun o => Ok (w ++ o))) /\
        rest' <> [] /\ (k' = 4 -> hd 0 rest' <> 0)
  | AOk out' s' m' =>
      exists w, out' = out ++ w /\ N.of_nat (length w) + m' = m /\ s' = crc_bytes s w /\ forall strict, u strict = Ok w
  | AErr out' =>
      exists w, out' = out ++ w /\ N.of_nat (length w) <= m /\ u true = Err ErrRunlen /\ u false = Ok w
  end.

(* both automata write [v] and go on *)
Lemma sread_rel_app u m s out v y : N.of_nat (length v) <= m ->
  sread_rel u (m - N.of_nat (length v)) (crc_bytes s v) (out ++ v) y ->
  sread_rel (fun strict => rbind (u strict) (fun o => Ok (v ++ o))) m s out y.
Proof.
  intros Hv. destruct y; cbn [sread_rel]; intros (w & -> & Hl & H); exists (v ++ w);
    rewrite app_assoc, app_length, ?crc_bytes_app; (split; [reflexivity|]); (split; [lia|]).
  - destruct H as (-> & H & H'). split; [reflexivity|]. split; [|exact H'].
    intros strict. rewrite H, rbind_comp. apply rbind_ext. intros o. rewrite app_assoc. reflexivity.
  - destruct H as (-> & H). split; [reflexivity|]. intros strict. rewrite H. reflexivity.
  - destruct H as (-> & ->). split; reflexivity.
Qed.

Lemma sread_unrle : forall rest k d m s out,
  sread_rel (fun strict => unrle strict d k rest) m s out (sread k d rest m s out).
Proof.
  induction rest as [|x r IH]; intros k d m s out; cbn [sread unrle].
  - destruct (k =? 4); exists []; rewrite app_nil_r; cbn [length N.of_nat andb]; repeat split; try lia;
      intros []; reflexivity.
  - destruct (k =? 4) eqn:Ek.
    + destruct (N.ltb_spec m x) as [Elt|Ege].
      * exists (repeat d (N.to_nat m)). rewrite repeat_length, N2Nat.id. repeat split; try discriminate.
        -- intros strict. cbn [unrle N.eqb Pos.eqb]. rewrite rbind_comp. apply rbind_ext. intros o.
           rewrite app_assoc, repeat_split by lia. reflexivity.
        -- cbn [hd]. lia.
      * apply sread_rel_app; rewrite repeat_length, N2Nat.id; [exact Ege|apply IH].
    + destruct (N.eqb_spec m 0) as [->|Em].
      * exists []. rewrite app_nil_r. repeat split; try discriminate.
        -- intros strict. cbn [unrle]. rewrite Ek. cbn [app]. rewrite rbind_comp. apply rbind_ext. reflexivity.
        -- intros ->. discriminate.
      * apply (sread_rel_app _ _ _ _ [x]); [cbn [length]; lia|apply IH].
Qed.

Lemma unrle_false_ok : forall rest d k, exists o, unrle false d k rest = Ok o.
Proof.
  induction rest as [|x r IH]; intros d k; cbn [unrle andb].
  - eexists; reflexivity.
  - destruct (k =? 4).
    + destruct (IH 256 0) as (o & ->). eexists; reflexivity.
    + destruct (IH x (if x =? d then k + 1 else 1)) as (o & ->). eexists; reflexivity.
Qed.

Lemma unrle_progress strict rest d k o : rest <> [] -> (k = 4 -> hd 0 rest <> 0) ->
  unrle strict d k rest = Ok o -> o <> [].
Proof.
  destruct rest as [|x r]; [congruence|]. intros _ Hk. cbn [unrle hd] in *.
  destruct (k =? 4) eqn:Ek.
  - apply N.eqb_eq in Ek. specialize (Hk Ek).
    destruct (unrle strict 256 0 r); cbn [rbind]; [|discriminate]. intros [= <-].
    destruct (N.to_nat x) eqn:Ex; [lia|]. discriminate.
  - destruct (unrle strict x _ r); cbn [rbind]; [|discriminate]. intros [= <-]. discriminate.
Qed.

Fixpoint chunks_fit (chunks : list (list N)) (sizes : list N) : Prop :=
  match chunks, sizes with
  | [], _ => True
  | c :: cs, b :: bs => N.of_nat (length c) <= b /\ chunks_fit cs bs
  | _ :: _, [] => False
  end.

Definition sizes_ok (sizes : list N) : Prop := Forall (fun b => 1 <= b /\ b < M1) sizes.
Definition total (sizes : list N) : N := fold_right N.add 0 sizes.

Lemma emit_call tt st b k d rest s : Inv tt st k d rest s -> 1 <= b -> b < M1 ->
  Rres tt st b (emit_model tt st b) (sread k d rest b s []).
Proof. intros. unfold emit_model. apply emit_entry_ok; assumption. Qed.

(* any sequence of calls: no fault, no buffer overrun, and what it computes *)
Theorem emit_run_spec : forall sizes tt st k d rest s,
  Inv tt st k d rest s -> sizes_ok sizes ->
  match emit_run tt st sizes with
  | RFinished status chunks st' =>
      chunks_fit chunks sizes /\
      ((status = E_OK /\ unrle true d k rest = Ok (concat chunks) /\
        ds_crc st' = N.lxor (crc_bytes s (concat chunks)) M1)
       \/ (status = E_ERR_RUNLEN /\ unrle true d k rest = Err ErrRunlen /\
           unrle false d k rest = Ok (concat chunks)))
  | RPending chunks st' =>
      Forall2 (fun c b => N.of_nat (length c) = b) chunks sizes /\
      exists k' d' rest', Inv tt st' k' d' rest' (crc_bytes s (concat chunks)) /\
        forall strict, unrle strict d k rest = rbind (unrle strict d' k' rest') (fun o => Ok (concat chunks ++ o))
  | RFault _ => False
  end.
Proof.
  induction sizes as [|b bs IH]; intros tt st k d rest s HI Hsz.
  - cbn [emit_run concat]. split; [constructor|]. exists k, d, rest. split; [exact HI|].
    intros strict. cbn [app]. symmetry. apply rbind_id.
  - inversion Hsz as [|b' bs' [Hb1 Hb2] Hsz']; subst b' bs'.
    cbn [emit_run]. pose proof (emit_call tt st b k d rest s HI Hb1 Hb2) as HC.
    pose proof (sread_unrle rest k d b s []) as HU.
    destruct (sread k d rest b s []) as [out' k' d' rest' s'|out' s' m'|out']; cbn [Rres] in HC.
    + destruct HC as (st' & -> & HI' & _). cbn [N.eqb E_MORE Pos.eqb].
      destruct HU as (w & Ew & Hl & -> & Hu & _). cbn [app] in Ew. subst out'.
      specialize (IH tt st' k' d' rest' (crc_bytes s w) HI' Hsz').
      destruct (emit_run tt st' bs) as [status chunks st2|chunks st2|f]; cbn [rcons concat]; [| |exact IH].
      * destruct IH as (Hfit & Hres). split; [cbn [chunks_fit]; split; [lia|exact Hfit]|].
        rewrite !Hu, crc_bytes_app.
        destruct Hres as [(-> & -> & ->)|(-> & -> & ->)]; [left|right]; repeat split.
      * destruct IH as (Hlen & k2 & d2 & rest2 & HI2 & Hu2). split; [constructor; [exact Hl|exact Hlen]|].
        exists k2, d2, rest2. rewrite crc_bytes_app. split; [exact HI2|].
        intros strict. rewrite Hu, Hu2, rbind_comp. apply rbind_ext. intros o. rewrite app_assoc. reflexivity.
    + destruct HC as (st' & -> & Hcrc). cbn [N.eqb E_MORE E_OK].
      destruct HU as (w & Ew & Hl & -> & Hu). cbn [app] in Ew. subst out'.
      cbn [chunks_fit concat]. rewrite app_nil_r. split; [split; [lia|exact I]|]. left. auto.
    + rewrite HC. cbn [N.eqb E_MORE E_ERR_RUNLEN Pos.eqb].
      destruct HU as (w & Ew & Hl & HuT & HuF). cbn [app] in Ew. subst out'.
      cbn [chunks_fit concat]. rewrite app_nil_r. split; [split; [lia|exact I]|]. right. auto.
Qed.

(* enough output space in total => the run finishes *)
Theorem emit_run_terminates : forall sizes tt st k d rest s full,
  Inv tt st k d rest s -> sizes_ok sizes -> sizes <> [] ->
  unrle false d k rest = Ok full -> N.of_nat (length full) <= total sizes ->
  exists status chunks st', emit_run tt st sizes = RFinished status chunks st'.
Proof.
  induction sizes as [|b bs IH]; intros tt st k d rest s full HI Hsz Hne Hfull Hsum; [congruence|].
  inversion Hsz as [|b' bs' [Hb1 Hb2] Hsz']; subst b' bs'.
  cbn [emit_run]. pose proof (emit_call tt st b k d rest s HI Hb1 Hb2) as HC.
  pose proof (sread_unrle rest k d b s []) as HF.
  destruct (sread k d rest b s []) as [out' k' d' rest' s'|out' s' m'|out']; cbn [Rres] in HC.
  - destruct HC as (st' & -> & HI' & _). cbn [N.eqb E_MORE Pos.eqb].
    destruct HF as (w & Ew & Hl & -> & HuF & Hne' & Hk4). specialize (HuF false).
    destruct (unrle_false_ok rest' d' k') as (full' & Hf').
    rewrite Hfull, Hf' in HuF. cbn [rbind] in HuF. injection HuF as ->.
    pose proof (unrle_progress false rest' d' k' full' Hne' Hk4 Hf') as Hnz.
    rewrite app_length in Hsum. cbn [total fold_right] in Hsum. fold (total bs) in Hsum.
    assert (Hl' : N.of_nat (length full') <= total bs) by lia.
    assert (Hbs : bs <> []).
    { intros ->. cbn in Hl'. destruct full'; [congruence|cbn [length] in Hl'; lia]. }
    destruct (IH tt st' k' d' rest' (crc_bytes s w) full' HI' Hsz' Hbs Hf' Hl') as (status & chunks & st2 & ->).
    cbn [rcons]. eauto.
  - destruct HC as (st' & -> & _). cbn [N.eqb E_MORE E_OK]. eauto.
  - rewrite HC. cbn [N.eqb E_MORE E_ERR_RUNLEN Pos.eqb]. eauto.
Qed.

(* the accessors in range, the checked arithmetic without wrap; [upd] is [lupd] of Common/ListArr.v *)
Lemma upd_lupd : forall l i v, upd l i v = lupd i v l.
Proof. induction l as [|x l IH]; intros [|i] v; cbn [upd lupd]; try rewrite IH; reflexivity. Qed.

Lemma get_ok l i : (i < length l)%nat -> get l (N.of_nat i) = Good (nth i l 0).
Proof. intros H. rewrite (get_nth l _ 0); rewrite Nat2N.id; auto. Qed.

Lemma set_nth l i v : (N.to_nat i < length l)%nat -> set l i v = Good (lupd (N.to_nat i) v l).
Proof. intros H. unfold set. rewrite upd_lupd. replace (i <? _) with true by lia. reflexivity. Qed.

Lemma set_ok l i v : (i < length l)%nat -> set l (N.of_nat i) v = Good (lupd i v l).
Proof. intros H. rewrite set_nth; rewrite Nat2N.id; auto. Qed.

Lemma add32_ok x y : x + y < W32 -> add32 x y = Good (x + y).
Proof. intros H. unfold add32. replace (_ <? _) with true by lia. reflexivity. Qed.

Lemma sub32_ok x y : y <= x -> sub32 x y = Good (x - y).
Proof. intros H. unfold sub32. replace (_ <=? _) with true by lia. reflexivity. Qed.

Lemma shl8_ok x : x * 256 < W32 -> shl8 x = Good (x * 256).
Proof. intros H. unfold shl8. replace (_ <? _) with true by lia. reflexivity. Qed.

Fixpoint prefix_sums (cum : N) (l : list N) : list N :=
  match l with [] => [] | x :: r => cum :: prefix_sums (cum + x) r end.

Lemma cumloop_spec : forall post pre cum, cum + total post < W32 ->
  cumloop (length post) (N.of_nat (length pre)) cum (pre ++ post) =
  Good (pre ++ prefix_sums cum post, cum + total post).
Proof.
  induction post as [|x post IH]; intros pre cum H; cbn [length cumloop prefix_sums total fold_right] in *.
  - rewrite N.add_0_r. reflexivity.
  - fold (total post) in *.
    rewrite get_ok, nth_middle by (rewrite app_length; cbn [length]; lia). cbn [bind].
    rewrite add32_ok by lia. cbn [bind]. rewrite sub32_ok by lia. cbn [bind].
    rewrite set_ok by (rewrite app_length; cbn [length]; lia). cbn [bind].
    rewrite lupd_app, N.add_sub, (app_assoc pre [cum] post : pre ++ cum :: post = _).
    replace (N.of_nat (length pre) + 1) with (N.of_nat (length (pre ++ [cum]))) by (rewrite app_length; cbn [length]; lia).
    rewrite IH by lia. rewrite <- app_assoc, N.add_assoc. reflexivity.
Qed.

Lemma cumloop_all l : total l < W32 -> cumloop (length l) 0 0 l = Good (prefix_sums 0 l, total l).
Proof. exact (cumloop_spec l [] 0). Qed.

Lemma prefix_sums_length : forall l cum, length (prefix_sums cum l) = length l.
Proof. induction l; intros; cbn [prefix_sums length]; auto. Qed.

Lemma prefix_sums_nth : forall l cum c, (c < length l)%nat ->
  nth c (prefix_sums cum l) 0 = cum + total (firstn c l).
Proof.
  induction l as [|x l IH]; intros cum [|c] H; cbn [length] in H; try lia; cbn [prefix_sums nth firstn total fold_right].
  - lia.
  - rewrite IH by lia. fold (total (firstn c l)). lia.
Qed.

(* the stable counting sort of Format.stable_perm as a list of indices *)
Definition byteL : list N := map N.of_nat (seq 0 256).
Definition idxs (off : nat) (c : N) (l : list N) : list nat :=
  map fst (filter (fun p : nat * N => N.eqb c (snd p)) (combine (seq off (length l)) l)).
Definition Pn (tt : list N) : list nat := flat_map (fun c => idxs 0 c tt) byteL.
Definition cntn (c : N) (l : list N) : nat := length (filter (N.eqb c) l).

Lemma map_flat_map' {A B C} (f : B -> C) (g : A -> list B) l :
  map f (flat_map g l) = flat_map (fun x => map f (g x)) l.
Proof. induction l as [|a l IH]; cbn [flat_map map]; auto. rewrite map_app, IH. reflexivity. Qed.

Lemma stable_perm_Pn tt : stable_perm tt = map N.of_nat (Pn tt).
Proof.
  unfold stable_perm, Pn, byteL, idxs. rewrite map_flat_map'.
  apply flat_map_ext. intros c. rewrite map_map. reflexivity.
Qed.

Lemma idxs_cons off c x l :
  idxs off c (x :: l) = (if N.eqb c x then [off] else []) ++ idxs (S off) c l.
Proof. unfold idxs. cbn [length seq combine filter snd]. destruct (N.eqb c x); reflexivity. Qed.

Lemma idxs_nil off c : idxs off c [] = [].
Proof. reflexivity. Qed.

Lemma idxs_app : forall l1 off c l2, idxs off c (l1 ++ l2) = idxs off c l1 ++ idxs (off + length l1) c l2.
Proof.
  induction l1 as [|x l1 IH]; intros off c l2; cbn [app length].
  - rewrite Nat.add_0_r. reflexivity.
  - rewrite !idxs_cons, IH, <- app_assoc. replace (S off + length l1)%nat with (off + S (length l1))%nat by lia. reflexivity.
Qed.

Lemma idxs_length : forall l off c, length (idxs off c l) = cntn c l.
Proof.
  induction l as [|x l IH]; intros off c; [reflexivity|].
  rewrite idxs_cons, app_length, IH. unfold cntn. cbn [filter]. destruct (N.eqb c x); reflexivity.
Qed.

Lemma idxs_In : forall l off c i, In i (idxs off c l) -> (off <= i < off + length l)%nat /\ nth (i - off) l 0 = c.
Proof.
  induction l as [|x l IH]; intros off c i H; [destruct H|].
  rewrite idxs_cons in H. apply in_app_or in H. destruct H as [H|H].
  - destruct (N.eqb_spec c x) as [E|E]; [|destruct H]. destruct H as [<-|[]].
    cbn [length]. split; [lia|]. rewrite Nat.sub_diag. cbn [nth]. auto.
  - apply IH in H. destruct H as [H1 H2]. cbn [length]. split; [lia|].
    replace (i - off)%nat with (S (i - S off)) by lia. exact H2.
Qed.

Lemma byteL_length : length byteL = 256%nat.
Proof. reflexivity. Qed.

Lemma byteL_nth c : (c < 256)%nat -> nth c byteL 0 = N.of_nat c.
Proof. apply nth_map_seq. Qed.

Lemma byteL_In c : In c byteL <-> c < 256.
Proof.
  unfold byteL. rewrite in_map_iff. split.
  - intros (i & <- & Hi). apply in_seq in Hi. lia.
  - intros H. exists (N.to_nat c). split; [apply N2Nat.id|]. apply in_seq. lia.
Qed.

Lemma byteL_NoDup : NoDup byteL.
Proof.
  unfold byteL. apply FinFun.Injective_map_NoDup; [|apply seq_NoDup].
  intros a b H. apply Nat2N.inj. exact H.
Qed.

Lemma flat_map_app_perm {A B} (f g : A -> list B) l :
  Permutation (flat_map (fun x => f x ++ g x) l) (flat_map f l ++ flat_map g l).
Proof.
  induction l as [|a l IH]; cbn [flat_map]; [constructor|].
  rewrite IH, <- !app_assoc. apply Permutation_app_head, Permutation_app_swap_app.
Qed.

Lemma flat_map_single {B} (v : B) x cs : NoDup cs -> In x cs ->
  flat_map (fun c => if N.eqb c x then [v] else []) cs = [v].
Proof.
  intros Hnd Hin. change [v] with (repeat v 1) at 2.
  rewrite <- (proj1 (NoDup_count_occ' N.eq_dec cs) Hnd x Hin). clear.
  induction cs as [|c cs IH]; cbn [flat_map count_occ]; [reflexivity|].
  destruct (N.eq_dec c x) as [->|Hne]; [rewrite N.eqb_refl|replace (c =? x) with false by lia];
    cbn [app repeat]; rewrite IH; reflexivity.
Qed.

(* [Pn tt] lists every index once: the index [off] of the first element joins the bucket of its byte *)
Lemma Pn_perm : forall tt off, Forall (fun c => c < 256) tt ->
  Permutation (flat_map (fun c => idxs off c tt) byteL) (seq off (length tt)).
Proof.
  induction tt as [|x tt IH]; intros off Hb.
  - cbn [length seq]. induction byteL; [constructor|assumption].
  - inversion_clear Hb as [|? ? Hx Hb']. cbn [length seq].
    rewrite (flat_map_ext _ _ (fun c => idxs_cons off c x tt)), flat_map_app_perm, (IH _ Hb').
    rewrite flat_map_single; [reflexivity|apply byteL_NoDup|apply byteL_In, Hx].
Qed.

Lemma Pn_seq tt : Forall (fun c => c < 256) tt -> Permutation (Pn tt) (seq 0 (length tt)).
Proof. apply Pn_perm. Qed.

Lemma Pn_length tt : Forall (fun c => c < 256) tt -> length (Pn tt) = length tt.
Proof. intros H. rewrite (Permutation_length (Pn_seq tt H)). apply seq_length. Qed.

Lemma Pn_NoDup tt : Forall (fun c => c < 256) tt -> NoDup (Pn tt).
Proof. intros H. apply (Permutation_NoDup (Permutation_sym (Pn_seq tt H))), seq_NoDup. Qed.

Lemma Pn_nth_bound tt j : Forall (fun c => c < 256) tt -> (j < length tt)%nat -> (nth j (Pn tt) 0 < length tt)%nat.
Proof.
  intros Hb Hj. apply (in_seq (length tt) 0), (Permutation_in _ (Pn_seq tt Hb)), nth_In.
  rewrite Pn_length by exact Hb. exact Hj.
Qed.

(* start of bucket c in the sorted order *)
Definition startn (tt : list N) (c : nat) : nat := length (flat_map (fun c' => idxs 0 c' tt) (firstn c byteL)).

Lemma startn_0 tt : startn tt 0 = 0%nat.
Proof. reflexivity. Qed.

Lemma startn_S tt c : (c < 256)%nat -> startn tt (S c) = (startn tt c + cntn (N.of_nat c) tt)%nat.
Proof.
  intros H. unfold startn. rewrite (firstn_S_nth byteL c 0) by (rewrite byteL_length; exact H).
  rewrite flat_map_app, app_length. cbn [flat_map]. rewrite app_nil_r, byteL_nth, idxs_length by exact H. reflexivity.
Qed.

Lemma startn_256 tt : startn tt 256 = length (Pn tt).
Proof. unfold startn, Pn. rewrite firstn_all2 by (rewrite byteL_length; lia). reflexivity. Qed.

Lemma startn_mono tt : forall c c', (c <= c' <= 256)%nat -> (startn tt c <= startn tt c')%nat.
Proof.
  intros c c' H. induction c' as [|c' IH]; [replace c with 0%nat by lia; lia|].
  destruct (Nat.eq_dec c (S c')) as [->|N]; [lia|]. rewrite startn_S by lia. specialize (IH ltac:(lia)). lia.
Qed.

Lemma Pn_nth tt c k : (c < 256)%nat -> (k < cntn (N.of_nat c) tt)%nat ->
  nth (startn tt c + k) (Pn tt) 0%nat = nth k (idxs 0 (N.of_nat c) tt) 0%nat.
Proof.
  intros Hc Hk. unfold Pn, startn.
  rewrite <- (firstn_skipn c byteL) at 2. rewrite flat_map_app.
  rewrite app_nth2_plus.
  rewrite (skipn_cons_nth byteL c 0) by (rewrite byteL_length; exact Hc). rewrite byteL_nth by exact Hc.
  cbn [flat_map]. apply app_nth1. rewrite idxs_length. exact Hk.
Qed.

Lemma cntn_app c l1 l2 : cntn c (l1 ++ l2) = (cntn c l1 + cntn c l2)%nat.
Proof. unfold cntn. rewrite filter_app, app_length. reflexivity. Qed.

Lemma split_nth {A} (l : list A) i d : (i < length l)%nat -> l = firstn i l ++ nth i l d :: skipn (S i) l.
Proof. intros H. rewrite <- (skipn_cons_nth l i d H). symmetry. apply firstn_skipn. Qed.

(* the element of rank r in its bucket *)
Lemma rank_nth tt i : (i < length tt)%nat ->
  nth (cntn (nth i tt 0) (firstn i tt)) (idxs 0 (nth i tt 0) tt) 0%nat = i /\
  (cntn (nth i tt 0%N) (firstn i tt) < cntn (nth i tt 0%N) tt)%nat.
Proof.
  intros H. set (b := nth i tt 0).
  rewrite (split_nth tt i 0 H) at 2 4. fold b.
  rewrite idxs_app, idxs_cons, N.eqb_refl, cntn_app. cbn [app].
  rewrite firstn_length_le by lia. cbn [Nat.add]. split.
  - rewrite app_nth2; rewrite idxs_length; [|lia]. rewrite Nat.sub_diag. reflexivity.
  - unfold cntn at 3. cbn [filter]. rewrite N.eqb_refl. cbn [length]. lia.
Qed.

Lemma ftab_of_length tt : length (ftab_of tt) = 256%nat.
Proof. unfold ftab_of. rewrite map_length, seq_length. reflexivity. Qed.

Lemma ftab_of_nth tt c : (c < 256)%nat -> nth c (ftab_of tt) 0 = N.of_nat (cntn (N.of_nat c) tt).
Proof.
  intros H. unfold ftab_of. rewrite nth_map_seq by exact H. reflexivity.
Qed.

Lemma ftab_of_sum tt : forall c, (c <= 256)%nat -> total (firstn c (ftab_of tt)) = N.of_nat (startn tt c).
Proof.
  induction c as [|c IH]; intros H; [reflexivity|].
  rewrite (firstn_S_nth _ c 0) by (rewrite ftab_of_length; lia).
  assert (E : forall l x, total (l ++ [x]) = total l + x).
  { induction l as [|y l IHl]; intros x; cbn [app total fold_right]; [lia|]. fold (total (l ++ [x])). fold (total l). rewrite IHl. lia. }
  rewrite E, IH, ftab_of_nth, startn_S by lia. lia.
Qed.

(* a word of tt: the byte and, above it, the link *)
Lemma ptr_of b q : b < 256 -> N.shiftr (b + 256 * q) 8 = q.
Proof.
  intros H. rewrite N.shiftr_div_pow2. change (2 ^ 8) with 256.
  rewrite N.mul_comm, N.div_add by discriminate. rewrite N.div_small by exact H. reflexivity.
Qed.

Lemma low_of b q : b < 256 -> low8 (b + 256 * q) = b.
Proof. intros H. unfold low8. rewrite N.mul_comm, N.mod_add by discriminate. apply N.mod_small, H. Qed.

Section Link.
  Variable tt : list N.
  Hypothesis Hbytes : Forall (fun c => c < 256) tt.
  Hypothesis Hn : N.of_nat (length tt) <= MAX_BLOCK_SIZE.

  Lemma byte_lt j : nth j tt 0 < 256.
  Proof.
    destruct (Nat.lt_ge_cases j (length tt)) as [L|L].
    - rewrite Forall_forall in Hbytes. apply Hbytes, nth_In, L.
    - rewrite nth_overflow by exact L. reflexivity.
  Qed.

  Definition LinkInv (i : nat) (tti fti : list N) : Prop :=
    length tti = length tt /\ length fti = 256%nat /\
    (forall j, (j < length tt)%nat ->
       nth j tti 0 = nth j tt 0 + 256 * (if Nat.ltb (nth j (Pn tt) 0%nat) i then N.of_nat (nth j (Pn tt) 0%nat) else 0)) /\
    (forall c, (c < 256)%nat -> nth c fti 0 = N.of_nat (startn tt c + cntn (N.of_nat c) (firstn i tt))).

  Lemma pos_facts i : (i < length tt)%nat ->
    let c := N.to_nat (nth i tt 0) in
    let pos := (startn tt c + cntn (nth i tt 0%N) (firstn i tt))%nat in
    (c < 256)%nat /\ (pos < length tt)%nat /\ nth pos (Pn tt) 0%nat = i.
  Proof.
    intros Hi c pos. pose proof (byte_lt i) as Hb. assert (Hc : (c < 256)%nat) by (unfold c; lia).
    destruct (rank_nth tt i Hi) as [R1 R2].
    assert (Ec : N.of_nat c = nth i tt 0) by (unfold c; apply N2Nat.id).
    split; [exact Hc|]. split.
    - pose proof (startn_S tt c Hc) as HS. rewrite Ec in HS.
      pose proof (startn_mono tt (S c) 256 ltac:(lia)) as HM. rewrite startn_256, Pn_length in HM by exact Hbytes.
      unfold pos. lia.
    - unfold pos. rewrite Pn_nth; rewrite ?Ec; auto.
  Qed.

  Lemma linkloop_spec : forall k i tti fti, (i + k = length tt)%nat -> LinkInv i tti fti ->
    exists tt' ft', linkloop k (N.of_nat i) tti fti = Good (tt', ft') /\ LinkInv (length tt) tt' ft'.
  Proof.
    induction k as [|k IH]; intros i tti fti Hik HI.
    - cbn [linkloop]. replace (length tt) with i by lia. eauto.
    - destruct HI as (Hlt & Hlf & Htt & Hft).
      assert (Hi : (i < length tt)%nat) by lia.
      destruct (pos_facts i Hi) as (Hc & Hpos & HP).
      set (b := nth i tt 0) in *. set (c := N.to_nat b) in *.
      set (pos := (startn tt c + cntn b (firstn i tt))%nat) in *.
      assert (Ec : N.of_nat c = b) by (unfold c; apply N2Nat.id).
      pose proof (byte_lt i) as Hb. fold b in Hb.
      cbn [linkloop].
      rewrite get_ok by lia. cbn [bind]. rewrite (Htt i Hi). fold b.
      replace ((b + 256 * _) mod 256) with b by (symmetry; apply low_of, Hb).
      rewrite (get_nth fti b 0) by (fold c; lia). cbn [bind]. fold c. rewrite (Hft c Hc), Ec. fold pos.
      rewrite get_ok by lia. cbn [bind]. rewrite (Htt pos Hpos), HP, Nat.ltb_irrefl, N.mul_0_r, N.add_0_r.
      pose proof (byte_lt pos) as Hbp.
      rewrite shl8_ok by lia. cbn [bind]. rewrite add32_ok by lia. cbn [bind].
      rewrite set_ok by lia. cbn [bind]. rewrite add32_ok by lia. cbn [bind].
      rewrite set_nth by (fold c; lia). cbn [bind]. fold c.
      replace (N.of_nat i + 1) with (N.of_nat (S i)) by lia.
      apply IH; [lia|].
      split; [rewrite lupd_length; exact Hlt|]. split; [rewrite lupd_length; exact Hlf|]. split.
      + intros j Hj. rewrite nth_lupd by lia. destruct (Nat.eqb_spec j pos) as [E|E].
        * subst j. rewrite HP. replace (Nat.ltb i (S i)) with true by lia. lia.
        * rewrite (Htt j Hj).
          assert (Hne : nth j (Pn tt) 0%nat <> i).
          { intros Heq. apply E. rewrite <- HP in Heq.
            apply (proj1 (NoDup_nth (Pn tt) 0%nat) (Pn_NoDup tt Hbytes)); rewrite ?Pn_length by exact Hbytes; auto. }
          destruct (Nat.ltb_spec (nth j (Pn tt) 0%nat) i), (Nat.ltb_spec (nth j (Pn tt) 0%nat) (S i)); try lia.
      + intros c' Hc'. rewrite nth_lupd by lia.
        rewrite (firstn_S_nth tt i 0 Hi), cntn_app. fold b.
        change (cntn (N.of_nat c') [b]) with (length (filter (N.eqb (N.of_nat c')) [b])). cbn [filter].
        destruct (Nat.eqb_spec c' c) as [E|E].
        * subst c'. rewrite Ec, N.eqb_refl. cbn [length]. unfold pos. lia.
        * rewrite (Hft c' Hc'). destruct (N.eqb_spec (N.of_nat c') b) as [E'|E']; [exfalso; apply E; unfold c; lia|].
          cbn [length]. f_equal. lia.
  Qed.
End Link.

Definition linked (tt tt2 : list N) : Prop :=
  length tt2 = length tt /\
  forall j, (j < length tt)%nat -> nth j tt2 0 = nth j tt 0 + 256 * N.of_nat (nth j (Pn tt) 0%nat).

Definition ftab_ends (tt ft2 : list N) : Prop :=
  length ft2 = 256%nat /\ forall c, (c < 256)%nat -> nth c ft2 0 = N.of_nat (startn tt (S c)).

Lemma startn_256_len tt : Forall (fun c => c < 256) tt -> startn tt 256 = length tt.
Proof. intros. rewrite startn_256. apply Pn_length. assumption. Qed.

Lemma ftab_ends_last tt ft2 : Forall (fun c => c < 256) tt -> ftab_ends tt ft2 -> nth 255 ft2 0 = N.of_nat (length tt).
Proof. intros Hb [_ H]. rewrite (H 255%nat), startn_256_len by (auto; lia). reflexivity. Qed.

(* decode() up to the second assert *)
Lemma decode_common tt idx rand crc0 : Forall (fun c => c < 256) tt -> N.of_nat (length tt) <= MAX_BLOCK_SIZE ->
  exists tt2 ft2, linked tt tt2 /\ ftab_ends tt ft2 /\
    decode_model tt (ftab_of tt) (N.of_nat (length tt)) idx rand crc0 =
      (tt5 <-- (if rand then
                  tt3 <-- insitu (length tt) 0 idx tt2 ft2 ;;
                  tt4 <-- derandloop (length tt) 0 RAND_THRESH (N.of_nat (length tt)) tt3 ;;
                  relink (length tt) 0 tt4
                else Good tt2) ;;
       index <-- (if rand then Good 0 else get tt5 idx) ;;
       Good (tt5, ft2, mkE 0 M1 index (N.of_nat (length tt)) 0 0 crc0)).
Proof.
  intros Hb Hn.
  assert (Hsum : total (ftab_of tt) = N.of_nat (length tt)).
  { rewrite <- (firstn_all (ftab_of tt)), ftab_of_length, ftab_of_sum, startn_256_len by (auto; lia). reflexivity. }
  pose proof (cumloop_all (ftab_of tt)) as HC. rewrite ftab_of_length, Hsum in HC. specialize (HC ltac:(lia)).
  set (ft1 := prefix_sums 0 (ftab_of tt)) in *.
  assert (HI : LinkInv tt 0 tt ft1).
  { split; [reflexivity|]. split; [unfold ft1; rewrite prefix_sums_length; apply ftab_of_length|]. split.
    - intros j Hj. cbn [Nat.ltb Nat.leb]. lia.
    - intros c Hc. unfold ft1. rewrite prefix_sums_nth by (rewrite ftab_of_length; exact Hc).
      rewrite ftab_of_sum by lia. cbn [firstn]. unfold cntn. cbn [filter length]. lia. }
  destruct (linkloop_spec tt Hb Hn (length tt) 0 tt ft1 ltac:(lia) HI) as (tt2 & ft2 & HL & Hl2 & Hf2 & Ht2 & Hft2).
  assert (Hfe : ftab_ends tt ft2).
  { split; [exact Hf2|]. intros c Hc. rewrite (Hft2 c Hc), firstn_all, startn_S by exact Hc. reflexivity. }
  exists tt2, ft2. split; [split; [exact Hl2|]|split; [exact Hfe|]].
  - intros j Hj. rewrite (Ht2 j Hj). replace (Nat.ltb _ _) with true by (pose proof (Pn_nth_bound tt j Hb Hj); lia).
    reflexivity.
  - unfold decode_model. rewrite HC. cbn [bind]. rewrite N.eqb_refl, Nat2N.id. cbn [negb]. rewrite (HL : linkloop _ 0 _ _ = _). cbn [bind].
    change 255 with (N.of_nat 255). rewrite get_ok by lia. cbn [bind].
    rewrite (ftab_ends_last tt ft2 Hb Hfe), N.eqb_refl. reflexivity.
Qed.

(* the list walk is the [follow] of Dec/Format.v *)
Lemma walk_follow tt tt2 : Forall (fun c => c < 256) tt -> linked tt tt2 ->
  forall k j, (j < length tt)%nat ->
  exists ws, Walk tt2 (nth j tt2 0) ws /\ length ws = k /\
             map low8 ws = follow k (stable_perm tt) tt (N.of_nat j).
Proof.
  intros Hb (Hl & Ht). induction k as [|k IH]; intros j Hj.
  - exists []. split; [constructor|]. split; reflexivity.
  - pose proof (Pn_nth_bound tt j Hb Hj) as Hj'. set (j' := nth j (Pn tt) 0%nat) in *.
    destruct (IH j' Hj') as (ws & HW & Hlen & Hmap).
    assert (Hbj : nth j tt 0 < 256) by (apply byte_lt; exact Hb).
    assert (Hbj' : nth j' tt 0 < 256) by (apply byte_lt; exact Hb).
    exists (nth j' tt2 0 :: ws). split; [|split].
    + constructor; [|exact HW]. rewrite (Ht j Hj). fold j'. rewrite ptr_of, Nat2N.id by exact Hbj.
      apply nth_error_nth'. lia.
    + cbn [length]. lia.
    + cbn [map follow]. rewrite Nat2N.id, stable_perm_Pn.
      assert (E : nth j (map N.of_nat (Pn tt)) 0 = N.of_nat j').
      { unfold j'. change 0 with (N.of_nat 0%nat). apply map_nth. }
      rewrite E, Nat2N.id.
      rewrite (Ht j' Hj'), low_of by exact Hbj'. rewrite Hmap, stable_perm_Pn. reflexivity.
Qed.

Definition block_ok (tt : list N) (idx : N) : Prop :=
  Forall (fun c => c < 256) tt /\ 1 <= N.of_nat (length tt) <= MAX_BLOCK_SIZE /\ idx < N.of_nat (length tt).

(* the state decode() leaves: nothing written yet, the whole block ahead *)
Lemma Inv_init tt' index ws crc0 : Walk tt' index ws -> N.of_nat (length ws) <= MAX_BLOCK_SIZE ->
  Inv tt' (mkE 0 M1 index (N.of_nat (length ws)) 0 0 crc0) 0 256 (map low8 ws) M1.
Proof.
  intros HW Hn. exists ws. cbn [rle_index rle_avail rle_crc rle_char rle_prev rle_state].
  repeat (split; [assumption || reflexivity || lia|]). left. auto.
Qed.

(* one halving step: [k = 0 \/ ft[k-1] <= j] and [j < ft[k + window - 1]], the window going from [2 * h] to [h] *)
Lemma bstep_ok ft j k off h : length ft = 256%nat -> off + 1 = h -> k + 2 * h <= 256 ->
  (k = 0 \/ nth (N.to_nat (k - 1)) ft 0 <= j) -> j < nth (N.to_nat (k + 2 * h - 1)) ft 0 ->
  exists k', bstep ft j k off h = Good k' /\ k' + h <= 256 /\
    (k' = 0 \/ nth (N.to_nat (k' - 1)) ft 0 <= j) /\ j < nth (N.to_nat (k' + h - 1)) ft 0.
Proof.
  intros Hl <- Hk Hlo Hhi. unfold bstep.
  rewrite (get_nth ft _ 0) by lia. cbn [bind].
  destruct (N.leb_spec (nth (N.to_nat (k + off)) ft 0) j) as [E|E].
  - exists (k + (off + 1)). split; [reflexivity|]. split; [lia|]. split.
    + right. replace (k + (off + 1) - 1) with (k + off) by lia. exact E.
    + replace (k + (off + 1) + (off + 1) - 1) with (k + 2 * (off + 1) - 1) by lia. exact Hhi.
  - exists k. split; [reflexivity|]. split; [lia|]. split; [exact Hlo|].
    replace (k + (off + 1) - 1) with (k + off) by lia. exact E.
Qed.

Lemma bsearch_ok ft j : length ft = 256%nat -> j < nth 255 ft 0 ->
  exists k, bsearch ft j = Good k /\ k < 256 /\
    (k = 0 \/ nth (N.to_nat (k - 1)) ft 0 <= j) /\ j < nth (N.to_nat k) ft 0.
Proof.
  intros Hl Hj. unfold bsearch.
  destruct (bstep_ok ft j 0 127 128 Hl eq_refl (N.le_refl _) (or_introl eq_refl) Hj) as (k1 & -> & B1 & L1 & H1). cbn [bind].
  destruct (bstep_ok ft j k1 63 64 Hl eq_refl B1 L1 H1) as (k2 & -> & B2 & L2 & H2). cbn [bind].
  destruct (bstep_ok ft j k2 31 32 Hl eq_refl B2 L2 H2) as (k3 & -> & B3 & L3 & H3). cbn [bind].
  destruct (bstep_ok ft j k3 15 16 Hl eq_refl B3 L3 H3) as (k4 & -> & B4 & L4 & H4). cbn [bind].
  destruct (bstep_ok ft j k4 7 8 Hl eq_refl B4 L4 H4) as (k5 & -> & B5 & L5 & H5). cbn [bind].
  destruct (bstep_ok ft j k5 3 4 Hl eq_refl B5 L5 H5) as (k6 & -> & B6 & L6 & H6). cbn [bind].
  destruct (bstep_ok ft j k6 1 2 Hl eq_refl B6 L6 H6) as (k7 & -> & B7 & L7 & H7). cbn [bind].
  destruct (bstep_ok ft j k7 0 1 Hl eq_refl B7 L7 H7) as (k8 & -> & B8 & L8 & H8).
  exists k8. split; [reflexivity|]. split; [lia|]. split; [exact L8|].
  replace (k8 + 1 - 1) with k8 in H8 by lia. exact H8.
Qed.

(* the first column: the byte of the element sorted into position j *)
Lemma first_column tt ft2 j k : Forall (fun c => c < 256) tt -> ftab_ends tt ft2 -> (j < length tt)%nat ->
  k < 256 -> (k = 0 \/ nth (N.to_nat (k - 1)) ft2 0 <= N.of_nat j) -> N.of_nat j < nth (N.to_nat k) ft2 0 ->
  nth (nth j (Pn tt) 0%nat) tt 0 = k.
Proof.
  intros Hb (Hfl & Hfn) Hj Hk Hlo Hhi.
  set (c := N.to_nat k) in *. assert (Hc : (c < 256)%nat) by (unfold c; lia).
  rewrite (Hfn c Hc) in Hhi.
  assert (Hlo' : (startn tt c <= j)%nat).
  { destruct Hlo as [->|Hlo]; [cbn; lia|].
    destruct (N.eq_dec k 0) as [->|Nk]; [cbn; lia|].
    rewrite (Hfn (N.to_nat (k - 1))) in Hlo by lia.
    replace (S (N.to_nat (k - 1))) with c in Hlo by (unfold c; lia). lia. }
  rewrite startn_S in Hhi by exact Hc.
  replace j with (startn tt c + (j - startn tt c))%nat by lia.
  rewrite Pn_nth by (auto; lia).
  assert (Hin : In (nth (j - startn tt c) (idxs 0 (N.of_nat c) tt) 0%nat) (idxs 0 (N.of_nat c) tt)).
  { apply nth_In. rewrite idxs_length. lia. }
  apply idxs_In in Hin. destruct Hin as [_ Hin]. rewrite Nat.sub_0_r in Hin. rewrite Hin. unfold c. lia.
Qed.

Lemma land_shiftl8 w m : N.land w (N.shiftl m 8) = N.shiftl (N.land (N.shiftr w 8) m) 8.
Proof.
  apply N.bits_inj. intros t. rewrite N.land_spec.
  destruct (N.lt_ge_cases t 8) as [L|L].
  - rewrite !N.shiftl_spec_low by exact L. apply andb_false_r.
  - rewrite !N.shiftl_spec_high' by exact L. rewrite N.land_spec, N.shiftr_spec'.
    replace (t - 8 + 8) with t by lia. reflexivity.
Qed.

Lemma land_hi x q : x < 256 -> q < 16777216 -> N.land (x + 256 * q) 0xFFFFFF00 = 256 * q.
Proof.
  intros Hx Hq. change 0xFFFFFF00 with (N.shiftl (N.ones 24) 8).
  rewrite land_shiftl8, ptr_of by exact Hx. rewrite N.land_ones, N.mod_small by exact Hq.
  rewrite N.shiftl_mul_pow2. change (2 ^ 8) with 256. lia.
Qed.

Lemma lxor_1 a : N.lxor a 1 = if N.even a then a + 1 else a - 1.
Proof. destruct a as [|[p|p|]]; reflexivity. Qed.

Lemma lxor_low x q : x < 256 -> N.lxor (x + 256 * q) 1 = N.lxor x 1 + 256 * q /\ N.lxor x 1 < 256.
Proof.
  intros Hx. rewrite !lxor_1.
  replace (256 * q) with (2 * (128 * q)) by lia. rewrite N.even_add_mul_2.
  destruct (N.even x) eqn:E.
  - apply N.even_spec in E. destruct E as (m & ->). split; lia.
  - assert (x <> 0) by (intros ->; discriminate). split; lia.
Qed.


Lemma rand_table_length : length rand_table = 512%nat.
Proof. reflexivity. Qed.

Lemma rand_table_range i : (i < 512)%nat -> 1 <= nth i rand_table 0 <= 999.
Proof.
  assert (H : forallb (fun x => (1 <=? x) && (x <=? 999)) rand_table = true) by (vm_compute; reflexivity).
  rewrite forallb_forall in H. intros Hi.
  assert (Hin : In (nth i rand_table 0) rand_table) by (apply nth_In; rewrite rand_table_length; exact Hi).
  apply H in Hin. apply andb_true_iff in Hin. destruct Hin as [H1 H2].
  apply N.leb_le in H1, H2. lia.
Qed.

Lemma derand_pos_ge : forall fuel i j bs p, In p (derand_pos fuel i j bs) -> j <= p.
Proof.
  induction fuel as [|f IH]; intros i j bs p H; [destruct H|].
  cbn [derand_pos] in H. destruct (j <? bs); [|destruct H].
  destruct H as [<-|H]; [lia|]. apply IH in H. lia.
Qed.

Lemma existsb_lt x ps j' : (forall p, In p ps -> j' <= p) -> x < j' -> existsb (N.eqb x) ps = false.
Proof.
  intros H Hx. induction ps as [|p ps IH]; [reflexivity|]. cbn [existsb].
  replace (x =? p) with false by (symmetry; apply N.eqb_neq; specialize (H p (or_introl eq_refl)); lia).
  apply IH. intros q Hq. apply H. right. exact Hq.
Qed.

Lemma derandloop_spec : forall fuel i j bs l,
  N.of_nat (length l) = bs -> bs <= MAX_BLOCK_SIZE -> bs <= j + N.of_nat fuel ->
  exists l', derandloop fuel i j bs l = Good l' /\ length l' = length l /\
    forall q, (q < length l)%nat ->
      nth q l' 0 = if existsb (N.eqb (N.of_nat q)) (derand_pos fuel i j bs) then N.lxor (nth q l 0) 1 else nth q l 0.
Proof.
  induction fuel as [|f IH]; intros i j bs l Hl Hbs Hf.
  - cbn [derandloop derand_pos]. replace (j <? bs) with false by lia.
    exists l. split; [reflexivity|]. split; [reflexivity|]. intros q _. reflexivity.
  - cbn [derandloop derand_pos]. destruct (N.ltb_spec j bs) as [Ej|Ej].
    2:{ exists l. split; [reflexivity|]. split; [reflexivity|]. intros q _. reflexivity. }
    rewrite (get_nth l _ 0) by lia. cbn [bind]. rewrite set_nth by lia. cbn [bind].
    set (i' := N.land (i + 1) 511).
    assert (Hi' : (N.to_nat i' < 512)%nat).
    { unfold i'. change 511 with (N.ones 9). rewrite N.land_ones.
      pose proof (N.mod_upper_bound (i + 1) (2 ^ 9) ltac:(discriminate)). change (2 ^ 9) with 512 in *. lia. }
    rewrite (get_nth rand_table _ 0) by (rewrite rand_table_length; exact Hi'). cbn [bind].
    pose proof (rand_table_range _ Hi') as Hr. set (r := nth (N.to_nat i') rand_table 0) in *.
    rewrite add32_ok by lia. cbn [bind].
    destruct (IH i' (j + r) bs (lupd (N.to_nat j) (N.lxor (nth (N.to_nat j) l 0) 1) l)) as (l' & HD & Hl' & Hq);
      [rewrite lupd_length; exact Hl|lia|lia|].
    rewrite lupd_length in Hl', Hq. exists l'. split; [exact HD|]. split; [exact Hl'|].
    intros q Hq1. rewrite (Hq q Hq1). cbn [existsb]. rewrite nth_lupd by lia.
    destruct (N.eqb_spec (N.of_nat q) j) as [E|E].
    + replace (Nat.eqb q (N.to_nat j)) with true by lia.
      rewrite (existsb_lt (N.of_nat q) _ (j + r)); [|intros p Hp; apply derand_pos_ge in Hp; exact Hp|lia].
      cbn [orb]. replace (N.to_nat j) with q by lia. reflexivity.
    + replace (Nat.eqb q (N.to_nat j)) with false by lia. reflexivity.
Qed.

Lemma derand_nth blk q : (q < length blk)%nat ->
  nth q (derand blk) 0 =
  if existsb (N.eqb (N.of_nat q)) (derand_pos (length blk) 0 RAND_THRESH (N.of_nat (length blk)))
  then N.lxor (nth q blk 0) 1 else nth q blk 0.
Proof.
  intros Hq. unfold derand.
  set (ps := derand_pos (length blk) 0 RAND_THRESH (N.of_nat (length blk))).
  set (f := fun p : nat * N => if existsb (N.eqb (N.of_nat (fst p))) ps then N.lxor (snd p) 1 else snd p).
  rewrite (nth_indep _ 0 (f (0%nat, 0))) by (rewrite map_length, combine_length, seq_length; lia).
  rewrite map_nth, combine_nth by (rewrite seq_length; reflexivity).
  rewrite seq_nth by exact Hq. unfold f. cbn [fst snd Nat.add]. reflexivity.
Qed.

Lemma derand_neq blk : RAND_THRESH < N.of_nat (length blk) -> derand blk <> blk.
Proof.
  intros H E. pose proof (derand_nth blk (N.to_nat RAND_THRESH) ltac:(lia)) as D. rewrite E in D.
  destruct (length blk); [discriminate|]. cbn [derand_pos] in D. apply N.ltb_lt in H. rewrite H in D.
  cbn [existsb orb] in D. rewrite N2Nat.id, N.eqb_refl, lxor_1 in D. cbn [orb] in D.
  destruct (nth _ blk 0) as [|x]; [discriminate|]. destruct (N.even _); lia.
Qed.

Lemma derand_length blk : length (derand blk) = length blk.
Proof. unfold derand. rewrite map_length, combine_length, seq_length. lia. Qed.

Lemma relink_spec : forall k i l, (i + k = length l)%nat -> N.of_nat (length l) <= MAX_BLOCK_SIZE ->
  exists l', relink k (N.of_nat i) l = Good l' /\ length l' = length l /\
    forall q, (q < length l)%nat ->
      nth q l' 0 = if Nat.leb i q then low8 (nth q l 0) + 256 * (N.of_nat q + 1) else nth q l 0.
Proof.
  induction k as [|k IH]; intros i l Hik Hn.
  - cbn [relink]. exists l. split; [reflexivity|]. split; [reflexivity|].
    intros q Hq. replace (Nat.leb i q) with false by lia. reflexivity.
  - cbn [relink]. rewrite get_ok by lia. cbn [bind]. rewrite add32_ok by lia. cbn [bind].
    rewrite shl8_ok by lia. cbn [bind].
    pose proof (low8_lt (nth i l 0)) as Hlo. fold (low8 (nth i l 0)).
    rewrite add32_ok by lia. cbn [bind]. rewrite set_ok by lia. cbn [bind].
    replace (N.of_nat i + 1) with (N.of_nat (S i)) by lia.
    destruct (IH (S i) (lupd i (N.of_nat (S i) * 256 + low8 (nth i l 0)) l)) as (l' & HR & Hl' & Hq);
      [rewrite lupd_length; lia..|].
    rewrite lupd_length in Hl', Hq. exists l'. split; [exact HR|]. split; [exact Hl'|].
    intros q Hq1. rewrite (Hq q Hq1), nth_lupd by lia.
    destruct (Nat.eqb_spec q i) as [E|E].
    + subst q. replace (Nat.leb (S i) i) with false by lia. rewrite Nat.leb_refl. lia.
    + destruct (Nat.leb_spec (S i) q), (Nat.leb_spec i q); try lia; reflexivity.
Qed.

Lemma walk_seq l : (forall q, (q < length l)%nat -> N.shiftr (nth q l 0) 8 = N.of_nat (S q)) ->
  forall k q p, (q + k <= length l)%nat -> N.shiftr p 8 = N.of_nat q -> Walk l p (firstn k (skipn q l)).
Proof.
  intros H. induction k as [|k IH]; intros q p Hqk Hp; [constructor|].
  rewrite (skipn_cons_nth l q 0) by lia. cbn [firstn]. constructor.
  - rewrite Hp, Nat2N.id. apply nth_error_nth'. lia.
  - apply IH; [lia|]. apply H. lia.
Qed.

Section Rand.
  Variable tt : list N.
  Variable idx : N.
  Hypothesis Hb : Forall (fun c => c < 256) tt.
  Hypothesis Hn : N.of_nat (length tt) <= MAX_BLOCK_SIZE.
  Hypothesis Hidx : idx < N.of_nat (length tt).
  Variable ft2 : list N.
  Hypothesis Hfe : ftab_ends tt ft2.

  Definition jseq (q : nat) : nat := Nat.iter q (fun j => nth j (Pn tt) 0%nat) (N.to_nat idx).
  Definition outb (q : nat) : N := nth (jseq (S q)) tt 0.

  Lemma jseq_lt q : (jseq q < length tt)%nat.
  Proof. induction q as [|q IH]; [change (jseq 0) with (N.to_nat idx); lia|]. change (jseq (S q)) with (nth (jseq q) (Pn tt) 0%nat). apply Pn_nth_bound; auto. Qed.

  Lemma jseq_S q : jseq (S q) = nth (jseq q) (Pn tt) 0%nat.
  Proof. reflexivity. Qed.

  Lemma outb_lt q : outb q < 256.
  Proof. apply byte_lt. exact Hb. Qed.

  Lemma follow_out : forall k q, follow k (stable_perm tt) tt (N.of_nat (jseq q)) = map outb (seq q k).
  Proof.
    induction k as [|k IH]; intros q; [reflexivity|].
    cbn [follow seq map]. rewrite Nat2N.id, stable_perm_Pn.
    assert (E : nth (jseq q) (map N.of_nat (Pn tt)) 0 = N.of_nat (jseq (S q))).
    { rewrite jseq_S. change 0 with (N.of_nat 0%nat). apply map_nth. }
    rewrite E, Nat2N.id. rewrite <- stable_perm_Pn, IH. reflexivity.
  Qed.

  Lemma ibwt_out : ibwt tt idx = map outb (seq 0 (length tt)).
  Proof. unfold ibwt. rewrite <- follow_out. change (jseq 0) with (N.to_nat idx). rewrite N2Nat.id. reflexivity. Qed.

  Definition InsInv (i : nat) (tti : list N) : Prop :=
    length tti = length tt /\
    forall q, (q < length tt)%nat ->
      nth q tti 0 = (if Nat.ltb q i then outb q else nth q tt 0) + 256 * N.of_nat (nth q (Pn tt) 0%nat).

  Lemma insitu_spec : forall k i tti, (i + k = length tt)%nat -> InsInv i tti ->
    exists tt3, insitu k (N.of_nat i) (N.of_nat (jseq i)) tti ft2 = Good tt3 /\ InsInv (length tt) tt3.
  Proof.
    induction k as [|k IH]; intros i tti Hik (Hl & Ht).
    - cbn [insitu]. replace (length tt) with i by lia. exists tti. split; [reflexivity|split; assumption].
    - assert (Hi : (i < length tt)%nat) by lia.
      pose proof (jseq_lt i) as Hj. set (j := jseq i) in *.
      destruct Hfe as (Hfl & Hfn).
      destruct (bsearch_ok ft2 (N.of_nat j) Hfl ltac:(rewrite (ftab_ends_last tt ft2 Hb (conj Hfl Hfn)); lia)) as (k0 & HB & Hk0 & Hlo & Hhi).
      pose proof (first_column tt ft2 j k0 Hb (conj Hfl Hfn) Hj Hk0 Hlo Hhi) as HF.
      assert (Hout : outb i = k0) by (unfold outb; rewrite jseq_S; exact HF).
      cbn [insitu]. rewrite HB. cbn [bind].
      rewrite get_ok by lia. cbn [bind]. rewrite (Ht i Hi), Nat.ltb_irrefl.
      pose proof (byte_lt tt Hb i) as Hbi. pose proof (Pn_nth_bound tt i Hb Hi) as Hpi.
      rewrite land_hi, add32_ok by lia. cbn [bind]. rewrite set_ok by lia. cbn [bind].
      rewrite get_ok by (rewrite lupd_length; lia). cbn [bind].
      assert (Hnext : N.shiftr (nth j (lupd i (256 * N.of_nat (nth i (Pn tt) 0%nat) + k0) tti) 0) 8
                      = N.of_nat (jseq (S i))).
      { rewrite jseq_S. fold j. rewrite nth_lupd by lia. destruct (Nat.eqb_spec j i) as [E|E].
        - rewrite E. rewrite N.add_comm. apply ptr_of. exact Hk0.
        - rewrite (Ht j Hj). apply ptr_of. destruct (Nat.ltb j i); [apply outb_lt|apply byte_lt; exact Hb]. }
      rewrite Hnext. replace (N.of_nat i + 1) with (N.of_nat (S i)) by lia.
      apply IH; [lia|]. split; [rewrite lupd_length; exact Hl|].
      intros q Hq. rewrite nth_lupd by lia. destruct (Nat.eqb_spec q i) as [E|E].
      + subst q. replace (Nat.ltb i (S i)) with true by lia. rewrite Hout. lia.
      + rewrite (Ht q Hq). destruct (Nat.ltb_spec q i), (Nat.ltb_spec q (S i)); try lia; reflexivity.
  Qed.

  (* in-situ IBWT, derandomisation, re-linking: tt[q] = (derandomised byte q, q + 1) *)
  Lemma rand_pipeline tt2 : linked tt tt2 ->
    exists tt5,
      (tt3 <-- insitu (length tt) 0 idx tt2 ft2 ;;
       tt4 <-- derandloop (length tt) 0 RAND_THRESH (N.of_nat (length tt)) tt3 ;;
       relink (length tt) 0 tt4) = Good tt5 /\ length tt5 = length tt /\
      forall q, (q < length tt)%nat ->
        nth q tt5 0 = nth q (derand (ibwt tt idx)) 0 + 256 * (N.of_nat q + 1) /\ nth q (derand (ibwt tt idx)) 0 < 256.
  Proof.
    intros (Hl2 & Ht2).
    destruct (insitu_spec (length tt) 0 tt2 ltac:(lia) (conj Hl2 Ht2)) as (tt3 & HS & Hl3 & Ht3).
    change (insitu (length tt) 0 (N.of_nat (N.to_nat idx)) tt2 ft2 = Good tt3) in HS. rewrite N2Nat.id in HS.
    rewrite HS. cbn [bind].
    destruct (derandloop_spec (length tt) 0 RAND_THRESH (N.of_nat (length tt)) tt3
                ltac:(rewrite Hl3; reflexivity) Hn ltac:(lia)) as (tt4 & -> & Hl4 & Ht4).
    cbn [bind]. rewrite Hl3 in Hl4, Ht4.
    destruct (relink_spec (length tt) 0 tt4 ltac:(lia) ltac:(rewrite Hl4; exact Hn)) as (tt5 & HR & Hl5 & Ht5).
    rewrite Hl4 in Hl5, Ht5. exists tt5. split; [exact HR|]. split; [exact Hl5|].
    intros q Hq. rewrite (Ht5 q Hq), (Ht4 q Hq), (Ht3 q Hq). cbn [Nat.leb]. replace (Nat.ltb q _) with true by lia.
    rewrite derand_nth, ibwt_out, map_length, seq_length, nth_map_seq by (rewrite ?ibwt_out, ?map_length, ?seq_length; exact Hq).
    pose proof (outb_lt q) as Ho.
    destruct (existsb _ _); [destruct (lxor_low (outb q) (N.of_nat (nth q (Pn tt) 0%nat)) Ho) as [-> E]|];
      rewrite low_of by assumption; auto.
  Qed.
End Rand.

Definition block_of (col : list N) (idx : N) (rand : bool) : list N :=
  if rand then derand (ibwt col idx) else ibwt col idx.

Lemma abstract_block_of col idx rand : abstract_block col idx rand = unrle true 256 0 (block_of col idx rand).
Proof. unfold abstract_block, block_of. destruct rand; reflexivity. Qed.

Theorem decode_inv col idx rand crc0 : block_ok col idx ->
  exists tt' ft' st,
    decode_model col (ftab_of col) (N.of_nat (length col)) idx rand crc0 = Good (tt', ft', st) /\
    length tt' = length col /\ ftab_ends col ft' /\ ds_crc st = crc0 /\
    rle_state st = 0 /\ rle_avail st = N.of_nat (length col) /\
    (forall q, (q < length col)%nat ->
       if rand then N.shiftr (nth q tt' 0) 8 = N.of_nat (S q)
       else N.shiftr (nth q tt' 0) 8 < N.of_nat (length col)) /\
    Inv tt' st 0 256 (block_of col idx rand) M1.
Proof.
  intros (Hb & [Hn1 Hn2] & Hidx).
  destruct (decode_common col idx rand crc0 Hb Hn2) as (tt2 & ft2 & Hlk & Hfe & ->).
  destruct rand; cbn [block_of].
  - destruct (rand_pipeline col idx Hb Hn2 Hidx ft2 Hfe tt2 Hlk) as (tt5 & -> & Hl5 & Ht5). cbn [bind].
    assert (Hptr : forall q, (q < length tt5)%nat -> N.shiftr (nth q tt5 0) 8 = N.of_nat (S q)).
    { intros q Hq. rewrite Hl5 in Hq. destruct (Ht5 q Hq) as [-> E]. rewrite ptr_of by exact E. lia. }
    eexists _, _, _. split; [reflexivity|]. split; [exact Hl5|]. split; [exact Hfe|].
    do 3 (split; [reflexivity|]). split; [rewrite <- Hl5; exact Hptr|].
    replace (derand (ibwt col idx)) with (map low8 tt5).
    + rewrite <- Hl5. apply Inv_init; [|lia].
      rewrite <- (firstn_all tt5) at 2. apply (walk_seq tt5 Hptr (length tt5) 0%nat 0); [lia|reflexivity].
    + apply (nth_ext _ _ (low8 0) 0).
      * rewrite map_length, derand_length, (ibwt_out col idx), map_length, seq_length. exact Hl5.
      * intros q Hq. rewrite map_length, Hl5 in Hq. destruct (Ht5 q Hq) as [E1 E2]. rewrite map_nth, E1. apply low_of, E2.
  - destruct Hlk as (Hl2 & Ht2). cbn [bind]. rewrite <- (N2Nat.id idx), get_ok by lia. cbn [bind].
    eexists _, _, _. split; [reflexivity|]. split; [exact Hl2|]. split; [exact Hfe|]. do 3 (split; [reflexivity|]). split.
    + intros q Hq. rewrite (Ht2 q Hq), ptr_of by (apply byte_lt; exact Hb). pose proof (Pn_nth_bound col q Hb Hq). lia.
    + destruct (walk_follow col tt2 Hb (conj Hl2 Ht2) (length col) (N.to_nat idx) ltac:(lia)) as (ws & HW & Hlen & Hmap).
      unfold ibwt. rewrite <- Hmap, <- Hlen. apply Inv_init; [exact HW|lia].
Qed.

(* decode(): every access in bounds, nothing wraps, both asserts hold, the list is well formed *)
Theorem decode_safe col idx rand crc0 : block_ok col idx ->
  exists tt' ft' st,
    decode_model col (ftab_of col) (N.of_nat (length col)) idx rand crc0 = Good (tt', ft', st) /\
    length tt' = length col /\ length ft' = 256%nat /\ nth 255 ft' 0 = N.of_nat (length col) /\
    (forall q, (q < length col)%nat ->
       if rand then N.shiftr (nth q tt' 0) 8 = N.of_nat (S q)
       else N.shiftr (nth q tt' 0) 8 < N.of_nat (length col)) /\
    rle_state st = 0 /\ rle_avail st = N.of_nat (length col) /\ rle_crc st = M1 /\
    exists ws, Walk tt' (rle_index st) ws /\ length ws = length col.
Proof.
  intros H.
  destruct (decode_inv col idx rand crc0 H) as (tt' & ft' & st & HD & Hl & (Hfl & Hfn) & Hcrc & Hs0 & Hav & Hp & HI).
  exists tt', ft', st. split; [exact HD|]. split; [exact Hl|]. split; [exact Hfl|].
  destruct H as (Hb & Hn & Hidx).
  split; [exact (ftab_ends_last col ft' Hb (conj Hfl Hfn))|].
  split; [exact Hp|]. split; [exact Hs0|]. split; [exact Hav|].
  destruct HI as (ws & HW & Ha & _ & Hs & _).
  split; [exact Hs|]. exists ws. split; [exact HW|]. rewrite Hav in Ha. lia.
Qed.

Lemma decode_emit_unfold col idx rand sizes tt' ft' st :
  decode_model col (ftab_of col) (N.of_nat (length col)) idx rand 0 = Good (tt', ft', st) ->
  decode_emit col idx rand sizes = emit_run tt' st sizes.
Proof. intros H. unfold decode_emit. rewrite H. reflexivity. Qed.

(* emit(): for every sequence of buffer sizes no access out of bounds (t[p >> 8], crc_table),
   the exit assertion holds, and no call writes more than its buffer holds *)
Theorem emit_safe col idx rand sizes : block_ok col idx -> sizes_ok sizes ->
  match decode_emit col idx rand sizes with
  | RFault _ => False
  | RFinished _ chunks _ => chunks_fit chunks sizes
  | RPending chunks _ => Forall2 (fun c b => N.of_nat (length c) = b) chunks sizes
  end.
Proof.
  intros H Hs. destruct (decode_inv col idx rand 0 H) as (tt' & ft' & st & HD & _ & _ & _ & _ & _ & _ & HI).
  rewrite (decode_emit_unfold _ _ _ _ _ _ _ HD).
  pose proof (emit_run_spec sizes tt' st 0 256 _ M1 HI Hs) as HR.
  destruct (emit_run tt' st sizes); [destruct HR as [HR _]; exact HR|destruct HR as [HR _]; exact HR|exact HR].
Qed.

(* the bytes written over successive calls, for ANY positive buffer sizes, are the abstract result *)
Theorem emit_chunking col idx rand sizes : block_ok col idx -> sizes_ok sizes ->
  match decode_emit col idx rand sizes with
  | RFinished status chunks st' =>
      (status = E_OK /\ abstract_block col idx rand = Ok (concat chunks) /\
       ds_crc st' = N.lxor (crc_bytes mask32 (concat chunks)) mask32)
      \/ (status = E_ERR_RUNLEN /\ abstract_block col idx rand = Err ErrRunlen /\
          unrle false 256 0 (block_of col idx rand) = Ok (concat chunks))
  | RPending chunks st' =>
      (forall out, abstract_block col idx rand = Ok out -> exists more, out = concat chunks ++ more) /\
      N.of_nat (length (concat chunks)) = total sizes
  | RFault _ => False
  end.
Proof.
  intros H Hs. destruct (decode_inv col idx rand 0 H) as (tt' & ft' & st & HD & _ & _ & _ & _ & _ & _ & HI).
  rewrite (decode_emit_unfold _ _ _ _ _ _ _ HD), abstract_block_of.
  pose proof (emit_run_spec sizes tt' st 0 256 _ M1 HI Hs) as HR.
  destruct (emit_run tt' st sizes) as [status chunks st'|chunks st'|f]; [| |exact HR].
  - destruct HR as [_ HR]. exact HR.
  - destruct HR as (HF & k' & d' & rest' & _ & Hu). split.
    + intros out Hout. rewrite (Hu true) in Hout. destruct (unrle true d' k' rest') as [o|e]; [|discriminate].
      cbn [rbind] in Hout. injection Hout as <-. eauto.
    + clear -HF. induction HF as [|c b cs bs Hc HF IH]; [reflexivity|].
      cbn [concat total fold_right]. rewrite app_length. fold (total bs). lia.
Qed.

Theorem emit_finishes col idx rand sizes out : block_ok col idx -> sizes_ok sizes -> sizes <> [] ->
  unrle false 256 0 (block_of col idx rand) = Ok out -> N.of_nat (length out) <= total sizes ->
  exists status chunks st', decode_emit col idx rand sizes = RFinished status chunks st'.
Proof.
  intros H Hs Hne Hout Hlen. destruct (decode_inv col idx rand 0 H) as (tt' & ft' & st & HD & _ & _ & _ & _ & _ & _ & HI).
  rewrite (decode_emit_unfold _ _ _ _ _ _ _ HD).
  eapply emit_run_terminates; eauto.
Qed.

(* C09, codec level: the result does not depend on the buffer sizes *)
Theorem emit_buffer_independent col idx rand s1 s2 r1 c1 e1 r2 c2 e2 :
  block_ok col idx -> sizes_ok s1 -> sizes_ok s2 ->
  decode_emit col idx rand s1 = RFinished r1 c1 e1 ->
  decode_emit col idx rand s2 = RFinished r2 c2 e2 ->
  r1 = r2 /\ concat c1 = concat c2 /\ (r1 = E_OK -> ds_crc e1 = ds_crc e2).
Proof.
  intros H H1 H2 E1 E2.
  pose proof (emit_chunking col idx rand s1 H H1) as A. rewrite E1 in A.
  pose proof (emit_chunking col idx rand s2 H H2) as B. rewrite E2 in B.
  destruct A as [(-> & A1 & A2)|(-> & A1 & A2)], B as [(-> & B1 & B2)|(-> & B1 & B2)];
    try (rewrite A1 in B1; discriminate).
  - rewrite A1 in B1. injection B1 as B1. split; [reflexivity|]. split; [exact B1|].
    intros _. rewrite A2, B2, B1. reflexivity.
  - rewrite A2 in B2. injection B2 as B2. split; [reflexivity|]. split; [exact B2|]. discriminate.
Qed.

(* the hypotheses are satisfiable; concrete runs *)
Definition ex_col : list N := [98; 97; 97; 97; 97; 100; 98; 98; 98; 99; 2; 99; 98; 0].

Example ex_block_ok : block_ok ex_col 5.
Proof.
  unfold block_ok. split; [repeat (constructor; [reflexivity|]); constructor|].
  split; [split; cbv; discriminate|reflexivity].
Qed.

Example ex_sizes_ok : sizes_ok [1; 1; 1; 1; 1; 1; 1; 1; 1; 1; 1; 1; 1; 1; 1].
Proof. repeat (constructor; [split; cbv; [discriminate|reflexivity]|]). constructor. Qed.

(* decode() on the example block, evaluated once for the runs below *)
Lemma ex_decoded : exists ft,
  decode_model ex_col (ftab_of ex_col) (N.of_nat (length ex_col)) 5 false 0 =
  Good ([3426; 2657; 353; 609; 865; 1124; 98; 1634; 1890; 2147; 3074; 2403; 2914; 1280], ft, mkE 0 M1 1124 14 0 0 0).
Proof. eexists. vm_compute. reflexivity. Qed.

(* one byte per call: the emitter is suspended in states 1, 2, 3, 4 and 5 *)
Example ex_run_states :
  match decode_emit ex_col 5 false [1; 1; 1; 1; 1; 1; 1; 1; 1; 1; 1; 1; 1; 1; 1] with
  | RFinished status chunks st =>
      status = E_OK /\ concat chunks = [97; 97; 97; 97; 97; 97; 98; 99; 99; 98; 98; 98; 98; 100] /\
      ds_crc st = 0x0e1d2055
  | _ => False
  end.
Proof. destruct ex_decoded as [ft E]. unfold decode_emit. rewrite E. vm_compute. repeat split. Qed.

Example ex_saved_states :
  map (fun k => match decode_emit ex_col 5 false (repeat 1 k) with
                | RPending _ st => rle_state st | _ => 99 end) [1%nat; 2%nat; 3%nat; 4%nat; 5%nat; 6%nat]
  = [1; 2; 3; 4; 4; 5].
Proof. destruct ex_decoded as [ft E]. unfold decode_emit. rewrite E. vm_compute. reflexivity. Qed.

(* a block ending right after four equal bytes *)
Example ex_runlen :
  match decode_emit [5; 5; 5; 5] 0 false [3; 3] with
  | RFinished status chunks _ => status = E_ERR_RUNLEN /\ chunks = [[5; 5; 5]; [5]]
  | _ => False
  end.
Proof. vm_compute. split; reflexivity. Qed.

(* a randomised block longer than RAND_THRESH: model = abstract decoder *)
Definition ex_long : list N := map (fun i => N.of_nat ((i * 7 + i / 5) mod 6)) (seq 0 700).
Example ex_rand :
  match decode_emit ex_long 123 true [100; 7; 1000; 4000; 4000; 4000; 4000; 4000; 4000] with
  | RFinished status chunks _ =>
      abstract_block ex_long 123 true = (if status =? E_OK then Ok (concat chunks) else Err ErrRunlen) /\
      derand (ibwt ex_long 123) <> ibwt ex_long 123
  | _ => False
  end.
Proof.
  assert (Hl : length ex_long = 700%nat) by (unfold ex_long; rewrite map_length; apply seq_length).
  assert (Hb : block_ok ex_long 123).
  { split; [|rewrite Hl; lia]. apply Forall_forall. intros x Hx.
    apply in_map_iff in Hx as (i & <- & _). pose proof (Nat.mod_upper_bound (i * 7 + i / 5) 6). lia. }
  assert (Hs : sizes_ok [100; 7; 1000; 4000; 4000; 4000; 4000; 4000; 4000]) by (repeat constructor; discriminate).
  (* the one evaluation: the abstract output fits into the buffers, so the run finishes
     (on the column computed in N: the unary arithmetic of [ex_long] is what costs) *)
  assert (EL : map (fun i => (N.of_nat i * 7 + N.of_nat i / 5) mod 6) (seq 0 700) = ex_long).
  { apply map_ext. intro i. rewrite Nat2N.inj_mod, Nat2N.inj_add, Nat2N.inj_mul, Nat2N.inj_div. reflexivity. }
  assert (Hfit : match unrle false 256 0 (block_of (map (fun i => (N.of_nat i * 7 + N.of_nat i / 5) mod 6) (seq 0 700)) 123 true) with
                 | Ok out => N.of_nat (length out) <=? 25107 | Err _ => false end = true) by (vm_compute; reflexivity).
  rewrite EL in Hfit.
  destruct (unrle_false_ok (block_of ex_long 123 true) 256 0) as [out Eout]. rewrite Eout in Hfit.
  destruct (emit_finishes ex_long 123 true _ out Hb Hs ltac:(discriminate) Eout ltac:(apply N.leb_le, Hfit))
    as (status & chunks & st' & E).
  pose proof (emit_chunking ex_long 123 true _ Hb Hs) as C. rewrite E in *. split.
  - destruct C as [(-> & C & _)|(-> & C & _)]; exact C.
  - apply derand_neq. rewrite ibwt_out, map_length, seq_length, Hl. reflexivity.
Qed.

(* the precondition on buffer sizes: *buf_sz is a size_t but m is a uint32_t; a buffer size
   that is a multiple of 2^32 makes emit() return MORE without writing anything *)
Example ex_bufsize_2p32 :
  match decode_model ex_col (ftab_of ex_col) 14 5 false 0 with
  | Good (tt', _, st) =>
      match emit_model tt' st 4294967296 with
      | Good (status, out, _, bleft) => status = E_MORE /\ out = [] /\ bleft = 0
      | Bad _ => False
      end
  | Bad _ => False
  end.
Proof. destruct ex_decoded as [ft E]. change 14 with (N.of_nat (length ex_col)). rewrite E. vm_compute. repeat split. Qed.

Print Assumptions decode_safe.
Print Assumptions emit_safe.
Print Assumptions emit_chunking.
Print Assumptions emit_finishes.
Print Assumptions emit_buffer_independent.
