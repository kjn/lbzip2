(* make_tree() of Safe/TreeModel.v, phase by phase: every phase runs without an undefined event
   and leaves the arrays in a state described in terms of the canonical-code quantities
   cnt / W / IDX / sorted_syms of Dec/Format.v and Enc/HuffProofs.v. *)
From Coq Require Import List NArith Arith Bool Lia ZifyBool ZifyNat ZifyN.
From LBZ Require Import Dec.Format Enc.HuffProofs Gen.Consts Gen.DecTabs Safe.TreeModel Safe.TreeLemmas.
Import ListNotations.
Local Open Scope N_scope.

Lemma const_MAXLEN : MAX_CODE_LENGTH = 20. Proof. reflexivity. Qed.
Lemma const_MINLEN : MIN_CODE_LENGTH = 1. Proof. reflexivity. Qed.
Lemma const_HSW : HUFF_START_WIDTH = 10. Proof. reflexivity. Qed.
Lemma const_ALPHA : MAX_ALPHA_SIZE = 258. Proof. reflexivity. Qed.

Definition BASE (lens : list N) (j : nat) : N := N.min (WS 64 lens (j - 1)) UINT64_MAX.

Lemma tree_wf_lengths T : tree_wf T ->
  length (t_start T) = 1024%nat /\ length (t_base T) = 22%nat /\ length (t_count T) = 21%nat /\ length (t_perm T) = 258%nat.
Proof.
  intros [A [B [C D]]].
  change START_SIZE with 1024 in A. change BASE_SIZE with 22 in B. change COUNT_SIZE with 21 in C.
  change PERM_SIZE with 258 in D. lia.
Qed.

Section Canon.
Variable lens : list N.

Lemma IDX_pred k : (1 <= k)%nat -> IDX lens k = IDX lens (k - 1) + cnt lens k.
Proof. intro Hk. replace k with (S (k - 1)) at 1 3 by lia. apply IDX_S. Qed.

(* the value of a complete entry: (perm[IDX(k-1) + r] << 5) | k *)
Definition XE (P : list N) (k : nat) (r : N) : N := nth (N.to_nat (IDX lens (k - 1) + r)) P 0 * 32 + N.of_nat k.

(* the first index of start[] whose top k bits are the r-th code of length k *)
Definition lut_lo (k : nat) (r : N) : N := WS 10 lens (k - 1) + r * 2 ^ (10 - N.of_nat k).

Lemma lut_lo_S k r : lut_lo k (r + 1) = lut_lo k r + 2 ^ (10 - N.of_nat k).
Proof. unfold lut_lo. lia. Qed.

Lemma lut_lo_cnt k : (1 <= k <= 10)%nat -> lut_lo k (cnt lens k) = WS 10 lens k.
Proof.
  intro Hk. unfold lut_lo. replace k with (S (k - 1)) at 2 3 4 by lia. rewrite WS_S by lia. reflexivity.
Qed.

Lemma lut_lo_le k r : (1 <= k <= 10)%nat -> r <= cnt lens k -> lut_lo k r <= WS 10 lens k.
Proof.
  intros Hk Hr. rewrite <- lut_lo_cnt by exact Hk. apply N.add_le_mono_l, N.mul_le_mono_r, Hr.
Qed.

(* what make_tree() stores in start[c]: the complete entry of the code of at most 10 bits that c starts
   with, or a length k0 > 10 from which the walk over base[] may start *)
Definition start_rel (P : list N) (c x : N) : Prop :=
  (exists k r, (1 <= k <= 10)%nat /\ r < cnt lens k /\ lut_lo k r <= c < lut_lo k (r + 1) /\ x = XE P k r) \/
  (WS 10 lens 10 <= c /\ exists k0, x = N.of_nat k0 /\ (11 <= k0 <= 20)%nat /\ WS 64 lens (k0 - 1) <= c * 2 ^ 54).

Definition start_upto (P S : list N) (code : N) : Prop :=
  length S = 1024%nat /\ forall c, c < code -> start_rel P c (nth (N.to_nat c) S 0).

Lemma start_upto_snoc P S code x : start_upto P S code -> code < 1024 -> start_rel P code x ->
  start_upto P (upd (N.to_nat code) x S) (code + 1).
Proof.
  intros [HL HS] Hc Hx. split; [rewrite upd_length; exact HL|]. intros c Hlt.
  destruct (N.eq_dec c code) as [->|Hne]; [rewrite nth_upd_same by lia; exact Hx|].
  rewrite nth_upd_other by lia. apply HS. lia.
Qed.

Hypothesis Hfull : W lens 20 = 2 ^ 20.

Lemma LJ_20 : WS 64 lens 20 = W64.
Proof. unfold WS. rewrite Hfull. reflexivity. Qed.

Lemma LJ_le j : (j <= 20)%nat -> WS 64 lens j <= W64.
Proof. intro H. rewrite <- LJ_20. apply WS_mono; [exact H|cbn; lia]. Qed.

(* assert 2 of make_tree(): the next left-justified code is 0 (the code space is full) or not below the last *)
Lemma base_next i : (i < 20)%nat ->
  (WS 64 lens (S i) mod W64 =? 0) || (WS 64 lens i mod W64 <=? WS 64 lens (S i) mod W64) = true.
Proof.
  intro Hi. pose proof (LJ_le (S i) ltac:(lia)) as LE. pose proof (WS_mono 64 lens i (S i) ltac:(lia) ltac:(lia)) as MO.
  apply orb_true_iff. destruct (N.eq_dec (WS 64 lens (S i)) W64) as [Eq|Ne].
  - left. rewrite Eq, N.mod_same by lia. reflexivity.
  - right. apply N.leb_le. rewrite !N.mod_small by lia. exact MO.
Qed.

Lemma BASE_21 : BASE lens 21 = UINT64_MAX.
Proof. unfold BASE. change (21 - 1)%nat with 20%nat. rewrite LJ_20. reflexivity. Qed.

(* B holds base[1..21] of the canonical code *)
Definition base_ok (B : list N) : Prop :=
  length B = 22%nat /\ forall j, (1 <= j <= 21)%nat -> nth j B 0 = BASE lens j.

(* below the sentinel value, comparing with base[j] is comparing with the first code of length j *)
Lemma BASE_le j x : x < UINT64_MAX -> (BASE lens j <= x <-> WS 64 lens (j - 1) <= x).
Proof. unfold BASE. lia. Qed.

(* the canonical walk  while (x >= B[k + 1]) k++  stops at the length k whose code interval holds x *)
Lemma walk_spec B x k0 : base_ok B -> (1 <= k0 <= 20)%nat -> x < UINT64_MAX -> WS 64 lens (k0 - 1) <= x ->
  exists k, walk B x (N.of_nat k0) = Done (N.of_nat k) /\ (k0 <= k <= 20)%nat /\
            WS 64 lens (k - 1) <= x < WS 64 lens k.
Proof.
  intros [HB HV] Hk0 Hx Hb. unfold walk.
  match goal with |- context [while ?fu ?cond ?body ?st0] =>
    destruct (while_inv
      (fun k : N => exists kk, k = N.of_nat kk /\ (k0 <= kk <= 20)%nat /\ WS 64 lens (kk - 1) <= x)
      (fun k => (21 - N.to_nat k)%nat) cond body) with (fuel := fu) (s := st0)
      as [r [E [[kk [-> [I2 I3]]] Ec]]] end.
  - intros k [kk [-> [I2 I3]]].
    rewrite add32_small by lia.
    replace (N.of_nat kk + 1) with (N.of_nat (S kk)) by lia.
    rewrite aget_nat, HV by lia. cbn [bindM].
    eexists; split; [reflexivity|]. intro Hle. apply N.leb_le in Hle.
    eexists; split; [reflexivity|]. split; [|lia].
    exists (S kk). split; [reflexivity|]. apply BASE_le in Hle; [|exact Hx].
    destruct (Nat.eq_dec kk 20) as [->|]; [|lia]. cbn [Nat.sub] in Hle. rewrite LJ_20 in Hle.
    lia.
  - exists k0. split; [reflexivity|]. split; [lia|exact Hb].
  - change FUEL_LEN with 23%nat. lia.
  - exists kk. split; [exact E|]. split; [exact I2|]. split; [exact I3|].
    rewrite add32_small in Ec by lia.
    replace (N.of_nat kk + 1) with (N.of_nat (S kk)) in Ec by lia.
    rewrite aget_nat, HV in Ec by lia. cbn [bindM] in Ec.
    injection Ec as Ec. apply N.leb_gt in Ec. unfold BASE in Ec. cbn [Nat.sub] in Ec. rewrite Nat.sub_0_r in Ec. lia.
Qed.

End Canon.

Section Build.
Variables lens pad : list N.
Hypothesis Hok : lens_ok lens.
Hypothesis Hn3 : (3 <= length lens)%nat.
Hypothesis Hpad : (length lens + length pad = 258)%nat.
Let n := N.of_nat (length lens).
Let L := lens ++ pad.

Lemma L_get s : (s < length lens)%nat -> aget ALen L (N.of_nat s) = Done (nth s lens 0).
Proof.
  intro H. unfold L. rewrite aget_nat by (rewrite app_length; lia). rewrite app_nth1 by exact H. reflexivity.
Qed.

Lemma n_bounds : 3 <= n <= 258.
Proof. unfold n. lia. Qed.

Lemma ph_zero_spec C : length C = 21%nat ->
  ok (ph_zero C) (fun C' => length C' = 21%nat /\ forall j, (j < 21)%nat -> nth j C' 0 = 0).
Proof.
  intro HC. unfold ph_zero. change (N.to_nat MAX_CODE_LENGTH + 1)%nat with 21%nat.
  apply (for_range_inv _ _ (fun i C => length C = 21%nat /\ forall j, (j < i)%nat -> nth j C 0 = 0)).
  - split; [exact HC|]. intros; lia.
  - intros i C1 Hi [HL HZ]. cbn [Nat.add]. rewrite aset_nat by lia. apply ok_ret.
    split; [rewrite upd_length; exact HL|].
    intros j Hj. destruct (Nat.eq_dec j i) as [->|Hne]; [apply nth_upd_same; lia|].
    rewrite nth_upd_other by exact Hne. apply HZ; lia.
Qed.

Lemma ph_count_spec C : length C = 21%nat -> (forall j, (j < 21)%nat -> nth j C 0 = 0) ->
  ok (ph_count n L C) (fun C' => length C' = 21%nat /\ forall j, (j < 21)%nat -> nth j C' 0 = cnt lens j).
Proof.
  intros HC HZ. unfold ph_count, n. rewrite Nat2N.id. eapply ok_weaken.
  - apply (for_range_inv _ _ (fun i C => length C = 21%nat /\
             forall j, (j < 21)%nat -> nth j C 0 = count_len (firstn i lens) (N.of_nat j))); [auto|].
    intros i C1 Hi [HL HS]. cbn [Nat.add]. rewrite L_get by lia. cbn [bindM].
    pose proof (lens_ok_nth lens i Hok ltac:(lia)) as Hl. set (l := nth i lens 0) in *.
    rewrite aget_ok by lia. cbn [bindM]. rewrite aset_ok by lia. apply ok_ret.
    split; [rewrite upd_length; exact HL|].
    intros j Hj. rewrite count_len_firstn_S by lia. fold l.
    destruct (Nat.eq_dec j (N.to_nat l)) as [->|Hne].
    + rewrite nth_upd_same, HS, N2Nat.id, N.eqb_refl by lia.
      apply add32_small. pose proof (count_len_le (firstn i lens) l) as B.
      rewrite firstn_length in B. lia.
    + rewrite nth_upd_other, HS by assumption. destruct (N.eqb_spec (N.of_nat j) l); lia.
  - intros C' [HL HS]. rewrite firstn_all in HS. auto.
Qed.

Lemma ph_kraft_spec C : length C = 21%nat -> (forall j, (j < 21)%nat -> nth j C 0 = cnt lens j) ->
  ph_kraft C = Done (W lens 20).
Proof.
  intros HC HS. unfold ph_kraft.
  change (N.to_nat MIN_CODE_LENGTH) with 1%nat. change (N.to_nat MAX_CODE_LENGTH + 1 - 1)%nat with 20%nat.
  destruct (for_range_inv
    (fun k sofar => c <~ aget ACount C k ;; sh <~ shl64 c (sub32 MAX_CODE_LENGTH k) ;; Done (add64 sofar sh)) 20
    (fun i sofar => sofar = WS 20 lens i) 1 0)
    as [r [E ->]]; [symmetry; apply WS_0| |rewrite E; f_equal; apply WS20_W20].
  intros i s Hi ->. cbn [Nat.add]. rewrite aget_nat, HS by lia. cbn [bindM].
  rewrite const_MAXLEN, sub32_small, shl64_ok by lia. apply ok_ret. rewrite WS_S by lia.
  assert (B : WS 20 lens (S i) <= N.of_nat (length lens) * 2 ^ 19).
  { unfold WS. etransitivity; [apply W_ksum; lia|]. apply ksum_bound. exact Hok. }
  rewrite WS_S in B by lia.
  rewrite (N.mod_small (cnt lens (S i) * _)) by lia.
  apply add64_small. lia.
Qed.

Variable T : tree.
Hypothesis Hwf : tree_wf T.

Lemma make_tree_prefix :
  exists C, length C = 21%nat /\ (forall j, (j < 21)%nat -> nth j C 0 = cnt lens j) /\
  make_tree (N.of_nat (length lens)) (lens ++ pad) T =
    (if negb (W lens 20 =? 2 ^ 20) then
       Done (if W lens 20 <? 2 ^ 20 then VIncomplete else VPrefix, mk_tree (t_start T) (t_base T) C (t_perm T))
     else
       B <~ ph_base C (t_base T) ;;
       B <~ ph_sentinel C B ;;
       C' <~ ph_cumul (N.of_nat (length lens)) C ;;
       CP <~ ph_sort (N.of_nat (length lens)) (lens ++ pad) C' (t_perm T) ;;
       Sc <~ ph_start_lut (fst CP) (snd CP) (t_start T) ;;
       S <~ ph_start_rest B (fst Sc) (snd Sc) ;;
       C'' <~ ph_restore (fst CP) ;;
       Done (VBuilt, mk_tree S B C'' (snd CP))).
Proof.
  destruct (tree_wf_lengths T Hwf) as [_ [_ [LC _]]].
  destruct (ph_zero_spec _ LC) as [C1 [E1 [L1 Z1]]]. destruct (ph_count_spec C1 L1 Z1) as [C2 [E2 [L2 S2]]].
  exists C2. split; [exact L2|]. split; [exact S2|].
  unfold make_tree. rewrite E1. cbn [bindM]. fold n L. rewrite E2. cbn [bindM].
  rewrite aget_ok by (rewrite L2; cbn; lia). cbn [bindM]. change (N.to_nat 0) with 0%nat.
  rewrite S2 by lia. unfold cnt. rewrite (count_len_out lens (N.of_nat 0) Hok) by (cbn; lia).
  cbn [N.eqb assert bindM]. rewrite (ph_kraft_spec C2 L2 S2). cbn [bindM].
  rewrite const_MAXLEN, shl_int_ok by (cbn; lia). cbn [bindM]. rewrite N.mul_1_l. reflexivity.
Qed.

Theorem make_tree_error : W lens 20 <> 2 ^ 20 ->
  exists C, make_tree (N.of_nat (length lens)) (lens ++ pad) T =
    Done (if W lens 20 <? 2 ^ 20 then VIncomplete else VPrefix, mk_tree (t_start T) (t_base T) C (t_perm T)).
Proof.
  intro Hne. destruct make_tree_prefix as [C [_ [_ E]]]. exists C. rewrite E.
  apply N.eqb_neq in Hne. rewrite Hne. reflexivity.
Qed.

Hypothesis Hfull : W lens 20 = 2 ^ 20.

Lemma BASE_mono a b : (1 <= a <= b)%nat -> (b <= 21)%nat -> BASE lens a <= BASE lens b.
Proof using Hn3 Hpad Hfull.
  intros H1 H2. unfold BASE. apply N.min_le_compat_r. apply WS_mono; [lia|lia].
Qed.

Lemma ph_base_spec C B : length C = 21%nat -> (forall j, (j < 21)%nat -> nth j C 0 = cnt lens j) ->
  length B = 22%nat ->
  ok (ph_base C B) (fun B' => length B' = 22%nat /\
                              forall j, (1 <= j <= 20)%nat -> nth j B' 0 = WS 64 lens (j - 1) mod W64).
Proof.
  intros HC HS HB. unfold ph_base.
  change (N.to_nat MIN_CODE_LENGTH) with 1%nat. change (N.to_nat MAX_CODE_LENGTH + 1 - 1)%nat with 20%nat.
  apply ok_bind. eapply ok_weaken.
  - apply (for_range_inv _ _ (fun i (st : list N * N) => length (fst st) = 22%nat /\ snd st = WS 64 lens i mod W64 /\
             forall j, (1 <= j <= i)%nat -> nth j (fst st) 0 = WS 64 lens (j - 1) mod W64)).
    + cbn [fst snd]. split; [exact HB|]. split; [rewrite WS_0; reflexivity|]. intros; lia.
    + intros i [B1 sofar] Hi [I1 [I2 I3]]. cbn [fst snd Nat.add] in *.
      rewrite aget_nat, HS by lia. cbn [bindM].
      rewrite sub32_small, shl64_ok by lia. cbn [bindM].
      assert (NX : add64 sofar ((cnt lens (S i) * 2 ^ (64 - N.of_nat (S i))) mod W64) = WS 64 lens (S i) mod W64).
      { unfold add64. rewrite I2, <- N.add_mod by lia.
        rewrite <- WS_S by lia. reflexivity. }
      rewrite NX. subst sofar. rewrite (base_next lens Hfull i Hi).
      cbn [assert bindM]. rewrite aset_nat by lia. apply ok_ret. cbn [fst snd].
      split; [rewrite upd_length; exact I1|]. split; [reflexivity|].
      intros j Hj. destruct (Nat.eq_dec j (S i)) as [->|Hne].
      * rewrite nth_upd_same by lia. cbn [Nat.sub]. rewrite Nat.sub_0_r. reflexivity.
      * rewrite nth_upd_other by exact Hne. apply I3. lia.
  - intros r [I1 [I2 I3]]. rewrite I2, (LJ_20 lens Hfull), N.mod_same by lia.
    cbn [N.eqb assert bindM]. apply ok_ret. auto.
Qed.

(* the sentinel loop, before (d = 1) and after (d = 0) the decrement of k: the left-justified code space
   is full below length k, base[] above k holds the sentinel, at and below k it is untouched *)
Definition sent_inv (d : nat) (st : list N * N) : Prop :=
  exists kk, snd st = N.of_nat kk /\ (1 + d <= kk <= 20 + d)%nat /\ length (fst st) = 22%nat /\
    WS 64 lens (kk - d) = W64 /\
    (forall j, (kk < j <= 21)%nat -> nth j (fst st) 0 = UINT64_MAX) /\
    (forall j, (1 <= j <= kk)%nat -> (j <= 20)%nat -> nth j (fst st) 0 = WS 64 lens (j - 1) mod W64).

Lemma ph_sentinel_spec C B : length C = 21%nat -> (forall j, (j < 21)%nat -> nth j C 0 = cnt lens j) ->
  length B = 22%nat -> (forall j, (1 <= j <= 20)%nat -> nth j B 0 = WS 64 lens (j - 1) mod W64) ->
  ok (ph_sentinel C B) (fun B' => length B' = 22%nat /\ forall j, (1 <= j <= 21)%nat -> nth j B' 0 = BASE lens j).
Proof.
  intros HC HS HB HV. unfold ph_sentinel. apply ok_bind. eapply ok_weaken.
  - apply (do_while_inv (sent_inv 1) (sent_inv 0) (fun st => N.to_nat (snd st))).
    + intros [B1 k] [kk [K1 [K2 [K3 [K4 [K5 K6]]]]]]. cbn [fst snd] in *. subst k.
      rewrite const_MINLEN, const_MAXLEN.
      replace (1 <? N.of_nat kk) with true by lia. cbn [assert bindM].
      replace (if 20 <? N.of_nat kk then Done true else _) with (Done (A := bool) true).
      2:{ destruct (N.ltb_spec 20 (N.of_nat kk)) as [Hlt|Hge]; [reflexivity|].
          rewrite aget_nat, K6, K4, N.mod_same by lia. reflexivity. }
      cbn [assert bindM]. rewrite aset_nat by lia. cbn [bindM].
      rewrite sub32_small by lia. eexists; split; [reflexivity|]. cbn [fst snd].
      replace (N.of_nat kk - 1) with (N.of_nat (kk - 1)) by lia.
      assert (J : sent_inv 0 (upd kk UINT64_MAX B1, N.of_nat (kk - 1))).
      { exists (kk - 1)%nat. cbn [fst snd]. rewrite Nat.sub_0_r, upd_length.
        split; [reflexivity|]. split; [lia|]. split; [exact K3|]. split; [exact K4|]. split.
        - intros j Hj. destruct (Nat.eq_dec j kk) as [->|Hne]; [apply nth_upd_same; lia|].
          rewrite nth_upd_other by exact Hne. apply K5. lia.
        - intros j Hj Hj'. rewrite nth_upd_other by lia. apply K6; lia. }
      split; [exact J|]. rewrite aget_nat, HS by lia. cbn [bindM].
      eexists; split; [reflexivity|]. intro Hz. apply N.eqb_eq in Hz. split; [|cbn [snd]; lia].
      destruct J as [k' [J1 [J2 [J3 [J4 [J5 J6]]]]]]. cbn [fst snd] in *.
      assert (k' = (kk - 1)%nat) by lia. subst k'. rewrite Nat.sub_0_r in J4.
      destruct (kk - 1)%nat as [|m] eqn:Ek; [lia|]. rewrite WS_S, Hz, N.mul_0_l, N.add_0_r in J4 by lia.
      exists (S m). cbn [Nat.sub]. rewrite Nat.sub_0_r.
      destruct m as [|m]; [rewrite WS_0 in J4; discriminate|].
      split; [reflexivity|]. split; [lia|]. auto.
    + exists 21%nat. cbn [fst snd]. rewrite const_MAXLEN. split; [reflexivity|]. split; [lia|]. split; [exact HB|].
      split; [exact (LJ_20 lens Hfull)|]. split; [intros; lia|]. intros j Hj Hj'. apply HV. lia.
    + cbn [snd]. rewrite const_MAXLEN. unfold FUEL_LEN. cbn. lia.
  - intros [B1 k] [[kk [K1 [K2 [K3 [K4 [K5 K6]]]]]] Ec]. cbn [fst snd] in *. subst k. rewrite Nat.sub_0_r in K4.
    rewrite aget_nat, HS in Ec by lia. cbn [bindM] in Ec.
    assert (ST : WS 64 lens (kk - 1) < W64).
    { rewrite <- K4. replace kk with (S (kk - 1)) at 2 by lia. apply WS_strict; [lia|].
      replace (S (kk - 1)) with kk by lia. intro Z. rewrite Z in Ec. discriminate. }
    apply ok_ret. split; [exact K3|]. intros j Hj. unfold BASE. destruct (le_lt_dec j kk) as [Hle|Hgt].
    + pose proof (WS_mono 64 lens (j - 1) (kk - 1) ltac:(lia) ltac:(lia)) as MO.
      rewrite K6, N.mod_small, N.min_l by lia. reflexivity.
    + pose proof (WS_mono 64 lens kk (j - 1) ltac:(lia) ltac:(lia)) as MO.
      rewrite K5, N.min_r by lia. reflexivity.
Qed.

Lemma ph_cumul_spec C : length C = 21%nat -> (forall j, (j < 21)%nat -> nth j C 0 = cnt lens j) ->
  ok (ph_cumul n C) (fun C' => length C' = 21%nat /\ nth 0 C' 0 = 0 /\
                               forall j, (1 <= j <= 20)%nat -> nth j C' 0 = IDX lens (j - 1)).
Proof.
  intros HC HS. unfold ph_cumul.
  change (N.to_nat MIN_CODE_LENGTH) with 1%nat. change (N.to_nat MAX_CODE_LENGTH + 1 - 1)%nat with 20%nat.
  apply ok_bind. eapply ok_weaken.
  - apply (for_range_inv _ _ (fun i (st : list N * N) => length (fst st) = 21%nat /\ snd st = IDX lens i /\
             nth 0 (fst st) 0 = 0 /\
             (forall j, (1 <= j <= i)%nat -> nth j (fst st) 0 = IDX lens (j - 1)) /\
             (forall j, (i < j <= 20)%nat -> nth j (fst st) 0 = cnt lens j))).
    + cbn [fst snd]. split; [exact HC|]. split; [reflexivity|]. split.
      * rewrite HS by lia. apply count_len_out; [exact Hok|cbn; lia].
      * split; [intros; lia|]. intros j Hj. apply HS. lia.
    + intros i [C1 cum] Hi [I1 [I2 [I3 [I4 I5]]]]. cbn [fst snd Nat.add] in *.
      rewrite aget_nat by lia. cbn [bindM]. rewrite aset_nat by lia. apply ok_ret. cbn [fst snd].
      split; [rewrite upd_length; exact I1|]. split.
      { rewrite I5 by lia. subst cum. rewrite IDX_S. apply add32_small.
        pose proof (IDX_le_len lens (S i) Hok ltac:(lia)) as B. rewrite IDX_S in B. lia. }
      split; [rewrite nth_upd_other by lia; exact I3|]. split.
      * intros j Hj. destruct (Nat.eq_dec j (S i)) as [->|Hne].
        -- rewrite nth_upd_same by lia. subst cum. f_equal. lia.
        -- rewrite nth_upd_other by exact Hne. apply I4. lia.
      * intros j Hj. rewrite nth_upd_other by lia. apply I5. lia.
  - intros r [I1 [I2 [I3 [I4 I5]]]]. rewrite I2, IDX_20 by exact Hok. fold n. rewrite N.eqb_refl.
    cbn [assert bindM]. apply ok_ret. auto.
Qed.

Definition SI (s : nat) (st : list N * list N) : Prop :=
  length (fst st) = 21%nat /\ length (snd st) = 258%nat /\ nth 0 (fst st) 0 = 0 /\
  (forall j, (1 <= j <= 20)%nat -> nth j (fst st) 0 = IDX lens (j - 1) + count_len (firstn s lens) (N.of_nat j)) /\
  (forall s', (s' < s)%nat -> nth (N.to_nat (pos lens s')) (snd st) 0 = isym n (N.of_nat s')).

Lemma sort_put_step s val st : SI s st -> (s < length lens)%nat -> val mod W16 = isym n (N.of_nat s) ->
  ok (sort_put L (N.of_nat s) val st) (SI (S s)).
Proof.
  intros [S1 [S2 [S3 [S4 S5]]]] Hs Hv. destruct st as [C P]. cbn [fst snd] in *.
  unfold sort_put. cbn [fst snd]. rewrite L_get by exact Hs. cbn [bindM].
  pose proof (lens_ok_nth lens s Hok Hs) as Hl. set (l := nth s lens 0) in *.
  rewrite aget_ok by lia. cbn [bindM].
  assert (Ec : nth (N.to_nat l) C 0 = pos lens s).
  { rewrite S4 by lia. unfold pos. fold l. rewrite N2Nat.id. reflexivity. }
  rewrite Ec.
  pose proof (pos_lt lens s Hok Hs) as PL. fold l in PL.
  pose proof (IDX_le_len lens (N.to_nat l) Hok ltac:(lia)) as IL.
  rewrite aset_ok by lia. cbn [bindM]. rewrite aset_ok by lia. apply ok_ret. unfold SI. cbn [fst snd].
  split; [rewrite upd_length; exact S1|]. split; [rewrite upd_length; exact S2|].
  split; [rewrite nth_upd_other by lia; exact S3|]. split.
  - intros j Hj. rewrite count_len_firstn_S by exact Hs. fold l.
    destruct (Nat.eq_dec j (N.to_nat l)) as [->|Hne].
    + rewrite nth_upd_same by lia. rewrite N2Nat.id, N.eqb_refl.
      rewrite add32_small by lia. unfold pos. fold l. lia.
    + rewrite nth_upd_other by exact Hne. rewrite S4 by exact Hj.
      destruct (N.eqb_spec (N.of_nat j) l); lia.
  - intros s' Hs'. destruct (Nat.eq_dec s' s) as [->|Hne].
    + rewrite nth_upd_same by lia. exact Hv.
    + rewrite nth_upd_other; [apply S5; lia|].
      intro E. apply Hne. apply (pos_inj lens s' s Hok); [lia|exact Hs|lia].
Qed.

Definition perm_ok (P : list N) : Prop :=
  forall k r, (1 <= k <= 20)%nat -> r < cnt lens k ->
  exists a, a < n /\ nth (N.to_nat (IDX lens (k - 1) + r)) (sorted_syms lens) 0 = a /\
            nth (N.to_nat (IDX lens (k - 1) + r)) P 0 = isym n a.

Lemma isym_mid a : 2 <= a < n - 1 -> isym n a = a - 1.
Proof.
  intro H. unfold isym. destruct (N.eqb_spec a 0), (N.eqb_spec a 1), (N.eqb_spec a (n - 1)); lia || reflexivity.
Qed.

Lemma isym_last : isym n (n - 1) = EOB.
Proof.
  pose proof n_bounds. unfold isym. rewrite N.eqb_refl.
  destruct (N.eqb_spec (n - 1) 0), (N.eqb_spec (n - 1) 1); lia || reflexivity.
Qed.

Lemma ph_sort_spec C P : length C = 21%nat -> nth 0 C 0 = 0 ->
  (forall j, (1 <= j <= 20)%nat -> nth j C 0 = IDX lens (j - 1)) -> length P = 258%nat ->
  ok (ph_sort n L C P) (fun CP => length (fst CP) = 21%nat /\ length (snd CP) = 258%nat /\
     (forall j, (j <= 20)%nat -> nth j (fst CP) 0 = IDX lens j) /\ perm_ok (snd CP)).
Proof.
  intros HC H0 HI HP. pose proof n_bounds as NB. unfold ph_sort.
  assert (I0 : SI 0 (C, P)).
  { unfold SI. cbn [fst snd firstn]. repeat split; auto; [|intros; lia].
    intros j Hj. rewrite HI by exact Hj. unfold count_len. cbn. lia. }
  apply ok_bind, (ok_weaken _ _ _ (sort_put_step 0 RUN_A _ I0 ltac:(lia) eq_refl)). intros st1 I1.
  apply ok_bind, (ok_weaken _ _ _ (sort_put_step 1 RUN_B _ I1 ltac:(lia) eq_refl)). intros st2 I2.
  rewrite sub32_small by lia.
  replace (N.to_nat (n - 1) - 2)%nat with (length lens - 3)%nat by (unfold n; lia).
  apply ok_bind. eapply ok_weaken.
  { apply (for_range_inv _ _ (fun i => SI (2 + i))); [exact I2|]. intros i st Hi HS.
    apply sort_put_step; [exact HS|lia|].
    rewrite sub32_small, N.mod_small, isym_mid by (unfold n; lia). reflexivity. }
  intros st3 I3. replace (2 + (length lens - 3))%nat with (length lens - 1)%nat in I3 by lia.
  replace (n - 1) with (N.of_nat (length lens - 1)) by (unfold n; lia).
  eapply ok_weaken; [apply (sort_put_step _ EOB _ I3); [lia|]|].
  { replace (N.of_nat (length lens - 1)) with (n - 1) by (unfold n; lia). symmetry. apply isym_last. }
  intros [C4 P4]. replace (S (length lens - 1)) with (length lens) by lia.
  intros [S1 [S2 [S3 [S4 S5]]]]. cbn [fst snd] in *.
  split; [exact S1|]. split; [exact S2|]. split.
  - intros [|j] Hj; [exact S3|].
    rewrite S4, firstn_all, IDX_S by lia. cbn [Nat.sub]. rewrite Nat.sub_0_r. reflexivity.
  - intros k r Hk Hr. destruct (pos_onto lens k r Hok Hk Hr) as [s [Hs [Hl Hp]]].
    exists (N.of_nat s). split; [unfold n; lia|]. rewrite <- Hp. split; [apply pos_sorted; assumption|].
    apply S5. exact Hs.
Qed.

Lemma kraft_le_full : kraft lens <= kraft_full.
Proof. rewrite kraft_W20 by exact Hok. rewrite Hfull. unfold kraft_full. rewrite N.shiftl_1_l. lia. Qed.

Lemma C10_le k : (k <= 10)%nat -> WS 10 lens k <= 1024.
Proof.
  intro H. etransitivity; [apply (WS_mono 10 lens k 10); [exact H|cbn; lia]|].
  unfold WS. cbn [N.of_nat]. change (10 - 10) with 0. rewrite N.pow_0_r, N.mul_1_r.
  pose proof (W_bound lens 10 ltac:(lia) kraft_le_full) as B. cbn in B. exact B.
Qed.

Lemma fill_run_spec P S a b x : start_upto lens P S a -> a <= b <= 1024 -> (forall c, a <= c < b -> start_rel lens P c x) ->
  exists S', fill_run S a b x = Done (S', b) /\ start_upto lens P S' b.
Proof.
  intros HS Hab Hx. unfold fill_run.
  match goal with |- context [while ?fu ?cond ?body ?st0] =>
    destruct (while_inv (fun st : list N * N => a <= snd st <= b /\ start_upto lens P (fst st) (snd st))
      (fun st => N.to_nat (b - snd st)) cond body) with (fuel := fu) (s := st0) as [[S1 v] [E [[I1 I2] Ec]]] end.
  - intros [S1 v] [I1 I2]. cbn [fst snd] in *.
    eexists; split; [reflexivity|]. intro Hlt. apply N.ltb_lt in Hlt.
    rewrite aset_ok by (rewrite (proj1 I2); lia). cbn [bindM]. rewrite add64_small by lia.
    eexists; split; [reflexivity|]. cbn [fst snd]. split; [|lia].
    split; [lia|]. apply start_upto_snoc; [exact I2|lia|apply Hx; lia].
  - cbn [fst snd]. split; [lia|exact HS].
  - cbn [snd]. change FUEL_START with 1025%nat. lia.
  - cbn [fst snd] in *. injection Ec as Ec. apply N.ltb_ge in Ec.
    assert (v = b) by lia. subst v. exists S1. auto.
Qed.

Lemma perm_val P k r : perm_ok P -> (1 <= k <= 20)%nat -> r < cnt lens k ->
  nth (N.to_nat (IDX lens (k - 1) + r)) P 0 <= 258.
Proof.
  intros HP Hk Hr. destruct (HP k r Hk Hr) as [a [Ha [_ E]]]. rewrite E. apply isym_range; [apply n_bounds|exact Ha].
Qed.

Lemma start_sym_step P k rr S :
  perm_ok P -> length P = 258%nat -> (1 <= k <= 10)%nat -> rr < cnt lens k -> start_upto lens P S (lut_lo lens k rr) ->
  exists S', start_sym P (N.of_nat k) (2 ^ (10 - N.of_nat k)) (S, lut_lo lens k rr, IDX lens (k - 1) + rr) =
               Done (S', lut_lo lens k (rr + 1), IDX lens (k - 1) + rr + 1) /\
             start_upto lens P S' (lut_lo lens k (rr + 1)).
Proof.
  intros HP HPl Hk Hrr HS. unfold start_sym. cbn [fst snd].
  pose proof (IDX_le_len lens k Hok ltac:(lia)) as IL. rewrite IDX_pred in IL by lia.
  pose proof n_bounds as NB. unfold n in NB.
  rewrite aget_ok by lia. cbn [bindM].
  pose proof (perm_val P k rr HP ltac:(lia) Hrr) as PV.
  rewrite shl_int_ok by (cbn; lia). cbn [bindM].
  change (2 ^ 5) with 32. rewrite lor_shift5 by lia.
  rewrite (N.mod_small (_ + N.of_nat k)) by lia.
  pose proof (lut_lo_le lens k (rr + 1) Hk ltac:(lia)) as LE. pose proof (C10_le k ltac:(lia)) as C10.
  rewrite lut_lo_S in *.
  rewrite add64_small, N.mod_small by lia.
  destruct (fill_run_spec P S (lut_lo lens k rr) (lut_lo lens k rr + 2 ^ (10 - N.of_nat k)) (XE lens P k rr) HS ltac:(lia))
    as [S' [E U]].
  { intros c Hc. left. exists k, rr. rewrite lut_lo_S. auto. }
  unfold XE in E. rewrite E. cbn [bindM fst snd]. rewrite add32_small by lia.
  exists S'. auto.
Qed.

Lemma start_len_step C P k St :
  length C = 21%nat -> (forall j, (j <= 20)%nat -> nth j C 0 = IDX lens j) ->
  perm_ok P -> length P = 258%nat -> (1 <= k <= 10)%nat -> start_upto lens P St (WS 10 lens (k - 1)) ->
  exists St', start_len C P (N.of_nat k) (St, WS 10 lens (k - 1), 2 ^ 10 / 2 ^ N.of_nat k) =
                Done (St', WS 10 lens k, 2 ^ 10 / 2 ^ N.of_nat (S k)) /\ start_upto lens P St' (WS 10 lens k).
Proof.
  intros HC HI HP HPl Hk HS. unfold start_len. cbn [fst snd].
  rewrite sub32_small by lia.
  replace (N.of_nat k - 1) with (N.of_nat (k - 1)) by lia.
  rewrite aget_nat, HI by lia. cbn [bindM].
  rewrite <- N.pow_sub_r by (discriminate || lia).
  match goal with |- context [while ?fu ?cond ?body ?st0] =>
    destruct (while_inv
      (fun st : list N * N * N => exists rr, rr <= cnt lens k /\ snd st = IDX lens (k - 1) + rr /\
         snd (fst st) = lut_lo lens k rr /\ start_upto lens P (fst (fst st)) (lut_lo lens k rr))
      (fun st => N.to_nat (IDX lens k - snd st)) cond body) with (fuel := fu) (s := st0)
      as [[[S1 code1] s1] [E [[rr [I1 [I2 [I3 I4]]]] Ec]]] end.
  - intros [[S1 code1] s1] [rr [I1 [I2 [I3 I4]]]]. cbn [fst snd] in *. subst code1 s1.
    rewrite aget_nat, HI, IDX_pred by lia. cbn [bindM].
    eexists; split; [reflexivity|]. intro Hlt. apply N.ltb_lt in Hlt.
    destruct (start_sym_step P k rr S1 HP HPl Hk ltac:(lia) I4) as [S2 [E2 U2]].
    rewrite E2. eexists; split; [reflexivity|]. cbn [fst snd]. split; [|lia].
    exists (rr + 1). split; [lia|]. split; [lia|]. auto.
  - exists 0. cbn [fst snd]. unfold lut_lo. rewrite N.mul_0_l, !N.add_0_r. split; [lia|]. auto.
  - cbn [snd]. change FUEL_ALPHA with 259%nat.
    pose proof (IDX_le_len lens k Hok ltac:(lia)). pose proof n_bounds as NB. unfold n in NB. lia.
  - cbn [fst snd] in *. subst code1 s1.
    rewrite aget_nat, HI, IDX_pred in Ec by lia. cbn [bindM] in Ec.
    injection Ec as Ec. apply N.ltb_ge in Ec. assert (rr = cnt lens k) by lia. subst rr.
    rewrite lut_lo_cnt in * by exact Hk.
    rewrite E. cbn [bindM fst snd]. rewrite shr64_ok by lia. cbn [bindM].
    rewrite N.pow_sub_r, N.div_div, <- N.pow_add_r by (try apply N.pow_nonzero; discriminate || lia).
    replace (N.of_nat k + 1) with (N.of_nat (S k)) by lia. exists S1. auto.
Qed.

Lemma ph_start_lut_spec C P St :
  length C = 21%nat -> (forall j, (j <= 20)%nat -> nth j C 0 = IDX lens j) ->
  perm_ok P -> length P = 258%nat -> length St = 1024%nat ->
  exists St', ph_start_lut C P St = Done (St', WS 10 lens 10) /\ start_upto lens P St' (WS 10 lens 10).
Proof.
  intros HC HI HP HPl HS. unfold ph_start_lut. rewrite const_HSW.
  rewrite shl_int_ok by (cbn; lia). cbn [bindM]. change (N.to_nat 10) with 10%nat.
  destruct (for_range_inv (start_len C P) 10 (fun i (st : list N * N * N) => snd (fst st) = WS 10 lens i /\
              snd st = 2 ^ 10 / 2 ^ N.of_nat (S i) /\ start_upto lens P (fst (fst st)) (WS 10 lens i)) 1
              (St, 0, 1 * 2 ^ (10 - 1))) as [[[S1 code1] inc1] [E [I1 [I2 I3]]]].
  - cbn [fst snd]. rewrite WS_0. split; [reflexivity|]. split; [reflexivity|]. split; [exact HS|]. intros; lia.
  - intros i [[S1 code1] inc1] Hi [I1 [I2 I3]]. cbn [fst snd Nat.add] in *. subst code1 inc1.
    pose proof (start_len_step C P (S i) S1 HC HI HP HPl ltac:(lia)) as X.
    cbn [Nat.sub] in X. rewrite Nat.sub_0_r in X. destruct (X I3) as [S2 [E2 U2]].
    rewrite E2. apply ok_ret. auto.
  - rewrite E. cbn [bindM fst snd] in *. subst code1. exists S1. auto.
Qed.

Lemma ph_start_rest_spec B P St :
  base_ok lens B -> start_upto lens P St (WS 10 lens 10) -> ok (ph_start_rest B St (WS 10 lens 10)) (fun St' => start_upto lens P St' 1024).
Proof.
  intros HB HS. unfold ph_start_rest. rewrite const_HSW.
  set (code0 := WS 10 lens 10) in *. pose proof (C10_le 10 ltac:(lia)) as C0. fold code0 in C0.
  rewrite sub32_small by lia. rewrite shl64_ok by lia. cbn [bindM].
  change (64 - 10) with 54. change (10 + 1) with (N.of_nat 11). apply ok_bind. eapply ok_weaken.
  - apply (while_inv
      (fun st : list N * N * N * N =>
         exists kk, snd (fst st) = N.of_nat kk /\ (11 <= kk <= 20)%nat /\
           code0 <= snd (fst (fst st)) <= 1024 /\ snd st = (snd (fst (fst st)) * 2 ^ 54) mod W64 /\
           WS 64 lens (kk - 1) <= snd (fst (fst st)) * 2 ^ 54 /\
           start_upto lens P (fst (fst (fst st))) (snd (fst (fst st))))
      (fun st => N.to_nat (1024 - snd (fst (fst st))))).
    + intros [[[S1 code1] k1] sofar1] [kk [I1 [I2 [I3 [I4 [I6 I7]]]]]]. cbn [fst snd] in *.
      rewrite shl_int_ok by (cbn; lia). cbn [bindM]. change (1 * 2 ^ 10) with 1024.
      eexists; split; [reflexivity|]. intro Hlt. apply N.ltb_lt in Hlt.
      assert (SM : code1 * 2 ^ 54 < UINT64_MAX).
      { change (2 ^ 54) with 18014398509481984. lia. }
      rewrite N.mod_small in I4 by lia.
      subst k1 sofar1.
      destruct (walk_spec lens Hfull B (code1 * 2 ^ 54) kk HB ltac:(lia) SM I6) as [k' [Ew [K1 K2]]].
      rewrite Ew. cbn [bindM].
      rewrite aset_ok by (rewrite (proj1 I7); lia). cbn [bindM].
      rewrite shl64_ok by lia. cbn [bindM].
      eexists; split; [reflexivity|]. cbn [fst snd].
      rewrite add32_small by lia.
      split; [|lia].
      exists k'. split; [reflexivity|]. split; [lia|]. split; [lia|]. split.
      { unfold add64. change (64 - 10) with 54. rewrite N.mul_1_l.
        rewrite N.add_mod_idemp_r by lia. f_equal. lia. }
      split; [lia|]. rewrite N.mod_small by lia.
      apply start_upto_snoc; [exact I7|exact Hlt|]. right. split; [lia|]. exists k'. split; [reflexivity|]. split; [lia|tauto].
    + exists 11%nat. cbn [fst snd]. split; [reflexivity|]. split; [lia|]. split; [lia|]. split; [reflexivity|].
      split; [|exact HS]. change (11 - 1)%nat with 10%nat.
      rewrite (WS_scale 10 64 lens 10) by (cbn; lia). reflexivity.
    + cbn [fst snd]. change FUEL_START with 1025%nat. lia.
  - intros [[[S1 code1] k1] sofar1] [[kk [I1 [I2 [I3 [I4 [I6 I7]]]]]] Ec]. cbn [fst snd] in *.
    rewrite shl_int_ok in Ec by (cbn; lia). cbn [bindM] in Ec. change (1 * 2 ^ 10) with 1024 in Ec.
    injection Ec as Ec. apply N.ltb_ge in Ec. assert (code1 = 1024) by lia. subst code1.
    rewrite I4. change ((1024 * 2 ^ 54) mod W64) with 0. cbn [N.eqb assert bindM]. apply ok_ret. exact I7.
Qed.

Definition count_ok (C : list N) : Prop :=
  length C = 21%nat /\ nth 0 C 0 = 0 /\ forall j, (1 <= j <= 20)%nat -> nth j C 0 = IDX lens (j - 1).

Lemma ph_restore_spec C : length C = 21%nat -> (forall j, (j <= 20)%nat -> nth j C 0 = IDX lens j) ->
  ok (ph_restore C) count_ok.
Proof.
  intros HC HI. unfold ph_restore. change (N.to_nat MAX_CODE_LENGTH) with 20%nat. apply ok_bind. eapply ok_weaken.
  - apply (for_range_down_inv _ _ _ (fun i (C1 : list N) => length C1 = 21%nat /\
             (forall j, (j <= 20 - i)%nat -> nth j C1 0 = IDX lens j) /\
             (forall j, (20 - i < j <= 20)%nat -> nth j C1 0 = IDX lens (j - 1)))).
    + split; [exact HC|]. split; [intros j Hj; apply HI; lia|]. intros; lia.
    + intros i C1 Hi [I1 [I2 I3]]. change (1 + 20 - 1 - i)%nat with (20 - i)%nat.
      rewrite sub32_small by lia.
      replace (N.of_nat (20 - i) - 1) with (N.of_nat (20 - i - 1)) by lia.
      rewrite aget_nat by lia. cbn [bindM]. rewrite aset_nat by lia. apply ok_ret.
      split; [rewrite upd_length; exact I1|]. split.
      * intros j Hj. rewrite nth_upd_other by lia. apply I2. lia.
      * intros j Hj. destruct (Nat.eq_dec j (20 - i)) as [->|Hne].
        -- rewrite nth_upd_same by lia. apply I2. lia.
        -- rewrite nth_upd_other by exact Hne. apply I3. lia.
  - intros r [I1 [I2 I3]]. rewrite aget_ok by (rewrite I1; cbn; lia). cbn [bindM]. change (N.to_nat 0) with 0%nat.
    rewrite I2 by lia. rewrite IDX_0. cbn [N.eqb assert bindM]. apply ok_ret.
    split; [exact I1|]. split; [rewrite I2 by lia; apply IDX_0|]. intros j Hj. apply I3. lia.
Qed.

(* what a successfully built tree looks like, in terms of the canonical code of [lens] *)
Definition tree_ok (T' : tree) : Prop :=
  start_upto lens (t_perm T') (t_start T') 1024 /\ base_ok lens (t_base T') /\ count_ok (t_count T') /\
  perm_ok (t_perm T') /\ length (t_perm T') = 258%nat.

Theorem make_tree_built : exists T', make_tree (N.of_nat (length lens)) (lens ++ pad) T = Done (VBuilt, T') /\ tree_ok T'.
Proof.
  destruct (tree_wf_lengths T Hwf) as [LS [LB [LC LP]]].
  destruct make_tree_prefix as [C [L2 [S2 E]]]. rewrite E. clear E.
  rewrite Hfull, N.eqb_refl. cbn [negb]. fold n L.
  destruct (ph_base_spec C _ L2 S2 LB) as [B1 [E1 [LB1 V1]]]. rewrite E1. cbn [bindM].
  destruct (ph_sentinel_spec C B1 L2 S2 LB1 V1) as [B2 [E2 BO]]. rewrite E2. cbn [bindM].
  destruct (ph_cumul_spec C L2 S2) as [C3 [E3 [L3 [Z3 V3]]]]. rewrite E3. cbn [bindM].
  destruct (ph_sort_spec C3 _ L3 Z3 V3 LP) as [[C4 P4] [E4 [L4 [LP4 [V4 PO]]]]]. rewrite E4. cbn [bindM fst snd] in *.
  destruct (ph_start_lut_spec C4 P4 _ L4 V4 PO LP4 LS) as [S5 [E5 U5]]. rewrite E5. cbn [bindM fst snd].
  destruct (ph_start_rest_spec B2 P4 S5 BO U5) as [S6 [E6 U6]]. rewrite E6. cbn [bindM].
  destruct (ph_restore_spec C4 L4 V4) as [C7 [E7 CO]]. rewrite E7. cbn [bindM].
  eexists; split; [reflexivity|]. unfold tree_ok. cbn [t_start t_base t_count t_perm]. auto.
Qed.
End Build.
