(* First half (property C08): the run-length accumulation of retrieve() and the sizes the abstract
   block reader takes from a block header.  Second half (property C09): a reader fed its input in
   chunks reads what it reads from the concatenation ([feed], [feed_chunking]).
   In the first half every quantity that the C code uses as an array index or shift count
   is bounded by the corresponding regenerated array size / type width. *)
From Coq Require Import List NArith Arith Bool Lia.
From LBZ Require Import Common.ListArr Dec.Prog Dec.Sim Dec.Format Gen.Consts Gen.DecTabs.
Import ListNotations.
Local Open Scope N_scope.

(* run-length accumulation: `if (IS_RUN(s) && run <= MAX_BLOCK_SIZE) run += RUN(s) << shift++`;
   s = 0 (RUN_A, adds 1 << shift) or 1 (RUN_B, adds 2 << shift) *)
Definition acc_run (run shift s : N) : option (N * N) :=
  if run <=? MAX_BLOCK_SIZE then Some (run + N.shiftl (s + 1) shift, shift + 1) else None.

(* invariant: run >= 2^shift - 1 (every digit so far added at least 1 << its position) *)
Definition run_inv (run shift : N) : Prop := 2 ^ shift <= run + 1.

Lemma run_inv_init : run_inv 0 0 /\ run_inv 1 0.
Proof. unfold run_inv. simpl. lia. Qed.

Lemma acc_run_safe run shift s run' shift' :
  s <= 1 -> run_inv run shift -> acc_run run shift s = Some (run', shift') ->
  shift < 32 /\ N.shiftl (s + 1) shift < 2 ^ 32 /\ run' < 2 ^ 32 /\ run_inv run' shift'.
Proof.
  unfold acc_run, run_inv. intros Hs Hinv H.
  destruct (N.leb_spec run MAX_BLOCK_SIZE) as [Hle|]; [|discriminate]. inversion H; subst; clear H.
  assert (HM : MAX_BLOCK_SIZE < 2 ^ 20) by (vm_compute; reflexivity).
  assert (Hsh : shift <= 20).
  { destruct (N.le_gt_cases shift 20) as [|Hgt]; [assumption|exfalso].
    assert (2 ^ 21 <= 2 ^ shift) by (apply N.pow_le_mono_r; lia). lia. }
  rewrite N.shiftl_mul_pow2.
  assert (P : 2 ^ shift <= 2 ^ 20) by (apply N.pow_le_mono_r; lia).
  assert (E20 : 2 ^ 20 = 1048576) by reflexivity. assert (E32 : 2 ^ 32 = 4294967296) by reflexivity.
  repeat split; try nia. rewrite N.add_1_r at 1. rewrite N.pow_succ_r'. nia.
Qed.

(* every accumulation site of retrieve() (fast path with local variables, slow resumable path) is
   guarded by `run <= limit` with limit <= MAX_BLOCK_SIZE: regenerated list, one entry per site *)
Definition run_guard_ok (g : option N) : bool :=
  match g with Some l => l <=? MAX_BLOCK_SIZE | None => false end.

Lemma run_acc_guards_ok : forallb run_guard_ok run_acc_guards = true /\ (2 <= length run_acc_guards)%nat.
Proof. split; [vm_compute; reflexivity|vm_compute; lia]. Qed.

Lemma guarded_site_safe g lim run shift s :
  In g run_acc_guards -> g = Some lim -> s <= 1 -> run_inv run shift -> run <= lim ->
  shift < 32 /\ N.shiftl (s + 1) shift < 2 ^ 32 /\ run + N.shiftl (s + 1) shift < 2 ^ 32.
Proof.
  intros Hin -> Hs Hinv Hle.
  destruct run_acc_guards_ok as [Hall _]. rewrite forallb_forall in Hall. specialize (Hall _ Hin).
  cbn [run_guard_ok] in Hall. apply N.leb_le in Hall.
  assert (A : acc_run run shift s = Some (run + N.shiftl (s + 1) shift, shift + 1)).
  { unfold acc_run. destruct (N.leb_spec run MAX_BLOCK_SIZE) as [|C]; [reflexivity|lia]. }
  destruct (acc_run_safe _ _ _ _ _ Hs Hinv A) as (B & C & D & _). auto.
Qed.

(* sizes read from the block header *)
Local Opaque seq N.mul.

Lemma read_smalls_bound big : forall n i bits used r,
  run (read_smalls big i n) bits = Ok (used, r) ->
  (length used <= 16 * n)%nat /\ Forall (fun c => c < 16 * N.of_nat (i + n)) used.
Proof.
  induction n as [|n IH]; intros i bits used r H; cbn [read_smalls] in H.
  - inversion H; subst. simpl. split; [lia|constructor].
  - destruct (testbit16 big i).
    + rewrite run_bind in H. destruct (run (take 16) bits) as [[s r1]|e]; [|discriminate].
      rewrite run_bind in H. destruct (run (read_smalls big (S i) n) r1) as [[rest r2]|e] eqn:E; [|discriminate].
      cbn [run] in H. injection H as Hu Hr. subst used r. apply IH in E as [L F]. split.
      * rewrite app_length, map_length.
        assert (length (filter (testbit16 s) (seq 0 16)) <= 16)%nat.
        { etransitivity; [apply filter_len_le|]. rewrite seq_length. lia. }
        lia.
      * apply Forall_app. split.
        -- apply Forall_forall. intros c Hc. apply in_map_iff in Hc as [j [Hj Hin]]. apply filter_In in Hin as [Hin _].
           apply in_seq in Hin. subst c. lia.
        -- eapply Forall_impl; [|exact F]. intros c Hc. simpl in Hc. lia.
    + apply IH in H as [L F]. split; [lia|]. eapply Forall_impl; [|exact F]. intros c Hc. simpl in Hc. lia.
Qed.

Local Transparent seq N.mul.

Lemma read_bitmap_bound bits used r : run read_bitmap bits = Ok (used, r) ->
  (length used <= 256)%nat /\ Forall (fun c => c < 256) used.
Proof.
  unfold read_bitmap. rewrite run_bind. destruct (run (take 16) bits) as [[big r1]|e]; [|discriminate].
  intro H. apply read_smalls_bound in H as [L F]. split; [lia|]. eapply Forall_impl; [|exact F]. intros c Hc. simpl in Hc. lia.
Qed.

Lemma repeat_prog_length {A} (p : prog A) : forall n bits l r, run (repeat_prog n p) bits = Ok (l, r) -> length l = n.
Proof.
  induction n as [|n IH]; intros bits l r H; cbn [repeat_prog] in H.
  - inversion H; reflexivity.
  - rewrite run_bind in H. destruct (run p bits) as [[x r1]|e]; [|discriminate].
    rewrite run_bind in H. destruct (run (repeat_prog n p) r1) as [[xs r2]|e] eqn:E; [|discriminate].
    cbn [run] in H. inversion H; subst. simpl. f_equal. eapply IH. exact E.
Qed.

(* what retrieve() indexes with: alpha_size <= MAX_ALPHA_SIZE (code_len[], perm[]),
   num_trees <= MAX_TREES (tree[], mtf[]), num_selectors <= MAX_SELECTORS (selector[]) *)
Theorem read_block_index_bounds pol fuel bits rb r :
  run (read_block pol fuel) bits = Ok (rb, r) ->
  (1 <= length (rb_used rb) <= 256)%nat /\ Forall (fun c => c < 256) (rb_used rb) /\
  N.of_nat (length (rb_used rb)) + 2 <= MAX_ALPHA_SIZE /\
  2 <= rb_ntrees rb <= MAX_TREES /\ length (rb_tables rb) = N.to_nat (rb_ntrees rb) /\
  1 <= rb_nsel rb <= MAX_SELECTORS.
Proof.
  unfold read_block. intro H.
  rewrite run_bind in H. destruct (run (take 1) bits) as [[rnd r1]|e]; [|discriminate].
  rewrite run_bind in H. destruct (run (take 24) r1) as [[idx r2]|e]; [|discriminate].
  rewrite run_bind in H. destruct (run read_bitmap r2) as [[used r3]|e] eqn:Eb; [|discriminate].
  apply read_bitmap_bound in Eb as [Lu Fu].
  rewrite run_bind in H. unfold guard in H at 1.
  destruct (negb (N.of_nat (length used) =? 0)) eqn:G1; cbn [run] in H; [|discriminate].
  rewrite run_bind in H. destruct (run (take 3) r3) as [[nt r4]|e] eqn:E3; [|discriminate].
  rewrite run_bind in H. unfold guard in H at 1.
  destruct ((2 <=? nt) && (nt <=? 6))%bool eqn:G2; cbn [run] in H; [|discriminate].
  rewrite run_bind in H. destruct (run (take 15) r4) as [[ns r5]|e] eqn:E15; [|discriminate].
  rewrite run_bind in H. unfold guard in H at 1.
  destruct (negb (ns =? 0)) eqn:G3; cbn [run] in H; [|discriminate].
  rewrite run_bind in H. destruct (run (repeat_prog (N.to_nat ns) (read_unary (N.to_nat nt) 0)) r5) as [[selm r6]|e]; [|discriminate].
  rewrite run_bind in H.
  destruct (run (repeat_prog (N.to_nat nt) (read_table pol fuel (length used + 2))) r6) as [[tables r7]|e] eqn:Et; [|discriminate].
  rewrite run_bind in H.
  destruct (run (read_groups pol tables (N.of_nat (length used + 2) - 1)
                 (unmtf_selectors [0; 1; 2; 3; 4; 5] (firstn (N.to_nat (sel_clamp pol)) selm))) r7) as [[mtfv r8]|e]; [|discriminate].
  cbn [run] in H. inversion H; subst; clear H. cbn [rb_used rb_ntrees rb_tables rb_nsel].
  apply negb_true_iff in G1. apply N.eqb_neq in G1. apply andb_true_iff in G2 as [G2a G2b].
  apply N.leb_le in G2a. apply N.leb_le in G2b. apply negb_true_iff in G3. apply N.eqb_neq in G3.
  apply take_lt in E15. apply repeat_prog_length in Et.
  assert (MAX_ALPHA_SIZE = 258) by reflexivity. assert (MAX_TREES = 6) by reflexivity.
  assert (MAX_SELECTORS = 32767) by reflexivity. assert (2 ^ N.of_nat 15 = 32768) by reflexivity.
  repeat split; try lia; auto.
Qed.

(* A reader program fed its input in pieces gives the same result.  This is the abstract
   content of the NEED()/SAVE()/RESTORE() suspension of retrieve(): suspending a reader when
   it runs out of bits and resuming it with more bits gives what reading the concatenation
   gives. *)
Fixpoint feed {A} (p : prog A) (bits : list bool) : prog A + result (A * list bool) :=
  match p with
  | Ret a => inr (Ok (a, bits))
  | Fail e => inr (Err e)
  | Bit k => match bits with
             | [] => inl p                       (* suspended: needs more input *)
             | b :: r => feed (k b) r
             end
  end.

Fixpoint feed_all {A} (p : prog A) (chunks : list (list bool)) : prog A + result (A * list bool) :=
  match chunks with
  | [] => inl p
  | c :: cs => match feed p c with
               | inl p' => feed_all p' cs
               | inr (Ok (a, rest)) => inr (Ok (a, rest ++ concat cs))
               | inr (Err e) => inr (Err e)
               end
  end.

Definition finish {A} (s : prog A + result (A * list bool)) : result (A * list bool) :=
  match s with
  | inr r => r
  | inl p => run p []          (* end of input while suspended *)
  end.

Lemma feed_run {A} (p : prog A) : forall bits rest,
  match feed p bits with
  | inl p' => run p (bits ++ rest) = run p' rest
  | inr (Ok (a, r)) => run p (bits ++ rest) = Ok (a, r ++ rest)
  | inr (Err e) => run p (bits ++ rest) = Err e
  end.
Proof.
  induction p as [a|k IH|e]; intros bits rest; cbn [feed].
  - reflexivity.
  - destruct bits as [|b r]; [reflexivity|]. cbn [app run]. apply IH.
  - reflexivity.
Qed.

Theorem feed_chunking {A} (p : prog A) : forall chunks,
  finish (feed_all p chunks) = run p (concat chunks).
Proof.
  intros chunks. revert p. induction chunks as [|c cs IH]; intro p; cbn [feed_all concat].
  - reflexivity.
  - pose proof (feed_run p c (concat cs)) as F. destruct (feed p c) as [p'|[[a r]|e]].
    + rewrite F. apply IH.
    + cbn [finish]. symmetry. exact F.
    + cbn [finish]. symmetry. exact F.
Qed.
