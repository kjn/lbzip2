(* C08/C09, retrieve(): the clauses [J_x] of the invariant of the statement-level model (Safe/RetrModel.v).  The relations
   [R_x] of Safe/RetrSpec.v contain them, [Inv] of Safe/RetrSafe.v is built from those, and the lemmas [ref_x] of
   Safe/RetrRefHdr.v, RetrRefSel.v, RetrRefSym.v show that they are kept by
   every pass of the machine.  Part 1: the bit buffer, the constant tables, checked array accesses. *)
From Coq Require Import List NArith Bool Lia ZifyBool ZifyNat ZifyN.
From LBZ Require Import Common.Bits Common.ListArr Gen.Consts Gen.DecTabs Safe.TreeModel Safe.TreeLemmas Safe.RetrModel
  Safe.RetrChunk.
Import ListNotations.
Local Open Scope N_scope.

Ltac rsa := cbv beta iota delta [c_v c_w c_ttp c_tt d_rand d_bwt_idx d_ftab r_selector r_num_trees r_num_selectors r_alpha_size
                       r_code_len r_mtf r_tree r_big r_small r_j r_t r_g r_slide r_runChar r_run r_shift
                       set_c_v set_c_w set_c_ttp set_c_tt set_d_rand set_d_bwt_idx set_d_ftab set_r_selector set_r_num_trees
                       set_r_num_selectors set_r_alpha_size set_r_code_len set_r_mtf set_r_tree set_r_big set_r_small set_r_j
                       set_r_t set_r_g set_r_slide set_r_runChar set_r_run set_r_shift] in *.

(* the bit buffer: the w most significant bits of v hold q, the rest is zero *)
Definition buf_is (c : core) (q : N) : Prop :=
  c_w c <= 63 /\ q < 2 ^ c_w c /\ c_v c = q * 2 ^ (64 - c_w c).
Definition buf_ok (c : core) : Prop := exists q, buf_is c q.

Lemma pow2_split a b : b <= a -> 2 ^ a = 2 ^ (a - b) * 2 ^ b.
Proof. intro H. rewrite <- N.pow_add_r. f_equal. lia. Qed.

Lemma buf_v_lt c q : buf_is c q -> c_v c < 2 ^ 64 - 1.
Proof.
  intros (Hw & Hq & Hv). rewrite Hv.
  assert (E : 2 ^ 64 = 2 ^ c_w c * 2 ^ (64 - c_w c)) by (rewrite <- N.pow_add_r; f_equal; lia).
  assert (P : 2 <= 2 ^ (64 - c_w c)).
  { change 2 with (2 ^ 1) at 1. apply N.pow_le_mono_r; lia. }
  assert (Q : 0 < 2 ^ c_w c) by (apply N.neq_0_lt_0, N.pow_nonzero; discriminate).
  nia.
Qed.

(* PEEK(k) returns the top k of the w valid bits *)
Lemma peek_ok c q k : buf_is c q -> 1 <= k -> k <= c_w c ->
  peek c k = XV (q / 2 ^ (c_w c - k)).
Proof.
  intros (Hw & Hq & Hv) Hk1 Hk. unfold peek.
  rewrite sub32_small by (rewrite ?W32_val; lia). rewrite shr64_ok by lia. cbn [ofM]. f_equal.
  rewrite Hv. rewrite (pow2_split (64 - k) (64 - c_w c)) by lia.
  replace (64 - k - (64 - c_w c)) with (c_w c - k) by lia.
  apply N.div_mul_cancel_r; apply N.pow_nonzero; discriminate.
Qed.

Lemma peek_lt q w k : q < 2 ^ w -> k <= w -> q / 2 ^ (w - k) < 2 ^ k.
Proof.
  intros Hq Hk. apply N.div_lt_upper_bound; [apply N.pow_nonzero; discriminate|].
  rewrite <- N.pow_add_r. replace (w - k + k) with w by lia. exact Hq.
Qed.

(* DUMP(k) shifts the top k valid bits out: the low w - k bits of q stay *)
Lemma dump_ok c q k : buf_is c q -> k <= c_w c ->
  exists c', dump c k = XV c' /\ c' = set_c_w (set_c_v c ((c_v c * 2 ^ k) mod 2 ^ 64)) (c_w c - k) /\
             buf_is c' (q mod 2 ^ (c_w c - k)).
Proof.
  intros (Hw & Hq & Hv) Hk. unfold dump. rewrite shl64_ok by lia. cbn [ofM bindX].
  rewrite sub32_small by (rewrite ?W32_val; lia). rewrite W64_val. change 18446744073709551616 with (2 ^ 64).
  eexists. split; [reflexivity|]. split; [reflexivity|].
  unfold buf_is. replace (c_w (set_c_w _ _)) with (c_w c - k) by (dcore c; reflexivity).
  replace (c_v (set_c_w (set_c_v c ((c_v c * 2 ^ k) mod 2 ^ 64)) (c_w c - k))) with ((c_v c * 2 ^ k) mod 2 ^ 64) by (dcore c; reflexivity).
  split; [lia|]. split; [apply N.mod_lt, N.pow_nonzero; discriminate|].
  set (w := c_w c) in *. set (m := w - k).
  (* v * 2^k = q * 2^(64 - m);  2^64 = 2^m * 2^(64-m) *)
  rewrite Hv. replace (q * 2 ^ (64 - w) * 2 ^ k) with (q * 2 ^ (64 - m))
    by (rewrite <- N.mul_assoc, <- N.pow_add_r; do 2 f_equal; lia).
  rewrite (pow2_split 64 (64 - m)) by lia. replace (64 - (64 - m)) with m by lia.
  rewrite N.mul_mod_distr_r by (apply N.pow_nonzero; discriminate). reflexivity.
Qed.

(* v |= (uint64_t)x << (64 - (w += 32)) *)
Lemma load_ok c q x : buf_is c q -> c_w c < 32 -> x < 2 ^ 32 ->
  exists c', load c x = XV c' /\ c' = set_c_w (set_c_v c (N.lor (c_v c) (x * 2 ^ (32 - c_w c)))) (c_w c + 32) /\
             buf_is c' (q * 2 ^ 32 + x).
Proof.
  intros (Hw & Hq & Hv) Hw32 Hx. unfold load.
  rewrite add32_small by (rewrite W32_val; lia).
  rewrite sub32_small by (rewrite ?W32_val; lia). rewrite shl64_ok by lia. cbn [ofM bindX].
  replace (64 - (c_w c + 32)) with (32 - c_w c) by lia.
  assert (Hs : x * 2 ^ (32 - c_w c) < 2 ^ (64 - c_w c)).
  { rewrite (pow2_split (64 - c_w c) (32 - c_w c)) by lia. replace (64 - c_w c - (32 - c_w c)) with 32 by lia.
    apply N.mul_lt_mono_pos_r; [apply N.neq_0_lt_0, N.pow_nonzero; discriminate|exact Hx]. }
  rewrite N.mod_small.
  2:{ rewrite W64_val. change 18446744073709551616 with (2 ^ 64).
      eapply N.lt_le_trans; [exact Hs|]. apply N.pow_le_mono_r; lia. }
  eexists. split; [reflexivity|]. split; [reflexivity|].
  unfold buf_is. replace (c_w (set_c_w _ _)) with (c_w c + 32) by (dcore c; reflexivity).
  replace (c_v (set_c_w (set_c_v c (N.lor (c_v c) (x * 2 ^ (32 - c_w c)))) (c_w c + 32)))
    with (N.lor (c_v c) (x * 2 ^ (32 - c_w c))) by (dcore c; reflexivity).
  split; [lia|]. split.
  - rewrite N.pow_add_r. nia.
  - rewrite Hv, lor_disjoint by exact Hs. replace (64 - (c_w c + 32)) with (32 - c_w c) by lia.
    rewrite (pow2_split (64 - c_w c) (32 - c_w c)) by lia. replace (64 - c_w c - (32 - c_w c)) with 32 by lia. ring.
Qed.

(* an access below the length of the array does not fault *)
Lemma xget_ok a l i : i < N.of_nat (length l) -> xget a l i = XV (nth (N.to_nat i) l 0).
Proof. intro H. unfold xget. apply N.ltb_lt in H. rewrite H. reflexivity. Qed.

Lemma xset_ok a l i x : i < N.of_nat (length l) -> xset a l i x = XV (upd (N.to_nat i) x l).
Proof. intro H. unfold xset. apply N.ltb_lt in H. rewrite H. reflexivity. Qed.

(* the same in bind position, so that a successful access is one rewrite *)
Lemma xget_bindB a l i k : i < N.of_nat (length l) -> (x <== xget a l i ;; k x) = k (nth (N.to_nat i) l 0).
Proof. intro H. rewrite xget_ok by exact H. reflexivity. Qed.
Lemma xset_bindB a l i x k : i < N.of_nat (length l) -> (y <== xset a l i x ;; k y) = k (upd (N.to_nat i) x l).
Proof. intro H. rewrite xset_ok by exact H. reflexivity. Qed.
Lemma xget_bindX {B} a l i (k : N -> X B) : i < N.of_nat (length l) -> (x <-- xget a l i ;; k x) = k (nth (N.to_nat i) l 0).
Proof. intro H. rewrite xget_ok by exact H. reflexivity. Qed.
Lemma xset_bindX {B} a l i x (k : list N -> X B) : i < N.of_nat (length l) -> (y <-- xset a l i x ;; k y) = k (upd (N.to_nat i) x l).
Proof. intro H. rewrite xset_ok by exact H. reflexivity. Qed.

(* tree[] is updated like the arrays of numbers *)
Lemma updt_length i x l : length (updt i x l) = length l.
Proof. exact (lupd_length i x l). Qed.

Lemma nth_updt_same i x l d : (i < length l)%nat -> nth i (updt i x l) d = x.
Proof. exact (nth_lupd_same i x l d). Qed.

Lemma nth_updt_other i j x l d : j <> i -> nth j (updt i x l) d = nth j l d.
Proof. exact (nth_lupd_other i j x l d). Qed.

Lemma Forall_updt (P : tree -> Prop) i x l : P x -> Forall P l -> Forall P (updt i x l).
Proof.
  intros Hx H. revert i; induction H as [|y r Hy Hr IH]; intros [|i]; cbn [updt]; constructor; auto.
Qed.

(* the constant tables (side conditions discharged by computation on the regenerated values) *)
Lemma sel_table_len : length sel_table = 64%nat. Proof. reflexivity. Qed.
Lemma sel_table_range k : k < 64 -> 1 <= nth (N.to_nat k) sel_table 0 <= 7.
Proof.
  intro H. assert (A : forallb (fun i => (1 <=? nth i sel_table 0) && (nth i sel_table 0 <=? 7)) (seq 0 64) = true) by reflexivity.
  rewrite forallb_forall in A. specialize (A (N.to_nat k)). rewrite in_seq in A. specialize (A ltac:(lia)). lia.
Qed.

Lemma delta_tabs_len : length delta_L = 64%nat /\ length delta_R = 64%nat /\ length Rmin_tab = 64%nat /\ length Rmax_tab = 64%nat.
Proof. repeat split; reflexivity. Qed.

(* a window that passes the range test leaves a length in 1..20 (and no uint8_t wrap occurs) *)
Definition delta_entry_ok (i : nat) : bool :=
  let l := nth i delta_L 0 in let r := nth i delta_R 0 in let lo := nth i Rmin_tab 0 in let hi := nth i Rmax_tab 0 in
  (1 <=? l) && (l <=? 6) && (lo <=? r) && (r <=? hi) && (hi <=? 6).
Lemma delta_tabs_ok : forallb delta_entry_ok (seq 0 64) = true. Proof. reflexivity. Qed.
Lemma delta_consts_ok : delta_bias + 1 <= delta_check_lo /\ delta_check_hi <= delta_bias + 20 /\ delta_bias <= 3.
Proof. repeat split; discriminate. Qed.

Lemma delta_entry k : k < 64 ->
  let l := nth (N.to_nat k) delta_L 0 in let r := nth (N.to_nat k) delta_R 0 in
  let lo := nth (N.to_nat k) Rmin_tab 0 in let hi := nth (N.to_nat k) Rmax_tab 0 in
  1 <= l <= 6 /\ lo <= r /\ r <= hi /\ hi <= 6.
Proof.
  intro H. pose proof delta_tabs_ok as A. rewrite forallb_forall in A. specialize (A (N.to_nat k)).
  rewrite in_seq in A. specialize (A ltac:(lia)). unfold delta_entry_ok in A. cbv zeta. lia.
Qed.

(* the two run-accumulation guards exist and are small enough for 32-bit arithmetic *)
Lemma guards_ok : forall i, (i < 2)%nat -> exists g, nth i run_acc_guards None = Some g /\ g < 2 ^ 30.
Proof. intros [|[|i]] H; [eexists; split; [reflexivity|reflexivity]..|lia]. Qed.

(* the bitmap loops *)
From LBZ Require Safe.SlideProofs.

(* the n most significant bits of a 16-bit value, as the loop sees them (shifting left) *)
Fixpoint topbits (n : nat) (s : N) : list bool :=
  match n with
  | O => []
  | S n' => N.testbit s 15 :: topbits n' ((s * 2) mod W16)
  end.

Lemma topbits_length n s : length (topbits n s) = n.
Proof. revert s; induction n; intros; cbn; auto. Qed.

Lemma shr15 s : s < 2 ^ 16 -> s / 2 ^ 15 = if N.testbit s 15 then 1 else 0.
Proof.
  intro H. rewrite N.testbit_eqb. assert (H0 : s / 2 ^ 15 < 2) by (apply N.div_lt_upper_bound; [discriminate|exact H]).
  rewrite N.mod_small by exact H0. destruct (s / 2 ^ 15) as [|[p|p|]]; try reflexivity; lia.
Qed.

Definition with_bitmap (c : core) (a : list N) (j alpha small : N) : core :=
  set_r_small (set_r_alpha_size (set_r_j (set_r_slide c (SlideModel.Build_sstate a (SlideModel.s_rows (r_slide c)))) j) alpha) small.

Lemma shift16_iter s n : s < 2 ^ 16 -> (s * 2 ^ N.of_nat (S n)) mod W16 = (((s * 2) mod W16) * 2 ^ N.of_nat n) mod W16.
Proof.
  intro H. rewrite Nat2N.inj_succ, N.pow_succ_r'. rewrite N.mul_assoc.
  rewrite (N.mul_mod (s * 2 mod W16)) by discriminate. rewrite N.mod_mod by discriminate.
  rewrite <- N.mul_mod by discriminate. reflexivity.
Qed.

(* n more iterations of the inner do-while = bitmap_fill on the next n bits of rs->small *)
Lemma bitmap_inner_spec : forall n f c a' alpha',
  (1 <= n)%nat -> (n <= f)%nat -> r_j c + N.of_nat n <= 256 -> r_alpha_size c + N.of_nat n < 2 ^ 32 -> r_small c < 2 ^ 16 ->
  (forall k, (0 < k < n)%nat -> N.land (r_j c + N.of_nat k) 15 <> 0) -> N.land (r_j c + N.of_nat n) 15 = 0 ->
  SlideModel.bitmap_fill CMAP_BASE (topbits n (r_small c)) (r_j c) (r_alpha_size c) (SlideModel.s_slide (r_slide c)) = Some (a', alpha') ->
  bitmap_inner f c = XV (with_bitmap c a' (r_j c + N.of_nat n) alpha' ((r_small c * 2 ^ N.of_nat n) mod W16)).
Proof.
  induction n as [|n IH]; intros f c a' alpha' Hn Hf Hj Ha Hs Hmid Hend HB; [lia|].
  destruct f as [|f]; [lia|]. cbn [bitmap_inner]. cbn [topbits SlideModel.bitmap_fill] in HB.
  destruct (SlideModel.wr (SlideModel.s_slide (r_slide c)) (CMAP_BASE + r_alpha_size c) (r_j c)) as [a1|] eqn:EW; [|discriminate].
  cbn [SlideModel.obind] in HB.
  rewrite (N.mod_small (r_j c)) by (change W8 with 256; lia). rewrite EW. cbn [ofO bindX].
  rewrite shr32_ok by lia. cbn [ofM bindX]. rewrite shr15 by exact Hs.
  set (c1 := set_r_small _ _).
  assert (E1 : r_j c1 = r_j c + 1 /\ r_small c1 = (r_small c * 2) mod W16 /\
               r_alpha_size c1 = (if N.testbit (r_small c) 15 then r_alpha_size c + 1 else r_alpha_size c) /\
               SlideModel.s_slide (r_slide c1) = a1 /\ SlideModel.s_rows (r_slide c1) = SlideModel.s_rows (r_slide c)).
  { subst c1. dcore c. rsa. cbn [SlideModel.s_slide SlideModel.s_rows]. rewrite add32_small by (rewrite W32_val; lia).
    repeat split; try reflexivity. destruct (N.testbit xsmall 15); rewrite add32_small; rewrite ?W32_val; lia. }
  destruct E1 as (Ej & Esm & Eal & Esl & Erw).
  destruct n as [|n].
  - (* last iteration *)
    cbn [topbits SlideModel.bitmap_fill] in HB. rewrite Ej. replace (r_j c + N.of_nat 1) with (r_j c + 1) in Hend by lia.
    rewrite Hend. cbn. f_equal. injection HB as <- <-. subst c1. unfold with_bitmap. dcore c. rsa.
    cbn [SlideModel.s_slide SlideModel.s_rows] in *. rewrite Ej, Eal.
    replace (xsmall * 2 ^ N.of_nat 1) with (xsmall * 2) by (cbn; lia).
    destruct (N.testbit xsmall 15); f_equal; lia.
  - rewrite Ej. pose proof (Hmid 1%nat ltac:(lia)) as H1. replace (r_j c + N.of_nat 1) with (r_j c + 1) in H1 by lia.
    apply N.eqb_neq in H1. rewrite H1.
    assert (P1 : r_j c1 + N.of_nat (S n) <= 256) by (rewrite Ej; lia).
    assert (P2 : r_alpha_size c1 + N.of_nat (S n) < 2 ^ 32) by (rewrite Eal; destruct (N.testbit (r_small c) 15); lia).
    assert (P3 : r_small c1 < 2 ^ 16) by (rewrite Esm; apply N.mod_lt; discriminate).
    assert (P4 : forall k, (0 < k < S n)%nat -> N.land (r_j c1 + N.of_nat k) 15 <> 0).
    { intros k Hk. rewrite Ej. replace (r_j c + 1 + N.of_nat k) with (r_j c + N.of_nat (S k)) by lia. apply Hmid. lia. }
    assert (P5 : N.land (r_j c1 + N.of_nat (S n)) 15 = 0).
    { rewrite Ej. replace (r_j c + 1 + N.of_nat (S n)) with (r_j c + N.of_nat (S (S n))) by lia. exact Hend. }
    assert (P6 : SlideModel.bitmap_fill CMAP_BASE (topbits (S n) (r_small c1)) (r_j c1) (r_alpha_size c1)
                   (SlideModel.s_slide (r_slide c1)) = Some (a', alpha')).
    { rewrite Ej, Esm, Eal, Esl. destruct (N.testbit (r_small c) 15); exact HB. }
    rewrite (IH f c1 a' alpha' ltac:(lia) ltac:(lia) P1 P2 P3 P4 P5 P6).
    f_equal. unfold with_bitmap. rewrite Ej, Esm, Erw. rewrite <- shift16_iter by exact Hs.
    subst c1. dcore c. rsa. cbn [SlideModel.s_slide SlideModel.s_rows] in *. f_equal; try reflexivity; lia.
Qed.

(* Part 2: the invariant *)
From LBZ Require Import Dec.Prog Dec.Format Safe.TreeProofs.

Lemma consts_vals : MAX_SELECTORS = 32767 /\ MAX_ALPHA_SIZE = 258 /\ MAX_TREES = 6 /\ MIN_TREES = 2 /\ GROUP_SIZE = 50 /\
                    MAX_BLOCK_SIZE = 900000 /\ SLIDE_LENGTH = 8192 /\ CMAP_BASE = 7936 /\ MAX_CODE_LENGTH = 20.
Proof. repeat split; reflexivity. Qed.

(* declared array sizes *)
Definition shape (c : core) : Prop :=
  N.of_nat (length (r_selector c)) = 32767 /\ length (r_code_len c) = 258%nat /\ length (r_mtf c) = 6%nat /\
  length (r_tree c) = 6%nat /\ Forall tree_wf (r_tree c) /\ N.of_nat (length (SlideModel.s_slide (r_slide c))) = 8192 /\
  length (d_ftab c) = 256%nat.

(* nothing written to tt[] yet *)
Definition tt0 (c : core) : Prop := c_ttp c = 0 /\ c_tt c = [].

(* the first cells of the character map hold what the bitmap loop wrote for [flags] *)
Definition filled (c : core) (flags : list bool) (alpha : N) : Prop :=
  exists junk, N.of_nat (length junk) = 8192 /\
    SlideModel.bitmap_fill CMAP_BASE flags 0 0 junk = Some (SlideModel.s_slide (r_slide c), alpha).

Definition sel (c : core) (i : N) : N := nth (N.to_nat i) (r_selector c) 0.
Definition cl (c : core) (i : N) : N := nth (N.to_nat i) (r_code_len c) 0.

(* before the block's symbol phase: J_x do not mention the bit buffer *)
Definition J_bwt (c : core) : Prop := shape c /\ tt0 c.
Definition J_big (c : core) : Prop := J_bwt c /\ d_rand c < 2 /\ d_bwt_idx c < 2 ^ 24.

(* at the entry of the inner bitmap loop for range i (0..15): ranges below i are done *)
Definition J_bm (c : core) (i : nat) (flags : list bool) : Prop :=
  J_big c /\ (i < 16)%nat /\ r_j c = 16 * N.of_nat i /\ length flags = (16 * i)%nat /\ filled c flags (r_alpha_size c) /\
  r_small c < 2 ^ 16 /\ r_big c < 2 ^ 16.

(* behind the bitmap *)
Definition J_hdr (c : core) (flags : list bool) : Prop :=
  J_big c /\ length flags = 256%nat /\ filled c flags (N.of_nat (length (SlideModel.used_of flags))) /\
  (1 <= length (SlideModel.used_of flags))%nat /\ r_alpha_size c = N.of_nat (length (SlideModel.used_of flags)) + 2 /\
  2 <= r_num_trees c <= 6 /\ 1 <= r_num_selectors c < 2 ^ 15.

(* selectors 0 .. n-1 have been stored *)
Definition sels_ok (c : core) (n : N) : Prop := forall i, i < n -> sel c i < r_num_trees c.

(* the head of the selector loop *)
Definition J_selH (c : core) (flags : list bool) : Prop :=
  J_hdr c flags /\ r_j c <= r_num_selectors c /\ sels_ok c (r_j c).
(* at NEED(S_SELECTOR_MTF): selector j has just been stored *)
Definition J_selN (c : core) (flags : list bool) : Prop :=
  J_hdr c flags /\ r_j c < r_num_selectors c /\ sels_ok c (r_j c + 1).

(* tree i is what make_tree() left for the lengths [lens]; [code] is what it stored in mtf[i] *)
Definition tree_rel (lens : list N) (code i : N) (T' : tree) : Prop :=
  exists pad T vd, tree_pre lens pad T /\ make_tree (N.of_nat (length lens)) (lens ++ pad) T = Done (vd, T') /\
                   code = verdict_code i vd.

Definition trees_done (c : core) (t : N) : Prop :=
  forall i, i < t -> exists lens, N.of_nat (length lens) = r_alpha_size c /\
    tree_rel lens (nth (N.to_nat i) (r_mtf c) 0) i (nth (N.to_nat i) (r_tree c) garbage_tree).

(* the head of the tree loop *)
Definition J_tree (c : core) (flags : list bool) : Prop :=
  J_hdr c flags /\ sels_ok c (r_num_selectors c) /\ r_t c <= r_num_trees c /\ trees_done c (r_t c).

(* inside the delta loop of tree t: lengths 0 .. j-1 are final, code_len[j] is the running value *)
Definition J_delta (c : core) (flags : list bool) (hi : N) : Prop :=
  J_hdr c flags /\ sels_ok c (r_num_selectors c) /\ r_t c < r_num_trees c /\ trees_done c (r_t c) /\
  r_j c <= r_alpha_size c /\ (forall i, i < r_j c -> 1 <= cl c i <= 20) /\
  (r_j c < r_alpha_size c -> cl c (r_j c) <= hi).
(* [hi] = 31 behind the 5-bit start value, 20 behind a window; at NEED(S_DELTA_TAG) also >= 1: *)
Definition J_deltaN (c : core) (flags : list bool) : Prop :=
  J_delta c flags 20 /\ (r_j c < r_alpha_size c -> 1 <= cl c (r_j c)).

(* T' is what make_tree() built from some code lengths for an alphabet of n symbols *)
Definition tree_good (n : N) (T' : tree) : Prop :=
  exists lens pad T, N.of_nat (length lens) = n /\ tree_pre lens pad T /\ make_tree n (lens ++ pad) T = Done (VBuilt, T').

(* a usable entry of the selector IMTF table names a tree that was built *)
Definition mtf_good (c : core) : Prop :=
  forall i, i < r_num_trees c -> let t := nth (N.to_nat i) (r_mtf c) 0 in
    t < MAX_TREES -> tree_good (r_alpha_size c) (nth (N.to_nat t) (r_tree c) garbage_tree).

Definition run_ok (run shift : N) : Prop := 2 ^ shift <= run + 1 /\ run < 2 ^ 32.

Definition J_group (c : core) (order : list N) : Prop :=
  shape c /\ c_ttp c = N.of_nat (length (c_tt c)) /\ c_ttp c <= MAX_BLOCK_SIZE /\
  2 <= r_num_trees c <= 6 /\ r_alpha_size c = N.of_nat (length order) + 2 /\ (1 <= length order <= 256)%nat /\
  Forall (fun x => x < 256) order /\ r_num_selectors c <= 32767 /\ r_g c <= r_num_selectors c /\
  sels_ok c (r_num_selectors c) /\ mtf_good c /\ SlideProofs.Sim_c (r_slide c) order /\
  r_runChar c < 256 /\ run_ok (r_run c) (r_shift c).

(* inside a group on the slow path (at NEED(S_PREFIX) or behind it) *)
Definition J_prefix (c : core) (order : list N) : Prop :=
  J_group c order /\ r_g c < r_num_selectors c /\ r_j c < 50 /\ r_t c < 6 /\
  tree_good (r_alpha_size c) (nth (N.to_nat (r_t c)) (r_tree c) garbage_tree).

(* none of the J_x looks at v or w *)
Definition bufset (c : core) (v w : N) : core := set_c_w (set_c_v c v) w.

(* fields of a core built by setters; on the goal only *)
Ltac csimp := cbn [bufset with_bitmap c_v c_w c_ttp c_tt d_rand d_bwt_idx d_ftab r_selector r_num_trees r_num_selectors r_alpha_size
                   r_code_len r_mtf r_tree r_big r_small r_j r_t r_g r_slide r_runChar r_run r_shift
                   set_c_v set_c_w set_c_ttp set_c_tt set_d_rand set_d_bwt_idx set_d_ftab set_r_selector set_r_num_trees
                   set_r_num_selectors set_r_alpha_size set_r_code_len set_r_mtf set_r_tree set_r_big set_r_small set_r_j
                   set_r_t set_r_g set_r_slide set_r_runChar set_r_run set_r_shift].

Lemma buf_is_frame c c' q : c_v c' = c_v c -> c_w c' = c_w c -> buf_is c q -> buf_is c' q.
Proof. unfold buf_is. intros -> ->. auto. Qed.
Lemma buf_ok_frame c c' : c_v c' = c_v c -> c_w c' = c_w c -> buf_ok c -> buf_ok c'.
Proof. intros Ev Ew (q & H). exists q. exact (buf_is_frame c c' q Ev Ew H). Qed.

(* the successful form of the tt[] writes *)
Lemma iter_push_ok ch : forall n c, c_ttp c + n <= MAX_BLOCK_SIZE ->
  N.iter n (tt_push ch) (XV c) = XV (set_c_ttp (set_c_tt c (repeat ch (N.to_nat n) ++ c_tt c)) (c_ttp c + n)).
Proof.
  induction n as [|n IH] using N.peano_ind; intros c H.
  - cbn. f_equal. rewrite N.add_0_r. dcore c. reflexivity.
  - rewrite N.iter_succ, IH by lia. unfold tt_push. cbn [bindX].
    change (c_ttp (set_c_ttp _ _)) with (c_ttp c + n).
    assert (E : (c_ttp c + n <? MAX_BLOCK_SIZE) = true) by (apply N.ltb_lt; lia). rewrite E. f_equal.
    rewrite N2Nat.inj_succ. cbn [repeat app]. replace (c_ttp c + N.succ n) with (c_ttp c + n + 1) by (clear; lia). reflexivity.
Qed.

Lemma emit_run_ok c rc run : length (d_ftab c) = 256%nat -> rc < 256 -> c_ttp c + run <= MAX_BLOCK_SIZE ->
  emit_run c rc run =
  XV (set_c_ttp (set_c_tt (set_d_ftab c (upd (N.to_nat rc) (add32 (nth (N.to_nat rc) (d_ftab c) 0) run) (d_ftab c)))
                          (repeat rc (N.to_nat run) ++ c_tt c)) (c_ttp c + run)).
Proof.
  intros Hl Hrc Hr. unfold emit_run. rewrite xget_ok by lia. cbn [bindX]. rewrite xset_ok by lia. cbn [bindX].
  rewrite iter_push_ok by (dcore c; exact Hr). dcore c. reflexivity.
Qed.
