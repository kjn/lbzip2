(* C05/C06/C09, retrieve(): REFINEMENT of the format description.  The statement-level model (Safe/RetrModel.v), run on
   any chunking of the input, delivers the block that Dec/Format.v's read_block + unmtf_block describe for the same
   bits, and consumes the same number of bits.  The block lemmas are in Safe/RetrRefHdr.v, RetrRefSel.v, RetrRefSym.v;
   here: the abstract state per control point, one pass, a run, a call, the chunk driver (through the slow
   single-chunk machine and the chunk independence of Safe/RetrChunk.v / RetrSafe.v). *)
From Coq Require Import List NArith Arith Bool Lia ZifyBool ZifyNat ZifyN.
From LBZ Require Import Common.Bits Gen.Consts Dec.Prog Dec.Format Dec.Sim Dec.Policies Safe.RetrModel Safe.RetrChunk
  Safe.RetrInv Safe.RetrSpec Safe.RetrSafe.
Import ListNotations.
Local Open Scope N_scope.

(* read_block is K_start *)
Lemma read_block_K f bits : run (read_block lbz_policy f) bits = run (K_start f) bits.
Proof.
  unfold read_block, K_start, K_big, K_smalls, read_bitmap.
  rewrite !run_bind. destruct (run (take 1) bits) as [[rnd r1]|e]; [|reflexivity].
  rewrite !run_bind. destruct (run (take 24) r1) as [[idx r2]|e]; [|reflexivity].
  rewrite !run_bind. destruct (run (take 16) r2) as [[big r3]|e]; [|reflexivity].
  rewrite !run_bind. destruct (run (read_smalls big 0 16) r3) as [[used r4]|e]; [|reflexivity].
  cbn [app]. unfold K_post. rewrite !run_bind.
  destruct (run (guard (negb (N.of_nat (length used) =? 0)) ErrBitmap) r4) as [[u r5]|e]; [|reflexivity].
  rewrite !run_bind. destruct (run (take 3) r5) as [[nt r6]|e]; [|reflexivity].
  rewrite !run_bind. destruct (run (guard ((2 <=? nt) && (nt <=? 6)) ErrTrees) r6) as [[u2 r7]|e]; [|reflexivity].
  rewrite !run_bind. destruct (run (take 15) r7) as [[ns r8]|e]; [|reflexivity].
  rewrite !run_bind. destruct (run (guard (negb (ns =? 0)) ErrGroups) r8) as [[u3 r9]|e]; [|reflexivity].
  unfold K_sels. cbn [h_ns h_nt length app]. rewrite Nat.sub_0_r. rewrite !run_bind.
  destruct (run (repeat_prog (N.to_nat ns) (read_unary (N.to_nat nt) 0)) r9) as [[selm r10]|e]; [|reflexivity].
  unfold K_tables. cbn [h_nt length app]. rewrite Nat.sub_0_r. unfold h_alpha. cbn [h_used]. rewrite !run_bind.
  destruct (run (repeat_prog (N.to_nat nt) (read_table lbz_policy f (length used + 2))) r10) as [[tables r11]|e]; [|reflexivity].
  unfold K_group, sels_of, h_eob, h_alpha. cbn [h_used skipn app]. rewrite !run_bind.
  destruct (run (read_groups lbz_policy tables (N.of_nat (length used + 2) - 1) _) r11) as [[mtfv r12]|e]; reflexivity.
Qed.

(* a run of the slow machine against what remains to be read *)
(* the block would end with fewer than 32 bits behind it: retrieve() says ERR_EOF where the format description may still
   succeed (NEED asks for a whole word) *)
Definition short (res : result (raw_block * list bool)) : Prop :=
  forall rb rest, res = Ok (rb, rest) -> (length rest < 32)%nat.

Definition fin_res (res : result (raw_block * list bool)) (r : cres) : Prop :=
  match r with
  | ROk st' =>
      exists rb, res = Ok (rb, strm (s_core st') (l_next st')) /\
        RetrSpec.post rb = Ok (negb (d_rand (s_core st') =? 0), d_bwt_idx (s_core st'), rev (c_tt (s_core st'))) /\
        d_block_size st' = N.of_nat (length (c_tt (s_core st'))) /\ b_data st' = l_next st'
  | RErr code _ => fails res \/ (code = E_ERR_EOF /\ short res)
  | RMore _ => short res
  | RFault _ => True
  end.

Lemma short_of_len p bits : (length bits < 32)%nat -> short (run p bits).
Proof. intros H rb rest E. apply run_rest_le in E. lia. Qed.

Lemma finish_ref res st c' nx : l_next st = nx ->
  (exists rb, res = Ok (rb, strm c' nx) /\ unmtf_block MAX_BLOCK_SIZE (rb_used rb) (rb_mtfv rb) = Ok (rev (c_tt c')) /\
     c_ttp c' = N.of_nat (length (c_tt c')) /\ rb_rand rb = negb (d_rand c' =? 0) /\ rb_idx rb = d_bwt_idx c') ->
  fin_res res (finish (with_core st c')).
Proof.
  intros En (rb & E & U & Ht & Er & Ei). unfold finish. cbn [save with_core s_core d_block_size].
  assert (P : RetrSpec.post rb = if N.of_nat (length (rev (c_tt c'))) =? 0 then Err ErrEmpty
              else if N.of_nat (length (rev (c_tt c'))) <=? rb_idx rb then Err ErrBwtIdx
              else Ok (rb_rand rb, rb_idx rb, rev (c_tt c'))) by (unfold RetrSpec.post; rewrite U; reflexivity).
  rewrite rev_length, <- Ht, Ei in P.
  destruct (c_ttp c' =? 0) eqn:E0.
  - cbn [fin_res]. left. unfold fails. rewrite E. eexists. exact P.
  - destruct (c_ttp c' <=? d_bwt_idx c') eqn:E1.
    + cbn [fin_res]. left. unfold fails. rewrite E. eexists. exact P.
    + cbn [fin_res s_core l_next d_block_size save with_core b_data]. exists rb. rewrite En. split; [exact E|].
      split; [|split; [exact Ht|reflexivity]]. rewrite P, Er. reflexivity.
Qed.

Lemma ref_run f : forall fuel p st a, Rel p (s_core st) a -> buf_ok (s_core st) -> wlo p <= c_w (s_core st) ->
  words_ok (l_next st) -> (length (strm (s_core st) (l_next st)) < f)%nat ->
  fin_res (run (Kof f (s_core st) a) (strm (s_core st) (l_next st))) (run_from false fuel p st).
Proof.
  induction fuel as [|fuel IH]; intros p st a HR HB Hw HW Hf; [exact I|].
  rewrite run_from_S, onestep_false.
  pose proof (sstep_post f (l_next st) p (s_core st) a HR HB Hw Hf) as SR.
  pose proof (strm_length (s_core st) (l_next st)) as SL. pose proof (sigma_le p) as Sp.
  destruct (sstep p (s_core st)) as [p' c'|s c'|code c'|c'|fl]; cbn [after blk_post] in *.
  - destruct SR as (a' & R' & B' & W' & Hd & E). cbn [cont]. rewrite E.
    apply (IH p' (with_core st c') a'); cbn [s_core with_core l_next]; auto.
    pose proof (strm_length c' (l_next st)). lia.
  - destruct SR as (a' & R' & B' & Hd & E). rewrite E.
    assert (Hlen : (length (strm c' (l_next st)) <= length (strm (s_core st) (l_next st)))%nat).
    { pose proof (strm_length c' (l_next st)). pose proof (sigma_le (After s)). destruct s; cbn [sigma] in *; lia. }
    unfold need_at. cbn [s_core with_core l_next].
    destruct (N.ltb_spec (c_w c') 32) as [Hlt|Hge].
    + destruct (l_next st) as [|x r] eqn:EN.
      * (* the chunk is exhausted *)
        assert (SH : short (run (Kof f c' a') (strm c' []))).
        { apply short_of_len. pose proof (strm_length c' []). cbn [length] in *. lia. }
        cbn [save with_core b_eof]. destruct (b_eof st); cbn [cont fin_res]; [right; split; [reflexivity|exact SH]|exact SH].
      * inversion HW as [|? ? Hx Hr]; subst.
        destruct (load_Rel (After s) c' a' x R' B' Hlt Hx) as (c'' & -> & R'' & B'' & Ew & EK & ES). cbn [cont].
        rewrite <- (ES r), <- (EK f).
        apply (IH (After s) (with_next (with_core (with_core st c') c'') r) a'); cbn [s_core with_core with_next l_next];
          [exact R''|exact B''|destruct s; cbn [wlo]; lia|exact Hr|rewrite (ES r); lia].
    + cbn [cont]. apply (IH (After s) (with_core st c') a'); cbn [s_core with_core l_next]; auto;
        try (destruct s; cbn [wlo]; lia); try lia.
  - cbn [cont fin_res]. left. exact SR.
  - cbn [cont]. apply (finish_ref _ st c' (l_next st) eq_refl). exact SR.
  - contradiction.
Qed.

(* the bits in the bit buffer the block starts with *)
Definition init_bits (st : rstate) : list bool :=
  bits_msb (N.to_nat (b_live st)) (b_buff st / 2 ^ (64 - b_live st)).

Lemma strm_restore st : strm (s_core (restore st)) (b_data st) = init_bits st ++ wbits (b_data st).
Proof. destruct st as [c nx ss bl bb bd be bs]. unfold strm, bufq, init_bits. cbn. dcore c. reflexivity. Qed.

(* the first call *)
Lemma ref_first f fuel st : init_ok st -> words_ok (b_data st) ->
  (length (init_bits st ++ wbits (b_data st)) < f)%nat ->
  fin_res (run (K_start f) (init_bits st ++ wbits (b_data st))) (retrieve_f fuel false st).
Proof.
  intros HI HW Hf. rewrite <- strm_restore in *. destruct (init_restore st HI) as (J1 & B1 & _ & N1).
  rewrite retrieve_f_enter. unfold enter.
  cbn [restore with_next with_core s_state]. rewrite (proj1 HI). change (S_INIT =? S_INIT) with true. cbn iota.
  set (st1 := restore st) in *. rewrite <- N1 in *.
  unfold need_at. destruct (N.ltb_spec (c_w (s_core st1)) 32) as [Hlt|Hge].
  - destruct (l_next st1) as [|x r] eqn:EN.
    + assert (SH : short (run (K_start f) (strm (s_core st1) []))).
      { apply short_of_len. pose proof (strm_length (s_core st1) []). cbn [length] in *. lia. }
      cbn [save b_eof]. destruct (b_eof st1); cbn [fin_res]; [right; split; [reflexivity|exact SH]|exact SH].
    + inversion HW as [|? ? Hx Hr]; subst.
      destruct (load_Rel A_BWT_IDX (s_core st1) ABwt x J1 B1 Hlt Hx) as (c' & -> & R' & B' & Ew & _ & ES).
      rewrite <- (ES r).
      apply (ref_run f fuel A_BWT_IDX (with_next (with_core st1 c') r) ABwt); cbn [s_core with_core with_next l_next wlo];
        [exact R'|exact B'|lia|exact Hr|rewrite (ES r); exact Hf].
  - apply (ref_run f fuel A_BWT_IDX st1 ABwt); cbn [Rel wlo]; auto.
Qed.

Lemma Ret_gen b st r : Ret b st r -> final_ok (retrieve_gen b st) -> r = retrieve_gen b st.
Proof.
  intros HR HF. eapply Ret_det; [exact HR|]. exists (call_fuel st). split; [reflexivity|].
  intro E. rewrite E in HF. exact HF.
Qed.

Lemma concat_words_ok cs : Forall words_ok cs -> words_ok (concat cs).
Proof. induction 1; cbn; [constructor|]. apply Forall_app. split; assumption. Qed.

(* the slow machine on a single chunk *)
(* one call on a fresh state; if it is suspended, the call at end of input says ERR_EOF *)
Lemma hub_call f st r : init_ok st -> words_ok (b_data st) -> (length (init_bits st ++ wbits (b_data st)) < f)%nat ->
  Ret false st r ->
  fin_res (run (K_start f) (init_bits st ++ wbits (b_data st))) r /\
  forall st' r2, r = RMore st' -> Ret false (attach_eof st') r2 -> exists s, r2 = RErr E_ERR_EOF s.
Proof.
  intros HI HW Hf R1. split.
  - destruct R1 as (n & <- & _). exact (ref_first f n st HI HW Hf).
  - intros st' r2 -> R2.
    pose proof (retrieve_ok false st (or_introl HI) HW (or_intror (or_intror (proj1 HI)))) as F1.
    rewrite <- (Ret_gen _ _ _ R1 F1) in F1. cbn [final_ok] in F1.
    destruct (eof_call_more false st' F1) as (s' & Es).
    assert (F2 : final_ok (retrieve_gen false (attach_eof st'))) by (rewrite Es; exact I).
    rewrite (Ret_gen _ _ _ R2 F2), Es. eauto.
Qed.

Lemma ref_hub f st ws x : init_ok st -> b_eof st = false -> words_ok ws ->
  (length (init_bits st ++ wbits ws) < f)%nat ->
  Eval false st (match ws with [] => [] | _ => [ws] end) x ->
  snd x = [] /\
  match fst x with
  | ROk st' =>
      exists rb, run (K_start f) (init_bits st ++ wbits ws) = Ok (rb, strm (s_core st') (l_next st')) /\
        RetrSpec.post rb = Ok (negb (d_rand (s_core st') =? 0), d_bwt_idx (s_core st'), rev (c_tt (s_core st'))) /\
        d_block_size st' = N.of_nat (length (c_tt (s_core st'))) /\ b_data st' = l_next st'
  | RErr code _ => fails (run (K_start f) (init_bits st ++ wbits ws)) \/
                   (code = E_ERR_EOF /\ short (run (K_start f) (init_bits st ++ wbits ws)))
  | RMore _ => False
  | RFault _ => True
  end.
Proof.
  intros HI He HW Hf E. destruct ws as [|w0 ws'].
  - (* no input at all *)
    assert (HC : forall r, Ret false (attach_eof st) r -> _) by (intro r; apply (hub_call f (attach_eof st) r); destruct st; assumption || constructor).
    change (b_data (attach_eof st)) with (@nil N) in HC. change (init_bits (attach_eof st)) with (init_bits st) in HC.
    inversion E as [st0 r H Hm|st0 st' r H H'| |]; subst; cbn [fst snd]; (split; [reflexivity|]); destruct (HC _ H) as (R & EOF).
    + destruct r; cbn [fin_res is_more] in *; auto; discriminate.
    + destruct (EOF st' r eq_refl H') as (s' & ->). right. split; [reflexivity|exact R].
  - assert (HC : forall r, Ret false (attach st (w0 :: ws')) r -> _) by (intro r; apply (hub_call f (attach st (w0 :: ws')) r); destruct st; assumption).
    change (b_data (attach st (w0 :: ws'))) with (w0 :: ws') in HC. change (init_bits (attach st (w0 :: ws'))) with (init_bits st) in HC.
    inversion E as [| |st0 ch rest r H Hm|st0 ch rest st' x0 H E']; subst; cbn [fst snd]; destruct (HC _ H) as (R & EOF).
    + split; [reflexivity|]. destruct r; cbn [fin_res is_more] in *; auto; discriminate.
    + inversion E' as [st1 r1 H1 Hm1|st1 st'' r1 H1 H1'| |]; subst; cbn [fst snd]; destruct (EOF st' _ eq_refl H1) as (s' & Es).
      * subst r1. split; [reflexivity|]. right. split; [reflexivity|exact R].
      * discriminate.
Qed.

(* states with the same observable part stand for the same stream *)
Lemma strm_obs c1 c2 nx : obs_core c1 = obs_core c2 -> strm c1 nx = strm c2 nx.
Proof. unfold obs_core. intro H. injection H as Hv Hw _ _ _ _ _. unfold strm, bufq. rewrite Hv, Hw. reflexivity. Qed.

(* REFINEMENT.  [bits]: the bits in the initial bit buffer followed by the bits of all input words.
   OK: the format description reads a block from the same bits, with the same randomised flag, origin pointer and BWT
   column (tt[0 .. block_size)), and leaves the same bits unread (saved bit buffer, rest of the current chunk, chunks not
   attached).  An error return: the format description has no block either - except that retrieve() says ERR_EOF when
   fewer than 32 bits would be left behind the block. *)
Theorem retr_refines st cs f : init_ok st -> b_eof st = false -> Forall words_ok cs -> Forall (fun c => c <> []) cs ->
  (length (init_bits st ++ wbits (concat cs)) < f)%nat ->
  match retr_chunks st cs with
  | (ROk st', lo) =>
      spec_block f (init_bits st ++ wbits (concat cs)) =
        Ok (negb (d_rand (s_core st') =? 0), d_bwt_idx (s_core st'), rev (c_tt (s_core st')),
            strm (s_core st') (b_data st' ++ concat lo)) /\
      d_block_size st' = N.of_nat (length (c_tt (s_core st')))
  | (RErr code _, _) =>
      (exists e, spec_block f (init_bits st ++ wbits (concat cs)) = Err e) \/
      (code = E_ERR_EOF /\ forall r rest, spec_block f (init_bits st ++ wbits (concat cs)) = Ok (r, rest) -> (length rest < 32)%nat)
  | _ => False
  end.
Proof.
  intros HI He HW HN Hf.
  pose proof (retr_chunks_ok true cs st (or_introl HI) HW HN) as SAFE. fold (retr_chunks st cs) in SAFE.
  assert (NF : no_fault (fst (retr_chunks st cs))) by (intros fl E; rewrite E in SAFE; exact SAFE).
  assert (E1 : Eval true st cs (retr_chunks st cs)) by (apply (retr_chunks_Eval call_fuel true cs st _ eq_refl); apply NF).
  destruct (Eval_fast_to_slow _ _ _ E1 NF) as (y & Ey & Sy).
  (* the single chunk *)
  assert (HUB : exists z, Eval false st (match concat cs with [] => [] | _ => [concat cs] end) z /\ xsim y z).
  { destruct cs as [|c0 cs'].
    - exists y. cbn. split; [exact Ey|apply xsim_refl].
    - destruct (Eval_concat _ (c0 :: cs') st y (le_n _) ltac:(discriminate) HN He Ey) as (z & Ez & Sz).
      exists z. split; [|exact Sz]. destruct (concat (c0 :: cs')) eqn:EC; [|exact Ez].
      apply (concat_nil_nonempty _ HN) in EC. discriminate. }
  destruct HUB as (z & Ez & Syz).
  destruct (ref_hub f st (concat cs) z HI He (concat_words_ok cs HW) Hf Ez) as (Lz & Hz).
  assert (Sxz : xsim (retr_chunks st cs) z) by (eapply xsim_trans; [apply xsim_sym; exact Sy|exact Syz]).
  destruct (retr_chunks st cs) as [r lo]. destruct z as [rz loz]. cbn [fst snd] in *. subst loz.
  unfold spec_block. rewrite read_block_K.
  destruct r as [sx|sx|code sx|fl]; destruct rz as [sz|sz|codez sz|flz]; cbn [xsim fst snd] in Sxz; try contradiction.
  - (* OK *)
    destruct Sxz as (Ho & Hl & Hb & Hd & Hdata). destruct Hz as (rb & Er & Ep & Es & Esv). symmetry in Esv.
    rewrite Er, Ep. split.
    + f_equal. unfold obs_core in Ho. injection Ho as Hv Hw Hp Ht Hr Hi Hf'. rewrite Hr, Hi, Ht.
      f_equal. rewrite Esv, Hdata. cbn [concat]. rewrite app_nil_r.
      apply strm_obs. unfold obs_core. congruence.
    + unfold obs_core in Ho. injection Ho as Hv Hw Hp Ht Hr Hi Hf'. rewrite Hd, Es, Ht. reflexivity.
  - subst codez. destruct Hz as [Hfail|[-> Hsh]].
    + left. unfold fails in Hfail. destruct (run (K_start f) _) as [[rb rest]|e]; [|eauto].
      destruct Hfail as (e & ->). eauto.
    + right. split; [reflexivity|]. intros r0 rest0 E0.
      destruct (run (K_start f) _) as [[rb rest]|e] eqn:ER; [|discriminate].
      destruct (RetrSpec.post rb); [|discriminate]. injection E0 as _ <-. exact (Hsh rb rest eq_refl).
Qed.

(* completeness: a block of the format with at least 32 bits behind it is delivered *)
Theorem retr_complete st cs f r rest : init_ok st -> b_eof st = false -> Forall words_ok cs -> Forall (fun c => c <> []) cs ->
  (length (init_bits st ++ wbits (concat cs)) < f)%nat ->
  spec_block f (init_bits st ++ wbits (concat cs)) = Ok (r, rest) -> (32 <= length rest)%nat ->
  exists st' lo, retr_chunks st cs = (ROk st', lo) /\
    r = (negb (d_rand (s_core st') =? 0), d_bwt_idx (s_core st'), rev (c_tt (s_core st'))) /\
    rest = strm (s_core st') (b_data st' ++ concat lo) /\
    d_block_size st' = N.of_nat (length (c_tt (s_core st'))).
Proof.
  intros HI He HW HN Hf HS Hr. pose proof (retr_refines st cs f HI He HW HN Hf) as R.
  destruct (retr_chunks st cs) as [[sx|sx|code sx|fl] lo]; try contradiction.
  - destruct R as (E & Hd). rewrite HS in E. injection E as -> ->. exists sx, lo. auto.
  - exfalso. destruct R as [(e & E)|(_ & Hsh)]; [rewrite HS in E; discriminate|].
    specialize (Hsh r rest HS). lia.
Qed.

(* rejection: no block in the format, an error code from retrieve() *)
Theorem retr_rejects st cs f e : init_ok st -> b_eof st = false -> Forall words_ok cs -> Forall (fun c => c <> []) cs ->
  (length (init_bits st ++ wbits (concat cs)) < f)%nat ->
  spec_block f (init_bits st ++ wbits (concat cs)) = Err e ->
  exists code st' lo, retr_chunks st cs = (RErr code st', lo).
Proof.
  intros HI He HW HN Hf HS. pose proof (retr_refines st cs f HI He HW HN Hf) as R.
  destruct (retr_chunks st cs) as [[sx|sx|code sx|fl] lo]; try contradiction.
  - destruct R as (E & _). rewrite HS in E. discriminate.
  - eauto.
Qed.

Print Assumptions retr_refines.
Print Assumptions retr_complete.
Print Assumptions retr_rejects.
