(* C05, the delta-coded code lengths: lbzip2's "peek 6 bits, consume L[k]" window step against the bit-by-bit reader
   win_delta of Dec/Delta.v (a machine over the regenerated tables), and fuel irrelevance of machine readers. *)
From Coq Require Import List NArith Arith Bool Lia ZifyBool ZifyNat ZifyN.
From LBZ Require Import Common.Bits Dec.Prog Dec.Delta Dec.DecProofs.
Import ListNotations.
Local Open Scope N_scope.

(* a machine reader with more fuel than bits does not depend on the fuel *)
Lemma mprog_fuel {S A} (m : machine S A) : forall f1 f2 s bits, (length bits < f1)%nat -> (length bits < f2)%nat ->
  run (mprog m f1 s) bits = run (mprog m f2 s) bits.
Proof.
  induction f1 as [|f1 IH]; intros f2 s bits H1 H2; [lia|].
  destruct f2 as [|f2]; [lia|].
  cbn [mprog]. destruct (mstat m s); try reflexivity.
  destruct bits as [|b r]; [reflexivity|]. cbn [run]. apply IH; cbn [length] in *; lia.
Qed.

(* the window machine, one bit at a time *)
Lemma win_run_step f cur j v b r :
  run (mprog win_machine (Datatypes.S f) (0, cur, j, v)) (b :: r) = run (mprog win_machine f (win_step (0, cur, j, v) b)) r.
Proof. reflexivity. Qed.

Lemma win_run_done f cur j v bits : run (mprog win_machine f (1, cur, j, v)) bits = Ok (cur, bits).
Proof. destruct f; reflexivity. Qed.

Lemma win_run_fail f cur j v bits : run (mprog win_machine f (2, cur, j, v)) bits = Err ErrDelta.
Proof. destruct f; reflexivity. Qed.

Lemma win_step_eq cur j v b :
  win_step (0, cur, j, v) b =
  let j' := j + 1 in
  let v' := 2 * v + (if b then 1 else 0) in
  let k := N.shiftl v' (6 - j') in
  if tabL k =? j' then
    match window_apply cur k with
    | None => (2, cur, 0, 0)
    | Some cur' => if j' =? 6 then (0, cur', 0, 0) else (1, cur', 0, 0)
    end
  else if j' =? 6 then (3, cur, 0, 0)
  else (0, cur, j', v').
Proof. reflexivity. Qed.

(* where the machine stops inside a window (does not depend on the running value): the table index used, the number
   of bits read (as N and as nat), the bits left *)
Fixpoint wsteps (n : nat) (j v : N) (bits : list bool) : option (N * N * nat * list bool) :=
  match n, bits with
  | Datatypes.S n', b :: r =>
      let j' := j + 1 in
      let v' := 2 * v + (if b then 1 else 0) in
      let k := N.shiftl v' (6 - j') in
      if tabL k =? j' then Some (k, j', 1%nat, r)
      else if j' =? 6 then None
      else match wsteps n' j' v' r with
           | Some (k0, j0, m, r0) => Some (k0, j0, Datatypes.S m, r0)
           | None => None
           end
  | _, _ => None
  end.

Lemma wsteps_run : forall n j v bits k j' m r cur f,
  wsteps n j v bits = Some (k, j', m, r) -> (m <= f)%nat ->
  run (mprog win_machine f (0, cur, j, v)) bits =
  match window_apply cur k with
  | None => Err ErrDelta
  | Some cur' => if j' =? 6 then run (mprog win_machine (f - m) (0, cur', 0, 0)) r else Ok (cur', r)
  end.
Proof.
  induction n as [|n IH]; intros j v bits k j' m r cur f H Hf; [discriminate|].
  destruct bits as [|b bits]; [discriminate|]. cbn [wsteps] in H. cbv zeta in H.
  destruct (tabL (N.shiftl (2 * v + (if b then 1 else 0)) (6 - (j + 1))) =? j + 1) eqn:E1.
  - injection H as <- <- <- <-. destruct f as [|f]; [lia|].
    rewrite win_run_step, win_step_eq. cbv zeta. rewrite E1.
    destruct (window_apply cur _) as [cur'|]; [|apply win_run_fail].
    destruct (j + 1 =? 6); [|apply win_run_done].
    replace (Datatypes.S f - 1)%nat with f by lia. reflexivity.
  - destruct (j + 1 =? 6) eqn:E2; [discriminate|].
    destruct (wsteps n (j + 1) (2 * v + (if b then 1 else 0)) bits) as [[[[k0 j0] m0] r0]|] eqn:E3; [|discriminate].
    injection H as <- <- <- <-. destruct f as [|f]; [lia|].
    rewrite win_run_step, win_step_eq. cbv zeta. rewrite E1, E2.
    rewrite (IH _ _ _ _ _ _ _ cur f E3) by lia. reflexivity.
Qed.

Lemma window_apply_ext cur k1 k2 : tabRmin k1 = tabRmin k2 -> tabRmax k1 = tabRmax k2 -> tabR k1 = tabR k2 ->
  window_apply cur k1 = window_apply cur k2.
Proof. intros E1 E2 E3. unfold window_apply. rewrite E1, E2, E3. reflexivity. Qed.

(* the check of one window: the machine stops behind L[k] bits, at a table index with the same entries *)
Definition win_chk (rest : list bool) (k : N) : Prop :=
  exists kp, wsteps 6 0 0 (bits_msb 6 k ++ rest) =
             Some (kp, tabL k, N.to_nat (tabL k), skipn (N.to_nat (tabL k)) (bits_msb 6 k ++ rest)) /\
             tabRmin kp = tabRmin k /\ tabRmax kp = tabRmax k /\ tabR kp = tabR k.

Lemma win_chk_all rest : forall n, (n < 64)%nat -> win_chk rest (N.of_nat n).
Proof.
  intros n Hn.
  do 64 (destruct n as [|n]; [unfold win_chk; eexists; split; [cbv; reflexivity|repeat split; reflexivity]|]). lia.
Qed.

(* one 6-bit window k at the front of the stream *)
Lemma win_window f cur k rest : k < 64 -> (6 < f)%nat ->
  run (win_delta f cur) (bits_msb 6 k ++ rest) =
  match window_apply cur k with
  | None => Err ErrDelta
  | Some cur' =>
      if tabL k =? 6 then run (win_delta (f - 6) cur') rest
      else Ok (cur', skipn (N.to_nat (tabL k)) (bits_msb 6 k ++ rest))
  end.
Proof.
  intros Hk Hf.
  pose proof (win_chk_all rest (N.to_nat k) ltac:(lia)) as H. rewrite N2Nat.id in H.
  destruct H as (kp & HW & E1 & E2 & E3).
  assert (HL : 1 <= tabL k <= 6).
  { pose proof tables_prefix_consistent_true as A. unfold tables_prefix_consistent in A. rewrite forallb_forall in A.
    specialize (A (N.to_nat k)). rewrite in_seq in A. specialize (A ltac:(lia)). cbv zeta in A. rewrite N2Nat.id in A.
    repeat (apply andb_true_iff in A; destruct A as [A ?]). lia. }
  unfold win_delta. rewrite (wsteps_run _ _ _ _ _ _ _ _ cur f HW) by lia.
  rewrite (window_apply_ext cur kp k E1 E2 E3).
  destruct (window_apply cur k) as [cur'|]; [|reflexivity].
  destruct (N.eqb_spec (tabL k) 6) as [E6|N6]; [|reflexivity].
  rewrite E6. change (N.to_nat 6) with 6%nat.
  replace (skipn 6 (bits_msb 6 k ++ rest)) with rest; [reflexivity|].
  rewrite skipn_app, bits_msb_length. rewrite skipn_all2 by (rewrite bits_msb_length; lia). reflexivity.
Qed.

Print Assumptions mprog_fuel.
Print Assumptions win_window.
