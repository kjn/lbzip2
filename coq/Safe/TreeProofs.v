(* C08, prefix-code decoding tables: theorems about the array-level model Safe/TreeModel.v of
   make_tree() and of the decode sequence of retrieve() (src/decode.c).

   For ALL code-length vectors [lens] with 3 <= length lens <= 258 and every length in 1..20
   (what the delta reader of retrieve() guarantees), any previous contents of the tree [T] and any
   contents [pad] of code_len[] above alpha_size:

   (a) make_tree_safe      no out-of-bounds access, no undefined shift, no signed overflow, no failing
                           assert(), in the success outcome and in both error outcomes;
   (b) make_tree_verdict   success iff kraft lens = kraft_full, ERR_INCOMPLT iff less, ERR_PREFIX iff more
                           (= complete_only of Dec/Policies.v: make_tree_verdict_policy);
   (c) tree_decode_safe    on a successfully built tree, for every 64-bit buffer value v < 2^64 - 1 the
                           decode sequence runs without an undefined event: start index < 1024, the walk
                           while (v >= base[k+1]) k++ stops with k <= 20, the perm index is < alpha_size;
                           [tree_decode_allones_oob]: the precondition v <> 2^64-1 is needed (the walk
                           runs past the sentinel base[21] = 2^64-1) -- retrieve() guarantees it because
                           the bit buffer never holds more than 63 valid bits (NEED()/NEED_FAST());
   (d) tree_decode_correct the symbol and code length returned are those of the canonical bit-by-bit decoder
                           [decode_sym lens] of Dec/Format.v run on the 64 bits of v, through the internal
                           symbol numbering [isym]. *)
From Coq Require Import List NArith Arith Bool Lia ZifyBool ZifyNat ZifyN.
From LBZ Require Import Common.Bits Dec.Prog Dec.Format Dec.Delta Dec.Policies Enc.EncModel Enc.HuffProofs
  Gen.Consts Gen.DecTabs Safe.TreeModel Safe.TreeLemmas Safe.TreeBuild.
Import ListNotations.
Local Open Scope N_scope.

Lemma WS_FF m lens k : (1 <= k)%nat -> N.of_nat k <= m -> WS m lens (k - 1) = FF lens (k - 1) * 2 ^ (m - N.of_nat k).
Proof.
  intros H1 H2. unfold WS. rewrite FF_W.
  replace (m - N.of_nat (k - 1)) with (N.succ (m - N.of_nat k)) by lia. rewrite N.pow_succ_r'. lia.
Qed.

Lemma WS_FF_S m lens k : (1 <= k)%nat -> N.of_nat k <= m ->
  WS m lens k = (FF lens (k - 1) + cnt lens k) * 2 ^ (m - N.of_nat k).
Proof.
  intros H1 H2. replace k with (S (k - 1)) at 1 by lia. rewrite WS_S by lia.
  replace (S (k - 1)) with k by lia. rewrite WS_FF by assumption. lia.
Qed.

Lemma top_bits lens v k : (1 <= k <= 20)%nat -> WS 64 lens (k - 1) <= v < WS 64 lens k ->
  FF lens (k - 1) <= v / 2 ^ (64 - N.of_nat k) < FF lens (k - 1) + cnt lens k.
Proof.
  intros Hk [H1 H2]. rewrite WS_FF in H1 by lia. rewrite WS_FF_S in H2 by lia.
  assert (P : 2 ^ (64 - N.of_nat k) <> 0) by (apply N.pow_nonzero; discriminate).
  split.
  - apply N.div_le_lower_bound; [exact P|]. rewrite N.mul_comm. exact H1.
  - apply N.div_lt_upper_bound; [exact P|]. rewrite N.mul_comm. exact H2.
Qed.

Lemma div_sub_mul v F m : m <> 0 -> F * m <= v -> (v - F * m) / m = v / m - F.
Proof.
  intros Hm H. replace v with ((v - F * m) + F * m) at 2 by lia. rewrite N.div_add by exact Hm. rewrite N.add_sub. reflexivity.
Qed.

(* (s, k) is what the canonical code of [lens] assigns to the buffer value v *)
Definition dec_rel (lens : list N) (v s : N) (k : nat) : Prop :=
  (1 <= k <= 20)%nat /\ WS 64 lens (k - 1) <= v < WS 64 lens k /\
  exists a, a < N.of_nat (length lens) /\
    a = nth (N.to_nat (IDX lens (k - 1) + (v / 2 ^ (64 - N.of_nat k) - FF lens (k - 1)))) (sorted_syms lens) 0 /\
    s = isym (N.of_nat (length lens)) a.

(* x = (p << 5) | k read back: k = x & 0x1F, p = x >> 5 *)
Lemma entry_fields p k : k < 32 -> N.land (p * 32 + k) 31 = k /\ (p * 32 + k) / 2 ^ 5 = p.
Proof.
  intro Hk. rewrite (N.land_ones _ 5), N.add_comm. change (2 ^ 5) with 32.
  rewrite N.mod_add, N.div_add, N.mod_small, N.div_small by (discriminate || exact Hk). split; reflexivity.
Qed.

Lemma div_window v d lo hi : d <> 0 -> lo <= v / d < hi -> lo * d <= v < hi * d.
Proof.
  intros Hd [H1 H2]. split.
  - etransitivity; [apply N.mul_le_mono_r, H1|]. rewrite N.mul_comm. apply N.mul_div_le, Hd.
  - apply N.lt_le_trans with (d * N.succ (v / d)); [apply N.mul_succ_div_gt, Hd|].
    rewrite N.mul_comm. apply N.mul_le_mono_r, N.le_succ_l, H2.
Qed.

Section Decode.
Variable lens : list N.
Hypothesis Hok : lens_ok lens.

(* within its length class k, v selects slot r = (v >> (64 - k)) - FF(k - 1) of perm[] *)
Lemma class_decodes P v k : perm_ok lens P -> (1 <= k <= 20)%nat -> WS 64 lens (k - 1) <= v < WS 64 lens k ->
  v / 2 ^ (64 - N.of_nat k) - FF lens (k - 1) < cnt lens k /\
  dec_rel lens v (nth (N.to_nat (IDX lens (k - 1) + (v / 2 ^ (64 - N.of_nat k) - FF lens (k - 1)))) P 0) k.
Proof.
  intros PO Hk Hi. pose proof (top_bits lens v k Hk Hi) as TB.
  assert (Hr : v / 2 ^ (64 - N.of_nat k) - FF lens (k - 1) < cnt lens k) by lia.
  split; [exact Hr|]. destruct (PO k _ Hk Hr) as [a [Ha [Esort Eperm]]].
  split; [exact Hk|]. split; [exact Hi|]. exists a. auto.
Qed.

(* the entries of start[] for the r-th code of length k <= HUFF_START_WIDTH are those whose index is the
   top 10 bits of a buffer value in slot r of class k *)
Lemma fast_class v k r : (1 <= k <= 10)%nat -> r < cnt lens k ->
  lut_lo lens k r <= v / 2 ^ 54 < lut_lo lens k (r + 1) ->
  WS 64 lens (k - 1) <= v < WS 64 lens k /\ v / 2 ^ (64 - N.of_nat k) - FF lens (k - 1) = r.
Proof.
  intros Hk Hr Hc. unfold lut_lo in Hc. rewrite (WS_FF 10) in Hc by (cbn; lia).
  rewrite <- !N.mul_add_distr_r in Hc. apply div_window in Hc; [|discriminate].
  rewrite <- !N.mul_assoc, <- N.pow_add_r in Hc. replace (10 - N.of_nat k + 54) with (64 - N.of_nat k) in Hc by lia.
  rewrite (WS_FF 64), (WS_FF_S 64) by (cbn; lia). set (M := 2 ^ (64 - N.of_nat k)) in *.
  assert (HM : (FF lens (k - 1) + (r + 1)) * M <= (FF lens (k - 1) + cnt lens k) * M) by (apply N.mul_le_mono_r; lia).
  rewrite <- (N.div_unique v M (FF lens (k - 1) + r) (v - (FF lens (k - 1) + r) * M)) by lia. lia.
Qed.

Variable T : tree.
Hypothesis HT : tree_ok lens T.
Let n := N.of_nat (length lens).

(* from the all-ones buffer value the walk passes the sentinel base[21] and reads base[22] *)
Lemma walk_past B x : base_ok lens B -> UINT64_MAX <= x -> forall d k fuel, (k + d = 21)%nat -> (d < fuel)%nat ->
  while fuel (fun k => b <~ aget ABase B (add32 k 1) ;; Done (b <=? x)) (fun k => Done (add32 k 1)) (N.of_nat k) =
  Undef (OobRead ABase).
Proof.
  intros [LB BV] Hx. induction d as [|d IH]; intros k [|fuel] Hk Hf; try lia; cbn [while];
    rewrite add32_small by lia; replace (N.of_nat k + 1) with (N.of_nat (S k)) by lia.
  - unfold aget. replace (_ <? _) with false by lia. reflexivity.
  - rewrite aget_nat, BV by lia. cbn [bindM]. replace (_ <=? x) with true by (unfold BASE; lia).
    cbn [bindM]. apply IH; lia.
Qed.

Lemma tree_decode_allones : WS 10 lens 10 < 1024 -> tree_decode n T UINT64_MAX = Undef (OobRead ABase).
Proof.
  intro Hlong. destruct HT as [[LS ST] [BO _]].
  unfold tree_decode. rewrite const_HSW. change (shr64 UINT64_MAX (sub32 64 10)) with (Done (A := N) 1023).
  cbn [bindM]. rewrite aget_ok by lia. cbn [bindM].
  destruct (ST 1023 ltac:(lia)) as [(k & r & Hk & Hr & Hc & _)|(_ & k0 & -> & Hk0 & _)].
  { pose proof (lut_lo_le lens k (r + 1) Hk ltac:(lia)). pose proof (WS_mono 10 lens k 10 ltac:(lia) ltac:(cbn; lia)).
    lia. }
  rewrite (N.land_ones _ 5), N.mod_small by (change (2 ^ 5) with 32; lia). replace (N.of_nat k0 <=? 10) with false by lia.
  unfold walk. rewrite (walk_past _ _ BO (N.le_refl _) (21 - k0) k0) by (change FUEL_LEN with 23%nat; lia).
  reflexivity.
Qed.

Hypothesis Hn : (length lens <= 258)%nat.
Hypothesis Hfull : W lens 20 = 2 ^ 20.

Lemma tree_decode_spec v : v < UINT64_MAX ->
  exists s k, tree_decode n T v = Done (s, N.of_nat k, (v * 2 ^ N.of_nat k) mod W64) /\ dec_rel lens v s k.
Proof.
  intro Hv. destruct HT as [[LS ST] [BO [[LC [C0 CV]] [PO LP]]]].
  assert (Hc : v / 2 ^ 54 < 1024).
  { apply N.div_lt_upper_bound; [discriminate|]. lia. }
  unfold tree_decode. rewrite const_HSW, sub32_small, shr64_ok by lia. cbn [bindM].
  change (64 - 10) with 54. rewrite aget_ok by lia. cbn [bindM].
  destruct (ST _ Hc) as [(k & r & Hk & Hr & Hcr & ->)|(Hslow & k0 & -> & Hk0 & Hb0)].
  - destruct (fast_class v k r Hk Hr Hcr) as [Hi Er].
    destruct (class_decodes (t_perm T) v k PO ltac:(lia) Hi) as [_ D]. rewrite Er in D.
    unfold XE. set (p := nth _ (t_perm T) 0) in *.
    destruct (entry_fields p (N.of_nat k) ltac:(lia)) as [-> E2].
    replace (N.of_nat k <=? 10) with true by lia.
    rewrite shr32_ok, E2 by lia. cbn [bindM fst snd]. rewrite shl64_ok by lia.
    exists p, k. split; [reflexivity|exact D].
  - rewrite (N.land_ones _ 5), N.mod_small by (change (2 ^ 5) with 32; lia). replace (N.of_nat k0 <=? 10) with false by lia.
    pose proof (N.mul_div_le v (2 ^ 54) ltac:(discriminate)) as Hcv.
    destruct (walk_spec lens Hfull (t_base T) v k0 BO ltac:(lia) Hv ltac:(lia)) as [k [-> [Hk Hi]]]. cbn [bindM].
    destruct (class_decodes (t_perm T) v k PO ltac:(lia) Hi) as [Hr D].
    rewrite aget_nat, CV by lia. cbn [bindM]. destruct BO as [LB BV].
    rewrite aget_nat, BV by lia. cbn [bindM].
    replace (BASE lens k) with (WS 64 lens (k - 1)) by (unfold BASE; lia).
    rewrite sub64_small, sub32_small, shr64_ok by lia. cbn [bindM].
    rewrite (WS_FF 64 lens k) by (cbn; lia).
    rewrite div_sub_mul by (try (apply N.pow_nonzero; discriminate); rewrite <- WS_FF by (cbn; lia); lia).
    pose proof (IDX_le_len lens k Hok ltac:(lia)) as IL. rewrite IDX_pred in IL by lia.
    rewrite add64_small by lia. unfold aget_perm.
    replace (_ <? n) with true by (unfold n; lia).
    rewrite aget_ok by lia. cbn [bindM fst snd]. rewrite shl64_ok by lia.
    eexists _, k. split; [reflexivity|exact D].
Qed.
End Decode.

Lemma isym_inj n a b : 3 <= n <= 258 -> a < n -> b < n -> isym n a = isym n b -> a = b.
Proof.
  intros Hn Ha Hb. unfold isym, RUN_A, RUN_B, EOB.
  destruct (N.eqb_spec a 0); destruct (N.eqb_spec a 1); destruct (N.eqb_spec a (n - 1));
  destruct (N.eqb_spec b 0); destruct (N.eqb_spec b 1); destruct (N.eqb_spec b (n - 1)); cbn; lia.
Qed.

Definition verdict_result (vd : verdict) : result unit :=
  match vd with VBuilt => Ok tt | VIncomplete => Err ErrIncomplete | VPrefix => Err ErrPrefix end.

(* what the delta reader of retrieve() guarantees about code_len[0 .. alpha_size-1], and the shape of
   the memory make_tree() works on: [pad] is whatever code_len[] holds above alpha_size, [T] whatever the
   tree held before *)
Definition tree_pre (lens pad : list N) (T : tree) : Prop :=
  (3 <= length lens)%nat /\ Forall (fun l => 1 <= l <= 20) lens /\
  N.of_nat (length lens + length pad) = LEN_SIZE /\ tree_wf T.

Lemma tree_pre_unfold lens pad T : tree_pre lens pad T ->
  lens_ok lens /\ (3 <= length lens)%nat /\ (length lens + length pad = 258)%nat /\ tree_wf T.
Proof.
  intros [A [B [C D]]]. change LEN_SIZE with 258 in C.
  split; [exact B|]. split; [exact A|]. split; [lia|exact D].
Qed.

Lemma tree_pre_alpha lens pad T : tree_pre lens pad T -> 3 <= N.of_nat (length lens) <= MAX_ALPHA_SIZE.
Proof. intros [A [B [C D]]]. change LEN_SIZE with 258 in C. change MAX_ALPHA_SIZE with 258. lia. Qed.

Lemma tree_ok_wf lens T : tree_ok lens T -> tree_wf T.
Proof.
  intros [[LS _] [[LB _] [[LC _] [_ LP]]]]. unfold tree_wf. rewrite LS, LB, LC, LP. repeat split; reflexivity.
Qed.

Theorem make_tree_total : forall lens pad T, tree_pre lens pad T ->
  exists vd T', make_tree (N.of_nat (length lens)) (lens ++ pad) T = Done (vd, T') /\ tree_wf T' /\
                verdict_result vd = complete_only lens /\ (vd = VBuilt -> tree_ok lens T').
Proof.
  intros lens pad T Hpre. destruct (tree_pre_unfold lens pad T Hpre) as [Hok [Hn3 [Hpad Hwf]]].
  unfold complete_only. rewrite (kraft_W20 lens Hok). change kraft_full with (2 ^ 20).
  destruct (N.eqb_spec (W lens 20) (2 ^ 20)) as [Hfull|Hne].
  - destruct (make_tree_built lens pad Hok Hn3 Hpad T Hwf Hfull) as [T' [E OK]].
    exists VBuilt, T'. split; [exact E|]. split; [exact (tree_ok_wf lens T' OK)|]. auto.
  - destruct (make_tree_error lens pad Hok Hn3 Hpad T Hwf Hne) as [C E].
    destruct (make_tree_prefix lens pad Hok Hn3 Hpad T Hwf) as [C' [LC [_ E']]].
    apply N.eqb_neq in Hne. rewrite Hne in E'. cbn [negb] in E'. rewrite E' in E. injection E as <-.
    eexists _, _. split; [exact E'|]. split.
    + destruct (tree_wf_lengths T Hwf) as [LS [LB [_ LP]]]. unfold tree_wf. cbn [t_start t_base t_count t_perm].
      rewrite LS, LB, LC, LP. repeat split; reflexivity.
    + destruct (W lens 20 <? 2 ^ 20); split; (reflexivity || discriminate).
Qed.

(* make_tree() is a function: whatever it returns is what [make_tree_total] describes *)
Lemma make_tree_spec lens pad T vd T' : tree_pre lens pad T ->
  make_tree (N.of_nat (length lens)) (lens ++ pad) T = Done (vd, T') ->
  tree_wf T' /\ verdict_result vd = complete_only lens /\ (vd = VBuilt -> tree_ok lens T').
Proof.
  intros Hpre E. destruct (make_tree_total lens pad T Hpre) as [vd0 [T0 [E0 H]]].
  rewrite E in E0. injection E0 as <- <-. exact H.
Qed.

(* (a) no undefined event, whatever the verdict; the arrays keep their declared sizes *)
Theorem make_tree_safe : forall lens pad T, tree_pre lens pad T ->
  exists vd T', make_tree (N.of_nat (length lens)) (lens ++ pad) T = Done (vd, T') /\ tree_wf T'.
Proof.
  intros lens pad T Hpre. destruct (make_tree_total lens pad T Hpre) as [vd [T' [E [WF _]]]]. eauto.
Qed.

(* (b) the verdict is the Kraft verdict *)
Theorem make_tree_verdict : forall lens pad T vd T', tree_pre lens pad T ->
  make_tree (N.of_nat (length lens)) (lens ++ pad) T = Done (vd, T') ->
  (vd = VBuilt <-> kraft lens = kraft_full) /\
  (vd = VIncomplete <-> kraft lens < kraft_full) /\
  (vd = VPrefix <-> kraft_full < kraft lens).
Proof.
  intros lens pad T vd T' Hpre E. destruct (make_tree_spec lens pad T vd T' Hpre E) as [_ [V _]].
  unfold complete_only in V.
  destruct (N.eqb_spec (kraft lens) kraft_full), (N.ltb_spec (kraft lens) kraft_full), vd; try discriminate;
    repeat split; intros; try discriminate; try assumption; try lia; reflexivity.
Qed.

Theorem make_tree_verdict_policy : forall lens pad T vd T', tree_pre lens pad T ->
  make_tree (N.of_nat (length lens)) (lens ++ pad) T = Done (vd, T') ->
  verdict_result vd = complete_only lens.
Proof. intros lens pad T vd T' Hpre E. apply (make_tree_spec lens pad T vd T' Hpre E). Qed.

(* what is stored in rs->mtf[rs->t]: the tree number or the error code of Gen/Consts.v *)
Lemma verdict_code_spec t vd : t < MAX_TREES ->
  (vd = VBuilt <-> verdict_code t vd = t) /\ (vd = VIncomplete <-> verdict_code t vd = E_ERR_INCOMPLT) /\
  (vd = VPrefix <-> verdict_code t vd = E_ERR_PREFIX).
Proof.
  intro Ht. change MAX_TREES with 6 in Ht. unfold verdict_code. change E_ERR_INCOMPLT with 11. change E_ERR_PREFIX with 10.
  destruct vd; repeat split; intros; try discriminate; try reflexivity; try lia.
Qed.

Lemma built_tree_ok lens pad T T' : tree_pre lens pad T ->
  make_tree (N.of_nat (length lens)) (lens ++ pad) T = Done (VBuilt, T') ->
  tree_ok lens T' /\ W lens 20 = 2 ^ 20 /\ lens_ok lens /\ (length lens <= 258)%nat.
Proof.
  intros Hpre E. destruct (make_tree_spec lens pad T _ T' Hpre E) as [_ [V OK]].
  destruct (tree_pre_unfold lens pad T Hpre) as [Hok [_ [Hpad _]]].
  split; [exact (OK eq_refl)|]. split; [|split; [exact Hok|lia]].
  unfold complete_only in V. rewrite (kraft_W20 lens Hok) in V. change kraft_full with (2 ^ 20) in V.
  destruct (N.eqb_spec (W lens 20) (2 ^ 20)); [assumption|]. destruct (W lens 20 <? 2 ^ 20); discriminate.
Qed.

(* the sentinel that stops the walk  while (v >= T->base[k + 1]) k++ *)
Theorem built_tree_sentinel : forall lens pad T T', tree_pre lens pad T ->
  make_tree (N.of_nat (length lens)) (lens ++ pad) T = Done (VBuilt, T') ->
  nth 21 (t_base T') 0 = 2 ^ 64 - 1.
Proof.
  intros lens pad T T' Hpre E. destruct (built_tree_ok lens pad T T' Hpre E) as [[_ [[_ BV] _]] [Hfull _]].
  rewrite BV by lia. apply (BASE_21 lens Hfull).
Qed.

(* the precondition on v cannot be dropped: with a code longer than HUFF_START_WIDTH bits, the all-ones
   buffer walks past the sentinel base[MAX_CODE_LENGTH + 1] *)
Definition lens21 : list N := [1; 2; 3; 4; 5; 6; 7; 8; 9; 10; 11; 12; 13; 14; 15; 16; 17; 18; 19; 20; 20].
Theorem tree_decode_allones_oob :
  tree_pre lens21 (fill 237 0xAA) garbage_tree /\
  exists T', make_tree 21 (lens21 ++ fill 237 0xAA) garbage_tree = Done (VBuilt, T') /\
             tree_decode 21 T' (2 ^ 64 - 1) = Undef (OobRead ABase).
Proof.
  assert (Hpre : tree_pre lens21 (fill 237 0xAA) garbage_tree).
  { unfold tree_pre, tree_wf. repeat split; try reflexivity; [cbn; lia|repeat constructor; cbn; lia]. }
  split; [exact Hpre|]. destruct (tree_pre_unfold _ _ _ Hpre) as [Hok [Hn3 [Hpad Hwf]]].
  destruct (make_tree_built lens21 _ Hok Hn3 Hpad _ Hwf eq_refl) as [T' [E OK]].
  exists T'. split; [exact E|]. apply (tree_decode_allones lens21 T' OK). reflexivity.
Qed.

(* (d) the decode sequence computes the canonical bit-by-bit decoder of Dec/Format.v on the bits of v:
   it returns the internal symbol [isym alpha a] of the alphabet index a that [decode_sym lens] reads from
   the 64 buffer bits (msb first), and k is the number of bits [decode_sym] consumed *)
Theorem tree_decode_correct : forall lens pad T T' v, tree_pre lens pad T ->
  make_tree (N.of_nat (length lens)) (lens ++ pad) T = Done (VBuilt, T') ->
  v < 2 ^ 64 - 1 ->
  exists a k rest,
    tree_decode (N.of_nat (length lens)) T' v =
      Done (isym (N.of_nat (length lens)) a, N.of_nat k, (v * 2 ^ N.of_nat k) mod 2 ^ 64) /\
    (1 <= k <= 20)%nat /\ a < N.of_nat (length lens) /\
    run (decode_sym lens) (bits_msb 64 v) = Ok (a, rest) /\
    rest = bits_msb (64 - k) v /\ length rest = (64 - k)%nat.
Proof.
  intros lens pad T T' v Hpre E Hv.
  destruct (built_tree_ok lens pad T T' Hpre E) as [OK [Hfull [Hok Hn]]].
  destruct (tree_decode_spec lens Hok T' OK Hn Hfull v Hv) as [s [k [Ed [Hk [Hi [a [Ha [Ea Es]]]]]]]].
  exists a, k, (bits_msb (64 - k) v). subst s. split; [exact Ed|]. split; [exact Hk|]. split; [exact Ha|].
  split; [|split; [reflexivity|apply bits_msb_length]].
  pose proof (top_bits lens v k Hk Hi) as TB. set (C := v / 2 ^ (64 - N.of_nat k)) in *.
  replace 64%nat with (k + (64 - k))%nat at 1 by lia. rewrite bits_msb_split.
  replace (N.of_nat (64 - k)) with (64 - N.of_nat k) by lia. fold C.
  unfold decode_sym. rewrite counts_cnt.
  pose proof (dsym_run lens (sorted_syms lens) C k (bits_msb (64 - k) v) ltac:(lia) TB k 0%nat ltac:(lia) ltac:(lia)) as R.
  assert (Z : N.shiftr C (N.of_nat k) = 0).
  { rewrite N.shiftr_div_pow2. apply N.div_small. unfold C.
    apply N.div_lt_upper_bound; [apply N.pow_nonzero; discriminate|].
    rewrite <- N.pow_add_r. replace (64 - N.of_nat k + N.of_nat k) with 64 by lia. lia. }
  rewrite Z in R. cbn [N.mul] in R.
  change (FF lens 0) with 0 in R. change (IDX lens 0) with 0 in R. change (20 - 0)%nat with 20%nat in R.
  rewrite R. rewrite Ea. reflexivity.
Qed.

(* (c) the decode sequence on a built tree runs without an undefined event for every buffer value
   below 2^64 - 1; the code length is in 1..20, the symbol is an internal symbol of the alphabet *)
Theorem tree_decode_safe : forall lens pad T T' v, tree_pre lens pad T ->
  make_tree (N.of_nat (length lens)) (lens ++ pad) T = Done (VBuilt, T') ->
  v < 2 ^ 64 - 1 ->
  exists s k v', tree_decode (N.of_nat (length lens)) T' v = Done (s, k, v') /\
                 1 <= k <= 20 /\ s <= 258 /\ v' = (v * 2 ^ k) mod 2 ^ 64.
Proof.
  intros lens pad T T' v Hpre E Hv.
  destruct (tree_decode_correct lens pad T T' v Hpre E Hv) as [a [k [_ [Ed [Hk [Ha _]]]]]].
  pose proof (tree_pre_alpha lens pad T Hpre) as Hn. change MAX_ALPHA_SIZE with 258 in Hn.
  eexists _, _, _. split; [exact Ed|]. split; [lia|]. split; [apply isym_range; lia|reflexivity].
Qed.

(* the hypotheses are satisfiable on non-trivial instances *)
Example tree_pre_example : tree_pre lens21 (fill 237 0xAA) garbage_tree /\ kraft lens21 = kraft_full.
Proof. split; [apply tree_decode_allones_oob|reflexivity]. Qed.

Print Assumptions make_tree_safe.
Print Assumptions make_tree_verdict.
Print Assumptions make_tree_verdict_policy.
Print Assumptions built_tree_sentinel.
Print Assumptions tree_decode_safe.
Print Assumptions tree_decode_allones_oob.
Print Assumptions tree_decode_correct.
