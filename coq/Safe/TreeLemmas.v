(* Generic lemmas for the array-level model of Safe/TreeModel.v: the monad, arrays, machine
   arithmetic, loop invariants; and the arithmetic of canonical codes in left-justified form. *)
From Coq Require Import List NArith ZArith Arith Bool Lia ZifyClasses ZifyBool ZifyNat ZifyN.
From LBZ Require Import Common.ListArr Dec.Format Enc.HuffProofs Safe.TreeModel.
Import ListNotations.
Local Open Scope N_scope.

Lemma upd_length i x l : length (upd i x l) = length l.
Proof. exact (lupd_length i x l). Qed.

Lemma nth_upd_same i x l d : (i < length l)%nat -> nth i (upd i x l) d = x.
Proof. exact (nth_lupd_same i x l d). Qed.

Lemma nth_upd_other i j x l d : j <> i -> nth j (upd i x l) d = nth j l d.
Proof. exact (nth_lupd_other i j x l d). Qed.

Lemma aget_ok a l i : i < N.of_nat (length l) -> aget a l i = Done (nth (N.to_nat i) l 0).
Proof. intro H. unfold aget. apply N.ltb_lt in H. rewrite H. reflexivity. Qed.

Lemma aset_ok a l i x : i < N.of_nat (length l) -> aset a l i x = Done (upd (N.to_nat i) x l).
Proof. intro H. unfold aset. apply N.ltb_lt in H. rewrite H. reflexivity. Qed.

(* [aget_ok] / [aset_ok] at an index given as a nat *)
Lemma aget_nat a l (i : nat) : (i < length l)%nat -> aget a l (N.of_nat i) = Done (nth i l 0).
Proof. intro H. rewrite aget_ok by lia. rewrite Nat2N.id. reflexivity. Qed.

Lemma aset_nat a l (i : nat) x : (i < length l)%nat -> aset a l (N.of_nat i) x = Done (upd i x l).
Proof. intro H. rewrite aset_ok by lia. rewrite Nat2N.id. reflexivity. Qed.

Lemma W32_val : W32 = 4294967296. Proof. reflexivity. Qed.
Lemma W64_val : W64 = 18446744073709551616. Proof. reflexivity. Qed.

(* lia knows the word sizes *)
#[global] Instance Op_W16 : CstOp W16 := { TCst := 65536%Z; TCstInj := eq_refl }.
#[global] Instance Op_W32 : CstOp W32 := { TCst := 4294967296%Z; TCstInj := eq_refl }.
#[global] Instance Op_W64 : CstOp W64 := { TCst := 18446744073709551616%Z; TCstInj := eq_refl }.
#[global] Instance Op_UINT64_MAX : CstOp UINT64_MAX := { TCst := 18446744073709551615%Z; TCstInj := eq_refl }.
Add Zify CstOp Op_W16.
Add Zify CstOp Op_W32.
Add Zify CstOp Op_W64.
Add Zify CstOp Op_UINT64_MAX.

Lemma add32_small a b : a + b < W32 -> add32 a b = a + b.
Proof. intro H. unfold add32. apply N.mod_small. exact H. Qed.

Lemma sub32_small a b : b <= a -> a < W32 -> sub32 a b = a - b.
Proof.
  intros H1 H2. unfold sub32. rewrite (N.mod_small b) by lia.
  replace (a + W32 - b) with ((a - b) + 1 * W32) by lia.
  rewrite N.mod_add by lia. apply N.mod_small. lia.
Qed.

Lemma add64_small a b : a + b < W64 -> add64 a b = a + b.
Proof. intro H. unfold add64. apply N.mod_small. exact H. Qed.

Lemma sub64_small a b : b <= a -> a < W64 -> sub64 a b = a - b.
Proof.
  intros H1 H2. unfold sub64. rewrite (N.mod_small b) by lia.
  replace (a + W64 - b) with ((a - b) + 1 * W64) by lia.
  rewrite N.mod_add by lia. apply N.mod_small. lia.
Qed.

Lemma shl64_ok x c : c < 64 -> shl64 x c = Done ((x * 2 ^ c) mod W64).
Proof. intro H. unfold shl64. apply N.ltb_lt in H. rewrite H, N.shiftl_mul_pow2. reflexivity. Qed.

Lemma shr64_ok x c : c < 64 -> shr64 x c = Done (x / 2 ^ c).
Proof. intro H. unfold shr64. apply N.ltb_lt in H. rewrite H, N.shiftr_div_pow2. reflexivity. Qed.

Lemma shr32_ok x c : c < 32 -> shr32 x c = Done (x / 2 ^ c).
Proof. intro H. unfold shr32. apply N.ltb_lt in H. rewrite H, N.shiftr_div_pow2. reflexivity. Qed.

Lemma shl_int_ok x c : c < 32 -> x * 2 ^ c < 2 ^ 31 -> shl_int x c = Done (x * 2 ^ c).
Proof.
  intros H1 H2. unfold shl_int. apply N.ltb_lt in H1. rewrite H1, N.shiftl_mul_pow2.
  apply N.ltb_lt in H2. rewrite H2. reflexivity.
Qed.

(* (p << 5) | k for k < 32 *)
Lemma lor_shift5 p k : k < 32 -> N.lor (p * 32) k = p * 32 + k.
Proof.
  intro Hk.
  assert (D : N.land (p * 32) k = 0).
  { apply N.bits_inj. intro i. rewrite N.land_spec, N.bits_0.
    destruct (N.lt_ge_cases i 5) as [Hi|Hi].
    - change 32 with (2 ^ 5). rewrite N.mul_pow2_bits_low by exact Hi. reflexivity.
    - destruct k as [|kp]; [rewrite N.bits_0; apply andb_false_r|].
      rewrite (N.bits_above_log2 (N.pos kp) i), andb_false_r; [reflexivity|].
      assert (N.log2 (N.pos kp) < 5); [|lia].
      apply N.log2_lt_pow2; [lia|exact Hk]. }
  rewrite <- N.lxor_lor by exact D. symmetry. apply N.add_nocarry_lxor. exact D.
Qed.

(* [ok m Q]: m runs without an undefined event and its result satisfies Q *)
Definition ok {A} (m : M A) (Q : A -> Prop) : Prop := exists a, m = Done a /\ Q a.

Lemma ok_ret {A} (a : A) (Q : A -> Prop) : Q a -> ok (Done a) Q.
Proof. intro H. exists a. auto. Qed.

Lemma ok_bind {A B} (m : M A) (f : A -> M B) Q : ok m (fun a => ok (f a) Q) -> ok (bindM m f) Q.
Proof. intros [a [-> H]]. exact H. Qed.

Lemma ok_weaken {A} (m : M A) (P Q : A -> Prop) : ok m P -> (forall a, P a -> Q a) -> ok m Q.
Proof. intros [a [E H]] HPQ. exists a. auto. Qed.

(* for (k = lo; k < lo + cnt; k++): the invariant is indexed by the number of iterations done *)
Lemma for_range_inv {St} (body : N -> St -> M St) cnt : forall (I : nat -> St -> Prop) lo s0,
  I 0%nat s0 ->
  (forall i s, (i < cnt)%nat -> I i s -> ok (body (N.of_nat (lo + i)) s) (I (S i))) ->
  ok (for_loop (nrange lo cnt) body s0) (I cnt).
Proof.
  induction cnt as [|cnt IH]; intros I lo s0 H0 Hs; [apply ok_ret, H0|].
  apply ok_bind. specialize (Hs 0%nat s0 ltac:(lia) H0) as H1. rewrite Nat.add_0_r in H1.
  apply (ok_weaken _ _ _ H1). intros s1 I1.
  apply (IH (fun i => I (S i)) (S lo)); [exact I1|]. intros i s Hi. rewrite Nat.add_succ_comm. apply Hs. lia.
Qed.

(* for (k = lo + cnt - 1; k >= lo; k--) *)
Lemma for_range_down_inv {St} (body : N -> St -> M St) lo cnt : forall (I : nat -> St -> Prop) s0,
  I 0%nat s0 ->
  (forall i s, (i < cnt)%nat -> I i s -> ok (body (N.of_nat (lo + cnt - 1 - i)) s) (I (S i))) ->
  ok (for_loop (rev (nrange lo cnt)) body s0) (I cnt).
Proof.
  induction cnt as [|cnt IH]; intros I s0 H0 Hs; [apply ok_ret, H0|].
  unfold nrange. rewrite seq_S, map_app, rev_app_distr. apply ok_bind.
  specialize (Hs 0%nat s0 ltac:(lia) H0) as H1. replace (lo + S cnt - 1 - 0)%nat with (lo + cnt)%nat in H1 by lia.
  apply (ok_weaken _ _ _ H1). intros s1 I1.
  apply (IH (fun i => I (S i))); [exact I1|]. intros i s Hi.
  replace (lo + cnt - 1 - i)%nat with (lo + S cnt - 1 - S i)%nat by lia. apply Hs. lia.
Qed.

Lemma while_inv {St} (I : St -> Prop) (mu : St -> nat) (cond : St -> M bool) (body : St -> M St) :
  (forall s, I s -> exists b, cond s = Done b /\
     (b = true -> exists s', body s = Done s' /\ I s' /\ (mu s' < mu s)%nat)) ->
  forall fuel s, I s -> (mu s < fuel)%nat ->
  exists s', while fuel cond body s = Done s' /\ I s' /\ cond s' = Done false.
Proof.
  intros Hstep. induction fuel as [|f IH]; intros s Hi Hm; [lia|].
  cbn [while]. destruct (Hstep s Hi) as [b [Ec Hb]]. rewrite Ec. cbn [bindM].
  destruct b.
  - destruct (Hb eq_refl) as [s' [Eb [Hi' Hm']]]. rewrite Eb. cbn [bindM].
    apply IH; [exact Hi'|lia].
  - exists s. auto.
Qed.

Lemma do_while_inv {St} (I J : St -> Prop) (mu : St -> nat) (body : St -> M St) (cond : St -> M bool) :
  (forall s, I s -> exists s', body s = Done s' /\ J s' /\ exists b, cond s' = Done b /\
     (b = true -> I s' /\ (mu s' < mu s)%nat)) ->
  forall fuel s, I s -> (mu s < fuel)%nat ->
  exists s', do_while fuel body cond s = Done s' /\ J s' /\ cond s' = Done false.
Proof.
  intros Hstep. induction fuel as [|f IH]; intros s Hi Hm; [lia|].
  cbn [do_while]. destruct (Hstep s Hi) as [s' [Eb [Hj [b [Ec Hb]]]]]. rewrite Eb. cbn [bindM].
  rewrite Ec. cbn [bindM]. destruct b.
  - destruct (Hb eq_refl) as [Hi' Hm']. apply IH; [exact Hi'|lia].
  - exists s'. auto.
Qed.

Definition lens_ok (lens : list N) : Prop := Forall (fun l => 1 <= l <= 20) lens.

Lemma lens_ok_forallb lens : lens_ok lens -> forallb (fun l => (1 <=? l) && (l <=? 20)) lens = true.
Proof.
  intro H. apply forallb_forall. intros x Hx. unfold lens_ok in H. rewrite Forall_forall in H.
  specialize (H x Hx). apply andb_true_iff. split; apply N.leb_le; lia.
Qed.

Lemma lens_ok_nth lens s : lens_ok lens -> (s < length lens)%nat -> 1 <= nth s lens 0 <= 20.
Proof. intros H Hs. unfold lens_ok in H. rewrite Forall_forall in H. apply H. apply nth_In. exact Hs. Qed.

Lemma count_len_le lens l : count_len lens l <= N.of_nat (length lens).
Proof.
  unfold count_len. induction lens as [|x r IH]; [cbn; lia|].
  cbn [filter length]. destruct (N.eqb l x); cbn [length]; lia.
Qed.

Lemma count_len_out lens l : lens_ok lens -> ~ (1 <= l <= 20) -> count_len lens l = 0.
Proof.
  intros H Hl. induction H as [|x r Hx Hr IH]; [reflexivity|].
  rewrite count_len_cons, IH. destruct (N.eqb_spec l x); lia.
Qed.

Lemma count_len_app a b l : count_len (a ++ b) l = count_len a l + count_len b l.
Proof. unfold count_len. rewrite filter_app, app_length. lia. Qed.

Lemma firstn_S_nth (l : list N) i : (i < length l)%nat -> firstn (S i) l = firstn i l ++ [nth i l 0].
Proof. apply ListArr.firstn_S_nth. Qed.

Lemma count_len_firstn_S lens i l : (i < length lens)%nat ->
  count_len (firstn (S i) lens) l = count_len (firstn i lens) l + (if N.eqb l (nth i lens 0) then 1 else 0).
Proof.
  intro H. rewrite firstn_S_nth by exact H. rewrite count_len_app. f_equal.
  rewrite count_len_cons. unfold count_len. cbn [filter length]. lia.
Qed.

Lemma count_len_firstn_le lens i l : count_len (firstn i lens) l <= count_len lens l.
Proof.
  rewrite <- (firstn_skipn i lens) at 2. rewrite count_len_app. lia.
Qed.

(* W in an m-bit frame: the number of m-bit strings that start with a code of length <= k *)
Definition WS (m : N) (lens : list N) (k : nat) : N := W lens k * 2 ^ (m - N.of_nat k).

Lemma WS_0 m lens : WS m lens 0 = 0.
Proof. unfold WS. rewrite W_0. reflexivity. Qed.

Lemma WS_S m lens k : N.of_nat (S k) <= m ->
  WS m lens (S k) = WS m lens k + cnt lens (S k) * 2 ^ (m - N.of_nat (S k)).
Proof.
  intro H. unfold WS. rewrite W_S.
  replace (m - N.of_nat k) with (N.succ (m - N.of_nat (S k))) by lia.
  rewrite N.pow_succ_r'. lia.
Qed.

Lemma WS_mono m lens a b : (a <= b)%nat -> N.of_nat b <= m -> WS m lens a <= WS m lens b.
Proof.
  intros Hab Hb. induction b as [|b IH]; [replace a with 0%nat by lia; lia|].
  destruct (Nat.eq_dec a (S b)) as [->|Hne]; [lia|].
  rewrite WS_S by exact Hb. specialize (IH ltac:(lia) ltac:(lia)). lia.
Qed.

Lemma WS_scale a b lens k : N.of_nat k <= a -> a <= b -> WS b lens k = WS a lens k * 2 ^ (b - a).
Proof.
  intros H1 H2. unfold WS. rewrite <- N.mul_assoc, <- N.pow_add_r. do 2 f_equal. lia.
Qed.

Lemma WS_strict m lens k : N.of_nat (S k) <= m -> cnt lens (S k) <> 0 -> WS m lens k < WS m lens (S k).
Proof.
  intros H Hc. rewrite WS_S by exact H.
  assert (0 < 2 ^ (m - N.of_nat (S k))) by (apply N.neq_0_lt_0, N.pow_nonzero; discriminate).
  nia.
Qed.

(* for lengths in 1..20 the Kraft sum (in units of 2^-20) is the weight W at depth 20 *)
Lemma ksum_W20 lens : lens_ok lens -> ksum lens = W lens 20.
Proof.
  intro H. induction H as [|x r Hx Hr IH]; [reflexivity|].
  cbn [ksum W]. rewrite IH, N.shiftl_1_l.
  assert (E1 : (1 <=? x) = true) by (apply N.leb_le; lia).
  assert (E2 : (x <=? N.of_nat 20) = true) by (apply N.leb_le; lia).
  rewrite E1, E2. cbn [andb]. reflexivity.
Qed.

Lemma kraft_W20 lens : lens_ok lens -> kraft lens = W lens 20.
Proof. intro H. rewrite kraft_ksum. apply ksum_W20. exact H. Qed.

Lemma ksum_bound lens : lens_ok lens -> ksum lens <= N.of_nat (length lens) * 2 ^ 19.
Proof.
  intro H. induction H as [|x r Hx Hr IH]; [cbn; lia|].
  cbn [ksum length]. rewrite N.shiftl_1_l.
  assert (2 ^ (20 - x) <= 2 ^ 19) by (apply N.pow_le_mono_r; lia). lia.
Qed.

Lemma WS20_W20 lens : WS 20 lens 20 = W lens 20.
Proof. unfold WS. cbn [N.of_nat]. rewrite N.sub_diag, N.pow_0_r. lia. Qed.

Lemma IDX_0 lens : IDX lens 0 = 0.
Proof. reflexivity. Qed.

Lemma IDX_mono lens a b : (a <= b)%nat -> IDX lens a <= IDX lens b.
Proof.
  intro H. induction b as [|b IH]; [replace a with 0%nat by lia; lia|].
  destruct (Nat.eq_dec a (S b)) as [->|Hne]; [lia|]. rewrite IDX_S. specialize (IH ltac:(lia)). lia.
Qed.

Definition CLE (lens : list N) (k : nat) : N :=
  N.of_nat (length (filter (fun l => (1 <=? l) && (l <=? N.of_nat k)) lens)).

Lemma CLE_S lens k : CLE lens (S k) = CLE lens k + cnt lens (S k).
Proof.
  unfold CLE, cnt, count_len. induction lens as [|x r IH]; [reflexivity|].
  cbn [filter].
  destruct (N.leb_spec 1 x) as [H1|H1]; cbn [andb].
  - destruct (N.leb_spec x (N.of_nat (S k))) as [H2|H2]; destruct (N.leb_spec x (N.of_nat k)) as [H3|H3];
      destruct (N.eqb_spec (N.of_nat (S k)) x) as [H4|H4]; cbn [length]; try lia.
  - destruct (N.eqb_spec (N.of_nat (S k)) x) as [H4|H4]; cbn [length]; lia.
Qed.

Lemma IDX_CLE lens k : IDX lens k = CLE lens k.
Proof.
  induction k as [|k IH].
  - unfold CLE. rewrite IDX_0. induction lens as [|x r IHl]; [reflexivity|].
    cbn [filter]. destruct (N.leb_spec 1 x); cbn [andb]; [|exact IHl].
    destruct (N.leb_spec x (N.of_nat 0)); [cbn [N.of_nat] in *; lia|exact IHl].
  - rewrite IDX_S, CLE_S, IH. reflexivity.
Qed.

Lemma IDX_20 lens : lens_ok lens -> IDX lens 20 = N.of_nat (length lens).
Proof.
  intro H. rewrite IDX_CLE. unfold CLE. do 2 f_equal.
  induction H as [|x r Hx Hr IH]; [reflexivity|].
  cbn [filter].
  assert (E1 : (1 <=? x) = true) by (apply N.leb_le; lia).
  assert (E2 : (x <=? N.of_nat 20) = true) by (apply N.leb_le; lia).
  rewrite E1, E2. cbn [andb length]. rewrite IH. reflexivity.
Qed.

Lemma IDX_le_len lens k : lens_ok lens -> (k <= 20)%nat -> IDX lens k <= N.of_nat (length lens).
Proof. intros H Hk. rewrite <- IDX_20 by exact H. apply IDX_mono. exact Hk. Qed.

(* the r-th (from 0) element satisfying f *)
Lemma rth_exists (f : N -> bool) (l : list N) : forall r, (r < length (filter f l))%nat ->
  exists s, (s < length l)%nat /\ f (nth s l 0) = true /\ length (filter f (firstn s l)) = r.
Proof.
  induction l as [|x t IH]; intros r Hr; [cbn in Hr; lia|].
  cbn [filter] in Hr. destruct (f x) eqn:Ef.
  - destruct r as [|r].
    + exists 0%nat. cbn [length nth firstn filter]. repeat split; [lia|exact Ef].
    + cbn [length] in Hr. destruct (IH r ltac:(lia)) as [s [Hs [Hf Hc]]].
      exists (S s). cbn [length nth firstn filter]. rewrite Ef. cbn [length]. repeat split; [lia|exact Hf|lia].
  - destruct (IH r Hr) as [s [Hs [Hf Hc]]].
    exists (S s). cbn [length nth firstn filter]. rewrite Ef. repeat split; [lia|exact Hf|exact Hc].
Qed.

(* position of symbol s in the sorted symbol list *)
Definition pos (lens : list N) (s : nat) : N :=
  IDX lens (N.to_nat (nth s lens 0) - 1) + count_len (firstn s lens) (nth s lens 0).

Lemma pos_sorted lens s : lens_ok lens -> (s < length lens)%nat ->
  nth (N.to_nat (pos lens s)) (sorted_syms lens) 0 = N.of_nat s.
Proof.
  intros H Hs. pose proof (lens_ok_nth lens s H Hs) as Hl.
  unfold pos, count_len. apply sorted_nth; [exact Hs|lia].
Qed.

Lemma pos_lt lens s : lens_ok lens -> (s < length lens)%nat ->
  pos lens s < IDX lens (N.to_nat (nth s lens 0)).
Proof.
  intros H Hs. pose proof (lens_ok_nth lens s H Hs) as Hl. unfold pos.
  replace (N.to_nat (nth s lens 0)) with (S (N.to_nat (nth s lens 0) - 1)) at 2 by lia.
  rewrite IDX_S. unfold cnt. replace (N.of_nat (S (N.to_nat (nth s lens 0) - 1))) with (nth s lens 0) by lia.
  unfold count_len.
  pose proof (rank_lt (N.eqb (nth s lens 0)) lens s Hs (N.eqb_refl _)). lia.
Qed.

Lemma pos_inj lens s s' : lens_ok lens -> (s < length lens)%nat -> (s' < length lens)%nat ->
  pos lens s = pos lens s' -> s = s'.
Proof.
  intros H Hs Hs' E. pose proof (pos_sorted lens s H Hs) as A. pose proof (pos_sorted lens s' H Hs') as B.
  rewrite E in A. rewrite A in B. lia.
Qed.

(* every slot of length class k is the position of some symbol *)
Lemma pos_onto lens k r : lens_ok lens -> (1 <= k <= 20)%nat -> r < cnt lens k ->
  exists s, (s < length lens)%nat /\ nth s lens 0 = N.of_nat k /\ pos lens s = IDX lens (k - 1) + r.
Proof.
  intros H Hk Hr. unfold cnt, count_len in Hr.
  destruct (rth_exists (N.eqb (N.of_nat k)) lens (N.to_nat r) ltac:(lia)) as [s [Hs [Hf Hc]]].
  apply N.eqb_eq in Hf. exists s. split; [exact Hs|]. split; [congruence|].
  unfold pos. rewrite <- Hf. rewrite Nat2N.id. unfold count_len. lia.
Qed.

Lemma isym_range n a : n <= 258 -> a < n -> isym n a <= 258.
Proof.
  intros Hn Ha. unfold isym, RUN_A, RUN_B, EOB.
  destruct (N.eqb_spec a 0); destruct (N.eqb_spec a 1); destruct (N.eqb_spec a (n - 1)); cbn; lia.
Qed.
