(* Lemmas shared by the deque and heap refinement proofs: C `unsigned` arithmetic of
   Safe/PoolVocab.v, bounds-checked arrays of Safe/PoolModel.v, and the order facts about
   the REGENERATED pos_lt / pos_le (Gen/PoolTab.v) that the heap proofs rely on. *)
From Coq Require Import List NArith Arith Bool Lia ZifyBool ZifyN ZifyNat Permutation.
From LBZ Require Import Safe.PoolVocab Gen.PoolTab Safe.PoolModel.
Import ListNotations.
Local Open Scope N_scope.

(* largest capacity for which the `min(x, x - modulus)` wrap trick and `2*j+1` are exact *)
Definition UHALF : N := 2147483648.

(* [uadd], [usub]: unsigned arithmetic modulo UMOD *)
Lemma uadd_small a b : a + b < UMOD -> uadd a b = a + b.
Proof. unfold uadd, UMOD. intros. apply N.mod_small; auto. Qed.

Lemma usub_spec a b : a < UMOD -> b < UMOD -> usub a b = if b <=? a then a - b else a + UMOD - b.
Proof. unfold usub, UMOD. intros. destruct (N.leb_spec b a); lia. Qed.

Lemma umul_small a b : a * b < UMOD -> umul a b = a * b.
Proof. unfold umul, UMOD. intros. apply N.mod_small; auto. Qed.

Lemma uadd_lt a b : uadd a b < UMOD.
Proof. unfold uadd, UMOD. lia. Qed.

Lemma usub_lt a b : usub a b < UMOD.
Proof. unfold usub, UMOD. lia. Qed.

Lemma usub_small a b : b <= a -> a < UMOD -> usub a b = a - b.
Proof. intros H1 H2. rewrite usub_spec by lia. destruct (N.leb_spec b a); lia. Qed.

Lemma UMOD_UHALF : UMOD = 2 * UHALF.
Proof. reflexivity. Qed.

(* the wrap-around of a ring index x < 2 * modulus, written min(x, x - modulus) in unsigned arithmetic:
   for x < m the difference wraps to x + UMOD - m > x, for x >= m it is x - m <= x *)
Lemma uwrap m x : 1 <= m <= UHALF -> x < 2 * m ->
  (if x <? usub x m then x else usub x m) = (if x <? m then x else x - m).
Proof.
  intros Hm Hx. pose proof UMOD_UHALF as U. rewrite usub_spec by lia.
  destruct (N.leb_spec m x), (N.ltb_spec x m), (N.ltb_spec x (x - m)), (N.ltb_spec x (x + UMOD - m)); lia.
Qed.

(* case analysis on every N comparison in the goal *)
Ltac ncases :=
  repeat match goal with
         | |- context [?a <? ?b] => destruct (N.ltb_spec a b)
         | |- context [?a <=? ?b] => destruct (N.leb_spec a b)
         | |- context [?a =? ?b] => destruct (N.eqb_spec a b)
         end.

Lemma nth_error_Some_lt {T} (l : list T) i x : nth_error l i = Some x -> (i < length l)%nat.
Proof. intro H. apply nth_error_Some. congruence. Qed.

Section Arrays.
  Context {A : Type}.
  Implicit Types a : arr A.

  Definition cell a (i : N) : option (option A) := nth_error a (N.to_nat i).
  Definition alen a : N := N.of_nat (length a).

  Lemma upd_length a i v : length (upd a i v) = length a.
  Proof. revert i; induction a as [|x a IH]; intros [|i]; cbn; auto. Qed.

  Lemma nth_upd_eq a i v : (i < length a)%nat -> nth_error (upd a i v) i = Some v.
  Proof. revert i; induction a as [|x a IH]; intros [|i]; cbn; intros; try lia; auto. apply IH; lia. Qed.

  Lemma nth_upd_neq a i k v : i <> k -> nth_error (upd a i v) k = nth_error a k.
  Proof. revert i k; induction a as [|x a IH]; intros [|i] [|k]; cbn; intros; try congruence; auto. Qed.

  Lemma upd_upd a i v w : upd (upd a i v) i w = upd a i w.
  Proof. revert i; induction a as [|x a IH]; intros [|i]; cbn; auto. f_equal; auto. Qed.

  Lemma cell_lt a i c : cell a i = Some c -> i < alen a.
  Proof. unfold cell, alen. intro H. assert (nth_error a (N.to_nat i) <> None) by congruence. apply nth_error_Some in H0. lia. Qed.

  Lemma cell_upd_eq a i v : i < alen a -> cell (upd a (N.to_nat i) v) i = Some v.
  Proof. unfold cell, alen. intros. apply nth_upd_eq. lia. Qed.

  Lemma cell_upd_neq a i k v : i <> k -> cell (upd a (N.to_nat i) v) k = cell a k.
  Proof. unfold cell. intros. apply nth_upd_neq. lia. Qed.

  Lemma alen_upd a i v : alen (upd a i v) = alen a.
  Proof. unfold alen. rewrite upd_length. auto. Qed.

  Lemma rd_cell a i x : cell a i = Some (Some x) -> rd a i = Good x.
  Proof.
    intro H. unfold rd. pose proof (cell_lt _ _ _ H) as L. unfold alen in L.
    destruct (N.ltb_spec i (N.of_nat (length a))); [|lia]. unfold cell in H. rewrite H. auto.
  Qed.

  Lemma rd_good a i x : rd a i = Good x -> cell a i = Some (Some x).
  Proof.
    unfold rd, cell. destruct (i <? _); [|discriminate]. destruct (nth_error a (N.to_nat i)) as [[y|]|]; try discriminate.
    intro H; inversion H; auto.
  Qed.

  Lemma wr_ok a i x : i < alen a -> wr a i x = Good (upd a (N.to_nat i) (Some x)).
  Proof. unfold wr, alen. intros. destruct (N.ltb_spec i (N.of_nat (length a))); [auto|lia]. Qed.

  (* replacing the content u of one cell by v *)
  Lemma upd_perm a i u v : nth_error a i = Some u -> Permutation (v :: a) (u :: upd a i v).
  Proof.
    revert i; induction a as [|x a IH]; intros [|i]; cbn; intro H; try discriminate.
    - inversion H; subst. apply perm_swap.
    - apply IH in H. etransitivity; [apply perm_swap|]. etransitivity; [|apply perm_swap]. constructor. auto.
  Qed.

  Lemma skipn_upd a i v n : (i < n)%nat -> skipn n (upd a i v) = skipn n a.
  Proof.
    revert i n; induction a as [|x a IH]; intros [|i] [|n]; cbn; intros; try lia; auto. apply IH; lia.
  Qed.

  Lemma firstn_upd_ge a i v n : (n <= i)%nat -> firstn n (upd a i v) = firstn n a.
  Proof.
    revert i n; induction a as [|x a IH]; intros [|i] [|n]; cbn; intros; try lia; auto. f_equal. apply IH; lia.
  Qed.

  (* the initialised cells of a segment *)
  Fixpoint somes (l : list (option A)) : list A :=
    match l with [] => [] | Some x :: r => x :: somes r | None :: r => somes r end.

  Lemma somes_perm l1 l2 : Permutation l1 l2 -> Permutation (somes l1) (somes l2).
  Proof.
    induction 1 as [|[x|] l l' _ IH|[x|] [y|] l|l l' l'' _ IH1 _ IH2]; cbn; auto.
    - apply perm_swap.
    - etransitivity; eauto.
  Qed.

  (* the elements of a prefix: unchanged by a permutation that fixes the rest; one more cell, one more element *)
  Lemma elems_frame (a b : list (option A)) n :
    Permutation a b -> skipn n a = skipn n b -> Permutation (somes (firstn n a)) (somes (firstn n b)).
  Proof.
    intros P S. apply somes_perm. rewrite <- (firstn_skipn n a), <- (firstn_skipn n b), S in P.
    eapply Permutation_app_inv_r; eauto.
  Qed.

  Lemma elems_snoc a n x : cell a n = Some (Some x) ->
    Permutation (somes (firstn (N.to_nat (n + 1)) a)) (x :: somes (firstn (N.to_nat n) a)).
  Proof.
    unfold cell. replace (N.to_nat (n + 1)) with (S (N.to_nat n)) by lia. generalize (N.to_nat n). clear n.
    intro n. revert a. induction n as [|n IH]; intros [|c a] H; try discriminate.
    - cbn in H. inversion H. reflexivity.
    - cbn [firstn somes nth_error] in *. destruct c; [rewrite (IH a H); apply perm_swap|apply IH, H].
  Qed.
End Arrays.

(* the regenerated order on positions *)
Definition lexlt (p q : pos) : Prop := fst p < fst q \/ (fst p = fst q /\ snd p < snd q).

Lemma pos_lt_iff p q : pos_lt p q = true <-> lexlt p q.
Proof. unfold pos_lt, lexlt. destruct p, q; cbn [fst snd]. lia. Qed.

Lemma pos_lt_false p q : pos_lt p q = false <-> ~ lexlt p q.
Proof. rewrite <- pos_lt_iff. destruct (pos_lt p q); split; intros; congruence. Qed.

Lemma pos_le_iff p q : pos_le p q = true <-> pos_lt q p = false.
Proof. unfold pos_le. destruct (pos_lt q p); cbn; split; congruence. Qed.

Lemma pos_eq_iff p q : pos_eq p q = true <-> p = q.
Proof. unfold pos_eq. destruct p, q; cbn [fst snd]. split; [intro; f_equal; lia|intro H; inversion H; lia]. Qed.

(* [ple p q]: p <= q, i.e. not (q < p) *)
Definition ple (p q : pos) : Prop := pos_lt q p = false.

Lemma ple_refl p : ple p p.
Proof. apply pos_lt_false. unfold lexlt. lia. Qed.

Lemma ple_trans p q r : ple p q -> ple q r -> ple p r.
Proof. unfold ple. rewrite !pos_lt_false. unfold lexlt. destruct p, q, r; cbn [fst snd]. lia. Qed.

Lemma plt_ple p q : pos_lt p q = true -> ple p q.
Proof. unfold ple. rewrite pos_lt_iff, pos_lt_false. unfold lexlt. lia. Qed.

Lemma plt_ple_trans p q r : pos_lt p q = true -> ple q r -> ple p r.
Proof. intros. eapply ple_trans; [apply plt_ple|]; eauto. Qed.

Lemma ple_total p q : ple p q \/ ple q p.
Proof. unfold ple. rewrite !pos_lt_false. unfold lexlt. lia. Qed.

Lemma ple_antisym p q : ple p q -> ple q p -> p = q.
Proof. unfold ple. rewrite !pos_lt_false. unfold lexlt. destruct p, q; cbn [fst snd]. intros. f_equal; lia. Qed.
