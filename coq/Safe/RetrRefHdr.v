(* C05/C06/C08, retrieve(): the header blocks of the model (Safe/RetrModel.v): origin pointer, the bitmap loops, number
   of trees / selectors.  Each block runs without a fault, keeps the invariant and reads what Format.read_block reads
   ([blk_post] of Safe/RetrSpec.v).  The bitmap runs into the selector loop (Safe/RetrRefSel.v). *)
From Coq Require Import List NArith Arith Bool Lia ZifyBool ZifyNat ZifyN.
From LBZ Require Import Gen.Consts Gen.DecTabs Dec.Prog Dec.Format Dec.Sim Safe.TreeModel Safe.TreeLemmas
  Safe.RetrModel Safe.RetrInv Safe.RetrSpec Safe.RetrRefSel.

From LBZ Require Safe.SlideModel Safe.SlideProofs.
Import ListNotations.
Local Open Scope N_scope.

(* goal: ... x <== peek cp k ;; c <== dump (store cp x) k ;; ...   with Hb : buf_ok c0, c0 having the v, w of cp;
   Hr : what take k does on the stream *)
Ltac takes Hb k x v' Hx Hb' Hr :=
  let Ep := fresh "Ep" in let Hd := fresh "Hd" in let Ed := fresh "Ed" in
  match goal with |- context [peek ?cp k] =>
    destruct (take_spec cp k Hb) as (x & v' & Ep & Hx & Hd); [csimp; lia | csimp; lia | ];
    rewrite Ep; cbn [bindB];
    match goal with |- context [dump ?c1 k] =>
      destruct (Hd c1 eq_refl eq_refl) as (Ed & Hb' & Hr); rewrite Ed; cbn [bindB]; clear Ep Hd Ed
    end
  end.

(* behind NEED(S_BWT_IDX) *)
Lemma ref_bwt f nx m c : J_bwt c -> buf_ok c -> 32 <= c_w c -> 4 * c_w c + 3 <= m ->
  blk_post f nx (run (K_start f) (strm c nx)) m (after_bwt_idx c).
Proof.
  intros HJ Hb Hw Hm. unfold after_bwt_idx.
  takes Hb 1 rnd v1 Hrnd Hb1 Hr1. takes Hb1 24 idx v2 Hidx Hb2 Hr2.
  cbn [blk_post]. exists (ABig rnd idx). cbn [Rel Kof sigma].
  split; [|split; [exact Hb2|split; [csimp; lia|]]].
  - split; [split; [exact HJ|split; [exact Hrnd|exact Hidx]]|split; reflexivity].
  - change (N.to_nat 1) with 1%nat in Hr1. change (N.to_nat 24) with 24%nat in Hr2.
    unfold K_start. rewrite run_bind, (Hr1 nx), run_bind, (Hr2 nx). reflexivity.
Qed.

(* the bitmap: the inner do-while fills the character map *)
Lemma bitmap_fill_app base : forall f1 f2 j alpha a,
  SlideModel.bitmap_fill base (f1 ++ f2) j alpha a =
  match SlideModel.bitmap_fill base f1 j alpha a with
  | Some (a1, alpha1) => SlideModel.bitmap_fill base f2 (j + N.of_nat (length f1)) alpha1 a1
  | None => None
  end.
Proof.
  induction f1 as [|b r IH]; intros f2 j alpha a; cbn [app SlideModel.bitmap_fill length].
  - replace (j + N.of_nat 0) with j by lia. reflexivity.
  - destruct (SlideModel.wr a (base + alpha) j) as [a'|]; cbn [SlideModel.obind]; [|reflexivity].
    rewrite IH. replace (j + 1 + N.of_nat (length r)) with (j + N.of_nat (S (length r))) by lia. reflexivity.
Qed.

Lemma used_from_false : forall n j, SlideModel.used_from j (repeat false n) = [].
Proof. induction n; intros j; cbn [repeat SlideModel.used_from]; auto. Qed.

Lemma topbits16_0 : topbits 16 0 = repeat false 16.
Proof. vm_compute. reflexivity. Qed.

(* the alphabet counter behind bitmap_fill from (0, 0) *)
Lemma fill_alpha flags junk a alpha : N.of_nat (length junk) = 8192 -> (length flags <= 256)%nat ->
  SlideModel.bitmap_fill CMAP_BASE flags 0 0 junk = Some (a, alpha) ->
  alpha = N.of_nat (length (SlideModel.used_of flags)) /\ N.of_nat (length a) = 8192.
Proof.
  intros Hj Hl HF. assert (HC : CMAP_BASE = 7936) by reflexivity.
  destruct (SlideProofs.bitmap_fill_spec flags CMAP_BASE 0 0 junk) as (a' & He & Hl' & _ & _).
  { unfold SlideProofs.len. lia. }
  rewrite HF in He. injection He as E1 E2. subst a'. unfold SlideProofs.len in Hl'. unfold SlideModel.used_of. split; lia.
Qed.

(* the inner do-while of range i *)
Lemma inner_ok c i flags : J_bm c i flags ->
  exists a' alpha', bitmap_inner 16 c = XV (with_bitmap c a' (16 * N.of_nat (S i)) alpha' 0) /\
    N.of_nat (length a') = 8192 /\
    (exists junk, N.of_nat (length junk) = 8192 /\
       SlideModel.bitmap_fill CMAP_BASE (flags ++ topbits 16 (r_small c)) 0 0 junk = Some (a', alpha')) /\
    (r_alpha_size c = 0 -> r_small c = 0 -> alpha' = 0).
Proof.
  intros (HJ & Hi & Hj & Hlen & (junk & Hjl & HF) & Hs & Hbg).
  assert (Hl256 : (length flags <= 256)%nat) by lia.
  destruct (fill_alpha _ _ _ _ Hjl Hl256 HF) as (Ha & Hsl).
  pose proof (SlideProofs.used_from_length flags 0) as Hu. unfold SlideModel.used_of in Ha.
  assert (HC : CMAP_BASE = 7936) by reflexivity.
  destruct (SlideProofs.bitmap_fill_spec (topbits 16 (r_small c)) CMAP_BASE (r_j c) (r_alpha_size c)
              (SlideModel.s_slide (r_slide c))) as (a' & He & Hl' & _ & _).
  { rewrite topbits_length. unfold SlideProofs.len. lia. }
  unfold SlideProofs.len in Hl'.
  exists a', (r_alpha_size c + N.of_nat (length (SlideModel.used_from (r_j c) (topbits 16 (r_small c))))).
  split; [|split; [|split]].
  - rewrite (bitmap_inner_spec 16 16 c a' (r_alpha_size c + N.of_nat (length (SlideModel.used_from (r_j c) (topbits 16 (r_small c)))))).
    + replace (r_j c + N.of_nat 16) with (16 * N.of_nat (S i)) by lia.
      replace ((r_small c * 2 ^ N.of_nat 16) mod W16) with 0; [reflexivity|].
      symmetry. replace (2 ^ N.of_nat 16) with W16 by reflexivity. apply N.mod_mul. discriminate.
    + lia.
    + lia.
    + lia.
    + lia.
    + exact Hs.
    + intros k Hk. rewrite (N.land_ones _ 4), Hj. change (2 ^ 4) with 16.
      replace (16 * N.of_nat i + N.of_nat k) with (N.of_nat k + N.of_nat i * 16) by lia.
      rewrite N.mod_add by discriminate. rewrite N.mod_small by lia. lia.
    + rewrite (N.land_ones _ 4), Hj. change (2 ^ 4) with 16.
      replace (16 * N.of_nat i + N.of_nat 16) with (0 + (N.of_nat i + 1) * 16) by lia.
      rewrite N.mod_add by discriminate. reflexivity.
    + exact He.
  - lia.
  - exists junk. split; [exact Hjl|]. rewrite bitmap_fill_app, HF.
    replace (0 + N.of_nat (length flags)) with (r_j c) by lia. exact He.
  - intros E1 E2. rewrite E1, E2, topbits16_0, used_from_false. reflexivity.
Qed.

(* [shl16 big i] = the 16-bit word big shifted left i times: its bit 15 is bit i of big from the top *)
Lemma shl16_S big i : (shl16 big i * 2) mod W16 = shl16 big (S i).
Proof.
  unfold shl16. change W16 with (2 ^ 16). rewrite N.mul_mod_idemp_l by discriminate.
  rewrite Nat2N.inj_succ, N.pow_succ_r'. f_equal. lia.
Qed.

Lemma shl16_lt big i : shl16 big i < 2 ^ 16.
Proof. apply N.mod_lt. discriminate. Qed.

Lemma shl16_0 big : big < 2 ^ 16 -> shl16 big 0 = big.
Proof. intro H. unfold shl16. change (2 ^ N.of_nat 0) with 1. rewrite N.mul_1_r. apply N.mod_small, H. Qed.

Lemma shl16_bit15 big i : (i <= 15)%nat -> N.testbit (shl16 big i) 15 = testbit16 big i.
Proof.
  intro Hi. unfold shl16. rewrite N.mod_pow2_bits_low by lia. rewrite N.mul_pow2_bits_high by lia. unfold testbit16.
  f_equal. lia.
Qed.

Lemma land_bit15 x : (N.land x 32768 =? 0) = negb (N.testbit x 15).
Proof.
  change 32768 with (2 ^ 15). destruct (N.testbit x 15) eqn:E; cbn [negb].
  - apply N.eqb_neq. intro H. assert (T : N.testbit (N.land x (2 ^ 15)) 15 = true).
    { rewrite N.land_spec, E, N.pow2_bits_true. reflexivity. }
    rewrite H in T. rewrite N.bits_0 in T. discriminate.
  - apply N.eqb_eq. apply N.bits_inj_0. intro m. rewrite N.land_spec, N.pow2_bits_eqb.
    destruct (N.eqb_spec 15 m) as [<-|]; [rewrite E; reflexivity|apply andb_false_r].
Qed.

Lemma topbits_map : forall n s a, (a + n <= 16)%nat -> topbits n (shl16 s a) = map (testbit16 s) (seq a n).
Proof.
  induction n as [|n IH]; intros s a H; [reflexivity|].
  cbn [topbits seq map]. rewrite shl16_bit15 by lia. f_equal. rewrite shl16_S. apply IH. lia.
Qed.

Lemma used_from_map (g : nat -> bool) base : forall n a,
  SlideModel.used_from (base + N.of_nat a) (map g (seq a n)) = map (fun t => base + N.of_nat t) (filter g (seq a n)).
Proof.
  induction n as [|n IH]; intro a; [reflexivity|].
  cbn [seq map filter SlideModel.used_from].
  replace (base + N.of_nat a + 1) with (base + N.of_nat (S a)) by lia. rewrite IH.
  destruct (g a); reflexivity.
Qed.

Lemma used_from_app : forall f1 f2 j,
  SlideModel.used_from j (f1 ++ f2) = SlideModel.used_from j f1 ++ SlideModel.used_from (j + N.of_nat (length f1)) f2.
Proof.
  induction f1 as [|b r IH]; intros f2 j; cbn [app SlideModel.used_from length].
  - replace (j + N.of_nat 0) with j by lia. reflexivity.
  - rewrite IH. replace (j + 1 + N.of_nat (length r)) with (j + N.of_nat (S (length r))) by lia.
    destruct b; reflexivity.
Qed.

(* the bytes of range i *)
Lemma used_of_range flags i s : length flags = (16 * i)%nat -> s < 2 ^ 16 ->
  SlideModel.used_of (flags ++ topbits 16 s) = SlideModel.used_of flags ++ range_bytes i s.
Proof.
  intros Hl Hs. unfold SlideModel.used_of. rewrite used_from_app. f_equal.
  rewrite <- (shl16_0 s Hs) at 1. rewrite topbits_map by lia. rewrite Hl.
  replace (0 + N.of_nat (16 * i)) with (16 * N.of_nat i + N.of_nat 0) by lia.
  rewrite used_from_map. unfold range_bytes. reflexivity.
Qed.

(* one range of the bitmap; stated with [range_bytes] folded: unfolding [filter] over the 16 positions is exponential *)
Lemma read_smalls_S big i n :
  read_smalls big i (S n) =
  if testbit16 big i then s <- take 16 ;; rest <- read_smalls big (S i) n ;; Prog.Ret (range_bytes i s ++ rest)
  else read_smalls big (S i) n.
Proof. cbn [read_smalls]. unfold range_bytes. reflexivity. Qed.

(* range i+1 is skipped *)
Lemma K_inner_skip f rnd idx big i used sm s : (i < 15)%nat -> testbit16 big (S i) = false ->
  run (K_inner f rnd idx big i used sm) s = run (K_inner f rnd idx big (S i) (used ++ range_bytes i sm) 0) s.
Proof.
  intros Hi Hb. unfold K_inner. replace (15 - i)%nat with (S (15 - S i)) by lia.
  rewrite read_smalls_S, Hb, !run_bind.
  destruct (run (read_smalls big (S (S i)) (15 - S i)) s) as [[rest r]|e]; [|reflexivity].
  change (range_bytes (S i) 0) with (@nil N). cbn [app]. rewrite <- app_assoc. reflexivity.
Qed.

(* range i+1 is present: its 16 bits are read *)
Lemma K_inner_take f rnd idx big i used sm s sm' r : (i < 15)%nat -> testbit16 big (S i) = true ->
  run (take 16) s = Ok (sm', r) ->
  run (K_inner f rnd idx big i used sm) s = run (K_inner f rnd idx big (S i) (used ++ range_bytes i sm) sm') r.
Proof.
  intros Hi Hb Ht. unfold K_inner. replace (15 - i)%nat with (S (15 - S i)) by lia.
  rewrite read_smalls_S, Hb, !run_bind, Ht, !run_bind.
  destruct (run (read_smalls big (S (S i)) (15 - S i)) r) as [[rest r']|e]; [|reflexivity].
  cbn [run]. rewrite <- app_assoc. reflexivity.
Qed.

(* all ranges done *)
Lemma K_inner_last f rnd idx big used sm : K_inner f rnd idx big 15 used sm = K_post f rnd idx (used ++ range_bytes 15 sm).
Proof. unfold K_inner. cbn [Nat.sub read_smalls bind]. rewrite app_nil_r. reflexivity. Qed.

Lemma K_post_empty f rnd idx used s : length used = 0%nat -> run (K_post f rnd idx used) s = Err ErrBitmap.
Proof. intro H. unfold K_post. rewrite H. reflexivity. Qed.

Lemma K_post_nt f rnd idx used s nt r : length used <> 0%nat -> run (take 3) s = Ok (nt, r) ->
  run (K_post f rnd idx used) s =
  run (_ <- guard ((2 <=? nt) && (nt <=? 6)) ErrTrees ;; ns <- take 15 ;; _ <- guard (negb (ns =? 0)) ErrGroups ;;
       K_sels f (mk_hdr rnd idx used nt ns) []) r.
Proof.
  intros H Ht. unfold K_post. destruct (N.eqb_spec (N.of_nat (length used)) 0) as [E|E]; [lia|].
  cbn [negb guard bind]. rewrite run_bind, Ht. reflexivity.
Qed.

(* behind the bitmap: alphabet size, number of trees, number of selectors; then the selector loop *)
Lemma ref_post f nx m c flags : J_big c -> length flags = 256%nat -> filled c flags (r_alpha_size c) ->
  buf_ok c -> (r_alpha_size c <> 0 -> 32 <= c_w c) -> 4 * c_w c + 3 <= m -> (length (strm c nx) < f)%nat ->
  blk_post f nx (run (K_post f (d_rand c) (d_bwt_idx c) (SlideModel.used_of flags)) (strm c nx)) m (post_bitmap c).
Proof.
  intros HJ Hl (junk & Hjl & HF) Hb Hw Hm Hf.
  destruct (fill_alpha flags junk _ _ Hjl ltac:(lia) HF) as (Ha & _).
  pose proof (SlideProofs.used_from_length flags 0) as Hu. fold (SlideModel.used_of flags) in Hu.
  unfold post_bitmap. destruct (N.eqb_spec (r_alpha_size c) 0) as [Ez|Hnz].
  { cbn [blk_post]. rewrite K_post_empty by lia. exact I. }
  specialize (Hw Hnz). rewrite add32_small by (rewrite W32_val; lia).
  takes Hb 3 nt v1 Hnt Hb1 Hr1. change (N.to_nat 3) with 3%nat in Hr1.
  rewrite (K_post_nt f _ _ (SlideModel.used_of flags) _ nt _ ltac:(lia) (Hr1 nx)), run_bind.
  destruct ((nt <? MIN_TREES) || (MAX_TREES <? nt)) eqn:Ent.
  { change MIN_TREES with 2 in Ent. change MAX_TREES with 6 in Ent.
    replace ((2 <=? nt) && (nt <=? 6)) with false by lia. exact I. }
  change MIN_TREES with 2 in Ent. change MAX_TREES with 6 in Ent.
  assert (Hnt26 : 2 <= nt <= 6) by lia. clear Ent.
  replace ((2 <=? nt) && (nt <=? 6)) with true by lia. cbn [guard run]. rewrite run_bind.
  takes Hb1 15 ns v2 Hns Hb2 Hr2. change (N.to_nat 15) with 15%nat in Hr2. rewrite (Hr2 nx), run_bind.
  destruct (N.eqb_spec ns 0) as [Ens|Hns0]; [exact I|]. cbn [negb guard run].
  set (c' := set_r_j _ 0). set (h := mk_hdr (d_rand c) (d_bwt_idx c) (SlideModel.used_of flags) nt ns).
  assert (Hh : J_hdr c' flags).
  { split; [exact HJ|]. split; [exact Hl|]. split; [exists junk; split; [exact Hjl|rewrite <- Ha; exact HF]|].
    split; [lia|]. split; [subst c'; csimp; lia|]. split; [exact Hnt26|]. split; [change (r_num_selectors c') with ns; lia|exact Hns]. }
  assert (RS : R_selH c' h []).
  { exists flags. split; [|split; [|reflexivity]].
    - split; [exact Hh|]. split; [change (r_j c') with 0; lia|]. intros i Hi. change (r_j c') with 0 in Hi. lia.
    - split; [exact Hh|]. repeat split; reflexivity. }
  assert (Ew : c_w c' = c_w c - 3 - 15) by reflexivity.
  pose proof (strm_length c nx) as SL. pose proof (strm_length c' nx) as SL'.
  apply (ref_sel f nx m c' h [] RS Hb2); [lia| |lia|lia].
  change (r_j c') with 0. change (r_num_selectors c') with ns. lia.
Qed.

(* what J_big reads of a core, the character map apart *)
Definition big_reads (c : core) :=
  (length (r_selector c), length (r_code_len c), length (r_mtf c), r_tree c, length (d_ftab c), (c_ttp c, c_tt c),
   (d_rand c, d_bwt_idx c)).

Lemma J_big_frame c c' : J_big c -> big_reads c' = big_reads c ->
  N.of_nat (length (SlideModel.s_slide (r_slide c'))) = 8192 -> J_big c'.
Proof.
  intros (((S1 & S2 & S3 & S4 & S5 & _ & S7) & T) & R) E Ha. unfold big_reads in E. injection E as E1 E2 E3 E4 E5 E6 E7 E8 E9.
  unfold J_big, J_bwt, shape, tt0. rewrite E1, E2, E3, E4, E5, E6, E7, E8, E9. repeat split; try assumption; apply T || apply R.
Qed.

(* the state behind the inner loop of range i, with the 16 bits of the next range (0 if it is skipped) in rs->small.
   The fields of c' are given by equations: cores built by different nests of setters are convertible, but the
   conversion test is exponential in the depth of the nests; a single field of a nest is read off in linear time. *)
Lemma R_small_next c c' big i flags alpha' : J_bm c i flags -> r_big c = shl16 big i -> (i < 15)%nat ->
  big_reads c' = big_reads c -> N.of_nat (length (SlideModel.s_slide (r_slide c'))) = 8192 ->
  (exists junk, N.of_nat (length junk) = 8192 /\
     SlideModel.bitmap_fill CMAP_BASE (flags ++ topbits 16 (r_small c)) 0 0 junk = Some (SlideModel.s_slide (r_slide c'), alpha')) ->
  r_j c' = 16 * N.of_nat (S i) -> r_alpha_size c' = alpha' -> r_small c' < 2 ^ 16 -> r_big c' = shl16 big (S i) ->
  R_small c' (d_rand c) (d_bwt_idx c) big (S i) (SlideModel.used_of flags ++ range_bytes i (r_small c)).
Proof.
  intros (HJ & _ & _ & Hlen & _ & Hs & _) Ebig Hi E Hla HF Ej Ea Hsm Eb.
  assert (E' := E). unfold big_reads in E'. injection E' as _ _ _ _ _ _ _ Ernd Eidx.
  exists (flags ++ topbits 16 (r_small c)). split; [|split; [exact Ernd|split; [exact Eidx|split; [|exact Eb]]]].
  - split; [exact (J_big_frame c c' HJ E Hla)|]. split; [lia|]. split; [exact Ej|].
    split; [rewrite app_length, topbits_length; lia|]. rewrite Ea. split; [exact HF|]. split; [exact Hsm|].
    rewrite Eb. apply shl16_lt.
  - symmetry. apply used_of_range; assumption.
Qed.

(* R_small reads nothing else *)
Definition bm_reads (c : core) := (big_reads c, r_slide c, (r_j c, r_alpha_size c, r_small c, r_big c)).

Lemma R_small_frame c c' rnd idx big i used : R_small c rnd idx big i used -> bm_reads c' = bm_reads c ->
  R_small c' rnd idx big i used.
Proof.
  intros (flags & (HJ & Hi & Hj & Hl & HF & Hs & Hb) & Hr & Hx & Hu & Eb) E. unfold bm_reads in E.
  injection E as E1 E2 E3 E4 E5 E6 E7 Ernd Eidx Es Ej Ea Esm Ebg.
  assert (E0 : big_reads c' = big_reads c) by (unfold big_reads; congruence).
  exists flags. unfold J_bm, filled. rewrite Es, Ej, Ea, Esm, Ebg, Ernd, Eidx.
  split; [|auto]. split; [|auto 10]. apply (J_big_frame c c' HJ E0). rewrite Es. apply HJ.
Qed.

(* from the entry of the inner bitmap loop of range i to the next NEED; with fewer than 32 bits only as long as no
   byte is in use (a word is there as soon as a range is present, and nothing is read if none is) *)
Lemma ref_inner f nx m : forall n c rnd idx big i used, R_small c rnd idx big i used -> buf_ok c -> (16 - i <= n)%nat ->
  16 <= c_w c -> (32 <= c_w c \/ (r_alpha_size c = 0 /\ r_small c = 0)) -> 4 * c_w c + 3 <= m ->
  (length (strm c nx) < f)%nat ->
  blk_post f nx (run (K_inner f rnd idx big i used (r_small c)) (strm c nx)) m (bitmap_from_inner n c).
Proof.
  induction n as [|n IH]; intros c rnd idx big i used HR Hb Hn Hw Hd Hm Hf.
  - destruct HR as (flags & (_ & Hi & _) & _). lia.
  - destruct HR as (flags & HJ & <- & <- & -> & Ebig). cbn [bitmap_from_inner].
    destruct (inner_ok c i flags HJ) as (a' & alpha' & Ei & Hla & HF' & Hz). rewrite Ei. cbn [bindB].
    pose proof HJ as (HJb & Hi & _ & Hlen & _ & Hs & _).
    set (c1 := with_bitmap c a' _ alpha' 0). change (r_big c1) with (r_big c). rewrite Ebig, shl16_S.
    set (c2 := set_r_big c1 _). change (r_j c2) with (16 * N.of_nat (S i)). change (r_big c2) with (shl16 big (S i)).
    destruct (N.ltb_spec (16 * N.of_nat (S i)) 256) as [Hlt|Hge].
    + rewrite land_bit15, shl16_bit15 by lia. rewrite negb_involutive.
      destruct (testbit16 big (S i)) eqn:Etb.
      * (* TAKE(rs->small, 16); NEED(S_BITMAP_SMALL) *)
        subst c2 c1. takes Hb 16 sm v1 Hsm Hb1 Hr1. cbn [blk_post].
        exists (ASmall (d_rand c) (d_bwt_idx c) big (S i) (SlideModel.used_of flags ++ range_bytes i (r_small c))).
        cbn [Rel Kof sigma].
        split; [apply (R_small_next c _ big i flags alpha' HJ Ebig ltac:(lia)); (reflexivity || assumption)|].
        split; [exact Hb1|]. split; [csimp; lia|].
        apply K_inner_take; [lia|exact Etb|exact (Hr1 nx)].
      * (* the next range is skipped: rs->small stays 0 *)
        rewrite (K_inner_skip f _ _ big i _ _ _ ltac:(lia) Etb).
        refine (IH c2 _ _ big (S i) _ (R_small_next c c2 big i flags alpha' HJ Ebig ltac:(lia) eq_refl Hla HF' eq_refl eq_refl
                                         (eq_refl : (0 ?= 2 ^ 16) = Lt) eq_refl) Hb ltac:(lia) Hw _ Hm Hf).
        destruct Hd as [H|[E1 E2]]; [left; exact H|right; split; [exact (Hz E1 E2)|reflexivity]].
    + (* all 16 ranges done *)
      assert (Ei15 : i = 15%nat) by lia. subst i. rewrite K_inner_last, <- (used_of_range flags 15 _ Hlen Hs).
      refine (ref_post f nx m c2 _ (J_big_frame c c2 HJb eq_refl Hla) _ HF' Hb _ Hm Hf).
      * rewrite app_length, topbits_length. lia.
      * change (r_alpha_size c2) with alpha'. intro Hnz. destruct Hd as [H|[E1 E2]]; [exact H|]. elim Hnz. exact (Hz E1 E2).
Qed.

(* behind the 16 bits of rs->big: the first range present / skipped *)
Lemma K_smalls_inner f rnd idx big i used s :
  run (K_smalls f rnd idx big i (S (15 - i)) used) s =
  if testbit16 big i then
    match run (take 16) s with Ok (sm, r) => run (K_inner f rnd idx big i used sm) r | Err e => Err e end
  else run (K_inner f rnd idx big i used 0) s.
Proof.
  unfold K_smalls, K_inner. rewrite read_smalls_S. destruct (testbit16 big i); [|reflexivity].
  rewrite !run_bind. destruct (run (take 16) s) as [[sm r]|e]; [|reflexivity].
  rewrite !run_bind. destruct (run (read_smalls big (S i) (15 - i)) r) as [[rest r']|e]; reflexivity.
Qed.

(* behind NEED(S_BITMAP_BIG) *)
Lemma ref_big f nx m c rnd idx : R_big c rnd idx -> buf_ok c -> 32 <= c_w c -> 4 * c_w c + 3 <= m ->
  (length (strm c nx) < f)%nat ->
  blk_post f nx (run (K_big f rnd idx) (strm c nx)) m (after_bitmap_big c).
Proof.
  intros (HJ & <- & <-) Hb Hw Hm Hf. unfold after_bitmap_big.
  takes Hb 16 big v1 Hbig Hb1 Hr1. cbv zeta.
  change (N.to_nat 16) with 16%nat in Hr1. unfold K_big. rewrite run_bind, (Hr1 nx).
  rewrite (K_smalls_inner f _ _ big 0 []).
  set (c2 := set_r_j _ 0). change (r_big c2) with big.
  assert (HR : forall sm, sm < 2 ^ 16 -> R_small (set_r_small c2 sm) (d_rand c) (d_bwt_idx c) big 0 []).
  { intros sm Hsm. exists []. split; [|split; [reflexivity|split; [reflexivity|split; [reflexivity|]]]].
    - split; [exact HJ|]. split; [lia|]. split; [reflexivity|]. split; [reflexivity|].
      split; [|split; [exact Hsm|exact Hbig]].
      exists (SlideModel.s_slide (r_slide c)). split; [apply HJ|reflexivity].
    - symmetry. apply shl16_0. exact Hbig. }
  rewrite land_bit15, negb_involutive. change (N.testbit big 15) with (testbit16 big 0).
  pose proof (strm_length c nx) as SL. pose proof (strm_length c2 nx) as SL2. change (c_w c2) with (c_w c - 16) in SL2.
  destruct (testbit16 big 0).
  - subst c2. takes Hb1 16 sm v2 Hsm Hb2 Hr2. change (N.to_nat 16) with 16%nat in Hr2.
    rewrite (Hr2 nx : run (take 16) (strm (bufset (set_r_big c big) v1 (c_w c - 16)) nx) = _). cbn [blk_post].
    exists (ASmall (d_rand c) (d_bwt_idx c) big 0 []). cbn [Rel Kof sigma].
    split; [apply (R_small_frame _ _ _ _ _ _ _ (HR sm Hsm)); unfold bm_reads, big_reads; csimp; reflexivity|].
    split; [exact Hb2|]. split; [csimp; lia|reflexivity].
  - refine (ref_inner f nx m 16 c2 _ _ big 0%nat [] (HR 0 ltac:(lia)) Hb1 ltac:(lia) _ (or_intror (conj eq_refl eq_refl)) _ _);
      change (c_w c2) with (c_w c - 16); lia.
Qed.

Print Assumptions ref_bwt.
Print Assumptions ref_inner.
Print Assumptions ref_big.
