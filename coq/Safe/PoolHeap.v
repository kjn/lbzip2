(* Refinement proof for the binary heap: up_heap()/down_heap() of Safe/PoolModel.v (which
   compose the pieces regenerated into Gen/PoolTab.v) keep the heap order, permute the
   array, never index out of bounds, never read an unwritten cell and stop within
   S(log2(size+1)) iterations.

   Heap order is stated without the C index expressions ([child i c]: c = 2i+1 or 2i+2);
   the regenerated parent()/left() expressions are related to it by the lemmas [parent_hp],
   [left_eq], the regenerated conditions by [up_enter_eval], [up_cont_eval], [down_sel_eval1],
   [down_sel_eval0], [down_brk_eval]: a changed expression or comparison breaks these.  The order facts used
   (reflexivity, transitivity, totality of "not less") are proved about the regenerated
   pos_lt in Safe/PoolLemmas.v. *)
From Coq Require Import List NArith Arith Bool Lia ZifyBool ZifyN ZifyNat Permutation.
From LBZ Require Import Common.ListArr Safe.PoolVocab Gen.PoolTab Safe.PoolModel Safe.PoolLemmas.
Import ListNotations.
Local Open Scope N_scope.

Ltac splits := repeat match goal with |- _ /\ _ => split end.

Definition hp (j : N) : N := (j - 1) / 2.
Definition child (i c : N) : Prop := c = 2 * i + 1 \/ c = 2 * i + 2.

Lemma child_hp i c : child i c -> i = hp c /\ 0 < c /\ i < c.
Proof. unfold child, hp. lia. Qed.

Lemma hp_child c : 0 < c -> child (hp c) c /\ hp c < c.
Proof. unfold child, hp. lia. Qed.

Section Arrays2.
  Context {A : Type}.
  Implicit Types a b : arr A.

  Lemma upd_same a i v : nth_error a i = Some v -> upd a i v = a.
  Proof. revert i; induction a as [|x a IH]; intros [|i]; cbn; intro H; try discriminate; auto.
    - inversion H; auto.
    - f_equal; auto.
  Qed.

  Lemma swap_perm b i k u v : i <> k -> nth_error b i = Some u -> nth_error b k = Some v ->
    Permutation (upd (upd b i v) k u) b.
  Proof.
    intros Ne Hi Hk. pose proof (upd_perm b i u v Hi) as P1.
    assert (Hk' : nth_error (upd b i v) k = Some v) by (rewrite nth_upd_neq; auto).
    pose proof (upd_perm (upd b i v) k v u Hk') as P2.
    apply Permutation_cons_inv with (a := v). symmetry. etransitivity; [exact P1|]. exact P2.
  Qed.

  Lemma nth_skipn a n k : nth_error (skipn n a) k = nth_error a (n + k).
  Proof. revert a; induction n as [|n IH]; intros [|x a]; cbn; auto. destruct k; auto. Qed.

  Lemma skipn_nth a b n k : skipn n a = skipn n b -> (n <= k)%nat -> nth_error a k = nth_error b k.
  Proof. intros E L. replace k with (n + (k - n))%nat by lia. rewrite <- !nth_skipn. rewrite E. auto. Qed.

  Lemma skipn_more a b n m : skipn n a = skipn n b -> (n <= m)%nat -> skipn m a = skipn m b.
  Proof.
    intros E L. replace m with (n + (m - n))%nat by lia. rewrite <- !skipn_add. rewrite E. auto.
  Qed.

  Lemma upd_comm a i k v w : i <> k -> upd (upd a i v) k w = upd (upd a k w) i v.
  Proof.
    revert i k; induction a as [|x a IH]; intros [|i] [|k]; cbn; intros; try congruence; auto. f_equal. apply IH. congruence.
  Qed.

  Lemma in_somes_firstn a n y :
    In y (somes (firstn (N.to_nat n) a)) <-> exists i, i < n /\ cell a i = Some (Some y).
  Proof.
    unfold cell. split.
    - intro H. assert (G : exists k, (k < N.to_nat n)%nat /\ nth_error a k = Some (Some y)).
      { revert H. generalize (N.to_nat n). clear n. intro n. revert a. induction n as [|n IH]; intros [|[x|] a]; cbn; try tauto.
        - intros [->|H]; [exists 0%nat; split; [lia|auto]|]. destruct (IH _ H) as (k & L & E). exists (S k); split; [lia|auto].
        - intros H. destruct (IH _ H) as (k & L & E). exists (S k); split; [lia|auto]. }
      destruct G as (k & L & E). exists (N.of_nat k). rewrite Nat2N.id. split; [lia|auto].
    - intros (i & L & E). assert (Lk : (N.to_nat i < N.to_nat n)%nat) by lia. revert E Lk.
      generalize (N.to_nat i) (N.to_nat n). clear i n L. intros k n. revert a k.
      induction n as [|n IH]; intros [|c a] [|k]; cbn [nth_error firstn]; intros E L; try lia; try discriminate.
      + inversion E; subst. cbn. auto.
      + destruct c; cbn [somes]; [right|]; apply (IH a k); auto; lia.
  Qed.
End Arrays2.

Section Heap.
  Context {A : Type}.
  Variable key : A -> pos.

  Definition lea (x y : A) : Prop := ple (key x) (key y).
  Definition lta (x y : A) : bool := pos_lt (key x) (key y).

  Definition filled (a : arr A) (n : N) : Prop := forall i, i < n -> exists x, cell a i = Some (Some x).

  Definition heap_ord (a : arr A) (n : N) : Prop :=
    forall i c x y, c < n -> child i c -> cell a i = Some (Some x) -> cell a c = Some (Some y) -> lea x y.

  Lemma filled_upd a n i x : filled a n -> filled (upd a (N.to_nat i) (Some x)) n.
  Proof.
    intros F k Hk. destruct (N.eq_dec i k) as [->|Ne].
    - destruct (F k Hk) as [y Hy]. exists x. apply cell_upd_eq. eapply cell_lt; eauto.
    - rewrite cell_upd_neq; auto.
  Qed.

  (* the regenerated parent() and left() expressions *)
  Lemma parent_hp j : 0 < j < UMOD -> udiv (usub j 1) 2 = hp j.
  Proof. intro Hj. unfold udiv, hp. rewrite usub_small by lia. reflexivity. Qed.

  Lemma left_eq j : j < UHALF -> uadd (umul j 2) 1 = 2 * j + 1.
  Proof. intro Hj. pose proof UMOD_UHALF. rewrite umul_small, uadd_small by lia. lia. Qed.

  Lemma up_fin_ix0 n : up_fin_ix n 0 = 0.
  Proof. reflexivity. Qed.

  Lemma up_enter_eval a el n j z : 0 < j < UMOD -> cell a (hp j) = Some (Some z) ->
    eval_cond key a el (up_enter n j) = Good (lta el z).
  Proof.
    intros Hj Hz. unfold up_enter. rewrite parent_hp by exact Hj.
    cbn [eval_cond operand_key bind]. rewrite (rd_cell _ _ _ Hz). reflexivity.
  Qed.

  Lemma up_cont_eval0 a el n : eval_cond key a el (up_cont n 0) = Good false.
  Proof. reflexivity. Qed.

  Lemma up_cont_eval a el n j z : 0 < j < UMOD -> cell a (hp j) = Some (Some z) ->
    eval_cond key a el (up_cont n j) = Good (lta el z).
  Proof.
    intros Hj Hz. unfold up_cont. rewrite parent_hp by exact Hj.
    cbn [eval_cond operand_key bind]. replace (0 <? j) with true by lia.
    rewrite (rd_cell _ _ _ Hz). reflexivity.
  Qed.

  (* The loops move a hole through the array: cell j is never read, [el] is the element that will be stored
     there.  [hole_ord]: heap order wherever cell j is not involved, and between the parent and the children
     of j; [above_ok] / [below_ok]: el fits below the parent / above the children of j. *)
  Definition hole_ord (a : arr A) (n j : N) : Prop :=
    (forall i c x y, c < n -> child i c -> c <> j -> i <> j ->
       cell a i = Some (Some x) -> cell a c = Some (Some y) -> lea x y) /\
    (0 < j -> forall c y z, c < n -> child j c -> cell a c = Some (Some y) -> cell a (hp j) = Some (Some z) -> lea z y).
  Definition above_ok (a : arr A) (j : N) (el : A) : Prop :=
    0 < j -> forall z, cell a (hp j) = Some (Some z) -> lea z el.
  Definition below_ok (a : arr A) (n j : N) (el : A) : Prop :=
    forall c y, c < n -> child j c -> cell a c = Some (Some y) -> lea el y.

  Lemma hole_fill a n j el : j < alen a -> hole_ord a n j -> above_ok a j el -> below_ok a n j el ->
    heap_ord (upd a (N.to_nat j) (Some el)) n.
  Proof.
    intros Hj [I1 _] I2 K i c x y Hc Hch Hi Hcc.
    assert (Cj : cell (upd a (N.to_nat j) (Some el)) j = Some (Some el)) by (apply cell_upd_eq; lia).
    destruct (N.eq_dec c j) as [->|Ncj].
    - rewrite Cj in Hcc. inversion Hcc; subst y. destruct (child_hp _ _ Hch) as (-> & Hp & Hl).
      rewrite cell_upd_neq in Hi by lia. apply (I2 Hp x Hi).
    - rewrite cell_upd_neq in Hcc by auto. destruct (N.eq_dec i j) as [->|Nij].
      + rewrite Cj in Hi. inversion Hi; subst x. apply (K c y); auto.
      + rewrite cell_upd_neq in Hi by auto. apply (I1 i c x y); auto.
  Qed.

  (* storing in the hole j the content v of cell k, which becomes the hole: what does not depend on the order *)
  Lemma hole_move a n j k v el : j <> k -> j < n -> n <= alen a -> filled a n -> cell a k = Some (Some v) ->
    let a1 := upd a (N.to_nat j) (Some v) in
    filled a1 n /\ Permutation (upd a1 (N.to_nat k) (Some el)) (upd a (N.to_nat j) (Some el)) /\
    skipn (N.to_nat n) a1 = skipn (N.to_nat n) a /\ alen a1 = alen a.
  Proof.
    intros Ne Hj Hn F Hk a1. split; [apply filled_upd; exact F|]. split; [|split; [apply skipn_upd; lia|apply alen_upd]].
    unfold a1. rewrite <- (upd_upd a (N.to_nat j) (Some el) (Some v)).
    apply swap_perm; [lia|apply nth_upd_eq; unfold alen in Hn; lia|rewrite nth_upd_neq by lia; exact Hk].
  Qed.

  Lemma up_move a n j el z :
    0 < j < n -> n <= alen a -> hole_ord a n j -> below_ok a n j el -> cell a (hp j) = Some (Some z) -> lta el z = true ->
    let a1 := upd a (N.to_nat j) (Some z) in hole_ord a1 n (hp j) /\ below_ok a1 n (hp j) el.
  Proof.
    intros Hj Hn [I1 I3] K Hz Lt a1. destruct (hp_child j ltac:(lia)) as [Ch Hlt].
    assert (Cj : cell a1 j = Some (Some z)) by (apply cell_upd_eq; lia).
    assert (Co : forall k, k <> j -> cell a1 k = cell a k) by (intros; apply cell_upd_neq; auto).
    assert (Zp : 0 < hp j -> forall zz, cell a (hp (hp j)) = Some (Some zz) -> lea zz z).
    { intros Hp zz Hzz. destruct (hp_child (hp j) Hp) as [Ch2 Hlt2].
      apply (I1 (hp (hp j)) (hp j) zz z); auto; lia. }
    split; [split|].
    - intros i c x y Hc Hch Hcj Hij Hi Hcc. destruct (N.eq_dec c j) as [->|Ncj].
      + apply child_hp in Hch. lia.
      + rewrite (Co c Ncj) in Hcc. destruct (N.eq_dec i j) as [->|Nij].
        * rewrite Cj in Hi. inversion Hi; subst x. apply (I3 ltac:(lia) c y z); auto.
        * rewrite (Co i Nij) in Hi. apply (I1 i c x y); auto.
    - intros Hp c y zz Hc Hch H1 Hzz.
      assert (Ne : hp (hp j) <> j) by (destruct (hp_child (hp j) Hp); lia).
      rewrite (Co _ Ne) in Hzz. destruct (N.eq_dec c j) as [->|Ncj].
      + rewrite Cj in H1. inversion H1; subst y. apply Zp; auto.
      + rewrite (Co c Ncj) in H1. eapply ple_trans; [apply Zp; eauto|].
        apply (I1 (hp j) c z y); auto; lia.
    - intros c y Hc Hch H1. destruct (N.eq_dec c j) as [->|Ncj].
      + rewrite Cj in H1. inversion H1; subst y. apply plt_ple. exact Lt.
      + rewrite (Co c Ncj) in H1. eapply plt_ple_trans; [exact Lt|].
        apply (I1 (hp j) c z y); auto; lia.
  Qed.

  Lemma up_loop_spec el n : forall fuel a j,
    j + 1 < 2 ^ N.of_nat fuel -> 0 < j < n -> n <= alen a -> alen a <= UHALF ->
    filled a n -> hole_ord a n j -> below_ok a n j el ->
    (exists z, cell a (hp j) = Some (Some z) /\ lta el z = true) ->
    exists a' j', up_loop key fuel a el (n - 1) j = Good (a', j') /\ alen a' = alen a /\ j' < j /\
      filled a' n /\ hole_ord a' n j' /\ below_ok a' n j' el /\ above_ok a' j' el /\
      Permutation (upd a' (N.to_nat j') (Some el)) (upd a (N.to_nat j) (Some el)) /\
      skipn (N.to_nat n) a' = skipn (N.to_nat n) a.
  Proof.
    induction fuel as [|fuel IH]; intros a j Hf Hj Hn Hu F I1 I2 (z & Hz & Lt).
    - cbn in Hf. lia.
    - assert (JU : 0 < j < UMOD) by (unfold UMOD, UHALF in *; lia).
      cbn [up_loop]. unfold up_mv_src, up_mv_dst, up_next. rewrite (parent_hp j JU), (rd_cell _ _ _ Hz). cbn [bind].
      rewrite wr_ok by lia. cbn [bind].
      destruct (hp_child j ltac:(lia)) as [_ Hlt].
      destruct (up_move a n j el z Hj Hn I1 I2 Hz Lt) as (I1' & I2').
      destruct (hole_move a n j (hp j) z el ltac:(lia) ltac:(lia) Hn F Hz) as (F1 & P1 & S1 & L1).
      set (a1 := upd a (N.to_nat j) (Some z)) in *.
      destruct (N.eq_dec (hp j) 0) as [E0|N0].
      + rewrite E0 in *. rewrite up_cont_eval0. cbn [bind].
        exists a1, 0. splits; auto; try lia. intro; lia.
      + assert (Hp : 0 < hp j) by lia. destruct (hp_child (hp j) Hp) as [_ Hlt2].
        destruct (F1 (hp (hp j)) ltac:(lia)) as [zz Hzz].
        rewrite (up_cont_eval a1 el (n - 1) (hp j) zz) by (auto; unfold UMOD in *; lia). cbn [bind].
        destruct (lta el zz) eqn:Lt2.
        * assert (Hf2 : hp j + 1 < 2 ^ N.of_nat fuel).
          { replace (N.of_nat (S fuel)) with (N.succ (N.of_nat fuel)) in Hf by lia.
            rewrite N.pow_succ_r' in Hf. unfold hp. lia. }
          destruct (IH a1 (hp j) Hf2 ltac:(lia) ltac:(lia) ltac:(lia) F1 I1' I2' (ex_intro _ zz (conj Hzz Lt2)))
            as (a' & j' & R & La & Lj & F' & I1'' & I2'' & Ex & P' & S').
          exists a', j'. rewrite R. splits; auto; try lia.
          -- etransitivity; eauto.
          -- congruence.
        * exists a1, (hp j). splits; auto; try lia.
          intros _ z' Hz'. assert (z' = zz) by congruence. subst z'. exact Lt2.
  Qed.

  Lemma heap_fuel_spec n : n + 1 < 2 ^ N.of_nat (heap_fuel n).
  Proof.
    unfold heap_fuel. replace (N.of_nat (S (N.to_nat (N.log2 (n + 1))))) with (N.succ (N.log2 (n + 1))) by lia.
    apply N.log2_spec. lia.
  Qed.

  Theorem up_heap_spec a n :
    n < alen a -> alen a <= UHALF -> filled a (n + 1) -> heap_ord a n ->
    exists a', up_heap key a n = Good a' /\ alen a' = alen a /\ Permutation a' a /\
      skipn (N.to_nat (n + 1)) a' = skipn (N.to_nat (n + 1)) a /\ filled a' (n + 1) /\ heap_ord a' (n + 1).
  Proof.
    intros Hn Hu F H. unfold up_heap. unfold up_ret at 1. destruct (N.eqb_spec n 0) as [->|N0].
    - exists a. splits; auto. intros i c x y Hc Hch. apply child_hp in Hch. lia.
    - unfold up_j0. assert (JU : 0 < n < UMOD) by (unfold UMOD, UHALF in *; lia).
      unfold up_el_ix.
      destruct (F n ltac:(lia)) as [el Hel]. rewrite (rd_cell _ _ _ Hel). cbn [bind].
      destruct (hp_child n ltac:(lia)) as [Ch Hlt].
      destruct (F (hp n) ltac:(lia)) as [z Hz]. rewrite (up_enter_eval a el n n z JU Hz). cbn [bind].
      assert (I1 : hole_ord a (n + 1) n).
      { split; [intros i c x y Hc Hch Hcn Hin; apply H; auto; lia|]. intros _ c y z' Hc Hch. unfold child in Hch. lia. }
      assert (I2 : below_ok a (n + 1) n el) by (intros c y Hc Hch; unfold child in Hch; lia).
      destruct (lta el z) eqn:Lt.
      + destruct (up_loop_spec el (n + 1) (heap_fuel n) a n (heap_fuel_spec n) ltac:(lia) ltac:(lia) Hu F I1 I2
                    (ex_intro _ z (conj Hz Lt))) as (a' & j' & R & La & Lj & F' & I1' & I2' & Ab & P' & S').
        rewrite N.add_sub in R. rewrite R. cbn [bind fst snd].
        unfold up_fin_ix. rewrite wr_ok by lia.
        exists (upd a' (N.to_nat j') (Some el)). splits; auto.
        * rewrite alen_upd; auto.
        * rewrite P'. rewrite upd_same; auto.
        * rewrite skipn_upd by lia. auto.
        * apply filled_upd; auto.
        * apply hole_fill; auto; lia.
      + exists a. splits; auto. rewrite <- (upd_same a (N.to_nat n) (Some el) Hel).
        apply hole_fill; auto. intros _ z' Hz'. assert (z' = z) by congruence. subst z'. exact Lt.
  Qed.

  Lemma down_sel_eval1 a el n j c y0 y1 : c + 1 < n -> n <= UHALF ->
    cell a c = Some (Some y0) -> cell a (c + 1) = Some (Some y1) ->
    eval_cond key a el (down_sel n j c) = Good (lta y1 y0) /\ down_child1 n j c = c + 1.
  Proof.
    intros Hc Hn H0 H1. pose proof UMOD_UHALF. unfold down_sel, down_child1. rewrite uadd_small by lia.
    cbn [eval_cond operand_key bind]. replace (c + 1 <? n) with true by lia.
    rewrite (rd_cell _ _ _ H0), (rd_cell _ _ _ H1). split; reflexivity.
  Qed.

  Lemma down_sel_eval0 a el n j c : c < n -> n <= c + 1 -> n <= UHALF ->
    eval_cond key a el (down_sel n j c) = Good false.
  Proof.
    intros Hc Hc1 Hn. pose proof UMOD_UHALF. unfold down_sel. rewrite uadd_small by lia.
    cbn [eval_cond operand_key bind]. replace (c + 1 <? n) with false by lia. reflexivity.
  Qed.

  Lemma down_brk_eval a el n j c y : cell a c = Some (Some y) ->
    eval_cond key a el (down_brk n j c) = Good (pos_le (key el) (key y)).
  Proof. intros H. unfold down_brk. cbn [eval_cond operand_key bind]. rewrite (rd_cell _ _ _ H). reflexivity. Qed.

  (* the child chosen by the `if (child + 1 < size && pos_lt(..)) child++` of down_heap *)
  Lemma down_select a el n j : 2 * j + 1 < n -> n <= UHALF -> filled a n ->
    exists b cs ys, eval_cond key a el (down_sel n j (2 * j + 1)) = Good b /\
      (if b then down_child1 n j (2 * j + 1) else 2 * j + 1) = cs /\
      cell a cs = Some (Some ys) /\ child j cs /\ cs < n /\ below_ok a n j ys.
  Proof.
    intros Hc Hn F. destruct (F (2 * j + 1) Hc) as [y0 H0].
    destruct (N.lt_ge_cases (2 * j + 1 + 1) n) as [L1|G1].
    - destruct (F _ L1) as [y1 H1]. destruct (down_sel_eval1 a el n j _ y0 y1 L1 Hn H0 H1) as [E1 E2].
      exists (lta y1 y0). rewrite E1, E2. destruct (lta y1 y0) eqn:Lt.
      + exists (2 * j + 1 + 1), y1. splits; auto; [unfold child; lia|].
        intros c y Hcn Hch Hy. destruct Hch as [->| ->].
        * assert (y = y0) by congruence. subst. apply plt_ple. exact Lt.
        * replace (2 * j + 2) with (2 * j + 1 + 1) in Hy by lia. assert (y = y1) by congruence. subst. apply ple_refl.
      + exists (2 * j + 1), y0. splits; auto; [unfold child; lia|].
        intros c y Hcn Hch Hy. destruct Hch as [->| ->].
        * assert (y = y0) by congruence. subst. apply ple_refl.
        * replace (2 * j + 2) with (2 * j + 1 + 1) in Hy by lia. assert (y = y1) by congruence. subst. exact Lt.
    - rewrite (down_sel_eval0 a el n j _ Hc G1 Hn). exists false, (2 * j + 1), y0. splits; auto; [unfold child; lia|].
      intros c y Hcn Hch Hy. destruct Hch as [->| ->]; [|lia]. assert (y = y0) by congruence. subst. apply ple_refl.
  Qed.

  Lemma down_move a n j el cs ys :
    j < alen a -> cs < n -> child j cs -> hole_ord a n j -> cell a cs = Some (Some ys) -> below_ok a n j ys ->
    lta ys el = true ->
    let a1 := upd a (N.to_nat j) (Some ys) in hole_ord a1 n cs /\ above_ok a1 cs el.
  Proof.
    intros Hj Hcs Hch [I1 I3] Hys Hmin Lt a1. destruct (child_hp _ _ Hch) as (Ej & Hp & Hl).
    assert (Cj : cell a1 j = Some (Some ys)) by (apply cell_upd_eq; lia).
    assert (Co : forall k, k <> j -> cell a1 k = cell a k) by (intros; apply cell_upd_neq; auto).
    split; [split|].
    - intros i c x y Hc Hch' Hccs Hics Hi Hcc. destruct (N.eq_dec c j) as [->|Ncj].
      + destruct (child_hp _ _ Hch') as (-> & Hp' & Hl'). rewrite Cj in Hcc. inversion Hcc; subst y.
        rewrite Co in Hi by lia. apply (I3 Hp' cs ys x); auto.
      + rewrite (Co c Ncj) in Hcc. destruct (N.eq_dec i j) as [->|Nij].
        * rewrite Cj in Hi. inversion Hi; subst x. apply (Hmin c y); auto.
        * rewrite (Co i Nij) in Hi. apply (I1 i c x y); auto.
    - intros _ c y z Hc Hch' Hy Hz. rewrite <- Ej in Hz. rewrite Cj in Hz. inversion Hz; subst z.
      destruct (child_hp _ _ Hch') as (_ & _ & Hl'). rewrite Co in Hy by lia.
      apply (I1 cs c ys y); auto; lia.
    - intros _ z Hz. rewrite <- Ej in Hz. rewrite Cj in Hz. inversion Hz; subst z. apply plt_ple. exact Lt.
  Qed.

  Lemma down_loop_spec el n : forall fuel a j,
    n < (j + 1) * 2 ^ N.of_nat fuel -> j < n -> n <= alen a -> n <= UHALF ->
    filled a n -> hole_ord a n j -> above_ok a j el ->
    exists a' j', down_loop_f key fuel a el n j = Good (a', j') /\ alen a' = alen a /\ j' < n /\
      filled a' n /\ hole_ord a' n j' /\ above_ok a' j' el /\ below_ok a' n j' el /\
      Permutation (upd a' (N.to_nat j') (Some el)) (upd a (N.to_nat j) (Some el)) /\
      skipn (N.to_nat n) a' = skipn (N.to_nat n) a.
  Proof.
    induction fuel as [|fuel IH]; intros a j Hf Hj Hn Hu F I1 I2.
    - cbn in Hf. lia.
    - cbn [down_loop_f]. unfold down_loop, down_child0. rewrite left_eq by lia.
      destruct (N.ltb_spec (2 * j + 1) n) as [Lc|Gc].
      + destruct (down_select a el n j Lc Hu F) as (b & cs & ys & Es & Ec & Hys & Hch & Hcs & Hmin).
        rewrite Es. cbn [bind]. rewrite Ec. rewrite (down_brk_eval a el n j cs ys Hys). cbn [bind].
        destruct (pos_le (key el) (key ys)) eqn:Le.
        * exists a, j. splits; auto.
          intros c y Hc Hch' Hy. eapply ple_trans; [apply pos_le_iff; exact Le|]. apply (Hmin c y); auto.
        * assert (Lt : lta ys el = true).
          { unfold lta. unfold pos_le in Le. destruct (pos_lt (key ys) (key el)); auto. }
          unfold down_mv_dst, down_mv_src, down_next. rewrite (rd_cell _ _ _ Hys). cbn [bind]. rewrite wr_ok by lia. cbn [bind].
          destruct (down_move a n j el cs ys ltac:(lia) Hcs Hch I1 Hys Hmin Lt) as (I1' & I2').
          destruct (child_hp _ _ Hch) as (_ & _ & Hl).
          destruct (hole_move a n j cs ys el ltac:(lia) Hj Hn F Hys) as (F1 & P1 & S1 & L1).
          set (a1 := upd a (N.to_nat j) (Some ys)) in *.
          assert (Hf2 : n < (cs + 1) * 2 ^ N.of_nat fuel).
          { replace (N.of_nat (S fuel)) with (N.succ (N.of_nat fuel)) in Hf by lia.
            rewrite N.pow_succ_r' in Hf. unfold child in Hch. nia. }
          destruct (IH a1 cs Hf2 Hcs ltac:(lia) Hu F1 I1' I2')
            as (a' & j' & R & La & Lj & F' & I1'' & I2'' & K' & P' & S').
          exists a', j'. rewrite R. splits; auto; try lia.
          -- etransitivity; eauto.
          -- congruence.
      + exists a, j. splits; auto.
        intros c y Hc Hch. unfold child in Hch. lia.
  Qed.

  (* down_heap(root, n) on a heap of n+1 elements: the minimum root[0] ends up in cell n,
     the other n elements form a heap in cells [0, n) *)
  Theorem down_heap_spec a n :
    n < alen a -> alen a <= UHALF -> filled a (n + 1) -> heap_ord a (n + 1) ->
    exists a', down_heap key a n = Good a' /\ alen a' = alen a /\ Permutation a' a /\
      skipn (N.to_nat (n + 1)) a' = skipn (N.to_nat (n + 1)) a /\ cell a' n = cell a 0 /\
      filled a' (n + 1) /\ heap_ord a' n.
  Proof.
    intros Hn Hu F H. unfold down_heap. unfold down_ret at 1. destruct (N.eqb_spec n 0) as [->|N0].
    - exists a. splits; auto. intros i c x y Hc. lia.
    - unfold down_el_ix, down_sv_src, down_sv_dst, down_j0.
      destruct (F n ltac:(lia)) as [el Hel]. destruct (F 0 ltac:(lia)) as [m Hm].
      rewrite (rd_cell _ _ _ Hel). cbn [bind]. rewrite (rd_cell _ _ _ Hm). cbn [bind].
      rewrite wr_ok by lia. cbn [bind].
      set (a1 := upd a (N.to_nat n) (Some m)).
      assert (Co : forall k, k <> n -> cell a1 k = cell a k) by (intros; apply cell_upd_neq; auto).
      assert (F1 : filled a1 n). { intros i Hi. rewrite Co by lia. apply F. lia. }
      assert (I1 : hole_ord a1 n 0).
      { split; [|intro; lia]. intros i c x y Hc Hch _ _ Hi Hcc. destruct (child_hp _ _ Hch) as (_ & _ & Hl).
        rewrite Co in Hi by lia. rewrite Co in Hcc by lia. apply (H i c x y); auto. lia. }
      assert (I2 : above_ok a1 0 el) by (intro; lia).
      assert (Hf : n < (0 + 1) * 2 ^ N.of_nat (heap_fuel n)) by (pose proof (heap_fuel_spec n); lia).
      assert (L1 : alen a1 = alen a) by apply alen_upd.
      destruct (down_loop_spec el n (heap_fuel n) a1 0 Hf ltac:(lia) ltac:(lia) ltac:(unfold UHALF in *; lia) F1 I1 I2)
        as (a' & j' & R & La & Lj & F' & I1' & I2' & K' & P' & S').
      rewrite R. cbn [bind fst snd]. change (down_fin_ix n j') with j'. rewrite wr_ok by lia.
      exists (upd a' (N.to_nat j') (Some el)).
      assert (Cn : cell a' n = Some (Some m)).
      { unfold cell. rewrite (skipn_nth a' a1 (N.to_nat n) (N.to_nat n) S' ltac:(lia)). apply cell_upd_eq. lia. }
      splits.
      + reflexivity.
      + rewrite alen_upd. lia.
      + rewrite P'. unfold a1. apply swap_perm; [lia|exact Hel|exact Hm].
      + rewrite skipn_upd by lia. rewrite (skipn_more a' a1 (N.to_nat n)) by (auto; lia).
        apply skipn_upd. lia.
      + rewrite cell_upd_neq by lia. congruence.
      + intros i Hi. destruct (N.eq_dec i n) as [->|Ne].
        * exists m. rewrite cell_upd_neq by lia. auto.
        * apply (filled_upd a' n j' el F'). lia.
      + apply hole_fill; auto. lia.
  Qed.
End Heap.
