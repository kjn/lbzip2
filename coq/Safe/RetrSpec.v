(* C05/C06/C09, retrieve(): the statement-level model (Safe/RetrModel.v) against the format description
   (Dec/Format.v).  Part 1: the bit stream a state stands for, and how PEEK/DUMP/NEED act on it. *)
From Coq Require Import List NArith Arith Bool Lia ZifyBool ZifyNat ZifyN.
From LBZ Require Import Common.Bits Gen.Consts Dec.Prog Dec.Format Safe.TreeModel Safe.TreeProofs Safe.RetrModel
  Safe.RetrInv.
Import ListNotations.
Local Open Scope N_scope.

(* the bits of the words not yet consumed *)
Definition wbits (nx : list N) : list bool := flat_map (bits_msb 32) nx.
(* the valid bits of the buffer, as a number *)
Definition bufq (c : core) : N := c_v c / 2 ^ (64 - c_w c).
(* the bit stream ahead of a state *)
Definition strm (c : core) (nx : list N) : list bool := bits_msb (N.to_nat (c_w c)) (bufq c) ++ wbits nx.

Lemma buf_is_q c q : buf_is c q -> bufq c = q.
Proof. intros (_ & _ & Hv). unfold bufq. rewrite Hv. apply N.div_mul. apply N.pow_nonzero. discriminate. Qed.

Lemma wbits_length nx : length (wbits nx) = (32 * length nx)%nat.
Proof. induction nx as [|x r IH]; [reflexivity|]. cbn [wbits flat_map]. rewrite app_length, bits_msb_length. fold (wbits r). rewrite IH. cbn [length]. lia. Qed.

Lemma strm_length c nx : N.of_nat (length (strm c nx)) = c_w c + 32 * N.of_nat (length nx).
Proof. unfold strm. rewrite app_length, bits_msb_length, wbits_length. lia. Qed.

(* bits_msb of the low part *)
Lemma bits_msb_mod n x : bits_msb n (x mod 2 ^ N.of_nat n) = bits_msb n x.
Proof.
  assert (G : forall m, (m <= n)%nat -> bits_msb m (x mod 2 ^ N.of_nat n) = bits_msb m x).
  { induction m as [|m IH]; intro Hm; [reflexivity|]. cbn [bits_msb]. rewrite IH by lia. f_equal.
    apply N.mod_pow2_bits_low. lia. }
  apply G. lia.
Qed.

(* reading k bits off the front *)
Lemma take_acc_bits k : forall acc y rest, y < 2 ^ N.of_nat k ->
  run (take_acc k acc) (bits_msb k y ++ rest) = Ok (acc * 2 ^ N.of_nat k + y, rest).
Proof.
  induction k as [|k IH]; intros acc y rest Hy.
  - cbn. f_equal. f_equal. change (2 ^ 0) with 1 in Hy. lia.
  - cbn [bits_msb take_acc app run].
    rewrite <- (bits_msb_mod k y). rewrite IH by (apply N.mod_lt, N.pow_nonzero; discriminate). f_equal. f_equal.
    rewrite Nat2N.inj_succ, N.pow_succ_r' in *.
    assert (Eb : (if N.testbit y (N.of_nat k) then 1 else 0) = y / 2 ^ N.of_nat k).
    { rewrite N.testbit_eqb. assert (y / 2 ^ N.of_nat k < 2).
      { apply N.div_lt_upper_bound; [apply N.pow_nonzero; discriminate|lia]. }
      rewrite N.mod_small by assumption. destruct (y / 2 ^ N.of_nat k) as [|[p|p|]]; try reflexivity; lia. }
    rewrite Eb. pose proof (N.div_mod y (2 ^ N.of_nat k) ltac:(apply N.pow_nonzero; discriminate)). nia.
Qed.

Lemma strm_q c q nx : buf_is c q -> strm c nx = bits_msb (N.to_nat (c_w c)) q ++ wbits nx.
Proof. intro H. unfold strm. rewrite (buf_is_q c q H). reflexivity. Qed.

(* NEED does not change the stream *)
Lemma strm_load c q x c' r : buf_is c q -> c_w c < 32 -> x < 2 ^ 32 ->
  buf_is c' (q * 2 ^ 32 + x) -> c_w c' = c_w c + 32 -> strm c' r = strm c (x :: r).
Proof.
  intros Hq Hw Hx Hq' Ew. rewrite (strm_q c q _ Hq), (strm_q c' _ _ Hq'). rewrite Ew.
  cbn [wbits flat_map]. fold (wbits r). rewrite app_assoc. f_equal.
  replace (N.to_nat (c_w c + 32)) with (N.to_nat (c_w c) + 32)%nat by lia. rewrite bits_msb_split. f_equal.
  - f_equal. change (N.of_nat 32) with 32. rewrite N.div_add_l by discriminate. rewrite N.div_small by exact Hx. lia.
  - rewrite <- (bits_msb_mod 32 (q * 2 ^ 32 + x)). change (N.of_nat 32) with 32.
    rewrite N.add_comm, N.mod_add by discriminate. rewrite N.mod_small by exact Hx. reflexivity.
Qed.

(* the first k bits of the stream as a bit list *)
Lemma strm_split c q k c' nx : buf_is c q -> k <= c_w c -> buf_is c' (q mod 2 ^ (c_w c - k)) -> c_w c' = c_w c - k ->
  strm c nx = bits_msb (N.to_nat k) (q / 2 ^ (c_w c - k)) ++ strm c' nx.
Proof.
  intros Hq Hk Hq' Ew. rewrite (strm_q c q _ Hq), (strm_q c' _ _ Hq'), Ew.
  replace (N.to_nat (c_w c)) with (N.to_nat k + N.to_nat (c_w c - k))%nat at 1 by lia.
  rewrite bits_msb_split, <- app_assoc. rewrite N2Nat.id. f_equal. f_equal.
  rewrite <- (bits_msb_mod (N.to_nat (c_w c - k)) q). rewrite N2Nat.id. reflexivity.
Qed.

(* the stream reads only v and w *)
Lemma strm_frame c c' nx : c_v c' = c_v c -> c_w c' = c_w c -> strm c' nx = strm c nx.
Proof. intros Ev Ew. unfold strm, bufq. rewrite Ev, Ew. reflexivity. Qed.

Lemma skipn_bits_app k x tl : skipn k (bits_msb k x ++ tl) = tl.
Proof. rewrite skipn_app, bits_msb_length, Nat.sub_diag, skipn_all2 by (rewrite bits_msb_length; lia). reflexivity. Qed.

(* PEEK(k), DUMP(k) and TAKE(x, k) with the contents of the buffer hidden.  A core that differs from c in fields other
   than v, w satisfies [buf_ok] and has the stream of c by conversion, so these apply to it with the hypotheses of c. *)
Lemma peek_spec c k : buf_ok c -> 1 <= k -> k <= c_w c ->
  exists x, peek c k = XV x /\ x < 2 ^ k /\
    forall nx, strm c nx = bits_msb (N.to_nat k) x ++ skipn (N.to_nat k) (strm c nx).
Proof.
  intros (q & Hb) H1 H2. exists (q / 2 ^ (c_w c - k)). split; [exact (peek_ok c q k Hb H1 H2)|].
  split; [apply peek_lt; [apply Hb|exact H2]|]. intro nx. destruct (dump_ok c q k Hb H2) as (c' & _ & -> & Hb').
  rewrite (strm_split c q k _ nx Hb H2 Hb' eq_refl), skipn_bits_app. reflexivity.
Qed.

Lemma dump_spec c k : buf_ok c -> k <= c_w c ->
  let c' := bufset c ((c_v c * 2 ^ k) mod 2 ^ 64) (c_w c - k) in
  dump c k = XV c' /\ buf_ok c' /\ forall nx, strm c' nx = skipn (N.to_nat k) (strm c nx).
Proof.
  intros (q & Hb) H2. destruct (dump_ok c q k Hb H2) as (c' & Ed & -> & Hb').
  split; [exact Ed|]. split; [eexists; exact Hb'|]. intro nx.
  rewrite (strm_split c q k _ nx Hb H2 Hb' eq_refl), skipn_bits_app. reflexivity.
Qed.

(* x = PEEK(k) is stored somewhere (c1 = the core after the store), then DUMP(k) *)
Lemma take_spec c k : buf_ok c -> 1 <= k -> k <= c_w c ->
  exists x v', peek c k = XV x /\ x < 2 ^ k /\
    forall c1, c_v c1 = c_v c -> c_w c1 = c_w c ->
      dump c1 k = XV (bufset c1 v' (c_w c - k)) /\ buf_ok (bufset c1 v' (c_w c - k)) /\
      forall nx, run (take (N.to_nat k)) (strm c nx) = Ok (x, strm (bufset c1 v' (c_w c - k)) nx).
Proof.
  intros Hb H1 H2. destruct (peek_spec c k Hb H1 H2) as (x & Ep & Hx & Sx).
  exists x, ((c_v c * 2 ^ k) mod 2 ^ 64). split; [exact Ep|]. split; [exact Hx|]. intros c1 Ev Ew.
  destruct (dump_spec c1 k (buf_ok_frame c c1 Ev Ew Hb) ltac:(rewrite Ew; exact H2)) as (Ed & Hb' & Sd).
  rewrite Ev, Ew in Ed, Hb', Sd. split; [exact Ed|]. split; [exact Hb'|]. intro nx.
  rewrite (Sd nx), (strm_frame c c1 nx Ev Ew). unfold take. rewrite (Sx nx) at 1.
  rewrite take_acc_bits by (rewrite N2Nat.id; exact Hx). reflexivity.
Qed.

(* Part 2: what remains to be read - residual programs of Format.read_block - and the abstract values of a state *)
From LBZ Require Import Dec.Policies Dec.Delta.
From LBZ Require Safe.SlideModel Safe.SlideProofs.

Record hdr := mk_hdr { h_rnd : N; h_idx : N; h_used : list N; h_nt : N; h_ns : N }.
Definition h_alpha (h : hdr) : nat := (length (h_used h) + 2)%nat.
Definition h_eob (h : hdr) : N := N.of_nat (h_alpha h) - 1.

Definition mk_rb (h : hdr) (tables : list (list N)) (mtfv : list N) : raw_block :=
  {| rb_rand := negb (h_rnd h =? 0); rb_idx := h_idx h; rb_used := h_used h; rb_mtfv := mtfv;
     rb_ntrees := h_nt h; rb_nsel := h_ns h; rb_tables := tables |}.

(* the tree numbers of the groups *)
Definition sels_of (selm : list N) : list N :=
  unmtf_selectors [0; 1; 2; 3; 4; 5] (firstn (N.to_nat (sel_clamp lbz_policy)) selm).

Section K.
Variable f : nat.       (* fuel of the delta reader *)

(* g groups done, their symbols are syms *)
Definition K_group (h : hdr) (selm : list N) (tables : list (list N)) (g : nat) (syms : list N) : prog raw_block :=
  more <- read_groups lbz_policy tables (h_eob h) (skipn g (sels_of selm)) ;; Prog.Ret (mk_rb h tables (syms ++ more)).

(* inside group g (coded with lens), n symbols to go *)
Definition K_prefix (h : hdr) (selm : list N) (tables : list (list N)) (g : nat) (syms : list N) (lens : list N) (n : nat)
  : prog raw_block :=
  gr <- read_group lens (h_eob h) n ;;
  if snd gr then Prog.Ret (mk_rb h tables (syms ++ fst gr))
  else more <- read_groups lbz_policy tables (h_eob h) (skipn (S g) (sels_of selm)) ;; Prog.Ret (mk_rb h tables (syms ++ fst gr ++ more)).

Definition K_tables (h : hdr) (selm : list N) (tables : list (list N)) : prog raw_block :=
  more <- repeat_prog (N.to_nat (h_nt h) - length tables) (read_table lbz_policy f (h_alpha h)) ;;
  K_group h selm (tables ++ more) 0 [].

(* inside a table: lens are the lengths read, n symbols to go, cur the running value *)
Definition K_lens (h : hdr) (selm : list N) (tables : list (list N)) (lens : list N) (n : nat) (cur : N) : prog raw_block :=
  rest <- read_lens lbz_policy f n cur ;; K_tables h selm (tables ++ [lens ++ rest]).

Definition K_sels (h : hdr) (selm : list N) : prog raw_block :=
  more <- repeat_prog (N.to_nat (h_ns h) - length selm) (read_unary (N.to_nat (h_nt h)) 0) ;; K_tables h (selm ++ more) [].

Definition K_post (rnd idx : N) (used : list N) : prog raw_block :=
  _ <- guard (negb (N.of_nat (length used) =? 0)) ErrBitmap ;;
  nt <- take 3 ;;
  _ <- guard ((2 <=? nt) && (nt <=? 6)) ErrTrees ;;
  ns <- take 15 ;;
  _ <- guard (negb (ns =? 0)) ErrGroups ;;
  K_sels (mk_hdr rnd idx used nt ns) [].

(* ranges i .. i+n-1 of the bitmap still to come *)
Definition K_smalls (rnd idx big : N) (i n : nat) (used : list N) : prog raw_block :=
  rest <- read_smalls big i n ;; K_post rnd idx (used ++ rest).

Definition K_big (rnd idx : N) : prog raw_block := big <- take 16 ;; K_smalls rnd idx big 0 16 [].
Definition K_start : prog raw_block := rnd <- take 1 ;; idx <- take 24 ;; K_big rnd idx.
End K.

(* the bytes of range i whose bit is set in the 16-bit word s *)
Definition range_bytes (i : nat) (s : N) : list N :=
  map (fun j => (16 * N.of_nat i + N.of_nat j)) (filter (testbit16 s) (seq 0 16)).

(* the result of a block: what retrieve() delivers *)
Definition post (rb : raw_block) : result (bool * N * list N) :=
  match unmtf_block MAX_BLOCK_SIZE (rb_used rb) (rb_mtfv rb) with
  | Err e => Err e
  | Ok col =>
      if N.of_nat (length col) =? 0 then Err ErrEmpty
      else if N.of_nat (length col) <=? rb_idx rb then Err ErrBwtIdx
      else Ok (rb_rand rb, rb_idx rb, col)
  end.

(* one block of the format, from the bits behind its CRC: randomised flag, origin pointer, BWT column, bits left *)
Definition spec_block (f : nat) (bits : list bool) : result (bool * N * list N * list bool) :=
  match run (read_block lbz_policy f) bits with
  | Err e => Err e
  | Ok (rb, rest) => match post rb with Err e => Err e | Ok r => Ok (r, rest) end
  end.

(* abstract values of a state *)
Definition R_big (c : core) (rnd idx : N) : Prop := J_big c /\ d_rand c = rnd /\ d_bwt_idx c = idx.

(* rs->big behind i iterations of  rs->big <<= 1  (a uint16_t) *)
Definition shl16 (big : N) (i : nat) : N := (big * 2 ^ N.of_nat i) mod 2 ^ 16.

(* at the inner loop of range i, whose 16 bits are in rs->small; [used]: the bytes of the ranges below i *)
Definition R_small (c : core) (rnd idx big : N) (i : nat) (used : list N) : Prop :=
  exists flags, J_bm c i flags /\ d_rand c = rnd /\ d_bwt_idx c = idx /\ used = SlideModel.used_of flags /\
                r_big c = shl16 big i.

Definition R_hdr (c : core) (h : hdr) (flags : list bool) : Prop :=
  J_hdr c flags /\ h_used h = SlideModel.used_of flags /\ d_rand c = h_rnd h /\ d_bwt_idx c = h_idx h /\
  r_num_trees c = h_nt h /\ r_num_selectors c = h_ns h.

Definition R_sel (c : core) (h : hdr) (selm : list N) : Prop :=
  exists flags, J_selN c flags /\ R_hdr c h flags /\ selm = firstn (N.to_nat (r_j c) + 1) (r_selector c).

(* the tables of the trees 0 .. t-1 *)
Definition tabs_rel (c : core) (tables : list (list N)) : Prop :=
  N.of_nat (length tables) = r_t c /\
  forall i, i < r_t c -> let lens := nth (N.to_nat i) tables [] in
    N.of_nat (length lens) = r_alpha_size c /\
    tree_rel lens (nth (N.to_nat i) (r_mtf c) 0) i (nth (N.to_nat i) (r_tree c) garbage_tree).

Definition R_tree (c : core) (h : hdr) (selm : list N) (tables : list (list N)) : Prop :=
  exists flags, J_tree c flags /\ R_hdr c h flags /\ selm = firstn (N.to_nat (h_ns h)) (r_selector c) /\ tabs_rel c tables.

Definition R_delta (c : core) (h : hdr) (selm : list N) (tables : list (list N)) (lens : list N) : Prop :=
  exists flags, J_deltaN c flags /\ R_hdr c h flags /\ selm = firstn (N.to_nat (h_ns h)) (r_selector c) /\ tabs_rel c tables /\
                lens = firstn (N.to_nat (r_j c)) (r_code_len c).

(* at the entry of the inner loop of range i with sm in rs->small (0 for a skipped range): what remains *)
Definition K_inner (f : nat) (rnd idx big : N) (i : nat) (used : list N) (sm : N) : prog raw_block :=
  rest <- read_smalls big (S i) (15 - i) ;; K_post f rnd idx (used ++ range_bytes i sm ++ rest).

(* the head of the selector loop: j selectors stored *)
Definition R_selH (c : core) (h : hdr) (selm : list N) : Prop :=
  exists flags, J_selH c flags /\ R_hdr c h flags /\ selm = firstn (N.to_nat (r_j c)) (r_selector c).

(* the head of the delta loop (running value possibly up to 31) *)
Definition R_deltaH (c : core) (h : hdr) (selm : list N) (tables : list (list N)) (lens : list N) : Prop :=
  exists flags, J_delta c flags 31 /\ R_hdr c h flags /\ selm = firstn (N.to_nat (h_ns h)) (r_selector c) /\ tabs_rel c tables /\
                lens = firstn (N.to_nat (r_j c)) (r_code_len c).

(* the symbol phase: Format.unmtf one symbol at a time *)
(* (order, run, shift, size, acc) *)
Definition ust := (list N * N * N * N * list (N * N))%type.

Definition ustep (limit : N) (u : ust) (s : N) : result ust :=
  let '(order, run, shift, size, acc) := u in
  if s <=? 1 then Ok (order, run + N.shiftl (s + 1) shift, shift + 1, size, acc)
  else if limit <? size + run then Err ErrOverflow
  else Ok (snd (mtf_front (N.to_nat (s - 1)) order 0), 1, 0, size + run, (hd 0 order, run) :: acc).

Fixpoint usteps (limit : N) (u : ust) (syms : list N) : result ust :=
  match syms with
  | [] => Ok u
  | s :: r => match ustep limit u s with Ok u' => usteps limit u' r | Err e => Err e end
  end.

Definition ufinal (limit : N) (u : ust) : result (list (N * N) * N) :=
  let '(order, run, shift, size, acc) := u in
  if limit <? size + run then Err ErrOverflow else Ok ((hd 0 order, run) :: acc, size + run).

(* the order of the tree numbers behind a prefix of the selector MTF values *)
Definition sel_order (sels : list N) : list N :=
  fold_left (fun ord s => snd (mtf_front (N.to_nat s) ord 0)) sels [0; 1; 2; 3; 4; 5].

Definition clamped (selm : list N) : list N := firstn (N.to_nat (sel_clamp lbz_policy)) selm.

(* what the group phase keeps of the header and of the tables; [k] selector MTF values have been applied to rs->mtf[] *)
Definition G_static (c : core) (h : hdr) (selm : list N) (tables : list (list N)) (k : nat) : Prop :=
  d_rand c = h_rnd h /\ d_bwt_idx c = h_idx h /\ r_num_trees c = h_nt h /\ r_alpha_size c = N.of_nat (h_alpha h) /\
  length selm = N.to_nat (h_ns h) /\ Forall (fun s => s < h_nt h) selm /\
  r_num_selectors c = N.min (h_ns h) (sel_clamp lbz_policy) /\
  firstn (N.to_nat (r_num_selectors c)) (r_selector c) = clamped selm /\
  N.of_nat (length tables) = h_nt h /\
  (forall i, i < h_nt h ->
     let t := nth (N.to_nat i) (sel_order (firstn k (clamped selm))) 0 in
     t < h_nt h /\ N.of_nat (length (nth (N.to_nat t) tables [])) = r_alpha_size c /\
     tree_rel (nth (N.to_nat t) tables []) (nth (N.to_nat i) (r_mtf c) 0) t (nth (N.to_nat t) (r_tree c) garbage_tree)).

(* the symbols decoded so far, run through Format.unmtf, give the run/slide state of the core and the tt[] cells *)
Definition G_syms (c : core) (h : hdr) (order : list N) (syms : list N) : Prop :=
  exists run shift size acc,
    usteps MAX_BLOCK_SIZE (h_used h, 0, 0, 0, []) syms = Ok (order, run, shift, size, acc) /\
    r_run c = run /\ r_shift c = shift /\ c_ttp c = size /\ rev (c_tt c) = expand_runs (rev acc) /\ r_runChar c = hd 0 order.

(* the head of the group loop: g groups done *)
Definition R_group (c : core) (h : hdr) (selm : list N) (tables : list (list N)) (g : nat) (syms : list N) : Prop :=
  exists order, J_group c order /\ G_static c h selm tables g /\ N.of_nat g = r_g c /\ G_syms c h order syms.

(* inside group g on the slow path: its tree is t = rs->t with lengths lens, n symbols to go *)
Definition R_prefix (c : core) (h : hdr) (selm : list N) (tables : list (list N)) (g : nat) (syms : list N) (lens : list N) (n : nat)
  : Prop :=
  exists order, J_prefix c order /\ G_static c h selm tables (S g) /\ N.of_nat g = r_g c /\ G_syms c h order syms /\
    N.of_nat n + r_j c = 50 /\ nth g (sels_of selm) 0 = r_t c /\ lens = nth (N.to_nat (r_t c)) tables [] /\
    tree_rel lens (r_t c) (r_t c) (nth (N.to_nat (r_t c)) (r_tree c) garbage_tree).

(* one pass of the machine against the format description *)
(* the abstract values at a control point *)
Inductive astate :=
| ABwt
| ABig (rnd idx : N)
| ASmall (rnd idx big : N) (i : nat) (used : list N)
| ASel (h : hdr) (selm : list N)
| ADelta (h : hdr) (selm : list N) (tables : list (list N)) (lens : list N)
| ATree (h : hdr) (selm : list N) (tables : list (list N))
| AGroup (h : hdr) (selm : list N) (tables : list (list N)) (g : nat) (syms : list N)
| APrefix (h : hdr) (selm : list N) (tables : list (list N)) (g : nat) (syms : list N) (lens : list N) (n : nat).

Definition Rel (p : pc) (c : core) (a : astate) : Prop :=
  match p, a with
  | A_BWT_IDX, ABwt => J_bwt c
  | A_BITMAP_BIG, ABig rnd idx => R_big c rnd idx
  | A_BITMAP_SMALL, ASmall rnd idx big i used => R_small c rnd idx big i used
  | A_SELECTOR_MTF, ASel h selm => R_sel c h selm
  | A_DELTA_TAG, ADelta h selm tables lens => R_delta c h selm tables lens
  | P_TREE, ATree h selm tables => R_tree c h selm tables
  | P_GROUP, AGroup h selm tables g syms => R_group c h selm tables g syms
  | A_PREFIX, APrefix h selm tables g syms lens n => R_prefix c h selm tables g syms lens n
  | _, _ => False
  end.

(* what remains to be read *)
Definition Kof (f : nat) (c : core) (a : astate) : prog raw_block :=
  match a with
  | ABwt => K_start f
  | ABig rnd idx => K_big f rnd idx
  | ASmall rnd idx big i used => K_inner f rnd idx big i used (r_small c)
  | ASel h selm => K_sels f h selm
  | ADelta h selm tables lens => K_lens f h selm tables lens (h_alpha h - length lens) (cl c (r_j c))
  | ATree h selm tables => K_tables f h selm tables
  | AGroup h selm tables g syms => K_group h selm tables g syms
  | APrefix h selm tables g syms lens n => K_prefix h selm tables g syms lens n
  end.

(* bits NEED guarantees in the buffer at a control point; P_GROUP is entered from the slow path with what a symbol left *)
Definition wlo (p : pc) : N := match p with P_GROUP => 12 | _ => 32 end.
(* the passes that consume no bit go A_SELECTOR_MTF / A_DELTA_TAG -> P_TREE -> P_GROUP -> A_PREFIX *)
Definition sigma (p : pc) : N := match p with A_PREFIX => 0 | P_GROUP => 1 | P_TREE => 2 | _ => 3 end.

Lemma sigma_le p : sigma p <= 3.
Proof. destruct p as [[]| |]; cbn; lia. Qed.

(* a return without a block: the format description does not deliver a block either *)
Definition fails (X : result (raw_block * list bool)) : Prop :=
  match X with Err _ => True | Ok (rb, _) => exists e, post rb = Err e end.

(* the end of a block: what the format description has read is what is in the state *)
Definition done (X : result (raw_block * list bool)) (c : core) (nx : list N) : Prop :=
  exists rb, X = Ok (rb, strm c nx) /\
    unmtf_block MAX_BLOCK_SIZE (rb_used rb) (rb_mtfv rb) = Ok (rev (c_tt c)) /\
    c_ttp c = N.of_nat (length (c_tt c)) /\ rb_rand rb = negb (d_rand c =? 0) /\ rb_idx rb = d_bwt_idx c.

(* What a block of the slow machine leaves behind.  X: what the format description makes of the stream at the entry of
   the block; m: the measure 4 * w + sigma there.  No fault; the exit point is related to an abstract state whose
   residual program gives the same X on the stream that is left; the measure has gone down. *)
Definition blk_post (f : nat) (nx : list N) (X : result (raw_block * list bool)) (m : N) (r : bres) : Prop :=
  match r with
  | BGo p' c' => exists a', Rel p' c' a' /\ buf_ok c' /\ wlo p' <= c_w c' /\ 4 * c_w c' + sigma p' < m /\
                            X = run (Kof f c' a') (strm c' nx)
  | BNeed s c' => exists a', Rel (After s) c' a' /\ buf_ok c' /\ 4 * c_w c' + sigma (After s) < m /\
                             X = run (Kof f c' a') (strm c' nx)
  | BRet _ _ => fails X
  | BEob c' => done X c' nx
  | BFault _ => False
  end.
