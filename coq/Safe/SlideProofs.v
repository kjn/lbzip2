(* C08, sliding-list inverse MTF (src/decode.c: mtf_one): safety and refinement proofs
   for the array-level model of Safe/SlideModel.v.

   Invariant ([layout L st]):
     - the slide has L cells, there are 16 row offsets;
     - rows are 16 cells wide, ordered and disjoint:  row[i] + 16*(j-i) <= row[j]  for i <= j < 16
       (so  row[i+1] = row[i] + 16 + gap_i  with gap_i >= 0);
     - row[15] + 16 <= L                                  (hence row[i] + 16*(16-i) <= L).
   The lower end needs no clause: offsets are naturals and every decrement is checked by [pdec].
   A fast-path call (c < 16) leaves the row offsets unchanged.  A general-case call with target
   row t = c / 16 first rebuilds if row[0] = 0 (all rows copied to the top, last row first: row[i]
   becomes L - 256 + 16*i, which is >= 1 because 256 < SLIDE_LENGTH), then decrements row[0..t-1]
   by one (gap_(t-1) grows by one, everything else keeps its distance), so row[0] decreases by
   exactly one per general-case call ([mtf_one_ok], last conjunct).  The slot one below row[i]
   (i < t) that becomes its new first cell exists because row[i] >= row[0] >= 1 at that point; it is
   written by the NEXT loop iteration (or by the final  *pp = c  for row 0), and when gap_(i-1) = 0
   it coincides with the last cell of row i-1, whose value is read before ([carry_spec]).

   Abstract content [absl st] = concatenation of the 16 rows (256 cells).  Main results, first for
   any slide length L > 256, then for the regenerated constants (side conditions ROW_WIDTH = 16,
   NUM_ROWS = 16, NUM_ROWS * ROW_WIDTH = 256, 256 < SLIDE_LENGTH, CMAP_BASE + 256 = SLIDE_LENGTH,
   all by computation):
     slide_safe, slide_safe_from_init   (a) no out-of-bounds access for any sequence of positions < 256
     slide_step_refines, slide_refines_list  (b) absl evolves like Format.mtf_front, for positions 1..255
     slide_step_sim, slide_run_sim, slide_block, unmtf_slide_refines
                                        (c) interface with the list-based decoder model Dec/Format.v

   Preconditions and what they mean for the C code:
     * position 0 is excluded from (b),(c): mtf_one(.., 0) executes `default: abort()`
       ([mtf_one_zero]); retrieve() never passes 0 because symbol 0 is EOB and is tested before.
     * (c) needs positions < number of bytes in use.  Cells at positions >= ninuse hold whatever the
       memory held before (the bitmap loop writes only CMAP_BASE .. CMAP_BASE+ninuse, the last one
       with a stale j); the model takes these as an arbitrary list [junk] and the theorems hold for
       every junk, i.e. the returned bytes do not depend on it.  Such positions are never requested:
       symbols come from perm[]/start[], filled by make_tree() with RUN_A, RUN_B, EOB and s - 1 for
       2 <= s < alpha_size - 1 = ninuse + 1, i.e. MTF positions 1 .. ninuse - 1.
       A rebuild does COPY the stale cells (it moves all 256 cells of the 16 rows); that is a read of
       indeterminate `unsigned char` objects in allocated storage, which is not undefined behaviour,
       and the values are never returned or branched on ([slide_block]: result independent of junk). *)
From Coq Require Import List NArith Arith Bool Lia ZifyBool ZifyNat ZifyN.
From LBZ Require Import Common.ListArr Gen.DecTabs Safe.SlideModel Dec.Prog Dec.Format.
Import ListNotations.
Local Open Scope N_scope.

(* side conditions on the regenerated constants (by computation) *)
Lemma RW16 : ROW_WIDTH = 16. Proof. reflexivity. Qed.
Lemma NR16 : NUM_ROWS = 16. Proof. reflexivity. Qed.
Lemma rows_cover_256 : NUM_ROWS * ROW_WIDTH = 256. Proof. reflexivity. Qed.
Lemma slide_room : 256 < SLIDE_LENGTH. Proof. reflexivity. Qed.
Lemma cmap_base_ok : CMAP_BASE + 256 = SLIDE_LENGTH. Proof. reflexivity. Qed.

Definition len (a : list N) : N := N.of_nat (length a).
Definition get (a : list N) (i : N) : N := nth (N.to_nat i) a 0.
Definition set (a : list N) (i v : N) : list N := lupd (N.to_nat i) v a.

Lemma updo_lupd : forall n v a, (n < length a)%nat -> updo n v a = Some (lupd n v a).
Proof.
  induction n as [|n IH]; intros v [|x r] Hl; cbn [length] in Hl; try lia; cbn [updo lupd]; [reflexivity|].
  rewrite IH by lia. reflexivity.
Qed.

Lemma rd_ok : forall a i, i < len a -> rd a i = Some (get a i).
Proof. intros a i H. unfold rd, get, len in *. apply nth_error_nth'. lia. Qed.

Lemma wr_ok : forall a i v, i < len a -> wr a i v = Some (set a i v).
Proof. intros a i v H. unfold wr, set, len in *. apply updo_lupd. lia. Qed.

Lemma len_set : forall a i v, len (set a i v) = len a.
Proof. intros. unfold len, set. now rewrite lupd_length. Qed.

Lemma get_set_same : forall a i v, i < len a -> get (set a i v) i = v.
Proof. intros a i v H. unfold get, set, len in *. apply nth_lupd_same. lia. Qed.

Lemma get_set_other : forall a i v j, j <> i -> get (set a i v) j = get a j.
Proof. intros a i v j H. unfold get, set. apply nth_lupd_other. lia. Qed.

Lemma pdec_ok : forall p, 1 <= p -> pdec p = Some (p - 1).
Proof. intros p H. unfold pdec. destruct (N.eqb_spec p 0); [lia|reflexivity]. Qed.

Lemma padd_ok : forall lim p k, p + k <= lim -> padd lim p k = Some (p + k).
Proof. intros. unfold padd. destruct (N.leb_spec (p + k) lim); [reflexivity|lia]. Qed.

Lemma shift_up_spec : forall k a bb,
  bb + N.of_nat k < len a ->
  exists a', shift_up k a bb = Some a' /\ len a' = len a /\
    (forall j, bb < j <= bb + N.of_nat k -> get a' j = get a (j - 1)) /\
    (forall j, ~ bb < j <= bb + N.of_nat k -> get a' j = get a j).
Proof.
  induction k as [|k IH]; intros a bb Hb.
  - exists a. cbn [shift_up]. repeat split; auto. intros j Hj. lia.
  - cbn [shift_up]. rewrite rd_ok by lia. cbn [obind]. rewrite wr_ok by lia. cbn [obind].
    destruct (IH (set a (bb + N.of_nat (S k)) (get a (bb + N.of_nat k))) bb) as (a' & -> & Hl & Hin & Hout);
      [rewrite len_set; lia|].
    exists a'. split; [reflexivity|]. split; [now rewrite Hl, len_set|]. split; intros j Hj.
    + destruct (N.eq_dec j (bb + N.of_nat (S k))) as [->|Hne].
      * rewrite Hout, get_set_same by lia. f_equal. lia.
      * rewrite Hin, get_set_other by lia. reflexivity.
    + rewrite Hout, get_set_other by lia. reflexivity.
Qed.

Lemma copy_down_spec : forall n a bb kk,
  N.of_nat n <= bb -> bb <= kk -> kk <= len a ->
  exists a', copy_down n a bb kk = Some (a', kk - N.of_nat n) /\ len a' = len a /\
    (forall j, kk - N.of_nat n <= j < kk -> get a' j = get a (j - (kk - bb))) /\
    (forall j, ~ kk - N.of_nat n <= j < kk -> get a' j = get a j).
Proof.
  induction n as [|n IH]; intros a bb kk H1 H2 H3.
  - exists a. cbn [copy_down N.of_nat]. rewrite N.sub_0_r. repeat split; auto. intros j Hj. lia.
  - cbn [copy_down]. rewrite (pdec_ok kk) by lia. cbn [obind]. rewrite (pdec_ok bb) by lia. cbn [obind].
    rewrite rd_ok by lia. cbn [obind]. rewrite wr_ok by lia. cbn [obind].
    destruct (IH (set a (kk - 1) (get a (bb - 1))) (bb - 1) (kk - 1)) as (a' & -> & Hl & Hin & Hout);
      try (rewrite ?len_set; lia).
    exists a'. split; [do 2 f_equal; lia|]. split; [now rewrite Hl, len_set|]. split; intros j Hj.
    + destruct (N.eq_dec j (kk - 1)) as [->|Hne].
      * rewrite Hout, get_set_same by lia. f_equal. lia.
      * rewrite Hin, get_set_other by lia. f_equal. lia.
    + rewrite Hout, get_set_other by lia. reflexivity.
Qed.

(* rows 0 .. m-1 move down by one cell; the new first cell of row l+1 (l < m) receives the old last
   cell of row l.  Row m itself stays: its first cell is the destination of the first iteration. *)
Lemma carry_spec : forall m a rows pp,
  N.of_nat m < len rows -> get rows (N.of_nat m) < len a ->
  (forall i, i < N.of_nat m -> 1 <= get rows i /\ get rows i + 15 <= get rows (N.of_nat m)) ->
  (forall i j, i < j -> j < N.of_nat m -> get rows i + 16 <= get rows j) ->
  exists a' rows' pp',
    carry m a rows pp = Some (a', rows', pp') /\ len a' = len a /\ len rows' = len rows /\
    (forall i, i < N.of_nat m -> get rows' i = get rows i - 1) /\
    (forall i, N.of_nat m <= i -> get rows' i = get rows i) /\
    pp' = (if N.of_nat m =? 0 then pp else get rows 0 - 1) /\
    (forall l, l < N.of_nat m -> get a' (get rows' (l + 1)) = get a (get rows l + 15)) /\
    (forall y, (forall l, l < N.of_nat m -> y <> get rows' (l + 1)) -> get a' y = get a y).
Proof.
  induction m as [|l IH]; intros a rows pp Hm Hda Hlow Hsort.
  - exists a, rows, pp. cbn [carry]. repeat split; auto; intros; lia.
  - cbn [carry]. set (L := N.of_nat l) in *. replace (N.of_nat (S l)) with (L + 1) in * by lia.
    destruct (Hlow L ltac:(lia)) as [Hr1 Hr15]. set (r := get rows L) in *. set (dm := get rows (L + 1)) in *.
    rewrite (rd_ok rows) by lia. cbn [obind]. rewrite pdec_ok by exact Hr1. cbn [obind].
    rewrite (wr_ok rows) by lia. cbn [obind]. fold r. rewrite RW16, (rd_ok a) by lia. cbn [obind].
    rewrite rd_ok by (rewrite len_set; lia). cbn [obind]. rewrite get_set_other by lia. fold dm.
    rewrite wr_ok by lia. cbn [obind].
    assert (Hsep : forall i, i < L -> get rows i + 16 <= r) by (intros i Hi; apply Hsort; lia).
    destruct (IH (set a dm (get a (r - 1 + 16))) (set rows L (r - 1)) (r - 1))
      as (a' & rows' & pp' & -> & Hla & Hlr & Hlt & Hge & -> & Hc & Hu).
    { rewrite len_set. lia. }
    { rewrite get_set_same, len_set by lia. lia. }
    { intros i Hi. rewrite get_set_same, get_set_other by lia. specialize (Hsep i Hi). split; [apply Hlow|]; lia. }
    { intros i j Hij Hj. rewrite !get_set_other by lia. apply Hsort; lia. }
    rewrite len_set in Hla, Hlr.
    assert (Hlt' : forall i, i < L + 1 -> get rows' i = get rows i - 1).
    { intros i Hi. destruct (N.eq_dec i L) as [->|Hne].
      - rewrite Hge, get_set_same by lia. reflexivity.
      - rewrite Hlt, get_set_other by lia. reflexivity. }
    assert (Hge' : forall i, L + 1 <= i -> get rows' i = get rows i).
    { intros i Hi. rewrite Hge, get_set_other by lia. reflexivity. }
    assert (Hdm : forall l0, l0 < L -> dm <> get rows' (l0 + 1)).
    { intros l0 Hl0. rewrite Hlt' by lia. destruct (N.eq_dec (l0 + 1) L) as [->|Hne]; [fold r; lia|].
      specialize (Hsep (l0 + 1) ltac:(lia)). lia. }
    exists a', rows', (if L =? 0 then r - 1 else get (set rows L (r - 1)) 0 - 1).
    split; [reflexivity|]. split; [exact Hla|]. split; [exact Hlr|]. split; [exact Hlt'|]. split; [exact Hge'|].
    split; [|split].
    + replace (L + 1 =? 0) with false by lia. destruct (N.eqb_spec L 0) as [E|E].
      * unfold r. rewrite E. reflexivity.
      * rewrite get_set_other by lia. reflexivity.
    + intros l0 Hl0. destruct (N.eq_dec l0 L) as [->|Hne].
      * rewrite Hge' by lia. fold dm. rewrite Hu, get_set_same by (auto; lia). f_equal. lia.
      * rewrite Hc, (get_set_other rows) by lia. specialize (Hsep l0 ltac:(lia)). rewrite get_set_other by lia. reflexivity.
    + intros y Hy. rewrite Hu by (intros l0 Hl0; apply Hy; lia).
      apply get_set_other. specialize (Hy L ltac:(lia)). rewrite Hge' in Hy by lia. exact Hy.
Qed.

Lemma rebuild_loop_spec : forall L n a rows kk,
  len a = L -> N.of_nat n <= len rows -> kk <= L ->
  (forall i, i < N.of_nat n -> get rows i + 16 * (N.of_nat n - i) <= kk) ->
  exists a' rows', rebuild_loop L n a rows kk = Some (a', rows') /\ len a' = L /\ len rows' = len rows /\
    (forall i, i < N.of_nat n -> get rows' i = kk - 16 * (N.of_nat n - i)) /\
    (forall i, N.of_nat n <= i -> get rows' i = get rows i) /\
    (forall i q, i < N.of_nat n -> q < 16 ->
       get a' (kk - 16 * (N.of_nat n - i) + q) = get a (get rows i + q)) /\
    (forall y, kk <= y -> get a' y = get a y).
Proof.
  intros L. induction n as [|r IH]; intros a rows kk Hla Hn Hkk Hfit.
  - exists a, rows. cbn [rebuild_loop]. repeat split; auto; intros; lia.
  - cbn [rebuild_loop]. set (R := N.of_nat r) in *. replace (N.of_nat (S r)) with (R + 1) in * by lia.
    pose proof (Hfit R ltac:(lia)) as Hbg. set (bg := get rows R) in *.
    rewrite (rd_ok rows) by lia. cbn [obind]. fold bg. rewrite RW16, padd_ok by lia. cbn [obind].
    replace (bg + 16 - bg) with 16 by lia.
    destruct (copy_down_spec (N.to_nat 16) a (bg + 16) kk) as (a1 & -> & Hl1 & Hin1 & Hout1); try lia. cbn [obind].
    replace (N.of_nat (N.to_nat 16)) with 16 in * by lia.
    rewrite (wr_ok rows) by lia. cbn [obind].
    destruct (IH a1 (set rows R (kk - 16)) (kk - 16)) as (a' & rows' & -> & Hla' & Hlr' & Hlt & Hge & Hcells & Hhi);
      try (rewrite ?len_set; lia).
    { intros i Hi. rewrite get_set_other by lia. specialize (Hfit i ltac:(lia)). lia. }
    rewrite len_set in Hlr'. exists a', rows'. split; [reflexivity|]. split; [exact Hla'|]. split; [exact Hlr'|].
    split; [|split; [|split]].
    + intros i Hi. destruct (N.eq_dec i R) as [->|Hne].
      * rewrite Hge, get_set_same by lia. lia.
      * rewrite Hlt by lia. specialize (Hfit i Hi). lia.
    + intros i Hi. rewrite Hge, get_set_other by lia. reflexivity.
    + intros i q Hi Hq. specialize (Hfit i Hi). destruct (N.eq_dec i R) as [->|Hne].
      * replace (kk - 16 * (R + 1 - R) + q) with (kk - 16 + q) by lia.
        rewrite Hhi, Hin1 by lia. fold bg. f_equal. lia.
      * replace (kk - 16 * (R + 1 - i) + q) with (kk - 16 - 16 * (R - i) + q) by lia.
        rewrite Hcells, get_set_other, Hout1 by lia. reflexivity.
    + intros y Hy. rewrite Hhi, Hout1 by lia. reflexivity.
Qed.

Lemma row_cells_length : forall a r, r + 16 <= len a -> length (row_cells a r) = 16%nat.
Proof.
  intros a r H. unfold row_cells, len in *. rewrite RW16.
  rewrite firstn_length, skipn_length. lia.
Qed.

Lemma row_cells_nth : forall a r q, (q < 16)%nat ->
  nth q (row_cells a r) 0 = get a (r + N.of_nat q).
Proof.
  intros a r q H. unfold row_cells, get. rewrite RW16.
  rewrite nth_firstn by lia. rewrite nth_skipn. f_equal. lia.
Qed.

Lemma flat_map_uniform : forall (f : N -> list N) (l : list N),
  (forall r, In r l -> length (f r) = 16%nat) ->
  length (flat_map f l) = (16 * length l)%nat /\
  forall p, (p < 16 * length l)%nat ->
    nth p (flat_map f l) 0 = nth (p mod 16) (f (nth (p / 16) l 0)) 0.
Proof.
  intros f. induction l as [|r l IH]; intros Hf.
  - cbn [flat_map length]. split; [reflexivity|]. intros p Hp. lia.
  - destruct IH as [IHl IHn]. { intros r' Hr'. apply Hf. now right. }
    assert (Hr : length (f r) = 16%nat) by (apply Hf; now left).
    cbn [flat_map length]. rewrite app_length. split; [lia|].
    intros p Hp. destruct (Nat.lt_ge_cases p 16) as [Hlt|Hge].
    + rewrite app_nth1 by lia.
      replace (p / 16)%nat with 0%nat by lia. replace (p mod 16)%nat with p by lia. reflexivity.
    + rewrite app_nth2 by lia. rewrite Hr. rewrite IHn by lia.
      replace (p / 16)%nat with (S ((p - 16) / 16)) by lia.
      replace ((p - 16) mod 16)%nat with (p mod 16)%nat by lia. reflexivity.
Qed.

(* layout part of the invariant *)
Definition layout (L : N) (st : sstate) : Prop :=
  len (s_slide st) = L /\ len (s_rows st) = 16 /\
  (forall i j, i <= j -> j < 16 ->
     get (s_rows st) i + 16 * (j - i) <= get (s_rows st) j) /\
  get (s_rows st) 15 + 16 <= L.

Lemma layout_row_fits : forall L st i, layout L st -> i < 16 ->
  get (s_rows st) i + 16 * (16 - i) <= L.
Proof. intros L st i (H1 & H2 & H3 & H4) Hi. pose proof (H3 i 15). lia. Qed.

Lemma layout_sep : forall L st i j, layout L st -> i < j -> j < 16 ->
  get (s_rows st) i + 16 <= get (s_rows st) j.
Proof. intros L st i j (_ & _ & H & _) Hij Hj. pose proof (H i j). lia. Qed.

Lemma layout_le : forall L st i j, layout L st -> i <= j -> j < 16 ->
  get (s_rows st) i <= get (s_rows st) j.
Proof. intros L st i j (_ & _ & H & _) Hij Hj. pose proof (H i j). lia. Qed.

Definition cell (st : sstate) (p : N) : N :=
  get (s_slide st) (get (s_rows st) (p / 16) + p mod 16).

Lemma cell_at : forall st j i, i < 16 ->
  cell st (16 * j + i) = get (s_slide st) (get (s_rows st) j + i).
Proof.
  intros st j i Hi. unfold cell.
  replace ((16 * j + i) / 16) with j by lia. replace ((16 * j + i) mod 16) with i by lia. reflexivity.
Qed.

Lemma absl_cells : forall L st, layout L st ->
  length (absl st) = 256%nat /\ forall p, p < 256 -> get (absl st) p = cell st p.
Proof.
  intros L st HL. unfold absl, cell.
  destruct (flat_map_uniform (row_cells (s_slide st)) (s_rows st)) as [Hl Hn].
  - intros r Hr. apply row_cells_length.
    destruct (In_nth _ _ 0 Hr) as (n & Hn & <-).
    pose proof (layout_row_fits L st (N.of_nat n) HL) as Hf.
    destruct HL as (H1 & H2 & _). unfold get, len in *. rewrite Nat2N.id in Hf. lia.
  - destruct HL as (_ & H2 & _). unfold len in H2. split; [lia|]. intros p Hp.
    unfold get at 1. rewrite Hn, row_cells_nth by lia. unfold get. f_equal.
    replace (N.to_nat p / 16)%nat with (N.to_nat (p / 16)) by lia.
    f_equal. lia.
Qed.

Lemma absl_len : forall L st, layout L st -> length (absl st) = 256%nat.
Proof. intros L st HL. apply (absl_cells L st HL). Qed.

Lemma absl_get : forall L st p, layout L st -> p < 256 -> get (absl st) p = cell st p.
Proof. intros L st p HL. apply (absl_cells L st HL). Qed.

Lemma mtf_front_nth : forall (l : list N) (c p : nat) x, (c < length l)%nat -> (p < length l)%nat ->
  nth p (x :: firstn c l ++ skipn (S c) l) 0 =
    if Nat.eqb p 0 then x else if Nat.leb p c then nth (p - 1) l 0 else nth p l 0.
Proof.
  intros l c p x Hc Hp. destruct p as [|p]; [reflexivity|]. cbn [nth Nat.eqb].
  assert (Hfl : length (firstn c l) = c) by (rewrite firstn_length; lia).
  destruct (Nat.leb_spec (S p) c) as [Hle|Hgt].
  - rewrite app_nth1 by lia. rewrite nth_firstn by lia. f_equal. lia.
  - rewrite app_nth2 by lia. rewrite Hfl, nth_skipn. f_equal. lia.
Qed.

Lemma mtf_front_length : forall (l : list N) (c : nat) x, (c < length l)%nat ->
  length (x :: firstn c l ++ skipn (S c) l) = length l.
Proof.
  intros l c x H. cbn [length]. rewrite app_length, firstn_length, skipn_length. lia.
Qed.

(* the cell-wise description of "move position c to the front" *)
Definition moved (st st' : sstate) (c : N) : Prop :=
  forall p, p < 256 ->
    cell st' p = if p =? 0 then cell st c else if p <=? c then cell st (p - 1) else cell st p.

(* list equality from the cell-wise description *)
Lemma absl_mtf_front : forall L st st' c, layout L st -> layout L st' -> c < 256 -> moved st st' c ->
  absl st' = snd (mtf_front (N.to_nat c) (absl st) 0) /\
  get (absl st) c = fst (mtf_front (N.to_nat c) (absl st) 0).
Proof.
  intros L st st' c HL HL' Hc Hcell. unfold mtf_front. cbn [fst snd]. split; [|reflexivity].
  destruct (absl_cells L st HL) as [Hl G]. destruct (absl_cells L st' HL') as [Hl' G'].
  apply nth_ext with (d := 0) (d' := 0).
  - rewrite mtf_front_length by lia. lia.
  - intros n Hn. rewrite mtf_front_nth by lia.
    specialize (G' (N.of_nat n) ltac:(lia)). unfold get in G', G. rewrite Nat2N.id in G'.
    rewrite G', Hcell by lia. rewrite <- (G c Hc).
    destruct n as [|n]; [reflexivity|].
    replace (N.of_nat (S n) =? 0) with false by lia. cbn [Nat.eqb].
    destruct (Nat.leb_spec (S n) (N.to_nat c)).
    + replace (N.of_nat (S n) <=? c) with true by lia. rewrite <- G by lia. f_equal. lia.
    + replace (N.of_nat (S n) <=? c) with false by lia. rewrite <- G, Nat2N.id by lia. reflexivity.
Qed.

(* Both paths of mtf_one(c), c = 16 t + k, do the same to the slide: rows 0 .. t-1 move down by one cell,
   the byte of position c goes to the (new) first cell of row 0, the first cell of row j (1 <= j <= t)
   receives the old last cell of row j-1, the first k cells of row t move up by one, nothing else changes.
   With the rows disjoint and in order this is "move position c to the front". *)
Lemma moved_intro : forall L st st' t k, layout L st -> t < 16 -> k < 16 ->
  (1 <= t -> 1 <= get (s_rows st) 0) ->
  (forall j, j < t -> get (s_rows st') j = get (s_rows st) j - 1) ->
  (forall j, t <= j -> get (s_rows st') j = get (s_rows st) j) ->
  get (s_slide st') (get (s_rows st') 0) = get (s_slide st) (get (s_rows st) t + k) ->
  (forall j, 1 <= j <= t ->
     get (s_slide st') (get (s_rows st') j) = get (s_slide st) (get (s_rows st) (j - 1) + 15)) ->
  (forall y, get (s_rows st) t < y <= get (s_rows st) t + k -> get (s_slide st') y = get (s_slide st) (y - 1)) ->
  (forall y, y <> get (s_rows st') 0 -> (forall j, 1 <= j <= t -> y <> get (s_rows st') j) ->
     ~ get (s_rows st) t < y <= get (s_rows st) t + k -> get (s_slide st') y = get (s_slide st) y) ->
  moved st st' (16 * t + k).
Proof.
  intros L st st' t k HL Ht Hk H1 Hlt Hge H0 Hc Hs Hu p Hp.
  pose proof (fun i j => layout_sep L st i j HL) as Hsep. pose proof (fun i j => layout_le L st i j HL) as Hle.
  replace p with (16 * (p / 16) + p mod 16) by lia.
  assert (Hj : p / 16 < 16) by lia. assert (Hi : p mod 16 < 16) by lia.
  generalize dependent (p mod 16). generalize dependent (p / 16). clear p Hp. intros j Hj i Hi.
  rewrite (cell_at st') by exact Hi.
  assert (Hrows' : forall j', j' < 16 -> get (s_rows st') j' <= get (s_rows st) j' /\ get (s_rows st) j' <= get (s_rows st') j' + 1).
  { intros j' _. destruct (N.lt_ge_cases j' t) as [H|H]; [rewrite Hlt|rewrite Hge]; lia. }
  destruct (N.lt_trichotomy j t) as [Hjt|[->|Hjt]].
  - (* a row that moves down *)
    replace (16 * j + i <=? 16 * t + k) with true by lia. pose proof (Hle 0 j ltac:(lia) Hj) as H0j.
    destruct (N.eq_dec i 0) as [->|Hi0]; [destruct (N.eq_dec j 0) as [->|Hj0]|].
    + rewrite N.add_0_r, H0, cell_at by lia. reflexivity.
    + replace (16 * j + 0 =? 0) with false by lia. replace (16 * j + 0 - 1) with (16 * (j - 1) + 15) by lia.
      rewrite N.add_0_r, Hc, cell_at by lia. reflexivity.
    + replace (16 * j + i =? 0) with false by lia. replace (16 * j + i - 1) with (16 * j + (i - 1)) by lia.
      rewrite cell_at, Hlt by lia. replace (get (s_rows st) j - 1 + i) with (get (s_rows st) j + (i - 1)) by lia.
      pose proof (Hsep j t Hjt Ht) as Hjt'. specialize (H1 ltac:(lia)). apply Hu; [rewrite (Hlt 0) by lia; lia| |lia].
      intros j' Hj'. specialize (Hrows' j' ltac:(lia)).
      destruct (N.le_gt_cases j' j) as [H|H]; [pose proof (Hle j' j H Hj); pose proof (Hle 0 j' ltac:(lia) ltac:(lia)); rewrite Hlt by lia|pose proof (Hsep j j' H ltac:(lia))]; lia.
  - (* the target row *)
    rewrite (Hge t) by lia. destruct (N.eq_dec i 0) as [->|Hi0]; [destruct (N.eq_dec t 0) as [->|Ht0]|].
    + rewrite N.add_0_r, <- (Hge 0), H0, cell_at by lia. reflexivity.
    + replace (16 * t + 0 =? 0) with false by lia. replace (16 * t + 0 <=? 16 * t + k) with true by lia.
      replace (16 * t + 0 - 1) with (16 * (t - 1) + 15) by lia.
      rewrite N.add_0_r, <- (Hge t), Hc, cell_at by lia. reflexivity.
    + replace (16 * t + i =? 0) with false by lia. destruct (N.leb_spec (16 * t + i) (16 * t + k)) as [H|H].
      * replace (16 * t + i - 1) with (16 * t + (i - 1)) by lia. rewrite Hs, cell_at by lia. f_equal. lia.
      * rewrite cell_at by lia. apply Hu; [pose proof (Hrows' 0); pose proof (Hle 0 t); lia| |lia].
        intros j' Hj'. specialize (Hrows' j' ltac:(lia)). pose proof (Hle j' t ltac:(lia) Ht). lia.
  - (* a row above it *)
    replace (16 * j + i =? 0) with false by lia. replace (16 * j + i <=? 16 * t + k) with false by lia.
    rewrite cell_at, Hge by lia. pose proof (Hsep t j Hjt Hj).
    apply Hu; [pose proof (Hrows' 0); pose proof (Hle 0 t); lia| |lia].
    intros j' Hj'. specialize (Hrows' j' ltac:(lia)). pose proof (Hle j' t ltac:(lia) Ht). lia.
Qed.

Lemma fast_ok : forall L st c, layout L st -> 1 <= c -> c < 16 ->
  exists st', mtf_fast c st = Done (cell st c) st' /\ layout L st' /\
              s_rows st' = s_rows st /\ moved st st' c.
Proof.
  intros L [a rows] c HL Hc1 Hc16.
  pose proof (layout_row_fits L _ 0 HL) as Hf0. pose proof HL as (Hla & Hlr & Hch & Htop). cbn [s_slide s_rows] in *.
  unfold mtf_fast. cbn [s_slide s_rows].
  rewrite (rd_ok rows) by lia. cbn [obind]. set (r0 := get rows 0) in *.
  rewrite (rd_ok a) by lia. cbn [obind]. replace (c =? 0) with false by lia.
  destruct (shift_up_spec (N.to_nat c) a r0) as (a1 & -> & Hl1 & Hin & Hout); [lia|]. cbn [obind].
  rewrite N2Nat.id in Hin, Hout. rewrite wr_ok by lia. cbn [obind lift].
  rewrite (cell_at {| s_slide := a; s_rows := rows |} 0 c Hc16 : cell _ c = _).
  eexists. split; [reflexivity|]. split; [|split; [reflexivity|]].
  { unfold layout. cbn [s_slide s_rows]. rewrite len_set. repeat split; auto; lia. }
  apply (moved_intro L _ _ 0 c HL); cbn [s_slide s_rows]; fold r0; try lia.
  - apply get_set_same. lia.
  - intros y Hy. rewrite get_set_other, Hin by lia. reflexivity.
  - intros y Hy _ Hy'. rewrite get_set_other, Hout by assumption. reflexivity.
Qed.

Lemma rebuild_ok : forall L st, layout L st ->
  exists st1, rebuild L st = Some st1 /\ layout L st1 /\
    (forall i, i < 16 -> get (s_rows st1) i = L - 256 + 16 * i) /\
    (forall p, p < 256 -> cell st1 p = cell st p).
Proof.
  intros L [a rows] HL.
  pose proof (fun i => layout_row_fits L _ i HL) as Hfit.
  destruct HL as (Hla & Hlr & Hch & Htop). cbn [s_slide s_rows] in *.
  unfold rebuild. cbn [s_slide s_rows]. rewrite NR16.
  destruct (rebuild_loop_spec L (N.to_nat 16) a rows L) as (a' & rows' & -> & Hla' & Hlr' & Hrows & _ & Hcells & _);
    try lia.
  { intros i Hi. specialize (Hfit i). lia. }
  replace (N.of_nat (N.to_nat 16)) with 16 in * by lia. cbn [obind]. pose proof (Hfit 0 ltac:(lia)) as Hf0.
  assert (Hr' : forall i, i < 16 -> get rows' i = L - 256 + 16 * i) by (intros i Hi; rewrite Hrows by exact Hi; lia).
  eexists. split; [reflexivity|]. split; [|split; [exact Hr'|]].
  - unfold layout. cbn [s_slide s_rows]. split; [exact Hla'|]. split; [lia|].
    split; [intros i j Hij Hj|]; rewrite !Hr' by lia; lia.
  - intros p Hp. unfold cell. cbn [s_slide s_rows].
    assert (Hj : p / 16 < 16) by lia. assert (Hi : p mod 16 < 16) by lia.
    rewrite Hr', <- (Hcells (p / 16) (p mod 16)) by assumption. f_equal. lia.
Qed.

(* the part of mtf_general after the rebuild test *)
Definition general_rest (L c : N) (st1 : sstate) : option outcome :=
  bb <~ rd (s_rows st1) (c / ROW_WIDTH) ;;
  pp <~ padd L bb (c mod ROW_WIDTH) ;;
  x <~ rd (s_slide st1) pp ;;
  a <~ shift_up (N.to_nat (pp - bb)) (s_slide st1) bb ;;
  ' (a', rows', pp') <~ carry (N.to_nat (c / ROW_WIDTH)) a (s_rows st1) bb ;;
  a'' <~ wr a' pp' x ;;
  Some (Done x {| s_slide := a''; s_rows := rows' |}).

Lemma mtf_general_unfold : forall L c st,
  mtf_general L c st =
  lift (r0 <~ rd (s_rows st) 0 ;;
        st1 <~ (if r0 =? 0 then rebuild L st else Some st) ;;
        general_rest L c st1).
Proof. reflexivity. Qed.

Lemma general_rest_ok : forall L st c, layout L st -> 1 <= get (s_rows st) 0 -> 16 <= c -> c < 256 ->
  exists st', general_rest L c st = Some (Done (cell st c) st') /\ layout L st' /\
              get (s_rows st') 0 = get (s_rows st) 0 - 1 /\ moved st st' c.
Proof.
  intros L [a rows] c HL Hr0 Hc16 Hc256.
  pose proof (fun i => layout_row_fits L _ i HL) as Hfit. pose proof (fun i j => layout_sep L _ i j HL) as Hsep.
  pose proof (fun i j => layout_le L _ i j HL) as Hle.
  pose proof HL as (Hla & Hlr & Hch & Htop). cbn [s_slide s_rows] in *.
  unfold general_rest. cbn [s_slide s_rows]. rewrite RW16.
  remember (c / 16) as t eqn:Et. remember (c mod 16) as k eqn:Ek.
  assert (Htk : c = 16 * t + k /\ k < 16 /\ 1 <= t /\ t < 16) by lia. clear Et Ek Hc16 Hc256.
  destruct Htk as (-> & Hk & Ht1 & Ht).
  rewrite (rd_ok rows) by lia. cbn [obind]. pose proof (Hfit t Ht) as Hft.
  rewrite padd_ok by lia. cbn [obind]. rewrite (rd_ok a) by lia. cbn [obind].
  replace (get rows t + k - get rows t) with k by lia.
  destruct (shift_up_spec (N.to_nat k) a (get rows t)) as (a2 & -> & Hl2 & Hin2 & Hout2); [lia|]. cbn [obind].
  rewrite N2Nat.id in Hin2, Hout2.
  destruct (carry_spec (N.to_nat t) a2 rows (get rows t)) as (a3 & rows3 & pp3 & -> & Hl3 & Hlr3 & Hlt & Hge & -> & Hc3 & Hu3);
    rewrite ?N2Nat.id; try lia.
  { intros i Hi. pose proof (Hle 0 i ltac:(lia) ltac:(lia)). pose proof (Hsep i t Hi Ht). lia. }
  { intros i j Hij Hj. apply Hsep; lia. }
  rewrite N2Nat.id in *. cbn [obind]. replace (t =? 0) with false by lia.
  pose proof (Hfit 0 ltac:(lia)) as Hf0.
  rewrite wr_ok by lia. cbn [obind].
  assert (Hrow : forall j, 1 <= j <= t -> get rows 0 - 1 < get rows3 j <= get rows t).
  { intros j Hj. pose proof (Hsep 0 j ltac:(lia) ltac:(lia)). pose proof (Hle j t ltac:(lia) Ht).
    destruct (N.eq_dec j t) as [->|Hne]; [rewrite Hge|rewrite Hlt]; lia. }
  rewrite cell_at by exact Hk. eexists. split; [reflexivity|]. split; [|split].
  - unfold layout. cbn [s_slide s_rows]. rewrite len_set. split; [lia|]. split; [lia|]. split.
    + intros i j Hij Hj. pose proof (Hch i j Hij Hj). pose proof (Hle 0 i ltac:(lia) ltac:(lia)).
      destruct (N.lt_ge_cases i t), (N.lt_ge_cases j t); rewrite ?Hlt, ?Hge by lia; lia.
    + rewrite Hge by lia. exact Htop.
  - cbn [s_rows]. apply Hlt. lia.
  - pose proof (Hle 0 t ltac:(lia) Ht) as H0t. apply (moved_intro L _ _ t k HL); cbn [s_slide s_rows]; auto.
    + rewrite Hlt by lia. apply get_set_same. lia.
    + intros j Hj. pose proof (Hrow j Hj). pose proof (Hsep (j - 1) t ltac:(lia) Ht).
      rewrite get_set_other by lia. replace j with (j - 1 + 1) at 1 by lia. rewrite Hc3, Hout2 by lia. reflexivity.
    + intros y Hy. rewrite get_set_other, Hu3, Hin2 by (try (intros l Hl; pose proof (Hrow (l + 1))); lia). reflexivity.
    + intros y Hy0 Hy Hy'. rewrite Hlt in Hy0 by lia.
      rewrite get_set_other, Hu3, Hout2 by (try (intros l Hl; apply Hy); lia). reflexivity.
Qed.

Lemma moved_ext : forall st0 st st' c, c < 256 ->
  (forall p, p < 256 -> cell st p = cell st0 p) -> moved st st' c -> moved st0 st' c.
Proof.
  intros st0 st st' c Hc Heq Hm p Hp. rewrite (Hm p Hp).
  rewrite <- (Heq c Hc), <- (Heq p Hp).
  destruct (N.eq_dec p 0) as [->|Hp0]; [reflexivity|].
  rewrite <- (Heq (p - 1)) by lia. reflexivity.
Qed.

Theorem mtf_one_ok : forall L st c, 256 < L -> layout L st -> 1 <= c -> c < 256 ->
  exists st', mtf_one L c st = Done (cell st c) st' /\ layout L st' /\ moved st st' c /\
    get (s_rows st') 0 =
      if c <? 16 then get (s_rows st) 0
      else (if get (s_rows st) 0 =? 0 then L - 256 else get (s_rows st) 0) - 1.
Proof.
  intros L st c HLL HL Hc1 Hc256. unfold mtf_one. rewrite RW16.
  destruct (N.ltb_spec c 16) as [Hlt|Hge].
  - destruct (fast_ok L st c HL Hc1 Hlt) as (st' & He & HL' & Hr & Hm).
    exists st'. rewrite Hr. auto.
  - rewrite mtf_general_unfold.
    assert (Hlr : len (s_rows st) = 16) by (destruct HL as (_ & H & _); exact H).
    rewrite (rd_ok (s_rows st)) by lia. cbn [obind].
    destruct (N.eqb_spec (get (s_rows st) 0) 0) as [Hz|Hnz].
    + destruct (rebuild_ok L st HL) as (st1 & He1 & HL1 & Hr1 & Hc1').
      rewrite He1. cbn [obind].
      destruct (general_rest_ok L st1 c HL1) as (st' & He & HL' & Hr' & Hm); try lia.
      { rewrite Hr1 by lia. lia. }
      rewrite He. cbn [lift]. exists st'.
      rewrite <- (Hc1' c Hc256). split; [reflexivity|]. split; [exact HL'|]. split.
      * apply (moved_ext st st1 st' c Hc256); [intros p Hp; now rewrite Hc1'|exact Hm].
      * rewrite Hr', Hr1 by lia. f_equal. lia.
    + cbn [obind].
      destruct (general_rest_ok L st c HL) as (st' & He & HL' & Hr' & Hm); try lia.
      rewrite He. cbn [lift]. exists st'. auto.
Qed.

(* position 0 never reaches mtf_one in the decoder (symbol 0 is EOB); the code aborts, it does not
   touch memory out of bounds *)
Lemma mtf_one_zero : forall L st, layout L st -> mtf_one L 0 st = Abort.
Proof.
  intros L st HL. pose proof (layout_row_fits L st 0 HL) as Hf.
  destruct HL as (Hla & Hlr & _). unfold mtf_one. rewrite RW16. cbn [N.ltb N.compare].
  unfold mtf_fast. rewrite (rd_ok (s_rows st)) by lia. cbn [obind].
  rewrite (rd_ok (s_slide st)) by lia. cbn [obind N.eqb lift]. reflexivity.
Qed.

(* (a) safety of every sequence of calls *)
Definition no_oob (r : run_outcome) : Prop := match r with ROob _ => False | _ => True end.

Theorem slide_safe_gen : forall L cs st, 256 < L -> layout L st ->
  Forall (fun c => c < 256) cs -> no_oob (slide_run L cs st).
Proof.
  intros L cs. induction cs as [|c cs IH]; intros st HLL HL Hcs; [exact I|].
  inversion Hcs as [|? ? Hc Hcs']; subst. cbn [slide_run].
  destruct (N.eq_dec c 0) as [->|Hc0].
  - rewrite mtf_one_zero by assumption. exact I.
  - destruct (mtf_one_ok L st c HLL HL) as (st' & He & HL' & _); try lia.
    rewrite He. specialize (IH st' HLL HL' Hcs').
    destruct (slide_run L cs st'); cbn [no_oob] in *; auto.
Qed.

(* (b) refinement of the list operation *)
Lemma mtf_front_l_eq : forall i l, mtf_front_l i l = mtf_front i l 0.
Proof. reflexivity. Qed.

Theorem slide_step_refines_gen : forall L st c, 256 < L -> layout L st -> 1 <= c -> c < 256 ->
  exists st', mtf_one L c st = Done (fst (mtf_front (N.to_nat c) (absl st) 0)) st' /\
              layout L st' /\ absl st' = snd (mtf_front (N.to_nat c) (absl st) 0).
Proof.
  intros L st c HLL HL Hc1 Hc256.
  destruct (mtf_one_ok L st c HLL HL Hc1 Hc256) as (st' & He & HL' & Hm & _).
  destruct (absl_mtf_front L st st' c HL HL' Hc256 Hm) as (Ha & Hx).
  exists st'. rewrite <- Hx, (absl_get L st c HL Hc256). auto.
Qed.

Theorem slide_refines_list_gen : forall L cs st, 256 < L -> layout L st ->
  Forall (fun c => 1 <= c /\ c < 256) cs ->
  exists st', slide_run L cs st = RDone (fst (mtf_run cs (absl st))) st' /\
              layout L st' /\ absl st' = snd (mtf_run cs (absl st)).
Proof.
  intros L cs. induction cs as [|c cs IH]; intros st HLL HL Hcs.
  - exists st. cbn [slide_run mtf_run fst snd]. auto.
  - inversion Hcs as [|? ? [Hc1 Hc256] Hcs']; subst. cbn [slide_run mtf_run].
    destruct (slide_step_refines_gen L st c HLL HL Hc1 Hc256) as (st1 & He & HL1 & Ha).
    rewrite He. rewrite mtf_front_l_eq.
    destruct (mtf_front (N.to_nat c) (absl st) 0) as [x o] eqn:Emf. cbn [fst snd] in *.
    destruct (IH st1 HLL HL1 Hcs') as (st' & He' & HL' & Ha').
    rewrite He'. rewrite Ha in *.
    destruct (mtf_run cs o) as [xs o']. cbn [fst snd] in *. exists st'. auto.
Qed.

(* (c) interface with the list-based decoder model (Dec/Format.v) *)
(* [order] = the list the abstract decoder keeps (initially the bytes in use); the slide holds it
   in its first [length order] cells, the remaining cells are whatever the memory held *)
Definition Sim (L : N) (st : sstate) (order : list N) : Prop :=
  layout L st /\ firstn (length order) (absl st) = order.

Lemma mtf_front_app : forall (l tl : list N) c, (c < length l)%nat ->
  mtf_front c (l ++ tl) 0 = (fst (mtf_front c l 0), snd (mtf_front c l 0) ++ tl).
Proof.
  intros l tl c Hc. unfold mtf_front. cbn [fst snd].
  rewrite app_nth1 by lia. f_equal. cbn [app]. f_equal.
  rewrite firstn_app, skipn_app.
  replace (c - length l)%nat with 0%nat by lia.
  replace (S c - length l)%nat with 0%nat by lia.
  cbn [firstn skipn]. rewrite app_nil_r, app_assoc. reflexivity.
Qed.

Theorem slide_step_sim_gen : forall L st order c, 256 < L -> Sim L st order ->
  1 <= c -> c < N.of_nat (length order) ->
  exists st', mtf_one L c st = Done (fst (mtf_front (N.to_nat c) order 0)) st' /\
              Sim L st' (snd (mtf_front (N.to_nat c) order 0)).
Proof.
  intros L st order c HLL [HL Hf] Hc1 Hcn.
  pose proof (absl_len L st HL) as Hlen.
  assert (Hn : (length order <= 256)%nat).
  { rewrite <- Hf. rewrite firstn_length. lia. }
  destruct (slide_step_refines_gen L st c HLL HL Hc1) as (st' & He & HL' & Ha); [lia|].
  rewrite <- (firstn_skipn (length order) (absl st)) in He, Ha. rewrite Hf in He, Ha.
  rewrite mtf_front_app in He, Ha by lia. cbn [fst snd] in He, Ha.
  exists st'. split; [exact He|]. split; [exact HL'|].
  rewrite Ha. unfold mtf_front at 1. cbn [snd].
  rewrite mtf_front_length by lia.
  rewrite firstn_app. rewrite firstn_all2.
  2:{ unfold mtf_front. cbn [snd]. rewrite mtf_front_length by lia. lia. }
  unfold mtf_front at 2. cbn [snd]. rewrite mtf_front_length by lia.
  rewrite Nat.sub_diag. cbn [firstn]. apply app_nil_r.
Qed.

Lemma mtf_front_snd_length : forall (l : list N) c, (c < length l)%nat ->
  length (snd (mtf_front c l 0)) = length l.
Proof. intros. unfold mtf_front. cbn [snd]. now apply mtf_front_length. Qed.

Theorem slide_run_sim_gen : forall L cs st order, 256 < L -> Sim L st order ->
  Forall (fun c => 1 <= c /\ c < N.of_nat (length order)) cs ->
  exists st', slide_run L cs st = RDone (fst (mtf_run cs order)) st' /\
              Sim L st' (snd (mtf_run cs order)).
Proof.
  intros L cs. induction cs as [|c cs IH]; intros st order HLL HS Hcs.
  - exists st. cbn [slide_run mtf_run fst snd]. auto.
  - inversion Hcs as [|? ? [Hc1 Hcn] Hcs']; subst. cbn [slide_run mtf_run].
    destruct (slide_step_sim_gen L st order c HLL HS Hc1 Hcn) as (st1 & He & HS1).
    rewrite He. rewrite mtf_front_l_eq.
    pose proof (mtf_front_snd_length order (N.to_nat c)) as Hlen.
    destruct (mtf_front (N.to_nat c) order 0) as [x o] eqn:Emf. cbn [fst snd] in *.
    destruct (IH st1 o HLL HS1) as (st' & He' & HS').
    { rewrite Hlen by lia. exact Hcs'. }
    rewrite He'. destruct (mtf_run cs o) as [xs o']. cbn [fst snd] in *. exists st'. auto.
Qed.

(* the initial state built by retrieve() *)
Lemma used_from_length : forall flags j, (length (used_from j flags) <= length flags)%nat.
Proof.
  induction flags as [|b r IH]; intros j; cbn [used_from length]; [lia|].
  destruct b; cbn [length]; specialize (IH (j + 1)); lia.
Qed.

Lemma bitmap_fill_spec : forall flags base j alpha a,
  base + alpha + N.of_nat (length flags) <= len a ->
  exists a', bitmap_fill base flags j alpha a =
               Some (a', alpha + N.of_nat (length (used_from j flags))) /\
    len a' = len a /\
    (forall q, (q < length (used_from j flags))%nat ->
       get a' (base + alpha + N.of_nat q) = nth q (used_from j flags) 0) /\
    (forall y, y < base + alpha -> get a' y = get a y).
Proof.
  induction flags as [|b r IH]; intros base j alpha a Hb.
  - exists a. cbn [bitmap_fill used_from length]. split; [f_equal; f_equal; lia|].
    split; [reflexivity|]. split; [intros q Hq; cbn [length] in Hq; lia|reflexivity].
  - cbn [bitmap_fill used_from]. cbn [length] in Hb. rewrite wr_ok by lia. cbn [obind].
    destruct b.
    + destruct (IH base (j + 1) (alpha + 1) (set a (base + alpha) j)) as (a' & -> & Hl & Hq & Hy);
        [rewrite len_set; lia|].
      exists a'. cbn [length]. split; [do 2 f_equal; lia|]. split; [now rewrite Hl, len_set|]. split.
      * intros [|q] Hlt; cbn [nth].
        -- rewrite N.add_0_r, Hy, get_set_same by lia. reflexivity.
        -- rewrite <- Hq by lia. f_equal. lia.
      * intros y Hlt. rewrite Hy, get_set_other by lia. reflexivity.
    + destruct (IH base (j + 1) alpha (set a (base + alpha) j)) as (a' & -> & Hl & Hq & Hy);
        [rewrite len_set; lia|].
      exists a'. split; [reflexivity|]. split; [now rewrite Hl, len_set|]. split; [exact Hq|].
      intros y Hlt. rewrite Hy, get_set_other by lia. reflexivity.
Qed.

Lemma rows_init_get : forall base i, i < 16 -> get (rows_init base) i = base + 16 * i.
Proof.
  intros base i Hi. unfold get, rows_init. rewrite NR16, RW16.
  rewrite nth_map_seq by lia. lia.
Qed.

Lemma rows_init_len : forall base, len (rows_init base) = 16.
Proof. intros. unfold len, rows_init. rewrite map_length, seq_length, NR16. lia. Qed.

Theorem slide_init_ok : forall L base junk flags,
  len junk = L -> base + 256 = L -> length flags = 256%nat ->
  exists st, slide_init base junk flags = Some (st, N.of_nat (length (used_of flags))) /\
             Sim L st (used_of flags).
Proof.
  intros L base junk flags Hj Hb Hf. unfold slide_init, used_of.
  destruct (bitmap_fill_spec flags base 0 0 junk) as (a' & He & Hl & Hq & _); [lia|].
  rewrite He. cbn [obind]. eexists. split; [reflexivity|].
  pose proof (used_from_length flags 0) as Hul.
  assert (HL : layout L {| s_slide := a'; s_rows := rows_init base |}).
  { unfold layout. cbn [s_slide s_rows]. split; [lia|]. split; [apply rows_init_len|]. split.
    - intros i j Hij Hj16. rewrite !rows_init_get by lia. lia.
    - rewrite rows_init_get by lia. lia. }
  split; [exact HL|].
  pose proof (absl_len L _ HL) as Hal.
  apply nth_ext with (d := 0) (d' := 0).
  - rewrite firstn_length. lia.
  - intros n Hn. rewrite firstn_length in Hn. rewrite nth_firstn by lia.
    pose proof (absl_get L _ (N.of_nat n) HL) as G. unfold get at 1 in G. rewrite Nat2N.id in G.
    rewrite G by lia. unfold cell. cbn [s_slide s_rows].
    rewrite rows_init_get by lia. rewrite <- Hq by lia. f_equal. lia.
Qed.

(* the statements for the real constants of src/decode.c *)
Definition layout_c := layout SLIDE_LENGTH.
Definition Sim_c := Sim SLIDE_LENGTH.

(* initial state of a block: any previous slide contents [junk], any bitmap [flags] *)
Theorem slide_init_c_ok : forall junk flags,
  len junk = SLIDE_LENGTH -> length flags = 256%nat ->
  exists st, slide_init_c junk flags = Some (st, N.of_nat (length (used_of flags))) /\
             Sim_c st (used_of flags).
Proof.
  intros junk flags Hj Hf. apply slide_init_ok; [exact Hj|exact cmap_base_ok|exact Hf].
Qed.

(* (a) no access outside imtf_slide[0..SLIDE_LENGTH) / imtf_row[0..NUM_ROWS), no pointer leaves
   the slide, for every sequence of uint8_t positions, from every state satisfying the layout
   invariant (in particular the initial one) *)
Theorem slide_safe : forall cs st, layout_c st ->
  Forall (fun c => c < 256) cs -> no_oob (slide_run_c cs st).
Proof. intros cs st. apply slide_safe_gen. exact slide_room. Qed.

Theorem slide_safe_from_init : forall junk flags cs st alpha,
  len junk = SLIDE_LENGTH -> length flags = 256%nat ->
  slide_init_c junk flags = Some (st, alpha) ->
  Forall (fun c => c < 256) cs -> no_oob (slide_run_c cs st).
Proof.
  intros junk flags cs st alpha Hj Hf Hi Hcs.
  destruct (slide_init_c_ok junk flags Hj Hf) as (st0 & He & [HL _]).
  rewrite He in Hi. inversion Hi; subst. now apply slide_safe.
Qed.

Theorem slide_step_refines : forall st c, layout_c st -> 1 <= c -> c < 256 ->
  exists st', mtf_one_c c st = Done (fst (mtf_front (N.to_nat c) (absl st) 0)) st' /\
              layout_c st' /\ absl st' = snd (mtf_front (N.to_nat c) (absl st) 0).
Proof. intros st c. apply slide_step_refines_gen. exact slide_room. Qed.

Theorem slide_refines_list : forall cs st, layout_c st ->
  Forall (fun c => 1 <= c /\ c < 256) cs ->
  exists st', slide_run_c cs st = RDone (fst (mtf_run cs (absl st))) st' /\
              layout_c st' /\ absl st' = snd (mtf_run cs (absl st)).
Proof. intros cs st. apply slide_refines_list_gen. exact slide_room. Qed.

Theorem slide_step_sim : forall st order c, Sim_c st order ->
  1 <= c -> c < N.of_nat (length order) ->
  exists st', mtf_one_c c st = Done (fst (mtf_front (N.to_nat c) order 0)) st' /\
              Sim_c st' (snd (mtf_front (N.to_nat c) order 0)).
Proof. intros st order c. apply slide_step_sim_gen. exact slide_room. Qed.

Theorem slide_run_sim : forall cs st order, Sim_c st order ->
  Forall (fun c => 1 <= c /\ c < N.of_nat (length order)) cs ->
  exists st', slide_run_c cs st = RDone (fst (mtf_run cs order)) st' /\
              Sim_c st' (snd (mtf_run cs order)).
Proof. intros cs st order. apply slide_run_sim_gen. exact slide_room. Qed.

(* whole block: from retrieve()'s initialisation, the bytes returned by the slide for the MTF
   positions [cs] (all in 1 .. ninuse-1) are those of the list algorithm on the bytes in use,
   whatever the slide held before *)
Theorem slide_block : forall junk flags cs,
  len junk = SLIDE_LENGTH -> length flags = 256%nat ->
  Forall (fun c => 1 <= c /\ c < N.of_nat (length (used_of flags))) cs ->
  exists st alpha st',
    slide_init_c junk flags = Some (st, alpha) /\
    slide_run_c cs st = RDone (fst (mtf_run cs (used_of flags))) st' /\
    Sim_c st' (snd (mtf_run cs (used_of flags))).
Proof.
  intros junk flags cs Hj Hf Hcs.
  destruct (slide_init_c_ok junk flags Hj Hf) as (st & He & HS).
  destruct (slide_run_sim cs st _ HS Hcs) as (st' & Hr & HS').
  exists st, (N.of_nat (length (used_of flags))), st'. auto.
Qed.

(* the inverse-MTF / zero-run loop of retrieve() with the slide in place of the list *)
(* Same control structure as Format.unmtf (symbols: 0 = RUNA, 1 = RUNB, s >= 2 = MTF position
   s - 1, which is the internal symbol value retrieve() passes to mtf_one); the current run
   character is the byte returned by the last mtf_one call, as in the C (runChar), initially
   imtf_row[0][0]. *)
Inductive sl_result :=
| SlOk (runs : list (N * N)) (size : N)
| SlErr (e : err)
| SlOob
| SlAbort.

Fixpoint unmtf_slide (limit : N) (st : sstate) (runChar run shift size : N) (acc : list (N * N))
                     (syms : list N) : sl_result :=
  match syms with
  | [] => if limit <? size + run then SlErr ErrOverflow
          else SlOk ((runChar, run) :: acc) (size + run)
  | s :: r =>
      if s <=? 1 then unmtf_slide limit st runChar (run + N.shiftl (s + 1) shift) (shift + 1) size acc r
      else if limit <? size + run then SlErr ErrOverflow
      else match mtf_one_c (s - 1) st with
           | Done x st' => unmtf_slide limit st' x 1 0 (size + run) ((runChar, run) :: acc) r
           | Oob => SlOob
           | Abort => SlAbort
           end
  end.

Definition sl_of_result (r : result (list (N * N) * N)) : sl_result :=
  match r with Ok (runs, sz) => SlOk runs sz | Err e => SlErr e end.

(* every MTF symbol s >= 2 satisfies s <= number of bytes in use: retrieve() obtains symbols from
   perm[]/start[], which make_tree() fills with RUN_A, RUN_B, EOB and the values s - 1 for
   2 <= s < alpha_size - 1 = ninuse + 1 only *)
Theorem unmtf_slide_refines : forall syms limit st order run shift size acc,
  Sim_c st order ->
  Forall (fun s => s <= N.of_nat (length order)) syms ->
  unmtf_slide limit st (hd 0 order) run shift size acc syms =
  sl_of_result (unmtf limit order run shift size acc syms).
Proof.
  induction syms as [|s r IH]; intros limit st order run shift size acc HS Hsy.
  - cbn [unmtf_slide unmtf]. destruct (limit <? size + run); reflexivity.
  - inversion Hsy as [|? ? Hs Hr]; subst. cbn [unmtf_slide unmtf].
    destruct (N.leb_spec s 1) as [Hle|Hgt].
    + apply IH; assumption.
    + destruct (limit <? size + run); [reflexivity|].
      destruct (slide_step_sim st order (s - 1) HS) as (st' & He & HS'); try lia.
      rewrite He.
      pose proof (mtf_front_snd_length order (N.to_nat (s - 1))) as Hlen.
      destruct (mtf_front (N.to_nat (s - 1)) order 0) as [x o] eqn:Emf. cbn [fst snd] in *.
      assert (Hx : x = hd 0 o).
      { unfold mtf_front in Emf. inversion Emf; subst. reflexivity. }
      rewrite Hx. apply IH; [exact HS'|]. rewrite Hlen by lia. exact Hr.
Qed.

(* in particular the slide-based loop never reports an out-of-bounds access or abort() *)
Corollary unmtf_slide_safe : forall syms limit st order run shift size acc,
  Sim_c st order ->
  Forall (fun s => s <= N.of_nat (length order)) syms ->
  unmtf_slide limit st (hd 0 order) run shift size acc syms <> SlOob /\
  unmtf_slide limit st (hd 0 order) run shift size acc syms <> SlAbort.
Proof.
  intros. rewrite unmtf_slide_refines by assumption.
  destruct (unmtf limit order run shift size acc syms) as [[runs sz]|e]; cbn [sl_of_result];
    split; discriminate.
Qed.

(* hypotheses are satisfiable: a concrete initial state and run (short slide) *)
Example init_example :
  exists st xs st',
    slide_init 5 (repeat 77 (N.to_nat 261)) (repeat true 40 ++ repeat false 216) = Some (st, 40) /\
    Sim 261 st (used_of (repeat true 40 ++ repeat false 216)) /\
    slide_run 261 [17; 39; 16; 255; 1; 31; 32; 200; 16; 16; 16; 16; 16; 16] st = RDone xs st' /\
    xs = [17; 39; 14; 77; 14; 29; 30; 77; 9; 8; 7; 6; 5; 4] /\
    s_rows st' = [2; 21; 37; 53; 69; 85; 101; 117; 133; 149; 165; 181; 197; 213; 229; 245].
Proof.
  destruct (slide_init_ok 261 5 (repeat 77 (N.to_nat 261)) (repeat true 40 ++ repeat false 216))
    as (st & He & HS); try reflexivity.
  exists st. rewrite He. vm_compute in He. inversion He; subst.
  do 2 eexists. split; [reflexivity|]. split; [exact HS|].
  split; [vm_compute; reflexivity|]. split; reflexivity.
Qed.

Print Assumptions slide_safe.
Print Assumptions slide_safe_from_init.
Print Assumptions slide_step_refines.
Print Assumptions slide_refines_list.
Print Assumptions slide_step_sim.
Print Assumptions slide_run_sim.
Print Assumptions slide_block.
Print Assumptions slide_init_c_ok.
Print Assumptions unmtf_slide_refines.
Print Assumptions unmtf_slide_safe.
