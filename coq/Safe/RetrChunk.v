(* C09, retrieve(): CHUNK INDEPENDENCE of the statement-level model (Safe/RetrModel.v), structural part.

   Nothing here looks inside the format.  Two facts about the control-flow graph:
   (1) [run_merge], [retrieve_merge]: for the machine with the fast path switched off, suspending at a NEED because the chunk is
       exhausted and resuming with the next chunk is the same as having both chunks at once;
   (2) [fast_to_slow]: a group decoded on the fast path (locals, NEED_FAST) is the same as the same group decoded
       on the slow path (rs->j, rs->run, ..., NEED), unless NEED_FAST reads past the end of the chunk ([FInput];
       excluded by the counting argument of Safe/RetrSafe.v).
   Results are compared by [rsim]: for OK the observable part of the state (tt, block size, origin pointer,
   randomised flag, ftab, the saved bit buffer and the words not consumed), for an error its code.
   Fuel: runs that end are a relation ([Runs]); a call ([Ret]) is one that does not end in [RFault FFuel];
   Safe/RetrSafe.v shows that the fuel [call_fuel] of [retrieve] always suffices. *)
From Coq Require Import List NArith Arith Bool Lia.
From LBZ Require Import Gen.Consts Gen.DecTabs Safe.TreeModel Safe.RetrModel.
Import ListNotations.
Local Open Scope N_scope.

(* the slow machine does not look at next/limit between two NEEDs *)
Definition sstep (p : pc) (c : core) : bres := fst (step false p c []).

Lemma step_false p c nx : step false p c nx = (sstep p c, nx).
Proof.
  unfold sstep. destruct p as [s| |]; cbn [step fst]; try reflexivity.
  unfold group_head. destruct (group_select c); reflexivity.
Qed.

Definition after (b : bres) (st : rstate) : out :=
  match b with
  | BGo p' c => Running p' (with_core st c)
  | BNeed s c =>
      match need_at s (with_core st c) with
      | NGo st' => Running (After s) st'
      | NRet r => Final r
      end
  | BRet code c => Final (RErr code (with_core st c))
  | BEob c => Final (finish (with_core st c))
  | BFault fl => Final (RFault fl)
  end.

Lemma with_next_id st : with_next st (l_next st) = st.
Proof. destruct st; reflexivity. Qed.

Lemma onestep_after b p st :
  onestep b p st = after (fst (step b p (s_core st) (l_next st))) (with_next st (snd (step b p (s_core st) (l_next st)))).
Proof. unfold onestep. destruct (step b p (s_core st) (l_next st)) as [r nx]. reflexivity. Qed.

Lemma onestep_false p st : onestep false p st = after (sstep p (s_core st)) st.
Proof. rewrite onestep_after, step_false. cbn [fst snd]. rewrite with_next_id. reflexivity. Qed.

Definition cont (b : bool) (m : nat) (o : out) : cres :=
  match o with Running p st => run_from b m p st | Final r => r end.

Lemma run_from_S b m p st : run_from b (S m) p st = cont b m (onestep b p st).
Proof. reflexivity. Qed.

(* a run that ends, without the fuel *)
Inductive Runs (b : bool) : pc -> rstate -> cres -> Prop :=
| Runs_final p st r : onestep b p st = Final r -> Runs b p st r
| Runs_step p st p' st' r : onestep b p st = Running p' st' -> Runs b p' st' r -> Runs b p st r.

Definition RunsO (b : bool) (o : out) (r : cres) : Prop :=
  match o with Running p st => Runs b p st r | Final r' => r' = r end.

Lemma Runs_onestep b p st r : Runs b p st r <-> RunsO b (onestep b p st) r.
Proof.
  split.
  - intro H. inversion H as [? ? ? E|? ? ? ? ? E H']; subst; rewrite E; [reflexivity|exact H'].
  - destruct (onestep b p st) as [p' st'|r'] eqn:E; cbn [RunsO]; intro H.
    + exact (Runs_step b p st p' st' r E H).
    + subst r'. exact (Runs_final b p st r E).
Qed.

Lemma run_from_Runs b : forall n p st, run_from b n p st <> RFault FFuel -> Runs b p st (run_from b n p st).
Proof.
  induction n as [|n IH]; intros p st H; [cbn in H; congruence|].
  apply Runs_onestep. rewrite run_from_S in *. destruct (onestep b p st); cbn [cont RunsO] in *; [apply IH; exact H|reflexivity].
Qed.

Lemma Runs_run_from b p st r : Runs b p st r -> exists n, run_from b n p st = r.
Proof.
  induction 1 as [p st r E|p st p' st' r E _ (n & IH)]; [exists 1%nat|exists (S n)]; rewrite run_from_S, E; [reflexivity|exact IH].
Qed.

Lemma Runs_det b p st r1 : Runs b p st r1 -> forall r2, Runs b p st r2 -> r1 = r2.
Proof.
  induction 1 as [p st r E|p st p' st' r E _ IH]; intros r2 H2; apply Runs_onestep in H2; rewrite E in H2;
    [exact H2|exact (IH r2 H2)].
Qed.

(* the part of a core that the caller of retrieve() sees *)
Definition obs_core (c : core) := (c_v c, c_w c, c_ttp c, c_tt c, d_rand c, d_bwt_idx c, d_ftab c).

(* [b]: words the second run still has in its chunk beyond those of the first *)
Definition rsim (b : list N) (r1 r2 : cres) : Prop :=
  match r1, r2 with
  | ROk C, ROk M =>
      obs_core (s_core C) = obs_core (s_core M) /\ b_live C = b_live M /\ b_buff C = b_buff M /\
      d_block_size C = d_block_size M /\ b_data M = b_data C ++ b
  | RErr c1 _, RErr c2 _ => c1 = c2
  | RMore C, RMore M => C = M /\ b = []
  | RFault f1, RFault f2 => f1 = f2
  | _, _ => False
  end.

Lemma rsim_refl r : rsim [] r r.
Proof. destruct r; cbn; auto. rewrite app_nil_r. auto. Qed.

Lemma rsim_trans b r1 r2 r3 : rsim [] r1 r2 -> rsim b r2 r3 -> rsim b r1 r3.
Proof.
  destruct r1, r2, r3; cbn; try tauto; try congruence.
  - intros [-> _] H. exact H.
  - intros (A & B & C & D & E) (A' & B' & C' & D' & E'). rewrite app_nil_r in E.
    repeat split; congruence.
Qed.

Lemma rsim_trans_r b r1 r2 r3 : rsim b r1 r2 -> rsim [] r2 r3 -> rsim b r1 r3.
Proof.
  destruct r1, r2, r3; cbn; try tauto; try congruence.
  - intros [-> ->] [-> _]. auto.
  - intros (A & B & C & D & E) (A' & B' & C' & D' & E'). rewrite app_nil_r in E'.
    repeat split; congruence.
Qed.

Lemma rsim_sym r1 r2 : rsim [] r1 r2 -> rsim [] r2 r1.
Proof.
  destruct r1, r2; cbn; try tauto; try congruence.
  - intros [-> _]. auto.
  - intros (A & B & C & D & E). rewrite app_nil_r in *. repeat split; congruence.
Qed.

Lemma rsim_fuel b r1 r2 : rsim b r1 r2 -> r1 <> RFault FFuel -> r2 <> RFault FFuel.
Proof. destruct r1, r2; cbn; try tauto; try congruence. Qed.

(* same core, the second state has [b] more words in its chunk; the saved fields do not matter (SAVE()
   overwrites them before anything reads them), bs->eof does *)
Definition csim (b : list N) (C M : rstate) : Prop :=
  s_core C = s_core M /\ l_next M = l_next C ++ b /\ b_eof C = b_eof M.

Lemma state_no_not_init s : (state_no s =? S_INIT) = false.
Proof. destruct s; reflexivity. Qed.

Lemma site_of_state_no s : site_of_state (state_no s) = Some s.
Proof. destruct s; reflexivity. Qed.

Lemma restore_save_core c :
  set_c_ttp (set_c_w (set_c_v c (c_v c)) (c_w c)) (c_ttp c) = c.
Proof. destruct c; reflexivity. Qed.

(* one pass of the slow machine on related states *)
Lemma after_csim b r C M : csim b C M -> (b <> [] -> b_eof C = false) ->
  match after r C with
  | Running p' C' => exists M', after r M = Running p' M' /\ csim b C' M'
  | Final rC =>
      (exists rM, after r M = Final rM /\ rsim b rC rM) \/
      (exists s c, r = BNeed s c /\ (c_w c <? 32) = true /\ l_next C = [] /\ b <> [] /\
                   rC = RMore (with_state (save (with_core C c)) (state_no s)))
  end.
Proof.
  intros (Hc & Hn & He) Heof. destruct r as [p' c|s c|code c|c|fl]; cbn [after].
  - exists (with_core M c). split; [reflexivity|]. repeat split; cbn; auto.
  - unfold need_at. cbn [s_core with_core l_next].
    destruct (c_w c <? 32) eqn:Ew.
    + destruct (l_next C) as [|x r] eqn:EC.
      * (* the chunk of C is exhausted *)
        cbn [save with_core b_eof s_core l_next].
        destruct (b_eof C) eqn:EE.
        -- left. destruct b as [|y b']; [|specialize (Heof ltac:(discriminate)); discriminate].
           rewrite Hn. cbn [app]. cbn [save with_core b_eof s_core l_next]. rewrite <- He.
           eexists. split; [reflexivity|]. cbn. reflexivity.
        -- destruct b as [|y b'].
           ++ left. rewrite Hn. cbn [app]. cbn [save with_core b_eof s_core l_next]. rewrite <- He.
              eexists. split; [reflexivity|]. cbn. split; [|reflexivity].
              unfold with_state, save, with_core. cbn. rewrite Hn. cbn. rewrite <- He, EC, EE. reflexivity.
           ++ right. exists s, c. repeat split; auto. discriminate.
      * rewrite Hn. cbn [app]. destruct (load c x) as [c'|f].
        -- eexists. split; [reflexivity|]. repeat split; cbn; auto.
        -- left. eexists. split; [reflexivity|]. cbn. reflexivity.
    + eexists. split; [reflexivity|]. repeat split; cbn; auto.
  - left. eexists. split; [reflexivity|]. cbn. reflexivity.
  - left. eexists. split; [reflexivity|]. unfold finish. cbn [save with_core s_core d_block_size].
    destruct (c_ttp c =? 0); [cbn; reflexivity|].
    destruct (c_ttp c <=? d_bwt_idx c); [cbn; reflexivity|].
    cbn. repeat split; auto.
  - left. eexists. split; [reflexivity|]. cbn. reflexivity.
Qed.

Lemma after_eof r st : match after r st with Running _ st' => b_eof st' = b_eof st | Final _ => True end.
Proof.
  destruct r; cbn [after]; auto. unfold need_at. cbn [s_core with_core l_next].
  destruct (c_w c <? 32); auto. destruct (l_next st); [destruct (b_eof (save (with_core st c))); auto|].
  destruct (load c n); auto.
Qed.

(* identical chunks: identical runs *)
Lemma run_eq : forall n p C M, csim [] C M -> rsim [] (run_from false n p C) (run_from false n p M).
Proof.
  induction n as [|n IH]; intros p C M H; [cbn; reflexivity|].
  rewrite !run_from_S, !onestep_false. destruct H as (Hc & Hn & He).
  pose proof (after_csim [] (sstep p (s_core C)) C M (conj Hc (conj Hn He)) ltac:(congruence)) as A.
  rewrite <- Hc. destruct (after (sstep p (s_core C)) C) as [p' C'|rC].
  - destruct A as (M' & -> & HS). cbn [cont]. apply IH. exact HS.
  - destruct A as [(rM & -> & HR)|(s & c & _ & _ & _ & Hb & _)]; [exact HR|congruence].
Qed.

(* what the prologue of a call does: enter the machine at p, or return at once *)
Inductive ent := EGo (p : pc) (st : rstate) | EStop (r : cres).

(* the prologue of retrieve(): RESTORE(), switch (rs->state), the resume part of NEED(s) *)
Definition enter (st : rstate) : ent :=
  let st := restore st in
  if s_state st =? S_INIT then
    match need_at S_bwt_idx st with
    | NGo st' => EGo A_BWT_IDX st'
    | NRet r => EStop r
    end
  else
    match site_of_state (s_state st) with
    | None => EStop (RFault FAbort)
    | Some s =>
        match b_data st with
        | [] => EStop (if b_eof st then RErr E_ERR_EOF st else RFault (FAssert 1))
        | x :: r =>
            let st := restore st in
            if c_w (s_core st) <? 32 then
              match load (s_core st) x with
              | XV c' => EGo (After s) (with_next (with_core st c') r)
              | XF f => EStop (RFault f)
              end
            else EStop (RFault (FAssert 2))
        end
    end.

Lemma retrieve_f_enter n b st :
  retrieve_f n b st = match enter st with EGo p s => run_from b n p s | EStop r => r end.
Proof.
  unfold retrieve_f, enter. destruct (s_state (restore st) =? S_INIT).
  - destruct (need_at S_bwt_idx (restore st)); reflexivity.
  - destruct (site_of_state (s_state (restore st))); [|reflexivity].
    destruct (b_data (restore st)); [destruct (b_eof (restore st)); reflexivity|].
    destruct (c_w (s_core (restore (restore st))) <? 32); [|reflexivity].
    destruct (load (s_core (restore (restore st))) n0); reflexivity.
Qed.

Ltac rs_simpl := cbn [s_core l_next s_state b_live b_buff b_data b_eof d_block_size with_core with_next with_state save restore attach attach_eof
                      c_v c_w c_ttp set_c_v set_c_w set_c_ttp].

(* a call that does not run out of fuel *)
Definition Ret (b : bool) (st : rstate) (r : cres) : Prop :=
  exists n, retrieve_f n b st = r /\ r <> RFault FFuel.

Lemma Ret_enter b st r :
  Ret b st r <-> r <> RFault FFuel /\ match enter st with EGo p s => Runs b p s r | EStop r' => r' = r end.
Proof.
  split.
  - intros (n & H & F). rewrite retrieve_f_enter in H. split; [exact F|].
    destruct (enter st); [subst r; apply run_from_Runs; exact F|exact H].
  - intros (F & H). destruct (enter st) as [p s|r'] eqn:E.
    + destruct (Runs_run_from _ _ _ _ H) as (n & Hn). exists n. rewrite retrieve_f_enter, E. auto.
    + exists 0%nat. rewrite retrieve_f_enter, E. auto.
Qed.

(* a statement about runs of equal fuel, for runs that end *)
Lemma Runs_sim b p1 s1 p2 s2 r : (forall n, rsim [] (run_from b n p1 s1) (run_from b n p2 s2)) ->
  Runs b p1 s1 r -> r <> RFault FFuel -> exists r', Runs b p2 s2 r' /\ rsim [] r r'.
Proof.
  intros H R F. destruct (Runs_run_from _ _ _ _ R) as (n & <-). exists (run_from b n p2 s2).
  split; [apply run_from_Runs; exact (rsim_fuel _ _ _ (H n) F)|apply H].
Qed.

(* resuming where NEED(s) suspended *)
Lemma resume_enter C c s y b' : (c_w c <? 32) = true ->
  enter (attach (with_state (save (with_core C c)) (state_no s)) (y :: b')) =
  match load c y with
  | XV c' => EGo (After s) (mk_rstate c' b' (state_no s) (c_w c) (c_v c) (y :: b') (b_eof C) (c_ttp c))
  | XF f => EStop (RFault f)
  end.
Proof.
  intro Ew. unfold enter. rs_simpl. rewrite state_no_not_init, site_of_state_no. rs_simpl.
  rewrite !restore_save_core. rewrite Ew. destruct (load c y); reflexivity.
Qed.

(* (1) the chunked run (suspended at most once here) against the run that has both chunks at once *)
Lemma run_merge p C rC : Runs false p C rC -> forall M b, csim b C M -> b <> [] -> b_eof C = false ->
  match rC with
  | RMore C' => forall r2, Ret false (attach C' b) r2 -> exists rM, Runs false p M rM /\ rsim [] r2 rM
  | _ => exists rM, Runs false p M rM /\ rsim b rC rM
  end.
Proof.
  induction 1 as [p C rC E|p C p' C' rC E _ IH]; intros M b HS Hb Heof; rewrite onestep_false in E;
    pose proof (after_csim b (sstep p (s_core C)) C M HS (fun _ => Heof)) as A; rewrite E in A;
    assert (Hcore : s_core C = s_core M) by (destruct HS; assumption).
  - destruct A as [(rM & AM & HR)|(s & c & Er & Ew & EC & _ & ->)].
    + assert (G : exists rM', Runs false p M rM' /\ rsim b rC rM').
      { exists rM. split; [apply Runs_final; rewrite onestep_false, <- Hcore; exact AM|exact HR]. }
      destruct rC; try exact G. destruct rM; cbn in HR; tauto.
    + (* C is suspended, M goes on *)
      intros r2 R2. apply Ret_enter in R2 as (F2 & H2). destruct HS as (_ & Hn & He). rewrite EC in Hn. cbn [app] in Hn.
      destruct b as [|y b']; [congruence|].
      rewrite (resume_enter C c s y b' Ew) in H2.
      assert (OM : onestep false p M = match load c y with
                                       | XV c' => Running (After s) (with_next (with_core (with_core M c) c') b')
                                       | XF f => Final (RFault f)
                                       end).
      { rewrite onestep_false, <- Hcore, Er. cbn [after]. unfold need_at. cbn [s_core with_core l_next]. rewrite Ew, Hn.
        destruct (load c y); reflexivity. }
      destruct (load c y) as [c'|f].
      * (* both go on from the same core *)
        match type of H2 with Runs false _ ?X _ =>
          assert (HS1 : csim [] X (with_next (with_core (with_core M c) c') b'))
            by (repeat split; cbn; auto; rewrite app_nil_r; reflexivity) end.
        destruct (Runs_sim false _ _ _ _ r2 (fun n => run_eq n _ _ _ HS1) H2 F2) as (rM & HM & Hr).
        exists rM. split; [exact (Runs_step _ _ _ _ _ _ OM HM)|exact Hr].
      * subst r2. exists (RFault f). split; [apply Runs_final; exact OM|reflexivity].
  - destruct A as (M' & AM & HS').
    pose proof (after_eof (sstep p (s_core C)) C) as EE. rewrite E in EE.
    specialize (IH M' b HS' Hb ltac:(congruence)).
    assert (St : forall rM, Runs false p' M' rM -> Runs false p M rM).
    { intros rM HM. eapply Runs_step; [rewrite onestep_false, <- Hcore; exact AM|exact HM]. }
    destruct rC as [C''| | |]; [intros r2 H2; destruct (IH r2 H2) as (rM & HM & Hr)|destruct IH as (rM & HM & Hr)..];
      exists rM; (split; [exact (St rM HM)|exact Hr]).
Qed.

(* (a stop in the prologue of a call on a non-empty chunk is a fault) *)
Lemma enter_merge st a b : a <> [] ->
  match enter (attach st a) with
  | EGo p C => exists M, enter (attach st (a ++ b)) = EGo p M /\ csim b C M /\ b_eof C = b_eof st
  | EStop r => enter (attach st (a ++ b)) = EStop r /\ exists f, r = RFault f
  end.
Proof.
  intro Ha. destruct a as [|x a']; [congruence|]. destruct st as [c nx s bl bb d e bs].
  unfold enter, need_at, csim. rs_simpl. cbn [app].
  destruct (s =? S_INIT).
  - destruct (bl <? 32).
    + match goal with |- context [load ?c x] => destruct (load c x) as [c'|f] end; [|split; [reflexivity|eexists; reflexivity]].
      eexists. split; [reflexivity|]. cbn. repeat split; reflexivity.
    + eexists. split; [reflexivity|]. cbn. repeat split; reflexivity.
  - destruct (site_of_state s); [|split; [reflexivity|eexists; reflexivity]].
    destruct (bl <? 32); [|split; [reflexivity|eexists; reflexivity]].
    match goal with |- context [load ?c x] => destruct (load c x) as [c'|f] end; [|split; [reflexivity|eexists; reflexivity]].
    eexists. split; [reflexivity|]. cbn. repeat split; reflexivity.
Qed.

Lemma Ret_det b st r1 r2 : Ret b st r1 -> Ret b st r2 -> r1 = r2.
Proof.
  intros H1 H2. apply Ret_enter in H1 as (_ & H1). apply Ret_enter in H2 as (_ & H2).
  destruct (enter st); [exact (Runs_det _ _ _ _ H1 _ H2)|congruence].
Qed.

(* bs->eof is not touched by retrieve() *)
Lemma need_at_eof s st : match need_at s st with
                         | NGo st' => b_eof st' = b_eof st
                         | NRet (RMore st') => b_eof st' = b_eof st
                         | NRet _ => True
                         end.
Proof.
  unfold need_at. destruct (c_w (s_core st) <? 32); [|reflexivity].
  destruct (l_next st).
  - cbn [save b_eof]. destruct (b_eof st) eqn:E; cbn; auto.
  - destruct (load (s_core st) n); cbn; auto.
Qed.

Lemma after_more r st st' : after r st = Final (RMore st') -> b_eof st' = b_eof st.
Proof.
  destruct r; cbn [after]; try discriminate.
  - pose proof (need_at_eof s (with_core st c)) as E. destruct (need_at s (with_core st c)); [discriminate|].
    intro H. injection H as ->. exact E.
  - unfold finish. destruct (_ =? 0); [discriminate|]. destruct (_ <=? _); discriminate.
Qed.

Lemma run_from_more b : forall n p st st', run_from b n p st = RMore st' -> b_eof st' = b_eof st.
Proof.
  induction n as [|n IH]; intros p st st' H; [discriminate|].
  rewrite run_from_S, onestep_after in H.
  set (r := fst (step b p (s_core st) (l_next st))) in *. set (nx := snd (step b p (s_core st) (l_next st))) in *.
  pose proof (after_eof r (with_next st nx)) as E. pose proof (after_more r (with_next st nx)) as F.
  destruct (after r (with_next st nx)) as [p' s'|r']; cbn [cont] in H.
  - rewrite (IH _ _ _ H). exact E.
  - subst r'. exact (F st' eq_refl).
Qed.

Lemma retrieve_f_more b n st st' : retrieve_f n b st = RMore st' -> b_eof st' = b_eof st.
Proof.
  rewrite retrieve_f_enter. unfold enter.
  destruct (s_state (restore st) =? S_INIT).
  - pose proof (need_at_eof S_bwt_idx (restore st)) as E.
    destruct (need_at S_bwt_idx (restore st)) as [s'|r].
    + intro H. rewrite (run_from_more _ _ _ _ _ H). exact E.
    + intro H. subst r. exact E.
  - destruct (site_of_state (s_state (restore st))); [|discriminate].
    destruct (b_data (restore st)); [destruct (b_eof (restore st)); discriminate|].
    destruct (c_w _ <? 32); [|discriminate].
    destruct (load _ n0); [|discriminate].
    intro H. rewrite (run_from_more _ _ _ _ _ H). reflexivity.
Qed.

(* two chunks against their concatenation *)
Lemma retrieve_merge st a b rC : a <> [] -> b <> [] -> b_eof st = false ->
  Ret false (attach st a) rC ->
  match rC with
  | RMore C' => forall r2, Ret false (attach C' b) r2 -> exists rM, Ret false (attach st (a ++ b)) rM /\ rsim [] r2 rM
  | _ => exists rM, Ret false (attach st (a ++ b)) rM /\ rsim b rC rM
  end.
Proof.
  intros Ha Hb He HC. apply Ret_enter in HC as (HF & HC).
  pose proof (enter_merge st a b Ha) as EM.
  destruct (enter (attach st a)) as [p C|r].
  - destruct EM as (M & EM & HS & HeC).
    pose proof (run_merge p C rC HC M b HS Hb (eq_trans HeC He)) as RM.
    destruct rC as [C'| | |].
    1: intros r2 H2; destruct (RM r2 H2) as (rM & HM & Hr); destruct H2 as (n2 & _ & HF2);
       assert (F : rM <> RFault FFuel) by exact (rsim_fuel _ _ _ Hr HF2).
    2-4: destruct RM as (rM & HM & Hr); assert (F : rM <> RFault FFuel) by exact (rsim_fuel _ _ _ Hr HF).
    all: exists rM; (split; [|exact Hr]); apply Ret_enter; rewrite EM; split; [exact F|exact HM].
  - subst r. destruct EM as (EM & f & ->).
    exists (RFault f). split; [apply Ret_enter; rewrite EM; split; [exact HF|reflexivity]|reflexivity].
Qed.

(* a list of chunks, then end of input *)
Definition is_more (r : cres) : bool := match r with RMore _ => true | _ => false end.

Inductive Eval (b : bool) : rstate -> list (list N) -> cres * list (list N) -> Prop :=
| Ev_nil_stop st r : Ret b (attach_eof st) r -> is_more r = false -> Eval b st [] (r, [])
| Ev_nil_more st st' r : Ret b (attach_eof st) (RMore st') -> Ret b (attach_eof st') r -> Eval b st [] (r, [])
| Ev_stop st ch rest r : Ret b (attach st ch) r -> is_more r = false -> Eval b st (ch :: rest) (r, rest)
| Ev_more st ch rest st' x : Ret b (attach st ch) (RMore st') -> Eval b st' rest x -> Eval b st (ch :: rest) x.

Lemma Eval_det b st cs x : Eval b st cs x -> forall y, Eval b st cs y -> x = y.
Proof.
  induction 1 as [st r H Hm|st st' r H H'|st ch rest r H Hm|st ch rest st' x H E IH]; intros y Hy; inversion Hy; subst;
    repeat match goal with
    | H1 : Ret ?bb ?s ?r1, H2 : Ret ?bb ?s ?r2 |- _ =>
        let X := fresh "X" in pose proof (Ret_det _ _ _ _ H1 H2) as X; clear H2;
        first [discriminate X | injection X as <- | subst r2 | subst r1]
    end; try reflexivity; try discriminate; auto.
Qed.

(* the executable driver, when it does not run out of fuel, is an evaluation *)
Lemma retr_chunks_Eval fu b : forall cs st x, retr_chunks_f fu b st cs = x -> fst x <> RFault FFuel -> Eval b st cs x.
Proof.
  induction cs as [|ch rest IH]; intros st x H HF; cbn [retr_chunks_f] in H.
  - destruct (retrieve_f (fu (attach_eof st)) b (attach_eof st)) as [st'| | |] eqn:E1.
    1:{ subst x. cbn [fst] in HF. eapply Ev_nil_more; [exists (fu (attach_eof st)); split; [exact E1|discriminate]|].
        eexists. split; [reflexivity|exact HF]. }
    all: subst x; (apply Ev_nil_stop; [|reflexivity]); eexists; split; [exact E1|exact HF].
  - destruct (retrieve_f (fu (attach st ch)) b (attach st ch)) as [st'| | |] eqn:E1.
    1:{ eapply Ev_more; [exists (fu (attach st ch)); split; [exact E1|discriminate]|]. apply IH; assumption. }
    all: subst x; (apply Ev_stop; [|reflexivity]); eexists; split; [exact E1|exact HF].
Qed.

(* results of two chunkings: the words not consumed are what is left of the chunk plus the chunks never attached *)
Definition xsim (x y : cres * list (list N)) : Prop :=
  match fst x, fst y with
  | ROk C, ROk M =>
      obs_core (s_core C) = obs_core (s_core M) /\ b_live C = b_live M /\ b_buff C = b_buff M /\
      d_block_size C = d_block_size M /\ b_data C ++ concat (snd x) = b_data M ++ concat (snd y)
  | RErr c1 _, RErr c2 _ => c1 = c2
  | RMore C, RMore M => C = M
  | RFault f1, RFault f2 => f1 = f2
  | _, _ => False
  end.

Lemma xsim_refl x : xsim x x.
Proof. destruct x as [[| | |] lo]; cbn; auto. Qed.

Lemma xsim_sym x y : xsim x y -> xsim y x.
Proof. destruct x as [[| | |] lo], y as [[| | |] lo']; cbn; try tauto; try congruence. intros (A & B & C & D & E). repeat split; congruence. Qed.

Lemma xsim_trans x y z : xsim x y -> xsim y z -> xsim x z.
Proof.
  destruct x as [[| | |] lo], y as [[| | |] lo'], z as [[| | |] lo'']; cbn; try tauto; try congruence.
  intros (A & B & C & D & E) (A' & B' & C' & D' & E'). repeat split; congruence.
Qed.

Lemma rsim_xsim b r1 r2 lo : rsim b r1 r2 -> xsim (r1, b :: lo) (r2, lo).
Proof.
  destruct r1, r2; cbn; try tauto.
  intros (A & B & C & D & E). repeat split; auto. rewrite E, app_assoc. reflexivity.
Qed.

Lemma rsim_nil_xsim r1 r2 lo : rsim [] r1 r2 -> xsim (r1, lo) (r2, lo).
Proof.
  destruct r1, r2; cbn; try tauto.
  intros (A & B & C & D & E). rewrite app_nil_r in E. repeat split; auto. congruence.
Qed.

Lemma rsim_more b r1 r2 : rsim b r1 r2 -> is_more r1 = is_more r2.
Proof. destruct r1, r2; cbn; tauto. Qed.

(* the first two chunks merged *)
Lemma Eval_merge2 st a b rest x : a <> [] -> b <> [] -> b_eof st = false ->
  Eval false st (a :: b :: rest) x -> exists y, Eval false st ((a ++ b) :: rest) y /\ xsim x y.
Proof.
  intros Ha Hb He E. inversion E as [| |st0 ch rest0 r H Hm|st0 ch rest0 st' x0 H E']; subst.
  - (* the block ends in the first chunk *)
    pose proof (retrieve_merge st a b r Ha Hb He H) as RM.
    assert (G : exists rM, Ret false (attach st (a ++ b)) rM /\ rsim b r rM) by (destruct r; try exact RM; discriminate).
    destruct G as (rM & HR & HS). exists (rM, rest). split; [|apply rsim_xsim; exact HS].
    apply Ev_stop; [exact HR|]. rewrite <- (rsim_more _ _ _ HS). exact Hm.
  - pose proof (retrieve_merge st a b (RMore st') Ha Hb He H) as RM. cbn in RM.
    inversion E' as [| |st1 ch1 rest1 r H2 Hm2|st1 ch1 rest1 st'' x1 H2 E'']; subst.
    + destruct (RM r H2) as (rM & HR & HS). exists (rM, rest). split; [|apply rsim_nil_xsim; exact HS].
      apply Ev_stop; [exact HR|]. rewrite <- (rsim_more _ _ _ HS). exact Hm2.
    + destruct (RM (RMore st'') H2) as (rM & HR & HS). destruct rM as [M| | |]; cbn in HS; try tauto.
      destruct HS as [<- _]. exists x. split; [|apply xsim_refl]. eapply Ev_more; eassumption.
Qed.

Lemma Eval_more_eof b st ch st' : Ret b (attach st ch) (RMore st') -> b_eof st' = b_eof st.
Proof. intros (n & H & _). apply retrieve_f_more in H. exact H. Qed.

(* any chunking against the single chunk *)
Lemma Eval_concat : forall n cs st x, (length cs <= n)%nat -> cs <> [] -> Forall (fun c => c <> []) cs -> b_eof st = false ->
  Eval false st cs x -> exists y, Eval false st [concat cs] y /\ xsim x y.
Proof.
  induction n as [|n IH]; intros cs st x Hl Hne Hall He E.
  - destruct cs; [congruence|cbn in Hl; lia].
  - destruct cs as [|a [|b rest]]; [congruence| |].
    + cbn [concat]. rewrite app_nil_r. exists x. split; [exact E|apply xsim_refl].
    + inversion Hall as [|? ? Ha Hall']; subst. inversion Hall' as [|? ? Hb Hall'']; subst.
      destruct (Eval_merge2 st a b rest x Ha Hb He E) as (y & Ey & Sy).
      destruct (IH ((a ++ b) :: rest) st y) as (z & Ez & Sz); auto.
      * cbn [length] in *. lia.
      * discriminate.
      * constructor; [|exact Hall'']. destruct a; [congruence|discriminate].
      * exists z. split; [|eapply xsim_trans; eassumption].
        cbn [concat] in *. rewrite <- app_assoc in Ez. exact Ez.
Qed.

Lemma concat_nil_nonempty (cs : list (list N)) : Forall (fun c => c <> []) cs -> concat cs = [] -> cs = [].
Proof. destruct cs as [|c cs]; [reflexivity|]. intros H E. inversion H; subst. cbn in E. destruct c; [congruence|discriminate]. Qed.

(* (1) the slow machine: the result depends only on the concatenation of the chunks *)
Theorem slow_chunk_indep st cs1 cs2 x1 x2 :
  Forall (fun c => c <> []) cs1 -> Forall (fun c => c <> []) cs2 -> concat cs1 = concat cs2 -> b_eof st = false ->
  Eval false st cs1 x1 -> Eval false st cs2 x2 -> xsim x1 x2.
Proof.
  intros H1 H2 Hc He E1 E2.
  destruct cs1 as [|a1 r1].
  - cbn in Hc. symmetry in Hc. apply (concat_nil_nonempty _ H2) in Hc. subst cs2.
    rewrite (Eval_det _ _ _ _ E1 _ E2). apply xsim_refl.
  - destruct cs2 as [|a2 r2].
    + apply (concat_nil_nonempty _ H1) in Hc. discriminate.
    + destruct (Eval_concat _ (a1 :: r1) st x1 (le_n _) ltac:(discriminate) H1 He E1) as (y1 & Ey1 & S1).
      destruct (Eval_concat _ (a2 :: r2) st x2 (le_n _) ltac:(discriminate) H2 He E2) as (y2 & Ey2 & S2).
      rewrite Hc in Ey1. rewrite (Eval_det _ _ _ _ Ey1 _ Ey2) in S1.
      eapply xsim_trans; [exact S1|apply xsim_sym; exact S2].
Qed.

(* (2) fast path = slow path *)
Ltac rec_simpl := cbn [c_v c_w c_ttp c_tt d_rand d_bwt_idx d_ftab r_selector r_num_trees r_num_selectors r_alpha_size
                       r_code_len r_mtf r_tree r_big r_small r_j r_t r_g r_slide r_runChar r_run r_shift
                       set_c_v set_c_w set_c_ttp set_c_tt set_d_rand set_d_bwt_idx set_d_ftab set_r_selector set_r_num_trees
                       set_r_num_selectors set_r_alpha_size set_r_code_len set_r_mtf set_r_tree set_r_big set_r_small set_r_j
                       set_r_t set_r_g set_r_slide set_r_runChar set_r_run set_r_shift].

Ltac dcore c := destruct c as [?xv ?xw ?xttp ?xtt ?xrand ?xidx ?xftab ?xsel ?xnt ?xns ?xasz ?xcl ?xmtf ?xtree ?xbig ?xsmall ?xj ?xt ?xg ?xslide ?xrc ?xrun ?xsh].

(* the state of the slow path that corresponds to the fast path's locals run, runChar, shift, j *)
Definition cS (c : core) (run rc sh j : N) : core := set_r_j (set_r_shift (set_r_runChar (set_r_run c run) rc) sh) j.

Lemma cS_vw c run rc sh j v w : set_c_w (set_c_v (cS c run rc sh j) v) w = cS (set_c_w (set_c_v c v) w) run rc sh j.
Proof. destruct c; reflexivity. Qed.
Lemma cS_acc c run rc sh j run' sh' j' : set_r_j (set_r_shift (set_r_run (cS c run rc sh j) run') sh') j' = cS c run' rc sh' j'.
Proof. destruct c; reflexivity. Qed.
Lemma cS_sym c run rc sh j u sl x j' :
  set_r_j (set_r_run (set_r_shift (set_r_runChar (set_r_slide (set_r_run (cS c run rc sh j) u) sl) x) 0) 1) j' = cS (set_r_slide c sl) 1 x 0 j'.
Proof. destruct c; reflexivity. Qed.
Lemma cS_self c : cS c (r_run c) (r_runChar c) (r_shift c) (r_j c) = c.
Proof. destruct c; reflexivity. Qed.
Lemma cS_j c run rc sh j j' : set_r_j (cS c run rc sh j) j' = cS c run rc sh j'.
Proof. destruct c; reflexivity. Qed.
Lemma cS_g c run rc sh j g : set_r_g (cS c run rc sh j) g = cS (set_r_g c g) run rc sh j.
Proof. destruct c; reflexivity. Qed.

Definition mapX {A B} (f : A -> B) (x : X A) : X B := match x with XV a => XV (f a) | XF e => XF e end.

Lemma load_cS c run rc sh j x : load (cS c run rc sh j) x = mapX (fun c' => cS c' run rc sh j) (load c x).
Proof. unfold load. destruct c. cbn. destruct (shl64 _ _); reflexivity. Qed.

Lemma tt_push_cS ch run rc sh j (xc : X core) :
  tt_push ch (mapX (fun c' => cS c' run rc sh j) xc) = mapX (fun c' => cS c' run rc sh j) (tt_push ch xc).
Proof. destruct xc as [c|f]; [|reflexivity]. destruct c. cbn. destruct (_ <? _); reflexivity. Qed.

Lemma iter_push_cS ch run rc sh j n (xc : X core) :
  N.iter n (tt_push ch) (mapX (fun c' => cS c' run rc sh j) xc) = mapX (fun c' => cS c' run rc sh j) (N.iter n (tt_push ch) xc).
Proof.
  induction n as [|n IH] using N.peano_ind; [reflexivity|].
  rewrite !N.iter_succ, IH. apply tt_push_cS.
Qed.

Lemma emit_run_cS c run rc sh j a b : emit_run (cS c run rc sh j) a b = mapX (fun c' => cS c' run rc sh j) (emit_run c a b).
Proof.
  unfold emit_run. replace (d_ftab (cS c run rc sh j)) with (d_ftab c) by (destruct c; reflexivity).
  destruct (xget RFtab (d_ftab c) a) as [f|e]; [|reflexivity]. cbn [bindX].
  destruct (xset RFtab (d_ftab c) a (add32 f b)) as [ft|e]; [|reflexivity]. cbn [bindX].
  replace (set_d_ftab (cS c run rc sh j) ft) with (cS (set_d_ftab c ft) run rc sh j) by (destruct c; reflexivity).
  apply (iter_push_cS a run rc sh j b (XV (set_d_ftab c ft))).
Qed.

(* results that end the call: same code, or end of block with the same observable core *)
Definition bfin (r1 r2 : bres) : Prop :=
  match r1, r2 with
  | BRet c1 _, BRet c2 _ => c1 = c2
  | BEob c1, BEob c2 => obs_core c1 = obs_core c2
  | BFault f1, BFault f2 => f1 = f2
  | _, _ => False
  end.

Lemma bfin_after r1 r2 st rF : bfin r1 r2 -> RunsO false (after r2 st) rF ->
  exists rS, RunsO false (after r1 st) rS /\ rsim [] rS rF.
Proof.
  destruct r1, r2; cbn [bfin]; try tauto; intro H; cbn [after RunsO]; intros <-; (eexists; split; [reflexivity|]).
  - exact H.
  - unfold finish. cbn [save with_core s_core d_block_size].
    unfold obs_core in H. injection H as Hv Hw Hp Ht Hr Hi Hf.
    rewrite Hp, Hi. destruct (c_ttp c0 =? 0); [cbn; reflexivity|].
    destruct (c_ttp c0 <=? d_bwt_idx c0); [cbn; reflexivity|].
    cbn. unfold obs_core. rewrite Hv, Hw, Hp, Ht, Hr, Hi, Hf, app_nil_r. auto.
  - exact H.
Qed.

Lemma eob_cS c run rc sh j : bfin (eob (cS c run rc sh j)) (eob (set_r_runChar (set_r_run c run) rc)).
Proof.
  unfold eob.
  replace (overflows (cS c run rc sh j) (r_run (cS c run rc sh j))) with (overflows (set_r_runChar (set_r_run c run) rc) run)
    by (destruct c; reflexivity).
  replace (r_run (set_r_runChar (set_r_run c run) rc)) with run by (destruct c; reflexivity).
  destruct (overflows _ run); [cbn; reflexivity|].
  replace (r_runChar (cS c run rc sh j)) with rc by (destruct c; reflexivity).
  replace (r_run (cS c run rc sh j)) with run by (destruct c; reflexivity).
  replace (r_runChar (set_r_runChar (set_r_run c run) rc)) with rc by (destruct c; reflexivity).
  replace (cS c run rc sh j) with (cS (set_r_runChar (set_r_run c run) rc) run rc sh j) by (destruct c; reflexivity).
  rewrite emit_run_cS. destruct (emit_run (set_r_runChar (set_r_run c run) rc) rc run) as [c'|f]; cbn; [|reflexivity].
  destruct c'; reflexivity.
Qed.

Lemma guard_eq r : run_guard 0 r = run_guard 1 r.
Proof. reflexivity. Qed.

Lemma after_with_core r st c : after r (with_core st c) = after r st.
Proof. destruct r, st; reflexivity. Qed.

(* the group head does not depend on rs->j *)
Definition gmap (f : core -> core) (g : gsel) : gsel :=
  match g with
  | GSel c => GSel (f c)
  | GOut (BRet t c) => GOut (BRet t (f c))
  | GOut r => GOut r
  end.

Lemma group_select_j c x : group_select (set_r_j c x) = gmap (fun c' => set_r_j c' x) (group_select c).
Proof.
  unfold group_select. dcore c. rec_simpl.
  destruct (_ <? _); [|reflexivity].
  destruct (xget RSelector _ _) as [i|f]; [|reflexivity].
  destruct (xget RMtf _ i) as [t|f]; [|reflexivity].
  destruct (MAX_TREES <=? t); [reflexivity|].
  destruct (bindX _ _) as [m|f]; reflexivity.
Qed.

Lemma group_j_indep : forall n st x,
  rsim [] (run_from false n P_GROUP (with_core st (set_r_j (s_core st) x))) (run_from false n P_GROUP st).
Proof.
  intros [|n] st x; [cbn; reflexivity|].
  rewrite !run_from_S, !onestep_false. cbn [s_core with_core]. rewrite after_with_core.
  unfold sstep. cbn [step fst]. unfold group_head.
  rewrite group_select_j. destruct (group_select (s_core st)) as [c|r]; cbn [gmap andb fst].
  - replace (set_r_j (set_r_j c x) 0) with (set_r_j c 0) by (dcore c; reflexivity). apply rsim_refl.
  - destruct r; cbn; try reflexivity; auto using rsim_refl.
Qed.

Lemma with_next_core st nx c : with_next (with_core st c) nx = with_core (with_next st nx) c.
Proof. destruct st; reflexivity. Qed.
Lemma add32_small' a b : a + b < 2 ^ 32 -> add32 a b = a + b.
Proof. intro H. unfold add32. apply N.mod_small. exact H. Qed.

Lemma cS_proj c run rc sh j :
  c_v (cS c run rc sh j) = c_v c /\ c_w (cS c run rc sh j) = c_w c /\ r_tree (cS c run rc sh j) = r_tree c /\
  r_t (cS c run rc sh j) = r_t c /\ r_alpha_size (cS c run rc sh j) = r_alpha_size c /\
  r_run (cS c run rc sh j) = run /\ r_runChar (cS c run rc sh j) = rc /\ r_shift (cS c run rc sh j) = sh /\
  r_j (cS c run rc sh j) = j /\ r_slide (cS c run rc sh j) = r_slide c /\ r_g (cS c run rc sh j) = r_g c /\
  c_ttp (cS c run rc sh j) = c_ttp c.
Proof. dcore c. repeat split; reflexivity. Qed.

(* emit_run only touches ftab[], tt[] and the tt pointer *)
Definition tt_frame (c c' : core) : Prop := c' = set_c_ttp (set_c_tt (set_d_ftab c (d_ftab c')) (c_tt c')) (c_ttp c').

Lemma tt_frame_refl c : tt_frame c c.
Proof. unfold tt_frame. dcore c. reflexivity. Qed.

Lemma tt_frame_trans a b c : tt_frame a b -> tt_frame b c -> tt_frame a c.
Proof. unfold tt_frame. intros H1 H2. rewrite H2. rewrite H1. dcore a. dcore c. reflexivity. Qed.

Lemma iter_push_frame ch : forall n xc c', N.iter n (tt_push ch) xc = XV c' -> exists c0, xc = XV c0 /\ tt_frame c0 c'.
Proof.
  induction n as [|n IH] using N.peano_ind; intros xc c' H.
  - cbn in H. exists c'. split; [exact H|apply tt_frame_refl].
  - rewrite N.iter_succ in H. unfold tt_push at 1 in H.
    destruct (N.iter n (tt_push ch) xc) as [c1|f] eqn:E; cbn [bindX] in H; [|discriminate].
    destruct (c_ttp c1 <? MAX_BLOCK_SIZE); [|discriminate]. injection H as <-.
    destruct (IH xc c1 E) as (c0 & -> & F). exists c0. split; [reflexivity|].
    eapply tt_frame_trans; [exact F|]. unfold tt_frame. dcore c1. reflexivity.
Qed.

Lemma emit_run_frame c a b c' : emit_run c a b = XV c' -> tt_frame c c'.
Proof.
  unfold emit_run. destruct (xget RFtab (d_ftab c) a) as [f|e]; [|discriminate]. cbn [bindX].
  destruct (xset RFtab (d_ftab c) a (add32 f b)) as [ft|e]; [|discriminate]. cbn [bindX].
  intro H. destruct (iter_push_frame a b _ c' H) as (c0 & E & F). injection E as <-.
  eapply tt_frame_trans; [|exact F]. unfold tt_frame. dcore c. reflexivity.
Qed.

Lemma tt_frame_fields c c' : tt_frame c c' ->
  r_tree c' = r_tree c /\ r_t c' = r_t c /\ r_slide c' = r_slide c /\ c_v c' = c_v c /\ c_w c' = c_w c.
Proof. unfold tt_frame. intros ->. dcore c. repeat split; reflexivity. Qed.

Definition fast_body (n' : nat) (T : tree) (c : core) (next : list N) (run runChar shift : N) : bres * list N :=
        match ofM (tree_decode (r_alpha_size c) T (c_v c)) with
        | XF f => (BFault f, next)
        | XV skv =>
          let s := fst (fst skv) in let k := snd (fst skv) in
          let c := set_c_w (set_c_v c (snd skv)) (sub32 (c_w c) k) in
          if s =? EOB then (eob (set_r_runChar (set_r_run c run) runChar), next)
          else if (256 <=? s) && run_guard 0 run then
            match ofM (shl32 (sub32 s 256) shift) with
            | XF f => (BFault f, next)
            | XV sh => fast_loop n' T c next (add32 run sh) runChar (add32 shift 1)
            end
          else if overflows c run then (BRet E_ERR_OVERFLOW c, next)
          else
            match emit_run c runChar run with
            | XF f => (BFault f, next)
            | XV c =>
              match SlideModel.mtf_one_c (s mod W8) (r_slide c) with
              | SlideModel.Oob => (BFault FSlideOob, next)
              | SlideModel.Abort => (BFault FSlideAbort, next)
              | SlideModel.Done x sl => fast_loop n' T (set_r_slide c sl) next 1 x 0
              end
            end
        end.

Lemma fast_loop_S n' T c next run rc sh :
  fast_loop (S n') T c next run rc sh =
  match need_fast c next with
  | XF f => (BFault f, next)
  | XV (c1, nx1) => fast_body n' T c1 nx1 run rc sh
  end.
Proof. reflexivity. Qed.

(* one symbol: the slow path's step against the fast path's loop body *)
Lemma sym_corr n' T c next run rc sh j : j < 50 ->
  nth_error (r_tree c) (N.to_nat (r_t c)) = Some T ->
  (exists c' run' rc' sh',
     fast_body n' T c next run rc sh = fast_loop n' T c' next run' rc' sh' /\
     after_prefix (cS c run rc sh j) = slow_head (cS c' run' rc' sh' (j + 1)) /\
     r_tree c' = r_tree c /\ r_t c' = r_t c) \/
  (snd (fast_body n' T c next run rc sh) = next /\ bfin (after_prefix (cS c run rc sh j)) (fst (fast_body n' T c next run rc sh))).
Proof.
  intros Hj HT.
  destruct (cS_proj c run rc sh j) as (Ev & Ew & Et & Ett & Ea & Er & Erc & Es & Ej & Esl & Eg & Ep).
  unfold after_prefix, fast_body. rewrite Et, Ett, HT, Ea, Ev, Ew. cbn [ofO bindB].
  destruct (ofM (tree_decode (r_alpha_size c) T (c_v c))) as [skv|f]; cbn [bindB]; [|right; split; reflexivity].
  set (s := fst (fst skv)). set (k := snd (fst skv)).
  rewrite cS_vw. set (c2 := set_c_w (set_c_v c (snd skv)) (sub32 (c_w c) k)).
  assert (Hc2 : r_tree c2 = r_tree c /\ r_t c2 = r_t c) by (subst c2; dcore c; split; reflexivity).
  clearbody c2.
  destruct (cS_proj c2 run rc sh j) as (Ev2 & Ew2 & Et2 & Ett2 & Ea2 & Er2 & Erc2 & Es2 & Ej2 & Esl2 & Eg2 & Ep2).
  destruct (s =? EOB).
  { right. split; [reflexivity|]. apply eob_cS. }
  rewrite Er2, Es2, <- guard_eq.
  destruct ((256 <=? s) && run_guard 0 run).
  { destruct (ofM (shl32 (sub32 s 256) sh)) as [x|f]; cbn [bindB]; [|right; split; reflexivity].
    left. exists c2, (add32 run x), rc, (add32 sh 1). split; [reflexivity|]. split.
    - match goal with |- context [add32 (r_j ?X) 1] => replace (r_j X) with j by (dcore c2; reflexivity) end.
      rewrite (add32_small' j 1) by lia. rewrite cS_acc. reflexivity.
    - exact Hc2. }
  replace (overflows (cS c2 run rc sh j) run) with (overflows c2 run) by (unfold overflows; rewrite Ep2; reflexivity).
  destruct (overflows c2 run); [right; split; reflexivity|].
  rewrite Erc2, emit_run_cS.
  destruct (emit_run c2 rc run) as [c3|f] eqn:Eem; cbn [mapX bindB]; [|right; split; reflexivity].
  replace (r_slide (set_r_run (cS c3 run rc sh j) UINT_MAX)) with (r_slide c3) by (dcore c3; reflexivity).
  destruct (SlideModel.mtf_one_c (s mod W8) (r_slide c3)) as [x sl| |]; [|right; split; reflexivity|right; split; reflexivity].
  left. exists (set_r_slide c3 sl), 1, x, 0. split; [reflexivity|]. split.
  - replace (r_j (set_r_run (set_r_shift (set_r_runChar (set_r_slide (set_r_run (cS c3 run rc sh j) UINT_MAX) sl) x) 0) 1)) with j
      by (dcore c3; reflexivity).
    rewrite (add32_small' j 1) by lia. rewrite cS_sym. reflexivity.
  - assert (E3 : r_tree c3 = r_tree c2 /\ r_t c3 = r_t c2).
    { destruct (tt_frame_fields _ _ (emit_run_frame _ _ _ _ Eem)) as (A & B & _). split; assumption. }
    destruct E3 as [E3a E3b]. destruct Hc2 as [Ha Hb]. split.
    + replace (r_tree (set_r_slide c3 sl)) with (r_tree c3) by (dcore c3; reflexivity). congruence.
    + replace (r_t (set_r_slide c3 sl)) with (r_t c3) by (dcore c3; reflexivity). congruence.
Qed.

Lemma need_corr c next run rc sh j st :
  match need_fast c next with
  | XV (c1, nx1) =>
      need_at S_prefix (with_core (with_next st next) (cS c run rc sh j)) = NGo (with_core (with_next st nx1) (cS c1 run rc sh j)) /\
      r_tree c1 = r_tree c /\ r_t c1 = r_t c
  | XF f => f = FInput \/ need_at S_prefix (with_core (with_next st next) (cS c run rc sh j)) = NRet (RFault f)
  end.
Proof.
  destruct (cS_proj c run rc sh j) as (Ev & Ew & _).
  unfold need_fast, need_at. cbn [s_core with_core l_next with_next]. rewrite Ew.
  destruct (c_w c <? 32).
  - destruct next as [|x r]; [left; reflexivity|].
    rewrite load_cS. destruct (load c x) as [c1|f] eqn:EL; cbn [bindX mapX].
    + split; [destruct st; reflexivity|].
      unfold load in EL. destruct (ofM _); [|discriminate]. cbn [bindX] in EL. injection EL as <-. dcore c. split; reflexivity.
    + right. reflexivity.
  - split; [destruct st; reflexivity|]. split; reflexivity.
Qed.

Lemma fast_slow_loop : forall n T c next run rc sh j st rF,
  N.of_nat n + j = GROUP_SIZE ->
  nth_error (r_tree c) (N.to_nat (r_t c)) = Some T ->
  fst (fast_loop n T c next run rc sh) <> BFault FInput ->
  RunsO false (after (fst (fast_loop n T c next run rc sh)) (with_next st (snd (fast_loop n T c next run rc sh)))) rF ->
  rF <> RFault FFuel ->
  exists rS, RunsO false (after (slow_head (cS c run rc sh j)) (with_next st next)) rS /\ rsim [] rS rF.
Proof.
  induction n as [|n IH]; intros T c next run rc sh j st rF Hj HT HI HF HN.
  - cbn [fast_loop fst snd] in HF. change GROUP_SIZE with 50 in Hj. assert (j = 50) by lia. subst j.
    destruct (cS_proj c run rc sh 50) as (_ & _ & _ & _ & _ & _ & _ & _ & Ej & _ & Eg & _).
    unfold slow_head. rewrite Ej, Eg. change (50 <? GROUP_SIZE) with false. cbn iota.
    cbn [after RunsO] in *.
    set (cF := set_r_g (set_r_shift (set_r_runChar (set_r_run c run) rc) sh)
                 (add32 (r_g (set_r_shift (set_r_runChar (set_r_run c run) rc) sh)) 1)) in *.
    replace (set_r_g (cS c run rc sh 50) (add32 (r_g c) 1)) with (set_r_j cF 50) by (dcore c; reflexivity).
    destruct (Runs_sim false _ _ P_GROUP (with_core (with_next st next) (set_r_j cF 50)) rF
                (fun m => rsim_sym _ _ (group_j_indep m (with_core (with_next st next) cF) 50)) HF HN) as (rS & HS & HR).
    exists rS. split; [exact HS|apply rsim_sym; exact HR].
  - change GROUP_SIZE with 50 in Hj.
    destruct (cS_proj c run rc sh j) as (Ev & Ew & Et & Ett & Ea & Er & Erc & Es & Ej & Esl & Eg & Ep).
    unfold slow_head. rewrite Ej. replace (j <? GROUP_SIZE) with true by (symmetry; apply N.ltb_lt; change GROUP_SIZE with 50; lia).
    cbn [after]. rewrite fast_loop_S in HF, HI.
    pose proof (need_corr c next run rc sh j st) as NC.
    destruct (need_fast c next) as [[c1 nx1]|f].
    + destruct NC as (NC & Ht1 & Ht2). rewrite NC. cbn [RunsO]. setoid_rewrite Runs_onestep. rewrite onestep_false.
      cbn [s_core with_core]. unfold sstep. cbn [step fst step_core]. rewrite after_with_core.
      destruct (sym_corr n T c1 nx1 run rc sh j ltac:(lia) ltac:(congruence))
        as [(c' & run' & rc' & sh' & EF & ES & Ht1' & Ht2')|(EN & BF)].
      * rewrite EF in HF, HI. rewrite ES.
        exact (IH T c' nx1 run' rc' sh' (j + 1) st rF ltac:(change GROUP_SIZE with 50; lia) ltac:(congruence) HI HF HN).
      * rewrite EN in HF. exact (bfin_after _ _ _ rF BF HF).
    + cbn [fst snd] in HF, HI. destruct NC as [->|NC]; [congruence|]. rewrite NC.
      exists rF. split; [exact HF|apply rsim_refl].
Qed.

Definition no_fault (r : cres) : Prop := forall f, r <> RFault f.

Lemma rsim_no_fault b r1 r2 : rsim b r1 r2 -> no_fault r2 -> no_fault r1.
Proof. destruct r1, r2; cbn; try tauto; intros; intros f' E; try discriminate. subst. injection E as <-. exact (H0 _ eq_refl). Qed.

Lemma cS_self_j c j : cS c (r_run c) (r_runChar c) (r_shift c) j = set_r_j c j.
Proof. dcore c. reflexivity. Qed.

(* the head of the group loop on the slow path *)
Lemma sstep_group c :
  sstep P_GROUP c = match group_select c with GSel c1 => slow_head (set_r_j c1 0) | GOut r => r end.
Proof. unfold sstep. cbn [step fst]. unfold group_head. destruct (group_select c); reflexivity. Qed.

(* (2) a run of the machine with the fast path that ends without a fault is matched by the slow machine.
   One pass: whatever the slow machine makes of the state behind a pass of the fast machine, it makes of the state
   before it (a fast-path group is GROUP_SIZE passes of the slow machine). *)
Lemma fast_pass p st rF : (exists rS', RunsO false (onestep true p st) rS' /\ rsim [] rS' rF) -> no_fault rF ->
  exists rS, Runs false p st rS /\ rsim [] rS rF.
Proof.
  intros (rS' & G & HR') NF. setoid_rewrite Runs_onestep.
  destruct p as [s| |]; try (exists rS'; split; [exact G|exact HR']).
  rewrite onestep_after in G. cbn [step] in G. unfold group_head in G. rewrite onestep_false, sstep_group.
  destruct (group_select (s_core st)) as [c1|r]; [|cbn [fst snd] in G; rewrite with_next_id in G; eauto].
  destruct (true && (fast_path_words <=? N.of_nat (length (l_next st))));
    [|cbn [fst snd] in G; rewrite with_next_id in G; eauto].
  assert (NF' : forall f, rS' <> RFault f) by exact (rsim_no_fault _ _ _ HR' NF).
  destruct (nth_error (r_tree c1) (N.to_nat (r_t c1))) as [T|] eqn:HT; cbn [ofO] in G;
    [|exfalso; exact (NF' _ (eq_sym G))].
  assert (HI : fst (fast_loop (N.to_nat GROUP_SIZE) T c1 (l_next st) (r_run c1) (r_runChar c1) (r_shift c1)) <> BFault FInput).
  { intro X. rewrite X in G. exact (NF' _ (eq_sym G)). }
  destruct (fast_slow_loop (N.to_nat GROUP_SIZE) T c1 (l_next st) (r_run c1) (r_runChar c1) (r_shift c1) 0 st rS'
              ltac:(reflexivity) HT HI G (NF' _)) as (rS & HS & HR).
  rewrite cS_self_j, with_next_id in HS. exists rS. split; [exact HS|exact (rsim_trans _ _ _ _ HR HR')].
Qed.

Lemma fast_to_slow p st rF : Runs true p st rF -> no_fault rF -> exists rS, Runs false p st rS /\ rsim [] rS rF.
Proof.
  induction 1 as [p st rF E|p st p' st' rF E _ IH]; intro NF; apply fast_pass; try exact NF; rewrite E.
  - exists rF. split; [reflexivity|apply rsim_refl].
  - exact (IH NF).
Qed.

Lemma fast_to_slow_run : forall n p st rF, run_from true n p st = rF -> no_fault rF ->
  exists m rS, run_from false m p st = rS /\ rsim [] rS rF.
Proof.
  intros n p st rF <- NF. destruct (fast_to_slow _ _ _ (run_from_Runs true n p st (NF _)) NF) as (rS & HS & HR).
  destruct (Runs_run_from _ _ _ _ HS) as (m & Hm). exists m, rS. split; [exact Hm|exact HR].
Qed.

Lemma Ret_fast_to_slow st rF : Ret true st rF -> no_fault rF -> exists rS, Ret false st rS /\ rsim [] rS rF.
Proof.
  intros H NF. apply Ret_enter in H as (_ & H). destruct (enter st) as [p s|r] eqn:E.
  - destruct (fast_to_slow _ _ _ H NF) as (rS & HS & HR). exists rS. split; [|exact HR].
    apply Ret_enter. rewrite E. split; [exact (rsim_no_fault _ _ _ HR NF _)|exact HS].
  - subst r. exists rF. split; [|apply rsim_refl]. apply Ret_enter. rewrite E. split; [apply NF|reflexivity].
Qed.

Lemma Eval_fast_to_slow st cs x : Eval true st cs x -> no_fault (fst x) -> exists y, Eval false st cs y /\ xsim y x.
Proof.
  induction 1 as [st r H Hm|st st' r H H'|st ch rest r H Hm|st ch rest st' x H E IH]; intro NF; cbn [fst] in NF.
  - destruct (Ret_fast_to_slow _ _ H NF) as (rS & HS & HR). exists (rS, []). split; [|apply rsim_nil_xsim; exact HR].
    apply Ev_nil_stop; [exact HS|]. rewrite (rsim_more _ _ _ HR). exact Hm.
  - destruct (Ret_fast_to_slow _ _ H ltac:(intros f; discriminate)) as (rS & HS & HR).
    destruct rS as [sS| | |]; cbn in HR; try tauto. destruct HR as [-> _].
    destruct (Ret_fast_to_slow _ _ H' NF) as (rS & HS' & HR'). exists (rS, []). split; [|apply rsim_nil_xsim; exact HR'].
    eapply Ev_nil_more; eassumption.
  - destruct (Ret_fast_to_slow _ _ H NF) as (rS & HS & HR). exists (rS, rest). split; [|apply rsim_nil_xsim; exact HR].
    apply Ev_stop; [exact HS|]. rewrite (rsim_more _ _ _ HR). exact Hm.
  - destruct (Ret_fast_to_slow _ _ H ltac:(intros f; discriminate)) as (rS & HS & HR).
    destruct rS as [sS| | |]; cbn in HR; try tauto. destruct HR as [-> _].
    destruct (IH NF) as (y & Ey & Sy). exists y. split; [|exact Sy]. eapply Ev_more; eassumption.
Qed.

(* CHUNK INDEPENDENCE, for runs that end without a fault: the result of retrieve() fed with a list of non-empty
   chunks (then end of input) depends only on the concatenation of the chunks *)
Theorem chunk_indep_nofault st cs1 cs2 x1 x2 :
  Forall (fun c => c <> []) cs1 -> Forall (fun c => c <> []) cs2 -> concat cs1 = concat cs2 -> b_eof st = false ->
  Eval true st cs1 x1 -> Eval true st cs2 x2 -> no_fault (fst x1) -> no_fault (fst x2) -> xsim x1 x2.
Proof.
  intros H1 H2 Hc He E1 E2 N1 N2.
  destruct (Eval_fast_to_slow _ _ _ E1 N1) as (y1 & Ey1 & S1).
  destruct (Eval_fast_to_slow _ _ _ E2 N2) as (y2 & Ey2 & S2).
  pose proof (slow_chunk_indep st cs1 cs2 y1 y2 H1 H2 Hc He Ey1 Ey2) as S.
  eapply xsim_trans; [apply xsim_sym; exact S1|]. eapply xsim_trans; [exact S|exact S2].
Qed.

Print Assumptions chunk_indep_nofault.
