(* C05/C06/C08/C09, retrieve() of src/decode.c: the theorems about its statement-level resumable model
   (Safe/RetrModel.v), gathered.  They are proved in Safe/RetrSafe.v (safety, chunk independence) and
   Safe/RetrRefine.v (refinement of Dec/Format.v) and restated by Properties/Properties_C09retr.v.

   Reading the statements: [init_ok st] = a state as decoder_init() and the parser leave it (rs->state = S_INIT, arrays of
   their declared sizes with ARBITRARY contents, nothing in tt[], a bit buffer of at most 63 valid bits, zero below them);
   chunks = the non-empty parts of the input handed to successive calls (bs->data .. bs->limit), words < 2^32;
   [retr_chunks st chunks] = the calls one after the other, then the call(s) at end of input. *)
From Coq Require Import List NArith Arith Bool Lia.
From LBZ Require Import Common.Bits Gen.Consts Dec.Prog Dec.Format Dec.Policies
                        Safe.TreeModel Safe.RetrModel Safe.RetrChunk Safe.RetrInv Safe.RetrSafe Safe.RetrSpec Safe.RetrRefine.
Import ListNotations.
Local Open Scope N_scope.

(* the initial state of harness/retr_h.c and of the extracted model's driver is an instance *)
Lemma junk_init_ok buff live q : live <= 63 -> q < 2 ^ live -> buff = q * 2 ^ (64 - live) ->
  init_ok (init_state junk_core buff live) /\ b_eof (init_state junk_core buff live) = false.
Proof.
  intros Hl Hq Hb. split; [|reflexivity]. unfold init_ok, init_state. cbn [s_state s_core d_block_size b_live b_buff].
  split; [reflexivity|]. split; [|split; [reflexivity|split; [reflexivity|split; [exact Hl|eauto]]]].
  unfold shape, junk_core, init_core. cbn [r_selector r_code_len r_mtf r_tree r_slide d_ftab SlideModel.s_slide].
  repeat split; try reflexivity. repeat constructor; reflexivity.
Qed.

(* spec_block spelled out: read_block under lbz_policy, unmtf_block with the 900000 limit of retrieve(), the two final checks *)
Lemma spec_block_unfold f bits : spec_block f bits =
    match run (read_block lbz_policy f) bits with
    | Err e => Err e
    | Ok (rb, rest) =>
        match unmtf_block MAX_BLOCK_SIZE (rb_used rb) (rb_mtfv rb) with
        | Err e => Err e
        | Ok col =>
            if N.of_nat (length col) =? 0 then Err ErrEmpty
            else if N.of_nat (length col) <=? rb_idx rb then Err ErrBwtIdx
            else Ok (rb_rand rb, rb_idx rb, col, rest)
        end
    end.
Proof.
  unfold spec_block, post. destruct (run (read_block lbz_policy f) bits) as [[rb rest]|e]; [|reflexivity].
  destruct (unmtf_block MAX_BLOCK_SIZE (rb_used rb) (rb_mtfv rb)) as [col|e]; [|reflexivity].
  destruct (N.of_nat (length col) =? 0); [reflexivity|]. destruct (N.of_nat (length col) <=? rb_idx rb); reflexivity.
Qed.

(* what [xsim] carries over from an OK result; stated for variables, so that its use on a test vector looks at no result *)
Lemma xsim_block (x y : cres * list (list N)) col idx size : xsim x y ->
  match x with
  | (ROk st', lo) => rev (c_tt (s_core st')) = col /\
                     d_bwt_idx (s_core st') = idx /\ d_rand (s_core st') = 0 /\ d_block_size st' = size /\ lo = []
  | _ => False
  end ->
  match y with
  | (ROk st', lo) => rev (c_tt (s_core st')) = col /\
                     d_bwt_idx (s_core st') = idx /\ d_block_size st' = size
  | _ => False
  end.
Proof.
  destruct x as [[s1|s1|e1 s1|f1] lo1], y as [[s2|s2|e2 s2|f2] lo2]; cbn [xsim fst snd]; try contradiction.
  intros (Ho & _ & _ & Hd & _) (W1 & W2 & _ & W4 & _). injection Ho as _ _ _ Htt _ Hidx _.
  rewrite <- Htt, <- Hidx, <- Hd. auto.
Qed.

(* safety and termination for any input and any chunking *)
Definition retr_safe := RetrSafe.retr_safe.
(* the result depends only on the concatenation of the chunks *)
Definition retr_chunk_indep := RetrSafe.retr_chunk_indep.
(* against the format description Dec/Format.v: an OK result is the block the format reads; completeness; rejection *)
Definition retr_refines := RetrRefine.retr_refines.
Definition retr_complete := RetrRefine.retr_complete.
Definition retr_rejects := RetrRefine.retr_rejects.

Print Assumptions junk_init_ok.
Print Assumptions retr_safe.
Print Assumptions retr_chunk_indep.
Print Assumptions retr_refines.
Print Assumptions retr_complete.
Print Assumptions retr_rejects.
