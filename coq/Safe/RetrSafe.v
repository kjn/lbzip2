(* C08/C09, retrieve(): SAFETY and TERMINATION of the statement-level model (Safe/RetrModel.v) for any input words and
   any chunking, and with them the clean form of CHUNK INDEPENDENCE.

   [Inv p c]: the state at control point p is related to some abstract state (Safe/RetrSpec.v) and the bit buffer holds
   what NEED left there; the block lemmas of Safe/RetrRefHdr.v, RetrRefSel.v, RetrRefSym.v show that every block keeps
   this without a fault ([sstep_post]).  Here: NEED (a word < 2^32 is loaded only when w < 32), the fast path (NEED_FAST
   never reads past the chunk: a group takes at most 50 * 20 bits and at least 32 words = 1024 bits are there), the
   measure that bounds the number of passes by [call_fuel], the calls and the chunk driver. *)
From Coq Require Import List NArith Arith Bool Lia ZifyBool ZifyNat ZifyN.
From LBZ Require Import Gen.Consts Gen.DecTabs Dec.Prog Safe.TreeModel Safe.TreeLemmas Safe.RetrModel Safe.RetrChunk
  Safe.RetrInv Safe.RetrSpec Safe.RetrRefSel Safe.RetrRefHdr Safe.RetrRefSym.
From LBZ Require Safe.SlideModel Safe.SlideProofs.
Import ListNotations.
Local Open Scope N_scope.

Definition Jp (p : pc) (c : core) : Prop := exists a, Rel p c a.
Definition Inv (p : pc) (c : core) : Prop := Jp p c /\ buf_ok c /\ wlo p <= c_w c.
Definition words_ok (nx : list N) : Prop := Forall (fun x => x < 2 ^ 32) nx.
Definition bitsleft (c : core) (nx : list N) : N := c_w c + 32 * N.of_nat (length nx).
Definition phi (p : pc) (c : core) (nx : list N) : N := 4 * bitsleft c nx + sigma p.

(* the relations do not look at v, w *)
Lemma Rel_bufset p c a v w : Rel p c a -> Rel p (bufset c v w) a.
Proof. destruct p as [[]| |], a; exact (fun H => H). Qed.

Lemma Kof_bufset f c a v w : Kof f (bufset c v w) a = Kof f c a.
Proof. destruct a; reflexivity. Qed.

Lemma Jp_bufset p c v w : Jp p c -> Jp p (bufset c v w).
Proof. intros (a & H). exists a. apply Rel_bufset, H. Qed.

(* v |= (uint64_t)ntohl( *next ) << (64u - (w += 32u)): 32 more bits in the buffer; the relation, the residual program
   and the stream are what they were *)
Lemma load_Rel p c a x : Rel p c a -> buf_ok c -> c_w c < 32 -> x < 2 ^ 32 ->
  exists c', load c x = XV c' /\ Rel p c' a /\ buf_ok c' /\ c_w c' = c_w c + 32 /\
             (forall f, Kof f c' a = Kof f c a) /\ forall nx, strm c' nx = strm c (x :: nx).
Proof.
  intros HR (q & Hq) Hw Hx. destruct (load_ok c q x Hq Hw Hx) as (c' & E & -> & Hq').
  eexists. split; [exact E|]. split; [exact (Rel_bufset p c a _ _ HR)|]. split; [eexists; exact Hq'|].
  split; [reflexivity|]. split; [intro f; exact (Kof_bufset f c a _ _)|].
  intro nx. exact (strm_load c q x _ nx Hq Hw Hx Hq' eq_refl).
Qed.

(* one block of the slow machine *)
Lemma sstep_post f nx p c a : Rel p c a -> buf_ok c -> wlo p <= c_w c -> (length (strm c nx) < f)%nat ->
  blk_post f nx (run (Kof f c a) (strm c nx)) (4 * c_w c + sigma p) (sstep p c).
Proof.
  intros HR HB Hw Hf. unfold sstep.
  destruct p as [[]| |], a; cbn [Rel] in HR; try contradiction; cbn [step step_core fst wlo Kof sigma] in *.
  - apply ref_bwt; [exact HR|exact HB|exact Hw|lia].
  - apply ref_big; [exact HR|exact HB|exact Hw|lia|exact Hf].
  - apply ref_inner; [exact HR|exact HB|lia|lia|left; exact Hw|lia|exact Hf].
  - (* rs->j++ *)
    unfold after_selector_mtf. destruct HR as (fl & (Hh & Hj & Hs) & HH & Es).
    assert (Ej : add32 (r_j c) 1 = r_j c + 1).
    { destruct (J_hdr_facts c fl Hh) as (_ & _ & _ & Hns). apply add32_small. rewrite W32_val. lia. }
    rewrite Ej. refine (ref_sel f nx _ (set_r_j c (r_j c + 1)) h selm _ HB _ (fun _ => Hw) _ Hf); [|csimp; lia|csimp; lia].
    exists fl. split; [split; [exact Hh|split; [csimp; lia|exact Hs]]|].
    split; [exact HH|]. rewrite Es. change (r_j (set_r_j c (r_j c + 1))) with (r_j c + 1). f_equal. lia.
  - unfold after_delta_tag. destruct HR as (fl & ((A & B & C & D & E & F & G) & H) & HH).
    refine (ref_delta f nx _ c h selm tables lens _ HB _ (fun _ => Hw) (N.le_refl _) Hf); [|lia].
    exists fl. split; [|exact HH]. split; [exact A|]. split; [exact B|]. split; [exact C|]. split; [exact D|].
    split; [exact E|]. split; [exact F|]. intro X. specialize (G X). lia.
  - apply ref_prefix; [exact HR|exact HB|exact Hw|lia].
  - apply ref_tree; [exact HR|exact HB|exact Hw|lia|exact Hf].
  - apply ref_group; [exact HR|exact HB|exact Hw|lia].
Qed.

(* what a block of the slow machine leaves behind, without the format description *)
Definition bres_ok (p : pc) (c : core) (r : bres) : Prop :=
  match r with
  | BGo p' c' => Inv p' c' /\ 4 * c_w c' + sigma p' < 4 * c_w c + sigma p
  | BNeed s c' => Jp (After s) c' /\ buf_ok c' /\ 4 * c_w c' + sigma (After s) < 4 * c_w c + sigma p
  | BRet _ _ => True
  | BEob _ => True
  | BFault _ => False
  end.

Lemma sstep_ok p c : Inv p c -> bres_ok p c (sstep p c).
Proof.
  intros ((a & HR) & HB & Hw).
  pose proof (sstep_post (S (length (strm c []))) [] p c a HR HB Hw (Nat.lt_succ_diag_r _)) as H.
  destruct (sstep p c) as [p' c'|s c'| | |]; cbn [blk_post bres_ok] in *; try exact I; try exact H.
  - destruct H as (a' & R' & B' & W' & M' & _). split; [|exact M']. split; [exists a'; exact R'|split; assumption].
  - destruct H as (a' & R' & B' & M' & _). split; [exists a'; exact R'|split; assumption].
Qed.

(* what a suspended call leaves in the state *)
Definition MoreInv (st : rstate) : Prop :=
  exists s, s_state st = state_no s /\ Jp (After s) (s_core st) /\ buf_ok (s_core st) /\ c_w (s_core st) < 32 /\
            b_live st = c_w (s_core st) /\ b_buff st = c_v (s_core st) /\ d_block_size st = c_ttp (s_core st).

Definition final_ok (r : cres) : Prop :=
  match r with RFault _ => False | RMore st => MoreInv st | _ => True end.

Lemma need_ok s st : Jp (After s) (s_core st) -> buf_ok (s_core st) -> words_ok (l_next st) ->
  match need_at s st with
  | NGo st' => Inv (After s) (s_core st') /\ words_ok (l_next st') /\
               bitsleft (s_core st') (l_next st') = bitsleft (s_core st) (l_next st)
  | NRet r => final_ok r
  end.
Proof.
  intros HJ HB HW. unfold need_at. destruct (N.ltb_spec (c_w (s_core st)) 32) as [Hlt|Hge].
  - destruct (l_next st) as [|x r] eqn:EN.
    + cbn [save b_eof]. destruct (b_eof st); cbn [final_ok]; [exact I|].
      exists s. destruct st as [c nx ss bl bb bd be bs]. cbn in *. repeat split; auto.
    + inversion HW as [|? ? Hx Hr]; subst. destruct HJ as (a & HR).
      destruct (load_Rel (After s) _ a x HR HB Hlt Hx) as (c' & -> & R' & B' & Ew & _).
      cbn [s_core with_next with_core l_next]. unfold Inv, bitsleft. rewrite Ew. cbn [length].
      split; [split; [exists a; exact R'|split; [exact B'|destruct s; cbn [wlo]; lia]]|]. split; [exact Hr|lia].
  - split; [|split; [exact HW|reflexivity]]. unfold Inv. split; [exact HJ|]. split; [exact HB|].
    destruct s; cbn [wlo]; lia.
Qed.

(* one pass of the slow machine *)
Definition out_ok (p : pc) (st : rstate) (o : out) : Prop :=
  match o with
  | Running p' st' => Inv p' (s_core st') /\ words_ok (l_next st') /\
                      phi p' (s_core st') (l_next st') < phi p (s_core st) (l_next st)
  | Final r => final_ok r
  end.

Lemma finish_ok st : final_ok (finish st).
Proof. unfold finish. destruct (_ =? 0); [exact I|]. destruct (_ <=? _); exact I. Qed.

Lemma after_ok p st r : bres_ok p (s_core st) r -> words_ok (l_next st) -> out_ok p st (after r st).
Proof.
  intros HR HW. destruct r as [p' c'|s c'|code c'|c'|f]; cbn [after bres_ok] in *.
  - destruct HR as (HI & Hphi). cbn [out_ok s_core with_core l_next]. split; [exact HI|]. split; [exact HW|].
    unfold phi, bitsleft. lia.
  - destruct HR as (HJ & HB & Hphi).
    pose proof (need_ok s (with_core st c') HJ HB HW) as N.
    destruct (need_at s (with_core st c')) as [st'|r]; cbn [out_ok].
    + destruct N as (HI & HW' & Hb). split; [exact HI|]. split; [exact HW'|].
      unfold phi. rewrite Hb. cbn [s_core with_core l_next]. unfold bitsleft. lia.
    + exact N.
  - exact I.
  - apply finish_ok.
  - contradiction.
Qed.

Lemma onestep_slow_ok p st : Inv p (s_core st) -> words_ok (l_next st) -> out_ok p st (onestep false p st).
Proof. intros HI HW. rewrite onestep_false. apply after_ok; [apply sstep_ok; exact HI|exact HW]. Qed.

(* what the slow path's loop test says about the state the fast path's locals stand for *)
Definition sh_ok (r : bres) : Prop :=
  match r with
  | BNeed S_prefix c' => Jp A_PREFIX c'
  | BGo P_GROUP c' => Jp P_GROUP c'
  | _ => False
  end.

(* the group phase does not look at rs->j *)
Lemma Jp_group_j c x : Jp P_GROUP c -> Jp P_GROUP (set_r_j c x).
Proof. intros (a & H). exists a. destruct a; exact H. Qed.

(* behind NEED(S_PREFIX): one symbol, of at most 20 bits *)
Lemma prefix_ok c : Jp A_PREFIX c -> buf_ok c -> 32 <= c_w c ->
  match after_prefix c with
  | BNeed S_prefix c' => Jp A_PREFIX c' /\ buf_ok c' /\ c_w c' + 1 <= c_w c /\ c_w c <= c_w c' + 20
  | BGo P_GROUP c' => Jp P_GROUP c' /\ buf_ok c' /\ c_w c' + 1 <= c_w c /\ c_w c <= c_w c' + 20
  | BRet _ _ => True
  | BEob _ => True
  | _ => False
  end.
Proof.
  intros (a & HR) HB Hw. destruct a; try contradiction.
  destruct (ref_prefix 0 [] (4 * c_w c) c h selm tables g syms lens n HR HB Hw (N.le_refl _)) as (P & W).
  destruct (after_prefix c) as [[[]| |] c'|[] c'| | |]; cbn [blk_post sigma] in P; try exact I; try contradiction.
  - destruct P as (a' & R' & B' & _ & M' & _). split; [exists a'; exact R'|]. split; [exact B'|]. lia.
  - destruct P as (a' & R' & B' & M' & _). split; [exists a'; exact R'|]. split; [exact B'|]. lia.
Qed.

Lemma slow_head_cases c : (r_j c < 50 /\ slow_head c = BNeed S_prefix c) \/
                          (50 <= r_j c /\ slow_head c = BGo P_GROUP (set_r_g c (add32 (r_g c) 1))).
Proof.
  unfold slow_head. change GROUP_SIZE with 50. destruct (N.ltb_spec (r_j c) 50); [left|right]; auto.
Qed.

Lemma fast_loop_ok : forall n T c nx run rc sh j,
  N.of_nat n + j = 50 -> nth_error (r_tree c) (N.to_nat (r_t c)) = Some T ->
  sh_ok (slow_head (cS c run rc sh j)) -> buf_ok c -> words_ok nx ->
  20 * N.of_nat n + 12 <= bitsleft c nx -> 12 <= c_w c ->
  match fast_loop n T c nx run rc sh with
  | (BGo P_GROUP c', nx') => Jp P_GROUP c' /\ buf_ok c' /\ 12 <= c_w c' /\ words_ok nx' /\
                             bitsleft c' nx' + N.of_nat n <= bitsleft c nx
  | (BRet _ _, _) => True
  | (BEob _, _) => True
  | _ => False
  end.
Proof.
  induction n as [|n IH]; intros T c nx run rc sh j Hj HT HS HB HW Hbits Hw.
  - cbn [fast_loop]. assert (j = 50) by lia. subst j.
    destruct (slow_head_cases (cS c run rc sh 50)) as [[A _]|[_ E]]; [change (r_j (cS c run rc sh 50)) with 50 in A; lia|].
    rewrite E in HS. cbn [sh_ok] in HS. change (r_g (cS c run rc sh 50)) with (r_g c) in HS.
    split; [|split; [exact HB|split; [exact Hw|split; [exact HW|unfold bitsleft; change (c_w (set_r_g _ _)) with (c_w c); lia]]]].
    exact (Jp_group_j _ (r_j c) HS).
  - rewrite fast_loop_S.
    destruct (slow_head_cases (cS c run rc sh j)) as [[A E]|[A _]]; [|change (r_j (cS c run rc sh j)) with j in A; lia].
    rewrite E in HS. cbn [sh_ok] in HS. change (r_j (cS c run rc sh j)) with j in A.
    (* NEED_FAST *)
    assert (NF : exists c1 nx1, need_fast c nx = XV (c1, nx1) /\ buf_ok c1 /\ 32 <= c_w c1 /\ words_ok nx1 /\
                   bitsleft c1 nx1 = bitsleft c nx /\ Jp A_PREFIX (cS c1 run rc sh j) /\
                   r_tree c1 = r_tree c /\ r_t c1 = r_t c).
    { unfold need_fast. destruct (N.ltb_spec (c_w c) 32) as [Hlt|Hge].
      - destruct nx as [|x r].
        + exfalso. unfold bitsleft in Hbits. cbn [length] in Hbits. lia.
        + inversion HW as [|? ? Hx Hr]; subst. destruct HB as (q & Hq).
          destruct (load_ok c q x Hq Hlt Hx) as (c1 & -> & Ec & Hq'). cbn [bindX]. subst c1.
          eexists _, r. split; [reflexivity|]. split; [exists (q * 2 ^ 32 + x); exact Hq'|].
          split; [csimp; lia|]. split; [exact Hr|]. split; [unfold bitsleft; csimp; cbn [length]; lia|].
          split; [|split; reflexivity]. exact (Jp_bufset A_PREFIX _ _ _ HS).
      - exists c, nx. split; [reflexivity|]. split; [exact HB|]. split; [lia|]. split; [exact HW|].
        split; [reflexivity|]. split; [exact HS|]. split; reflexivity. }
    destruct NF as (c1 & nx1 & -> & HB1 & Hw1 & HW1 & Hb1 & HJ1 & Et1 & Ett1).
    pose proof (prefix_ok (cS c1 run rc sh j) HJ1 HB1 Hw1) as AP.
    destruct (sym_corr n T c1 nx1 run rc sh j A ltac:(congruence))
      as [(c' & run' & rc' & sh' & EF & ES & Ht1' & Ht2')|(EN & BF)].
    + rewrite EF. rewrite ES in AP.
      assert (G : sh_ok (slow_head (cS c' run' rc' sh' (j + 1))) /\ buf_ok c' /\ c_w c' + 1 <= c_w c1 /\ c_w c1 <= c_w c' + 20).
      { destruct (slow_head_cases (cS c' run' rc' sh' (j + 1))) as [[_ E']|[_ E']]; rewrite E' in *.
        - destruct AP as (J' & B' & W1 & W2). cbn [sh_ok]. split; [exact J'|]. split; [exact B'|]. split; [exact W1|exact W2].
        - destruct AP as (J' & B' & W1 & W2). cbn [sh_ok]. split; [exact J'|]. split; [exact B'|]. split; [exact W1|exact W2]. }
      destruct G as (HS' & HB' & W1 & W2).
      pose proof (IH T c' nx1 run' rc' sh' (j + 1) ltac:(lia) ltac:(congruence) HS' HB' HW1
                    ltac:(unfold bitsleft in *; lia) ltac:(lia)) as R.
      destruct (fast_loop n T c' nx1 run' rc' sh') as [[[[]| |] cc| [] cc| | |] nx']; auto.
      destruct R as (R1 & R2 & R3 & R4 & R5). repeat split; auto. unfold bitsleft in *. lia.
    + destruct (fast_body n T c1 nx1 run rc sh) as [r nx'] eqn:EB. cbn [fst snd] in *.
      destruct (after_prefix (cS c1 run rc sh j)) as [[[]| |] cc| [] cc| | |]; destruct r as [| | | |]; cbn [bfin] in BF; try contradiction; auto.
Qed.

(* The only fact about the regenerated threshold [fast_path_words] (Gen/DecTabs.v: the constant of the test
   `(limit - next) >= 32` in retrieve()) that the safety proof needs: that many 32-bit words hold the bits of a
   whole group, GROUP_SIZE symbols of at most MAX_CODE_LENGTH bits.  Then, with the >= 12 bits that are in the bit
   buffer at the head of the group loop, the GROUP_SIZE executions of NEED_FAST never read *next with next == limit
   ([fast_loop_ok]).  A source with a smaller threshold makes this lemma fail; a larger one is accepted. *)
Lemma fast_path_words_enough : GROUP_SIZE * MAX_CODE_LENGTH <= 32 * fast_path_words.
Proof. vm_compute. discriminate. Qed.

(* group_select leaves v and w alone *)
Lemma group_select_vw c c1 : group_select c = GSel c1 -> c_v c1 = c_v c /\ c_w c1 = c_w c.
Proof.
  unfold group_select. destruct (_ <? _); [|discriminate]. destruct (xget RSelector _ _) as [i|]; [|discriminate].
  destruct (xget RMtf _ _) as [t|]; [|discriminate]. destruct (_ <=? _); [discriminate|].
  destruct (bindX _ _) as [m|]; [|discriminate]. intros [= <-]. split; reflexivity.
Qed.

(* one pass of the machine, with or without the fast path *)
Lemma onestep_ok b p st : Inv p (s_core st) -> words_ok (l_next st) -> out_ok p st (onestep b p st).
Proof.
  intros HI HW. destruct b; [|apply onestep_slow_ok; assumption].
  destruct p as [s| |]; try (change (onestep true ?p st) with (onestep false p st); apply onestep_slow_ok; assumption).
  (* P_GROUP *)
  rewrite onestep_after. cbn [step]. unfold group_head.
  pose proof (onestep_slow_ok P_GROUP st HI HW) as SL. pose proof (sstep_ok P_GROUP (s_core st) HI) as SO.
  destruct HI as (_ & HB & Hw). cbn [wlo] in Hw.
  rewrite onestep_false, sstep_group in SL. rewrite sstep_group in SO.
  destruct (group_select (s_core st)) as [c1|r] eqn:EG; cbn [andb fst snd] in *.
  2:{ rewrite with_next_id. exact SL. }
  destruct (fast_path_words <=? N.of_nat (length (l_next st))) eqn:E32; [|cbn [fst snd]; rewrite with_next_id; exact SL].
  destruct (group_select_vw _ _ EG) as (Ev & Ew).
  unfold slow_head in SO. change (r_j (set_r_j c1 0)) with 0 in SO. change (0 <? GROUP_SIZE) with true in SO.
  cbn iota in SO. cbn [bres_ok] in SO. destruct SO as (HJ1 & _ & _).
  assert (HTn : nth_error (r_tree c1) (N.to_nat (r_t c1)) = Some (nth (N.to_nat (r_t c1)) (r_tree c1) garbage_tree)).
  { destruct HJ1 as ([] & HR); try contradiction. destruct HR as (o & (((_ & _ & _ & L & _) & _) & _ & _ & Ht & _) & _).
    apply nth_error_nth'. change (r_tree c1) with (r_tree (set_r_j c1 0)). change (r_t c1) with (r_t (set_r_j c1 0)). lia. }
  rewrite HTn. cbn [ofO].
  assert (HS : sh_ok (slow_head (cS c1 (r_run c1) (r_runChar c1) (r_shift c1) 0))).
  { rewrite cS_self_j. unfold slow_head. change (r_j (set_r_j c1 0)) with 0. change (0 <? GROUP_SIZE) with true. exact HJ1. }
  apply N.leb_le in E32.
  pose proof fast_path_words_enough as FPW. change (GROUP_SIZE * MAX_CODE_LENGTH) with 1000 in FPW.
  pose proof (fast_loop_ok (N.to_nat GROUP_SIZE) _ c1 (l_next st) (r_run c1) (r_runChar c1) (r_shift c1) 0
                ltac:(reflexivity) HTn HS (buf_ok_frame _ _ Ev Ew HB) HW
                ltac:(unfold bitsleft; change (N.of_nat (N.to_nat GROUP_SIZE)) with 50; lia) ltac:(lia)) as F.
  destruct (fast_loop (N.to_nat GROUP_SIZE) _ c1 (l_next st) (r_run c1) (r_runChar c1) (r_shift c1))
    as [[[[]| |] cc| [] cc| | |] nx']; cbn [fst snd after out_ok]; try contradiction; auto.
  - destruct F as (J' & B' & W' & HW' & Hb). cbn [s_core with_core with_next l_next].
    split; [unfold Inv; cbn [wlo]; auto|]. split; [exact HW'|].
    unfold phi, sigma. change (N.of_nat (N.to_nat GROUP_SIZE)) with 50 in Hb. unfold bitsleft in *. rewrite Ew in Hb. lia.
  - apply finish_ok.
Qed.

(* a run from a state in the invariant, with fuel above the measure [phi], ends without a fault *)
Lemma run_from_ok b : forall fuel p st, Inv p (s_core st) -> words_ok (l_next st) ->
  phi p (s_core st) (l_next st) < N.of_nat fuel -> final_ok (run_from b fuel p st).
Proof.
  induction fuel as [|fuel IH]; intros p st HI HW Hphi; [lia|].
  rewrite run_from_S. pose proof (onestep_ok b p st HI HW) as O.
  destruct (onestep b p st) as [p' st'|r]; cbn [cont out_ok] in *.
  - destruct O as (HI' & HW' & Hd). apply IH; auto. lia.
  - exact O.
Qed.

(* a fresh decoder state: decoder_init() and the bit stream as the parser/scanner leaves it *)
Definition init_ok (st : rstate) : Prop :=
  s_state st = S_INIT /\ shape (s_core st) /\ c_tt (s_core st) = [] /\ d_block_size st = 0 /\
  b_live st <= 63 /\ (exists q, q < 2 ^ b_live st /\ b_buff st = q * 2 ^ (64 - b_live st)).

Definition CallInv (st : rstate) : Prop := init_ok st \/ MoreInv st.

Lemma call_fuel_enough p c nx bl : 4 * (c_w c + 32 * N.of_nat (length nx)) <= 4 * bl ->
  phi p c nx < N.of_nat (N.to_nat (4 * bl + 8)).
Proof. intro H. rewrite N2Nat.id. unfold phi, bitsleft, sigma. destruct p as [[]| |]; lia. Qed.

(* RESTORE() at the first call *)
Lemma init_restore st : init_ok st ->
  J_bwt (s_core (restore st)) /\ buf_ok (s_core (restore st)) /\ c_w (s_core (restore st)) = b_live st /\
  l_next (restore st) = b_data st.
Proof.
  intros (_ & Hsh & Htt & Hbs & Hl & q & Hq & Hb). destruct st as [c nx ss bl bb bd be bs].
  cbn [restore s_core with_next with_core l_next b_live b_buff b_data d_block_size] in *.
  split; [split; [exact Hsh|split; [exact Hbs|exact Htt]]|]. split; [exists q; split; [exact Hl|split; [exact Hq|exact Hb]]|].
  split; reflexivity.
Qed.

Lemma retrieve_ok b st : CallInv st -> words_ok (b_data st) ->
  (b_data st <> [] \/ b_eof st = true \/ s_state st = S_INIT) ->
  final_ok (retrieve_gen b st).
Proof.
  intros HC HW HD. unfold retrieve_gen. rewrite retrieve_f_enter. unfold enter.
  destruct HC as [(Hs & Hsh & Htt & Hbs & Hl & q & Hq & Hb)|(s & Hs & HJ & HB & Hw & El & Eb & Ed)].
  - (* first call *)
    cbn [restore with_next with_core s_state]. rewrite Hs. cbn [N.eqb].
    change (S_INIT =? S_INIT) with true. cbn iota.
    destruct (init_restore st (conj Hs (conj Hsh (conj Htt (conj Hbs (conj Hl (ex_intro _ q (conj Hq Hb))))))))
      as (J1 & B1 & Ew & En).
    pose proof (need_ok S_bwt_idx (restore st) (ex_intro _ ABwt J1) B1 ltac:(rewrite En; exact HW)) as N.
    destruct (need_at S_bwt_idx (restore st)) as [st'|r]; [|exact N].
    destruct N as (HI & HW' & Hbits).
    apply run_from_ok; auto. unfold call_fuel. apply call_fuel_enough.
    unfold bitsleft in Hbits. rewrite Hbits, Ew, En. lia.
  - (* resumed call *)
    cbn [restore with_next with_core s_state]. rewrite Hs, state_no_not_init, site_of_state_no.
    cbn [b_data with_next with_core b_eof restore].
    destruct (b_data st) as [|x r] eqn:ED.
    + destruct HD as [HD|[HD|HD]]; [congruence| |rewrite Hs in HD; destruct s; discriminate].
      rewrite HD. exact I.
    + cbn [s_core with_next with_core b_live b_buff d_block_size restore].
      rewrite El, Eb, Ed, !restore_save_core.
      destruct (N.ltb_spec (c_w (s_core st)) 32) as [_|Hge]; [|lia].
      inversion HW as [|? ? Hx Hr]; subst. destruct HJ as (a & HR).
      destruct (load_Rel (After s) _ a x HR HB Hw Hx) as (c' & -> & R' & B' & Ew & _).
      apply run_from_ok; cbn [s_core with_next with_core l_next].
      * split; [exists a; exact R'|]. split; [exact B'|]. rewrite Ew. destruct s; cbn [wlo]; lia.
      * exact Hr.
      * unfold call_fuel. apply call_fuel_enough. rewrite ED, El, Ew. cbn [length]. lia.
Qed.

(* [retr_chunks]: attaching the next chunk keeps the invariant of a call *)
Lemma CallInv_attach st ch : CallInv st -> CallInv (attach st ch).
Proof. destruct st. exact (fun H => H). Qed.
Lemma CallInv_attach_eof st : CallInv st -> CallInv (attach_eof st).
Proof. destruct st. exact (fun H => H). Qed.

Lemma eof_call_more b st : MoreInv st -> exists st', retrieve_gen b (attach_eof st) = RErr E_ERR_EOF st'.
Proof.
  intros (s & Hs & HJ & HB & Hw & El & Eb & Ed). unfold retrieve_gen. rewrite retrieve_f_enter. unfold enter.
  cbn [restore attach_eof with_next with_core s_state b_data b_eof b_live]. rewrite Hs, state_no_not_init, site_of_state_no.
  rewrite El. apply N.ltb_lt in Hw. rewrite Hw. eexists. reflexivity.
Qed.

Definition done_ok (r : cres) : Prop := match r with RFault _ => False | RMore _ => False | _ => True end.

Lemma retr_chunks_ok b : forall chunks st, CallInv st -> Forall words_ok chunks -> Forall (fun c => c <> []) chunks ->
  done_ok (fst (retr_chunks_f call_fuel b st chunks)).
Proof.
  induction chunks as [|ch rest IH]; intros st HC HW HN; cbn [retr_chunks_f].
  - fold (retrieve_gen b (attach_eof st)).
    assert (HD : b_data (attach_eof st) <> [] \/ b_eof (attach_eof st) = true \/ s_state (attach_eof st) = S_INIT).
    { destruct HC as [(Hs & _)|(s & Hs & HJ & HB & Hw & El & _)].
      - right. right. destruct st; exact Hs.
      - right. left. destruct st as [c nx ss bl bb bd be bs]. cbn in *. apply N.ltb_lt. lia. }
    pose proof (retrieve_ok b (attach_eof st) (CallInv_attach_eof st HC) ltac:(destruct st; constructor) HD) as R.
    destruct (retrieve_gen b (attach_eof st)) as [st'| | |]; cbn [fst final_ok done_ok] in *; auto.
    fold (retrieve_gen b (attach_eof st')). destruct (eof_call_more b st' R) as (st'' & ->). exact I.
  - fold (retrieve_gen b (attach st ch)).
    inversion HW as [|? ? Hw1 Hw2]; subst. inversion HN as [|? ? Hn1 Hn2]; subst.
    pose proof (retrieve_ok b (attach st ch) (CallInv_attach st ch HC) ltac:(destruct st; exact Hw1)
                  ltac:(left; destruct st; exact Hn1)) as R.
    destruct (retrieve_gen b (attach st ch)) as [st'| | |]; cbn [fst final_ok done_ok] in *; auto.
    apply IH; auto. right. exact R.
Qed.

(* SAFETY and TERMINATION: for any input words, cut into any non-empty chunks, retrieve() ends with OK or an
   error code: no out-of-bounds index, no shift by the width or more, no failing assert, no read past the chunk,
   and the fuel of the model is never the reason to stop *)
Theorem retr_safe st chunks : init_ok st -> Forall words_ok chunks -> Forall (fun c => c <> []) chunks ->
  match fst (retr_chunks st chunks) with
  | ROk _ => True
  | RErr _ _ => True
  | RMore _ => False
  | RFault _ => False
  end.
Proof.
  intros HI HW HN. pose proof (retr_chunks_ok true chunks st (or_introl HI) HW HN) as R.
  unfold retr_chunks. destruct (fst (retr_chunks_f call_fuel true st chunks)); auto.
Qed.

(* CHUNK INDEPENDENCE: the result depends only on the concatenation of the chunks *)
Theorem retr_chunk_indep st cs1 cs2 : init_ok st -> b_eof st = false ->
  Forall words_ok cs1 -> Forall (fun c => c <> []) cs1 -> Forall words_ok cs2 -> Forall (fun c => c <> []) cs2 ->
  concat cs1 = concat cs2 ->
  xsim (retr_chunks st cs1) (retr_chunks st cs2).
Proof.
  intros HI He W1 N1 W2 N2 Hc.
  pose proof (retr_chunks_ok true cs1 st (or_introl HI) W1 N1) as R1.
  pose proof (retr_chunks_ok true cs2 st (or_introl HI) W2 N2) as R2.
  assert (F1 : no_fault (fst (retr_chunks st cs1))).
  { intros f E. unfold retr_chunks in E. rewrite E in R1. exact R1. }
  assert (F2 : no_fault (fst (retr_chunks st cs2))).
  { intros f E. unfold retr_chunks in E. rewrite E in R2. exact R2. }
  assert (E1 : Eval true st cs1 (retr_chunks st cs1)) by (apply (retr_chunks_Eval call_fuel true cs1 st _ eq_refl); apply F1).
  assert (E2 : Eval true st cs2 (retr_chunks st cs2)) by (apply (retr_chunks_Eval call_fuel true cs2 st _ eq_refl); apply F2).
  exact (chunk_indep_nofault st cs1 cs2 _ _ N1 N2 Hc He E1 E2 F1 F2).
Qed.

Print Assumptions retr_safe.
Print Assumptions retr_chunk_indep.
