(* Refinement theorems for the queue primitives of src/process.h / src/process.c:
     deque_refines_list      the ring-buffer deque implements a list
     pqueue_refines_sorted   the binary heap implements a position-sorted list
   (the abstractions used by the scheduler models SchedC / SchedX), for every capacity
   1 <= n <= 2^31 and every state satisfying the representation invariant.
   The deque operations are proved in Safe/PoolDeque.v, up_heap()/down_heap() in Safe/PoolHeap.v, the rest here (the
   pqueue macros, the sorted-list abstraction, the packaged statements). *)
From Coq Require Import List NArith Arith Bool Lia ZifyBool ZifyN ZifyNat Permutation Sorted.
From LBZ Require Import Safe.PoolVocab Gen.PoolTab Safe.PoolModel Safe.PoolLemmas Safe.PoolDeque Safe.PoolHeap.
Import ListNotations.
Local Open Scope N_scope.

Definition nilb {T} (l : list T) : bool := match l with [] => true | _ => false end.

Section DequeThm.
  Context {A : Type}.
  Variable key : A -> pos.

  Theorem deque_init_refines n : 1 <= n <= UHALF ->
    exists s, dq_init key n = Good s /\ dq_inv s /\ abs_dq s = [] /\ f_modulus (q_f s) = n.
  Proof.
    intro H. destruct (dq_init_rep key n H) as (s & E & R & M). destruct (rep_inv key _ _ R). exists s. auto.
  Qed.

  Theorem deque_refines_list (s : qstate A) : dq_inv s ->
    let l := abs_dq s in
    let cap := f_modulus (q_f s) in
    N.of_nat (length l) <= cap /\
    q_size key s = Good (N.of_nat (length l)) /\
    q_empty key s = Good (nilb l) /\
    (forall i x, nth_error l i = Some x -> dq_get key s (N.of_nat i) = Good x) /\
    (forall i x, (i < length l)%nat ->
       exists s', dq_set key s (N.of_nat i) x = Good s' /\ dq_inv s' /\ abs_dq s' = lset l i x /\ f_modulus (q_f s') = cap) /\
    (forall x, N.of_nat (length l) < cap ->
       exists s', dq_push key s x = Good s' /\ dq_inv s' /\ abs_dq s' = l ++ [x] /\ f_modulus (q_f s') = cap) /\
    (forall x, N.of_nat (length l) < cap ->
       exists s', dq_unshift key s x = Good s' /\ dq_inv s' /\ abs_dq s' = x :: l /\ f_modulus (q_f s') = cap) /\
    (forall x r, l = x :: r ->
       exists s', dq_shift key s = Good (x, s') /\ dq_inv s' /\ abs_dq s' = r /\ f_modulus (q_f s') = cap) /\
    (forall r x, l = r ++ [x] ->
       exists s', dq_pop key s = Good (x, s') /\ dq_inv s' /\ abs_dq s' = r /\ f_modulus (q_f s') = cap).
  Proof.
    intros R l cap. unfold dq_inv in R. fold l in R.
    assert (Sz : f_size (q_f s) = N.of_nat (length l)) by apply (r_size _ _ R).
    split; [rewrite <- Sz; apply (r_cap _ _ R)|].
    split; [apply q_size_rep; auto|]. split; [apply q_empty_rep; auto|].
    split; [intros; eapply dq_get_rep; eauto|].
    split; [intros i x Hi; destruct (dq_set_rep key s l i x R Hi) as (s' & E & R' & M)|].
    { destruct (rep_inv key _ _ R'). exists s'. auto. }
    split; [intros x Hx; destruct (dq_push_rep key s l x R ltac:(rewrite Sz; exact Hx)) as (s' & E & R' & M)|].
    { destruct (rep_inv key _ _ R'). exists s'. auto. }
    split; [intros x Hx; destruct (dq_unshift_rep key s l x R ltac:(rewrite Sz; exact Hx)) as (s' & E & R' & M)|].
    { destruct (rep_inv key _ _ R'). exists s'. auto. }
    split.
    - intros x r El. rewrite El in R. destruct (dq_shift_rep key s x r R) as (s' & E & R' & M).
      destruct (rep_inv key _ _ R'). exists s'. auto.
    - intros r x El. rewrite El in R. destruct (dq_pop_rep key s r x R) as (s' & E & R' & M).
      destruct (rep_inv key _ _ R'). exists s'. auto.
  Qed.
End DequeThm.

Section PQ.
  Context {A : Type}.
  Variable key : A -> pos.

  Record pq_inv (s : qstate A) : Prop := mkpqinv {
    p_size : f_size (q_f s) <= alen (q_arr s);
    p_cap : alen (q_arr s) <= UHALF;
    p_filled : filled (q_arr s) (f_size (q_f s));
    p_heap : heap_ord key (q_arr s) (f_size (q_f s))
  }.

  (* the heap content: cells [0, size) *)
  Definition pq_elems (s : qstate A) : list A := somes (firstn (N.to_nat (f_size (q_f s))) (q_arr s)).

  (* the abstraction used by SchedC/Pool.v: the elements in increasing position order,
     insertion AFTER equal keys *)
  Fixpoint pq_insert (x : A) (q : list A) : list A :=
    match q with
    | [] => [x]
    | y :: t => if pos_lt (key x) (key y) then x :: y :: t else y :: pq_insert x t
    end.
  Definition isort (l : list A) : list A := fold_right pq_insert [] l.
  Definition abs_pq (s : qstate A) : list A := isort (pq_elems s).

  Definition sorted (l : list A) : Prop := StronglySorted (lea key) l.

  (* ordered insertion [pq_insert] keeps the elements and the order *)
  Lemma pq_insert_perm x q : Permutation (pq_insert x q) (x :: q).
  Proof.
    induction q as [|y q IH]; cbn; auto. destruct (pos_lt (key x) (key y)); auto.
    rewrite IH. apply perm_swap.
  Qed.

  Lemma pq_insert_sorted x q : sorted q -> sorted (pq_insert x q).
  Proof.
    unfold sorted. induction q as [|y q IH]; cbn; intros S.
    - repeat constructor.
    - inversion S as [|? ? S1 S2]; subst. destruct (pos_lt (key x) (key y)) eqn:E.
      + constructor; auto. constructor.
        * apply plt_ple. exact E.
        * rewrite Forall_forall in *. intros z Hz. eapply plt_ple_trans; [exact E|]. apply S2; auto.
      + constructor; auto. rewrite Forall_forall in *. intros z Hz.
        apply (Permutation_in _ (pq_insert_perm x q)) in Hz. destruct Hz as [<-|Hz]; [exact E|auto].
  Qed.

  Lemma isort_perm l : Permutation (isort l) l.
  Proof. induction l as [|x l IH]; cbn; auto. rewrite pq_insert_perm. auto. Qed.

  Lemma isort_sorted l : sorted (isort l).
  Proof. induction l as [|x l IH]; cbn; [constructor|apply pq_insert_sorted; auto]. Qed.

  Lemma nodup_key_inj l x y : NoDup (map key l) -> In x l -> In y l -> key x = key y -> x = y.
  Proof.
    induction l as [|z l IH]; cbn; intros ND Hx Hy E; [tauto|]. inversion ND as [|? ? Nin ND']; subst.
    destruct Hx as [->|Hx], Hy as [->|Hy]; auto.
    - exfalso. apply Nin. rewrite E. apply in_map; auto.
    - exfalso. apply Nin. rewrite <- E. apply in_map; auto.
  Qed.

  (* with pairwise distinct keys the sorted arrangement is unique *)
  Lemma sorted_perm_eq l1 : forall l2, sorted l1 -> sorted l2 -> Permutation l1 l2 -> NoDup (map key l1) -> l1 = l2.
  Proof.
    unfold sorted. induction l1 as [|x l1 IH]; intros l2 S1 S2 P ND.
    - apply Permutation_nil in P. auto.
    - destruct l2 as [|y l2]; [apply Permutation_sym, Permutation_nil in P; discriminate|].
      inversion S1 as [|? ? S1' F1]; inversion S2 as [|? ? S2' F2]; subst. rewrite Forall_forall in F1, F2.
      assert (x = y).
      { assert (Iy : In y (x :: l1)) by (apply (Permutation_in _ (Permutation_sym P)); left; auto).
        assert (Ix : In x (y :: l2)) by (apply (Permutation_in _ P); left; auto).
        destruct Iy as [|Iy]; auto. destruct Ix as [|Ix]; auto.
        apply (nodup_key_inj (x :: l1)); auto; [left; auto|right; auto|].
        apply ple_antisym; [apply (F1 y Iy)|apply (F2 x Ix)]. }
      subst y. f_equal. apply IH; auto.
      + eapply Permutation_cons_inv; eauto.
      + inversion ND; auto.
  Qed.

  Lemma sorted_cons_min m l : sorted l -> (forall y, In y l -> lea key m y) -> sorted (m :: l).
  Proof. intros S H. constructor; auto. apply Forall_forall. auto. Qed.

  (* content of a filled prefix *)
  Lemma somes_firstn_length (a : arr A) n : filled a n -> length (somes (firstn (N.to_nat n) a)) = N.to_nat n.
  Proof.
    intros F. assert (G : forall k, (k < N.to_nat n)%nat -> exists x, nth_error a k = Some (Some x)).
    { intros k Hk. destruct (F (N.of_nat k) ltac:(lia)) as [x Hx]. unfold cell in Hx. rewrite Nat2N.id in Hx. eauto. }
    revert G. generalize (N.to_nat n). clear F n. intro n. revert a.
    induction n as [|n IH]; intros a G; [reflexivity|].
    destruct (G 0%nat ltac:(lia)) as [x Hx]. destruct a as [|c a]; [discriminate|]. cbn in Hx. inversion Hx; subst c.
    cbn [firstn somes length]. f_equal. apply IH. intros k Hk. apply (G (S k)). lia.
  Qed.

  (* heap order puts a minimum at the root *)
  Lemma heap_root_min (a : arr A) n m : filled a n -> heap_ord key a n -> cell a 0 = Some (Some m) ->
    forall i y, i < n -> cell a i = Some (Some y) -> lea key m y.
  Proof.
    intros F H Hm i. induction i as [i IH] using (well_founded_induction N.lt_wf_0). intros y Hi Hy.
    destruct (N.eq_dec i 0) as [->|Ne].
    - assert (y = m) by congruence. subst. apply ple_refl.
    - destruct (hp_child i ltac:(lia)) as [Ch Hlt]. destruct (F (hp i) ltac:(lia)) as [z Hz].
      eapply ple_trans; [apply (IH (hp i) Hlt z ltac:(lia) Hz)|]. apply (H (hp i) i z y); auto.
  Qed.

  (* the pqueue macros: init, size, enqueue, peek, dequeue *)
  Theorem pq_init_spec n : n <= UHALF ->
    exists s, pq_init key n = Good s /\ pq_inv s /\ pq_elems s = [] /\ alen (q_arr s) = n.
  Proof.
    intros Hn. unfold pq_init, pq_init_prog, q0. qstep. unfold pq_init_0, pq_init_1. qstep.
    eexists; split; [reflexivity|]. split; [|split]; cbn [q_f q_arr f_size].
    - constructor; cbn [q_f q_arr f_size]; unfold alen; try rewrite repeat_length; try lia.
      + intros i Hi. lia.
      + intros i c x y Hc. lia.
    - reflexivity.
    - unfold alen. rewrite repeat_length. lia.
  Qed.

  Theorem pq_size_spec s : pq_inv s ->
    q_size key s = Good (N.of_nat (length (pq_elems s))) /\ q_empty key s = Good (nilb (pq_elems s)).
  Proof.
    intros I. pose proof (somes_firstn_length _ _ (p_filled _ I)) as L. fold (pq_elems s) in L.
    unfold q_size, q_size_prog, q_empty, q_empty_prog. qstep. unfold q_size_0, q_empty_0. split.
    - f_equal. lia.
    - f_equal. destruct (pq_elems s); cbn [length nilb] in *; lia.
  Qed.

  Theorem pq_enqueue_spec s x : pq_inv s -> f_size (q_f s) < alen (q_arr s) ->
    exists s', pq_enqueue key s x = Good s' /\ pq_inv s' /\ alen (q_arr s') = alen (q_arr s) /\
      f_size (q_f s') = f_size (q_f s) + 1 /\ Permutation (pq_elems s') (x :: pq_elems s).
  Proof.
    destruct s as [[sz m h] a]. intros [I1 I2 I3 I4] Hf. unfold pq_elems. cbn [q_f q_arr f_size] in *.
    unfold pq_enqueue, pq_enqueue_prog. qstep.
    unfold pq_enqueue_0 at 1. cbn [f_size]. rewrite wr_ok by auto. qstep.
    unfold pq_enqueue_1 at 1. cbn [f_size].
    set (a1 := upd a (N.to_nat sz) (Some x)).
    assert (L1 : alen a1 = alen a) by apply alen_upd.
    assert (F1 : filled a1 (sz + 1)).
    { intros i Hi. destruct (N.eq_dec i sz) as [->|Ne].
      - exists x. apply cell_upd_eq; auto.
      - unfold a1. rewrite cell_upd_neq by auto. apply I3. lia. }
    assert (H1 : heap_ord key a1 sz).
    { intros i c y z Hc Hch Hi Hcc. destruct (child_hp _ _ Hch) as (_ & _ & Hl).
      unfold a1 in Hi, Hcc. rewrite cell_upd_neq in Hi by lia. rewrite cell_upd_neq in Hcc by lia. apply (I4 i c y z); auto. }
    destruct (up_heap_spec key a1 sz ltac:(lia) ltac:(lia) F1 H1) as (a' & E & La & P & S & F' & H').
    rewrite E. qstep. unfold pq_enqueue_2. cbn [f_size].
    replace (uadd sz 1) with (sz + 1) by (unfold uadd, UMOD, UHALF in *; lia).
    eexists; split; [reflexivity|]. cbn [q_f q_arr f_size]. split; [|split; [|split]]; try lia.
    - constructor; cbn [q_f q_arr f_size]; auto; lia.
    - assert (C : cell a1 sz = Some (Some x)) by (apply cell_upd_eq; auto).
      rewrite (elems_frame _ _ _ P S), (elems_snoc _ _ _ C). unfold a1. rewrite firstn_upd_ge by lia. reflexivity.
  Qed.

  Theorem pq_peek_spec s : pq_inv s -> 0 < f_size (q_f s) ->
    exists m, pq_peek key s = Good m /\ cell (q_arr s) 0 = Some (Some m) /\ In m (pq_elems s) /\
      forall y, In y (pq_elems s) -> pos_lt (key y) (key m) = false.
  Proof.
    intros [I1 I2 I3 I4] Hs. destruct (I3 0 Hs) as [m Hm]. exists m.
    unfold pq_peek, pq_peek_prog. qstep. unfold pq_peek_0. rewrite (rd_cell _ _ _ Hm). qstep.
    split; auto. split; auto. unfold pq_elems. split.
    - apply in_somes_firstn. exists 0; auto.
    - intros y Hy. apply in_somes_firstn in Hy. destruct Hy as (i & Hi & Hy).
      apply (heap_root_min _ _ m I3 I4 Hm i y Hi Hy).
  Qed.

  Theorem pq_dequeue_spec s : pq_inv s -> 0 < f_size (q_f s) ->
    exists m s', pq_dequeue key s = Good (m, s') /\ pq_peek key s = Good m /\ pq_inv s' /\
      alen (q_arr s') = alen (q_arr s) /\ f_size (q_f s') = f_size (q_f s) - 1 /\
      Permutation (pq_elems s) (m :: pq_elems s').
  Proof.
    intros I Hs. destruct (pq_peek_spec s I Hs) as (m & Epk & Hm & _). exists m.
    destruct s as [[sz mo h] a]. destruct I as [I1 I2 I3 I4]. unfold pq_elems. cbn [q_f q_arr f_size] in *.
    unfold pq_dequeue, pq_dequeue_prog. qstep.
    unfold pq_dequeue_0. cbn [f_size].
    replace (usub sz 1) with (sz - 1) by (unfold usub, UMOD, UHALF in *; lia).
    unfold pq_dequeue_1 at 1. cbn [f_size].
    set (n := sz - 1). assert (En : sz = n + 1) by lia.
    rewrite En in I3, I4.
    destruct (down_heap_spec key a n ltac:(lia) I2 I3 I4) as (a' & E & La & P & S & C & F' & H').
    rewrite E. qstep. unfold pq_dequeue_2. cbn [f_size].
    rewrite Hm in C. rewrite (rd_cell _ _ _ C). qstep.
    eexists; split; [reflexivity|]. cbn [q_f q_arr f_size]. split; auto. split; [|split; [|split]]; try lia.
    - constructor; cbn [q_f q_arr f_size]; auto; try lia. intros i Hi. apply F'. lia.
    - rewrite En, <- (elems_frame _ _ _ P S). apply elems_snoc, C.
  Qed.

  (* the binary heap implements a position-sorted list *)
  Theorem pqueue_refines_sorted (s : qstate A) : pq_inv s ->
    let l := abs_pq s in
    let cap := alen (q_arr s) in
    StronglySorted (fun x y => pos_lt (key y) (key x) = false) l /\
    Permutation l (pq_elems s) /\
    N.of_nat (length l) <= cap /\
    q_size key s = Good (N.of_nat (length l)) /\
    q_empty key s = Good (nilb l) /\
    (* enqueue on a non-full queue: ordered insertion *)
    (forall x, N.of_nat (length l) < cap ->
       exists s', pq_enqueue key s x = Good s' /\ pq_inv s' /\ alen (q_arr s') = cap /\
         Permutation (abs_pq s') (x :: l) /\
         (NoDup (map key (x :: l)) -> abs_pq s' = pq_insert x l)) /\
    (* peek / dequeue on a non-empty queue: a minimum w.r.t. pos_lt, any one among equal keys *)
    (l <> [] ->
       exists m s', pq_peek key s = Good m /\ pq_dequeue key s = Good (m, s') /\ pq_inv s' /\ alen (q_arr s') = cap /\
         In m l /\ (forall y, In y l -> pos_lt (key y) (key m) = false) /\
         Permutation l (m :: abs_pq s') /\
         (NoDup (map key l) -> l = m :: abs_pq s')).
  Proof.
    intros I l cap.
    assert (Pl : Permutation l (pq_elems s)) by apply isort_perm.
    assert (Sl : sorted l) by apply isort_sorted.
    destruct (pq_size_spec s I) as [Esz Eem].
    assert (Ll : length l = length (pq_elems s)) by (apply Permutation_length; auto).
    assert (Sz : f_size (q_f s) = N.of_nat (length l)).
    { rewrite Ll. pose proof (somes_firstn_length _ _ (p_filled _ I)) as L. fold (pq_elems s) in L. lia. }
    split; [exact Sl|]. split; [exact Pl|]. split; [rewrite <- Sz; apply (p_size _ I)|].
    split; [rewrite Ll; exact Esz|]. split.
    { rewrite Eem. f_equal. destruct l, (pq_elems s); cbn in *; auto; discriminate. }
    split.
    - intros x Hx. destruct (pq_enqueue_spec s x I ltac:(rewrite Sz; exact Hx)) as (s' & E & I' & La & Lz & P).
      exists s'. split; auto. split; auto. split; auto.
      assert (P' : Permutation (abs_pq s') (x :: l)).
      { unfold abs_pq at 1. rewrite isort_perm. rewrite P. constructor. symmetry. exact Pl. }
      split; auto. intros ND. symmetry. apply sorted_perm_eq.
      + apply pq_insert_sorted; auto.
      + apply isort_sorted.
      + rewrite pq_insert_perm. symmetry. exact P'.
      + eapply Permutation_NoDup; [|exact ND]. apply Permutation_map. symmetry. apply pq_insert_perm.
    - intros Hne. assert (Hs : 0 < f_size (q_f s)) by (rewrite Sz; destruct l; [congruence|cbn [length]; lia]).
      destruct (pq_dequeue_spec s I Hs) as (m & s' & E & Epk & I' & La & Lz & P).
      destruct (pq_peek_spec s I Hs) as (m' & Epk' & _ & Hin & Hmin). assert (m' = m) by congruence. subst m'.
      exists m, s'. split; auto. split; auto. split; auto. split; auto.
      assert (Hin' : In m l) by (apply (Permutation_in _ (Permutation_sym Pl)); auto).
      assert (Hmin' : forall y, In y l -> pos_lt (key y) (key m) = false).
      { intros y Hy. apply Hmin. apply (Permutation_in _ Pl); auto. }
      assert (P' : Permutation l (m :: abs_pq s')).
      { rewrite Pl, P. constructor. symmetry. apply isort_perm. }
      split; auto. split; auto. split; auto.
      intros ND. apply sorted_perm_eq; auto.
      apply sorted_cons_min; [apply isort_sorted|].
      intros y Hy. apply Hmin'. apply (Permutation_in _ (Permutation_sym P')). right; auto.
  Qed.
End PQ.
