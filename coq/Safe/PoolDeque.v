(* Refinement proof for the ring-buffer deque: the array-level model of Safe/PoolModel.v
   (interpreting the macro bodies regenerated into Gen/PoolTab.v) implements a list.

   [dq_rep s l]: state s represents list l: the array has [modulus] cells,
   1 <= modulus <= 2^31, head < modulus, size = length l <= modulus and element number i of l
   sits in cell (head + 1 + i) mod modulus ([head] is the cell BEFORE the first element).
   Every index fact is proved about the regenerated expression (dq_push_2, dq_unshift_3 ...),
   by unfolding it and doing the unsigned arithmetic: a changed macro breaks these lemmas. *)
From Coq Require Import List NArith Arith Bool Lia ZifyBool ZifyN ZifyNat.
From LBZ Require Import Safe.PoolVocab Gen.PoolTab Safe.PoolModel Safe.PoolLemmas.
Import ListNotations.
Local Open Scope N_scope.

(* (h + k) mod m for h < m, k <= m *)
Definition widx (m h k : N) : N := if h + k <? m then h + k else h + k - m.

Ltac qstep :=
  cbn [run_macro run_ops run_op q_f q_arr f_size f_modulus f_head qf_set bind fst snd
       want_unit want_elt want_num want_bool].

Section Deque.
  Context {A : Type}.
  Variable key : A -> pos.      (* irrelevant for the deque: its macros never call the heap functions *)

  Record dq_rep (s : qstate A) (l : list A) : Prop := mkrep {
    r_len : alen (q_arr s) = f_modulus (q_f s);
    r_mod : 1 <= f_modulus (q_f s) <= UHALF;
    r_head : f_head (q_f s) < f_modulus (q_f s);
    r_size : f_size (q_f s) = N.of_nat (length l);
    r_cap : f_size (q_f s) <= f_modulus (q_f s);
    r_cells : forall i x, nth_error l i = Some x ->
      cell (q_arr s) (widx (f_modulus (q_f s)) (f_head (q_f s)) (N.of_nat i + 1)) = Some (Some x)
  }.

  (* the abstraction function: [size] cells starting after [head], wrapping at [modulus] *)
  Fixpoint abs_cells (a : arr A) (m h k : N) (n : nat) : list A :=
    match n with
    | O => []
    | S n' => match cell a (widx m h (k + 1)) with
              | Some (Some x) => x :: abs_cells a m h (k + 1) n'
              | _ => []
              end
    end.

  Definition abs_dq (s : qstate A) : list A :=
    abs_cells (q_arr s) (f_modulus (q_f s)) (f_head (q_f s)) 0 (N.to_nat (f_size (q_f s))).

  (* representation invariant: the state represents what the abstraction function reads *)
  Definition dq_inv (s : qstate A) : Prop := dq_rep s (abs_dq s).

  Lemma abs_cells_spec a m h l : forall k,
    (forall i x, nth_error l i = Some x -> cell a (widx m h (k + N.of_nat i + 1)) = Some (Some x)) ->
    abs_cells a m h k (length l) = l.
  Proof.
    induction l as [|x l IH]; intros k H; cbn [abs_cells length]; auto.
    pose proof (H 0%nat x eq_refl) as H0. replace (k + N.of_nat 0 + 1) with (k + 1) in H0 by lia. rewrite H0.
    f_equal. apply IH. intros i y Hi. specialize (H (S i) y Hi). replace (k + 1 + N.of_nat i + 1) with (k + N.of_nat (S i) + 1) by lia. auto.
  Qed.

  Lemma rep_abs s l : dq_rep s l -> abs_dq s = l.
  Proof.
    intros R. unfold abs_dq. rewrite (r_size _ _ R). rewrite Nat2N.id. apply abs_cells_spec.
    intros i x Hi. replace (0 + N.of_nat i + 1) with (N.of_nat i + 1) by lia. apply (r_cells _ _ R); auto.
  Qed.

  Lemma rep_inv s l : dq_rep s l -> dq_inv s /\ abs_dq s = l.
  Proof. intro R. unfold dq_inv. rewrite (rep_abs _ _ R). auto. Qed.

  Lemma cell_repeat_none n i : cell (repeat (@None A) n) i = Some None \/ cell (repeat (@None A) n) i = None.
  Proof.
    unfold cell. generalize (N.to_nat i). clear i. induction n as [|n IH]; intros [|i]; cbn; auto.
  Qed.

  Theorem dq_init_rep n : 1 <= n <= UHALF -> exists s, dq_init key n = Good s /\ dq_rep s [] /\ f_modulus (q_f s) = n.
  Proof.
    intros Hn. unfold dq_init, dq_init_prog, q0. qstep.
    unfold dq_init_0, dq_init_1, dq_init_2, dq_init_3. qstep.
    eexists; split; [reflexivity|]. split; [|reflexivity]. constructor; cbn [q_f q_arr f_size f_modulus f_head length]; try lia.
    - unfold alen. rewrite repeat_length. lia.
    - intros [|i] x; discriminate.
  Qed.

  (* size and emptiness are those of the list *)
  Theorem q_size_rep s l : dq_rep s l -> q_size key s = Good (N.of_nat (length l)).
  Proof. intros R. unfold q_size, q_size_prog. qstep. unfold q_size_0. rewrite (r_size _ _ R). auto. Qed.

  Theorem q_empty_rep s l : dq_rep s l -> q_empty key s = Good (match l with [] => true | _ => false end).
  Proof.
    intros R. unfold q_empty, q_empty_prog. qstep. unfold q_empty_0. rewrite (r_size _ _ R).
    destruct l; cbn [length]; f_equal; lia.
  Qed.

  (* push: the element goes into the cell behind the last one, (head + size + 1) mod modulus *)
  Lemma push_ix sz m h : 1 <= m <= UHALF -> h < m -> sz < m ->
    dq_push_2 (mkqf (dq_push_1 (mkqf sz m h) 0) m h) 0 = widx m h (sz + 1) /\ dq_push_1 (mkqf sz m h) 0 = sz + 1.
  Proof.
    intros. pose proof UMOD_UHALF. unfold dq_push_2, dq_push_1. cbn [f_size f_modulus f_head].
    rewrite (uadd_small sz), (uadd_small h), uwrap by lia. split; reflexivity.
  Qed.

  Theorem dq_push_rep s l x : dq_rep s l -> f_size (q_f s) < f_modulus (q_f s) ->
    exists s', dq_push key s x = Good s' /\ dq_rep s' (l ++ [x]) /\ f_modulus (q_f s') = f_modulus (q_f s).
  Proof.
    destruct s as [[sz m h] a]. intros [R1 R2 R3 R4 R5 R6] Hf. cbn [q_f q_arr f_size f_modulus f_head] in *.
    unfold dq_push, dq_push_prog. qstep.
    assert (E0 : dq_push_0 (mkqf sz m h) 0 = true) by (unfold dq_push_0; cbn [f_size f_modulus]; lia). rewrite E0. qstep.
    destruct (push_ix sz m h R2 R3 Hf) as [E2 E1]. rewrite E2, E1.
    assert (W : widx m h (sz + 1) < alen a) by (rewrite R1; unfold widx; ncases; lia).
    rewrite (wr_ok _ _ _ W). qstep. eexists; split; [reflexivity|]. split; [|reflexivity].
    constructor; cbn [q_f q_arr f_size f_modulus f_head]; try lia.
    - rewrite alen_upd; auto.
    - rewrite app_length; cbn [length]; lia.
    - intros i y Hi. destruct (Nat.lt_ge_cases i (length l)) as [Lt|Ge].
      + rewrite nth_error_app1 in Hi by auto. rewrite cell_upd_neq; [apply R6; auto|].
        unfold widx; ncases; lia.
      + rewrite nth_error_app2 in Hi by auto. destruct (i - length l)%nat as [|k] eqn:Ek; [|destruct k; discriminate].
        cbn in Hi. inversion Hi; subst y. replace (N.of_nat i + 1) with (sz + 1) by lia. apply cell_upd_eq; auto.
  Qed.

  (* shift: the first element is in cell (head + 1) mod modulus, which becomes the new head *)
  Lemma shift_ix sz m h : 1 <= m <= UHALF -> h < m -> 0 < sz <= m ->
    dq_shift_2 (mkqf (dq_shift_1 (mkqf sz m h) 0) m h) 0 = widx m h 1 /\ dq_shift_1 (mkqf sz m h) 0 = sz - 1.
  Proof.
    intros. pose proof UMOD_UHALF. unfold dq_shift_2, dq_shift_1. cbn [f_size f_modulus f_head].
    rewrite (uadd_small h), uwrap, usub_small by lia. split; reflexivity.
  Qed.

  Theorem dq_shift_rep s x l : dq_rep s (x :: l) ->
    exists s', dq_shift key s = Good (x, s') /\ dq_rep s' l /\ f_modulus (q_f s') = f_modulus (q_f s).
  Proof.
    destruct s as [[sz m h] a]. intros [R1 R2 R3 R4 R5 R6]. cbn [q_f q_arr f_size f_modulus f_head length] in *.
    unfold dq_shift, dq_shift_prog. qstep.
    assert (E0 : dq_shift_0 (mkqf sz m h) 0 = true) by (unfold dq_shift_0; cbn [f_size]; lia). rewrite E0. qstep.
    destruct (shift_ix sz m h R2 R3 ltac:(lia)) as [E2 E1]. rewrite E2, E1.
    unfold dq_shift_3. cbn [f_head].
    pose proof (R6 0%nat x eq_refl) as C0. change (N.of_nat 0 + 1) with 1 in C0.
    rewrite (rd_cell _ _ _ C0). qstep. eexists; split; [reflexivity|]. split; [|reflexivity].
    constructor; cbn [q_f q_arr f_size f_modulus f_head]; try lia.
    - unfold widx; ncases; lia.
    - intros i y Hi. assert (N.of_nat i + 1 < sz) by (apply nth_error_Some_lt in Hi; lia).
      specialize (R6 (S i) y Hi). rewrite <- R6. f_equal. unfold widx; ncases; lia.
  Qed.

  (* unshift: the element goes into cell [head], the new head is head - 1, and
     modulus - 1 when head = 0 *)
  Lemma unshift_ix sz m h : 1 <= m <= UHALF -> h < m -> sz < m ->
    dq_unshift_3 (mkqf (dq_unshift_1 (mkqf sz m h) 0) m h) 0 = (if h =? 0 then m - 1 else h - 1)
    /\ dq_unshift_1 (mkqf sz m h) 0 = sz + 1.
  Proof.
    intros. unfold dq_unshift_3, dq_unshift_1. cbn [f_size f_modulus f_head].
    unfold uadd, usub, UMOD, UHALF in *. split; ncases; lia.
  Qed.

  Theorem dq_unshift_rep s l x : dq_rep s l -> f_size (q_f s) < f_modulus (q_f s) ->
    exists s', dq_unshift key s x = Good s' /\ dq_rep s' (x :: l) /\ f_modulus (q_f s') = f_modulus (q_f s).
  Proof.
    destruct s as [[sz m h] a]. intros [R1 R2 R3 R4 R5 R6] Hf. cbn [q_f q_arr f_size f_modulus f_head] in *.
    unfold dq_unshift, dq_unshift_prog. qstep.
    assert (E0 : dq_unshift_0 (mkqf sz m h) 0 = true) by (unfold dq_unshift_0; cbn [f_size f_modulus]; lia). rewrite E0. qstep.
    destruct (unshift_ix sz m h R2 R3 Hf) as [E3 E1].
    unfold dq_unshift_2 at 1. cbn [f_head].
    assert (W : h < alen a) by lia. rewrite (wr_ok _ _ _ W). qstep. rewrite E3, E1.
    eexists; split; [reflexivity|]. split; [|reflexivity].
    constructor; cbn [q_f q_arr f_size f_modulus f_head length]; try lia.
    - rewrite alen_upd; auto.
    - ncases; lia.
    - intros [|i] y Hi.
      + cbn in Hi. inversion Hi; subst y. change (N.of_nat 0 + 1) with 1.
        replace (widx m (if h =? 0 then m - 1 else h - 1) 1) with h by (unfold widx; ncases; lia).
        apply cell_upd_eq; auto.
      + cbn [nth_error] in Hi. pose proof (R6 i y Hi) as C.
        assert (N.of_nat i < sz) by (apply nth_error_Some_lt in Hi; lia).
        replace (widx m (if h =? 0 then m - 1 else h - 1) (N.of_nat (S i) + 1)) with (widx m h (N.of_nat i + 1))
          by (unfold widx; ncases; lia).
        rewrite cell_upd_neq; auto. unfold widx; ncases; lia.
  Qed.

  (* pop: the last element is in cell (head + size) mod modulus *)
  Lemma pop_ix sz m h : 1 <= m <= UHALF -> h < m -> 0 < sz <= m ->
    dq_pop_2 (mkqf (dq_pop_1 (mkqf sz m h) 0) m h) 0 = widx m h sz /\ dq_pop_1 (mkqf sz m h) 0 = sz - 1.
  Proof.
    intros. pose proof UMOD_UHALF. unfold dq_pop_2, dq_pop_1. cbn [f_size f_modulus f_head].
    rewrite usub_small, (uadd_small h), (uadd_small (h + _)), uwrap by lia.
    replace (h + (sz - 1) + 1) with (h + sz) by lia. split; reflexivity.
  Qed.

  Theorem dq_pop_rep s l x : dq_rep s (l ++ [x]) ->
    exists s', dq_pop key s = Good (x, s') /\ dq_rep s' l /\ f_modulus (q_f s') = f_modulus (q_f s).
  Proof.
    destruct s as [[sz m h] a]. intros [R1 R2 R3 R4 R5 R6]. cbn [q_f q_arr f_size f_modulus f_head] in *.
    rewrite app_length in R4. cbn [length] in R4.
    unfold dq_pop, dq_pop_prog. qstep.
    assert (E0 : dq_pop_0 (mkqf sz m h) 0 = true) by (unfold dq_pop_0; cbn [f_size]; lia). rewrite E0. qstep.
    destruct (pop_ix sz m h R2 R3 ltac:(lia)) as [E2 E1]. rewrite E2, E1.
    assert (C : cell a (widx m h sz) = Some (Some x)).
    { replace sz with (N.of_nat (length l) + 1) by lia. apply R6. rewrite nth_error_app2 by lia.
      rewrite Nat.sub_diag. reflexivity. }
    rewrite (rd_cell _ _ _ C). qstep. eexists; split; [reflexivity|]. split; [|reflexivity].
    constructor; cbn [q_f q_arr f_size f_modulus f_head]; try lia.
    intros i y Hi. apply R6. rewrite nth_error_app1; auto. apply nth_error_Some_lt in Hi; auto.
  Qed.

  (* dq_get / dq_set: element number i is in cell (head + 1 + i) mod modulus *)
  Lemma get_ix sz m h i : 1 <= m <= UHALF -> h < m -> i < sz <= m ->
    dq_get_1 (mkqf sz m h) i = widx m h (i + 1) /\ dq_set_1 (mkqf sz m h) i = widx m h (i + 1).
  Proof.
    intros. pose proof UMOD_UHALF. unfold dq_get_1, dq_set_1. cbn [f_size f_modulus f_head].
    rewrite (uadd_small h), (uadd_small (h + _)), uwrap, <- N.add_assoc by lia. split; reflexivity.
  Qed.

  Theorem dq_get_rep s l i x : dq_rep s l -> nth_error l i = Some x -> dq_get key s (N.of_nat i) = Good x.
  Proof.
    destruct s as [[sz m h] a]. intros [R1 R2 R3 R4 R5 R6] Hi. cbn [q_f q_arr f_size f_modulus f_head] in *.
    assert (L : N.of_nat i < sz) by (apply nth_error_Some_lt in Hi; lia).
    unfold dq_get, dq_get_prog. qstep.
    assert (E0 : dq_get_0 (mkqf sz m h) (N.of_nat i) = true) by (unfold dq_get_0; cbn [f_size]; lia). rewrite E0. qstep.
    destruct (get_ix sz m h (N.of_nat i) R2 R3 ltac:(lia)) as [E1 _]. rewrite E1.
    rewrite (rd_cell _ _ _ (R6 i x Hi)). qstep. reflexivity.
  Qed.

  Fixpoint lset (l : list A) (i : nat) (x : A) : list A :=
    match l, i with
    | [], _ => []
    | _ :: r, O => x :: r
    | y :: r, S i' => y :: lset r i' x
    end.

  Lemma lset_length l i x : length (lset l i x) = length l.
  Proof. revert i; induction l; intros [|i]; cbn; auto. Qed.

  Lemma lset_nth l i x k : (i < length l)%nat ->
    nth_error (lset l i x) k = if Nat.eqb k i then Some x else nth_error l k.
  Proof.
    revert i k; induction l as [|y l IH]; intros [|i] [|k]; cbn [lset nth_error Nat.eqb length]; intros; try lia; auto.
    apply IH. lia.
  Qed.

  Theorem dq_set_rep s l i x : dq_rep s l -> (i < length l)%nat ->
    exists s', dq_set key s (N.of_nat i) x = Good s' /\ dq_rep s' (lset l i x) /\ f_modulus (q_f s') = f_modulus (q_f s).
  Proof.
    destruct s as [[sz m h] a]. intros [R1 R2 R3 R4 R5 R6] Hi. cbn [q_f q_arr f_size f_modulus f_head] in *.
    unfold dq_set, dq_set_prog. qstep.
    assert (E0 : dq_set_0 (mkqf sz m h) (N.of_nat i) = true) by (unfold dq_set_0; cbn [f_size]; lia). rewrite E0. qstep.
    destruct (get_ix sz m h (N.of_nat i) R2 R3 ltac:(lia)) as [_ E1]. rewrite E1.
    assert (W : widx m h (N.of_nat i + 1) < alen a) by (rewrite R1; unfold widx; ncases; lia).
    rewrite (wr_ok _ _ _ W). qstep. eexists; split; [reflexivity|]. split; [|reflexivity].
    constructor; cbn [q_f q_arr f_size f_modulus f_head]; try lia.
    - rewrite alen_upd; auto.
    - rewrite lset_length; auto.
    - intros k y Hk. rewrite lset_nth in Hk by auto. destruct (Nat.eqb_spec k i) as [->|Ne].
      + inversion Hk; subst y. apply cell_upd_eq; auto.
      + assert (N.of_nat k < sz) by (apply nth_error_Some_lt in Hk; lia).
        rewrite cell_upd_neq; [apply R6; auto|]. unfold widx; ncases; lia.
  Qed.
End Deque.
