(* C05/C06/C08, retrieve(): the selector and code length blocks of the model (Safe/RetrModel.v): sel_head, tree_head
   (with init_groups) and delta_head (with make_tree).  Each block runs without a fault, keeps the invariant, and reads
   what Format.read_block reads: [blk_post] of Safe/RetrSpec.v.  The heads are inlined tails of one another
   (sel_head -> tree_head -> delta_head); the lemma about a head uses those about its tail, so delta_head comes first. *)
From Coq Require Import List NArith Arith Bool Lia ZifyBool ZifyNat ZifyN.
From LBZ Require Import Common.Bits Common.ListArr Gen.Consts Gen.DecTabs Dec.Prog Dec.Format Dec.Sim Dec.Policies
  Dec.Delta Safe.TreeModel Safe.TreeLemmas Safe.TreeProofs Safe.RetrModel Safe.RetrInv Safe.RetrSpec Safe.RetrWin.
From LBZ Require Safe.SlideModel Safe.SlideProofs.
Import ListNotations.
Local Open Scope N_scope.

Lemma skipn_length_lt {A} n (l : list A) m : (length l < m)%nat -> (n <= length l)%nat -> (length (skipn n l) < m - n)%nat.
Proof. intros H1 H2. rewrite skipn_length. lia. Qed.

(* what the header part of the invariant says, and what it reads *)
Lemma J_hdr_facts c flags : J_hdr c flags ->
  shape c /\ 3 <= r_alpha_size c <= 258 /\ 2 <= r_num_trees c <= 6 /\ 1 <= r_num_selectors c < 32768.
Proof.
  intros (((Hsh & _) & _) & Hf & _ & H1 & Ha & Hnt & Hns). pose proof (SlideProofs.used_from_length flags 0) as U.
  unfold SlideModel.used_of in *. change (2 ^ 15) with 32768 in Hns. split; [exact Hsh|]. lia.
Qed.

Definition hdr_reads (c : core) :=
  (length (r_selector c), length (r_code_len c), length (r_mtf c), length (r_tree c), r_slide c, d_ftab c, (c_ttp c, c_tt c),
   (d_rand c, d_bwt_idx c), (r_alpha_size c, r_num_trees c, r_num_selectors c)).

Lemma J_hdr_frame c c' flags : J_hdr c flags -> hdr_reads c' = hdr_reads c -> Forall tree_wf (r_tree c') -> J_hdr c' flags.
Proof.
  intros H E Hwf. unfold hdr_reads in E. injection E as E1 E2 E3 E4 E5 E6 E7 E8 E9 E10 E11 E12 E13.
  unfold J_hdr, J_big, J_bwt, shape, tt0, filled in *. rewrite E1, E2, E3, E4, E5, E6, E7, E8, E9, E10, E11, E12, E13.
  destruct H as ((((S1 & S2 & S3 & S4 & S5 & S6 & S7) & T) & R) & F). repeat split; try tauto.
Qed.

Lemma R_hdr_frame c c' h flags : R_hdr c h flags -> J_hdr c' flags -> hdr_reads c' = hdr_reads c -> R_hdr c' h flags.
Proof.
  intros (_ & H1 & H2 & H3 & H4 & H5) HJ E. unfold hdr_reads in E. injection E as _ _ _ _ _ _ _ _ E1 E2 _ E3 E4.
  unfold R_hdr. rewrite E1, E2, E3, E4. auto 10.
Qed.

Lemma R_hdr_alpha c h flags : R_hdr c h flags -> N.of_nat (h_alpha h) = r_alpha_size c.
Proof. intros ((_ & _ & _ & _ & Ha & _) & Hu & _). unfold h_alpha. rewrite Hu, Ha. lia. Qed.

Lemma firstn_upd_le n i x l : (n <= i)%nat -> firstn n (upd i x l) = firstn n l.
Proof. exact (firstn_lupd_ge n i x l). Qed.

Lemma firstn_S_upd i x l : (i < length l)%nat -> firstn (S i) (upd i x l) = firstn i l ++ [x].
Proof.
  intro H. rewrite firstn_S_nth by (rewrite upd_length; exact H). rewrite nth_upd_same by exact H.
  rewrite firstn_upd_le by lia. reflexivity.
Qed.

(* one window of the delta code: the range test of retrieve() is window_apply *)
Lemma window_apply_C cur k : k < 64 ->
  window_apply cur k =
  if (cur + nth (N.to_nat k) Rmin_tab 0 <? delta_check_lo) || (delta_check_hi <? cur + nth (N.to_nat k) Rmax_tab 0) then None
  else Some (cur + nth (N.to_nat k) delta_R 0 - delta_bias).
Proof.
  intro Hk. destruct (delta_entry k Hk) as (HL & Hmin & Hmax & Hhi). cbv zeta in HL, Hmin, Hmax, Hhi.
  unfold window_apply.
  change (tabRmin k) with (nth (N.to_nat k) Rmin_tab 0). change (tabRmax k) with (nth (N.to_nat k) Rmax_tab 0).
  change (tabR k) with (nth (N.to_nat k) delta_R 0).
  destruct ((cur + nth (N.to_nat k) Rmin_tab 0 <? delta_check_lo) || (delta_check_hi <? cur + nth (N.to_nat k) Rmax_tab 0)) eqn:E;
    [reflexivity|].
  assert (E2 : (cur + nth (N.to_nat k) delta_R 0 <? delta_check_lo) || (delta_check_hi <? cur + nth (N.to_nat k) delta_R 0) = false) by lia.
  rewrite E2. reflexivity.
Qed.

(* a window that passes the range test: code_len[j] += R[k]; code_len[j] -= 3 does not wrap in uint8_t arithmetic and
   leaves a length in 1..20 *)
Lemma delta_window k cur : k < 64 -> cur <= 31 ->
  (cur + nth (N.to_nat k) Rmin_tab 0 <? delta_check_lo) || (delta_check_hi <? cur + nth (N.to_nat k) Rmax_tab 0) = false ->
  1 <= nth (N.to_nat k) delta_L 0 <= 6 /\
  ((cur + nth (N.to_nat k) delta_R 0) mod W8 + W8 - delta_bias) mod W8 = cur + nth (N.to_nat k) delta_R 0 - delta_bias /\
  1 <= cur + nth (N.to_nat k) delta_R 0 - delta_bias <= 20.
Proof.
  intros Hk Hc Ht. destruct (delta_entry k Hk) as (HL & Hmin & Hmax & Hhi). cbv zeta in HL, Hmin, Hmax, Hhi.
  destruct delta_consts_ok as (Dlo & Dhi & Dbias).
  set (x := cur + nth (N.to_nat k) delta_R 0) in *.
  assert (Hx : delta_bias + 1 <= x /\ x <= delta_bias + 20) by lia.
  split; [exact HL|]. split; [|lia].
  change W8 with 256. rewrite (N.mod_small x) by lia.
  replace (x + 256 - delta_bias) with ((x - delta_bias) + 1 * 256) by lia. rewrite N.mod_add by discriminate. apply N.mod_small. lia.
Qed.

Lemma K_lens_step f h selm tables lens n' cur bits :
  run (K_lens f h selm tables lens (S n') cur) bits =
  match run (win_delta f cur) bits with
  | Ok (l, r) => run (K_lens f h selm tables (lens ++ [l]) n' l) r
  | Err e => Err e
  end.
Proof.
  unfold K_lens. cbn [read_lens]. change (delta_reader lbz_policy) with win_delta. rewrite !run_bind.
  destruct (run (win_delta f cur) bits) as [[l r]|e]; [|reflexivity].
  rewrite !run_bind. destruct (run (read_lens lbz_policy f n' l) r) as [[ls r']|e]; [|reflexivity].
  cbn [run]. rewrite <- app_assoc. reflexivity.
Qed.

Lemma K_lens_0 f h selm tables lens cur : K_lens f h selm tables lens 0 cur = K_tables f h selm (tables ++ [lens]).
Proof. unfold K_lens. cbn [read_lens bind]. rewrite app_nil_r. reflexivity. Qed.

(* the length reader on a stream that starts with the 6-bit window k *)
Lemma K_lens_window s k f h selm tables lens n' cur : k < 64 -> s = bits_msb 6 k ++ skipn 6 s -> (length s < f)%nat ->
  run (K_lens f h selm tables lens (S n') cur) s =
  if (cur + nth (N.to_nat k) Rmin_tab 0 <? delta_check_lo) || (delta_check_hi <? cur + nth (N.to_nat k) Rmax_tab 0) then Err ErrDelta
  else
    let ncl := cur + nth (N.to_nat k) delta_R 0 - delta_bias in
    if nth (N.to_nat k) delta_L 0 =? 6 then run (K_lens f h selm tables lens (S n') ncl) (skipn 6 s)
    else run (K_lens f h selm tables (lens ++ [ncl]) n' ncl) (skipn (N.to_nat (nth (N.to_nat k) delta_L 0)) s).
Proof.
  intros Hk Hs Hf. cbv zeta. rewrite K_lens_step.
  assert (Hl : (6 <= length s)%nat) by (rewrite Hs, app_length, bits_msb_length; lia).
  rewrite Hs at 1. rewrite win_window by lia. rewrite <- Hs. rewrite (window_apply_C cur k Hk).
  destruct (_ || _); [reflexivity|].
  change (tabL k) with (nth (N.to_nat k) delta_L 0).
  destruct (_ =? 6); [|reflexivity].
  rewrite K_lens_step. unfold win_delta. rewrite (mprog_fuel win_machine (f - 6) f) by (rewrite skipn_length; lia). reflexivity.
Qed.

(* the common tail of the three ways through the loop body: DUMP(L[k]); NEED(S_DELTA_TAG) *)
Lemma delta_tail f nx X m c h selm tables flags kk j' cls' cur' :
  J_delta c flags 31 -> R_hdr c h flags -> selm = firstn (N.to_nat (h_ns h)) (r_selector c) -> tabs_rel c tables ->
  buf_ok c -> 1 <= kk <= 6 -> 6 <= c_w c -> 4 * c_w c + 3 <= m ->
  length cls' = 258%nat -> j' <= r_alpha_size c ->
  (forall i, i < j' -> 1 <= nth (N.to_nat i) cls' 0 <= 20) ->
  (j' < r_alpha_size c -> 1 <= nth (N.to_nat j') cls' 0 <= 20 /\ nth (N.to_nat j') cls' 0 = cur') ->
  X = run (K_lens f h selm tables (firstn (N.to_nat j') cls') (h_alpha h - N.to_nat j') cur') (skipn (N.to_nat kk) (strm c nx)) ->
  blk_post f nx X m (c1 <== dump (set_r_code_len (set_r_j c j') cls') kk ;; BNeed S_delta_tag c1).
Proof.
  intros (Hh & Hs & Ht & Htd & _ & _ & _) HR Hsel Htab HB Hkk Hw Hm Hl Hj Hlo Hcur HX.
  destruct (J_hdr_facts c flags Hh) as ((Ssel & Scl & Smtf & Str & Swf & Ssl & Sft) & Hal & _).
  pose proof (R_hdr_alpha c h flags HR) as Hha.
  destruct (dump_spec (set_r_code_len (set_r_j c j') cls') kk HB ltac:(csimp; lia)) as (Ed & HB' & Sd).
  rewrite Ed. cbn [bindB blk_post]. set (c' := bufset _ _ _) in *.
  assert (Hh' : J_hdr c' flags).
  { apply (J_hdr_frame c); [exact Hh| |exact Swf]. unfold hdr_reads. subst c'. csimp. rewrite Hl, Scl. reflexivity. }
  exists (ADelta h selm tables (firstn (N.to_nat j') cls')). cbn [Rel Kof sigma].
  split; [|split; [exact HB'|split]].
  - exists flags. split; [|split; [|split; [exact Hsel|split; [exact Htab|reflexivity]]]].
    + split; [|intro H; apply (Hcur H)].
      split; [exact Hh'|]. split; [exact Hs|]. split; [exact Ht|]. split; [exact Htd|]. split; [exact Hj|]. split; [exact Hlo|].
      intro H. apply (Hcur H).
    + apply (R_hdr_frame c); [exact HR|exact Hh'|]. unfold hdr_reads. subst c'. csimp. rewrite Hl, Scl. reflexivity.
  - subst c'. csimp. lia.
  - rewrite HX, (Sd nx), firstn_length, Hl. replace (Nat.min (N.to_nat j') 258) with (N.to_nat j') by lia.
    change (cl c' (r_j c')) with (nth (N.to_nat j') cls' 0).
    destruct (N.ltb_spec j' (r_alpha_size c)) as [Hlt|Hge].
    + rewrite (proj2 (Hcur Hlt)). reflexivity.
    + replace (h_alpha h - N.to_nat j')%nat with 0%nat by lia. rewrite !K_lens_0. reflexivity.
Qed.

(* the delta loop of one tree, from its head to the next NEED or, behind make_tree(), to the head of the tree loop;
   that exit is taken only with j = alpha_size, which is never the case right behind the 5-bit start value *)
Lemma ref_delta f nx m c h selm tables lens : R_deltaH c h selm tables lens -> buf_ok c -> 6 <= c_w c ->
  (r_alpha_size c <= r_j c -> 32 <= c_w c) -> 4 * c_w c + 3 <= m -> (length (strm c nx) < f)%nat ->
  blk_post f nx (run (K_lens f h selm tables lens (h_alpha h - length lens) (cl c (r_j c))) (strm c nx)) m (delta_head c).
Proof.
  intros (flags & HJ & HR & Hsel & Htab & Hlens) HB Hw Hw32 Hm Hf.
  pose proof HJ as (Hh & Hs & Ht & Htd & Hj & Hlo & Hcur).
  destruct (J_hdr_facts c flags Hh) as ((Ssel & Scl & Smtf & Str & Swf & Ssl & Sft) & Hal & Hnt & _).
  pose proof (R_hdr_alpha c h flags HR) as Hha.
  assert (Llens : length lens = N.to_nat (r_j c)) by (subst lens; rewrite firstn_length; lia).
  unfold delta_head. destruct (N.ltb_spec (r_j c) (r_alpha_size c)) as [Hlt|Hge].
  - specialize (Hcur Hlt).
    destruct (h_alpha h - length lens)%nat as [|n'] eqn:En; [lia|].
    destruct (peek_spec c 6 HB ltac:(lia) Hw) as (k & Ep & Hk & Sk). rewrite Ep. cbn [bindB]. change (2 ^ 6) with 64 in Hk.
    rewrite (K_lens_window _ k f h selm tables lens n' (cl c (r_j c)) Hk (Sk nx) Hf). cbv zeta.
    destruct delta_tabs_len as (LL & LR & Lmin & Lmax).
    rewrite (xget_bindB RCodeLen) by lia. rewrite (xget_bindB RConst Rmin_tab), (xget_bindB RConst Rmax_tab) by lia.
    fold (cl c (r_j c)).
    destruct ((cl c (r_j c) + _ <? delta_check_lo) || _) eqn:Etest; [exact I|].
    destruct (delta_window k (cl c (r_j c)) Hk Hcur Etest) as (Hkk & Emod & Hncl).
    rewrite (xget_bindB RConst delta_R) by lia. rewrite Emod. clear Emod Etest.
    set (ncl := cl c (r_j c) + nth (N.to_nat k) delta_R 0 - delta_bias) in *.
    rewrite xset_bindB by lia. rewrite (xget_bindB RConst delta_L) by lia.
    set (kk := nth (N.to_nat k) delta_L 0) in *.
    set (cls := upd (N.to_nat (r_j c)) ncl (r_code_len c)).
    assert (Lcls : length cls = 258%nat) by (unfold cls; rewrite upd_length; exact Scl).
    assert (Ncls_lo : forall i, i < r_j c -> nth (N.to_nat i) cls 0 = cl c i).
    { intros i Hi. unfold cls. rewrite nth_upd_other by lia. reflexivity. }
    assert (Ncls_j : nth (N.to_nat (r_j c)) cls 0 = ncl).
    { unfold cls. rewrite nth_upd_same by lia. reflexivity. }
    assert (Flens : firstn (N.to_nat (r_j c)) cls = lens).
    { unfold cls. rewrite firstn_upd_le by lia. symmetry. exact Hlens. }
    assert (Flens1 : firstn (N.to_nat (r_j c + 1)) cls = lens ++ [ncl]).
    { replace (N.to_nat (r_j c + 1)) with (S (N.to_nat (r_j c))) by lia. unfold cls. rewrite firstn_S_upd by lia.
      rewrite Hlens. reflexivity. }
    csimp.
    destruct (N.eqb_spec kk 6) as [E6|N6]; cbn [negb].
    + (* the same symbol again *)
      apply (delta_tail f nx _ m c h selm tables flags kk (r_j c) cls ncl); try assumption; try lia.
      * intros i Hi. rewrite Ncls_lo by exact Hi. apply Hlo; exact Hi.
      * rewrite Flens, E6. replace (h_alpha h - N.to_nat (r_j c))%nat with (S n') by lia. reflexivity.
    + rewrite add32_small by (rewrite W32_val; lia).
      assert (Hlo1 : forall i, i < r_j c + 1 -> 1 <= nth (N.to_nat i) cls 0 <= 20).
      { intros i Hi. destruct (N.eq_dec i (r_j c)) as [->|Hne]; [rewrite Ncls_j; exact Hncl|].
        rewrite Ncls_lo by lia. apply Hlo; lia. }
      assert (HX : forall cls1, firstn (N.to_nat (r_j c + 1)) cls1 = lens ++ [ncl] ->
                run (K_lens f h selm tables (lens ++ [ncl]) n' ncl) (skipn (N.to_nat kk) (strm c nx)) =
                run (K_lens f h selm tables (firstn (N.to_nat (r_j c + 1)) cls1) (h_alpha h - N.to_nat (r_j c + 1)) ncl)
                    (skipn (N.to_nat kk) (strm c nx))).
      { intros cls1 ->. replace (h_alpha h - N.to_nat (r_j c + 1))%nat with n' by lia. reflexivity. }
      destruct (N.ltb_spec (r_j c + 1) (r_alpha_size c)) as [Hlt1|Hge1].
      * (* code_len[j] = code_len[j - 1] *)
        rewrite sub32_small by (rewrite ?W32_val; lia).
        rewrite xget_bindX, xset_bindX by lia. cbn [bindB].
        replace (r_j c + 1 - 1) with (r_j c) by lia. rewrite Ncls_j.
        apply (delta_tail f nx _ m c h selm tables flags kk (r_j c + 1) (upd (N.to_nat (r_j c + 1)) ncl cls) ncl);
          try assumption; try lia.
        -- rewrite upd_length; exact Lcls.
        -- intros i Hi. rewrite nth_upd_other by lia. apply Hlo1; exact Hi.
        -- intros _. rewrite nth_upd_same by lia. split; [exact Hncl|reflexivity].
        -- apply HX. rewrite firstn_upd_le by lia. exact Flens1.
      * cbn [bindB]. apply (delta_tail f nx _ m c h selm tables flags kk (r_j c + 1) cls ncl); try assumption; try lia.
        apply HX. exact Flens1.
  - (* make_tree(rs) *)
    assert (Ej : r_j c = r_alpha_size c) by lia. specialize (Hw32 Hge).
    set (t := r_t c) in *.
    assert (Ht6 : t < 6) by lia.
    rewrite (nth_error_nth' (r_tree c) garbage_tree) by lia. cbn [ofO bindB].
    set (T := nth (N.to_nat t) (r_tree c) garbage_tree).
    set (n := N.to_nat (r_alpha_size c)).
    rewrite Ej in Hlens, Llens. fold n in Hlens, Llens.
    set (pad := skipn n (r_code_len c)).
    assert (ECL : lens ++ pad = r_code_len c) by (rewrite Hlens; apply firstn_skipn).
    assert (Hpre : tree_pre lens pad T).
    { unfold tree_pre. split; [lia|]. split; [|split].
      - apply Forall_nth. intros i d Hi. rewrite (nth_indep _ d 0) by exact Hi. rewrite Hlens.
        rewrite nth_firstn by lia.
        specialize (Hlo (N.of_nat i) ltac:(lia)). unfold cl in Hlo. rewrite Nat2N.id in Hlo. exact Hlo.
      - rewrite <- app_length. rewrite ECL, Scl. reflexivity.
      - rewrite Forall_forall in Swf. apply Swf. apply nth_In. lia. }
    destruct (make_tree_total lens pad T Hpre) as (vd & T' & EM & WF' & _).
    assert (TR : tree_rel lens (verdict_code t vd) t T').
    { exists pad, T, vd. split; [exact Hpre|]. split; [exact EM|reflexivity]. }
    rewrite ECL in EM. replace (N.of_nat (length lens)) with (r_alpha_size c) in EM by lia.
    rewrite EM. cbn [ofM bindB fst snd]. rewrite xset_bindB by lia.
    csimp. fold t. rewrite add32_small by (rewrite W32_val; lia).
    set (c' := set_r_t _ _).
    assert (Hh' : J_hdr c' flags).
    { apply (J_hdr_frame c); [exact Hh| |apply Forall_updt; assumption].
      unfold hdr_reads. subst c'. csimp. rewrite upd_length, updt_length. reflexivity. }
    cbn [blk_post]. exists (ATree h selm (tables ++ [lens])). cbn [Rel Kof wlo sigma].
    split; [|split; [exact HB|split; [exact Hw32|split; [change (c_w c') with (c_w c); lia|]]]].
    + exists flags. split; [|split; [|split; [exact Hsel|]]].
      * split; [exact Hh'|]. split; [exact Hs|]. split; [change (r_t c') with (t + 1); change (r_num_trees c') with (r_num_trees c); lia|].
        intros i Hi. change (r_t c') with (t + 1) in Hi. change (r_alpha_size c') with (r_alpha_size c).
        change (r_mtf c') with (upd (N.to_nat t) (verdict_code t vd) (r_mtf c)).
        change (r_tree c') with (updt (N.to_nat t) T' (r_tree c)).
        destruct (N.eq_dec i t) as [->|Hne].
        -- exists lens. split; [lia|]. rewrite nth_upd_same, nth_updt_same by lia. exact TR.
        -- rewrite nth_upd_other, nth_updt_other by lia. apply Htd. lia.
      * apply (R_hdr_frame c); [exact HR|exact Hh'|].
        unfold hdr_reads. subst c'. csimp. rewrite upd_length, updt_length. reflexivity.
      * destruct Htab as (Tl & Tr). unfold tabs_rel. change (r_t c') with (t + 1). change (r_alpha_size c') with (r_alpha_size c).
        change (r_mtf c') with (upd (N.to_nat t) (verdict_code t vd) (r_mtf c)).
        change (r_tree c') with (updt (N.to_nat t) T' (r_tree c)).
        split; [rewrite app_length; cbn [length]; lia|].
        intros i Hi. destruct (N.eq_dec i t) as [->|Hne].
        -- rewrite app_nth2 by lia. replace (N.to_nat t - length tables)%nat with 0%nat by lia. cbn [nth].
           split; [lia|]. rewrite nth_upd_same, nth_updt_same by lia. exact TR.
        -- rewrite app_nth1 by lia. rewrite nth_upd_other, nth_updt_other by lia. apply Tr. lia.
    + replace (h_alpha h - length lens)%nat with 0%nat by lia. rewrite K_lens_0. reflexivity.
Qed.

(* the table loop of the format description, one table on / all tables read *)
Lemma K_tables_step f h selm tables m bits : (N.to_nat (h_nt h) - length tables = S m)%nat ->
  run (K_tables f h selm tables) bits =
  match run (take 5) bits with
  | Ok (start, r) => run (K_lens f h selm tables [] (h_alpha h) start) r
  | Err e => Err e
  end.
Proof.
  intro E. unfold K_lens, K_tables. rewrite E. cbn [repeat_prog]. unfold read_table. rewrite !run_bind.
  destruct (run (take 5) bits) as [[s r]|e]; [|reflexivity].
  rewrite !run_bind. destruct (run (read_lens lbz_policy f (h_alpha h) s) r) as [[ls r']|e]; [|reflexivity].
  rewrite !run_bind.
  replace (N.to_nat (h_nt h) - length (tables ++ [[] ++ ls]))%nat with m by (rewrite app_length; cbn [length app]; lia).
  destruct (run (repeat_prog m _) r') as [[more r'']|e]; [|reflexivity].
  cbn [run app]. rewrite <- app_assoc. reflexivity.
Qed.

Lemma K_tables_done f h selm tables : (N.to_nat (h_nt h) - length tables = 0)%nat ->
  K_tables f h selm tables = K_group h selm tables 0 [].
Proof. intro E. unfold K_tables. rewrite E. cbn [repeat_prog bind]. rewrite app_nil_r. reflexivity. Qed.

Lemma used_from_lt : forall flags j, Forall (fun x => x < j + N.of_nat (length flags)) (SlideModel.used_from j flags).
Proof.
  induction flags as [|b r IH]; intros j; cbn [SlideModel.used_from length]; [constructor|].
  specialize (IH (j + 1)).
  assert (H : Forall (fun x => x < j + N.of_nat (S (length r))) (SlideModel.used_from (j + 1) r)).
  { eapply Forall_impl; [|exact IH]. cbn beta. intros a Ha. lia. }
  destruct b; [constructor; [lia|exact H]|exact H].
Qed.

(* all trees done: the usable entries of mtf[] name built trees *)
Lemma trees_done_good c : r_num_trees c <= 6 -> trees_done c (r_num_trees c) -> mtf_good c.
Proof.
  intros Hnt Htd i Hi. cbv zeta. intro Hlt.
  destruct (Htd i Hi) as (lens & Ll & pad & T & vd & Hpre & EM & Ecode).
  destruct (verdict_code_spec i vd ltac:(change MAX_TREES with 6; lia)) as (V1 & V2 & V3).
  change MAX_TREES with 6 in Hlt. change E_ERR_INCOMPLT with 11 in V2. change E_ERR_PREFIX with 10 in V3.
  destruct vd.
  - rewrite Ecode. cbn [verdict_code]. exists lens, pad, T. split; [exact Ll|]. split; [exact Hpre|]. rewrite <- Ll. exact EM.
  - exfalso. destruct V2 as (V2 & _). specialize (V2 eq_refl). lia.
  - exfalso. destruct V3 as (V3 & _). specialize (V3 eq_refl). lia.
Qed.

Lemma nth_iota6 i : i < 6 -> nth (N.to_nat i) [0; 1; 2; 3; 4; 5] 0 = i.
Proof.
  intro H. assert (C : i = 0 \/ i = 1 \/ i = 2 \/ i = 3 \/ i = 4 \/ i = 5) by lia.
  destruct C as [->|[->|[->|[->|[->| ->]]]]]; reflexivity.
Qed.

(* if (rs->num_selectors > 18001) rs->num_selectors = 18001, as one store *)
Lemma clamp_selectors c : (if sel_clamp_test <? r_num_selectors c then set_r_num_selectors c sel_clamp_value else c) =
                          set_r_num_selectors c (N.min (r_num_selectors c) 18001).
Proof.
  change sel_clamp_test with 18001. change sel_clamp_value with 18001.
  destruct (N.ltb_spec 18001 (r_num_selectors c)) as [H|H].
  - rewrite N.min_r by lia. reflexivity.
  - rewrite N.min_l by exact H. destruct c; reflexivity.
Qed.

(* behind the last tree: the tables of the symbol phase *)
Lemma ref_init_groups c h selm tables : R_tree c h selm tables -> r_t c = r_num_trees c ->
  exists c', init_groups c = BGo P_GROUP c' /\ R_group c' h selm tables 0 [] /\ c_v c' = c_v c /\ c_w c' = c_w c.
Proof.
  intros (flags & (Hh & Hs & Ht & Htd) & HR & Hsel & Tl & Tr) Et.
  destruct (J_hdr_facts c flags Hh) as ((Ssel & Scl & Smtf & Str & Swf & Ssl & Sft) & Hal & Hnt & Hns).
  pose proof Hh as (((_ & Ettp & Ett) & _) & Lfl & (junk & Ljunk & EBF) & Hu1 & Ealpha & _).
  pose proof HR as (_ & Hused & Hrnd & Hidx & Hnt' & Hns'). pose proof (R_hdr_alpha c h flags HR) as Hha.
  rewrite Et in Htd. pose proof (trees_done_good c ltac:(lia) Htd) as Hgood.
  destruct (SlideProofs.slide_init_c_ok junk flags Ljunk Lfl) as (st & Einit & HSim).
  unfold SlideModel.slide_init_c, SlideModel.slide_init in Einit. rewrite EBF in Einit. cbn [SlideModel.obind] in Einit.
  injection Einit as Est.
  destruct (SlideProofs.bitmap_fill_spec flags CMAP_BASE 0 0 junk) as (a' & EBF' & _ & Hq & _).
  { unfold SlideProofs.len. rewrite Ljunk, Lfl. change CMAP_BASE with 7936. lia. }
  rewrite EBF in EBF'. injection EBF' as Ea'. subst a'.
  fold (SlideModel.used_of flags) in Hq. specialize (Hq 0%nat ltac:(lia)).
  replace (CMAP_BASE + 0 + N.of_nat 0) with CMAP_BASE in Hq by lia.
  pose proof (used_from_lt flags 0) as Hult. fold (SlideModel.used_of flags) in Hult. rewrite Lfl in Hult.
  pose proof (SlideProofs.used_from_length flags 0) as Hul. fold (SlideModel.used_of flags) in Hul.
  assert (HF : Forall (fun x => x < 256) (SlideModel.used_of flags)).
  { eapply Forall_impl; [|exact Hult]. cbn beta. intros a Ha. lia. }
  assert (Hx : SlideProofs.get (SlideModel.s_slide (r_slide c)) CMAP_BASE = hd 0 (SlideModel.used_of flags)).
  { rewrite Hq. destruct (SlideModel.used_of flags); reflexivity. }
  assert (Hx256 : hd 0 (SlideModel.used_of flags) < 256).
  { destruct (SlideModel.used_of flags) as [|u us]; [cbn in Hu1; lia|]. inversion HF; assumption. }
  unfold init_groups. cbv zeta.
  rewrite (SlideProofs.rd_ok (SlideModel.rows_init CMAP_BASE) 0) by (rewrite SlideProofs.rows_init_len; lia).
  cbn [ofO bindB]. rewrite SlideProofs.rows_init_get by lia. replace (CMAP_BASE + 16 * 0) with CMAP_BASE by lia.
  cbn [SlideModel.s_slide].
  rewrite SlideProofs.rd_ok by (unfold SlideProofs.len; rewrite Ssl; change CMAP_BASE with 7936; lia).
  cbn [ofO bindB]. rewrite clamp_selectors, Hx. csimp.
  eexists. split; [reflexivity|]. split; [|split; reflexivity].
  assert (Hcl : sel_clamp lbz_policy = 18001) by reflexivity.
  assert (Lselm : length selm = N.to_nat (h_ns h)) by (rewrite Hsel, firstn_length; lia).
  exists (SlideModel.used_of flags). split; [|split; [|split; [reflexivity|]]].
  - unfold J_group, shape, sels_ok, sel, mtf_good, run_ok. csimp. cbn [SlideModel.s_slide].
    split; [repeat split; try assumption; apply repeat_length|].
    rewrite Ettp, Ett. split; [reflexivity|]. split; [change MAX_BLOCK_SIZE with 900000; lia|].
    split; [exact Hnt|]. split; [exact Ealpha|]. split; [lia|]. split; [exact HF|]. split; [lia|]. split; [lia|].
    split; [intros i Hi; apply Hs; lia|]. split; [exact Hgood|]. split; [rewrite Est; exact HSim|].
    split; [exact Hx256|]. split; [change (2 ^ 0) with 1; lia|reflexivity].
  - unfold G_static. csimp. rewrite Hcl.
    split; [exact Hrnd|]. split; [exact Hidx|]. split; [exact Hnt'|]. split; [lia|]. split; [exact Lselm|].
    split; [|split; [lia|split; [|split; [lia|]]]].
    + apply Forall_nth. intros i d Hi. rewrite (nth_indep _ d 0) by exact Hi. rewrite Hsel.
      rewrite nth_firstn by lia. rewrite <- Hnt'.
      specialize (Hs (N.of_nat i) ltac:(lia)). unfold sel in Hs. rewrite Nat2N.id in Hs. exact Hs.
    + unfold clamped. rewrite Hcl, Hsel, firstn_firstn. f_equal. lia.
    + intros i Hi. cbn [firstn]. unfold sel_order. cbn [fold_left]. cbv zeta. rewrite nth_iota6 by lia.
      destruct (Tr i ltac:(lia)) as (T1 & T2). cbv zeta in T1, T2. split; [exact Hi|]. split; [lia|exact T2].
  - exists 0, 0, 0, []. cbn [usteps]. csimp. rewrite Hused, Ettp, Ett. repeat split; reflexivity.
Qed.

(* the head of the tree loop *)
Lemma ref_tree f nx m c h selm tables : R_tree c h selm tables -> buf_ok c -> 32 <= c_w c -> 4 * c_w c + 2 <= m ->
  (length (strm c nx) < f)%nat ->
  blk_post f nx (run (K_tables f h selm tables) (strm c nx)) m (tree_head c).
Proof.
  intros HRT HB Hw Hm Hf. pose proof HRT as (flags & (Hh & Hs & Ht & Htd) & HR & Hsel & Htab).
  destruct (J_hdr_facts c flags Hh) as ((Ssel & Scl & Smtf & Str & Swf & Ssl & Sft) & Hal & Hnt & _).
  pose proof HR as (_ & _ & _ & _ & Hnt' & _). pose proof Htab as (Tl & _).
  unfold tree_head. destruct (N.ltb_spec (r_t c) (r_num_trees c)) as [Hlt|Hge].
  - (* rs->j = 0; TAKE(rs->code_len[0], 5) *)
    destruct (take_spec (set_r_j c 0) 5 HB ltac:(lia) ltac:(csimp; lia)) as (x & v' & Ep & Hx & Hd).
    rewrite Ep. cbn [bindB]. change (2 ^ 5) with 32 in Hx.
    rewrite xset_bindB by (csimp; lia). rewrite (N.mod_small x) by (change W8 with 256; lia).
    destruct (Hd (set_r_code_len (set_r_j c 0) (upd (N.to_nat 0) x (r_code_len c))) eq_refl eq_refl) as (Ed & HB2 & Hr).
    csimp. rewrite Ed. cbn [bindB]. set (c2 := bufset _ _ _) in *.
    assert (Hh2 : J_hdr c2 flags).
    { apply (J_hdr_frame c); [exact Hh| |exact Swf]. unfold hdr_reads. subst c2. csimp.
      rewrite upd_length. reflexivity. }
    assert (Ecl : cl c2 (r_j c2) = x) by (apply nth_upd_same; lia).
    assert (RD : R_deltaH c2 h selm tables []).
    { exists flags. split; [|split; [|split; [exact Hsel|split; [exact Htab|reflexivity]]]].
      - split; [exact Hh2|]. split; [exact Hs|]. split; [exact Hlt|]. split; [exact Htd|].
        split; [change (r_j c2) with 0; lia|]. split; [intros i Hi; change (r_j c2) with 0 in Hi; lia|].
        intros _. rewrite Ecl. lia.
      - apply (R_hdr_frame c); [exact HR|exact Hh2|]. unfold hdr_reads. subst c2. csimp.
        rewrite upd_length. reflexivity. }
    destruct (N.to_nat (h_nt h) - length tables)%nat as [|t'] eqn:Em; [lia|].
    rewrite (K_tables_step f h selm tables t' _ Em). change (take 5) with (take (N.to_nat 5)).
    rewrite (Hr nx : run (take (N.to_nat 5)) (strm c nx) = _).
    pose proof (strm_length c nx) as SL. pose proof (strm_length c2 nx) as SL2. change (c_w c2) with (c_w c - 5) in SL2.
    pose proof (ref_delta f nx m c2 h selm tables [] RD HB2 ltac:(change (c_w c2) with (c_w c - 5); lia)
                  ltac:(change (r_j c2) with 0; change (r_alpha_size c2) with (r_alpha_size c); lia)
                  ltac:(change (c_w c2) with (c_w c - 5); lia) ltac:(lia)) as R.
    cbn [length] in R. rewrite Nat.sub_0_r, Ecl in R. exact R.
  - destruct (ref_init_groups c h selm tables HRT ltac:(lia)) as (c' & E & RG & Ev & Ew).
    rewrite E. cbn [blk_post]. exists (AGroup h selm tables 0 []). cbn [Rel Kof wlo sigma].
    split; [exact RG|]. split; [exact (buf_ok_frame c c' Ev Ew HB)|]. split; [lia|]. split; [lia|].
    rewrite (K_tables_done f h selm tables) by lia. rewrite (strm_frame c c' nx Ev Ew). reflexivity.
Qed.

(* sel_head: one unary coded selector against sel_table[PEEK(6)] *)
Definition unary_at (nt : N) (rest : list bool) (x : N) : Prop :=
  run (read_unary (N.to_nat nt) 0) (bits_msb 6 x ++ rest) =
  let k := nth (N.to_nat x) sel_table 0 in
  if nt <? k then Err ErrSelector else Ok (k - 1, skipn (N.to_nat k) (bits_msb 6 x ++ rest)).

Lemma unary_all nt rest : 2 <= nt <= 6 -> forall n, (n < 64)%nat -> unary_at nt rest (N.of_nat n).
Proof.
  intros Hnt n Hn. assert (C : nt = 2 \/ nt = 3 \/ nt = 4 \/ nt = 5 \/ nt = 6) by lia.
  destruct C as [->|[->|[->|[->| ->]]]].
  all: do 64 (destruct n as [|n]; [cbv; reflexivity|]); lia.
Qed.

Lemma unary_window nt s x : 2 <= nt <= 6 -> x < 64 -> s = bits_msb 6 x ++ skipn 6 s ->
  run (read_unary (N.to_nat nt) 0) s =
  let k := nth (N.to_nat x) sel_table 0 in
  if nt <? k then Err ErrSelector else Ok (k - 1, skipn (N.to_nat k) s).
Proof.
  intros Hnt Hx Hs. pose proof (unary_all nt (skipn 6 s) Hnt (N.to_nat x) ltac:(lia)) as H. rewrite N2Nat.id in H.
  unfold unary_at in H. rewrite <- Hs in H. exact H.
Qed.

Lemma K_sels_step f h selm m bits : (N.to_nat (h_ns h) - length selm = S m)%nat ->
  run (K_sels f h selm) bits =
  match run (read_unary (N.to_nat (h_nt h)) 0) bits with
  | Ok (s, r) => run (K_sels f h (selm ++ [s])) r
  | Err e => Err e
  end.
Proof.
  intro E. unfold K_sels. rewrite E. cbn [repeat_prog]. rewrite !run_bind.
  destruct (run (read_unary (N.to_nat (h_nt h)) 0) bits) as [[s r]|e]; [|reflexivity].
  rewrite !run_bind.
  replace (N.to_nat (h_ns h) - length (selm ++ [s]))%nat with m by (rewrite app_length; cbn [length]; lia).
  destruct (run (repeat_prog m _) r) as [[more r']|e]; [|reflexivity].
  cbn [run]. rewrite <- app_assoc. reflexivity.
Qed.

Lemma K_sels_done f h selm : (N.to_nat (h_ns h) - length selm = 0)%nat -> K_sels f h selm = K_tables f h selm [].
Proof. intro E. unfold K_sels. rewrite E. cbn [repeat_prog bind]. rewrite app_nil_r. reflexivity. Qed.

(* the head of the selector loop; behind the last selector the tree loop starts, which wants a full word *)
Lemma ref_sel f nx m c h selm : R_selH c h selm -> buf_ok c -> 6 <= c_w c -> (r_j c = r_num_selectors c -> 32 <= c_w c) ->
  4 * c_w c + 3 <= m -> (length (strm c nx) < f)%nat ->
  blk_post f nx (run (K_sels f h selm) (strm c nx)) m (sel_head c).
Proof.
  intros (flags & (Hh & Hj & Hs) & HR & Hselm) HB Hw Hw32 Hm Hf.
  destruct (J_hdr_facts c flags Hh) as ((Ssel & Scl & Smtf & Str & Swf & Ssl & Sft) & Hal & Hnt & Hns).
  pose proof HR as (_ & _ & _ & _ & Hnt' & Hns').
  assert (Lselm : length selm = N.to_nat (r_j c)) by (rewrite Hselm, firstn_length; lia).
  unfold sel_head. destruct (N.ltb_spec (r_j c) (r_num_selectors c)) as [Hlt|Hge].
  - destruct (N.to_nat (h_ns h) - length selm)%nat as [|n'] eqn:En; [lia|].
    destruct (peek_spec c 6 HB ltac:(lia) Hw) as (x & Ep & Hx & Sx). rewrite Ep. cbn [bindB]. change (2 ^ 6) with 64 in Hx.
    rewrite (K_sels_step f h selm n' _ En), (unary_window (h_nt h) _ x ltac:(lia) Hx (Sx nx)). cbv zeta. rewrite <- Hnt'.
    rewrite (xget_bindB RConst sel_table) by (rewrite sel_table_len; lia).
    pose proof (sel_table_range x Hx) as Hk. set (k := nth (N.to_nat x) sel_table 0) in *.
    destruct (N.ltb_spec (r_num_trees c) k) as [Hbad|Hok]; [exact I|].
    rewrite sub32_small by (rewrite ?W32_val; lia). rewrite N.mod_small by (change W8 with 256; lia).
    rewrite xset_bindB by lia.
    destruct (dump_spec (set_r_selector c (upd (N.to_nat (r_j c)) (k - 1) (r_selector c))) k HB ltac:(csimp; lia))
      as (Ed & HB' & Sd).
    rewrite Ed. cbn [bindB blk_post]. set (c' := bufset _ _ _) in *.
    assert (Hh' : J_hdr c' flags).
    { apply (J_hdr_frame c); [exact Hh| |exact Swf]. unfold hdr_reads. subst c'. csimp.
      rewrite upd_length. reflexivity. }
    exists (ASel h (selm ++ [k - 1])). cbn [Rel Kof sigma].
    split; [|split; [exact HB'|split; [subst c'; csimp; lia|rewrite (Sd nx); reflexivity]]].
    exists flags. split; [|split].
    + split; [exact Hh'|]. split; [exact Hlt|].
      intros i Hi. change (r_j c') with (r_j c) in Hi. unfold sel. change (r_num_trees c') with (r_num_trees c).
      change (r_selector c') with (upd (N.to_nat (r_j c)) (k - 1) (r_selector c)).
      destruct (N.eq_dec i (r_j c)) as [->|Hne].
      * rewrite nth_upd_same by lia. lia.
      * rewrite nth_upd_other by lia. apply Hs. lia.
    + apply (R_hdr_frame c); [exact HR|exact Hh'|]. unfold hdr_reads. subst c'. csimp.
      rewrite upd_length. reflexivity.
    + change (r_j c') with (r_j c). change (r_selector c') with (upd (N.to_nat (r_j c)) (k - 1) (r_selector c)).
      replace (N.to_nat (r_j c) + 1)%nat with (S (N.to_nat (r_j c))) by lia.
      rewrite firstn_S_upd by lia. rewrite Hselm. reflexivity.
  - assert (Ej : r_j c = r_num_selectors c) by lia. specialize (Hw32 Ej).
    assert (RT : R_tree (set_r_t c 0) h selm []).
    { exists flags. split; [|split; [exact HR|split]].
      - split; [exact Hh|]. split; [intros i Hi; apply Hs; change (r_num_selectors (set_r_t c 0)) with (r_num_selectors c) in Hi; lia|].
        split; [change (r_t (set_r_t c 0)) with 0; change (r_num_trees (set_r_t c 0)) with (r_num_trees c); lia|].
        intros i Hi. change (r_t (set_r_t c 0)) with 0 in Hi. lia.
      - rewrite Hselm, Ej, Hns'. reflexivity.
      - split; [reflexivity|]. intros i Hi. change (r_t (set_r_t c 0)) with 0 in Hi. lia. }
    rewrite (K_sels_done f h selm) by lia.
    exact (ref_tree f nx m (set_r_t c 0) h selm [] RT HB Hw32 ltac:(change (c_w (set_r_t c 0)) with (c_w c); lia) Hf).
Qed.

Print Assumptions ref_delta.
Print Assumptions ref_tree.
Print Assumptions ref_sel.
