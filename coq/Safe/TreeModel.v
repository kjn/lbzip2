(* C08, prefix-code decoding tables of the decompressor (src/decode.c).

   ARRAY-LEVEL model of make_tree() and of the decode sequence that occurs twice
   in retrieve():

       x = T->start[PEEK(HUFF_START_WIDTH)];  k = x & 0x1F;
       if (k <= HUFF_START_WIDTH) s = x >> 5;
       else { while (v >= T->base[k + 1]) k++;
              s = T->perm[T->count[k] + ((v - T->base[k]) >> (64 - k))]; }
       DUMP(k);

   Conventions
   * arrays are [list N] of the declared C lengths (struct tree: start[1 << HUFF_START_WIDTH],
     base[MAX_CODE_LENGTH + 2], count[MAX_CODE_LENGTH + 1], perm[MAX_ALPHA_SIZE]); they are read and
     written only through [aget]/[aset], which stop the computation with [Undef (OobRead a)] /
     [Undef (OobWrite a)] on an index outside the list;
   * the monad [M] stops at the first event that is undefined in C ([Undef u]): out-of-bounds access,
     shift count >= width of the (promoted) left operand, signed overflow, a failing assert()
     (abort() with assertions compiled in), and -- a value distinct from all normal ones -- fuel
     exhaustion of a [while] loop;
   * unsigned arithmetic is written with the explicit modulus of its C type:
       unsigned / uint32_t : mod 2^32      uint64_t : mod 2^64      uint16_t (stores) : mod 2^16
     the usual arithmetic conversions are applied by hand (e.g. [code += inc] with unsigned code and
     uint64_t inc is computed in 64 bits and truncated to 32);
   * loops: a C [for] with constant bounds is a fold over the list of its index values
     ([for_loop] over [nrange]); [while]/[do-while] loops and [for] loops whose condition reads
     memory are [while]/[do_while] with fuel (the fuel is never the reason a loop stops: theorem
     statements exclude [Undef OutOfFuel]).
   * asserts: numbered 1..10 top to bottom in make_tree(); assert 4 (k == MAX_CODE_LENGTH + 1) and
     assert 8 (k == HUFF_START_WIDTH + 1) only restate the exit value of the preceding for loop and
     are built into the model (the next loop starts from that value);
   * rs->code_len[] is the list L of its declared length MAX_ALPHA_SIZE, of which make_tree() reads the
     first n = rs->alpha_size entries; the tree T passed in carries arbitrary previous contents
     (the retriever state comes from xmalloc(), and a tree slot is reused from block to block);
   * not modelled: the counter w of valid bits in DUMP(k) (unsigned, no undefined event; the theorems
     take "v < 2^64 - 1", which follows from w <= 63, as a precondition on the buffer value).
   The C statement each piece stands for is quoted next to it.
   Tied to src/decode.c by checks/safe_tree.py (harness/safe_h_tree.c vs the extraction of this file). *)
From Coq Require Import List NArith Arith Bool.
From LBZ Require Import Gen.Consts Gen.DecTabs.
Import ListNotations.
Local Open Scope N_scope.

(* ---- undefined-behaviour monad ------------------------------------------------------------ *)
Inductive arr := AStart | ABase | ACount | APerm | ALen.

Inductive ub :=
| OobRead (a : arr)        (* read outside the declared array *)
| OobWrite (a : arr)       (* write outside the declared array *)
| UninitRead (a : arr)     (* read of perm[] at or above alpha_size (never written by make_tree) *)
| BadShift                 (* shift count >= width of the promoted left operand *)
| IntOverflow              (* signed int result not representable *)
| AssertFail (id : N)      (* assert() fails; ids number the asserts of make_tree top to bottom *)
| OutOfFuel.               (* model artefact, excluded by the theorems *)

Inductive M (A : Type) := Done (a : A) | Undef (u : ub).
Arguments Done {A} a.
Arguments Undef {A} u.

Definition bindM {A B} (m : M A) (f : A -> M B) : M B :=
  match m with Done a => f a | Undef u => Undef u end.
Notation "x <~ p ;; q" := (bindM p (fun x => q)) (at level 61, p at next level, right associativity).

Definition assert (id : N) (b : bool) : M unit := if b then Done tt else Undef (AssertFail id).

(* ---- arrays --------------------------------------------------------------------------------- *)
Fixpoint upd (i : nat) (x : N) (l : list N) : list N :=
  match l with
  | [] => []
  | y :: r => match i with O => x :: r | S i' => y :: upd i' x r end
  end.

Definition aget (a : arr) (l : list N) (i : N) : M N :=
  if i <? N.of_nat (length l) then Done (nth (N.to_nat i) l 0) else Undef (OobRead a).

Definition aset (a : arr) (l : list N) (i x : N) : M (list N) :=
  if i <? N.of_nat (length l) then Done (upd (N.to_nat i) x l) else Undef (OobWrite a).

(* ---- machine arithmetic ----------------------------------------------------------------------- *)
Definition W16 : N := 2 ^ 16.
Definition W32 : N := 2 ^ 32.
Definition W64 : N := 2 ^ 64.
Definition UINT64_MAX : N := W64 - 1.

Definition add32 (a b : N) : N := (a + b) mod W32.
Definition sub32 (a b : N) : N := (a + W32 - b mod W32) mod W32.   (* unsigned a - b *)
Definition add64 (a b : N) : N := (a + b) mod W64.
Definition sub64 (a b : N) : N := (a + W64 - b mod W64) mod W64.

(* uint64_t x << c, x >> c *)
Definition shl64 (x c : N) : M N := if c <? 64 then Done (N.shiftl x c mod W64) else Undef BadShift.
Definition shr64 (x c : N) : M N := if c <? 64 then Done (N.shiftr x c) else Undef BadShift.
(* unsigned x >> c *)
Definition shr32 (x c : N) : M N := if c <? 32 then Done (N.shiftr x c) else Undef BadShift.
(* (int)x << c for a non-negative int x: undefined unless c < 32 and the result fits in int *)
Definition shl_int (x c : N) : M N :=
  if c <? 32 then (if N.shiftl x c <? 2 ^ 31 then Done (N.shiftl x c) else Undef IntOverflow)
  else Undef BadShift.

(* ---- loops ------------------------------------------------------------------------------------ *)
Definition nrange (lo cnt : nat) : list N := map N.of_nat (seq lo cnt).

Fixpoint for_loop {St : Type} (ks : list N) (body : N -> St -> M St) (s : St) : M St :=
  match ks with
  | [] => Done s
  | k :: r => s' <~ body k s ;; for_loop r body s'
  end.

Fixpoint while {St : Type} (fuel : nat) (cond : St -> M bool) (body : St -> M St) (s : St) : M St :=
  match fuel with
  | O => Undef OutOfFuel
  | S f =>
      b <~ cond s ;;
      if b then s' <~ body s ;; while f cond body s' else Done s
  end.

Fixpoint do_while {St : Type} (fuel : nat) (body : St -> M St) (cond : St -> M bool) (s : St) : M St :=
  match fuel with
  | O => Undef OutOfFuel
  | S f =>
      s' <~ body s ;;
      b <~ cond s' ;;
      if b then do_while f body cond s' else Done s'
  end.

(* ---- struct tree -------------------------------------------------------------------------------- *)
Definition START_SIZE : N := N.shiftl 1 HUFF_START_WIDTH.   (* uint16_t start[1 << HUFF_START_WIDTH] *)
Definition BASE_SIZE : N := MAX_CODE_LENGTH + 2.             (* uint64_t base[MAX_CODE_LENGTH + 2]    *)
Definition COUNT_SIZE : N := MAX_CODE_LENGTH + 1.            (* unsigned count[MAX_CODE_LENGTH + 1]   *)
Definition PERM_SIZE : N := MAX_ALPHA_SIZE.                  (* uint16_t perm[MAX_ALPHA_SIZE]         *)
Definition LEN_SIZE : N := MAX_ALPHA_SIZE.                   (* uint8_t code_len[MAX_ALPHA_SIZE]      *)

Record tree := mk_tree { t_start : list N; t_base : list N; t_count : list N; t_perm : list N }.

Definition tree_wf (T : tree) : Prop :=
  N.of_nat (length (t_start T)) = START_SIZE /\ N.of_nat (length (t_base T)) = BASE_SIZE /\
  N.of_nat (length (t_count T)) = COUNT_SIZE /\ N.of_nat (length (t_perm T)) = PERM_SIZE.

(* internal symbol values (#define RUN_A (256+1), RUN_B (256+2), EOB 0) *)
Definition RUN_A : N := 256 + 1.
Definition RUN_B : N := 256 + 2.
Definition EOB : N := 0.

(* fuel of the loops: one more than the largest possible number of iterations *)
Definition FUEL_LEN : nat := N.to_nat BASE_SIZE + 1.
Definition FUEL_ALPHA : nat := N.to_nat MAX_ALPHA_SIZE + 1.
Definition FUEL_START : nat := N.to_nat START_SIZE + 1.

(* ---- make_tree(), phase by phase ---------------------------------------------------------------- *)
(* for (k = 0; k <= MAX_CODE_LENGTH; k++) C[k] = 0; *)
Definition ph_zero (C : list N) : M (list N) :=
  for_loop (nrange 0 (N.to_nat MAX_CODE_LENGTH + 1)) (fun k C => aset ACount C k 0) C.

(* for (s = 0; s < n; s++) { k = L[s]; C[k]++; } *)
Definition ph_count (n : N) (L C : list N) : M (list N) :=
  for_loop (nrange 0 (N.to_nat n))
    (fun s C => k <~ aget ALen L s ;; c <~ aget ACount C k ;; aset ACount C k (add32 c 1)) C.

(* sofar = 0;
   for (k = MIN_CODE_LENGTH; k <= MAX_CODE_LENGTH; k++) sofar += (uint64_t)C[k] << (MAX_CODE_LENGTH - k); *)
Definition ph_kraft (C : list N) : M N :=
  for_loop (nrange (N.to_nat MIN_CODE_LENGTH) (N.to_nat MAX_CODE_LENGTH + 1 - N.to_nat MIN_CODE_LENGTH))
    (fun k sofar => c <~ aget ACount C k ;; sh <~ shl64 c (sub32 MAX_CODE_LENGTH k) ;; Done (add64 sofar sh)) 0.

(* sofar = 0;
   for (k = MIN_CODE_LENGTH; k <= MAX_CODE_LENGTH; k++) {
     next = sofar + ((uint64_t)C[k] << (64 - k));
     assert(next == 0 || next >= sofar);
     B[k] = sofar;
     sofar = next;
   }
   assert(sofar == 0); *)
Definition ph_base (C B : list N) : M (list N) :=
  r <~ for_loop (nrange (N.to_nat MIN_CODE_LENGTH) (N.to_nat MAX_CODE_LENGTH + 1 - N.to_nat MIN_CODE_LENGTH))
         (fun k (st : list N * N) =>
            let B := fst st in let sofar := snd st in
            c <~ aget ACount C k ;;
            sh <~ shl64 c (sub32 64 k) ;;
            let next := add64 sofar sh in
            _ <~ assert 2 ((next =? 0) || (sofar <=? next)) ;;
            B' <~ aset ABase B k sofar ;;
            Done (B', next)) (B, 0) ;;
  _ <~ assert 3 (snd r =? 0) ;;
  Done (fst r).

(* assert(k == MAX_CODE_LENGTH + 1);     [k is the exit value of the for loop above]
   do {
     assert(k > MIN_CODE_LENGTH);
     assert(k > MAX_CODE_LENGTH || B[k] == 0);
     B[k--] = -1;
   } while (C[k] == 0); *)
Definition ph_sentinel (C B : list N) : M (list N) :=
  r <~ do_while FUEL_LEN
         (fun (st : list N * N) =>
            let B := fst st in let k := snd st in
            _ <~ assert 5 (MIN_CODE_LENGTH <? k) ;;
            ok <~ (if MAX_CODE_LENGTH <? k then Done true else b <~ aget ABase B k ;; Done (b =? 0)) ;;
            _ <~ assert 6 ok ;;
            B' <~ aset ABase B k UINT64_MAX ;;
            Done (B', sub32 k 1))
         (fun st => c <~ aget ACount C (snd st) ;; Done (c =? 0))
         (B, MAX_CODE_LENGTH + 1) ;;
  Done (fst r).

(* cum = 0;
   for (k = MIN_CODE_LENGTH; k <= MAX_CODE_LENGTH; k++) { uint32_t t1 = C[k]; C[k] = cum; cum += t1; }
   assert(cum == n); *)
Definition ph_cumul (n : N) (C : list N) : M (list N) :=
  r <~ for_loop (nrange (N.to_nat MIN_CODE_LENGTH) (N.to_nat MAX_CODE_LENGTH + 1 - N.to_nat MIN_CODE_LENGTH))
         (fun k (st : list N * N) =>
            let C := fst st in let cum := snd st in
            t1 <~ aget ACount C k ;;
            C' <~ aset ACount C k cum ;;
            Done (C', add32 cum t1)) (C, 0) ;;
  _ <~ assert 7 (snd r =? n) ;;
  Done (fst r).

(* P[C[L[s]]++] = val;     (val converted to uint16_t) *)
Definition sort_put (L : list N) (s val : N) (st : list N * list N) : M (list N * list N) :=
  let C := fst st in let P := snd st in
  l <~ aget ALen L s ;;
  c <~ aget ACount C l ;;
  P' <~ aset APerm P c (val mod W16) ;;
  C' <~ aset ACount C l (add32 c 1) ;;
  Done (C', P').

(* P[C[L[0]]++] = RUN_A;
   P[C[L[1]]++] = RUN_B;
   for (s = 2; s < n - 1; s++) P[C[L[s]]++] = s - 1;
   P[C[L[n - 1]]++] = EOB; *)
Definition ph_sort (n : N) (L C P : list N) : M (list N * list N) :=
  st <~ sort_put L 0 RUN_A (C, P) ;;
  st <~ sort_put L 1 RUN_B st ;;
  st <~ for_loop (nrange 2 (N.to_nat (sub32 n 1) - 2)) (fun s st => sort_put L s (sub32 s 1) st) st ;;
  sort_put L (sub32 n 1) EOB st.

(* while (v < code) S[v++] = x;        (v is uint64_t) *)
Definition fill_run (S : list N) (v code x : N) : M (list N * N) :=
  while FUEL_START
    (fun st => Done (snd st <? code))
    (fun st => S' <~ aset AStart (fst st) (snd st) x ;; Done (S', add64 (snd st) 1))
    (S, v).

(* body of  for (s = C[k - 1]; s < C[k]; s++) :
     uint16_t x = (P[s] << 5) | k;
     v = code;
     code += inc;
     while (v < code) S[v++] = x;
   state: (S, code, s) *)
Definition start_sym (P : list N) (k inc : N) (st : list N * N * N) : M (list N * N * N) :=
  let S := fst (fst st) in let code := snd (fst st) in let s := snd st in
  p <~ aget APerm P s ;;
  ps <~ shl_int p 5 ;;                         (* uint16_t promoted to int *)
  let x := N.lor ps k mod W16 in
  let v := code in
  let code' := add64 code inc mod W32 in       (* unsigned code, uint64_t inc *)
  r <~ fill_run S v code' x ;;
  Done (fst r, code', add32 s 1).

(* body of  for (k = 1; k <= HUFF_START_WIDTH; k++) :
     for (s = C[k - 1]; s < C[k]; s++) {...}
     inc >>= 1;
   state: (S, code, inc) *)
Definition start_len (C P : list N) (k : N) (st : list N * N * N) : M (list N * N * N) :=
  let S := fst (fst st) in let code := snd (fst st) in let inc := snd st in
  s0 <~ aget ACount C (sub32 k 1) ;;
  r <~ while FUEL_ALPHA
         (fun st' => ck <~ aget ACount C k ;; Done (snd st' <? ck))
         (start_sym P k inc)
         (S, code, s0) ;;
  inc' <~ shr64 inc 1 ;;
  Done (fst (fst r), snd (fst r), inc').

(* code = 0;
   inc = 1 << (HUFF_START_WIDTH - 1);
   for (k = 1; k <= HUFF_START_WIDTH; k++) {...}
   result: (S, code) *)
Definition ph_start_lut (C P S : list N) : M (list N * N) :=
  inc <~ shl_int 1 (HUFF_START_WIDTH - 1) ;;
  r <~ for_loop (nrange 1 (N.to_nat HUFF_START_WIDTH)) (start_len C P) (S, 0, inc) ;;
  Done (fst r).

(* while (x >= B[k + 1]) k++;       [shared by make_tree and the decode sequence] *)
Definition walk (B : list N) (x k : N) : M N :=
  while FUEL_LEN
    (fun k => b <~ aget ABase B (add32 k 1) ;; Done (b <=? x))
    (fun k => Done (add32 k 1))
    k.

(* assert(k == HUFF_START_WIDTH + 1);     [exit value of the for loop]
   sofar = (uint64_t)code << (64 - HUFF_START_WIDTH);
   while (code < (1 << HUFF_START_WIDTH)) {
     while (sofar >= B[k + 1]) k++;
     S[code] = k;
     code++;
     sofar += (uint64_t)1 << (64 - HUFF_START_WIDTH);
   }
   assert(sofar == 0);
   state: (S, code, k, sofar) *)
Definition ph_start_rest (B S : list N) (code : N) : M (list N) :=
  sofar <~ shl64 code (sub32 64 HUFF_START_WIDTH) ;;
  r <~ while FUEL_START
         (fun (st : list N * N * N * N) =>
            lim <~ shl_int 1 HUFF_START_WIDTH ;; Done (snd (fst (fst st)) <? lim))
         (fun (st : list N * N * N * N) =>
            let S := fst (fst (fst st)) in let code := snd (fst (fst st)) in
            let k := snd (fst st) in let sofar := snd st in
            k' <~ walk B sofar k ;;
            S' <~ aset AStart S code (k' mod W16) ;;
            one <~ shl64 1 (sub32 64 HUFF_START_WIDTH) ;;
            Done (S', add32 code 1, k', add64 sofar one))
         (S, code, HUFF_START_WIDTH + 1, sofar) ;;
  _ <~ assert 9 (snd r =? 0) ;;
  Done (fst (fst (fst r))).

(* for (k = MAX_CODE_LENGTH; k > 0; k--) C[k] = C[k - 1];
   assert(C[0] == 0); *)
Definition ph_restore (C : list N) : M (list N) :=
  C' <~ for_loop (rev (nrange 1 (N.to_nat MAX_CODE_LENGTH)))
          (fun k C => c <~ aget ACount C (sub32 k 1) ;; aset ACount C k c) C ;;
  c0 <~ aget ACount C' 0 ;;
  _ <~ assert 10 (c0 =? 0) ;;
  Done C'.

(* what make_tree() stores in rs->mtf[rs->t] *)
Inductive verdict := VBuilt | VIncomplete | VPrefix.

Definition verdict_code (t : N) (v : verdict) : N :=
  match v with VBuilt => t | VIncomplete => E_ERR_INCOMPLT | VPrefix => E_ERR_PREFIX end.

(* make_tree(rs) with n = rs->alpha_size, L = rs->code_len, T = rs->tree[rs->t] (any previous
   contents).  Returns the verdict and the tree as it is left behind. *)
Definition make_tree (n : N) (L : list N) (T : tree) : M (verdict * tree) :=
  let S := t_start T in let B := t_base T in let P := t_perm T in
  C <~ ph_zero (t_count T) ;;
  C <~ ph_count n L C ;;
  c0 <~ aget ACount C 0 ;;
  _ <~ assert 1 (c0 =? 0) ;;                              (* assert(C[0] == 0) *)
  sofar <~ ph_kraft C ;;
  full <~ shl_int 1 MAX_CODE_LENGTH ;;                    (* 1 << MAX_CODE_LENGTH *)
  if negb (sofar =? full) then                            (* if (sofar != (1 << MAX_CODE_LENGTH)) *)
    Done (if sofar <? full then VIncomplete else VPrefix, mk_tree S B C P)
  else
    B <~ ph_base C B ;;
    B <~ ph_sentinel C B ;;
    C <~ ph_cumul n C ;;
    CP <~ ph_sort n L C P ;;
    let C := fst CP in let P := snd CP in
    Sc <~ ph_start_lut C P S ;;
    S <~ ph_start_rest B (fst Sc) (snd Sc) ;;
    C <~ ph_restore C ;;
    Done (VBuilt, mk_tree S B C P).

(* ---- the decode sequence of retrieve() -------------------------------------------------------------- *)
(* reading perm[]: only the first alpha_size entries were written by make_tree *)
Definition aget_perm (n : N) (P : list N) (i : N) : M N :=
  if i <? n then aget APerm P i else
  if i <? N.of_nat (length P) then Undef (UninitRead APerm) else Undef (OobRead APerm).

(* v: the 64-bit bit buffer.  Result: (s, k, v after DUMP(k)). *)
Definition tree_decode (n : N) (T : tree) (v : N) : M (N * N * N) :=
  c <~ shr64 v (sub32 64 HUFF_START_WIDTH) ;;               (* PEEK(HUFF_START_WIDTH) *)
  x <~ aget AStart (t_start T) c ;;                         (* x = T->start[...] *)
  let k := N.land x 31 in                                   (* k = x & 0x1F *)
  sk <~ (if k <=? HUFF_START_WIDTH then
           s <~ shr32 x 5 ;; Done (s, k)                    (* s = x >> 5 *)
         else
           k <~ walk (t_base T) v k ;;                      (* while (v >= T->base[k + 1]) k++; *)
           ck <~ aget ACount (t_count T) k ;;
           bk <~ aget ABase (t_base T) k ;;
           sh <~ shr64 (sub64 v bk) (sub32 64 k) ;;         (* (v - T->base[k]) >> (64 - k) *)
           s <~ aget_perm n (t_perm T) (add64 ck sh) ;;
           Done (s, k)) ;;
  v' <~ shl64 v (snd sk) ;;                                 (* DUMP(k): v <<= k *)
  Done (fst sk, snd sk, v').

(* ---- internal symbol numbering ------------------------------------------------------------------------ *)
(* alphabet index a (0 = RUNA, 1 = RUNB, 2.. = MTF position a-1, alpha-1 = EOB) -> value stored in perm[] *)
Definition isym (n a : N) : N :=
  if a =? 0 then RUN_A else if a =? 1 then RUN_B else if a =? n - 1 then EOB else a - 1.

(* make_tree() run on arrays whose unwritten cells hold a 0xAA.. pattern: the tree passed in and
   the tail of the length array beyond the alphabet *)
Definition fill (len : N) (x : N) : list N := repeat x (N.to_nat len).
Definition garbage_tree : tree :=
  mk_tree (fill START_SIZE 0xAAAA) (fill BASE_SIZE 0xAAAAAAAAAAAAAAAA) (fill COUNT_SIZE 0xAAAAAAAA) (fill PERM_SIZE 0xAAAA).
Definition pad_len (lens : list N) : list N := lens ++ fill (LEN_SIZE - N.of_nat (length lens)) 0xAA.

Definition build (lens : list N) : M (verdict * tree) :=
  make_tree (N.of_nat (length lens)) (pad_len lens) garbage_tree.
