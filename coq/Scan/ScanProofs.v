(* scan() returns the first occurrence of the header magic (plus 32 bits). *)
From Coq Require Import List NArith Arith Bool Lia.
From LBZ Require Import Common.Bits Gen.ScanTab Scan.ScanModel Scan.ScanTables.
Import ListNotations.

Definition no_occ_upto (w : list bool) : Prop := forall e, e <= length w -> ~ is_suffix P (firstn e w).

Lemma firstn_app_le {A} (a b : list A) e : e <= length a -> firstn e (a ++ b) = firstn e a.
Proof. intro H. rewrite firstn_app. replace (e - length a) with 0 by lia. simpl. rewrite app_nil_r. reflexivity. Qed.

Lemma no_occ_snoc w b : no_occ_upto w -> ~ is_suffix P (w ++ [b]) -> no_occ_upto (w ++ [b]).
Proof.
  intros Hn Hb e He. rewrite app_length in He. simpl in He.
  destruct (Nat.eq_dec e (length w + 1)) as [->|Hne].
  - rewrite firstn_all2 by (rewrite app_length; simpl; lia). exact Hb.
  - rewrite firstn_app_le by lia. apply Hn. lia.
Qed.

Lemma run_bits_spec bits : forall w k,
  border_len w = k -> k < 48 -> no_occ_upto w ->
  match run_bits (N.of_nat k) bits with
  | inr rest => exists pre, bits = pre ++ rest /\ is_suffix P (w ++ pre) /\ no_occ_upto (w ++ removelast pre) /\ pre <> []
  | inl st => st = N.of_nat (border_len (w ++ bits)) /\ border_len (w ++ bits) < 48 /\ no_occ_upto (w ++ bits)
  end.
Proof.
  induction bits as [|b r IH]; intros w k Hk Hlt Hn.
  - simpl. rewrite app_nil_r. subst k. auto.
  - cbn [run_bits]. rewrite (mini_ok k b Hlt). unfold mini_spec.
    rewrite <- (border_step w b k Hk Hlt).
    destruct (N.eqb_spec (N.of_nat (border_len (w ++ [b]))) ACCEPT) as [E|E].
    + rewrite ACCEPT_is_48 in E. assert (E' : border_len (w ++ [b]) = 48) by lia.
      apply full_border_iff in E'. exists [b]. simpl. rewrite app_nil_r. repeat split; auto. discriminate.
    + rewrite ACCEPT_is_48 in E.
      assert (Hlt' : border_len (w ++ [b]) < 48) by (pose proof (border_len_le (w ++ [b])); lia).
      assert (Hn' : no_occ_upto (w ++ [b])).
      { apply no_occ_snoc; [exact Hn|]. intro Hs. apply full_border_iff in Hs. lia. }
      specialize (IH (w ++ [b]) _ eq_refl Hlt' Hn').
      destruct (run_bits (N.of_nat (border_len (w ++ [b]))) r) as [st|rest].
      * rewrite <- app_assoc in IH. exact IH.
      * destruct IH as [pre [H1 [H2 [H3 H4]]]]. exists (b :: pre). subst r.
        rewrite <- app_assoc in H2. rewrite <- app_assoc in H3. simpl in H2, H3.
        repeat split; auto; [|discriminate].
        destruct pre as [|p pre']; [congruence|]. exact H3.
Qed.

Lemma fold_mini_abs_accept bits : fold_left mini_abs bits ACCEPT = ACCEPT.
Proof. induction bits as [|c r IH]; cbn [fold_left]; auto. Qed.

Lemma run_bits_fold bits : forall st, st <> ACCEPT ->
  match run_bits st bits with
  | inr _ => fold_left mini_abs bits st = ACCEPT
  | inl st' => fold_left mini_abs bits st = st' /\ st' <> ACCEPT
  end.
Proof.
  induction bits as [|b r IH]; intros st Hst; cbn [run_bits fold_left].
  - auto.
  - assert (E0 : mini_abs st b = mini st b).
    { unfold mini_abs. destruct (N.eqb_spec st ACCEPT) as [|_]; [contradiction|reflexivity]. }
    rewrite E0. destruct (N.eqb_spec (mini st b) ACCEPT) as [E|E].
    + rewrite E. apply fold_mini_abs_accept.
    + apply IH. exact E.
Qed.

Definition word_ok (w : word) : Prop :=
  let '(a, b, c, d) := w in (a < 256 /\ b < 256 /\ c < 256 /\ d < 256)%N.

Lemma mini_abs_le s b : (s <= 48)%N -> (mini_abs s b <= 48)%N.
Proof.
  intro Hs. unfold mini_abs. rewrite ACCEPT_is_48. destruct (N.eqb_spec s 48); [lia|].
  assert (Hlt : N.to_nat s < 48) by lia.
  pose proof (mini_ok (N.to_nat s) b Hlt) as H. rewrite N2Nat.id in H. rewrite H.
  pose proof (mini_spec_le (N.to_nat s) b). lia.
Qed.

Lemma fold_mini_abs_le bits : forall s, (s <= 48)%N -> (fold_left mini_abs bits s <= 48)%N.
Proof. induction bits as [|b r IH]; intros s Hs; simpl; auto. apply IH. apply mini_abs_le. exact Hs. Qed.

Lemma big4_fold st w : (st <= 48)%N -> word_ok w -> big4 st w = fold_left mini_abs (bits_of_word w) st.
Proof.
  destruct w as [[[a b] c] d]. intros Hs [Ha [Hb [Hc Hd]]]. unfold big4, bits_of_word.
  rewrite !fold_left_app.
  rewrite <- (big_ok st a Hs Ha).
  assert (H1 : (big st a <= 48)%N) by (rewrite (big_ok st a Hs Ha); apply fold_mini_abs_le; exact Hs).
  rewrite <- (big_ok _ b H1 Hb).
  assert (H2 : (big (big st a) b <= 48)%N) by (rewrite (big_ok _ b H1 Hb); apply fold_mini_abs_le; exact H1).
  rewrite <- (big_ok _ c H2 Hc).
  assert (H3 : (big (big (big st a) b) c <= 48)%N) by (rewrite (big_ok _ c H2 Hc); apply fold_mini_abs_le; exact H2).
  rewrite <- (big_ok _ d H3 Hd). reflexivity.
Qed.

Definition result_spec (B : list bool) (r : scan_result) : Prop :=
  match r with
  | ScanOK rest => exists e, first_occ_end B e /\ e + 32 <= length B /\ flat rest = skipn (e + 32) B
  | ScanMORE rest => rest = consumed /\ forall e, occ_end B e -> length B < e + 32
  end.

Lemma flat_cons l w ws : flat {| live := l; data := w :: ws |} = l ++ bits_of_word w ++ flat_map bits_of_word ws.
Proof. reflexivity. Qed.

Lemma skipn_app_ge {A} n (a b : list A) : length a <= n -> skipn n (a ++ b) = skipn (n - length a) b.
Proof. intro H. rewrite skipn_app. rewrite (skipn_all2 a) by lia. reflexivity. Qed.

Lemma skipn_app_le {A} n (a b : list A) : n <= length a -> skipn n (a ++ b) = skipn n a ++ b.
Proof. intro H. rewrite skipn_app. replace (n - length a) with 0 by lia. reflexivity. Qed.

Lemma first_occ_at w' tail : is_suffix P w' -> no_occ_upto (removelast w') -> w' <> [] ->
  first_occ_end (w' ++ tail) (length w').
Proof.
  intros Hs Hn Hne. split.
  - split; [rewrite app_length; lia|]. rewrite firstn_app_le by lia. rewrite firstn_all. exact Hs.
  - intros e' [He1 He2]. destruct (le_lt_dec (length w') e') as [|Hlt]; [assumption|exfalso].
    destruct (exists_last_or_nil w') as [->|[u [c ->]]]; [congruence|].
    rewrite removelast_last in Hn. rewrite app_length in Hlt. simpl in Hlt.
    apply (Hn e'); [lia|]. rewrite <- app_assoc in He2. rewrite firstn_app_le in He2 by lia. exact He2.
Qed.

Lemma finish_spec w' rest ws : is_suffix P w' -> no_occ_upto (removelast w') -> w' <> [] ->
  result_spec (w' ++ rest ++ flat_map bits_of_word ws) (finish rest ws).
Proof.
  intros Hs Hn Hne. pose proof (first_occ_at w' (rest ++ flat_map bits_of_word ws) Hs Hn Hne) as Hf.
  unfold finish. destruct (Nat.leb_spec 32 (length rest)) as [Hl|Hl].
  - exists (length w'). split; [exact Hf|]. split; [rewrite !app_length; lia|].
    unfold flat; simpl. rewrite skipn_app_ge by lia.
    replace (length w' + 32 - length w') with 32 by lia. rewrite skipn_app_le by lia. reflexivity.
  - destruct ws as [|w1 ws'].
    + split; [reflexivity|]. intros e He. destruct Hf as [_ Hmin]. specialize (Hmin e He).
      simpl. rewrite !app_length. simpl. lia.
    + exists (length w'). split; [exact Hf|]. pose proof (bits_of_word_length w1) as Hw.
      split; [simpl; rewrite !app_length; lia|].
      unfold flat; simpl. rewrite skipn_app_ge by lia.
      replace (length w' + 32 - length w') with 32 by lia.
      rewrite app_assoc. rewrite skipn_app_le by (rewrite app_length; lia). reflexivity.
Qed.

Lemma no_occ_result w : no_occ_upto w -> forall e, occ_end w e -> False.
Proof. intros Hn e [H1 H2]. exact (Hn e H1 H2). Qed.

Lemma scan_words_spec ws : Forall word_ok ws -> forall w k,
  border_len w = k -> k < 48 -> no_occ_upto w ->
  result_spec (w ++ flat_map bits_of_word ws) (scan_words (N.of_nat k) ws).
Proof.
  induction ws as [|w1 ws IH]; intros Hok w k Hk Hlt Hn.
  - simpl. rewrite app_nil_r. split; [reflexivity|]. intros e He. exfalso. exact (no_occ_result w Hn e He).
  - inversion Hok as [|? ? Hw1 Hws]; subst. cbn [scan_words flat_map].
    assert (Hst : (N.of_nat (border_len w) <= 48)%N) by lia.
    rewrite (big4_fold _ w1 Hst Hw1).
    assert (Hna : N.of_nat (border_len w) <> ACCEPT) by (rewrite ACCEPT_is_48; lia).
    pose proof (run_bits_fold (bits_of_word w1) (N.of_nat (border_len w)) Hna) as Hf.
    pose proof (run_bits_spec (bits_of_word w1) w _ eq_refl Hlt Hn) as Hr.
    destruct (run_bits (N.of_nat (border_len w)) (bits_of_word w1)) as [st|rest].
    + destruct Hf as [Hf1 Hf2]. rewrite Hf1. destruct (N.eqb_spec st ACCEPT); [contradiction|].
      destruct Hr as [Hr1 [Hr2 Hr3]]. rewrite Hr1. rewrite app_assoc. apply IH; auto.
    + rewrite Hf. rewrite N.eqb_refl. destruct Hr as [pre [Hp1 [Hp2 [Hp3 Hp4]]]].
      rewrite Hp1. rewrite <- app_assoc. rewrite app_assoc. apply finish_spec.
      * exact Hp2.
      * destruct (exists_last_or_nil pre) as [->|[u [c ->]]]; [congruence|].
        rewrite removelast_last in Hp3. rewrite app_assoc, removelast_last. exact Hp3.
      * destruct w; destruct pre; simpl; congruence.
Qed.

Lemma border_len_nil : border_len [] = 0.
Proof. reflexivity. Qed.

Lemma no_occ_nil : no_occ_upto [].
Proof. intros e He Hs. apply is_suffix_length in Hs. rewrite firstn_nil, P_length in Hs. simpl in Hs. lia. Qed.

Theorem scan_from_spec bs : Forall word_ok (data bs) -> result_spec (flat bs) (scan_from bs).
Proof.
  intro Hok. unfold scan_from, flat.
  pose proof (run_bits_spec (live bs) [] 0 border_len_nil ltac:(lia) no_occ_nil) as Hr.
  simpl in Hr. change (N.of_nat 0) with 0%N in Hr.
  destruct (run_bits 0%N (live bs)) as [st|rest].
  - destruct Hr as [Hr1 [Hr2 Hr3]]. subst st. apply scan_words_spec; auto.
  - destruct Hr as [pre [Hp1 [Hp2 [Hp3 Hp4]]]]. rewrite Hp1, <- app_assoc.
    apply finish_spec; auto.
Qed.

Lemma apply_skip_suffix bs skip : is_suffix (flat (apply_skip bs skip)) (flat bs).
Proof.
  unfold apply_skip. destruct (Nat.ltb_spec (length (live bs)) skip) as [H|H]; [|apply is_suffix_refl].
  unfold flat; simpl. set (n := (skip - length (live bs) + 31) / 32).
  exists (live bs ++ flat_map bits_of_word (firstn n (data bs))).
  rewrite <- app_assoc. f_equal. rewrite <- flat_map_app. rewrite firstn_skipn. reflexivity.
Qed.

Lemma apply_skip_ok bs skip : Forall word_ok (data bs) -> Forall word_ok (data (apply_skip bs skip)).
Proof.
  intro H. unfold apply_skip. destruct (length (live bs) <? skip); [|exact H]. simpl.
  rewrite <- (firstn_skipn ((skip - length (live bs) + 31) / 32) (data bs)) in H.
  apply Forall_app in H. tauto.
Qed.

Theorem scan_spec bs skip : Forall word_ok (data bs) ->
  result_spec (flat (apply_skip bs skip)) (scan bs skip).
Proof. intro H. apply scan_from_spec. apply apply_skip_ok. exact H. Qed.

Corollary scan_complete bs skip e : Forall word_ok (data bs) ->
  let B := flat (apply_skip bs skip) in
  occ_end B e -> e + 32 <= length B -> exists rest, scan bs skip = ScanOK rest.
Proof.
  intros Hok B He Hl. pose proof (scan_spec bs skip Hok) as H.
  destruct (scan bs skip) as [rest|rest]; [eauto|]. destruct H as [_ H]. specialize (H e He). fold B in H. lia.
Qed.

Definition eff_start (bs : bitstream) (skip : nat) : nat :=
  if length (live bs) <? skip
  then length (live bs) + 32 * Nat.min ((skip - length (live bs) + 31) / 32) (length (data bs))
  else 0.

Lemma flat_map_skipn_words n : forall ws,
  flat_map bits_of_word (skipn n ws) = skipn (32 * Nat.min n (length ws)) (flat_map bits_of_word ws).
Proof.
  induction n as [|n IH]; intros ws.
  - simpl. reflexivity.
  - destruct ws as [|w ws]; [reflexivity|]. cbn [skipn flat_map length].
    rewrite IH. replace (32 * Nat.min (S n) (S (length ws))) with (32 + 32 * Nat.min n (length ws)) by lia.
    rewrite skipn_app_ge by (rewrite bits_of_word_length; lia). rewrite bits_of_word_length.
    f_equal. lia.
Qed.

Lemma apply_skip_flat bs skip : flat (apply_skip bs skip) = skipn (eff_start bs skip) (flat bs).
Proof.
  unfold apply_skip, eff_start. destruct (Nat.ltb_spec (length (live bs)) skip) as [H|H]; [|reflexivity].
  unfold flat; cbn [live data]. rewrite skipn_app_ge by lia.
  rewrite flat_map_skipn_words. cbn [app]. f_equal. lia.
Qed.

(* the scan never starts before the requested skip unless the skip lies within
   the bits already buffered (then nothing is skipped), or the block is exhausted *)
Lemma eff_start_ge bs skip : length (live bs) < skip ->
  skip <= eff_start bs skip \/ flat (apply_skip bs skip) = [].
Proof.
  intro H. unfold eff_start. destruct (Nat.ltb_spec (length (live bs)) skip) as [_|]; [|lia].
  set (n := (skip - length (live bs) + 31) / 32).
  destruct (le_lt_dec n (length (data bs))) as [Hle|Hgt].
  - left. rewrite Nat.min_l by lia.
    assert (skip - length (live bs) + 31 < 32 * n + 32).
    { unfold n. pose proof (Nat.div_mod (skip - length (live bs) + 31) 32 ltac:(lia)).
      pose proof (Nat.mod_upper_bound (skip - length (live bs) + 31) 32 ltac:(lia)). lia. }
    lia.
  - right. unfold apply_skip. destruct (Nat.ltb_spec (length (live bs)) skip) as [_|]; [|lia].
    unfold flat; cbn [live data]. fold n. rewrite skipn_all2 by lia. reflexivity.
Qed.
