(* The regenerated scanner tables are the KMP automaton of the header magic. *)
From Coq Require Import List NArith Arith Bool Lia.
From LBZ Require Import Common.Bits Gen.ScanTab Scan.ScanModel.
Import ListNotations.

Lemma P_length : length P = 48.
Proof. reflexivity. Qed.

Lemma ACCEPT_is_48 : ACCEPT = 48%N.
Proof. vm_compute. reflexivity. Qed.

Lemma suffixb_spec u w : suffixb u w = true <-> is_suffix u w.
Proof.
  unfold suffixb. split.
  - intro H. apply andb_true_iff in H as [H1 H2]. apply Nat.leb_le in H1.
    apply bl_eqb_spec in H2. exists (firstn (length w - length u) w).
    rewrite H2 at 2. symmetry. apply firstn_skipn.
  - intros [t ->]. apply andb_true_iff. split.
    + apply Nat.leb_le. rewrite app_length. lia.
    + apply bl_eqb_spec. rewrite app_length.
      replace (length t + length u - length u) with (length t + 0) by lia.
      rewrite skipn_app. replace (length t + 0 - length t) with 0 by lia.
      rewrite (skipn_all2 t) by lia. reflexivity.
Qed.

Definition Border (w : list bool) (k : nat) : Prop := k <= length P /\ is_suffix (firstn k P) w.

Lemma best_spec w k : k <= length P ->
  best w k <= k /\ is_suffix (firstn (best w k) P) w /\
  (forall j, j <= k -> is_suffix (firstn j P) w -> j <= best w k).
Proof.
  induction k as [|k IH]; intro Hk.
  - simpl. repeat split; auto. apply is_suffix_nil.
  - cbn [best]. destruct (suffixb (firstn (S k) P) w) eqn:E.
    + apply suffixb_spec in E. repeat split; auto.
    + destruct IH as [I1 [I2 I3]]; [lia|]. repeat split; auto.
      intros j Hj Hs. destruct (Nat.eq_dec j (S k)) as [->|Hne].
      * apply suffixb_spec in Hs. congruence.
      * apply I3; [lia|exact Hs].
Qed.

Lemma border_len_Border w : Border w (border_len w).
Proof.
  unfold border_len. destruct (best_spec w (length P)) as [H1 [H2 _]]; [lia|]. split; assumption.
Qed.

Lemma border_len_max w j : Border w j -> j <= border_len w.
Proof.
  intros [H1 H2]. unfold border_len. destruct (best_spec w (length P)) as [_ [_ H3]]; [lia|]. apply H3; assumption.
Qed.

Lemma border_len_le w : border_len w <= 48.
Proof. destruct (border_len_Border w) as [H _]. exact H. Qed.

Lemma border_len_unique w k : Border w k -> (forall j, Border w j -> j <= k) -> border_len w = k.
Proof.
  intros Hk Hmax. apply Nat.le_antisymm.
  - apply Hmax. apply border_len_Border.
  - apply border_len_max. exact Hk.
Qed.

Lemma firstn_P_all : firstn 48 P = P.
Proof. reflexivity. Qed.

Lemma full_border_iff w : border_len w = 48 <-> is_suffix P w.
Proof.
  split.
  - intro H. destruct (border_len_Border w) as [_ Hs]. rewrite H, firstn_P_all in Hs. exact Hs.
  - intro H. apply Nat.le_antisymm; [apply border_len_le|].
    apply border_len_max. split; [rewrite P_length; lia|]. rewrite firstn_P_all. exact H.
Qed.

Lemma firstn_S_snoc (k : nat) : k < 48 -> firstn (S k) P = firstn k P ++ [nth k P false].
Proof.
  intro Hk. rewrite <- (firstn_skipn k P) at 1.
  assert (Hl : length (firstn k P) = k) by (rewrite firstn_length, P_length; lia).
  destruct (skipn k P) as [|c r] eqn:E.
  - apply (f_equal (@length bool)) in E. rewrite skipn_length, P_length in E. change (length (@nil bool)) with 0 in E. lia.
  - assert (Hc : nth k P false = c).
    { rewrite <- (firstn_skipn k P) at 1. rewrite app_nth2; rewrite Hl; [|lia].
      rewrite Nat.sub_diag, E. reflexivity. }
    rewrite Hc. replace (S k) with (length (firstn k P) + 1) by lia.
    rewrite firstn_app_2. simpl. reflexivity.
Qed.

(* the KMP step: borders of w++[b] are exactly the borders of (P[0..k) ++ [b]) *)
Lemma border_step w b k : border_len w = k -> k < 48 ->
  border_len (w ++ [b]) = border_len (firstn k P ++ [b]).
Proof.
  intros Hk Hlt. apply border_len_unique.
  - destruct (border_len_Border (firstn k P ++ [b])) as [B1 B2]. split; [exact B1|].
    eapply is_suffix_trans; [exact B2|]. apply is_suffix_snoc.
    destruct (border_len_Border w) as [_ Hs]. rewrite Hk in Hs. exact Hs.
  - intros j [Hj Hs]. apply border_len_max. split; [exact Hj|].
    destruct j as [|j]; [apply is_suffix_nil|].
    rewrite P_length in Hj.
    rewrite firstn_S_snoc in Hs |- * by lia.
    apply is_suffix_snoc_inv in Hs. destruct Hs as [Hs|[u' [Hu Hs]]].
    + destruct (firstn j P); discriminate.
    + apply app_snoc_inj in Hu as [Hu1 Hu2]. subst u'. rewrite Hu2.
      apply is_suffix_snoc.
      assert (Hjk : j <= k).
      { rewrite <- Hk. apply border_len_max. split; [rewrite P_length; lia|exact Hs]. }
      destruct (border_len_Border w) as [_ Hw]. rewrite Hk in Hw.
      eapply is_suffix_common; [exact Hs|exact Hw|].
      rewrite !firstn_length, P_length. lia.
Qed.

Lemma nth_map_of_nat {A} (f : N -> A) d n x : (x < N.of_nat n)%N ->
  nth (N.to_nat x) (map f (map N.of_nat (seq 0 n))) d = f x.
Proof.
  intro H. rewrite map_map, (nth_indep _ d (f (N.of_nat 0))) by (rewrite map_length, seq_length; lia).
  rewrite (map_nth (fun i => f (N.of_nat i))), seq_nth by lia. cbn [Nat.add]. rewrite N2Nat.id. reflexivity.
Qed.

Definition mini_table_ok : bool :=
  forallb (fun s => forallb (fun b => N.eqb (mini (N.of_nat s) b) (N.of_nat (mini_spec s b))) [false; true]) (seq 0 48).

Lemma mini_table_ok_true : mini_table_ok = true.
Proof. vm_compute. reflexivity. Qed.

Lemma mini_ok s b : s < 48 -> mini (N.of_nat s) b = N.of_nat (mini_spec s b).
Proof.
  intro Hs. assert (H : In s (seq 0 48)) by (apply in_seq; lia).
  apply (forallb_In _ _ mini_table_ok eq_refl mini_table_ok_true) in H. cbn [forallb] in H.
  apply andb_true_iff in H as [H0 H1]. apply andb_true_iff in H1 as [H1 _].
  apply N.eqb_eq. destruct b; assumption.
Qed.

(* Row [s] of the byte table must be the list of states reached from [s] on the 256 bit strings
   of length 8 in increasing order; [fan] walks their common prefixes once, and the rows are
   compared with the table as lists, so no entry is looked up by index during evaluation. *)
Fixpoint allbits (n : nat) : list (list bool) :=
  match n with
  | 0 => [[]]
  | S n' => map (cons false) (allbits n') ++ map (cons true) (allbits n')
  end.

Fixpoint fan (n : nat) (s : N) : list N :=
  match n with
  | 0 => [s]
  | S n' => fan n' (mini_abs s false) ++ fan n' (mini_abs s true)
  end.

Lemma fan_spec n : forall s, fan n s = map (fun bs => fold_left mini_abs bs s) (allbits n).
Proof.
  induction n as [|n IH]; intro s; [reflexivity|].
  cbn [fan allbits]. rewrite map_app, !map_map, !IH. reflexivity.
Qed.

Lemma allbits_bytes : allbits 8 = map bits8 (map N.of_nat (seq 0 256)).
Proof. vm_compute. reflexivity. Qed.

Lemma big_rows : big_dfa = map (fan 8) (map N.of_nat (seq 0 49)).
Proof. vm_compute. reflexivity. Qed.

Lemma big_ok s c : (s <= 48)%N -> (c < 256)%N -> big s c = fold_left mini_abs (bits8 c) s.
Proof.
  intros Hs Hc. unfold big, tab2. rewrite big_rows, (nth_map_of_nat (fan 8)) by lia.
  rewrite fan_spec, allbits_bytes, map_map.
  apply (nth_map_of_nat (fun c => fold_left mini_abs (bits8 c) s)). lia.
Qed.

Definition big_table_ok : bool :=
  forallb (fun s => forallb (fun c =>
      N.eqb (big (N.of_nat s) (N.of_nat c)) (fold_left mini_abs (bits8 (N.of_nat c)) (N.of_nat s)))
    (seq 0 256)) (seq 0 49).

Lemma big_table_ok_true : big_table_ok = true.
Proof.
  apply forallb_forall. intros s Hs. apply forallb_forall. intros c Hc.
  apply in_seq in Hs, Hc. apply N.eqb_eq, big_ok; lia.
Qed.

Lemma mini_spec_le s b : mini_spec s b <= 48.
Proof. apply border_len_le. Qed.
