(* The table-driven delta reader of lbzip2 against the strict bit-by-bit reader:
   both directions, by a finite closed check over the regenerated tables lifted
   to all bit strings by Sim.sim_ok. *)
From Coq Require Import List NArith Arith Bool Lia.
From LBZ Require Import Common.Bits Dec.Prog Dec.Sim Gen.DecTabs Gen.Consts Dec.Delta.
Import ListNotations.
Local Open Scope N_scope.

Definition w_eqb (a b : wstate) : bool :=
  let '(a1, a2, a3, a4) := a in let '(b1, b2, b3, b4) := b in
  (a1 =? b1) && (a2 =? b2) && (a3 =? b3) && (a4 =? b4).
Definition s_eqb (a b : sstate) : bool :=
  let '(a1, a2) := a in let '(b1, b2) := b in (a1 =? b1) && (a2 =? b2).

Lemma w_eqb_eq a b : w_eqb a b = true -> a = b.
Proof.
  destruct a as [[[a1 a2] a3] a4], b as [[[b1 b2] b3] b4]. unfold w_eqb.
  rewrite !andb_true_iff, !N.eqb_eq. intros [[[-> ->] ->] ->]. reflexivity.
Qed.
Lemma s_eqb_eq a b : s_eqb a b = true -> a = b.
Proof.
  destruct a as [a1 a2], b as [b1 b2]. unfold s_eqb.
  rewrite andb_true_iff, !N.eqb_eq. intros [-> ->]. reflexivity.
Qed.

Definition pair_eqb (p q : wstate * sstate) : bool := w_eqb (fst p) (fst q) && s_eqb (snd p) (snd q).

Definition is_run {A} (st : mstatus A) : bool := match st with MRun => true | _ => false end.

Definition succ_pairs (p : wstate * sstate) : list (wstate * sstate) :=
  let '(w, s) := p in
  if is_run (win_stat w) && is_run (strict_stat s) then
    [(win_step w false, strict_step s false); (win_step w true, strict_step s true)]
  else [].

Fixpoint add_new (ps new : list (wstate * sstate)) : list (wstate * sstate) :=
  match new with
  | [] => ps
  | p :: r => if existsb (pair_eqb p) ps then add_new ps r else add_new (ps ++ [p]) r
  end.

Fixpoint explore (d : nat) (ps : list (wstate * sstate)) : list (wstate * sstate) :=
  match d with
  | 0%nat => ps
  | S d' => explore d' (add_new ps (flat_map succ_pairs ps))
  end.

Definition init_pairs : list (wstate * sstate) :=
  map (fun c => ((0, N.of_nat c, 0, 0), (0, N.of_nat c))) (seq 0 32).

(* Nothing is proved about the search: what it returns is validated by the checks below, so it is
   run when this definition is made and not again whenever the checks are evaluated. *)
Definition pairs : list (wstate * sstate) := Eval vm_compute in explore 7 init_pairs.

Definition rel_ws (w : wstate) (s : sstate) : bool := existsb (pair_eqb (w, s)) pairs.

Definition init_ok : bool :=
  forallb (fun c => rel_ws (0, N.of_nat c, 0, 0) (0, N.of_nat c)) (seq 0 32).
(* lbzip2 accepts => strict accepts (the direction that finding F1 of DESIGN.md is about) *)
Definition closed_ws : bool :=
  forallb (fun p => compat win_machine strict_machine rel_ws 7 (fst p) (snd p)) pairs.
(* strict accepts => lbzip2 accepts *)
Definition closed_sw : bool :=
  forallb (fun p => compat strict_machine win_machine (fun s w => rel_ws w s) 7 (snd p) (fst p)) pairs.

Lemma init_ok_true : init_ok = true.
Proof. vm_compute. reflexivity. Qed.
Lemma closed_ws_true : closed_ws = true.
Proof. vm_compute. reflexivity. Qed.
Lemma closed_sw_true : closed_sw = true.
Proof. vm_compute. reflexivity. Qed.

Lemma rel_ws_in w s : rel_ws w s = true -> In (w, s) pairs.
Proof.
  unfold rel_ws. intro H. apply existsb_exists in H as [[w' s'] [Hin He]].
  unfold pair_eqb in He. simpl in He. apply andb_true_iff in He as [H1 H2].
  apply w_eqb_eq in H1. apply s_eqb_eq in H2. subst. exact Hin.
Qed.

Lemma init_rel c : c < 32 -> rel_ws (0, c, 0, 0) (0, c) = true.
Proof.
  intro H. rewrite <- (N2Nat.id c).
  apply (forallb_In _ _ init_ok eq_refl init_ok_true (N.to_nat c)), in_seq. lia.
Qed.

Theorem win_to_strict fuel cur bits v r : cur < 32 ->
  run (win_delta fuel cur) bits = Ok (v, r) -> run (strict_delta fuel cur) bits = Ok (v, r).
Proof.
  intro Hcur. apply (sim_ok win_machine strict_machine rel_ws 7); [|apply init_rel, Hcur].
  intros w s Hr. apply (forallb_In _ pairs closed_ws eq_refl closed_ws_true (w, s)), rel_ws_in, Hr.
Qed.

Theorem strict_to_win fuel cur bits v r : cur < 32 ->
  run (strict_delta fuel cur) bits = Ok (v, r) -> run (win_delta fuel cur) bits = Ok (v, r).
Proof.
  intro Hcur. apply (sim_ok strict_machine win_machine (fun s w => rel_ws w s) 7); [|apply init_rel, Hcur].
  intros s w Hr. apply (forallb_In _ pairs closed_sw eq_refl closed_sw_true (w, s)), rel_ws_in, Hr.
Qed.

(* results of the strict reader are code lengths in range: the only step into the final state is
   the one taken after the range check *)
Lemma strict_step_done s b v :
  strict_stat s = MRun -> strict_stat (strict_step s b) = MDone v -> in_len_range v = true.
Proof.
  destruct s as [tag cur]. unfold strict_stat at 1, strict_step. destruct (tag =? 0).
  - destruct (in_len_range cur) eqn:R; [intros _|discriminate]. destruct b; [discriminate|].
    intro H. injection H as <-. exact R.
  - destruct (tag =? 1); [intros _|destruct (tag =? 2); discriminate].
    cbn. destruct (in_len_range _); discriminate.
Qed.

Lemma strict_lengths_in_range fuel cur bits v r :
  run (strict_delta fuel cur) bits = Ok (v, r) -> in_len_range v = true.
Proof.
  apply (mprog_result strict_machine (fun v => in_len_range v = true) strict_step_done).
  cbn. intro v'. destruct (in_len_range cur); discriminate.
Qed.

Lemma strict_delta_range fuel cur bits v r :
  run (strict_delta fuel cur) bits = Ok (v, r) -> v < 32.
Proof.
  intro H. apply strict_lengths_in_range in H.
  unfold in_len_range in H. apply andb_true_iff in H as [_ H]. apply N.leb_le in H.
  assert (MAX_CODE_LENGTH < 32) by (vm_compute; reflexivity). lia.
Qed.
