(* Generic facts about reader programs: the frame property, what [take] does, and a
   simulation principle for finite-state machine readers whose hypothesis is a closed
   boolean check (to be discharged by computation on regenerated tables). *)
From Coq Require Import List NArith Arith Bool Lia.
From LBZ Require Import Common.Bits Dec.Prog.
Import ListNotations.

Lemma run_frame {A} (p : prog A) : forall bits a rest,
  run p bits = Ok (a, rest) ->
  exists d, bits = d ++ rest /\ forall rest', run p (d ++ rest') = Ok (a, rest').
Proof.
  induction p as [a0|k IH|e]; intros bits a rest H; simpl in H.
  - inversion H; subst. exists []. split; [reflexivity|]. intros. reflexivity.
  - destruct bits as [|b r]; [discriminate|].
    destruct (IH b r a rest H) as [d [Hd Hf]]. exists (b :: d). split.
    + simpl. rewrite Hd. reflexivity.
    + intros rest'. simpl. apply Hf.
  - discriminate.
Qed.

Lemma run_bind {A B} (p : prog A) (f : A -> prog B) bits :
  run (bind p f) bits = match run p bits with
                        | Ok (a, r) => run (f a) r
                        | Err e => Err e
                        end.
Proof.
  revert bits. induction p as [a0|k IH|e]; intros bits; simpl; auto.
  destruct bits as [|b r]; auto.
Qed.

Lemma run_rest_le {A} (p : prog A) bits a r : run p bits = Ok (a, r) -> (length r <= length bits)%nat.
Proof. intro H. destruct (run_frame p bits a r H) as [d [-> _]]. rewrite app_length. lia. Qed.

Lemma N_of_bits_acc_shift : forall a acc,
  N_of_bits_acc acc a = (acc * 2 ^ N.of_nat (length a) + N_of_bits a)%N.
Proof.
  induction a as [|b r IH]; intro acc; [cbn; lia|].
  unfold N_of_bits. cbn [N_of_bits_acc length]. rewrite IH, (IH (2 * 0 + _)%N).
  rewrite Nat2N.inj_succ, N.pow_succ_r'. destruct b; lia.
Qed.

Lemma N_of_bits_bound a : (N_of_bits a < 2 ^ N.of_nat (length a))%N.
Proof.
  induction a as [|b r IH]; [reflexivity|].
  unfold N_of_bits. cbn [N_of_bits_acc length]. rewrite N_of_bits_acc_shift.
  rewrite Nat2N.inj_succ, N.pow_succ_r'. destruct b; lia.
Qed.

Lemma run_take_acc n : forall acc bits,
  run (take_acc n acc) bits =
  if (length bits <? n)%nat then Err EOF else Ok (N_of_bits_acc acc (firstn n bits), skipn n bits).
Proof. induction n as [|n IH]; intros acc [|b r]; try reflexivity. apply IH. Qed.

Lemma run_take n bits :
  run (take n) bits =
  if (length bits <? n)%nat then Err EOF else Ok (N_of_bits (firstn n bits), skipn n bits).
Proof. apply run_take_acc. Qed.

Lemma run_take_err n bits e : run (take n) bits = Err e -> e = EOF.
Proof. rewrite run_take. destruct (_ <? _)%nat; congruence. Qed.

Lemma run_take_ok n bits v r : run (take n) bits = Ok (v, r) ->
  exists a, bits = a ++ r /\ length a = n /\ v = N_of_bits a.
Proof.
  rewrite run_take. destruct (Nat.ltb_spec (length bits) n) as [|L]; [discriminate|].
  intro H. injection H as <- <-. exists (firstn n bits).
  rewrite firstn_skipn, firstn_length_le by exact L. auto.
Qed.

Lemma run_take_app0 n a r : length a = n -> run (take n) (a ++ r) = Ok (N_of_bits a, r).
Proof.
  intros <-. rewrite run_take, app_length, firstn_app, skipn_app, Nat.sub_diag, firstn_all, skipn_all.
  destruct (Nat.ltb_spec (length a + length r) (length a)); [lia|]. cbn. rewrite app_nil_r. reflexivity.
Qed.

Lemma run_take_length n bits v r : run (take n) bits = Ok (v, r) -> length bits = (n + length r)%nat.
Proof. intro H. apply run_take_ok in H as [a [-> [L _]]]. rewrite app_length. lia. Qed.

Lemma take_lt n bits v r : run (take n) bits = Ok (v, r) -> (v < 2 ^ N.of_nat n)%N.
Proof. intro H. apply run_take_ok in H as [a [_ [<- ->]]]. apply N_of_bits_bound. Qed.

Lemma run_take_acc_add n1 n2 : forall acc bits,
  run (take_acc (n1 + n2) acc) bits =
  match run (take_acc n1 acc) bits with
  | Err e => Err e
  | Ok (h, r) => run (take_acc n2 h) r
  end.
Proof.
  induction n1 as [|n1 IH]; intros acc bits; cbn [Nat.add take_acc run]; [reflexivity|].
  destruct bits as [|b r]; [reflexivity|]. apply IH.
Qed.

Lemma run_take_add n1 n2 bits :
  run (take (n1 + n2)) bits =
  match run (take n1) bits with
  | Err e => Err e
  | Ok (h, r) =>
      match run (take n2) r with
      | Err e => Err e
      | Ok (l, r') => Ok ((h * 2 ^ N.of_nat n2 + l)%N, r')
      end
  end.
Proof.
  unfold take at 1 2. rewrite run_take_acc_add. destruct (run (take_acc n1 0) bits) as [[h r]|e]; [|reflexivity].
  rewrite run_take, run_take_acc. destruct (Nat.ltb_spec (length r) n2) as [|L]; [reflexivity|].
  rewrite N_of_bits_acc_shift, firstn_length_le by exact L. reflexivity.
Qed.

Lemma mprog_eq {S A} (m : machine S A) fuel s :
  mprog m fuel s =
  match mstat m s with
  | MDone a => Ret a
  | MFail e => Fail e
  | MRun => match fuel with 0 => Fail ErrFuel | Datatypes.S f => Bit (fun b => mprog m f (mstep m s b)) end
  end.
Proof. destruct fuel; reflexivity. Qed.

Lemma mprog_result {S A} (m : machine S A) (Q : A -> Prop) :
  (forall s b v, mstat m s = MRun -> mstat m (mstep m s b) = MDone v -> Q v) ->
  forall fuel s bits v r, (forall v, mstat m s = MDone v -> Q v) ->
    run (mprog m fuel s) bits = Ok (v, r) -> Q v.
Proof.
  intros Hstep. induction fuel as [|f IH]; intros s bits v r Hs H; cbn [mprog] in H;
    destruct (mstat m s) eqn:E; try discriminate; try (injection H as <- _; apply Hs; reflexivity).
  destruct bits as [|b rest]; [discriminate|]. apply (IH _ _ _ _ (fun v' => Hstep s b v' E) H).
Qed.

Section Machines.
  Context {S1 S2 : Type}.
  Variable m1 : machine S1 N.
  Variable m2 : machine S2 N.

  (* every continuation of [s] ends in an error (within depth d) *)
  Fixpoint doomed (d : nat) (s : S1) : bool :=
    match mstat m1 s with
    | MFail _ => true
    | MDone _ => false
    | MRun => match d with
              | 0 => false
              | S d' => doomed d' (mstep m1 s false) && doomed d' (mstep m1 s true)
              end
    end.

  Lemma doomed_fails d : forall s, doomed d s = true ->
    forall fuel bits x, run (mprog m1 fuel s) bits <> Ok x.
  Proof.
    induction d as [|d IH]; intros s H fuel bits x; rewrite mprog_eq; cbn [doomed] in H;
      destruct (mstat m1 s); try discriminate.
    destruct fuel as [|f]; [discriminate|]. apply andb_true_iff in H as [H0 H1].
    destruct bits as [|[] r]; [discriminate| |]; cbn; auto.
  Qed.

  Variable rel : S1 -> S2 -> bool.
  Variable depth : nat.

  (* one-directional compatibility: whenever m1 ends in a value, m2 ends in the same *)
  Definition compat (s1 : S1) (s2 : S2) : bool :=
    match mstat m1 s1, mstat m2 s2 with
    | MDone a, MDone b => N.eqb a b
    | MRun, MRun => rel (mstep m1 s1 false) (mstep m2 s2 false) && rel (mstep m1 s1 true) (mstep m2 s2 true)
    | MFail _, _ => true
    | MRun, MFail _ => doomed depth s1
    | MRun, MDone _ => false
    | MDone _, _ => false
    end.

  Hypothesis closed : forall s1 s2, rel s1 s2 = true -> compat s1 s2 = true.

  Theorem sim_ok : forall fuel bits s1 s2 v r, rel s1 s2 = true ->
    run (mprog m1 fuel s1) bits = Ok (v, r) -> run (mprog m2 fuel s2) bits = Ok (v, r).
  Proof.
    (* by cases on the two statuses: [compat] excludes a final m1 beside a running or differently
       final m2, a running m1 beside a failed m2 is doomed, a failed m1 yields no value; what is
       left is Done/Done and Run/Run *)
    induction fuel as [|f IH]; intros bits s1 s2 v r Hrel H; pose proof (closed s1 s2 Hrel) as C; unfold compat in C;
      destruct (mstat m1 s1) eqn:E1, (mstat m2 s2) eqn:E2; try discriminate C;
      try (exfalso; exact (doomed_fails _ _ C _ _ _ H));
      rewrite mprog_eq, E1 in H; rewrite mprog_eq, E2; try discriminate H.
    - apply N.eqb_eq in C as <-. exact H.
    - apply andb_true_iff in C as [C0 C1]. destruct bits as [|[] rest]; [discriminate H| |]; cbn in *; eauto.
    - apply N.eqb_eq in C as <-. exact H.
  Qed.
End Machines.
