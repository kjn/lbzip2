(* C15: flipping any bit of a stored block or stream CRC makes decoding fail. *)
From Coq Require Import List NArith Arith Bool Lia.
From LBZ Require Import Common.Bits Dec.Prog Dec.Sim Dec.Format Dec.Head.
Import ListNotations.

Definition flip (i : nat) (l : list bool) : list bool :=
  firstn i l ++ match skipn i l with [] => [] | b :: r => negb b :: r end.

Lemma flip_length i l : length (flip i l) = length l.
Proof.
  unfold flip. rewrite app_length. rewrite <- (firstn_skipn i l) at 3. rewrite app_length.
  destruct (skipn i l); reflexivity.
Qed.

Lemma flip_cons i b l : flip (S i) (b :: l) = b :: flip i l.
Proof. reflexivity. Qed.

Lemma flip_app_r (a r : list bool) k : flip (length a + k) (a ++ r) = a ++ flip k r.
Proof. induction a as [|b a IH]; [reflexivity|]. cbn [length Nat.add app]. rewrite flip_cons, IH. reflexivity. Qed.

Lemma flip_app_l (a r : list bool) : forall k, (k < length a)%nat -> flip k (a ++ r) = flip k a ++ r.
Proof.
  induction a as [|b a IH]; intros [|k] H; cbn [length] in H; try lia; [reflexivity|].
  cbn [app]. rewrite !flip_cons, IH by lia. reflexivity.
Qed.

Lemma flip_neq k (a : list bool) : (k < length a)%nat -> flip k a <> a.
Proof.
  intros H E. unfold flip in E. rewrite <- (firstn_skipn k a) in E at 3.
  apply app_inv_head in E. destruct (skipn k a) as [|b t] eqn:S.
  - apply (f_equal (@length bool)) in S. rewrite skipn_length in S. simpl in S. lia.
  - inversion E. destruct b; discriminate.
Qed.

Lemma N_of_bits_acc_inj : forall a a' acc acc', length a = length a' ->
  N_of_bits_acc acc a = N_of_bits_acc acc' a' -> acc = acc' /\ a = a'.
Proof.
  induction a as [|b r IH]; intros [|b' r'] acc acc' Hl H; cbn [N_of_bits_acc length] in *; try discriminate; auto.
  apply IH in H; [|lia]. destruct H as [H1 H2]. subst r'.
  destruct b, b'; try (exfalso; lia); split; try reflexivity; lia.
Qed.

Lemma N_of_bits_flip k a : (k < length a)%nat -> N_of_bits (flip k a) <> N_of_bits a.
Proof.
  intros H E. unfold N_of_bits in E. apply N_of_bits_acc_inj in E; [|apply flip_length].
  destruct E as [_ E]. exact (flip_neq k a H E).
Qed.

Lemma head_flip bits k v r : head bits = H_field k v r ->
  (forall j, (j < 32)%nat -> exists v', v' <> v /\ head (flip (48 + j) bits) = H_field k v' r) /\
  (forall i, head (flip (80 + i) bits) = H_field k v (flip i r)).
Proof.
  intro H. apply head_frame in H as (a & c & -> & La & Lc & -> & Hfr). split.
  - intros j Hj. exists (N_of_bits (flip j c)). split; [apply N_of_bits_flip; lia|].
    rewrite <- La, flip_app_r, flip_app_l by lia. apply Hfr. rewrite flip_length. exact Lc.
  - intro i. change 80%nat with (48 + 32)%nat. rewrite <- La, <- Lc, <- Nat.add_assoc, !flip_app_r.
    apply Hfr. exact Lc.
Qed.

Theorem crc_flip_from pol : forall fuel level ccrc bits o ps p j,
  decode_from pol fuel level ccrc bits = Ok (o, ps) -> In p ps -> (j < 32)%nat ->
  exists e, decode_from pol fuel level ccrc (flip (p + j) bits) = Err e.
Proof.
  induction fuel as [|f IH]; intros level ccrc bits o ps p j H Hin Hj; [discriminate|].
  rewrite decode_from_S in *. rewrite flip_length.
  destruct (head bits) as [| |k v r2] eqn:Hh; try discriminate.
  destruct (head_flip _ _ _ _ Hh) as [Hfield Hrest]. destruct (Hfield j Hj) as (v' & Hne & Hh').
  apply head_length in Hh as [Hlen _]. destruct k.
  - destruct (run (read_block pol (S (length bits))) r2) as [[rb r3]|] eqn:Erb; [|discriminate].
    destruct (decode_block pol level rb) as [out|] eqn:Edb; [|discriminate].
    destruct (negb (_ =? v)%N) eqn:Ecrc; [discriminate|].
    destruct (decode_from pol f level (combine_stream_crc ccrc v) r3) as [[o' ps']|] eqn:Erec; [|discriminate].
    injection H as <- <-. destruct Hin as [<-|Hin].
    + apply negb_false_iff, N.eqb_eq in Ecrc.
      rewrite Hh', Erb, Edb, Ecrc, (proj2 (N.eqb_neq v v')) by auto. cbn. eauto.
    + apply in_map_iff in Hin as [p' [<- Hin]]. destruct (IH _ _ _ _ _ p' j Erec Hin Hj) as [e He].
      destruct (run_frame _ _ _ _ Erb) as [d [Hr2 Hframe]].
      replace (length bits - length r3 + p' + j)%nat with (80 + (length d + (p' + j)))%nat
        by (rewrite Hlen, Hr2, app_length; lia).
      rewrite Hrest, Hr2, flip_app_r, Hframe, Edb, Ecrc, He. eauto.
  - destruct (negb (v =? ccrc)%N) eqn:Ecrc; [discriminate|].
    destruct (Nat.eq_dec p 48) as [->|Hp].
    { apply negb_false_iff, N.eqb_eq in Ecrc. rewrite Hh', (proj2 (N.eqb_neq v' ccrc)) by congruence. cbn. eauto. }
    destruct (next_stream (align_drop r2)) as [[level' r3]|] eqn:Ens.
    2:{ injection H as <- <-. destruct Hin as [<-|[]]. congruence. }
    destruct (decode_from pol f level' 0 r3) as [[o' ps']|] eqn:Erec; [|discriminate].
    injection H as <- <-. destruct Hin as [<-|Hin]; [congruence|].
    apply in_map_iff in Hin as [p' [<- Hin]]. destruct (IH _ _ _ _ _ p' j Erec Hin Hj) as [e He].
    destruct (align_drop_frame r2) as (g & Hr2 & Hal). destruct (next_stream_frame _ _ _ Ens) as (h & Hx & _ & Hns).
    rewrite Hx in Hr2, Hal.
    replace (length bits - length r3 + p' + j)%nat with (80 + (length g + (length h + (p' + j))))%nat
      by (rewrite Hlen, Hr2, !app_length; lia).
    rewrite Hrest, Ecrc, Hr2, !flip_app_r, Hal, Hns, He by (rewrite !app_length, flip_length; reflexivity). eauto.
Qed.

Theorem crc_flip_bits pol bits o ps p j :
  decode_bits_info pol bits = Ok (o, ps) -> In p ps -> (j < 32)%nat ->
  exists e, decode_bits_info pol (flip (p + j) bits) = Err e.
Proof.
  unfold decode_bits_info. intros H Hin Hj.
  destruct (run (take 32) bits) as [[h rest]|] eqn:E32; [|discriminate].
  apply run_take_ok in E32 as [a32 [-> [L32 ->]]].
  destruct (_ && _)%bool eqn:Hm; [|discriminate].
  destruct (decode_from pol (S (length rest)) _ 0 rest) as [[o' ps']|] eqn:E; [|discriminate].
  injection H as <- <-. apply in_map_iff in Hin as [p' [Hp Hin]].
  destruct (crc_flip_from pol _ _ _ _ _ _ p' j E Hin Hj) as [e He].
  replace (p + j)%nat with (length a32 + (p' + j))%nat by lia.
  rewrite flip_app_r, (run_take_app0 32 a32 _ L32), Hm, flip_length, He. eauto.
Qed.

(* bytes <-> bits, so that the statement is about flipping a bit of the FILE *)
Fixpoint bytes_of_bits (l : list bool) : list N :=
  match l with
  | b7 :: b6 :: b5 :: b4 :: b3 :: b2 :: b1 :: b0 :: r => N_of_bits [b7; b6; b5; b4; b3; b2; b1; b0] :: bytes_of_bits r
  | _ => []
  end.

Definition flip_file_bit (i : nat) (file : list N) : list N := bytes_of_bits (flip i (bits_of_bytes file)).

Definition all_bytes_ok : bool :=
  forallb (fun n => bl_eqb (bits8 (N_of_bits (bits8 (N.of_nat n)))) (bits8 (N.of_nat n))) (seq 0 256).

Lemma N_of_bits_acc_snoc l : forall acc b, N_of_bits_acc acc (l ++ [b]) = (2 * N_of_bits_acc acc l + N.b2n b)%N.
Proof. induction l as [|c l IH]; intros acc b; [reflexivity|apply IH]. Qed.

Lemma bits_msb_double n : forall x b, bits_msb (S n) (2 * x + N.b2n b) = bits_msb n x ++ [b].
Proof.
  induction n as [|n IH]; intros x b; cbn [bits_msb app]; [rewrite N.testbit_0_r; reflexivity|].
  rewrite Nat2N.inj_succ, N.testbit_succ_r. f_equal. apply IH.
Qed.

Lemma bits_msb_N_of_bits l : bits_msb (length l) (N_of_bits l) = l.
Proof.
  induction l as [|b l IH] using rev_ind; [reflexivity|]. unfold N_of_bits in *.
  rewrite app_length, Nat.add_comm, N_of_bits_acc_snoc, bits_msb_double, IH. reflexivity.
Qed.

Lemma bits_bytes_bits : forall n l, length l = (8 * n)%nat -> bits_of_bytes (bytes_of_bits l) = l.
Proof.
  induction n as [|n IH]; intros l H.
  - destruct l; [reflexivity|discriminate].
  - do 8 (destruct l as [|? l]; [simpl in H; lia|]).
    cbn [bytes_of_bits bits_of_bytes]. unfold bits8. rewrite (bits_msb_N_of_bits [_; _; _; _; _; _; _; _]). cbn [app]. do 8 f_equal.
    apply IH. simpl in H. lia.
Qed.

Lemma bits_of_bytes_length file : length (bits_of_bytes file) = (8 * length file)%nat.
Proof. induction file as [|b r IH]; [reflexivity|]. cbn [bits_of_bytes length]. rewrite app_length, IH. unfold bits8. rewrite bits_msb_length. lia. Qed.

Lemma flip_file_bit_spec i file : bits_of_bytes (flip_file_bit i file) = flip i (bits_of_bytes file).
Proof.
  unfold flip_file_bit. apply (bits_bytes_bits (length file)). rewrite flip_length. apply bits_of_bytes_length.
Qed.

Theorem crc_flip_file pol file o ps p j :
  decode_file_info pol file = Ok (o, ps) -> In p ps -> (j < 32)%nat ->
  exists e, decode_file_info pol (flip_file_bit (p + j) file) = Err e.
Proof. unfold decode_file_info. rewrite flip_file_bit_spec. apply crc_flip_bits. Qed.
