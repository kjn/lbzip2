(* The regenerated parse() state machine (Gen/ParseTab.v) refines the stream layer of the
   format (Dec/Format.v decode_from / decode_bits_info).  What every case of the regenerated
   parse_step / parse_eof / parser_init does is proved by computation on the regenerated terms
   (a mutated source changes the terms and these lemmas stop compiling).  The machine reads
   16-bit words: [hscan] is the view of Dec/Head.v read that way, and the word-level stream
   skeleton [wstream] of ParseModel.v is to [hscan] what decode_from is to [head]. *)
From Coq Require Import List NArith ZArith Bool Lia.
From LBZ Require Import Common.Bits Dec.Prog Dec.Sim Dec.Format Dec.Head Dec.Policies Dec.CrcProofs
  Dec.ParseVocab Gen.ParseTab Dec.ParseModel.
Import ListNotations.
Local Open Scope N_scope.

Ltac pm_unfold :=
  cbv beta iota zeta delta
    [parse_step parse_eof parser_init parse_entry_ok
     m_state m_ps_bs100k m_ps_stored_crc m_ps_computed_crc m_ps_stream_mode m_hd_bs100k m_hd_crc m_garbage m_buf
     set_state set_ps_bs100k set_ps_stored_crc set_ps_computed_crc set_ps_stream_mode set_hd_bs100k set_hd_crc
     set_garbage set_buf fst snd].

Ltac split_ifs :=
  repeat match goal with
         | |- context [if ?c then _ else _] => destruct c eqn:?
         end.

Ltac pm_cases := pm_unfold; try change (Z.eqb 0%Z 0%Z) with true; cbn [negb]; split_ifs.

Lemma word_bits_16 : parse_word_bits = 16%nat.
Proof. reflexivity. Qed.

(* the states are distinct integers (ACCEPT of scantab.h does not collide with the enum) *)
Lemma pstate_codes_distinct : NoDup (map pstate_code all_pstates).
Proof. change (map pstate_code all_pstates) with (nodup N.eq_dec (map pstate_code all_pstates)). apply NoDup_nodup. Qed.

Lemma pstate_eqb_spec a b : pstate_eqb a b = true <-> a = b.
Proof.
  unfold pstate_eqb. rewrite N.eqb_eq. split; [|congruence].
  destruct a, b; intro H; try reflexivity; discriminate H.
Qed.

Lemma all_pstates_complete s : In s all_pstates.
Proof. destruct s; cbn; tauto. Qed.

(* how work()/expand.c start the parser *)
Lemma file_magic_consts :
  file_magic_base + file_magic_lo = 0x425A6831 /\ file_magic_base + file_magic_hi = 0x425A6839 /\
  file_magic_base + file_magic_level_base = 0x425A6830 /\ expand_stream_mode = 0%Z.
Proof. repeat split; reflexivity. Qed.

Lemma parser_init_spec st b sc cc md hb hc g buf l sm :
  parser_init (mk_pmem st b sc cc md hb hc g buf) l sm = mk_pmem PS_BLOCK_MAGIC_1 l sc 0 sm hb hc g buf.
Proof. reflexivity. Qed.

Lemma entry_ok_spec m : parse_entry_ok m = negb (pstate_eqb (m_state m) PS_ACCEPT).
Proof. reflexivity. Qed.

(* one iteration of the loop of parse() outside stream mode, case by case *)
Definition spec_step (m : pmem) (w : N) : pmem * pout :=
  let '(mk_pmem st b sc cc md hb hc g buf) := m in
  let goto st' := (mk_pmem st' b sc cc md hb hc g buf, PCont) in
  let expect c st' := if w =? c then goto st' else (m, PRet RC_ERR_HEADER) in
  match st with
  | PS_BLOCK_MAGIC_1 => if w =? 0x1772 then goto PS_EOS_2 else expect 0x3141 PS_BLOCK_MAGIC_2
  | PS_BLOCK_MAGIC_2 => expect 0x5926 PS_BLOCK_MAGIC_3
  | PS_BLOCK_MAGIC_3 => expect 0x5359 PS_BLOCK_CRC_1
  | PS_BLOCK_CRC_1 => (mk_pmem PS_BLOCK_CRC_2 b w cc md hb hc g buf, PCont)
  | PS_BLOCK_CRC_2 =>
      (* the block CRC is the two halves glued together, all 32 bits; the stream CRC so far is
         rotated left by one (32 bits wide) and xor-ed with it *)
      let crc := N.lor ((N.shiftl sc 16) mod 4294967296) w in
      (mk_pmem PS_BLOCK_MAGIC_1 b sc (N.lxor (N.lxor ((N.shiftl cc 1) mod 4294967296) (N.shiftr cc 31)) crc) md b crc g buf,
       PRet RC_OK)
  | PS_EOS_2 => expect 0x4538 PS_EOS_3
  | PS_EOS_3 => expect 0x5090 PS_EOS_CRC_1
  | PS_EOS_CRC_1 => (mk_pmem PS_EOS_CRC_2 b w cc md hb hc g buf, PCont)
  | PS_EOS_CRC_2 =>
      (* the stored stream CRC is the two halves glued together and ALL of it is compared with
         the computed one; on a match the computed CRC is reset, the buffer byte-aligned and a
         new stream may start *)
      let scrc := N.lor ((N.shiftl sc 16) mod 4294967296) w in
      if scrc =? cc then (mk_pmem PS_STREAM_MAGIC_1 b scrc 0 md hb hc g (bits_align buf), PCont)
      else (mk_pmem PS_EOS_CRC_2 b scrc cc md hb hc g buf, PRet RC_ERR_STRMCRC)
  | PS_STREAM_MAGIC_1 =>
      if w =? 0x425A then goto PS_STREAM_MAGIC_2 else (mk_pmem PS_ACCEPT b sc cc md (-1)%Z 0 16 buf, PRet RC_FINISH)
  | PS_STREAM_MAGIC_2 =>
      if (0x6831 <=? w) && (w <=? 0x6839)
      then (mk_pmem PS_BLOCK_MAGIC_1 (int_of_u32 (N.land w 15)) sc cc md hb hc g buf, PCont)
      else (mk_pmem PS_ACCEPT b sc cc md (-1)%Z 0 32 buf, PRet RC_FINISH)
  | PS_ACCEPT => (m, PAbort)
  end.

Lemma level_range w : ((0x6839 <? w) || (w <? 0x6831))%bool = negb ((0x6831 <=? w) && (w <=? 0x6839)).
Proof. rewrite !N.ltb_antisym, negb_andb. apply orb_comm. Qed.

Lemma parse_step_spec st b sc cc hb hc g buf w :
  parse_step (mk_pmem st b sc cc 0%Z hb hc g buf) w = spec_step (mk_pmem st b sc cc 0%Z hb hc g buf) w.
Proof.
  destruct st; pm_unfold; cbn [spec_step negb Z.eqb];
    rewrite ?(N.eqb_sym _ w), ?level_range, ?if_negb; split_ifs; reflexivity.
Qed.

(* the input ends between two words *)
Definition spec_eof (m : pmem) : pmem * pout :=
  match m_state m with
  | PS_STREAM_MAGIC_1 => (set_garbage (set_state m PS_ACCEPT) 0, PRet RC_FINISH)
  | PS_STREAM_MAGIC_2 => (set_garbage (set_state m PS_ACCEPT) 16, PRet RC_FINISH)
  | _ => (m, PRet RC_ERR_EOF)
  end.

Lemma parse_eof_spec m : parse_eof m = spec_eof m.
Proof. destruct m as [[]]; reflexivity. Qed.

(* no case of parse() makes the bit buffer longer (only bits_align touches it) *)
Lemma parse_step_buf m w :
  m_buf (fst (parse_step m w)) = m_buf m \/ m_buf (fst (parse_step m w)) = bits_align (m_buf m).
Proof. destruct m as [st b sc cc md hb hc g buf]. destruct st; pm_unfold; split_ifs; auto. Qed.

Lemma parse_step_buf_le m w : (length (m_buf (fst (parse_step m w))) <= length (m_buf m))%nat.
Proof.
  destruct (parse_step_buf m w) as [H|H]; rewrite H; [lia|apply align_drop_length].
Qed.

Lemma m_buf_set_buf m x : m_buf (set_buf m x) = x.
Proof. reflexivity. Qed.

Lemma step_shrinks m w rest : run (take 16) (m_buf m) = Ok (w, rest) ->
  (length (m_buf (fst (parse_step (set_buf m rest) w))) < length (m_buf m))%nat.
Proof.
  intro E. apply run_take_length in E. pose proof (parse_step_buf_le (set_buf m rest) w) as L.
  rewrite m_buf_set_buf in L. lia.
Qed.

Lemma parse_loop_fuel : forall f1 f2 m eof,
  (length (m_buf m) < f1)%nat -> (length (m_buf m) < f2)%nat ->
  parse_loop f1 m eof = parse_loop f2 m eof /\ parse_loop f1 m eof <> PC_fuel.
Proof.
  induction f1 as [|f1 IH]; intros [|f2] m eof H1 H2; try lia. cbn [parse_loop].
  destruct (run (take parse_word_bits) (m_buf m)) as [[w rest]|e] eqn:E.
  - apply step_shrinks in E. destruct (parse_step (set_buf m rest) w) as [m' [|c|]]; [|split; [reflexivity|discriminate]..].
    apply IH; cbn [fst] in E; lia.
  - split; [reflexivity|]. destruct eof; [|discriminate]. destruct (parse_eof m) as [m' [|c|]]; discriminate.
Qed.

Lemma ploop_no_fuel m eof : ploop m eof <> PC_fuel.
Proof. apply (parse_loop_fuel _ _ m eof (le_n _) (le_n _)). Qed.

Lemma ploop_unfold m eof :
  ploop m eof =
  match run (take 16) (m_buf m) with
  | Ok (w, rest) =>
      match parse_step (set_buf m rest) w with
      | (m', PCont) => ploop m' eof
      | (m', PRet c) => PC_ret c m'
      | (_, PAbort) => PC_abort
      end
  | Err _ =>
      if eof then match parse_eof m with (m', PRet c) => PC_ret c m' | _ => PC_abort end
      else PC_ret RC_MORE m
  end.
Proof.
  unfold ploop at 1. cbn [parse_loop]. change parse_word_bits with 16%nat.
  destruct (run (take 16) (m_buf m)) as [[w rest]|e] eqn:E; [|reflexivity].
  apply step_shrinks in E. destruct (parse_step (set_buf m rest) w) as [m' [|c|]]; try reflexivity.
  unfold ploop. apply parse_loop_fuel; cbn [fst] in E; lia.
Qed.

Lemma ploop_word st b sc cc hb hc g buf eof :
  ploop (mk_pmem st b sc cc 0%Z hb hc g buf) eof =
  match run (take 16) buf with
  | Ok (w, rest) =>
      match spec_step (mk_pmem st b sc cc 0%Z hb hc g rest) w with
      | (m', PCont) => ploop m' eof
      | (m', PRet c) => PC_ret c m'
      | (_, PAbort) => PC_abort
      end
  | Err _ =>
      if eof then match spec_eof (mk_pmem st b sc cc 0%Z hb hc g buf) with (m', PRet c) => PC_ret c m' | _ => PC_abort end
      else PC_ret RC_MORE (mk_pmem st b sc cc 0%Z hb hc g buf)
  end.
Proof.
  rewrite ploop_unfold, parse_eof_spec. cbn [m_buf].
  destruct (run (take 16) buf) as [[w rest]|]; [rewrite <- parse_step_spec|]; reflexivity.
Qed.

Lemma parse_call_live st b sc cc md hb hc g buf eof :
  st <> PS_ACCEPT -> parse_call (mk_pmem st b sc cc md hb hc g buf) eof = ploop (mk_pmem st b sc cc md hb hc g buf) eof.
Proof. intro H. unfold parse_call. destruct st; try congruence; reflexivity. Qed.

(* two 16-bit halves glued together as parse() does it = the 32-bit field *)
Lemma glue_halves h l : h < 65536 -> l < 65536 -> N.lor ((N.shiftl h 16) mod 4294967296) l = h * 65536 + l.
Proof.
  intros Hh Hl. rewrite N.shiftl_mul_pow2. change (2 ^ 16) with 65536. rewrite N.mod_small by lia.
  assert (E : N.land (h * 65536) l = 0).
  { apply N.bits_inj. intro k. rewrite N.land_spec, N.bits_0.
    destruct (N.lt_ge_cases k 16) as [L|L].
    - change 65536 with (2 ^ 16). rewrite N.mul_pow2_bits_low by exact L. reflexivity.
    - rewrite (lt_pow2_testbit l 16 Hl k L). apply andb_false_r. }
  rewrite <- (N.lxor_lor _ _ E). symmetry. apply N.add_nocarry_lxor. exact E.
Qed.

(* rotate left by one in 32 bits and xor, as parse() writes it, = combine_stream_crc of the format *)
Lemma combine_eq cc c :
  cc < 2 ^ 32 -> N.lxor (N.lxor ((N.shiftl cc 1) mod 4294967296) (N.shiftr cc 31)) c = combine_stream_crc cc c.
Proof.
  intro H. unfold combine_stream_crc, rotl1_32. f_equal. change mask32 with (N.ones 32). rewrite N.land_ones.
  apply N.lxor_lor. apply N.bits_inj. intro k. rewrite N.land_spec, N.bits_0, N.shiftr_spec'.
  destruct (N.eq_dec k 0) as [->|Hk].
  - rewrite N.mod_pow2_bits_low by lia. rewrite N.shiftl_spec_low by lia. reflexivity.
  - rewrite (lt_pow2_testbit cc 32 H (k + 31)) by lia. apply andb_false_r.
Qed.

Lemma level_of_word w : int_of_u32 (N.land w 15) = Z.of_N (N.land w 15).
Proof.
  unfold int_of_u32. change 15 with (N.ones 4). rewrite N.land_ones.
  pose proof (N.mod_upper_bound w (2 ^ 4) ltac:(discriminate)) as H. change (2 ^ 4) with 16 in *.
  destruct (N.ltb_spec (w mod 16) 2147483648); [reflexivity|lia].
Qed.

Lemma word_lt bits w r : run (take 16) bits = Ok (w, r) -> w < 65536.
Proof. apply (take_lt 16). Qed.

Lemma take32_halves bits :
  run (take 32) bits =
  match run (take 16) bits with
  | Err e => Err e
  | Ok (h, r) => match run (take 16) r with Err e => Err e | Ok (l, r') => Ok (h * 65536 + l, r') end
  end.
Proof. exact (run_take_add 16 16 bits). Qed.

Definition word1_kind (w : N) : option hkind :=
  if w =? 0x1772 then Some K_eos else if w =? 0x3141 then Some K_block else None.
Definition word2 (k : hkind) : N := match k with K_block => 0x5926 | K_eos => 0x4538 end.
Definition word3 (k : hkind) : N := match k with K_block => 0x5359 | K_eos => 0x5090 end.

(* parse() stops at the first word that cannot belong to a magic *)
Definition hscan (bits : list bool) : hview :=
  match run (take 16) bits with
  | Err _ => H_eof
  | Ok (w1, r1) =>
      match word1_kind w1 with
      | None => H_bad
      | Some k =>
          match run (take 16) r1 with
          | Err _ => H_eof
          | Ok (w2, r2) =>
              if negb (w2 =? word2 k) then H_bad else
              match run (take 16) r2 with
              | Err _ => H_eof
              | Ok (w3, r3) =>
                  if negb (w3 =? word3 k) then H_bad else
                  match run (take 32) r3 with
                  | Err _ => H_eof
                  | Ok (v, r4) => H_field k v r4
                  end
              end
          end
      end
  end.

Lemma magic_words w1 w2 w3 a b c :
  w1 < 65536 -> w2 < 65536 -> w3 < 65536 -> a < 65536 -> b < 65536 -> c < 65536 ->
  (w1 * 4294967296 + (w2 * 65536 + w3) =? a * 4294967296 + (b * 65536 + c)) =
  ((w1 =? a) && (w2 =? b) && (w3 =? c))%bool.
Proof.
  intros. apply eq_iff_eq_true. rewrite !andb_true_iff, !N.eqb_eq. lia.
Qed.

Lemma magic_kind_words w1 w2 w3 :
  w1 < 65536 -> w2 < 65536 -> w3 < 65536 ->
  magic_kind (w1 * 4294967296 + (w2 * 65536 + w3)) =
  match word1_kind w1 with
  | Some k => if (w2 =? word2 k) && (w3 =? word3 k) then Some k else None
  | None => None
  end.
Proof.
  intros B1 B2 B3. unfold magic_kind, word1_kind.
  change block_magic with (0x3141 * 4294967296 + (0x5926 * 65536 + 0x5359)).
  change eos_magic with (0x1772 * 4294967296 + (0x4538 * 65536 + 0x5090)).
  rewrite !magic_words by (assumption || reflexivity).
  destruct (N.eqb_spec w1 0x1772) as [->|_].
  - cbn [N.eqb Pos.eqb andb word2 word3]. destruct (w2 =? 0x4538), (w3 =? 0x5090); reflexivity.
  - destruct (w1 =? 0x3141); cbn [andb word2 word3]; [|reflexivity].
    destruct (w2 =? 0x5926), (w3 =? 0x5359); reflexivity.
Qed.

(* Format.decode_from reads a 48-bit magic in one piece, parse() in three 16-bit words.  The
   only observable difference: when the input ends INSIDE a 48-bit magic whose complete words
   already mismatch, decode_from says EOF (premature end) where parse() says ERR_HEADER. *)
Lemma hscan_head bits : hscan bits = head bits \/ (head bits = H_eof /\ hscan bits = H_bad).
Proof.
  unfold head, hscan. change (take 48) with (take (16 + (16 + 16))). rewrite run_take_add.
  destruct (run (take 16) bits) as [[w1 r1]|] eqn:E1; [|auto]. rewrite run_take_add.
  destruct (run (take 16) r1) as [[w2 r2]|] eqn:E2; [|destruct (word1_kind w1); auto].
  destruct (run (take 16) r2) as [[w3 r3]|] eqn:E3; [|destruct (word1_kind w1); [destruct (negb _)|]; auto].
  change (magic_kind _) with (magic_kind (w1 * 4294967296 + (w2 * 65536 + w3))).
  rewrite (magic_kind_words _ _ _ (word_lt _ _ _ E1) (word_lt _ _ _ E2) (word_lt _ _ _ E3)).
  destruct (word1_kind w1) as [k|]; [|auto].
  destruct (w2 =? word2 k); [|auto]. destruct (w3 =? word3 k); auto.
Qed.

Lemma hscan_field bits k v r : hscan bits = H_field k v r <-> head bits = H_field k v r.
Proof. destruct (hscan_head bits) as [->|[-> ->]]; [tauto|split; discriminate]. Qed.

Lemma wstream_S {A} (blk : N -> N -> list bool -> result (list A * list bool)) f level cc bits :
  wstream blk (S f) level cc bits =
  match hscan bits with
  | H_eof => Err EOF
  | H_bad => Err ErrHeader
  | H_field K_block crc r4 =>
      match blk level crc r4 with
      | Err e => Err e
      | Ok (out, r5) =>
          match wstream blk f level (combine_stream_crc cc crc) r5 with
          | Err e => Err e
          | Ok (o, g) => Ok (out ++ o, g)
          end
      end
  | H_field K_eos scrc r4 =>
      if negb (scrc =? cc) then Err ErrStrmCrc else
      match next_stream (align_drop r4) with
      | None => Ok ([], tail_garbage (align_drop r4))
      | Some (level', r5) => wstream blk f level' 0 r5
      end
  end.
Proof.
  cbn [wstream]. unfold hscan, word1_kind.
  destruct (run (take 16) bits) as [[w1 r1]|]; [|reflexivity].
  destruct (w1 =? 0x1772); [|destruct (w1 =? 0x3141); [|reflexivity]]; cbn [word2 word3].
  all: destruct (run (take 16) r1) as [[w2 r2]|]; [|reflexivity]; destruct (negb _); [reflexivity|].
  all: destruct (run (take 16) r2) as [[w3 r3]|]; [|reflexivity]; destruct (negb _); [reflexivity|].
  all: destruct (run (take 32) r3) as [[v r4]|]; reflexivity.
Qed.

Lemma ploop_hscan b sc cc hb hc g bits eof :
  cc < 2 ^ 32 ->
  let M := mk_pmem PS_BLOCK_MAGIC_1 b sc cc 0%Z hb hc g bits in
  match hscan bits with
  | H_eof => exists m', ploop M eof = PC_ret (if eof then RC_ERR_EOF else RC_MORE) m'
  | H_bad => exists m', ploop M eof = PC_ret RC_ERR_HEADER m'
  | H_field K_block crc r =>
      exists sc', ploop M eof = PC_ret RC_OK (mk_pmem PS_BLOCK_MAGIC_1 b sc' (combine_stream_crc cc crc) 0%Z b crc g r)
  | H_field K_eos scrc r =>
      if scrc =? cc
      then exists sc', ploop M eof = ploop (mk_pmem PS_STREAM_MAGIC_1 b sc' 0 0%Z hb hc g (align_drop r)) eof
      else exists m', ploop M eof = PC_ret RC_ERR_STRMCRC m'
  end.
Proof.
  intros Hcc M. unfold M, hscan, word1_kind.
  rewrite ploop_word. destruct (run (take 16) bits) as [[w1 r1]|]; [|destruct eof; eexists; reflexivity].
  cbn [spec_step]. destruct (w1 =? 0x1772); [|destruct (w1 =? 0x3141); [|eexists; reflexivity]]; cbn [word2 word3].
  (* a trailer and a block header are read by the same steps, up to the second half of the CRC field *)
  all: rewrite ploop_word; destruct (run (take 16) r1) as [[w2 r2]|]; [|destruct eof; eexists; reflexivity];
       cbn [spec_step]; destruct (w2 =? _); cbn [negb]; [|eexists; reflexivity].
  all: rewrite ploop_word; destruct (run (take 16) r2) as [[w3 r3]|]; [|destruct eof; eexists; reflexivity];
       cbn [spec_step]; destruct (w3 =? _); cbn [negb]; [|eexists; reflexivity].
  all: rewrite take32_halves, ploop_word;
       destruct (run (take 16) r3) as [[h q]|] eqn:E4; [|destruct eof; eexists; reflexivity]; cbn [spec_step].
  all: rewrite ploop_word; destruct (run (take 16) q) as [[l r4]|] eqn:E5; [|destruct eof; eexists; reflexivity];
       cbn [spec_step]; rewrite (glue_halves h l (word_lt _ _ _ E4) (word_lt _ _ _ E5)).
  - destruct (h * 65536 + l =? cc); eexists; reflexivity.
  - rewrite (combine_eq cc _ Hcc). eexists. reflexivity.
Qed.

Lemma ploop_next_stream b sc hb hc g bits :
  let M := mk_pmem PS_STREAM_MAGIC_1 b sc 0 0%Z hb hc g bits in
  match next_stream bits with
  | None => exists m', ploop M true = PC_ret RC_FINISH m' /\ m_garbage m' = tail_garbage bits
  | Some (level', r) => ploop M true = ploop (mk_pmem PS_BLOCK_MAGIC_1 (Z.of_N level') sc 0 0%Z hb hc g r) true
  end.
Proof.
  intro M. unfold M, next_stream, tail_garbage.
  rewrite ploop_word. destruct (run (take 16) bits) as [[w1 r1]|]; [|eexists; split; reflexivity].
  cbn [spec_step]. destruct (w1 =? 0x425A); [|eexists; split; reflexivity].
  rewrite ploop_word. destruct (run (take 16) r1) as [[w2 r2]|]; [|eexists; split; reflexivity].
  cbn [spec_step]. destruct ((0x6831 <=? w2) && (w2 <=? 0x6839))%bool; [|eexists; split; reflexivity].
  rewrite level_of_word. reflexivity.
Qed.

Section MachineVsWords.
  Context {A : Type}.
  Variable blk : N -> N -> list bool -> result (list A * list bool).
  (* the block reader hands the bit stream back at or after the point where it took it *)
  Hypothesis blk_le : forall l c bits o r, blk l c bits = Ok (o, r) -> (length r <= length bits)%nat.

  Theorem pdrive_wstream : forall f level cc bits sc hb hc g fuel,
    cc < 2 ^ 32 -> (length bits < f)%nat -> (length bits < fuel)%nat ->
    pdrive blk fuel (mk_pmem PS_BLOCK_MAGIC_1 (Z.of_N level) sc cc 0%Z hb hc g bits) =
    inject (wstream blk f level cc bits).
  Proof.
    induction f as [|f IH]; intros level cc bits sc hb hc g fuel Hcc Hf Hfuel; [lia|].
    destruct fuel as [|fuel]; [lia|]. cbn [pdrive]. rewrite parse_call_live, wstream_S by discriminate.
    pose proof (ploop_hscan (Z.of_N level) sc cc hb hc g bits true Hcc) as P. cbv zeta in P.
    destruct (hscan bits) as [| |[] v r4] eqn:Hh; try (destruct P as [m' ->]; reflexivity);
      apply (proj1 (hscan_field _ _ _ _)), head_length in Hh as [Hlen Hv].
    - destruct P as [sc' ->]. cbn [m_hd_bs100k m_hd_crc m_buf]. rewrite N2Z.id.
      destruct (blk level v r4) as [[out r5]|e] eqn:B; [|reflexivity]. apply blk_le in B.
      change (set_buf _ r5) with (mk_pmem PS_BLOCK_MAGIC_1 (Z.of_N level) sc' (combine_stream_crc cc v) 0%Z
                                          (Z.of_N level) v g r5).
      rewrite (IH level (combine_stream_crc cc v) r5); [|apply combine_lt; assumption|lia|lia].
      destruct (wstream blk f level (combine_stream_crc cc v) r5) as [[o g'']|e]; reflexivity.
    - destruct (v =? cc); cbn [negb]; [|destruct P as [m' ->]; reflexivity].
      destruct P as [sc' ->].
      pose proof (ploop_next_stream (Z.of_N level) sc' hb hc g (align_drop r4)) as Q. cbv zeta in Q.
      pose proof (align_drop_length r4) as La.
      destruct (next_stream (align_drop r4)) as [[level' r5]|] eqn:En.
      + apply next_stream_length in En.
        rewrite Q, <- (IH level' 0 r5 sc' hb hc g (S fuel)) by (reflexivity || lia).
        cbn [pdrive]. rewrite parse_call_live by discriminate. reflexivity.
      + destruct Q as [m' [-> <-]]. reflexivity.
  Qed.
End MachineVsWords.

Definition stream_refines {X} (w : result (list N * N)) (f : result (list N * X)) : Prop :=
  match f with
  | Ok (o, _) => exists g, w = Ok (o, g)
  | Err e => w = Err e \/ (e = EOF /\ w = Err ErrHeader)
  end.

Theorem wstream_format pol : forall fuel level cc bits,
  stream_refines (wstream (format_blk pol) fuel level cc bits) (decode_from pol fuel level cc bits).
Proof.
  induction fuel as [|f IH]; intros level cc bits; [left; reflexivity|].
  rewrite wstream_S, decode_from_S.
  destruct (hscan_head bits) as [->|[-> ->]]; [|right; auto].
  destruct (head bits) as [| |[] v r] eqn:Hh; try (left; reflexivity).
  - apply head_length in Hh as [Hlen _]. unfold format_blk at 1. rewrite <- Hlen.
    destruct (run (read_block pol (S (length bits))) r) as [[rb r5]|]; [|left; reflexivity].
    destruct (decode_block pol level rb) as [out|]; [|left; reflexivity].
    destruct (negb _); [left; reflexivity|].
    specialize (IH level (combine_stream_crc cc v) r5). unfold stream_refines in IH.
    destruct (decode_from pol f level (combine_stream_crc cc v) r5) as [[o ps]|e].
    + destruct IH as [g ->]. eexists. reflexivity.
    + destruct IH as [->|[-> ->]]; [left|right]; auto.
  - destruct (negb _); [left; reflexivity|].
    destruct (next_stream (align_drop r)) as [[level' r5]|]; [|eexists; reflexivity].
    specialize (IH level' 0 r5). unfold stream_refines in IH.
    destruct (decode_from pol f level' 0 r5) as [[o ps]|e]; exact IH.
Qed.

Lemma format_blk_le pol l c bits o r : format_blk pol l c bits = Ok (o, r) -> (length r <= length bits)%nat.
Proof.
  unfold format_blk. destruct (run (read_block pol (S (80 + length bits))) bits) as [[rb r3]|e] eqn:E; [|discriminate].
  destruct (decode_block pol l rb); [|discriminate]. destruct (negb _); [discriminate|].
  intro H. inversion H; subst. eapply run_rest_le. exact E.
Qed.

Theorem pdecode_gen_wstream {A} (blk : N -> N -> list bool -> result (list A * list bool)) m0 bits :
  (forall l c b o r, blk l c b = Ok (o, r) -> (length r <= length b)%nat) ->
  pdecode_gen blk m0 bits =
  match run (take 32) bits with
  | Ok (h, rest) =>
      if (0x425A6831 <=? h) && (h <=? 0x425A6839)
      then inject (wstream blk (S (length rest)) (h - 0x425A6830) 0 rest)
      else D_err ErrNotBzip2
  | Err _ => D_err ErrNotBzip2
  end.
Proof.
  intro Hblk. unfold pdecode_gen. destruct file_magic_consts as (-> & -> & -> & ->).
  destruct (run (take 32) bits) as [[h rest]|e]; [|reflexivity].
  destruct ((0x425A6831 <=? h) && (h <=? 0x425A6839))%bool; [|reflexivity].
  destruct m0 as [st b sc cc md hb hc g buf]. apply pdrive_wstream; [exact Hblk|reflexivity|lia|lia].
Qed.

Definition decode_refines {X} (d : dres N) (f : result (list N * X)) : Prop :=
  match f with
  | Ok (o, _) => exists g, d = D_ok o g
  | Err e => d = D_err e \/ (e = EOF /\ d = D_err ErrHeader)
  end.

Theorem parse_refines_format pol m0 bits :
  decode_refines (pdecode_bits pol m0 bits) (decode_bits_info pol bits).
Proof.
  unfold pdecode_bits. rewrite (pdecode_gen_wstream _ m0 bits (format_blk_le pol)).
  unfold decode_bits_info. destruct (run (take 32) bits) as [[h rest]|e]; [|left; reflexivity].
  destruct ((0x425A6831 <=? h) && (h <=? 0x425A6839))%bool; [|left; reflexivity].
  pose proof (wstream_format pol (S (length rest)) (h - 0x425A6830) 0 rest) as R.
  unfold stream_refines in R. unfold decode_refines.
  destruct (decode_from pol (S (length rest)) (h - 0x425A6830) 0 rest) as [[o ps]|e].
  - destruct R as [g ->]. eexists. reflexivity.
  - destruct R as [->|[-> ->]]; [left|right]; auto.
Qed.

(* consequences: same accepted files with the same output ... *)
Corollary parse_accepts_iff pol m0 bits o :
  (exists g, pdecode_bits pol m0 bits = D_ok o g) <-> (exists ps, decode_bits_info pol bits = Ok (o, ps)).
Proof.
  pose proof (parse_refines_format pol m0 bits) as R. unfold decode_refines in R. split.
  - intros [g H]. destruct (decode_bits_info pol bits) as [[o' ps]|e].
    + destruct R as [g' R]. rewrite R in H. inversion H; subst. eexists. reflexivity.
    + destruct R as [R|[_ R]]; rewrite R in H; discriminate.
  - intros [ps H]. rewrite H in R. exact R.
Qed.

(* ... never an assert failure, an impossible return code or fuel exhaustion ... *)
Corollary parse_always_verdict pol m0 bits :
  (exists o g, pdecode_bits pol m0 bits = D_ok o g) \/ (exists e, pdecode_bits pol m0 bits = D_err e).
Proof.
  pose proof (parse_refines_format pol m0 bits) as R. unfold decode_refines in R.
  destruct (decode_bits_info pol bits) as [[o ps]|e].
  - destruct R as [g R]. left. eauto.
  - right. destruct R as [R|[_ R]]; eauto.
Qed.

(* ... and the error classes agree except for the one documented case *)
Corollary parse_rejects pol m0 bits e :
  decode_bits_info pol bits = Err e ->
  pdecode_bits pol m0 bits = D_err e \/ (e = EOF /\ pdecode_bits pol m0 bits = D_err ErrHeader).
Proof. intro H. pose proof (parse_refines_format pol m0 bits) as R. rewrite H in R. exact R. Qed.

(* the one case does occur: "BZh9" followed by two bytes that start no magic *)
Lemma parse_error_class_differs :
  exists bits, decode_bits_info lbz_policy bits = Err EOF /\ pdecode_bits lbz_policy pmem0 bits = D_err ErrHeader.
Proof. exists (bits_of_bytes [66; 90; 104; 57; 88; 88]). split; vm_compute; reflexivity. Qed.

(* the stored CRC fields (block and stream) are enforced by the decoder built on parse():
   from an accepted input, flipping any bit of any stored CRC field gives a rejected input *)
Theorem parse_crc_fields_enforced pol m0 bits o g :
  pdecode_bits pol m0 bits = D_ok o g ->
  exists ps, decode_bits_info pol bits = Ok (o, ps) /\
             forall p j, In p ps -> (j < 32)%nat ->
                         exists e, pdecode_bits pol m0 (flip (p + j) bits) = D_err e.
Proof.
  intro H. destruct (proj1 (parse_accepts_iff pol m0 bits o) (ex_intro _ g H)) as [ps Hps].
  exists ps. split; [exact Hps|]. intros p j Hp Hj.
  destruct (crc_flip_bits pol bits o ps p j Hps Hp Hj) as [e He].
  destruct (parse_rejects pol m0 _ e He) as [R|[_ R]]; eauto.
Qed.

(* [crcs] = the stored CRCs of the blocks of the current stream met so far *)
Definition crc_inv (m : pmem) (crcs : list N) : Prop :=
  m_state m = PS_BLOCK_MAGIC_1 /\ m_ps_stream_mode m = 0%Z /\ Forall (fun c => c < 2 ^ 32) crcs /\
  m_ps_computed_crc m = fold_left combine_stream_crc crcs 0.

Lemma fold_combine_lt crcs : forall c0, c0 < 2 ^ 32 -> Forall (fun c => c < 2 ^ 32) crcs ->
  fold_left combine_stream_crc crcs c0 < 2 ^ 32.
Proof.
  induction crcs as [|c r IH]; intros c0 H0 H; cbn [fold_left]; [exact H0|].
  inversion H; subst. apply IH; [apply combine_lt; assumption|assumption].
Qed.

Lemma crc_inv_init m0 level buf : crc_inv (set_buf (parser_init m0 level expand_stream_mode) buf) [].
Proof. destruct m0. rewrite parser_init_spec. repeat split. constructor. Qed.

(* a block header: parse() returns OK with hd->crc = the stored CRC (all 32 bits),
   hd->bs100k = the level of the stream, the buffer right after the header, and the
   computed stream CRC combined with it *)
Theorem parse_block_header m crcs crc r1 r2 eof :
  crc_inv m crcs ->
  run (take 48) (m_buf m) = Ok (block_magic, r1) -> run (take 32) r1 = Ok (crc, r2) ->
  exists m', parse_call m eof = PC_ret RC_OK m' /\ m_hd_crc m' = crc /\ m_hd_bs100k m' = m_ps_bs100k m /\
             m_buf m' = r2 /\ crc_inv m' (crcs ++ [crc]).
Proof.
  intros [Hs [Hm [Hf Hc]]] E48 E32. destruct m as [st b sc cc md hb hc g buf].
  cbn [m_state m_ps_stream_mode m_ps_computed_crc m_buf m_ps_bs100k] in *. subst st md.
  assert (Hcc : cc < 2 ^ 32) by (rewrite Hc; apply fold_combine_lt; [reflexivity|exact Hf]).
  pose proof (head_field _ _ _ K_block _ _ E48 eq_refl E32) as Hh.
  pose proof (ploop_hscan b sc cc hb hc g buf eof Hcc) as P. cbv zeta in P.
  rewrite (proj2 (hscan_field _ _ _ _) Hh) in P. destruct P as [sc' P].
  rewrite parse_call_live, P by discriminate. eexists. repeat split.
  - apply Forall_app. split; [exact Hf|]. constructor; [apply (head_length _ _ _ _ Hh)|constructor].
  - cbn [m_ps_computed_crc]. rewrite fold_left_app, <- Hc. reflexivity.
Qed.

(* the end-of-stream trailer: unless the stored stream CRC equals (in all 32 bits) the
   combination of the stored block CRCs, parse() returns ERR_STRMCRC -- whether or not more
   input may follow *)
Theorem parse_stream_crc_enforced m crcs scrc r1 r2 eof :
  crc_inv m crcs ->
  run (take 48) (m_buf m) = Ok (eos_magic, r1) -> run (take 32) r1 = Ok (scrc, r2) ->
  scrc <> fold_left combine_stream_crc crcs 0 ->
  exists m', parse_call m eof = PC_ret RC_ERR_STRMCRC m'.
Proof.
  intros [Hs [Hm [Hf Hc]]] E48 E32 Hne. destruct m as [st b sc cc md hb hc g buf].
  cbn [m_state m_ps_stream_mode m_ps_computed_crc m_buf] in *. subst st md.
  assert (Hcc : cc < 2 ^ 32) by (rewrite Hc; apply fold_combine_lt; [reflexivity|exact Hf]).
  pose proof (head_field _ _ _ K_eos _ _ E48 eq_refl E32) as Hh.
  pose proof (ploop_hscan b sc cc hb hc g buf eof Hcc) as P. cbv zeta in P.
  rewrite (proj2 (hscan_field _ _ _ _) Hh) in P.
  destruct (N.eqb_spec scrc cc); [congruence|]. rewrite parse_call_live by discriminate. exact P.
Qed.

(* "differs in ANY bit": flipping bit i (i < 32) of the right value is a different value *)
Corollary parse_stream_crc_bitflip m crcs i r1 r2 eof :
  crc_inv m crcs -> i < 32 ->
  run (take 48) (m_buf m) = Ok (eos_magic, r1) ->
  run (take 32) r1 = Ok (N.lxor (fold_left combine_stream_crc crcs 0) (2 ^ i), r2) ->
  exists m', parse_call m eof = PC_ret RC_ERR_STRMCRC m'.
Proof.
  intros Hi Hlt E48 E32. eapply parse_stream_crc_enforced; eauto.
  intro H. apply (f_equal (fun x => N.testbit x i)) in H.
  rewrite N.lxor_spec, N.pow2_bits_true in H. destruct (N.testbit _ i); discriminate.
Qed.

(* Suspending parse() with MORE and calling it again when the next piece of input has been
   appended to the bit buffer gives what one call on the whole input gives, provided the
   pieces are whole bytes (bits_align looks at the buffer length modulo 8; lbzip2's pieces
   are multiples of 32 bits). *)
Definition madd (m : pmem) (s : list bool) : pmem := set_buf m (m_buf m ++ s).

Lemma bits_align_app buf s : (length s mod 8 = 0)%nat -> bits_align (buf ++ s) = bits_align buf ++ s.
Proof.
  intro H. unfold bits_align. rewrite app_length.
  rewrite Nat.add_mod, H, Nat.add_0_r, Nat.mod_mod by discriminate.
  pose proof (Nat.mod_le (length buf) 8 ltac:(discriminate)) as L.
  rewrite skipn_app. replace (length buf mod 8 - length buf)%nat with 0%nat by lia. reflexivity.
Qed.

Lemma step_suffix m w s :
  (length s mod 8 = 0)%nat ->
  parse_step (madd m s) w = let (m', out) := parse_step m w in (madd m' s, out).
Proof.
  intro H. destruct m as [st b sc cc md hb hc g buf]. unfold madd.
  destruct st; pm_cases; rewrite ?(bits_align_app _ _ H); reflexivity.
Qed.

Lemma step_cont_entry m w m' : parse_step m w = (m', PCont) -> parse_entry_ok m' = true.
Proof.
  destruct m as [st b sc cc md hb hc g buf].
  destruct st; pm_cases; intro H; inversion H; reflexivity.
Qed.

Lemma step_never_more m w : snd (parse_step m w) <> PRet RC_MORE.
Proof.
  destruct m as [st b sc cc md hb hc g buf].
  destruct st; pm_cases; discriminate.
Qed.

(* what a call that was given all the input [m_buf m ++ s] does, from what the call on [m_buf m]
   alone did *)
Definition resume (s : list bool) (eof : bool) (r : pcall) : pcall :=
  match r with
  | PC_ret RC_MORE m' => ploop (madd m' s) eof
  | PC_ret c m' => PC_ret c (madd m' s)
  | r => r
  end.

Lemma ploop_more s : (length s mod 8 = 0)%nat -> forall n m,
  (length (m_buf m) < n)%nat -> parse_entry_ok m = true ->
  (forall m', ploop m false = PC_ret RC_MORE m' -> parse_entry_ok m' = true) /\
  forall eof, ploop (madd m s) eof = resume s eof (ploop m false).
Proof.
  intros Hs. induction n as [|n IH]; intros m Hn Hentry; [lia|]. rewrite (ploop_unfold m false).
  destruct (run (take 16) (m_buf m)) as [[w rest]|e] eqn:E.
  2:{ split; [|reflexivity]. intros m' H. injection H as <-. exact Hentry. }
  assert (U : forall eof, ploop (madd m s) eof =
                          match parse_step (set_buf m rest) w with
                          | (m', PCont) => ploop (madd m' s) eof
                          | (m', PRet c) => PC_ret c (madd m' s)
                          | (_, PAbort) => PC_abort
                          end).
  { intro eof. rewrite (ploop_unfold (madd m s)). change (m_buf (madd m s)) with (m_buf m ++ s).
    destruct (run_frame _ _ _ _ E) as [d [-> Hd]]. rewrite <- app_assoc, Hd.
    change (set_buf (madd m s) (rest ++ s)) with (madd (set_buf m rest) s). rewrite step_suffix by exact Hs.
    destruct (parse_step (set_buf m rest) w) as [m1 [| |]]; reflexivity. }
  apply step_shrinks in E. pose proof (step_never_more (set_buf m rest) w) as NM.
  destruct (parse_step (set_buf m rest) w) as [m1 [|c|]] eqn:PS; cbn [fst snd] in *.
  - destruct (IH m1 ltac:(lia) (step_cont_entry _ _ _ PS)) as [I1 I2].
    split; [exact I1|]. intro eof. rewrite U. apply I2.
  - split; [intros m' H; congruence|]. intro eof. rewrite U. destruct c; try reflexivity. congruence.
  - split; [discriminate|]. intro eof. rewrite U. reflexivity.
Qed.

Lemma concat_mod8 chunks : Forall (fun c : list bool => (length c mod 8 = 0)%nat) chunks -> (length (concat chunks) mod 8 = 0)%nat.
Proof.
  induction 1 as [|c cs H _ IH]; [reflexivity|]. cbn [concat]. rewrite app_length, Nat.add_mod, H, IH by discriminate. reflexivity.
Qed.

Lemma madd_nil m : madd m [] = m.
Proof. destruct m as [st b sc cc md hb hc g buf]. unfold madd. cbn [m_buf set_buf]. rewrite app_nil_r. reflexivity. Qed.

Lemma madd_madd m x y : madd (madd m x) y = madd m (x ++ y).
Proof. destruct m as [st b sc cc md hb hc g buf]. unfold madd. cbn [m_buf set_buf]. rewrite app_assoc. reflexivity. Qed.

Lemma parse_call_madd m s eof :
  parse_call (madd m s) eof = if parse_entry_ok m then ploop (madd m s) eof else PC_abort.
Proof. reflexivity. Qed.

Theorem parse_chunking : forall chunks m,
  Forall (fun c : list bool => (length c mod 8 = 0)%nat) chunks ->
  match parse_chunks m chunks with
  | (PC_ret c m', unread) => parse_call (madd m (concat chunks)) true = PC_ret c (madd m' (concat unread))
  | (PC_abort, _) => parse_call (madd m (concat chunks)) true = PC_abort
  | (PC_fuel, _) => False
  end.
Proof.
  induction chunks as [|c cs IH]; intros m HF.
  - cbn [parse_chunks concat]. rewrite madd_nil.
    destruct (parse_call m true) as [c m'| |] eqn:E; [rewrite madd_nil; reflexivity|reflexivity|].
    revert E. unfold parse_call. destruct (parse_entry_ok m); [apply ploop_no_fuel|discriminate].
  - inversion HF as [|? ? Hc Hcs]; subst. cbn [parse_chunks concat]. fold (madd m c).
    rewrite <- madd_madd, (parse_call_madd (madd m c)). unfold parse_call.
    destruct (parse_entry_ok (madd m c)) eqn:Hentry; [|reflexivity].
    destruct (ploop_more (concat cs) (concat_mod8 _ Hcs) _ (madd m c) (le_n _) Hentry) as [I1 I2].
    rewrite I2. pose proof (ploop_no_fuel (madd m c) false) as NF.
    destruct (ploop (madd m c) false) as [rc m1| |]; [|reflexivity|congruence].
    destruct rc; try reflexivity. cbn [resume].
    specialize (IH m1 Hcs). rewrite parse_call_madd, (I1 m1 eq_refl) in IH. exact IH.
Qed.

Theorem parse_headers_spec body_end m0 bits :
  (forall b r, body_end b = Some r -> (length r <= length b)%nat) ->
  parse_headers body_end m0 bits =
  match run (take 32) bits with
  | Ok (h, rest) =>
      if (0x425A6831 <=? h) && (h <=? 0x425A6839)
      then inject (wstream (header_blk body_end) (S (length rest)) (h - 0x425A6830) 0 rest)
      else D_err ErrNotBzip2
  | Err _ => D_err ErrNotBzip2
  end.
Proof.
  intro H. apply pdecode_gen_wstream. intros l c b o r. unfold header_blk.
  destruct (body_end b) as [r'|] eqn:E; [|discriminate]. intro I. inversion I; subst. eapply H. exact E.
Qed.

Print Assumptions parse_refines_format.
Print Assumptions pdecode_gen_wstream.
Print Assumptions parse_stream_crc_enforced.
Print Assumptions parse_crc_fields_enforced.
Print Assumptions parse_chunking.
