(* Refinement between decoding policies (C05/C06): what lbzip2's decoder accepts the strict
   format accepts with the same output, and the other way round when every used table is a
   complete code. *)
From Coq Require Import List NArith Arith Bool Lia.
From LBZ Require Import Common.Bits Dec.Prog Dec.Sim Dec.Format Dec.Head Dec.Delta Dec.DeltaProofs Dec.Policies
  Gen.DecTabs Gen.Consts.
Import ListNotations.
Local Open Scope N_scope.

Definition prog_le {A} (p q : prog A) : Prop :=
  forall bits v r, run p bits = Ok (v, r) -> run q bits = Ok (v, r).

Lemma prog_le_refl {A} (p : prog A) : prog_le p p.
Proof. intros bits v r H. exact H. Qed.

Lemma bind_le {A B} (p q : prog A) (f g : A -> prog B) :
  prog_le p q -> (forall a, prog_le (f a) (g a)) -> prog_le (bind p f) (bind q g).
Proof.
  intros Hp Hf bits v r H. rewrite run_bind in *.
  destruct (run p bits) as [[a r1]|e] eqn:E; [|discriminate].
  rewrite (Hp _ _ _ E). apply Hf. exact H.
Qed.

Lemma repeat_prog_le {A} (p q : prog A) n : prog_le p q -> prog_le (repeat_prog n p) (repeat_prog n q).
Proof.
  intro H. induction n as [|n IH]; cbn [repeat_prog]; [apply prog_le_refl|].
  apply bind_le; [exact H|]. intro a. apply bind_le; [exact IH|]. intro. apply prog_le_refl.
Qed.

Definition pol_le (p q : policy) : Prop :=
  (forall fuel cur bits v r, cur < 32 ->
     run (delta_reader p fuel cur) bits = Ok (v, r) ->
     run (delta_reader q fuel cur) bits = Ok (v, r) /\ v < 32) /\
  (forall lens u, table_check p lens = Ok u -> table_check q lens = Ok u) /\
  (runlen_strict q = true -> runlen_strict p = true) /\
  sel_clamp p = sel_clamp q.

Section Refine.
  Variables p q : policy.
  Hypothesis Hle : pol_le p q.

  Lemma read_lens_le fuel n : forall cur bits ls r, cur < 32 ->
    run (read_lens p fuel n cur) bits = Ok (ls, r) -> run (read_lens q fuel n cur) bits = Ok (ls, r).
  Proof.
    destruct Hle as [Hd _].
    induction n as [|n IH]; intros cur bits ls r Hc H; cbn [read_lens] in *; [exact H|].
    rewrite run_bind in *. destruct (run (delta_reader p fuel cur) bits) as [[l r1]|e] eqn:E; [|discriminate].
    destruct (Hd _ _ _ _ _ Hc E) as [E' Hl]. rewrite E'.
    rewrite run_bind in *. destruct (run (read_lens p fuel n l) r1) as [[ls' r2]|e] eqn:E2; [|discriminate].
    rewrite (IH _ _ _ _ Hl E2). exact H.
  Qed.

  Lemma read_table_le fuel alpha : prog_le (read_table p fuel alpha) (read_table q fuel alpha).
  Proof.
    intros bits v r H. unfold read_table in *. rewrite run_bind in *.
    destruct (run (take 5) bits) as [[s r1]|e] eqn:E; [|discriminate].
    apply read_lens_le; [|exact H]. apply take_lt in E. simpl in E. exact E.
  Qed.

  Lemma read_groups_le tables eob : forall sels, prog_le (read_groups p tables eob sels) (read_groups q tables eob sels).
  Proof.
    destruct Hle as [_ [Ht _]].
    induction sels as [|t rest IH]; cbn [read_groups]; [apply prog_le_refl|].
    intros bits v r H.
    destruct (table_check p (nth (N.to_nat t) tables [])) as [u|e] eqn:E; [|discriminate].
    rewrite (Ht _ _ E). revert bits v r H. apply bind_le; [apply prog_le_refl|].
    intro g. destruct (snd g); [apply prog_le_refl|]. apply bind_le; [exact IH|]. intro. apply prog_le_refl.
  Qed.

  Lemma read_block_le fuel : prog_le (read_block p fuel) (read_block q fuel).
  Proof.
    unfold read_block. destruct Hle as [_ [_ [_ Hc]]]. rewrite Hc.
    repeat (apply bind_le; [apply prog_le_refl|intro]).
    apply bind_le; [apply repeat_prog_le; apply read_table_le|intro].
    apply bind_le; [apply read_groups_le|intro]. apply prog_le_refl.
  Qed.

  Lemma unrle_le : forall blk prev cnt o,
    unrle (runlen_strict p) prev cnt blk = Ok o -> unrle (runlen_strict q) prev cnt blk = Ok o.
  Proof.
    destruct Hle as [_ [_ [Hs _]]].
    induction blk as [|c r IH]; intros prev cnt o H; cbn [unrle] in *.
    - destruct (runlen_strict q) eqn:Eq.
      + rewrite (Hs eq_refl) in H. exact H.
      + destruct (runlen_strict p && (cnt =? 4)); [discriminate|]. exact H.
    - destruct (cnt =? 4).
      + destruct (unrle (runlen_strict p) 256 0 r) as [o'|e] eqn:E; [|discriminate].
        rewrite (IH _ _ _ E). exact H.
      + destruct (unrle (runlen_strict p) c (if c =? prev then cnt + 1 else 1) r) as [o'|e] eqn:E; [|discriminate].
        rewrite (IH _ _ _ E). exact H.
  Qed.

  Lemma decode_block_le level rb o : decode_block p level rb = Ok o -> decode_block q level rb = Ok o.
  Proof.
    unfold decode_block. destruct (unmtf_block (100000 * level) (rb_used rb) (rb_mtfv rb)) as [tt|e]; cbn [rbind]; [|discriminate].
    destruct (N.of_nat (length tt) =? 0); [discriminate|].
    destruct (N.of_nat (length tt) <=? rb_idx rb); [discriminate|]. apply unrle_le.
  Qed.

  Lemma decode_from_le : forall fuel level ccrc bits x,
    decode_from p fuel level ccrc bits = Ok x -> decode_from q fuel level ccrc bits = Ok x.
  Proof.
    induction fuel as [|f IH]; intros level ccrc bits x H; [discriminate|].
    rewrite decode_from_S in *. destruct (head bits) as [| |[] v r2]; try discriminate.
    - destruct (run (read_block p (S (length bits))) r2) as [[rb r3]|e] eqn:E; [|discriminate].
      rewrite (read_block_le _ _ _ _ E).
      destruct (decode_block p level rb) as [out|e] eqn:E2; [|discriminate].
      rewrite (decode_block_le _ _ _ E2).
      destruct (negb _); [discriminate|].
      destruct (decode_from p f level (combine_stream_crc ccrc v) r3) as [[o ps]|e] eqn:E3; [|discriminate].
      rewrite (IH _ _ _ _ E3). exact H.
    - destruct (negb _); [discriminate|].
      destruct (next_stream (align_drop r2)) as [[level' r3]|]; [|exact H].
      destruct (decode_from p f level' 0 r3) as [[o ps]|e] eqn:E3; [|discriminate].
      rewrite (IH _ _ _ _ E3). exact H.
  Qed.

  Theorem decode_file_le file o : decode_file p file = Ok o -> decode_file q file = Ok o.
  Proof.
    unfold decode_file, decode_file_info, decode_bits_info.
    destruct (run (take 32) (bits_of_bytes file)) as [[h rest]|e]; [|discriminate].
    destruct ((1113221169 <=? h) && (h <=? 1113221177)); [|discriminate].
    destruct (decode_from p (S (length rest)) (h - 1113221168) 0 rest) as [[o' ps]|e] eqn:E; [|discriminate].
    rewrite (decode_from_le _ _ _ _ _ E). intro H. exact H.
  Qed.
End Refine.

Lemma tables_prefix_consistent_true : tables_prefix_consistent = true.
Proof. vm_compute. reflexivity. Qed.
Lemma sel_table_ok_true : sel_table_ok = true.
Proof. vm_compute. reflexivity. Qed.

Lemma complete_only_le lens u : complete_only lens = Ok u -> not_oversubscribed lens = Ok u.
Proof.
  unfold complete_only, not_oversubscribed. destruct (N.eqb_spec (kraft lens) kraft_full) as [E|E].
  - intro H. rewrite E, N.leb_refl. exact H.
  - destruct (kraft lens <? kraft_full); discriminate.
Qed.

Lemma lbz_le_ref : pol_le lbz_policy ref_policy.
Proof.
  split; [|split].
  - intros fuel cur bits v r Hc H. cbn [delta_reader lbz_policy ref_policy] in *.
    pose proof (win_to_strict fuel cur bits v r Hc H) as H'. split; [exact H'|].
    eapply strict_delta_range. exact H'.
  - intros lens u H. cbn [table_check lbz_policy ref_policy] in *. apply complete_only_le. exact H.
  - split; [intro; reflexivity|reflexivity].
Qed.

Lemma noexc_le_lbz : pol_le ref_noexc_policy lbz_policy.
Proof.
  split; [|split].
  - intros fuel cur bits v r Hc H. cbn [delta_reader lbz_policy ref_noexc_policy] in *. split.
    + apply strict_to_win; assumption.
    + eapply strict_delta_range. exact H.
  - intros lens u H. exact H.
  - split; [intro; reflexivity|reflexivity].
Qed.

Lemma ref_le_lenient : pol_le ref_policy ref_lenient_policy.
Proof.
  split; [|split].
  - intros fuel cur bits v r Hc H. split; [exact H|]. eapply strict_delta_range. exact H.
  - intros lens u H. exact H.
  - split; [cbn; discriminate|reflexivity].
Qed.

Theorem lbz_sound file o : lbz_decode file = Ok o -> ref_decode file = Ok o.
Proof. apply decode_file_le. apply lbz_le_ref. Qed.

Theorem lbz_complete file o : ref_noexc_decode file = Ok o -> lbz_decode file = Ok o.
Proof. apply decode_file_le. apply noexc_le_lbz. Qed.

Theorem noexc_sound file o : ref_noexc_decode file = Ok o -> ref_decode file = Ok o.
Proof. intro H. apply lbz_sound, lbz_complete, H. Qed.

Theorem ref_lenient_ext file o : ref_decode file = Ok o -> ref_lenient_decode file = Ok o.
Proof. apply decode_file_le. apply ref_le_lenient. Qed.

Lemma policies_differ :
  delta_reader ref_noexc_policy = delta_reader ref_lenient_policy /\
  (forall lens, table_check ref_noexc_policy lens = Ok tt <-> kraft lens = kraft_full) /\
  (forall lens, table_check ref_lenient_policy lens = Ok tt <-> kraft lens <= kraft_full) /\
  runlen_strict ref_noexc_policy = true /\ runlen_strict ref_lenient_policy = false.
Proof.
  split; [reflexivity|]. split; [|split; [|split; reflexivity]].
  - intro lens. cbn [table_check ref_noexc_policy]. unfold complete_only.
    destruct (N.eqb_spec (kraft lens) kraft_full); [tauto|].
    split; [destruct (kraft lens <? kraft_full); discriminate|tauto].
  - intro lens. cbn [table_check ref_lenient_policy]. unfold not_oversubscribed.
    destruct (N.leb_spec (kraft lens) kraft_full); split; auto; try discriminate; lia.
Qed.
