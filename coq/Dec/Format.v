(* The bzip2 stream format as an executable decoder, generic in a [policy] that
   fixes four points: how delta-coded lengths are range-checked and which prefix
   tables may be used (the two points where lbzip2's decoder and the strict
   reference differ), what happens when a block ends in four equal bytes without
   count (strict or lenient reading of the format), and how many selectors are
   used for decoding groups (18001 in every policy of Dec/Policies.v). *)
From Coq Require Import List NArith Arith Bool Lia.
From LBZ Require Import Common.Bits Dec.Prog Gen.CrcTab Gen.DecTabs.
Import ListNotations.
Local Open Scope N_scope.

(* ---- CRC (table driven, as decode.c/encode.c do it) ------------------------------ *)
Definition mask32 : N := 0xFFFFFFFF.
Definition crc_step (crc : N) (byte : N) : N :=
  N.lxor (N.land (N.shiftl crc 8) mask32)
         (nth (N.to_nat (N.lxor (N.shiftr crc 24) byte)) crc_table 0).
Definition crc_bytes (crc : N) (bs : list N) : N := fold_left crc_step bs crc.

Definition rotl1_32 (x : N) : N := N.lor (N.land (N.shiftl x 1) mask32) (N.shiftr x 31).
Definition combine_stream_crc (cc c : N) : N := N.lxor (rotl1_32 cc) c.

(* ---- policies ------------------------------------------------------------------------ *)
Record policy := {
  (* reads the delta code of ONE symbol starting from the current length;
     returns the symbol's length (= the next current length) *)
  delta_reader : nat -> N -> prog N;
  (* may this table (list of code lengths) be used to decode a group? *)
  table_check : list N -> result unit;
  (* block ends right after four equal bytes: error (true) or plain end (false) *)
  runlen_strict : bool;
  (* at most this many selectors are used for decoding groups (the format: 18001) *)
  sel_clamp : N;
}.

(* ---- block header pieces ---------------------------------------------------------------- *)
Definition testbit16 (x : N) (i : nat) : bool := N.testbit x (N.of_nat (15 - i)).

(* the 16+16x16 bitmap of bytes in use *)
Fixpoint read_smalls (big : N) (i : nat) (n : nat) : prog (list N) :=
  match n with
  | 0%nat => Ret []
  | S n' =>
      if testbit16 big i then
        s <- take 16 ;;
        rest <- read_smalls big (S i) n' ;;
        Ret (map (fun j => (16 * N.of_nat i + N.of_nat j)) (filter (testbit16 s) (seq 0 16)) ++ rest)
      else read_smalls big (S i) n'
  end.

Definition read_bitmap : prog (list N) :=
  big <- take 16 ;; read_smalls big 0 16.

(* unary coded selector MTF value, at most [ntrees] ones *)
Fixpoint read_unary (left : nat) (c : N) : prog N :=
  match left with
  | 0%nat => Fail ErrSelector
  | S l => Bit (fun b => if b then read_unary l (c + 1) else Ret c)
  end.

(* code lengths of one table: 5-bit start value, then one delta code per symbol *)
Fixpoint read_lens (pol : policy) (fuel : nat) (n : nat) (cur : N) : prog (list N) :=
  match n with
  | 0%nat => Ret []
  | S n' => l <- delta_reader pol fuel cur ;; rest <- read_lens pol fuel n' l ;; Ret (l :: rest)
  end.

Definition read_table (pol : policy) (fuel : nat) (alpha : nat) : prog (list N) :=
  start <- take 5 ;; read_lens pol fuel alpha start.

(* ---- canonical prefix decoding -------------------------------------------------------------- *)
Definition max_len : nat := 20.
Definition len_range : list N := map N.of_nat (seq 1 max_len).

Definition count_len (lens : list N) (l : N) : N := N.of_nat (length (filter (N.eqb l) lens)).
Definition counts (lens : list N) : list N := map (count_len lens) len_range.

Definition syms_of_len (lens : list N) (l : N) : list N :=
  map (fun p => N.of_nat (fst p)) (filter (fun p => N.eqb l (snd p)) (combine (seq 0 (length lens)) lens)).
Definition sorted_syms (lens : list N) : list N := flat_map (syms_of_len lens) len_range.

Definition kraft (lens : list N) : N := fold_left (fun acc l => acc + N.shiftl 1 (20 - l)) lens 0.
Definition kraft_full : N := N.shiftl 1 20.

Fixpoint dsym (cnts : list N) (sorted : list N) (code first index : N) : prog N :=
  match cnts with
  | [] => Fail ErrIncomplete
  | c :: cs => Bit (fun b =>
      let code' := code + (if b then 1 else 0) in
      if code' <? first + c then Ret (nth (N.to_nat (index + (code' - first))) sorted 0)
      else dsym cs sorted (2 * code') (2 * (first + c)) (index + c))
  end.

Definition decode_sym (lens : list N) : prog N := dsym (counts lens) (sorted_syms lens) 0 0 0.

(* one group: at most [n] symbols, stops after EOB (alphabet index alpha-1) *)
Fixpoint read_group (lens : list N) (eob : N) (n : nat) : prog (list N * bool) :=
  match n with
  | 0%nat => Ret ([], false)
  | S n' => s <- decode_sym lens ;;
            if s =? eob then Ret ([], true)
            else r <- read_group lens eob n' ;; Ret (s :: fst r, snd r)
  end.

(* inverse MTF of the selector sequence over the list [0;1;..;5] *)
Definition mtf_front {A} (i : nat) (l : list A) (d : A) : A * list A :=
  (nth i l d, nth i l d :: (firstn i l ++ skipn (S i) l)).

Fixpoint unmtf_selectors (order : list N) (sels : list N) : list N :=
  match sels with
  | [] => []
  | s :: r => let '(t, order') := mtf_front (N.to_nat s) order 0 in t :: unmtf_selectors order' r
  end.

Definition group_size : nat := 50.

Fixpoint read_groups (pol : policy) (tables : list (list N)) (eob : N) (sels : list N) : prog (list N) :=
  match sels with
  | [] => Fail ErrUnterm
  | t :: r =>
      let lens := nth (N.to_nat t) tables [] in
      match table_check pol lens with
      | Err e => Fail e
      | Ok _ =>
          g <- read_group lens eob group_size ;;
          if snd g then Ret (fst g)
          else rest <- read_groups pol tables eob r ;; Ret (fst g ++ rest)
      end
  end.

Record raw_block := {
  rb_rand : bool; rb_idx : N; rb_used : list N; rb_mtfv : list N;
  rb_ntrees : N; rb_nsel : N; rb_tables : list (list N);
}.

Definition read_block (pol : policy) (fuel : nat) : prog raw_block :=
  rnd <- take 1 ;;
  idx <- take 24 ;;
  used <- read_bitmap ;;
  _ <- guard (negb (N.of_nat (length used) =? 0)) ErrBitmap ;;
  let alpha := (length used + 2)%nat in
  nt <- take 3 ;;
  _ <- guard ((2 <=? nt) && (nt <=? 6)) ErrTrees ;;
  ns <- take 15 ;;
  _ <- guard (negb (ns =? 0)) ErrGroups ;;
  selm <- repeat_prog (N.to_nat ns) (read_unary (N.to_nat nt) 0) ;;
  tables <- repeat_prog (N.to_nat nt) (read_table pol fuel alpha) ;;
  let sels := unmtf_selectors [0; 1; 2; 3; 4; 5] (firstn (N.to_nat (sel_clamp pol)) selm) in
  mtfv <- read_groups pol tables (N.of_nat alpha - 1) sels ;;
  Ret {| rb_rand := negb (rnd =? 0); rb_idx := idx; rb_used := used; rb_mtfv := mtfv;
         rb_ntrees := nt; rb_nsel := ns; rb_tables := tables |}.

(* ---- inverse MTF + zero-run decoding ---------------------------------------------------- *)
(* symbols: 0 = RUNA, 1 = RUNB, s >= 2 = MTF position s-1 *)
Fixpoint unmtf (limit : N) (order : list N) (run shift size : N) (acc : list (N * N)) (syms : list N)
  : result (list (N * N) * N) :=
  (* acc: reversed list of (byte, repeat count); size: bytes produced so far *)
  match syms with
  | [] =>
      if limit <? size + run then Err ErrOverflow
      else Ok ((hd 0 order, run) :: acc, size + run)
  | s :: r =>
      if s <=? 1 then unmtf limit order (run + N.shiftl (s + 1) shift) (shift + 1) size acc r
      else
        if limit <? size + run then Err ErrOverflow
        else
          let '(c, order') := mtf_front (N.to_nat (s - 1)) order 0 in
          unmtf limit order' 1 0 (size + run) ((hd 0 order, run) :: acc) r
  end.

Fixpoint expand_runs (l : list (N * N)) : list N :=
  match l with
  | [] => []
  | (c, n) :: r => repeat c (N.to_nat n) ++ expand_runs r
  end.

Definition unmtf_block (limit : N) (used mtfv : list N) : result (list N) :=
  match unmtf limit used 0 0 0 [] mtfv with
  | Err e => Err e
  | Ok (runs, _) => Ok (expand_runs (rev runs))
  end.

(* ---- inverse BWT: the linked list of decode() ------------------------------------------- *)
(* P[j] = index i of the j-th element in the stable sort of the last column *)
Definition stable_perm (tt : list N) : list N :=
  flat_map (fun c => map (fun p => N.of_nat (fst p))
                         (filter (fun p => N.eqb c (snd p)) (combine (seq 0 (length tt)) tt)))
           (map N.of_nat (seq 0 256)).

Fixpoint follow (n : nat) (P tt : list N) (j : N) : list N :=
  match n with
  | 0%nat => []
  | S n' => let j' := nth (N.to_nat j) P 0 in nth (N.to_nat j') tt 0 :: follow n' P tt j'
  end.

Definition ibwt (tt : list N) (idx : N) : list N := follow (length tt) (stable_perm tt) tt idx.

(* ---- derandomisation -------------------------------------------------------------------- *)
Fixpoint derand_pos (fuel : nat) (i j size : N) : list N :=
  match fuel with
  | 0%nat => []
  | S f => if j <? size then j :: derand_pos f (N.land (i + 1) 511) (j + nth (N.to_nat (N.land (i + 1) 511)) rand_table 0) size
           else []
  end.

Definition derand (blk : list N) : list N :=
  let size := N.of_nat (length blk) in
  let ps := derand_pos (length blk) 0 RAND_THRESH size in
  map (fun p => if existsb (N.eqb (N.of_nat (fst p))) ps then N.lxor (snd p) 1 else snd p)
      (combine (seq 0 (length blk)) blk).

(* ---- final run-length decoding ---------------------------------------------------------- *)
(* state: previous byte (256 = none) and how many equal bytes in a row so far *)
Fixpoint unrle (strict : bool) (prev cnt : N) (blk : list N) : result (list N) :=
  match blk with
  | [] => if strict && (cnt =? 4) then Err ErrRunlen else Ok []
  | c :: r =>
      if cnt =? 4 then
        (* c is a repeat count for prev *)
        rbind (unrle strict 256 0 r) (fun o => Ok (repeat prev (N.to_nat c) ++ o))
      else
        let cnt' := if c =? prev then cnt + 1 else 1 in
        rbind (unrle strict c cnt' r) (fun o => Ok (c :: o))
  end.

(* ---- one block, after its 48-bit magic and 32-bit CRC ---------------------------------- *)
Definition decode_block (pol : policy) (level : N) (rb : raw_block) : result (list N) :=
  rbind (unmtf_block (100000 * level) (rb_used rb) (rb_mtfv rb)) (fun tt =>
  if N.of_nat (length tt) =? 0 then Err ErrEmpty
  else if N.of_nat (length tt) <=? rb_idx rb then Err ErrBwtIdx
  else
    let b := ibwt tt (rb_idx rb) in
    let b := if rb_rand rb then derand b else b in
    unrle (runlen_strict pol) 256 0 b).

(* ---- stream level (parse.c) -------------------------------------------------------------- *)
Definition block_magic : N := 0x314159265359.
Definition eos_magic : N := 0x177245385090.

Definition align_drop (bits : list bool) : list bool := skipn (length bits mod 8) bits.

(* what follows an end-of-stream trailer: nothing/garbage (None) or a new stream at [level] *)
Definition next_stream (bits : list bool) : option (N * list bool) :=
  match run (take 16) bits with
  | Ok (w1, r1) =>
      if w1 =? 0x425A then
        match run (take 16) r1 with
        | Ok (w2, r2) => if (0x6831 <=? w2) && (w2 <=? 0x6839) then Some (N.land w2 15, r2) else None
        | Err _ => None
        end
      else None
  | Err _ => None
  end.

(* returns the output bytes and the offsets (relative to [bits]) of the stored CRC fields *)
Fixpoint decode_from (pol : policy) (fuel : nat) (level : N) (ccrc : N) (bits : list bool)
  : result (list N * list nat) :=
  match fuel with
  | 0%nat => Err ErrFuel
  | S f =>
      match run (take 48) bits with
      | Err e => Err e
      | Ok (magic, r1) =>
          if magic =? block_magic then
            match run (take 32) r1 with
            | Err e => Err e
            | Ok (crc, r2) =>
                match run (read_block pol (S (length bits))) r2 with
                | Err e => Err e
                | Ok (rb, r3) =>
                    match decode_block pol level rb with
                    | Err e => Err e
                    | Ok out =>
                        if negb (N.lxor (crc_bytes mask32 out) mask32 =? crc) then Err ErrBlkCrc
                        else
                          match decode_from pol f level (combine_stream_crc ccrc crc) r3 with
                          | Err e => Err e
                          | Ok (o, ps) => Ok (out ++ o, 48%nat :: map (fun p => (length bits - length r3 + p)%nat) ps)
                          end
                    end
                end
            end
          else if magic =? eos_magic then
            match run (take 32) r1 with
            | Err e => Err e
            | Ok (scrc, r2) =>
                if negb (scrc =? ccrc) then Err ErrStrmCrc
                else
                  match next_stream (align_drop r2) with
                  | None => Ok ([], [48%nat])
                  | Some (level', r3) =>
                      match decode_from pol f level' 0 r3 with
                      | Err e => Err e
                      | Ok (o, ps) => Ok (o, 48%nat :: map (fun p => (length bits - length r3 + p)%nat) ps)
                      end
                  end
            end
          else Err ErrHeader
      end
  end.

Fixpoint bits_of_bytes (bs : list N) : list bool :=
  match bs with
  | [] => []
  | b :: r => bits8 b ++ bits_of_bytes r
  end.

(* the whole file: work() sniffs the 4-byte header (process.c: ntohl(header) in
   MAGIC(1)..MAGIC(9)), then the parser runs on what follows *)
Definition decode_bits_info (pol : policy) (bits : list bool) : result (list N * list nat) :=
  match run (take 32) bits with
  | Ok (h, rest) =>
      if (0x425A6831 <=? h) && (h <=? 0x425A6839) then
        match decode_from pol (S (length rest)) (h - 0x425A6830) 0 rest with
        | Err e => Err e
        | Ok (o, ps) => Ok (o, map (fun p => (32 + p)%nat) ps)
        end
      else Err ErrNotBzip2
  | Err _ => Err ErrNotBzip2
  end.

Definition decode_file_info (pol : policy) (file : list N) : result (list N * list nat) :=
  decode_bits_info pol (bits_of_bytes file).

Definition decode_file (pol : policy) (file : list N) : result (list N) :=
  match decode_file_info pol file with
  | Ok (o, _) => Ok o
  | Err e => Err e
  end.
