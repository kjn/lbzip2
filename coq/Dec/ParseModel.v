(* The resumable driver around the regenerated state machine of parse() (Gen/ParseTab.v,
   transcribed from src/parse.c by lib/gen_parse.py), and the decoder that uses it for the
   stream layer the way expand.c does: parse -> OK -> the block is consumed by the block
   reader -> parse continues where the block ended.

   Model of the bit buffer (struct bitstream and the macros bits_need/peek/dump/align, whose
   text is pinned by the translator): the list [m_buf] of the bits that are available and not
   yet consumed, most significant first, plus a flag [eof] = "no more input will come".
     bits_need(bs,16) == OK      <->  at least 16 bits in the list
     bits_peek + bits_dump       =    [run (take 16)] of Dec/Prog.v
     bits_need == FINISH / MORE  <->  fewer than 16 bits and eof / not eof
     bits_align                  =    drop (length mod 8) bits (ParseVocab.bits_align)
   Not modelled here: the 32-bit word granularity of the buffer and the zero padding of the
   last input word (expand.c compensates with `eof_missing`: [x_eof_missing] of SchedX/XModel.v). *)
From Coq Require Import List NArith ZArith Bool Lia.
From LBZ Require Import Common.Bits Dec.Prog Dec.Format Dec.ParseVocab Gen.ParseTab.
Import ListNotations.
Local Open Scope N_scope.

(* ---- one call of parse() ------------------------------------------------------------- *)
Inductive pcall :=
| PC_ret (c : rcode) (m : pmem)     (* parse() returned c; m = *ps, *hd, *garbage, bit buffer *)
| PC_abort                          (* an assert failed *)
| PC_fuel.                          (* model artefact, excluded by the theorems *)

Fixpoint parse_loop (fuel : nat) (m : pmem) (eof : bool) : pcall :=
  match fuel with
  | 0%nat => PC_fuel
  | S f =>
      match run (take parse_word_bits) (m_buf m) with
      | Ok (word, rest) =>
          match parse_step (set_buf m rest) word with
          | (m', PCont) => parse_loop f m' eof
          | (m', PRet c) => PC_ret c m'
          | (_, PAbort) => PC_abort
          end
      | Err _ =>
          if eof then
            match parse_eof m with
            | (m', PRet c) => PC_ret c m'
            | _ => PC_abort
            end
          else PC_ret RC_MORE m
      end
  end.

Definition ploop (m : pmem) (eof : bool) : pcall := parse_loop (S (length (m_buf m))) m eof.

Definition parse_call (m : pmem) (eof : bool) : pcall :=
  if parse_entry_ok m then ploop m eof else PC_abort.

(* ---- input in pieces ------------------------------------------------------------------- *)
(* parse() is called with the pieces read so far; on MORE it is called again later with the
   same *ps and the bit buffer = what was left over ++ the next piece.  [] = end of input. *)
Fixpoint parse_chunks (m : pmem) (chunks : list (list bool)) : pcall * list (list bool) :=
  match chunks with
  | [] => (parse_call m true, [])
  | c :: cs =>
      match parse_call (set_buf m (m_buf m ++ c)) false with
      | PC_ret RC_MORE m' => parse_chunks m' cs
      | r => (r, cs)
      end
  end.

(* ---- the decoder around it --------------------------------------------------------------- *)
Inductive dres (A : Type) :=
| D_ok (outs : list A) (garbage : N)   (* parse() returned FINISH with *garbage = garbage *)
| D_err (e : err)                      (* parse() or the block reader returned an error *)
| D_code (c : rcode)                   (* parse() returned something it cannot return (excluded) *)
| D_abort                              (* assert failure (excluded) *)
| D_fuel.                              (* model artefact (excluded) *)
Arguments D_ok {A} outs garbage.
Arguments D_err {A} e.
Arguments D_code {A} c.
Arguments D_abort {A}.
Arguments D_fuel {A}.

Definition err_of_rcode (c : rcode) : option err :=
  match c with
  | RC_OK | RC_MORE | RC_FINISH => None
  | RC_ERR_MAGIC => Some ErrNotBzip2 | RC_ERR_HEADER => Some ErrHeader | RC_ERR_BITMAP => Some ErrBitmap
  | RC_ERR_TREES => Some ErrTrees | RC_ERR_GROUPS => Some ErrGroups | RC_ERR_SELECTOR => Some ErrSelector
  | RC_ERR_DELTA => Some ErrDelta | RC_ERR_PREFIX => Some ErrPrefix | RC_ERR_INCOMPLT => Some ErrIncomplete
  | RC_ERR_EMPTY => Some ErrEmpty | RC_ERR_UNTERM => Some ErrUnterm | RC_ERR_RUNLEN => Some ErrRunlen
  | RC_ERR_BLKCRC => Some ErrBlkCrc | RC_ERR_STRMCRC => Some ErrStrmCrc | RC_ERR_OVERFLOW => Some ErrOverflow
  | RC_ERR_BWTIDX => Some ErrBwtIdx | RC_ERR_EOF => Some EOF
  end.

Section Drive.
  Context {A : Type}.
  (* what happens to a block: [blk level crc bits] gets hd->bs100k, hd->crc and the bits
     after the block header; it fails, or yields some output and the bits after the block
     (where the retriever leaves the parser).  The theorems quantify over it. *)
  Variable blk : N -> N -> list bool -> result (list A * list bool).

  Fixpoint pdrive (fuel : nat) (m : pmem) : dres A :=
    match fuel with
    | 0%nat => D_fuel
    | S f =>
        match parse_call m true with
        | PC_fuel => D_fuel
        | PC_abort => D_abort
        | PC_ret RC_OK m' =>
            match blk (Z.to_N (m_hd_bs100k m')) (m_hd_crc m') (m_buf m') with
            | Err e => D_err e
            | Ok (out, rest) =>
                match pdrive f (set_buf m' rest) with
                | D_ok outs g => D_ok (out ++ outs) g
                | r => r
                end
            end
        | PC_ret RC_FINISH m' => D_ok [] (m_garbage m')
        | PC_ret c _ =>
            match err_of_rcode c with
            | Some e => D_err e
            | None => D_code c
            end
        end
    end.

  (* ---- the stream layer of the format, word by word (specification side) ------------- *)
  (* what parse() reports in *garbage when no further stream starts *)
  Definition tail_garbage (bits : list bool) : N :=
    match run (take 16) bits with
    | Err _ => 0
    | Ok (w1, r1) =>
        if w1 =? 0x425A then
          match run (take 16) r1 with
          | Err _ => 16
          | Ok _ => 32
          end
        else 16
    end.

  Fixpoint wstream (fuel : nat) (level cc : N) (bits : list bool) : result (list A * N) :=
    match fuel with
    | 0%nat => Err ErrFuel
    | S f =>
        match run (take 16) bits with
        | Err _ => Err EOF
        | Ok (w1, r1) =>
            if w1 =? 0x1772 then
              match run (take 16) r1 with
              | Err _ => Err EOF
              | Ok (w2, r2) =>
                  if negb (w2 =? 0x4538) then Err ErrHeader else
                  match run (take 16) r2 with
                  | Err _ => Err EOF
                  | Ok (w3, r3) =>
                      if negb (w3 =? 0x5090) then Err ErrHeader else
                      match run (take 32) r3 with
                      | Err _ => Err EOF
                      | Ok (scrc, r4) =>
                          if negb (scrc =? cc) then Err ErrStrmCrc else
                          match next_stream (align_drop r4) with
                          | None => Ok ([], tail_garbage (align_drop r4))
                          | Some (level', r5) => wstream f level' 0 r5
                          end
                      end
                  end
              end
            else if w1 =? 0x3141 then
              match run (take 16) r1 with
              | Err _ => Err EOF
              | Ok (w2, r2) =>
                  if negb (w2 =? 0x5926) then Err ErrHeader else
                  match run (take 16) r2 with
                  | Err _ => Err EOF
                  | Ok (w3, r3) =>
                      if negb (w3 =? 0x5359) then Err ErrHeader else
                      match run (take 32) r3 with
                      | Err _ => Err EOF
                      | Ok (crc, r4) =>
                          match blk level crc r4 with
                          | Err e => Err e
                          | Ok (out, r5) =>
                              match wstream f level (combine_stream_crc cc crc) r5 with
                              | Err e => Err e
                              | Ok (o, g) => Ok (out ++ o, g)
                              end
                          end
                      end
                  end
              end
            else Err ErrHeader
        end
    end.

  Definition inject (r : result (list A * N)) : dres A :=
    match r with
    | Ok (o, g) => D_ok o g
    | Err e => D_err e
    end.
End Drive.

(* ---- the block of the format as a [blk] ---------------------------------------------------- *)
(* exactly what Format.decode_from does between the block header and the next header; the
   fuel of the delta reader is the one decode_from uses (S (length of the bits from the block
   magic on) = S (80 + length of the bits after the header)) *)
Definition format_blk (pol : policy) (level crc : N) (r2 : list bool) : result (list N * list bool) :=
  match run (read_block pol (S (80 + length r2))) r2 with
  | Err e => Err e
  | Ok (rb, r3) =>
      match decode_block pol level rb with
      | Err e => Err e
      | Ok out =>
          if negb (N.lxor (crc_bytes mask32 out) mask32 =? crc) then Err ErrBlkCrc
          else Ok (out, r3)
      end
  end.

(* ---- the whole file: work() of process.c sniffs the first 32 bits, expand.c starts the
   parser with parser_init(&par, bs100k, expand_stream_mode) on what follows -------------- *)
Definition pdecode_gen {A} (blk : N -> N -> list bool -> result (list A * list bool))
           (m0 : pmem) (bits : list bool) : dres A :=
  match run (take 32) bits with
  | Ok (h, rest) =>
      if (file_magic_base + file_magic_lo <=? h) && (h <=? file_magic_base + file_magic_hi) then
        pdrive blk (S (length rest))
               (set_buf (parser_init m0 (Z.of_N (h - (file_magic_base + file_magic_level_base))) expand_stream_mode) rest)
      else D_err ErrNotBzip2
  | Err _ => D_err ErrNotBzip2
  end.

Definition pdecode_bits (pol : policy) (m0 : pmem) (bits : list bool) : dres N :=
  pdecode_gen (format_blk pol) m0 bits.

(* ---- what the scheduler sees: the block headers ------------------------------------------- *)
(* [body_end bits] = the bits after the block whose body starts at [bits] (None: the block
   reader fails).  The outputs are (number of bits left when the header was complete,
   hd->crc, hd->bs100k), in order; the verdict is that of [dres]. *)
Definition header_blk (body_end : list bool -> option (list bool)) (level crc : N) (bits : list bool)
  : result (list (nat * N * N) * list bool) :=
  match body_end bits with
  | Some rest => Ok ([(length bits, crc, level)], rest)
  | None => Err ErrUnterm
  end.

Definition parse_headers (body_end : list bool -> option (list bool)) (m0 : pmem) (bits : list bool)
  : dres (nat * N * N) := pdecode_gen (header_blk body_end) m0 bits.

(* an arbitrary content of the memory parser_init() and parse() start from *)
Definition pmem0 : pmem := mk_pmem PS_ACCEPT 77 0xDEADBEEF 0xBADC0DE 5 (-7) 0xFEEDFACE 99 [].
