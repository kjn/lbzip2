(* The decoder never runs out of fuel: with the fuel decode_file gives it, every
   loop is bounded by the number of input bits (no-hang at codec level). *)
From Coq Require Import List NArith Arith Bool Lia.
From LBZ Require Import Common.Bits Dec.Prog Dec.Sim Dec.Format Dec.Head Dec.Delta Dec.Policies.
Import ListNotations.

Definition nf {A} (n : nat) (p : prog A) : Prop :=
  forall bits, (length bits <= n)%nat -> run p bits <> Err ErrFuel.

Lemma nf_ret {A} n (a : A) : nf n (Ret a).
Proof. intros bits _. discriminate. Qed.

Lemma nf_fail {A} n e : e <> ErrFuel -> nf n (@Fail A e).
Proof. intros H bits _ E. simpl in E. congruence. Qed.

Lemma nf_bit {A} n (k : bool -> prog A) : (forall b, nf (n - 1) (k b)) -> nf n (Bit k).
Proof.
  intros H bits Hl. simpl. destruct bits as [|b r]; [discriminate|]. apply H. simpl in Hl. lia.
Qed.

Lemma nf_mono {A} n m (p : prog A) : (m <= n)%nat -> nf n p -> nf m p.
Proof. intros H Hn bits Hl. apply Hn. lia. Qed.

Lemma nf_bind {A B} n (p : prog A) (f : A -> prog B) : nf n p -> (forall a, nf n (f a)) -> nf n (bind p f).
Proof.
  intros Hp Hf bits Hl. rewrite run_bind. destruct (run p bits) as [[a r]|e] eqn:E.
  - apply Hf. apply run_rest_le in E. lia.
  - intro H. apply (Hp bits Hl). congruence.
Qed.

Lemma nf_take n k : nf n (take k).
Proof. intros bits _ E. apply run_take_err in E. discriminate. Qed.

Lemma nf_guard n c e : e <> ErrFuel -> nf n (guard c e).
Proof. intro H. unfold guard. destruct c; [apply nf_ret|apply nf_fail; exact H]. Qed.

(* a reader put together from these pieces cannot run out of fuel: [auto with nf] *)
Create HintDb nf.
#[local] Hint Resolve nf_ret nf_fail nf_bit nf_bind nf_take nf_guard : nf.
#[local] Hint Extern 1 (_ <> ErrFuel) => discriminate : nf.

Lemma nf_repeat {A} n k (p : prog A) : nf n p -> nf n (repeat_prog k p).
Proof. intro H. induction k as [|k IH]; cbn [repeat_prog]; auto with nf. Qed.
#[local] Hint Resolve nf_repeat : nf.

Lemma nf_mprog {S A} (m : machine S A) : (forall s e, mstat m s = MFail e -> e <> ErrFuel) ->
  forall fuel n s, (n < fuel)%nat -> nf n (mprog m fuel s).
Proof.
  intros Hm. induction fuel as [|f IH]; intros n s Hn; [lia|].
  cbn [mprog]. destruct (mstat m s) eqn:E.
  - destruct (Nat.eq_dec n 0) as [->|Hne].
    + intros bits Hl. destruct bits; [simpl; discriminate|simpl in Hl; lia].
    + apply nf_bit. intro b. apply IH. lia.
  - apply nf_ret.
  - apply nf_fail. eapply Hm. exact E.
Qed.

Lemma strict_fail_codes s e : strict_stat s = MFail e -> e <> ErrFuel.
Proof.
  destruct s as [tag cur]. unfold strict_stat.
  destruct (N.eqb tag 0); [destruct (in_len_range cur)|destruct (N.eqb tag 1); [|destruct (N.eqb tag 2)]]; congruence.
Qed.

Lemma win_fail_codes s e : win_stat s = MFail e -> e <> ErrFuel.
Proof.
  destruct s as [[[tag cur] j] v]. unfold win_stat.
  destruct (N.eqb tag 0); [|destruct (N.eqb tag 1); [|destruct (N.eqb tag 2)]]; congruence.
Qed.

Definition pol_nf (pol : policy) : Prop :=
  (forall fuel n cur, (n < fuel)%nat -> nf n (delta_reader pol fuel cur)) /\
  (forall lens e, table_check pol lens = Err e -> e <> ErrFuel).

Lemma lbz_pol_nf : pol_nf lbz_policy.
Proof.
  split; [intros fuel n cur; apply (nf_mprog win_machine win_fail_codes)|].
  intros lens e. cbn. unfold complete_only.
  destruct (N.eqb (kraft lens) kraft_full); [|destruct (N.ltb (kraft lens) kraft_full)]; congruence.
Qed.

Lemma ref_pol_nf : pol_nf ref_policy.
Proof.
  split; [intros fuel n cur; apply (nf_mprog strict_machine strict_fail_codes)|].
  intros lens e. cbn. unfold not_oversubscribed. destruct (N.leb (kraft lens) kraft_full); congruence.
Qed.

Section NoFuel.
  Variable pol : policy.
  Hypothesis Hp : pol_nf pol.

  Lemma nf_read_smalls n big : forall k i, nf n (read_smalls big i k).
  Proof. induction k as [|k IH]; intro i; cbn [read_smalls]; [|destruct (testbit16 big i)]; auto with nf. Qed.

  Lemma nf_read_unary n : forall l c, nf n (read_unary l c).
  Proof.
    intros l. revert n. induction l as [|l IH]; intros n c; cbn [read_unary]; [auto with nf|].
    apply nf_bit. intros []; auto with nf.
  Qed.

  Lemma nf_read_lens fuel n : (n < fuel)%nat -> forall k cur, nf n (read_lens pol fuel k cur).
  Proof.
    intro H. pose proof (proj1 Hp) as Hd. induction k as [|k IH]; intro cur; cbn [read_lens]; auto with nf.
  Qed.

  Lemma nf_dsym n : forall cnts sorted code first index, nf n (dsym cnts sorted code first index).
  Proof.
    intros cnts. revert n. induction cnts as [|c cs IH]; intros n sorted code first index; cbn [dsym]; [auto with nf|].
    apply nf_bit. intro b. destruct (N.ltb _ _); auto with nf.
  Qed.
  #[local] Hint Resolve nf_read_smalls nf_read_unary nf_read_lens nf_dsym : nf.

  Lemma nf_read_group n lens eob : forall k, nf n (read_group lens eob k).
  Proof.
    induction k as [|k IH]; cbn [read_group]; [auto with nf|].
    apply nf_bind; [apply nf_dsym|]. intro s. destruct (N.eqb s eob); auto with nf.
  Qed.
  #[local] Hint Resolve nf_read_group : nf.

  Lemma nf_read_groups n tables eob : forall sels, nf n (read_groups pol tables eob sels).
  Proof.
    induction sels as [|t r IH]; cbn [read_groups]; [auto with nf|].
    destruct (table_check pol (nth (N.to_nat t) tables [])) eqn:E; [|apply nf_fail, (proj2 Hp _ _ E)].
    apply nf_bind; [auto with nf|]. intro g. destruct (snd g); auto with nf.
  Qed.
  #[local] Hint Resolve nf_read_groups : nf.

  Lemma nf_read_block fuel n : (n < fuel)%nat -> nf n (read_block pol fuel).
  Proof. intro H. unfold read_block, read_bitmap, read_table. auto 20 with nf. Qed.

  Lemma unmtf_no_fuel limit : forall syms order run shift size acc e,
    unmtf limit order run shift size acc syms = Err e -> e <> ErrFuel.
  Proof.
    induction syms as [|s r IH]; intros order run shift size acc e H; cbn [unmtf] in H.
    - destruct (N.ltb limit (size + run)); congruence.
    - destruct (N.leb s 1); [exact (IH _ _ _ _ _ _ H)|].
      destruct (N.ltb limit (size + run)); [congruence|].
      destruct (mtf_front (N.to_nat (s - 1)) order 0%N). exact (IH _ _ _ _ _ _ H).
  Qed.

  Lemma unrle_no_fuel strict : forall blk prev cnt e, unrle strict prev cnt blk = Err e -> e <> ErrFuel.
  Proof.
    induction blk as [|c r IH]; intros prev cnt e H; cbn [unrle] in H.
    - destruct (strict && N.eqb cnt 4)%bool; congruence.
    - destruct (N.eqb cnt 4); (destruct (unrle strict _ _ r) eqn:E; cbn [rbind] in H; [discriminate|]);
        injection H as <-; exact (IH _ _ _ E).
  Qed.

  Lemma decode_block_no_fuel level rb e : decode_block pol level rb = Err e -> e <> ErrFuel.
  Proof.
    unfold decode_block, unmtf_block.
    destruct (unmtf (100000 * level) (rb_used rb) 0 0 0 [] (rb_mtfv rb)) as [[runs sz]|e'] eqn:E; cbn [rbind].
    - destruct (N.eqb _ 0); [congruence|]. destruct (N.leb _ _); [congruence|]. apply unrle_no_fuel.
    - intro H. injection H as <-. exact (unmtf_no_fuel _ _ _ _ _ _ _ _ E).
  Qed.

  Theorem decode_from_no_fuel : forall fuel level ccrc bits,
    (length bits < fuel)%nat -> decode_from pol fuel level ccrc bits <> Err ErrFuel.
  Proof.
    induction fuel as [|f IH]; intros level ccrc bits Hl; [lia|]. rewrite decode_from_S.
    destruct (head bits) as [| |[] v r2] eqn:Hh; try discriminate; apply head_length in Hh as [Hh _].
    - destruct (run (read_block pol (S (length bits))) r2) as [[rb r3]|e] eqn:Erb.
      2:{ intro H. apply (nf_read_block (S (length bits)) (length r2) ltac:(lia) r2 (le_n _)). congruence. }
      apply run_rest_le in Erb.
      destruct (decode_block pol level rb) as [out|e] eqn:Edb.
      2:{ intro H. injection H as ->. exact (decode_block_no_fuel _ _ _ Edb eq_refl). }
      destruct (negb _); [discriminate|].
      specialize (IH level (combine_stream_crc ccrc v) r3 ltac:(lia)).
      destruct (decode_from pol f level (combine_stream_crc ccrc v) r3) as [[o ps]|e]; congruence.
    - destruct (negb _); [discriminate|].
      destruct (next_stream (align_drop r2)) as [[level' r3]|] eqn:Ens; [|discriminate].
      apply next_stream_length in Ens. pose proof (align_drop_length r2).
      specialize (IH level' 0%N r3 ltac:(lia)).
      destruct (decode_from pol f level' 0 r3) as [[o ps]|e]; congruence.
  Qed.

  Theorem decode_file_no_fuel file : decode_file pol file <> Err ErrFuel.
  Proof.
    unfold decode_file, decode_file_info, decode_bits_info.
    destruct (run (take 32) (bits_of_bytes file)) as [[h rest]|e]; [|discriminate].
    destruct (_ && _)%bool; [|discriminate].
    pose proof (decode_from_no_fuel (S (length rest)) (h - 1113221168)%N 0%N rest (le_n _)) as NF.
    destruct (decode_from pol (S (length rest)) (h - 1113221168) 0 rest) as [[o ps]|e]; congruence.
  Qed.
End NoFuel.

From LBZ Require Import Dec.DecProofs.

Lemma always_verdict file : lbz_decode file <> Err ErrFuel /\ ref_decode file <> Err ErrFuel.
Proof. split; [apply (decode_file_no_fuel lbz_policy lbz_pol_nf)|apply (decode_file_no_fuel ref_policy ref_pol_nf)]. Qed.

Lemma invalid_rejected file : (forall o, ref_decode file <> Ok o) -> exists e, lbz_decode file = Err e /\ e <> ErrFuel.
Proof.
  intro H. destruct (lbz_decode file) as [o|e] eqn:E.
  - exfalso. apply (H o). apply lbz_sound. exact E.
  - exists e. split; [reflexivity|]. intro He. subst e. exact (proj1 (always_verdict file) E).
Qed.
