(* The stream layer of the format (Format.decode_from) taken one item at a time: at the front
   of the bits stands a block header or an end-of-stream trailer (a 48-bit magic and a 32-bit
   CRC field), a truncated one, or neither.  The proofs about decode_from in Dec/ (DecProofs,
   CrcProofs, Total, ParseProofs) go through [decode_from_S] and the frame lemmas below. *)
From Coq Require Import List NArith Arith Bool Lia.
From LBZ Require Import Common.Bits Dec.Prog Dec.Sim Dec.Format.
Import ListNotations.
Local Open Scope N_scope.

Inductive hkind := K_block | K_eos.

Inductive hview :=
| H_eof                                         (* the input ends inside the magic or the field *)
| H_bad                                         (* 48 bits that are neither magic *)
| H_field (k : hkind) (v : N) (r : list bool).  (* magic, the 32-bit field, what follows *)

Definition magic_kind (m : N) : option hkind :=
  if m =? block_magic then Some K_block else if m =? eos_magic then Some K_eos else None.

Definition head (bits : list bool) : hview :=
  match run (take 48) bits with
  | Err _ => H_eof
  | Ok (m, r1) =>
      match magic_kind m with
      | None => H_bad
      | Some k => match run (take 32) r1 with Err _ => H_eof | Ok (v, r2) => H_field k v r2 end
      end
  end.

Lemma decode_from_S pol f level ccrc bits :
  decode_from pol (S f) level ccrc bits =
  match head bits with
  | H_eof => Err EOF
  | H_bad => Err ErrHeader
  | H_field K_block crc r2 =>
      match run (read_block pol (S (length bits))) r2 with
      | Err e => Err e
      | Ok (rb, r3) =>
          match decode_block pol level rb with
          | Err e => Err e
          | Ok out =>
              if negb (N.lxor (crc_bytes mask32 out) mask32 =? crc) then Err ErrBlkCrc
              else
                match decode_from pol f level (combine_stream_crc ccrc crc) r3 with
                | Err e => Err e
                | Ok (o, ps) => Ok (out ++ o, 48%nat :: map (fun p => (length bits - length r3 + p)%nat) ps)
                end
          end
      end
  | H_field K_eos scrc r2 =>
      if negb (scrc =? ccrc) then Err ErrStrmCrc
      else
        match next_stream (align_drop r2) with
        | None => Ok ([], [48%nat])
        | Some (level', r3) =>
            match decode_from pol f level' 0 r3 with
            | Err e => Err e
            | Ok (o, ps) => Ok (o, 48%nat :: map (fun p => (length bits - length r3 + p)%nat) ps)
            end
        end
  end.
Proof.
  cbn [decode_from]. unfold head, magic_kind.
  destruct (run (take 48) bits) as [[m r1]|e] eqn:E1; [|rewrite (run_take_err _ _ _ E1); reflexivity].
  destruct (m =? block_magic); [|destruct (m =? eos_magic); [|reflexivity]];
    (destruct (run (take 32) r1) as [[v r2]|e] eqn:E2; [|rewrite (run_take_err _ _ _ E2)]; reflexivity).
Qed.

Lemma head_field bits m r1 k v r2 :
  run (take 48) bits = Ok (m, r1) -> magic_kind m = Some k -> run (take 32) r1 = Ok (v, r2) ->
  head bits = H_field k v r2.
Proof. unfold head. intros -> -> ->. reflexivity. Qed.

Lemma head_frame bits k v r : head bits = H_field k v r ->
  exists a c, bits = a ++ c ++ r /\ length a = 48%nat /\ length c = 32%nat /\ v = N_of_bits c /\
    forall c' r', length c' = 32%nat -> head (a ++ c' ++ r') = H_field k (N_of_bits c') r'.
Proof.
  unfold head. destruct (run (take 48) bits) as [[m r1]|] eqn:E1; [|discriminate].
  destruct (magic_kind m) as [k0|] eqn:Ek; [|discriminate].
  destruct (run (take 32) r1) as [[v0 r2]|] eqn:E2; [|discriminate].
  intro H. injection H as -> -> ->.
  apply run_take_ok in E1 as [a [-> [La ->]]]. apply run_take_ok in E2 as [c [-> [Lc ->]]].
  exists a, c. repeat split; try assumption.
  intros c' r' Lc'. rewrite (run_take_app0 48 a _ La), Ek, (run_take_app0 32 c' r' Lc'). reflexivity.
Qed.

Lemma head_length bits k v r : head bits = H_field k v r -> length bits = (80 + length r)%nat /\ v < 2 ^ 32.
Proof.
  intro H. apply head_frame in H as (a & c & -> & La & Lc & -> & _). split.
  - rewrite !app_length. lia.
  - pose proof (N_of_bits_bound c) as B. rewrite Lc in B. exact B.
Qed.

Lemma lt_pow2_testbit x n : x < 2 ^ n -> forall k, n <= k -> N.testbit x k = false.
Proof.
  intros H k Hk. destruct (N.eq_dec x 0) as [->|Hx]; [apply N.bits_0|].
  apply N.bits_above_log2. apply N.log2_lt_pow2 in H; lia.
Qed.

Lemma testbit_lt_pow2 x n : (forall k, n <= k -> N.testbit x k = false) -> x < 2 ^ n.
Proof.
  intro H. destruct (N.lt_ge_cases x (2 ^ n)) as [L|L]; [exact L|exfalso].
  assert (Hx : 0 < x) by (pose proof (N.pow_nonzero 2 n); lia).
  apply N.log2_le_pow2 in L; [|exact Hx]. specialize (H _ L). rewrite N.bit_log2 in H; [discriminate|lia].
Qed.

Lemma combine_lt cc c : cc < 2 ^ 32 -> c < 2 ^ 32 -> combine_stream_crc cc c < 2 ^ 32.
Proof.
  intros H1 H2. apply testbit_lt_pow2. intros k Hk. unfold combine_stream_crc, rotl1_32.
  rewrite N.lxor_spec, N.lor_spec, N.land_spec, N.shiftr_spec'.
  change mask32 with (N.ones 32). rewrite N.ones_spec_high by exact Hk.
  rewrite (lt_pow2_testbit cc 32 H1 (k + 31)) by lia. rewrite (lt_pow2_testbit c 32 H2 k Hk).
  rewrite andb_false_r. reflexivity.
Qed.

Lemma align_drop_length x : (length (align_drop x) <= length x)%nat.
Proof. unfold align_drop. rewrite skipn_length. lia. Qed.

Lemma align_drop_frame x :
  exists g, x = g ++ align_drop x /\ forall y, length y = length (align_drop x) -> align_drop (g ++ y) = y.
Proof.
  unfold align_drop. set (k := (length x mod 8)%nat). exists (firstn k x).
  split; [symmetry; apply firstn_skipn|]. intros y Ly.
  assert (Lg : length (firstn k x) = k) by (apply firstn_length_le, Nat.mod_le; discriminate).
  replace (length (firstn k x ++ y)) with (length x)
    by (rewrite app_length, Ly, <- app_length, firstn_skipn; reflexivity).
  fold k. rewrite skipn_app, Lg, Nat.sub_diag, skipn_all2 by lia. reflexivity.
Qed.

Lemma next_stream_frame x lv r : next_stream x = Some (lv, r) ->
  exists h, x = h ++ r /\ length h = 32%nat /\ forall r', next_stream (h ++ r') = Some (lv, r').
Proof.
  unfold next_stream. intro H.
  destruct (run (take 16) x) as [[w1 r1]|] eqn:E1; [|discriminate].
  destruct (w1 =? 0x425A) eqn:W1; [|discriminate].
  destruct (run (take 16) r1) as [[w2 r2]|] eqn:E2; [|discriminate].
  destruct ((0x6831 <=? w2) && (w2 <=? 0x6839))%bool eqn:W2; [|discriminate].
  injection H as <- <-.
  apply run_take_ok in E1 as [a1 [-> [L1 ->]]]. apply run_take_ok in E2 as [a2 [-> [L2 ->]]].
  exists (a1 ++ a2). rewrite app_length, L1, L2, <- app_assoc. repeat split.
  intro r'. rewrite <- app_assoc, (run_take_app0 16 a1 _ L1), W1, (run_take_app0 16 a2 r' L2), W2. reflexivity.
Qed.

Lemma next_stream_length x lv r : next_stream x = Some (lv, r) -> length x = (32 + length r)%nat.
Proof. intro H. apply next_stream_frame in H as (h & -> & L & _). rewrite app_length, L. reflexivity. Qed.
