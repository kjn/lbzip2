(* Configuration-independent lemmas about the state machine of IoFail/IoFailModel.v: soundness of
   the closed-set certificate for any property of core states, projection of the full state onto
   the core, counting of effective own steps.

   Both C21 (IoFailProofs.v) and the process level of C07 (DataFailProofs.v) rest on this file and
   on nothing of each other: IoFailProofs.v holds C21's finite check of the regenerated
   configuration, and the C07 theorems must build - or fail on their OWN obligations -
   independently of it. *)
From Coq Require Import List NArith Bool String Arith Lia.
From LBZ Require Import Gen.IoFailTab IoFail.IoFailModel.
Import ListNotations.
Local Open Scope N_scope.

Lemma core_eqb_true : forall a b, core_eqb a b = true -> a = b.
Proof. intros a b H. unfold core_eqb in H. destruct (core_eq_dec a b); [assumption | discriminate]. Qed.

Lemma core_eqb_refl : forall a, core_eqb a a = true.
Proof. intros a. unfold core_eqb. destruct (core_eq_dec a a); [reflexivity | congruence]. Qed.

Lemma memb_In : forall k l, memb k l = true -> In k l.
Proof.
  intros k l H. unfold memb in H. apply existsb_exists in H. destruct H as [x [Hin Heq]].
  apply core_eqb_true in Heq. subst. assumption.
Qed.

Lemma all_cevents_complete : forall ev, In ev all_cevents.
Proof. intros ev. destruct ev; cbn; tauto. Qed.

Lemma closed_step : forall c e S k ev, closedb c e S = true -> In k S -> In (cstep c e ev k) S.
Proof.
  intros c e S k ev Hc Hin. unfold closedb in Hc. rewrite forallb_forall in Hc.
  specialize (Hc k Hin). rewrite forallb_forall in Hc.
  apply memb_In. apply Hc. apply all_cevents_complete.
Qed.

Lemma closed_run : forall c e S sch k, closedb c e S = true -> In k S -> In (run_core c e k sch) S.
Proof.
  intros c e S sch. induction sch as [|ev t IH]; intros k Hc Hin; cbn.
  - assumption.
  - apply IH; [assumption|]. apply closed_step; assumption.
Qed.

Lemma run_core_of_run : forall c e sch st,
  s_core (run c e st sch) = run_core c e (s_core st) (core_events sch).
Proof.
  intros c e sch. induction sch as [|ev t IH]; intros st; cbn.
  - reflexivity.
  - destruct ev as [ev | i o]; cbn.
    + unfold run in IH. rewrite IH. cbn. reflexivity.
    + unfold run in IH. rewrite IH. cbn.
      destruct (k_res (s_core st)); reflexivity.
Qed.

Definition is_own (ev : cevent) : bool := match ev with EvF | EvMain => true | _ => false end.

Fixpoint own_effective (c : cfg) (e : fenv) (k : core) (sch : list cevent) : nat :=
  match sch with
  | [] => 0
  | ev :: t =>
    let k' := cstep c e ev k in
    ((if is_own ev && negb (core_eqb k' k) then 1 else 0) + own_effective c e k' t)%nat
  end.

Lemma is_own_In : forall ev, is_own ev = true -> In ev own_events.
Proof. intros ev; destruct ev; cbn; intros; try discriminate; tauto. Qed.
Lemma not_own_In : forall ev, is_own ev = false -> In ev env_events.
Proof. intros ev; destruct ev; cbn; intros; try discriminate; tauto. Qed.

(* the last two clauses of [good_state] and of [DataFail.dgood]: own steps do nothing or
   decrease the measure, the others never increase it *)
Definition mono_ok (c : cfg) (e : fenv) (k : core) : bool :=
  forallb (fun ev => core_eqb (cstep c e ev k) k || Nat.ltb (mu c (cstep c e ev k)) (mu c k)) own_events
  && forallb (fun ev => Nat.leb (mu c (cstep c e ev k)) (mu c k)) env_events.

(* A certificate that [good] holds in every core state reachable from [k0]: a list that
   contains [k0], is closed under every event, and on whose members [good] evaluates to true.
   [check_set] and [DataFail.dcheck_set] unfold to the hypothesis [cert]. *)
Section Cert.
  Variables (c : cfg) (e : fenv) (good : core -> bool) (k0 : core) (S : list core).
  Hypothesis cert : memb k0 S && closedb c e S && forallb good S = true.

  Let cert_parts : In k0 S /\ closedb c e S = true /\ forall k, In k S -> good k = true.
  Proof.
    destruct (proj1 (andb_true_iff _ _) cert) as [H Hg].
    destruct (proj1 (andb_true_iff _ _) H) as [H0 Hc].
    split; [apply memb_In, H0|]. split; [exact Hc|]. apply forallb_forall, Hg.
  Qed.

  Lemma cert_run sch : good (run_core c e k0 sch) = true.
  Proof. destruct cert_parts as [H0 [Hc Hg]]. apply Hg, closed_run; assumption. Qed.

  Hypothesis mono : forall k, good k = true -> mono_ok c e k = true.

  Lemma cert_bounded sch : (own_effective c e k0 sch + mu c (run_core c e k0 sch) <= mu c k0)%nat.
  Proof.
    destruct cert_parts as [H0 [Hc Hg]]. revert H0. generalize k0.
    induction sch as [|ev t IH]; intros k Hin; cbn [own_effective run_core fold_left]; [lia|].
    specialize (IH _ (closed_step c e S k ev Hc Hin)). unfold run_core in IH.
    destruct (proj1 (andb_true_iff _ _) (mono k (Hg k Hin))) as [Hown Henv].
    rewrite forallb_forall in Hown, Henv.
    destruct (is_own ev) eqn:Ho; cbn [andb].
    - specialize (Hown ev (is_own_In ev Ho)).
      destruct (core_eqb (cstep c e ev k) k) eqn:E; cbn [negb orb] in *.
      + apply core_eqb_true in E. rewrite E in IH |- *. clear - IH. lia.
      + apply Nat.ltb_lt in Hown. clear - IH Hown. lia.
    - specialize (Henv ev (not_own_In ev Ho)). apply Nat.leb_le in Henv. clear - IH Henv. lia.
  Qed.
End Cert.

Definition with_bail_tail (c : cfg) (ops : list op) : cfg :=
  {| c_blocked := c_blocked c; c_cli_blocks := c_cli_blocks c; c_cli_handlers := c_cli_handlers c;
     c_saved_ok := c_saved_ok c; c_halt_cases := c_halt_cases c; c_halt_default := c_halt_default c;
     c_bail_main := c_bail_main c; c_bail_sub := c_bail_sub c; c_prologue := c_prologue c; c_logc := c_logc c;
     c_log_ops := c_log_ops c; c_nobail := c_nobail c; c_bail_tail := ops;
     c_xread_err := c_xread_err c; c_xwrite_err := c_xwrite_err c; c_ex_ok := c_ex_ok c;
     c_complete_sig := c_complete_sig c; c_sigpipe := c_sigpipe c; c_sigxfsz := c_sigxfsz c;
     c_epipe := c_epipe c; c_efbig := c_efbig c |}.

Definition with_bail_main (c : cfg) (ops : list op) : cfg :=
  {| c_blocked := c_blocked c; c_cli_blocks := c_cli_blocks c; c_cli_handlers := c_cli_handlers c;
     c_saved_ok := c_saved_ok c; c_halt_cases := c_halt_cases c; c_halt_default := c_halt_default c;
     c_bail_main := ops; c_bail_sub := c_bail_sub c; c_prologue := c_prologue c; c_logc := c_logc c;
     c_log_ops := c_log_ops c; c_nobail := c_nobail c; c_bail_tail := c_bail_tail c;
     c_xread_err := c_xread_err c; c_xwrite_err := c_xwrite_err c; c_ex_ok := c_ex_ok c;
     c_complete_sig := c_complete_sig c; c_sigpipe := c_sigpipe c; c_sigxfsz := c_sigxfsz c;
     c_epipe := c_epipe c; c_efbig := c_efbig c |}.
