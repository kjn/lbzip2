(* C07 (process level) - proofs about the data-error roles of the fatal-exit state machine
   (IoFail/DataFail.v on top of IoFail/IoFailModel.v).

   Method (the one of IoFailProofs.v; the generic lemmas are in DataFailGeneric.v so that this
   file does not depend on C21's finite check): for every regenerated call site and both positions of
   the main thread, the reachable core states under ALL interleavings of the failing thread,
   the main thread and the abstracted pipeline events form a finite set enumerated by the
   untrusted [explore]; [closedb] re-checks closure under every event and [dgood] is evaluated
   on every member.  [dcheck_sound] lifts this to all schedules; arbitrary other threads are
   added by the projection lemma [run_core_of_run].  The finite check is discharged by
   computation on the tables regenerated from the source ([gen_dcheck_all_true],
   [data_structure_ok_true], [messages_ok_true]), so a source change that alters a call site,
   the logging macro, bailout() or halt() re-opens exactly these obligations. *)
From Coq Require Import List NArith Bool String Arith Lia.
From LBZ Require Import Gen.IoFailTab Gen.DataFailTab Gen.Consts Gen.ErrTab
     IoFail.IoFailModel IoFail.DataFailGeneric IoFail.DataFail Common.Bits.
From LBZ Require Dec.Prog Dec.ErrMap.
Import ListNotations.
Local Open Scope N_scope.

Lemma dcheck_set_sound : forall c e k0 S, dcheck_set c e k0 S = true ->
  forall sch, dgood c e (run_core c e k0 sch) = true.
Proof. intros c e k0 S. exact (cert_run c e (dgood c e) k0 S). Qed.

Strategy expand [dcheck].

Lemma dcheck_sound : forall c e k0, dcheck c e k0 = true ->
  forall sch, dgood c e (run_core c e k0 sch) = true.
Proof. intros c e k0 H. unfold dcheck in H. exact (dcheck_set_sound c e _ _ H). Qed.

Lemma dgood_final : forall c e k o, dgood c e k = true -> k_res k = Some o ->
  o = Exited 1 /\ k_printed k = 1.
Proof.
  intros c e k o H Hr. unfold dgood in H. rewrite Hr, !andb_true_iff, !N.eqb_eq in H.
  destruct H as [[[[[[[[[[Ho Hp] _] _] _] _] _] _] _] _] _]. split; [|exact Hp].
  destruct o as [n|s]; [|discriminate]. apply N.eqb_eq in Ho. subst. reflexivity.
Qed.

Lemma dgood_progress : forall c e k, dgood c e k = true -> k_res k = None ->
  exists ev, In ev own_events /\ (mu c (cstep c e ev k) < mu c k)%nat.
Proof.
  intros c e k H Hr. unfold dgood in H. rewrite Hr, !andb_true_iff, existsb_exists in H.
  destruct H as [[[[[[[[[[ev [Hin Hlt]] _] _] _] _] _] _] _] _] _].
  exists ev. split; [exact Hin | apply Nat.ltb_lt, Hlt].
Qed.

Lemma dgood_no_success : forall c e k, dgood c e k = true ->
  k_completed k = false /\ k_m k <> MReturned /\ k_f k <> FLive /\ (k_printed k <= 1).
Proof.
  intros c e k H. unfold dgood in H. rewrite !andb_true_iff, negb_true_iff, N.leb_le in H.
  destruct H as [[[[[[[[[_ Hc] Hm] Hp] _] _] _] Hf] _] _]. repeat split; try assumption.
  - intros E. rewrite E in Hm. discriminate.
  - intros E. rewrite E in Hf. discriminate.
Qed.

(* the diagnostic is on stderr before the failure is signalled / acted upon *)
Lemma dgood_message_first : forall c e k, dgood c e k = true ->
  (k_caught k <> None -> k_printed k = 1)
  /\ (k_f k = FDead -> k_printed k = 1)
  /\ (forall l, k_m k = MOps InHalt l -> k_printed k = 1).
Proof.
  intros c e k H. unfold dgood in H. rewrite !andb_true_iff in H.
  destruct H as [[[[[[[[[_ _] _] _] Hc] Hf] Hm] _] _] _]. repeat split.
  - intros E. destruct (k_caught k); [apply N.eqb_eq, Hc | congruence].
  - intros E. rewrite E in Hf. apply N.eqb_eq, Hf.
  - intros l E. rewrite E in Hm. apply N.eqb_eq, Hm.
Qed.

Lemma dgood_mono : forall c e k, dgood c e k = true -> mono_ok c e k = true.
Proof.
  intros c e k H. unfold dgood in H.
  apply andb_true_iff in H as [H Henv]. apply andb_true_iff in H as [_ Hown].
  unfold mono_ok. rewrite Hown, Henv. reflexivity.
Qed.

Lemma dcheck_set_bounded : forall c e k0 S, dcheck_set c e k0 S = true ->
  forall sch, (own_effective c e k0 sch + mu c (run_core c e k0 sch) <= mu c k0)%nat.
Proof. intros c e k0 S H. exact (cert_bounded c e (dgood c e) k0 S H (dgood_mono c e)). Qed.

Lemma dcheck_bounded : forall c e k0, dcheck c e k0 = true ->
  forall sch, (own_effective c e k0 sch + mu c (run_core c e k0 sch) <= mu c k0)%nat.
Proof. intros c e k0 H. unfold dcheck in H. exact (dcheck_set_bounded c e _ _ H). Qed.

(* the sites differ in what they print; where thread and operations agree their initial states
   coincide, and each distinct one is checked once *)
Lemma gen_dcheck_all_true :
  forallb (dcheck gen_cfg (data_fenv gen_cfg)) (nodup core_eq_dec (all_data_inits data_sites)) = true.
Proof. vm_compute. reflexivity. Qed.

Lemma data_structure_ok_true : data_structure_ok = true.
Proof. vm_compute. reflexivity. Qed.

Lemma data_mu_ok_true : data_mu_ok gen_cfg data_sites = true.
Proof. vm_compute. reflexivity. Qed.

Lemma no_warning_site_true : no_warning_site = true.
Proof. vm_compute. reflexivity. Qed.

Lemma no_warn_call_true : no_warn_call_in_decompression = true.
Proof. vm_compute. reflexivity. Qed.

Lemma exit_statuses : EX_FAIL = 1 /\ final_status false = 0 /\ final_status true = 4
                      /\ final_status true <> EX_FAIL /\ final_status false <> EX_FAIL.
Proof. vm_compute. repeat split; discriminate. Qed.

Lemma in_all_data_inits : forall sites s sp, In s sites -> In (data_init s sp) (all_data_inits sites).
Proof.
  intros sites s sp Hin. unfold all_data_inits. apply in_flat_map. exists s. split; [assumption|].
  apply in_map. destruct sp; cbn; tauto.
Qed.

Lemma gen_dcheck : forall s sp, In s data_sites ->
  dcheck gen_cfg (data_fenv gen_cfg) (data_init s sp) = true.
Proof.
  intros s sp Hin. apply (forallb_In _ _ _ eq_refl gen_dcheck_all_true), nodup_In, in_all_data_inits, Hin.
Qed.

Lemma core_of_run_data : forall s sp others sch,
  s_core (run_data s sp others sch)
  = run_core gen_cfg (data_fenv gen_cfg) (data_init s sp) (core_events sch).
Proof. intros. unfold run_data, run_data_cfg. rewrite run_core_of_run. reflexivity. Qed.

Lemma gen_dgood : forall s sp others sch, In s data_sites ->
  dgood gen_cfg (data_fenv gen_cfg) (s_core (run_data s sp others sch)) = true.
Proof.
  intros s sp others sch Hin. rewrite core_of_run_data.
  exact (dcheck_sound gen_cfg _ _ (gen_dcheck s sp Hin) (core_events sch)).
Qed.

Definition nonempty (m : string) : bool := negb (String.eqb m "").

Definition messageb (s : data_site) (code : N) : bool :=
  negb (site_admits s code) ||
  match site_message s code with
  | Some m =>
    nonempty m &&
    match ds_arg s with
    | ArgNone => String.eqb m (ds_fmt s)
    | _ => match err2str code with
           | Some em => nonempty em && String.eqb m (fill (ds_fmt s) [em])
           | None => false
           end
    end
  | None => false
  end.

Definition n_codes : nat := N.to_nat (E_ERR_EOF + 1 - E_ERR_MAGIC).

Definition messages_ok : bool :=
  forallb (fun s => forallb (fun i => messageb s (E_ERR_MAGIC + N.of_nat i)) (seq 0 n_codes)) data_sites.

Lemma messages_ok_true : messages_ok = true.
Proof. vm_compute. reflexivity. Qed.

Lemma err_range : E_ERR_MAGIC <= E_ERR_EOF /\ List.length err_messages = n_codes.
Proof. vm_compute. split; [discriminate | reflexivity]. Qed.

Lemma nonempty_spec : forall m, nonempty m = true -> m <> ""%string.
Proof. intros m H Hm. subst. discriminate. Qed.

Lemma messageb_code : forall s code, In s data_sites -> E_ERR_MAGIC <= code <= E_ERR_EOF ->
  messageb s code = true.
Proof.
  intros s code Hin [Hlo Hhi].
  pose proof (forallb_In _ _ messages_ok eq_refl messages_ok_true s Hin) as H. cbv beta in H.
  replace code with (E_ERR_MAGIC + N.of_nat (N.to_nat (code - E_ERR_MAGIC))) by lia.
  apply (forallb_In _ _ _ eq_refl H), in_seq. unfold n_codes. lia.
Qed.

(* the message a site prints for an error code it can report: never empty; it is the
   site's format with the err2str() text (itself never empty) in place of %s *)
Lemma data_message : forall s code, In s data_sites -> E_ERR_MAGIC <= code <= E_ERR_EOF ->
  site_admits s code = true ->
  exists msg, site_message s code = Some msg /\ msg <> ""%string /\
    ((ds_arg s = ArgNone /\ msg = ds_fmt s)
     \/ exists em, err2str code = Some em /\ em <> ""%string /\ msg = fill (ds_fmt s) [em]).
Proof.
  intros s code Hin Hr Ha. pose proof (messageb_code s code Hin Hr) as H.
  unfold messageb in H. rewrite Ha in H. cbn [negb orb] in H.
  destruct (site_message s code) as [m|]; [|discriminate].
  apply andb_true_iff in H. destruct H as [Hne H].
  exists m. split; [reflexivity|]. split; [apply nonempty_spec; assumption|].
  destruct (ds_arg s) eqn:Ea.
  - left. split; [reflexivity|]. apply String.eqb_eq. assumption.
  - right. destruct (err2str code) as [em|]; [|discriminate].
    apply andb_true_iff in H. destruct H as [He Hm].
    exists em. repeat split; [apply nonempty_spec; assumption | apply String.eqb_eq; assumption].
  - right. destruct (err2str code) as [em|]; [|discriminate].
    apply andb_true_iff in H. destruct H as [He Hm].
    exists em. repeat split; [apply nonempty_spec; assumption | apply String.eqb_eq; assumption].
Qed.

Lemma render_line_some : forall pname sep fsname s code msg,
  site_message s code = Some msg ->
  render_line pname sep fsname s code
  = Some (concat "" (map (render_piece pname sep fsname msg (ds_filespec s) (ds_nl s)) log_generic_pieces)).
Proof. intros. unfold render_line. rewrite H. reflexivity. Qed.

Import Dec.Prog Dec.ErrMap.

Definition code_of_err (e : err) : option N :=
  match err_c_name e with Some n => code_of_name n | None => None end.

(* the site at which the process reports codec error e: a worker site admitting its code,
   or the main-thread site of work() for "not a valid bzip2 file" *)
Definition site_for (e : err) : option data_site :=
  match e with
  | ErrNotBzip2 => find on_main data_sites
  | _ =>
    match code_of_err e with
    | Some code => find (fun s => negb (on_main s) && site_admits s code) data_sites
    | None => None
    end
  end.

Definition text_for (s : data_site) (e : err) : option string :=
  match code_of_err e with
  | Some code => site_message s code
  | None => site_message s 0
  end.

Definition is_notbz (e : err) : bool := match e with ErrNotBzip2 => true | _ => false end.

Definition codec_linkb (e : err) : bool :=
  match site_for e, message e with
  | Some s, Some em =>
    nonempty em &&
    match text_for s e with
    | Some t => nonempty t && String.eqb t (if is_notbz e then em else fill (ds_fmt s) [em])
    | None => false
    end
  | _, _ => false
  end.

Lemma find_main : forall s, find on_main data_sites = Some s -> In s data_sites /\ on_main s = true.
Proof. intros s H. apply find_some in H. exact H. Qed.

Lemma find_worker : forall code s,
  find (fun s => negb (on_main s) && site_admits s code) data_sites = Some s ->
  In s data_sites /\ on_main s = false.
Proof.
  intros code s H. apply find_some in H. destruct H as [Hi Hp]. split; [exact Hi|].
  apply andb_true_iff in Hp. destruct Hp as [Hp _]. destruct (on_main s); [discriminate|reflexivity].
Qed.

Lemma site_for_in : forall e s, site_for e = Some s -> In s data_sites /\ on_main s = is_notbz e.
Proof.
  intros e s H. unfold site_for in H.
  destruct e; cbv beta iota in H; cbn [is_notbz];
    try (apply find_main; exact H);
    (destruct (code_of_err _) as [code|]; [apply (find_worker code); exact H | discriminate]).
Qed.

(* every codec-level error has its site, and the text printed there is the site's format
   filled with the codec-level diagnostic [message e] of Dec/ErrMap.v *)
Lemma codec_link : forall e, e <> ErrFuel -> e <> ErrTable ->
  exists s em t, site_for e = Some s /\ In s data_sites /\ on_main s = is_notbz e
    /\ message e = Some em /\ em <> ""%string
    /\ text_for s e = Some t /\ t <> ""%string
    /\ t = (if is_notbz e then em else fill (ds_fmt s) [em]).
Proof.
  intros e H1 H2.
  assert (Hb : codec_linkb e = true) by (destruct e; try congruence; vm_compute; reflexivity).
  unfold codec_linkb in Hb.
  destruct (site_for e) as [s|] eqn:Es; [|discriminate].
  destruct (message e) as [em|] eqn:Em; [|discriminate].
  apply andb_true_iff in Hb. destruct Hb as [Hem Hb].
  destruct (text_for s e) as [t|] eqn:Et; [|discriminate].
  apply andb_true_iff in Hb. destruct Hb as [Ht Hb].
  destruct (site_for_in e s Es) as [Hin Hm].
  exists s, em, t. repeat split; try assumption; try reflexivity;
    try (apply nonempty_spec; assumption).
  apply String.eqb_eq. exact Hb.
Qed.

Lemma data_outcome : forall s code main_suspended others sch o,
  In s data_sites -> E_ERR_MAGIC <= code <= E_ERR_EOF -> site_admits s code = true ->
  k_res (s_core (run_data s main_suspended others sch)) = Some o ->
  o = Exited 1 /\ o <> Exited 0 /\ (forall sg, o <> Killed sg)
  /\ Some o = fst (data_predict s)
  /\ k_printed (s_core (run_data s main_suspended others sch)) = 1
  /\ exists msg, site_message s code = Some msg /\ msg <> ""%string
       /\ ((ds_arg s = ArgNone /\ msg = ds_fmt s)
           \/ exists em, err2str code = Some em /\ em <> ""%string /\ msg = fill (ds_fmt s) [em])
       /\ forall pname sep fsname, exists line, render_line pname sep fsname s code = Some line.
Proof.
  intros s code sp others sch o Hin Hr Ha Hres.
  destruct (dgood_final _ _ _ o (gen_dgood s sp others sch Hin) Hres) as [Ho Hp].
  subst o. split; [reflexivity|]. split; [discriminate|]. split; [intros sg; discriminate|].
  split.
  { (* the canonical run is one particular run *)
    assert (Hc : dgood gen_cfg (data_fenv gen_cfg) (data_canon gen_cfg s) = true).
    { unfold data_canon. exact (dcheck_sound gen_cfg _ _ (gen_dcheck s false Hin) canon_sched). }
    unfold data_predict. cbn [fst].
    destruct (k_res (data_canon gen_cfg s)) as [o'|] eqn:Ec.
    - destruct (dgood_final _ _ _ o' Hc Ec) as [Ho' _]. subst. reflexivity.
    - exfalso. revert Ec. clear -Hin.
      assert (Hall : forallb (fun s => match k_res (data_canon gen_cfg s) with Some _ => true | None => false end)
                             data_sites = true) by (vm_compute; reflexivity).
      rewrite forallb_forall in Hall. specialize (Hall s Hin). intros Ec. rewrite Ec in Hall. discriminate. }
  split; [exact Hp|].
  destruct (data_message s code Hin Hr Ha) as [msg [Hm [Hne Hshape]]].
  exists msg. repeat split; try assumption.
  intros pname sep fsname. eexists. apply render_line_some. exact Hm.
Qed.

Lemma data_final : forall s main_suspended others sch o, In s data_sites ->
  k_res (s_core (run_data s main_suspended others sch)) = Some o ->
  o = Exited 1 /\ k_printed (s_core (run_data s main_suspended others sch)) = 1.
Proof.
  intros s sp others sch o Hin Hres.
  exact (dgood_final _ _ _ o (gen_dgood s sp others sch Hin) Hres).
Qed.

Lemma data_no_stuck : forall s main_suspended others sch, In s data_sites ->
  k_res (s_core (run_data s main_suspended others sch)) = None ->
  exists ev, In ev own_events /\
    (mu gen_cfg (s_core (step gen_cfg (data_fenv gen_cfg) (EvCore ev) (run_data s main_suspended others sch)))
     < mu gen_cfg (s_core (run_data s main_suspended others sch)))%nat.
Proof.
  intros s sp others sch Hin Hr. cbn [step s_core].
  exact (dgood_progress gen_cfg _ _ (gen_dgood s sp others sch Hin) Hr).
Qed.

Lemma data_bounded : forall s main_suspended others sch, In s data_sites ->
  (own_effective gen_cfg (data_fenv gen_cfg) (data_init s main_suspended) (core_events sch)
   + mu gen_cfg (s_core (run_data s main_suspended others sch))
   <= mu gen_cfg (data_init s main_suspended))%nat.
Proof.
  intros s sp others sch Hin. rewrite core_of_run_data.
  exact (dcheck_bounded gen_cfg _ _ (gen_dcheck s sp Hin) (core_events sch)).
Qed.

Lemma data_mu_init_le : forall s sp, In s data_sites -> (mu gen_cfg (data_init s sp) <= data_mu_cap)%nat.
Proof.
  intros s sp Hin.
  apply Nat.leb_le, (forallb_In _ _ (data_mu_ok gen_cfg data_sites) eq_refl data_mu_ok_true), in_all_data_inits, Hin.
Qed.

Lemma data_terminates_within : forall s main_suspended others sch, In s data_sites ->
  k_res (s_core (run_data s main_suspended others sch)) = None ->
  (own_effective gen_cfg (data_fenv gen_cfg) (data_init s main_suspended) (core_events sch) < data_mu_cap)%nat.
Proof.
  intros s sp others sch Hin Hr.
  pose proof (data_bounded s sp others sch Hin) as Hb.
  destruct (data_no_stuck s sp others sch Hin Hr) as [ev [_ Hlt]].
  pose proof (data_mu_init_le s sp Hin) as Hm.
  lia.
Qed.

Lemma data_no_success : forall s main_suspended others sch, In s data_sites ->
  k_completed (s_core (run_data s main_suspended others sch)) = false
  /\ k_m (s_core (run_data s main_suspended others sch)) <> MReturned
  /\ k_f (s_core (run_data s main_suspended others sch)) <> FLive
  /\ k_res (s_core (run_data s main_suspended others sch)) <> Some (Exited EX_OK)
  /\ k_res (s_core (run_data s main_suspended others sch)) <> Some (Exited (final_status true)).
Proof.
  intros s sp others sch Hin.
  pose proof (gen_dgood s sp others sch Hin) as Hg.
  destruct (dgood_no_success _ _ _ Hg) as [H1 [H2 [H3 _]]].
  repeat split; try assumption.
  - intros Hr. destruct (dgood_final _ _ _ _ Hg Hr) as [Ho _]. vm_compute in Ho. discriminate.
  - intros Hr. destruct (dgood_final _ _ _ _ Hg Hr) as [Ho _]. vm_compute in Ho. discriminate.
Qed.

Lemma data_message_first : forall s main_suspended others sch, In s data_sites ->
  (k_caught (s_core (run_data s main_suspended others sch)) <> None \/
   k_f (s_core (run_data s main_suspended others sch)) = FDead \/
   k_res (s_core (run_data s main_suspended others sch)) <> None) ->
  k_printed (s_core (run_data s main_suspended others sch)) = 1.
Proof.
  intros s sp others sch Hin H.
  pose proof (gen_dgood s sp others sch Hin) as Hg.
  destruct (dgood_message_first _ _ _ Hg) as [A [B _]].
  destruct H as [H|[H|H]]; [apply A; assumption | apply B; assumption |].
  destruct (k_res (s_core (run_data s sp others sch))) as [o|] eqn:Er; [|congruence].
  exact (proj2 (dgood_final _ _ _ o Hg Er)).
Qed.

(* what the code does about warnings while decompressing: there is no such call.  Every
   data-error site is a bail-out (never a warning), no warn*() function is called anywhere
   in expand.c / parse.c / decode.c / process.c, so the only way to exit status EX_WARN
   (main(): _exit(warned ? EX_WARN : EX_OK)) is a warning of main.c's operand handling;
   trailing garbage after a complete stream is accepted silently (codec level: C06/C15parse) *)
Lemma data_no_warning : (forall s, In s data_sites -> ds_bail s = true /\ ds_warn s = false)
  /\ (forall f g fn, In (f, g, fn) decomp_log_calls -> is_warn_fn fn = false)
  /\ final_status false = EX_OK /\ final_status true = EX_WARN /\ EX_WARN <> EX_FAIL.
Proof.
  split; [|split].
  - intros s Hin. pose proof (forallb_In _ _ no_warning_site eq_refl no_warning_site_true s Hin) as H.
    apply andb_true_iff in H as [Hb Hw]. split; [exact Hb|]. destruct (ds_warn s); [discriminate|reflexivity].
  - intros f g fn Hin.
    pose proof (forallb_In _ _ no_warn_call_in_decompression eq_refl no_warn_call_true _ Hin) as H. cbn [snd] in H.
    destruct (is_warn_fn fn); [discriminate|reflexivity].
  - vm_compute. repeat split. discriminate.
Qed.

(* a warn()-like call would NOT be fatal: the calling thread prints, releases the stderr
   lock and goes back to work; the process is still there and can complete *)
Lemma warn_call_not_fatal :
  let e := data_fenv gen_cfg in
  let k := run_core gen_cfg e (data_init_core false warn_ops false) (repeat EvF 10) in
  k_res k = None /\ k_f k = FLive /\ k_printed k = 1 /\ k_lock k = None
  /\ k_res (run_core gen_cfg e k [EvMain; EvOthersDone; EvFDone; EvComplete; EvMain; EvMain])
     = Some (Exited EX_OK).
Proof. vm_compute. repeat split. Qed.

Definition worker_site_with (ops : list op) : data_site :=
  mk_data_site "src/expand.c" "do_reorder" "failf" ThWorkerTask ops false true true true
               "compressed data error: %s" (ArgVar "oblk->status") [] [].

(* a data-error site that warns instead of failing: rejected (the thread goes on, the
   pipeline completes, exit status 0/4 is reachable) *)
Lemma warn_site_rejected :
  dcheck gen_cfg (data_fenv gen_cfg) (data_init (worker_site_with warn_ops) false) = false.
Proof. vm_compute. reflexivity. Qed.

(* failf() without bailout(): `return` at the end of the logging function *)
Lemma return_after_log_rejected_data :
  let c := with_bail_tail gen_cfg [OpUnlockStderr; OpReturn] in
  dcheck c (data_fenv c) (data_init (worker_site_with [OpFail true false]) false) = false.
Proof. vm_compute. reflexivity. Qed.

(* bailout() of the main thread exiting with status 0 *)
Lemma exit0_rejected :
  let c := with_bail_main gen_cfg [OpCleanup; OpUnblock blocked_signals; OpExit 0] in
  dcheck c (data_fenv c) (data_init (worker_site_with [OpFail true false]) true) = false.
Proof. vm_compute. reflexivity. Qed.
