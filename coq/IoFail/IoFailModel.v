(* C21 - I/O failures on filters terminate promptly: executable model.

   A small state machine of the threads involved when a read()/write() of a
   stdin->stdout filter run returns -1:

   * the FAILING thread F: the reader thread in xread(), the writer thread in
     xwrite(), the primary worker thread in write_header()/write_trailer(), or
     the MAIN thread itself (4-byte sniff read of work(), copy-mode header
     write).  It executes the operation list transcribed from the source
     (Gen/IoFailTab.v): x{read,write}_on_error -> DEF() logging macro ->
     bailout().
   * the MAIN thread: on its way to sigsuspend() in halt() (MPre), suspended
     (MSusp), or executing the halt() dispatch / bailout() operations.
   * signals: thread-directed pending sets of F and main, the process-level
     pending set, what each of the two threads has unblocked, the last
     signal a handler caught (caught_index), dispositions.
   * the stderr stdio lock (flockfile), the number of diagnostics printed.
   * the rest of the pipeline, abstracted: "all other pipeline threads did
     their part" (EvOthersDone), "F did its part" (EvFDone, only possible if F
     returned to normal work), and the completion signal SIGUSR2 (EvComplete,
     enabled only when both hold) -- this is the only way the other threads
     can influence the main thread;
   * every other thread may be in any state and change it arbitrarily
     (EvOther i s): running, blocked on a condition variable, blocked in
     read()/write(), exited.  Nothing in the core reads these.

   Everything taken from the source is a field of [cfg]; [gen_cfg] is the
   instance regenerated on every run.  The model is total and executable
   (no fuel except in the untrusted search [explore], whose result is
   re-checked by [closedb]).

   Not modelled (declared partiality of C21): wall-clock time, kernel signal
   delivery latency, pthread_create failures, signals sent from outside. *)
From Coq Require Import List NArith Bool String Arith.
From LBZ Require Import Gen.IoFailTab.
Import ListNotations.
Local Open Scope N_scope.

Record cfg := {
  c_blocked : list N;            (* blocked_signals[]: blocked in every thread by setup_signals *)
  c_cli_blocks : list N;         (* blocked by cli() (and inherited by the sub-threads) *)
  c_cli_handlers : list N;       (* handler installed by cli() *)
  c_saved_ok : bool;             (* sigsuspend() uses the mask saved by cli() *)
  c_halt_cases : list (N * list op);
  c_halt_default : list op;
  c_bail_main : list op;
  c_bail_sub : list op;
  c_prologue : list op;
  c_logc : bool -> N -> bool;    (* DEF(): message printed? (bail, errno argument) *)
  c_log_ops : list op;
  c_nobail : list op;
  c_bail_tail : list op;
  c_xread_err : list op;
  c_xwrite_err : list op;
  c_ex_ok : N;
  c_complete_sig : N;            (* raised by the pipeline on successful completion *)
  c_sigpipe : N; c_sigxfsz : N; c_epipe : N; c_efbig : N
}.

Definition gen_cfg : cfg := {|
  c_blocked := blocked_signals;
  c_cli_blocks := cli_blocks;
  c_cli_handlers := cli_handlers;
  c_saved_ok := halt_suspends_with_saved_mask;
  c_halt_cases := halt_cases;
  c_halt_default := halt_default;
  c_bail_main := bailout_main_ops;
  c_bail_sub := bailout_sub_ops;
  c_prologue := def_prologue;
  c_logc := def_log_cond;
  c_log_ops := def_log_ops;
  c_nobail := def_nobail_ops;
  c_bail_tail := def_bail_ops;
  c_xread_err := xread_on_error;
  c_xwrite_err := xwrite_on_error;
  c_ex_ok := EX_OK;
  c_complete_sig := SIGUSR2;
  c_sigpipe := SIGPIPE; c_sigxfsz := SIGXFSZ; c_epipe := EPIPE; c_efbig := EFBIG
|}.

Inductive role :=
| RSniffRead      (* main thread: xread(&header) in work() *)
| RCopyHdrWrite   (* main thread: xwrite(&header) before copy() *)
| RReader         (* source thread: xread() *)
| RWriter         (* sink thread: xwrite() *)
| RPrimaryHdr     (* primary worker thread: write_header() in init() *)
| RPrimaryTrl.    (* primary worker thread: write_trailer() in uninit() *)

Definition role_is_main (r : role) : bool :=
  match r with RSniffRead | RCopyHdrWrite => true | _ => false end.
Definition role_is_write (r : role) : bool :=
  match r with RSniffRead | RReader => false | _ => true end.
Definition on_error (c : cfg) (r : role) : list op :=
  if role_is_write r then c_xwrite_err c else c_xread_err c.

(* what the step function needs to know about the fault *)
Record fenv := {
  fe_role : role;
  fe_logp : bool * bool;         (* (c_logc true errno, c_logc false errno) *)
  fe_sig : option N;             (* signal generated for the failing thread together with the error *)
  fe_sig_default : bool          (* its disposition is SIG_DFL (false: SIG_IGN inherited) *)
}.

Definition sig_of_errno (c : cfg) (x : N) (generated : bool) : option N :=
  if generated then
    if N.eqb x (c_epipe c) then Some (c_sigpipe c)
    else if N.eqb x (c_efbig c) then Some (c_sigxfsz c) else None
  else None.

Definition fenv_of (c : cfg) (r : role) (x : N) (generated dfl : bool) : fenv :=
  {| fe_role := r; fe_logp := (c_logc c true x, c_logc c false x);
     fe_sig := sig_of_errno c x generated; fe_sig_default := dfl |}.

Inductive who := WMain | WF.
Inductive fstat := FNone | FOps (ops : list op) | FLive | FDead.
Inductive mctx := InWork | InHalt.
Inductive mstat := MPre | MSusp | MOps (ctx : mctx) (ops : list op) | MReturned | MDead.
Inductive outcome := Exited (code : N) | Killed (sig : N).

Record core := {
  k_f : fstat;
  k_m : mstat;
  k_pend_f : list N;     (* pending, directed at thread F *)
  k_pend_m : list N;     (* pending, directed at the main thread *)
  k_pend_p : list N;     (* pending for the process *)
  k_unb_f : list N;      (* signals F has unblocked *)
  k_unb_m : list N;      (* signals main has unblocked *)
  k_lock : option who;   (* owner of the stderr stdio lock *)
  k_caught : option N;   (* handled_signals[caught_index] *)
  k_printed : N;         (* diagnostics that reached stderr *)
  k_started : bool;      (* pipeline threads exist *)
  k_odone : bool;        (* all other pipeline threads have done their part *)
  k_fdone : bool;        (* thread F has done its part *)
  k_completed : bool;    (* the completion signal has been raised *)
  k_res : option outcome (* the process is gone *)
}.

Definition set_f (k : core) (f : fstat) : core :=
  {| k_f := f; k_m := k_m k; k_pend_f := k_pend_f k; k_pend_m := k_pend_m k; k_pend_p := k_pend_p k;
     k_unb_f := k_unb_f k; k_unb_m := k_unb_m k; k_lock := k_lock k; k_caught := k_caught k;
     k_printed := k_printed k; k_started := k_started k; k_odone := k_odone k; k_fdone := k_fdone k;
     k_completed := k_completed k; k_res := k_res k |}.
Definition set_m (k : core) (m : mstat) : core :=
  {| k_f := k_f k; k_m := m; k_pend_f := k_pend_f k; k_pend_m := k_pend_m k; k_pend_p := k_pend_p k;
     k_unb_f := k_unb_f k; k_unb_m := k_unb_m k; k_lock := k_lock k; k_caught := k_caught k;
     k_printed := k_printed k; k_started := k_started k; k_odone := k_odone k; k_fdone := k_fdone k;
     k_completed := k_completed k; k_res := k_res k |}.
Definition set_pend (k : core) (pf pm pp : list N) : core :=
  {| k_f := k_f k; k_m := k_m k; k_pend_f := pf; k_pend_m := pm; k_pend_p := pp;
     k_unb_f := k_unb_f k; k_unb_m := k_unb_m k; k_lock := k_lock k; k_caught := k_caught k;
     k_printed := k_printed k; k_started := k_started k; k_odone := k_odone k; k_fdone := k_fdone k;
     k_completed := k_completed k; k_res := k_res k |}.
Definition set_unb (k : core) (uf um : list N) : core :=
  {| k_f := k_f k; k_m := k_m k; k_pend_f := k_pend_f k; k_pend_m := k_pend_m k; k_pend_p := k_pend_p k;
     k_unb_f := uf; k_unb_m := um; k_lock := k_lock k; k_caught := k_caught k;
     k_printed := k_printed k; k_started := k_started k; k_odone := k_odone k; k_fdone := k_fdone k;
     k_completed := k_completed k; k_res := k_res k |}.
Definition set_lock (k : core) (l : option who) : core :=
  {| k_f := k_f k; k_m := k_m k; k_pend_f := k_pend_f k; k_pend_m := k_pend_m k; k_pend_p := k_pend_p k;
     k_unb_f := k_unb_f k; k_unb_m := k_unb_m k; k_lock := l; k_caught := k_caught k;
     k_printed := k_printed k; k_started := k_started k; k_odone := k_odone k; k_fdone := k_fdone k;
     k_completed := k_completed k; k_res := k_res k |}.
Definition set_caught (k : core) (s : option N) : core :=
  {| k_f := k_f k; k_m := k_m k; k_pend_f := k_pend_f k; k_pend_m := k_pend_m k; k_pend_p := k_pend_p k;
     k_unb_f := k_unb_f k; k_unb_m := k_unb_m k; k_lock := k_lock k; k_caught := s;
     k_printed := k_printed k; k_started := k_started k; k_odone := k_odone k; k_fdone := k_fdone k;
     k_completed := k_completed k; k_res := k_res k |}.
Definition set_printed (k : core) (n : N) : core :=
  {| k_f := k_f k; k_m := k_m k; k_pend_f := k_pend_f k; k_pend_m := k_pend_m k; k_pend_p := k_pend_p k;
     k_unb_f := k_unb_f k; k_unb_m := k_unb_m k; k_lock := k_lock k; k_caught := k_caught k;
     k_printed := n; k_started := k_started k; k_odone := k_odone k; k_fdone := k_fdone k;
     k_completed := k_completed k; k_res := k_res k |}.
Definition set_flags (k : core) (started odone fdone completed : bool) : core :=
  {| k_f := k_f k; k_m := k_m k; k_pend_f := k_pend_f k; k_pend_m := k_pend_m k; k_pend_p := k_pend_p k;
     k_unb_f := k_unb_f k; k_unb_m := k_unb_m k; k_lock := k_lock k; k_caught := k_caught k;
     k_printed := k_printed k; k_started := started; k_odone := odone; k_fdone := fdone;
     k_completed := completed; k_res := k_res k |}.
Definition set_res (k : core) (r : option outcome) : core :=
  {| k_f := k_f k; k_m := k_m k; k_pend_f := k_pend_f k; k_pend_m := k_pend_m k; k_pend_p := k_pend_p k;
     k_unb_f := k_unb_f k; k_unb_m := k_unb_m k; k_lock := k_lock k; k_caught := k_caught k;
     k_printed := k_printed k; k_started := k_started k; k_odone := k_odone k; k_fdone := k_fdone k;
     k_completed := k_completed k; k_res := r |}.

Definition memN (s : N) (l : list N) : bool := existsb (N.eqb s) l.
Definition addN (s : N) (l : list N) : list N := if memN s l then l else l ++ [s].
Definition delN (s : N) (l : list N) : list N := filter (fun t => negb (N.eqb s t)) l.

(* every thread blocks these after setup_signals() and cli() *)
Definition base_mask (c : cfg) : list N := c_blocked c ++ c_cli_blocks c.
(* mask in force during sigsuspend() *)
Definition susp_mask (c : cfg) : list N := if c_saved_ok c then c_blocked c else base_mask c.

Definition default_kills (e : fenv) (s : N) : bool :=
  match fe_sig e with
  | Some s' => if N.eqb s s' then fe_sig_default e else true
  | None => true
  end.

(* the signal is taken by a thread: handler, or default action *)
Definition deliver (c : cfg) (e : fenv) (s : N) (k : core) : core :=
  match k_res k with
  | Some _ => k
  | None =>
    if memN s (c_cli_handlers c) then set_caught k (Some s)
    else if default_kills e s then set_res k (Some (Killed s)) else k
  end.

Definition who_eqb (a b : who) : bool :=
  match a, b with WMain, WMain | WF, WF => true | _, _ => false end.

Definition unb_of (t : who) (k : core) : list N := match t with WMain => k_unb_m k | WF => k_unb_f k end.
Definition pend_of (t : who) (k : core) : list N := match t with WMain => k_pend_m k | WF => k_pend_f k end.

Definition dispatch (c : cfg) (s : N) : list op :=
  match find (fun p => N.eqb (fst p) s) (c_halt_cases c) with
  | Some p => snd p
  | None => c_halt_default c
  end.

(* main wakes from sigsuspend() if a handler ran *)
Definition wake_main (c : cfg) (e : fenv) (s : N) (k : core) : core :=
  let k1 := deliver c e s k in
  if memN s (c_cli_handlers c) then set_m k1 (MOps InHalt (dispatch c s)) else k1.

Definition main_alive (k : core) : bool := match k_m k with MDead => false | _ => true end.
Definition f_alive (k : core) : bool := match k_f k with FOps _ | FLive => true | _ => false end.

(* kill(getpid(), s) *)
Definition raise_proc (c : cfg) (e : fenv) (s : N) (k : core) : core :=
  match k_res k with
  | Some _ => k
  | None =>
    if memN s (base_mask c) then
      match k_m k with
      | MSusp => if memN s (susp_mask c) then set_pend k (k_pend_f k) (k_pend_m k) (addN s (k_pend_p k))
                 else wake_main c e s k
      | _ =>
        if memN s (k_unb_m k) && main_alive k then deliver c e s k
        else if memN s (k_unb_f k) && f_alive k then deliver c e s k
        else set_pend k (k_pend_f k) (k_pend_m k) (addN s (k_pend_p k))
      end
    else deliver c e s k
  end.

(* thread t unblocks sigs: pending ones are delivered *)
Definition unblock_one (c : cfg) (e : fenv) (t : who) (k : core) (s : N) : core :=
  if memN s (pend_of t k) || memN s (k_pend_p k) then
    let k1 := match t with
              | WMain => set_pend k (k_pend_f k) (delN s (k_pend_m k)) (delN s (k_pend_p k))
              | WF => set_pend k (delN s (k_pend_f k)) (k_pend_m k) (delN s (k_pend_p k))
              end in
    deliver c e s k1
  else k.

Definition unblock (c : cfg) (e : fenv) (t : who) (sigs : list N) (k : core) : core :=
  let k1 := match t with
            | WMain => set_unb k (k_unb_f k) (fold_left (fun l s => addN s l) sigs (k_unb_m k))
            | WF => set_unb k (fold_left (fun l s => addN s l) sigs (k_unb_f k)) (k_unb_m k)
            end in
  fold_left (unblock_one c e t) sigs k1.

Definition block (t : who) (sigs : list N) (k : core) : core :=
  match t with
  | WMain => set_unb k (k_unb_f k) (filter (fun s => negb (memN s sigs)) (k_unb_m k))
  | WF => set_unb k (filter (fun s => negb (memN s sigs)) (k_unb_f k)) (k_unb_m k)
  end.

Definition promote1 (c : cfg) (e : fenv) (t : who) (k : core) (s : N) : core :=
  if memN s (pend_of t k) || memN s (k_pend_p k) then raise_proc c e s k else k.

Definition set_ops (t : who) (ctx : mctx) (ops : list op) (k : core) : core :=
  match t with
  | WF => set_f k (FOps ops)
  | WMain => set_m k (MOps ctx ops)
  end.

Definition log_decision (c : cfg) (e : fenv) (bail uses_errno : bool) : bool :=
  if uses_errno then (if bail then fst (fe_logp e) else snd (fe_logp e)) else c_logc c bail 0.

Definition do_return (t : who) (ctx : mctx) (k : core) : core :=
  match t with
  | WF => set_f k FLive
  | WMain =>
    match ctx with
    | InHalt => set_m k MReturned
    | InWork => set_flags (set_m k MPre) true (k_odone k) (k_fdone k) (k_completed k)
    end
  end.

Definition exec_op (c : cfg) (e : fenv) (t : who) (ctx : mctx) (o : op) (rest : list op) (k : core) : core :=
  match o with
  | OpNop | OpCleanup => set_ops t ctx rest k
  | OpLockStderr =>
    match k_lock k with
    | None => set_ops t ctx rest (set_lock k (Some t))
    | Some t' => if who_eqb t t' then set_ops t ctx rest k else k     (* blocked *)
    end
  | OpUnlockStderr =>
    match k_lock k with
    | Some t' => if who_eqb t t' then set_ops t ctx rest (set_lock k None) else set_ops t ctx rest k
    | None => set_ops t ctx rest k
    end
  | OpPrint => set_ops t ctx rest (set_printed k (k_printed k + 1))
  | OpUnblock sigs => unblock c e t sigs (set_ops t ctx rest k)
  | OpBlock sigs => set_ops t ctx rest (block t sigs k)
  | OpExit code => set_res k (Some (Exited code))
  | OpPromote sigs => fold_left (promote1 c e t) sigs (set_ops t ctx rest k)
  | OpRaise s => raise_proc c e s (set_ops t ctx rest k)
  | OpThreadExit =>
    match t with
    | WF => set_pend (set_f k FDead) [] (k_pend_m k) (k_pend_p k)
    | WMain => set_m k MDead
    end
  | OpBailout => set_ops t ctx ((match t with WMain => c_bail_main c | WF => c_bail_sub c end) ++ rest) k
  | OpTerminate =>
    match k_caught k with
    | Some s => set_res k (Some (Killed s))
    | None => set_ops t ctx rest k
    end
  | OpReturn => do_return t ctx k
  | OpFail bail uses_errno =>
    set_ops t ctx (c_prologue c ++ (if log_decision c e bail uses_errno then c_log_ops c else [])
                   ++ (if bail then c_bail_tail c else c_nobail c) ++ rest) k
  end.

(* main reaches sigsuspend(): handled signals that are pending and not in the
   suspend mask are taken at once *)
Definition suspend (c : cfg) (e : fenv) (k : core) : core :=
  let cand := filter (fun s => negb (memN s (susp_mask c))) (k_pend_m k ++ k_pend_p k) in
  fold_left (fun k s =>
               match k_m k with
               | MSusp | MOps InHalt _ =>
                 wake_main c e s (set_pend k (k_pend_f k) (delN s (k_pend_m k)) (delN s (k_pend_p k)))
               | _ => k
               end) cand (set_m k MSusp).

Inductive cevent := EvF | EvMain | EvOthersDone | EvFDone | EvComplete.
Definition own_events : list cevent := [EvF; EvMain].
Definition env_events : list cevent := [EvOthersDone; EvFDone; EvComplete].
Definition all_cevents : list cevent := own_events ++ env_events.

Definition cstep (c : cfg) (e : fenv) (ev : cevent) (k : core) : core :=
  match k_res k with
  | Some _ => k
  | None =>
    match ev with
    | EvF =>
      match k_f k with
      | FOps [] => set_f k FLive
      | FOps (o :: r) => exec_op c e WF InWork o r k
      | _ => k
      end
    | EvMain =>
      match k_m k with
      | MPre => suspend c e k
      | MSusp => k
      | MOps ctx [] => do_return WMain ctx k
      | MOps ctx (o :: r) => exec_op c e WMain ctx o r k
      | MReturned => set_res k (Some (Exited (c_ex_ok c)))
      | MDead => k
      end
    | EvOthersDone =>
      if k_started k then set_flags k (k_started k) true (k_fdone k) (k_completed k) else k
    | EvFDone =>
      match k_f k with
      | FLive => set_flags k (k_started k) (k_odone k) true (k_completed k)
      | _ => k
      end
    | EvComplete =>
      if k_started k && k_odone k && (k_fdone k || match k_f k with FNone => true | _ => false end)
         && negb (k_completed k)
      then raise_proc c e (c_complete_sig c) (set_flags k (k_started k) (k_odone k) (k_fdone k) true)
      else k
    end
  end.

Definition run_core (c : cfg) (e : fenv) (k : core) (sch : list cevent) : core :=
  fold_left (fun k ev => cstep c e ev k) sch k.

(* state at the moment the failing call has returned -1 *)
Definition init_core (c : cfg) (e : fenv) (main_suspended : bool) : core :=
  let r := fe_role e in
  let m := role_is_main r in
  let base := {|
    k_f := if m then FNone else FOps (on_error c r);
    k_m := if m then MOps InWork (on_error c r) else if main_suspended then MSusp else MPre;
    k_pend_f := []; k_pend_m := []; k_pend_p := [];
    k_unb_f := []; k_unb_m := [];
    k_lock := None; k_caught := None; k_printed := 0;
    k_started := negb m; k_odone := false; k_fdone := false; k_completed := false;
    k_res := None |} in
  match fe_sig e with
  | None => base
  | Some s =>
    if memN s (base_mask c) then
      if m then set_pend base [] [s] [] else set_pend base [s] [] []
    else deliver c e s base
  end.

Inductive ostate := ORunning | OBlockedCond | OBlockedIO | OExited.
Record state := { s_core : core; s_others : list ostate }.
Inductive event := EvCore (ev : cevent) | EvOther (i : nat) (o : ostate).

Fixpoint set_nth {A} (i : nat) (x : A) (l : list A) : list A :=
  match l, i with
  | [], _ => []
  | _ :: t, O => x :: t
  | h :: t, S j => h :: set_nth j x t
  end.

Definition step (c : cfg) (e : fenv) (ev : event) (st : state) : state :=
  match ev with
  | EvCore ev => {| s_core := cstep c e ev (s_core st); s_others := s_others st |}
  | EvOther i o =>
    match k_res (s_core st) with
    | Some _ => st
    | None => {| s_core := s_core st; s_others := set_nth i o (s_others st) |}
    end
  end.

Definition run (c : cfg) (e : fenv) (st : state) (sch : list event) : state :=
  fold_left (fun st ev => step c e ev st) sch st.

Definition init_state (c : cfg) (e : fenv) (main_suspended : bool) (others : list ostate) : state :=
  {| s_core := init_core c e main_suspended; s_others := others |}.

Definition core_events (sch : list event) : list cevent :=
  flat_map (fun ev => match ev with EvCore ev => [ev] | EvOther _ _ => [] end) sch.

(* The prediction is what the canonical schedule gives: the failing thread runs
   until it is done, then the main thread, nobody else moves.  The theorems say
   that every other schedule, with any other threads, ends the same way. *)
Definition canon_sched : list cevent := repeat EvF 24 ++ repeat EvMain 24.
Definition canon (c : cfg) (e : fenv) : core := run_core c e (init_core c e false) canon_sched.
Definition predict_outcome (c : cfg) (e : fenv) : option outcome := k_res (canon c e).
Definition predict_printed (c : cfg) (e : fenv) : N := k_printed (canon c e).

Definition outcome_allowed (e : fenv) (o : outcome) : bool :=
  match o with
  | Exited n => N.eqb n 1
  | Killed s => match fe_sig e with Some s' => N.eqb s s' && fe_sig_default e | None => false end
  end.
Definition expected_printed (e : fenv) : N := if fst (fe_logp e) then 1 else 0.

Fixpoint wop (c : cfg) (d : nat) (o : op) {struct d} : nat :=
  match d with
  | O => 1
  | S d' =>
    let wl := fun l => fold_right (fun o a => wop c d' o + a) 0 l in
    match o with
    | OpBailout => 1 + wl (c_bail_main c) + wl (c_bail_sub c)
    | OpFail _ _ => 1 + wl (c_prologue c) + wl (c_log_ops c) + wl (c_bail_tail c) + wl (c_nobail c)
    | _ => 1
    end
  end%nat.
Definition wdepth : nat := 4.
Definition wl (c : cfg) (l : list op) : nat := fold_right (fun o a => wop c wdepth o + a)%nat 0%nat l.
Definition whalt (c : cfg) : nat :=
  (wl c (c_halt_default c) + fold_right (fun p a => wl c (snd p) + a) 0 (c_halt_cases c))%nat.

Definition mu (c : cfg) (k : core) : nat :=
  match k_res k with
  | Some _ => 0
  | None =>
    (match k_f k with FOps l => 1 + wl c l | _ => 0 end +
     match k_m k with
     | MPre => 4 + whalt c
     | MSusp => 3 + whalt c
     | MOps InWork l => 5 + whalt c + wl c l
     | MOps InHalt l => 2 + wl c l
     | MReturned => 1
     | MDead => 0
     end)%nat
  end.

Definition op_eq_dec : forall a b : op, {a = b} + {a <> b}.
Proof. decide equality; try apply Bool.bool_dec; try apply N.eq_dec; apply (list_eq_dec N.eq_dec). Defined.
Definition who_eq_dec : forall a b : who, {a = b} + {a <> b}.
Proof. decide equality. Defined.
Definition fstat_eq_dec : forall a b : fstat, {a = b} + {a <> b}.
Proof. decide equality. apply (list_eq_dec op_eq_dec). Defined.
Definition mctx_eq_dec : forall a b : mctx, {a = b} + {a <> b}.
Proof. decide equality. Defined.
Definition mstat_eq_dec : forall a b : mstat, {a = b} + {a <> b}.
Proof. decide equality. apply (list_eq_dec op_eq_dec). apply mctx_eq_dec. Defined.
Definition outcome_eq_dec : forall a b : outcome, {a = b} + {a <> b}.
Proof. decide equality; apply N.eq_dec. Defined.
Definition optN_eq_dec : forall a b : option N, {a = b} + {a <> b}.
Proof. decide equality; apply N.eq_dec. Defined.
Definition core_eq_dec : forall a b : core, {a = b} + {a <> b}.
Proof.
  decide equality; try apply Bool.bool_dec; try apply N.eq_dec; try apply optN_eq_dec;
    try apply (list_eq_dec N.eq_dec).
  - decide equality. apply outcome_eq_dec.
  - decide equality. apply who_eq_dec.
  - apply mstat_eq_dec.
  - apply fstat_eq_dec.
Defined.

Definition core_eqb (a b : core) : bool := if core_eq_dec a b then true else false.
Definition memb (k : core) (l : list core) : bool := existsb (core_eqb k) l.

Fixpoint explore (c : cfg) (e : fenv) (fuel : nat) (seen todo : list core) : list core :=
  match fuel with
  | O => seen ++ todo
  | S f =>
    match todo with
    | [] => seen
    | k :: rest =>
      if memb k seen then explore c e f seen rest
      else explore c e f (k :: seen) (map (fun ev => cstep c e ev k) all_cevents ++ rest)
    end
  end.

Definition closedb (c : cfg) (e : fenv) (S : list core) : bool :=
  forallb (fun k => forallb (fun ev => memb (cstep c e ev k) S) all_cevents) S.

Definition optout_eq_dec : forall a b : option outcome, {a = b} + {a <> b}.
Proof. decide equality. apply outcome_eq_dec. Defined.
Definition optout_eqb (a b : option outcome) : bool := if optout_eq_dec a b then true else false.

Definition good_state (c : cfg) (e : fenv) (k : core) : bool :=
  (* 1. a final state is the one of the canonical schedule, it is allowed by the property,
        and the number of diagnostics is 1 or 0 according to the print condition *)
  match k_res k with
  | Some o => optout_eqb (Some o) (predict_outcome c e) && N.eqb (k_printed k) (predict_printed c e)
              && outcome_allowed e o && N.eqb (k_printed k) (expected_printed e)
  | None =>
    (* 2. not final: some own step makes progress *)
    existsb (fun ev => Nat.ltb (mu c (cstep c e ev k)) (mu c k)) own_events
  end
  (* 3. success is never signalled or reported *)
  && negb (k_completed k)
  && match k_m k with MReturned => false | _ => true end
  && N.leb (k_printed k) (expected_printed e)
  (* 4. own steps either do nothing or decrease the measure; others never increase it *)
  && forallb (fun ev => core_eqb (cstep c e ev k) k || Nat.ltb (mu c (cstep c e ev k)) (mu c k)) own_events
  && forallb (fun ev => Nat.leb (mu c (cstep c e ev k)) (mu c k)) env_events.

Definition explore_fuel : nat := 2000.

Definition check_set (c : cfg) (e : fenv) (k0 : core) (S : list core) : bool :=
  memb k0 S && closedb c e S && forallb (good_state c e) S.

Definition check (c : cfg) (e : fenv) (main_suspended : bool) : bool :=
  check_set c e (init_core c e main_suspended)
            (explore c e explore_fuel [] [init_core c e main_suspended]).

(* the fault environments: three representative
   errno values, with and without the accompanying signal, both dispositions,
   every role, main suspended or not yet *)
Definition all_roles : list role := [RSniffRead; RCopyHdrWrite; RReader; RWriter; RPrimaryHdr; RPrimaryTrl].
Definition bools : list bool := [true; false].
Definition all_envs (c : cfg) (xother : N) : list (fenv * bool) :=
  flat_map (fun r => flat_map (fun x => flat_map (fun g => flat_map (fun d => map (fun sp =>
    (fenv_of c r x g d, sp)) bools) bools) bools) [c_epipe c; c_efbig c; xother]) all_roles.

Definition check_all (c : cfg) (xother : N) : bool :=
  forallb (fun p => check c (fst p) (snd p)) (all_envs c xother).

(* static side conditions on the transcribed call structure (strings) *)
Fixpoint index_of (s : string) (l : list string) : option nat :=
  match l with
  | [] => None
  | h :: t => if String.eqb s h then Some O else option_map S (index_of s t)
  end.
Definition before (a b : string) (l : list string) : bool :=
  match index_of a l, index_of b l with
  | Some i, Some j => Nat.ltb i j
  | _, _ => false
  end.
Definition has_site (f g : string) : bool :=
  existsb (fun p => String.eqb (fst p) f && String.eqb (snd p) g) io_sites.

Definition structure_ok : bool :=
  (* signals are set up and handlers installed before any I/O of work() *)
  before "setup_signals" "cli" main_calls && before "cli" "work" main_calls
  (* the I/O sites of the six roles *)
  && has_site "work" "xread" && has_site "work" "xwrite"
  && has_site "source_thread_proc" "xread" && has_site "sink_thread_proc" "xwrite"
  && has_site "write_header" "xwrite" && has_site "write_trailer" "xwrite"
  && has_site "init" "write_header" && has_site "uninit" "write_trailer"
  (* success is signalled only after the trailer has been written *)
  && before "process->uninit" "xraise(SIGUSR2)" primary_calls
  && before "uninit_io" "xraise(SIGUSR2)" primary_calls
  (* the main thread waits in halt() right after starting the pipeline *)
  && before "xcreate" "halt" schedule_calls && before "init_io" "halt" copy_calls.

(* entry points used by the extracted driver (Extract/ExtractIoFail.v) *)
Definition run_fault (r : role) (x : N) (generated dfl main_suspended : bool)
           (others : list ostate) (sch : list event) : state :=
  let e := fenv_of gen_cfg r x generated dfl in
  run gen_cfg e (init_state gen_cfg e main_suspended others) sch.

Definition predict (r : role) (x : N) (generated dfl : bool) : option outcome * N :=
  let e := fenv_of gen_cfg r x generated dfl in (predict_outcome gen_cfg e, predict_printed gen_cfg e).

Definition gen_check_all : bool := check_all gen_cfg EIO.
Definition gen_mu_bound (r : role) (x : N) (generated dfl sp : bool) : nat :=
  mu gen_cfg (init_core gen_cfg (fenv_of gen_cfg r x generated dfl) sp).
