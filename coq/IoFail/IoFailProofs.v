(* C21 - proofs about the I/O-failure state machine (IoFailModel.v).

   Method: the reachable core states under ALL interleavings of the failing
   thread, the main thread and the abstracted pipeline events form a finite set
   that the (untrusted) function [explore] enumerates; [closedb] re-checks that
   the set is closed under every event, and [good_state] is evaluated on each
   of its members.  [check_sound] is the instance for [good_state] of the
   certificate lemma [cert_run] of DataFailGeneric.v, which holds for every
   configuration and every property of core states by induction on the
   schedule; the arbitrary other threads are then added by the projection
   lemma [run_core_of_run] of the same file: their steps never touch the
   core.  The finite check itself is discharged by computation on the
   configuration regenerated from the source ([gen_check_reps_true]: one
   environment for each class of environments that the machine cannot tell
   apart, [rep_env]), so a source change that alters the transcribed
   operations re-opens exactly this obligation. *)
From Coq Require Import List NArith Bool String Arith Lia.
From LBZ Require Import Gen.IoFailTab IoFail.IoFailModel IoFail.DataFailGeneric.
Import ListNotations.
Local Open Scope N_scope.

(* What the step function and [good_state] read of the fault environment once the initial state
   is fixed: not the role, and the disposition only of a signal that was generated. *)
Definition env_core (e : fenv) : fenv :=
  {| fe_role := RReader; fe_logp := fe_logp e; fe_sig := fe_sig e;
     fe_sig_default := match fe_sig e with Some _ => fe_sig_default e | None => true end |}.

Lemma cstep_env : forall c e ev k, cstep c e ev k = cstep c (env_core e) ev k.
Proof. intros c [r lp [s|] d] ev k; reflexivity. Qed.

Lemma allowed_env : forall e o, outcome_allowed e o = outcome_allowed (env_core e) o.
Proof. intros [r lp [s|] d] o; reflexivity. Qed.

Section SameEnv.
  Variables (c : cfg) (e e' : fenv).
  Hypothesis He : env_core e = env_core e'.
  Hypothesis Hi : forall sp, init_core c e sp = init_core c e' sp.

  Lemma cstep_same ev k : cstep c e ev k = cstep c e' ev k.
  Proof. rewrite (cstep_env c e), (cstep_env c e'), He. reflexivity. Qed.

  Lemma run_core_same sch : forall k, run_core c e k sch = run_core c e' k sch.
  Proof. induction sch as [|ev t IH]; intro k; cbn; [reflexivity|]. rewrite cstep_same. apply IH. Qed.

  Lemma good_same k : good_state c e k = good_state c e' k.
  Proof.
    unfold good_state, predict_outcome, predict_printed, canon, expected_printed.
    cbn [existsb forallb own_events env_events].
    replace (fe_logp e) with (fe_logp e') by exact (f_equal fe_logp (eq_sym He)).
    rewrite !cstep_same, run_core_same, Hi.
    destruct (k_res k) as [o|]; [rewrite (allowed_env e), (allowed_env e'), He|]; reflexivity.
  Qed.

  Lemma check_set_same k0 S : check_set c e k0 S = true -> check_set c e' k0 S = true.
  Proof.
    unfold check_set, closedb. rewrite !andb_true_iff, !forallb_forall. intros [[H0 Hc] Hg].
    split; [split; [exact H0|]|].
    - intros k Hk. specialize (Hc k Hk). rewrite forallb_forall in Hc |- *.
      intros ev Hev. rewrite <- cstep_same. exact (Hc ev Hev).
    - intros k Hk. rewrite <- good_same. exact (Hg k Hk).
  Qed.

  Lemma explore_same fuel : forall seen todo, explore c e fuel seen todo = explore c e' fuel seen todo.
  Proof.
    induction fuel as [|f IH]; intros seen todo; cbn [explore]; [reflexivity|].
    destruct todo as [|k rest]; [reflexivity|]. rewrite !IH.
    rewrite (map_ext _ _ (fun ev => cstep_same ev k)). reflexivity.
  Qed.

  Lemma check_same sp : check c e sp = true -> check c e' sp = true.
  Proof. unfold check. rewrite explore_same, Hi. apply check_set_same. Qed.
End SameEnv.

(* kernel conversion heuristic only: when [check c e sp] has to be compared with its
   unfolding, unfold [check] first (the other order makes the kernel evaluate the
   symbolic search [explore] and does not terminate in reasonable time) *)
Strategy expand [check].
(* likewise: never unfold the 48-step canonical run while comparing terms that mention it *)
Strategy opaque [canon].

Lemma check_set_sound : forall c e k0 S, check_set c e k0 S = true ->
  forall sch, good_state c e (run_core c e k0 sch) = true.
Proof. intros c e k0 S. exact (cert_run c e (good_state c e) k0 S). Qed.

Lemma check_sound : forall c e sp, check c e sp = true ->
  forall sch, good_state c e (run_core c e (init_core c e sp) sch) = true.
Proof. intros c e sp H. unfold check in H. exact (check_set_sound c e _ _ H). Qed.

Lemma good_final : forall c e k o, good_state c e k = true -> k_res k = Some o ->
  Some o = predict_outcome c e /\ k_printed k = predict_printed c e
  /\ outcome_allowed e o = true /\ k_printed k = expected_printed e.
Proof.
  intros c e k o H Hr. unfold good_state in H. rewrite Hr, !andb_true_iff, !N.eqb_eq in H.
  destruct H as [[[[[[[[Ho Hp] Ha] He] _] _] _] _] _]. repeat split; try assumption.
  unfold optout_eqb in Ho. destruct (optout_eq_dec _ _); [assumption|discriminate].
Qed.

Lemma good_progress : forall c e k, good_state c e k = true -> k_res k = None ->
  exists ev, In ev own_events /\ (mu c (cstep c e ev k) < mu c k)%nat.
Proof.
  intros c e k H Hr. unfold good_state in H. rewrite Hr, !andb_true_iff, existsb_exists in H.
  destruct H as [[[[[[ev [Hin Hlt]] _] _] _] _] _]. exists ev. split; [exact Hin | apply Nat.ltb_lt, Hlt].
Qed.

Lemma good_no_success : forall c e k, good_state c e k = true ->
  k_completed k = false /\ k_m k <> MReturned /\ (k_printed k <= expected_printed e).
Proof.
  intros c e k H. unfold good_state in H. rewrite !andb_true_iff, negb_true_iff, N.leb_le in H.
  destruct H as [[[[[_ Hc] Hm] Hp] _] _]. repeat split; try assumption.
  intros E. rewrite E in Hm. discriminate.
Qed.

Lemma good_mono : forall c e k, good_state c e k = true -> mono_ok c e k = true.
Proof.
  intros c e k H. unfold good_state in H.
  apply andb_true_iff in H as [H Henv]. apply andb_true_iff in H as [_ Hown].
  unfold mono_ok. rewrite Hown, Henv. reflexivity.
Qed.

Definition is_own (ev : cevent) : bool := match ev with EvF | EvMain => true | _ => false end.

Fixpoint own_effective (c : cfg) (e : fenv) (k : core) (sch : list cevent) : nat :=
  match sch with
  | [] => 0
  | ev :: t =>
    let k' := cstep c e ev k in
    ((if is_own ev && negb (core_eqb k' k) then 1 else 0) + own_effective c e k' t)%nat
  end.

Lemma check_set_bounded : forall c e k0 S, check_set c e k0 S = true ->
  forall sch, (own_effective c e k0 sch + mu c (run_core c e k0 sch) <= mu c k0)%nat.
Proof. intros c e k0 S H. exact (cert_bounded c e (good_state c e) k0 S H (good_mono c e)). Qed.

Lemma check_bounded : forall c e sp, check c e sp = true ->
  forall sch, (own_effective c e (init_core c e sp) sch + mu c (run_core c e (init_core c e sp) sch)
               <= mu c (init_core c e sp))%nat.
Proof. intros c e sp H. unfold check in H. exact (check_set_bounded c e _ _ H). Qed.

Lemma structure_ok_true : structure_ok = true.
Proof. vm_compute. reflexivity. Qed.

(* the condition of DEF() under which the message is printed is exactly
   "not bailing, or errno is neither EPIPE nor EFBIG" *)
Lemma def_log_cond_spec : forall b x,
  def_log_cond b x = negb b || negb (N.eqb x EPIPE || N.eqb x EFBIG).
Proof.
  intros b x. unfold def_log_cond.
  rewrite ?(N.eqb_sym EPIPE x), ?(N.eqb_sym EFBIG x).
  destruct b; destruct (N.eqb x EPIPE); destruct (N.eqb x EFBIG); reflexivity.
Qed.

Lemma signal_numbers_distinct :
  SIGPIPE <> SIGXFSZ /\ EPIPE <> EFBIG /\ EIO <> EPIPE /\ EIO <> EFBIG /\ EX_OK = 0 /\ EX_FAIL = 1.
Proof. vm_compute. repeat split; discriminate. Qed.

Definition repr_errno (x : N) : N :=
  if N.eqb x EPIPE then EPIPE else if N.eqb x EFBIG then EFBIG else EIO.

Lemma fenv_repr : forall r x g d, fenv_of gen_cfg r x g d = fenv_of gen_cfg r (repr_errno x) g d.
Proof.
  intros r x g d. unfold repr_errno.
  destruct (N.eqb_spec x EPIPE) as [->|H1]; [reflexivity|].
  destruct (N.eqb_spec x EFBIG) as [->|H2]; [reflexivity|].
  unfold fenv_of, sig_of_errno. cbn [c_logc c_epipe c_efbig c_sigpipe c_sigxfsz gen_cfg].
  rewrite !def_log_cond_spec.
  destruct (N.eqb_spec x EPIPE); [contradiction|].
  destruct (N.eqb_spec x EFBIG); [contradiction|].
  destruct g; reflexivity.
Qed.

Lemma repr_in : forall x, In (repr_errno x) [c_epipe gen_cfg; c_efbig gen_cfg; EIO].
Proof.
  intros x. unfold repr_errno. cbn [c_epipe c_efbig gen_cfg].
  destruct (N.eqb x EPIPE); [left; reflexivity|].
  destruct (N.eqb x EFBIG); [right; left; reflexivity | right; right; left; reflexivity].
Qed.

(* So the finite check need not visit all 6 x 3 x 2 x 2 environments: a role matters only through
   which thread fails and the operations it then executes (the two roles of the primary worker
   start like the writer, and as long as xread() and xwrite() are transcribed to the same
   operations a reading role starts like the writing one); without a generated signal the
   disposition is not read. *)
Definition rw_same : bool :=
  if list_eq_dec op_eq_dec (c_xread_err gen_cfg) (c_xwrite_err gen_cfg) then true else false.
Definition rep_role (r : role) : role :=
  match r with
  | RSniffRead | RReader => r
  | RCopyHdrWrite => if rw_same then RSniffRead else r
  | _ => if rw_same then RReader else RWriter
  end.
Definition rep_fault (x : N) (g d : bool) : N * bool * bool :=
  if g && negb (N.eqb x EIO) then (x, true, d) else (x, false, true).

Definition rep_roles : list role :=
  if rw_same then [RSniffRead; RReader] else [RSniffRead; RCopyHdrWrite; RReader; RWriter].
Definition rep_faults : list (N * bool * bool) :=
  [(EPIPE, true, true); (EPIPE, true, false); (EPIPE, false, true);
   (EFBIG, true, true); (EFBIG, true, false); (EFBIG, false, true); (EIO, false, true)].
Definition fenv_at (r : role) (f : N * bool * bool) : fenv := fenv_of gen_cfg r (fst (fst f)) (snd (fst f)) (snd f).
Definition rep_envs : list (fenv * bool) :=
  flat_map (fun r => flat_map (fun f => map (fun sp => (fenv_at r f, sp)) bools) rep_faults) rep_roles.

Lemma gen_check_reps_true : forallb (fun p => check gen_cfg (fst p) (snd p)) rep_envs = true.
Proof. vm_compute. reflexivity. Qed.

Lemma rep_role_ok : forall r x g d, In (rep_role r) rep_roles /\
  forall sp, init_core gen_cfg (fenv_of gen_cfg r x g d) sp = init_core gen_cfg (fenv_of gen_cfg (rep_role r) x g d) sp.
Proof.
  intros r x g d. unfold rep_role, rep_roles, rw_same.
  destruct (list_eq_dec op_eq_dec (c_xread_err gen_cfg) (c_xwrite_err gen_cfg)) as [E|_];
    destruct r; (split; [cbn; tauto|]); try reflexivity.
  (* a writing role represented by the reading one *)
  all: intro sp; unfold init_core, on_error; cbn [fe_role fenv_of role_is_main role_is_write]; rewrite E; reflexivity.
Qed.

Lemma rep_fault_ok : forall r x g d, In x [c_epipe gen_cfg; c_efbig gen_cfg; EIO] ->
  In (rep_fault x g d) rep_faults /\
  env_core (fenv_of gen_cfg r x g d) = env_core (fenv_at r (rep_fault x g d)) /\
  forall sp, init_core gen_cfg (fenv_of gen_cfg r x g d) sp = init_core gen_cfg (fenv_at r (rep_fault x g d)) sp.
Proof.
  intros r x g d [<-|[<-|[<-|[]]]]; destruct g, d; (split; [cbn; tauto | split; reflexivity]).
Qed.

Lemma rep_env : forall r x g d, exists e',
  (forall sp, In (e', sp) rep_envs) /\
  env_core (fenv_of gen_cfg r x g d) = env_core e' /\
  forall sp, init_core gen_cfg (fenv_of gen_cfg r x g d) sp = init_core gen_cfg e' sp.
Proof.
  intros r x g d. rewrite fenv_repr.
  destruct (rep_fault_ok r _ g d (repr_in x)) as [Hf [He Hi]]. set (f := rep_fault (repr_errno x) g d) in *.
  destruct (rep_role_ok r (fst (fst f)) (snd (fst f)) (snd f)) as [Hr Hi'].
  exists (fenv_at (rep_role r) f). split; [|split].
  - intro sp. apply in_flat_map. exists (rep_role r). split; [exact Hr|].
    apply in_flat_map. exists f. split; [exact Hf|]. apply in_map. destruct sp; cbn; tauto.
  - exact He.
  - intro sp. rewrite Hi. apply Hi'.
Qed.

Lemma gen_check : forall r x g d sp, check gen_cfg (fenv_of gen_cfg r x g d) sp = true.
Proof.
  intros r x g d sp. destruct (rep_env r x g d) as [e' [Hin [He Hi]]].
  apply (check_same gen_cfg e'); [symmetry; exact He | intro; symmetry; apply Hi |].
  pose proof gen_check_reps_true as H. rewrite forallb_forall in H. exact (H _ (Hin sp)).
Qed.

Lemma core_of_run_fault : forall r x g d sp others sch,
  s_core (run_fault r x g d sp others sch)
  = run_core gen_cfg (fenv_of gen_cfg r x g d) (init_core gen_cfg (fenv_of gen_cfg r x g d) sp) (core_events sch).
Proof. intros. unfold run_fault. rewrite run_core_of_run. reflexivity. Qed.

Lemma gen_good : forall r x g d sp others sch,
  good_state gen_cfg (fenv_of gen_cfg r x g d) (s_core (run_fault r x g d sp others sch)) = true.
Proof.
  intros r x g d sp others sch. rewrite core_of_run_fault.
  exact (check_sound gen_cfg _ sp (gen_check r x g d sp) (core_events sch)).
Qed.

Lemma allowed_cases : forall r x g d o,
  outcome_allowed (fenv_of gen_cfg r x g d) o = true ->
  o = Exited 1
  \/ (o = Killed SIGPIPE /\ x = EPIPE /\ g = true /\ d = true)
  \/ (o = Killed SIGXFSZ /\ x = EFBIG /\ g = true /\ d = true).
Proof.
  intros r x g d o H. destruct o as [n|s]; cbn [outcome_allowed] in H.
  - left. apply N.eqb_eq in H. subst. reflexivity.
  - unfold fenv_of, sig_of_errno in H.
    cbn [fe_sig fe_sig_default c_epipe c_efbig c_sigpipe c_sigxfsz gen_cfg] in H.
    destruct g; [|discriminate].
    destruct (N.eqb_spec x EPIPE) as [->|H1].
    + apply andb_true_iff in H. destruct H as [Hs Hd]. apply N.eqb_eq in Hs. subst. right; left; auto.
    + destruct (N.eqb_spec x EFBIG) as [->|H2]; [|discriminate].
      apply andb_true_iff in H. destruct H as [Hs Hd]. apply N.eqb_eq in Hs. subst. right; right; auto.
Qed.

Lemma expected_printed_spec : forall r x g d,
  expected_printed (fenv_of gen_cfg r x g d) = if (N.eqb x EPIPE || N.eqb x EFBIG) then 0 else 1.
Proof.
  intros r x g d. unfold expected_printed, fenv_of. cbn [fe_logp fst c_logc gen_cfg].
  rewrite def_log_cond_spec. cbn [negb orb].
  destruct (N.eqb x EPIPE || N.eqb x EFBIG); reflexivity.
Qed.

Lemma outcome_exact : forall r x g d sp others sch o,
  k_res (s_core (run_fault r x g d sp others sch)) = Some o ->
  Some o = fst (predict r x g d) /\
  k_printed (s_core (run_fault r x g d sp others sch)) = snd (predict r x g d).
Proof.
  intros r x g d sp others sch o Hr.
  destruct (good_final gen_cfg _ _ o (gen_good r x g d sp others sch) Hr) as [A [B _]]. split; assumption.
Qed.

Lemma outcome : forall r x g d sp others sch o,
  k_res (s_core (run_fault r x g d sp others sch)) = Some o ->
  (o = Exited 1
   \/ (o = Killed SIGPIPE /\ x = EPIPE /\ g = true /\ d = true)
   \/ (o = Killed SIGXFSZ /\ x = EFBIG /\ g = true /\ d = true))
  /\ o <> Exited 0
  /\ (k_printed (s_core (run_fault r x g d sp others sch)) = 0 <-> (x = EPIPE \/ x = EFBIG)).
Proof.
  intros r x g d sp others sch o Hr.
  destruct (good_final gen_cfg _ _ o (gen_good r x g d sp others sch) Hr) as [_ [_ [Ha Hp]]].
  pose proof (allowed_cases r x g d o Ha) as Hc.
  split; [exact Hc|split].
  - destruct Hc as [H|[[H _]|[H _]]]; rewrite H; discriminate.
  - rewrite Hp, expected_printed_spec.
    destruct (N.eqb_spec x EPIPE) as [->|H1]; cbn [orb].
    + split; auto.
    + destruct (N.eqb_spec x EFBIG) as [->|H2]; cbn [orb].
      * split; auto.
      * split; [discriminate | intros [?|?]; contradiction].
Qed.

Lemma no_stuck : forall r x g d sp others sch,
  k_res (s_core (run_fault r x g d sp others sch)) = None ->
  exists ev, In ev own_events /\
    (mu gen_cfg (s_core (step gen_cfg (fenv_of gen_cfg r x g d) (EvCore ev) (run_fault r x g d sp others sch)))
     < mu gen_cfg (s_core (run_fault r x g d sp others sch)))%nat.
Proof.
  intros r x g d sp others sch Hr. cbn [step s_core].
  exact (good_progress gen_cfg _ _ (gen_good r x g d sp others sch) Hr).
Qed.

Definition mu0 (r : role) (x : N) (g d sp : bool) : nat := gen_mu_bound r x g d sp.

Lemma bounded : forall r x g d sp others sch,
  (own_effective gen_cfg (fenv_of gen_cfg r x g d) (init_core gen_cfg (fenv_of gen_cfg r x g d) sp) (core_events sch)
   + mu gen_cfg (s_core (run_fault r x g d sp others sch)) <= mu0 r x g d sp)%nat.
Proof.
  intros r x g d sp others sch. rewrite core_of_run_fault. unfold mu0, gen_mu_bound.
  exact (check_bounded gen_cfg _ sp (gen_check r x g d sp) (core_events sch)).
Qed.

Lemma no_success : forall r x g d sp others sch,
  k_completed (s_core (run_fault r x g d sp others sch)) = false
  /\ k_m (s_core (run_fault r x g d sp others sch)) <> MReturned
  /\ k_res (s_core (run_fault r x g d sp others sch)) <> Some (Exited EX_OK)
  /\ k_res (s_core (run_fault r x g d sp others sch)) <> Some (Exited 0).
Proof.
  intros r x g d sp others sch.
  destruct (good_no_success gen_cfg _ _ (gen_good r x g d sp others sch)) as [H1 [H2 _]].
  assert (H0 : k_res (s_core (run_fault r x g d sp others sch)) <> Some (Exited 0)).
  { intros Hr. destruct (outcome r x g d sp others sch (Exited 0) Hr) as [_ [Hne _]]. apply Hne. reflexivity. }
  repeat split; assumption.
Qed.

Lemma others_irrelevant : forall r x g d sp1 sp2 others1 others2 sch1 sch2 o1 o2,
  k_res (s_core (run_fault r x g d sp1 others1 sch1)) = Some o1 ->
  k_res (s_core (run_fault r x g d sp2 others2 sch2)) = Some o2 ->
  o1 = o2 /\ k_printed (s_core (run_fault r x g d sp1 others1 sch1))
             = k_printed (s_core (run_fault r x g d sp2 others2 sch2)).
Proof.
  intros r x g d sp1 sp2 others1 others2 sch1 sch2 o1 o2 H1 H2.
  destruct (outcome_exact r x g d sp1 others1 sch1 o1 H1) as [A1 B1].
  destruct (outcome_exact r x g d sp2 others2 sch2 o2 H2) as [A2 B2].
  split; congruence.
Qed.

Definition mu_cap : nat := 64.
Lemma mu_init_le_all : forallb (fun p => Nat.leb (mu gen_cfg (init_core gen_cfg (fst p) (snd p))) mu_cap) rep_envs = true.
Proof. vm_compute. reflexivity. Qed.

Lemma mu_init_le : forall r x g d sp, (mu0 r x g d sp <= mu_cap)%nat.
Proof.
  intros r x g d sp. unfold mu0, gen_mu_bound. destruct (rep_env r x g d) as [e' [Hin [_ Hi]]].
  pose proof mu_init_le_all as H. rewrite forallb_forall in H.
  rewrite Hi. apply Nat.leb_le. exact (H _ (Hin sp)).
Qed.

Lemma terminates_within : forall r x g d sp others sch,
  k_res (s_core (run_fault r x g d sp others sch)) = None ->
  (own_effective gen_cfg (fenv_of gen_cfg r x g d) (init_core gen_cfg (fenv_of gen_cfg r x g d) sp) (core_events sch)
   < mu_cap)%nat.
Proof.
  intros r x g d sp others sch Hr.
  pose proof (bounded r x g d sp others sch) as Hb.
  destruct (no_stuck r x g d sp others sch Hr) as [ev [_ Hlt]].
  pose proof (mu_init_le r x g d sp) as Hm.
  lia.
Qed.

Definition with_bail_sub (c : cfg) (ops : list op) : cfg :=
  {| c_blocked := c_blocked c; c_cli_blocks := c_cli_blocks c; c_cli_handlers := c_cli_handlers c;
     c_saved_ok := c_saved_ok c; c_halt_cases := c_halt_cases c; c_halt_default := c_halt_default c;
     c_bail_main := c_bail_main c; c_bail_sub := ops; c_prologue := c_prologue c; c_logc := c_logc c;
     c_log_ops := c_log_ops c; c_nobail := c_nobail c; c_bail_tail := c_bail_tail c;
     c_xread_err := c_xread_err c; c_xwrite_err := c_xwrite_err c; c_ex_ok := c_ex_ok c;
     c_complete_sig := c_complete_sig c; c_sigpipe := c_sigpipe c; c_sigxfsz := c_sigxfsz c;
     c_epipe := c_epipe c; c_efbig := c_efbig c |}.
Definition with_xwrite_err (c : cfg) (ops : list op) : cfg :=
  {| c_blocked := c_blocked c; c_cli_blocks := c_cli_blocks c; c_cli_handlers := c_cli_handlers c;
     c_saved_ok := c_saved_ok c; c_halt_cases := c_halt_cases c; c_halt_default := c_halt_default c;
     c_bail_main := c_bail_main c; c_bail_sub := c_bail_sub c; c_prologue := c_prologue c; c_logc := c_logc c;
     c_log_ops := c_log_ops c; c_nobail := c_nobail c; c_bail_tail := c_bail_tail c;
     c_xread_err := c_xread_err c; c_xwrite_err := ops; c_ex_ok := c_ex_ok c;
     c_complete_sig := c_complete_sig c; c_sigpipe := c_sigpipe c; c_sigxfsz := c_sigxfsz c;
     c_epipe := c_epipe c; c_efbig := c_efbig c |}.
Definition with_logc (c : cfg) (f : bool -> N -> bool) : cfg :=
  {| c_blocked := c_blocked c; c_cli_blocks := c_cli_blocks c; c_cli_handlers := c_cli_handlers c;
     c_saved_ok := c_saved_ok c; c_halt_cases := c_halt_cases c; c_halt_default := c_halt_default c;
     c_bail_main := c_bail_main c; c_bail_sub := c_bail_sub c; c_prologue := c_prologue c; c_logc := f;
     c_log_ops := c_log_ops c; c_nobail := c_nobail c; c_bail_tail := c_bail_tail c;
     c_xread_err := c_xread_err c; c_xwrite_err := c_xwrite_err c; c_ex_ok := c_ex_ok c;
     c_complete_sig := c_complete_sig c; c_sigpipe := c_sigpipe c; c_sigxfsz := c_sigxfsz c;
     c_epipe := c_epipe c; c_efbig := c_efbig c |}.
Definition with_bail_tail (c : cfg) (ops : list op) : cfg :=
  {| c_blocked := c_blocked c; c_cli_blocks := c_cli_blocks c; c_cli_handlers := c_cli_handlers c;
     c_saved_ok := c_saved_ok c; c_halt_cases := c_halt_cases c; c_halt_default := c_halt_default c;
     c_bail_main := c_bail_main c; c_bail_sub := c_bail_sub c; c_prologue := c_prologue c; c_logc := c_logc c;
     c_log_ops := c_log_ops c; c_nobail := c_nobail c; c_bail_tail := ops;
     c_xread_err := c_xread_err c; c_xwrite_err := c_xwrite_err c; c_ex_ok := c_ex_ok c;
     c_complete_sig := c_complete_sig c; c_sigpipe := c_sigpipe c; c_sigxfsz := c_sigxfsz c;
     c_epipe := c_epipe c; c_efbig := c_efbig c |}.

(* bailout() of a sub-thread without xraise(SIGUSR1): the checker says no, and
   a concrete schedule ends in a state in which nobody can move *)
Definition cfg_no_usr1 := with_bail_sub gen_cfg [OpPromote promote_set; OpThreadExit].

Lemma no_usr1_rejected : check cfg_no_usr1 (fenv_of cfg_no_usr1 RWriter EIO false true) false = false.
Proof. vm_compute. reflexivity. Qed.

Lemma no_usr1_hangs :
  let e := fenv_of cfg_no_usr1 RWriter EIO false true in
  let k := run_core cfg_no_usr1 e (init_core cfg_no_usr1 e false) [EvMain; EvF; EvF; EvF; EvF; EvF; EvF; EvF; EvF; EvF] in
  k_res k = None /\ k_f k = FDead /\ k_m k = MSusp /\
  (* quiescent: neither own thread can move, and the pipeline can never complete *)
  cstep cfg_no_usr1 e EvF k = k /\ cstep cfg_no_usr1 e EvMain k = k /\
  cstep cfg_no_usr1 e EvFDone k = k /\
  cstep cfg_no_usr1 e EvComplete (cstep cfg_no_usr1 e EvOthersDone k) = cstep cfg_no_usr1 e EvOthersDone k.
Proof. vm_compute. repeat split. Qed.

(* xwrite() ignoring the -1: the writer goes on, the pipeline completes, exit status 0 *)
Definition cfg_ignore_write := with_xwrite_err gen_cfg [].

Lemma ignore_write_rejected : check cfg_ignore_write (fenv_of cfg_ignore_write RWriter EIO false true) false = false.
Proof. vm_compute. reflexivity. Qed.

Lemma ignore_write_exits_0 :
  let e := fenv_of cfg_ignore_write RWriter EIO false true in
  k_res (run_core cfg_ignore_write e (init_core cfg_ignore_write e false)
           [EvF; EvMain; EvOthersDone; EvFDone; EvComplete; EvMain; EvMain]) = Some (Exited 0).
Proof. vm_compute. reflexivity. Qed.

(* a diagnostic for EPIPE as well *)
Definition cfg_print_epipe := with_logc gen_cfg (fun _ _ => true).
Lemma print_epipe_changes_stderr :
  let e := fenv_of cfg_print_epipe RWriter EPIPE true true in
  k_printed (run_core cfg_print_epipe e (init_core cfg_print_epipe e true)
               [EvF; EvF; EvF; EvF; EvF; EvF; EvF; EvF; EvF; EvF; EvMain; EvMain; EvMain; EvMain; EvMain]) = 1.
Proof. vm_compute. reflexivity. Qed.

(* `return` instead of bailout() at the end of the logging function *)
Definition cfg_return_after_log := with_bail_tail gen_cfg [OpReturn].
Lemma return_after_log_rejected :
  check cfg_return_after_log (fenv_of cfg_return_after_log RWriter EIO false true) false = false.
Proof. vm_compute. reflexivity. Qed.
