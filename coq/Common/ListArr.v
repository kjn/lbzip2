(* Lists used as arrays: update at an index ([lupd]) with its length / nth / firstn facts, and the nth / firstn /
   skipn / filter / Forall facts of plain lists that the standard library lacks. *)
From Coq Require Import List Arith Lia.
Import ListNotations.

Section ListArr.
Context {A : Type}.
Implicit Types (l : list A) (x d : A).

Fixpoint lupd (i : nat) (x : A) (l : list A) : list A :=
  match l with
  | [] => []
  | y :: r => match i with O => x :: r | S i' => y :: lupd i' x r end
  end.

Lemma lupd_length i x l : length (lupd i x l) = length l.
Proof. revert i; induction l as [|y r IH]; intros [|i]; cbn [lupd length]; auto. Qed.

Lemma nth_lupd_same i x l d : i < length l -> nth i (lupd i x l) d = x.
Proof. revert i; induction l as [|y r IH]; intros [|i] H; cbn [lupd nth length] in *; try lia; auto. apply IH; lia. Qed.

Lemma nth_lupd_other i j x l d : j <> i -> nth j (lupd i x l) d = nth j l d.
Proof. revert i j; induction l as [|y r IH]; intros [|i] [|j] H; cbn [lupd nth]; auto; congruence. Qed.

Lemma nth_lupd i j x l d : i < length l -> nth j (lupd i x l) d = if Nat.eqb j i then x else nth j l d.
Proof.
  intro H. destruct (Nat.eqb_spec j i) as [->|Hne]; [apply nth_lupd_same, H|apply nth_lupd_other, Hne].
Qed.

Lemma lupd_app l1 y l2 x : lupd (length l1) x (l1 ++ y :: l2) = l1 ++ x :: l2.
Proof. induction l1 as [|z l1 IH]; cbn [app length lupd]; [|rewrite IH]; reflexivity. Qed.

Lemma firstn_lupd_ge n i x l : n <= i -> firstn n (lupd i x l) = firstn n l.
Proof.
  revert n i; induction l as [|y r IH]; intros [|n] [|i] H; cbn [lupd firstn]; try lia; auto. f_equal. apply IH; lia.
Qed.

Lemma firstn_S_nth l i d : i < length l -> firstn (S i) l = firstn i l ++ [nth i l d].
Proof.
  revert i; induction l as [|y r IH]; intros [|i] H; cbn [length] in H; try lia; [reflexivity|].
  cbn [firstn nth app]. rewrite <- IH by lia. reflexivity.
Qed.

Lemma skipn_cons_nth l i d : i < length l -> skipn i l = nth i l d :: skipn (S i) l.
Proof. revert i; induction l as [|y r IH]; intros [|i] H; cbn [length] in H; try lia; [reflexivity|]. apply IH; lia. Qed.

Lemma nth_firstn l n i d : i < n -> nth i (firstn n l) d = nth i l d.
Proof.
  revert n i; induction l as [|y r IH]; intros [|n] [|i] H; try lia; cbn [firstn nth]; auto. apply IH; lia.
Qed.

Lemma nth_skipn l n i d : nth i (skipn n l) d = nth (n + i) l d.
Proof. revert l; induction n as [|n IH]; intros [|y r]; cbn [skipn Nat.add nth]; auto. destruct i; reflexivity. Qed.

Lemma skipn_add l a b : skipn a (skipn b l) = skipn (b + a) l.
Proof.
  revert l. induction b as [|b IH]; intro l; [reflexivity|].
  destruct l as [|x l]; cbn [Nat.add skipn]; [apply skipn_nil|]. apply IH.
Qed.

Lemma Forall_firstn (P : A -> Prop) n l : Forall P l -> Forall P (firstn n l).
Proof. intro H. rewrite <- (firstn_skipn n l) in H. apply Forall_app in H. apply H. Qed.

Lemma Forall_skipn (P : A -> Prop) n l : Forall P l -> Forall P (skipn n l).
Proof. intro H. rewrite <- (firstn_skipn n l) in H. apply Forall_app in H. apply H. Qed.

Lemma filter_len_le (f : A -> bool) l : length (filter f l) <= length l.
Proof. induction l as [|x l IH]; cbn [filter length]; [lia|]. destruct (f x); cbn [length]; lia. Qed.

Lemma nth_map_seq (f : nat -> A) n i d : i < n -> nth i (map f (seq 0 n)) d = f i.
Proof.
  intro H. rewrite (nth_indep _ d (f 0)) by (rewrite map_length, seq_length; exact H).
  rewrite map_nth, seq_nth by exact H. reflexivity.
Qed.
End ListArr.
