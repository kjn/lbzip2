(* Numbers as bit lists (msb first) and back, bounds for [N.lxor] and [N.lor] of bounded numbers, [forallb_In] for the
   use of evaluated checks, and list facts: suffixes ([is_suffix]), cancellation for [++]. *)
From Coq Require Import List NArith Arith Bool Lia.
Import ListNotations.

Fixpoint bits_msb (n : nat) (x : N) : list bool :=
  match n with
  | 0 => []
  | S n' => N.testbit x (N.of_nat n') :: bits_msb n' x
  end.

Definition bits8 (x : N) : list bool := bits_msb 8 x.

Lemma bits_msb_length n x : length (bits_msb n x) = n.
Proof. induction n; simpl; auto. Qed.

Lemma bits_msb_split a b x : bits_msb (a + b) x = bits_msb a (x / 2 ^ N.of_nat b) ++ bits_msb b x.
Proof.
  induction a as [|a IH]; [reflexivity|].
  cbn [Nat.add bits_msb app]. rewrite IH. f_equal.
  rewrite <- N.shiftr_div_pow2, N.shiftr_spec'. f_equal. apply Nat2N.inj_add.
Qed.

Lemma lxor_lt_pow2 a b n : (a < 2 ^ n -> b < 2 ^ n -> N.lxor a b < 2 ^ n)%N.
Proof.
  intros Ha Hb.
  destruct (N.eq_dec a 0) as [Ea|Na]; [subst a; rewrite N.lxor_0_l; exact Hb|].
  destruct (N.eq_dec b 0) as [Eb|Nb]; [subst b; rewrite N.lxor_0_r; exact Ha|].
  destruct (N.eq_dec (N.lxor a b) 0) as [E|E]; [rewrite E; lia|].
  apply N.log2_lt_pow2; [lia|].
  eapply N.le_lt_trans; [apply N.log2_lxor|].
  apply N.max_lub_lt; apply N.log2_lt_pow2; lia.
Qed.

(* lor of disjoint numbers is their sum *)
Lemma lor_disjoint a m b : (b < 2 ^ m -> N.lor (a * 2 ^ m) b = a * 2 ^ m + b)%N.
Proof.
  intro Hb. assert (L : N.land (a * 2 ^ m) b = 0%N).
  { apply N.bits_inj_0. intro i. rewrite N.land_spec.
    destruct (N.lt_ge_cases i m) as [Hi|Hi].
    - rewrite N.mul_pow2_bits_low by exact Hi. reflexivity.
    - destruct (N.eq_dec b 0%N) as [->|Hb0]; [rewrite N.bits_0; apply andb_false_r|].
      rewrite (N.bits_above_log2 b i); [apply andb_false_r|].
      apply N.log2_lt_pow2 in Hb; lia. }
  rewrite <- N.lxor_lor by exact L. symmetry. apply N.add_nocarry_lxor. exact L.
Qed.

(* value of a bit list read msb first *)
Fixpoint N_of_bits_acc (acc : N) (bs : list bool) : N :=
  match bs with
  | [] => acc
  | b :: r => N_of_bits_acc (2 * acc + (if b then 1 else 0))%N r
  end.
Definition N_of_bits (bs : list bool) : N := N_of_bits_acc 0 bs.

Fixpoint bl_eqb (a b : list bool) : bool :=
  match a, b with
  | [], [] => true
  | x :: a', y :: b' => Bool.eqb x y && bl_eqb a' b'
  | _, _ => false
  end.

Lemma bl_eqb_spec a b : bl_eqb a b = true <-> a = b.
Proof.
  revert b; induction a as [|x a IH]; intros [|y b]; simpl; split; intro H; try congruence; auto.
  - apply andb_true_iff in H as [H1 H2]. apply eqb_prop in H1. apply IH in H2. congruence.
  - inversion H; subst. rewrite eqb_reflx. simpl. apply IH. reflexivity.
Qed.

(* Use of a closed check [b], a constant defined as a sweep and proved true by evaluation.  With
   the constant on the right of the first equation the kernel unfolds it and finds the two sides
   identical; handed the sweep where it expects the constant (as after [unfold b in H]) it
   evaluates the sweep once more instead. *)
Lemma forallb_In {A} (f : A -> bool) l b : forallb f l = b -> b = true -> forall x, In x l -> f x = true.
Proof. intros <- H. apply forallb_forall, H. Qed.

(* a 32-bit big-endian word as it lies in memory: four bytes *)
Definition word := (N * N * N * N)%type.
Definition bits_of_word (w : word) : list bool :=
  let '(a, b, c, d) := w in bits8 a ++ bits8 b ++ bits8 c ++ bits8 d.

Lemma bits_of_word_length w : length (bits_of_word w) = 32.
Proof. destruct w as [[[a b] c] d]. unfold bits_of_word, bits8. rewrite !app_length, !bits_msb_length. reflexivity. Qed.

Definition is_suffix {A} (u w : list A) : Prop := exists t, w = t ++ u.
Definition is_prefix {A} (u w : list A) : Prop := exists t, w = u ++ t.

Lemma is_suffix_refl {A} (u : list A) : is_suffix u u.
Proof. exists []. reflexivity. Qed.

Lemma is_suffix_nil {A} (w : list A) : is_suffix [] w.
Proof. exists w. rewrite app_nil_r. reflexivity. Qed.

Lemma is_suffix_trans {A} (u v w : list A) : is_suffix u v -> is_suffix v w -> is_suffix u w.
Proof. intros [t1 ->] [t2 ->]. exists (t2 ++ t1). rewrite app_assoc. reflexivity. Qed.

Lemma is_suffix_length {A} (u w : list A) : is_suffix u w -> length u <= length w.
Proof. intros [t ->]. rewrite app_length. lia. Qed.

Lemma is_suffix_app_l {A} (u w t : list A) : is_suffix u w -> is_suffix u (t ++ w).
Proof. intros [s ->]. exists (t ++ s). rewrite app_assoc. reflexivity. Qed.

Lemma is_suffix_snoc {A} (u w : list A) b : is_suffix u w -> is_suffix (u ++ [b]) (w ++ [b]).
Proof. intros [t ->]. exists t. rewrite app_assoc. reflexivity. Qed.

Lemma app_snoc_inj {A} (a b : list A) x y : a ++ [x] = b ++ [y] -> a = b /\ x = y.
Proof. intro H. apply app_inj_tail in H. exact H. Qed.

Lemma exists_last_or_nil {A} (u : list A) : u = [] \/ exists u' c, u = u' ++ [c].
Proof.
  destruct u as [|x u]; [left; reflexivity|right].
  destruct (@exists_last A (x :: u)) as [u' [c H]]; [discriminate|]. exists u', c. exact H.
Qed.

Lemma is_suffix_snoc_inv {A} (u w : list A) b :
  is_suffix u (w ++ [b]) -> u = [] \/ exists u', u = u' ++ [b] /\ is_suffix u' w.
Proof.
  intros [t H]. destruct (exists_last_or_nil u) as [->|[u' [c ->]]]; [left; reflexivity|right].
  rewrite app_assoc in H. apply app_snoc_inj in H as [H1 H2]. subst c.
  exists u'. split; [reflexivity|]. exists t. exact H1.
Qed.

Lemma app_inj_len {A} (a b x y : list A) : length a = length b -> a ++ x = b ++ y -> a = b /\ x = y.
Proof.
  revert b; induction a as [|h a IH]; intros [|k b] Hl H; simpl in *; try discriminate; auto.
  inversion H; subst. destruct (IH b) as [-> ->]; auto.
Qed.

Lemma is_suffix_common {A} (u v w : list A) :
  is_suffix u w -> is_suffix v w -> length u <= length v -> is_suffix u v.
Proof.
  intros [t1 H1] [t2 H2] Hl. subst w.
  assert (Hlen : length t2 <= length t1).
  { apply (f_equal (@length A)) in H2. rewrite !app_length in H2. lia. }
  exists (skipn (length t2) t1).
  assert (E : t1 = firstn (length t2) t1 ++ skipn (length t2) t1) by (symmetry; apply firstn_skipn).
  rewrite E in H2. rewrite <- app_assoc in H2.
  assert (F : firstn (length t2) t1 = t2 /\ skipn (length t2) t1 ++ u = v).
  { symmetry in H2. apply app_inj_len in H2; [destruct H2; split; congruence|]. rewrite firstn_length. lia. }
  destruct F as [_ F]. symmetry. exact F.
Qed.
