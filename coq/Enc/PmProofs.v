(* C20 - theorems about the executable model of sort_alphabet/package_merge/assign_codes (Enc/PmModel.v):
   the model returns no error value (no out-of-bounds index, no unsigned wrap used as index/count, no failed
   assert, fuel suffices), and the result is a complete prefix code with all lengths in 1..height <= 20. *)
From Coq Require Import List NArith ZArith Arith Bool Lia ZifyBool ZifyNat Sorting.Permutation.
From LBZ Require Import Gen.Consts Dec.Format Enc.EncModel Enc.HuffProofs Enc.PmModel Enc.PmBasics Enc.PmIdeal
  Enc.PmReal Enc.PmRefine Enc.PmAssign.
Import ListNotations.
Local Open Scope N_scope.

Lemma MCL_20 : MCL = 20%nat. Proof. reflexivity. Qed.
Lemma MAS_258 : N.to_nat MAX_ALPHA_SIZE = 258%nat. Proof. reflexivity. Qed.

(* the low 16 bits of the labels are a permutation of MAX_ALPHA_SIZE - symbol *)
Definition idx (w : N) : nat := N.to_nat (MAX_ALPHA_SIZE - N.land w 65535).

Lemma land_label fv j0 : (j0 < N.to_nat MAX_ALPHA_SIZE)%nat ->
  N.land (leaf_label fv (N.of_nat j0)) 65535 = MAX_ALPHA_SIZE - N.of_nat j0.
Proof.
  intro Hj. pose proof MAS_lt_2p16 as HM.
  rewrite leaf_label_enc by lia. change 65535 with (N.ones 16). rewrite N.land_ones.
  unfold enc, U32. replace (fv * 4294967296 + (65536 + (MAX_ALPHA_SIZE - N.of_nat j0)))
    with ((MAX_ALPHA_SIZE - N.of_nat j0) + (fv * 65536 + 1) * 2 ^ 16) by lia.
  rewrite N.mod_add by lia. apply N.mod_small. lia.
Qed.

Section Symbols.
Variable f : list N.
Notation n := (length f).
Hypothesis Hnmax : (n <= N.to_nat MAX_ALPHA_SIZE)%nat.
Let sorted := sort_desc (labels f).
Let lw := make_leaf_weight f.

Lemma labels_land j0 : (j0 < n)%nat -> N.land (nth j0 (labels f) 0) 65535 = MAX_ALPHA_SIZE - N.of_nat j0.
Proof.
  intro Hj. unfold labels. rewrite label_from_nth by exact Hj. rewrite N.add_0_l. apply land_label. lia.
Qed.

Lemma idx_labels : map idx (labels f) = seq 0 n.
Proof.
  apply nth_ext with (d := idx 0) (d' := 0%nat).
  - rewrite map_length, seq_length. unfold labels. apply label_from_length.
  - intros j Hj. rewrite map_length in Hj. unfold labels in Hj. rewrite label_from_length in Hj.
    rewrite map_nth, seq_nth by exact Hj. unfold idx. rewrite labels_land by exact Hj. lia.
Qed.

Lemma idx_sorted_perm : Permutation (map idx sorted) (seq 0 n).
Proof. rewrite <- idx_labels. apply Permutation_map. apply sort_desc_perm. Qed.

Lemma sorted_len : length sorted = n.
Proof. unfold sorted. rewrite (Permutation_length (sort_desc_perm _)). apply label_from_length. Qed.

Lemma symj_idx j : symj lw j = idx (nth j sorted 0).
Proof. reflexivity. Qed.

Lemma sym_low j : (j < n)%nat -> N.land (nth (S j) lw 0) 65535 <= MAX_ALPHA_SIZE.
Proof.
  intro Hj. change (nth (S j) lw 0) with (nth j sorted 0).
  assert (Hin : In (nth j sorted 0) (labels f)).
  { apply (Permutation_in _ (sort_desc_perm _)). apply nth_In. fold sorted. rewrite sorted_len. exact Hj. }
  apply (In_nth _ _ 0) in Hin. destruct Hin as [j0 [Hj0 E]]. unfold labels in Hj0. rewrite label_from_length in Hj0.
  rewrite <- E, labels_land by exact Hj0. lia.
Qed.

Lemma sym_lt j : (j < n)%nat -> (symj lw j < n)%nat.
Proof.
  intro Hj. rewrite symj_idx.
  assert (Hin : In (idx (nth j sorted 0)) (map idx sorted)) by (apply in_map; apply nth_In; rewrite sorted_len; exact Hj).
  apply (Permutation_in _ idx_sorted_perm) in Hin. apply in_seq in Hin. lia.
Qed.

Lemma sym_inj i j : (i < n)%nat -> (j < n)%nat -> symj lw i = symj lw j -> i = j.
Proof.
  intros Hi Hj E. rewrite !symj_idx in E.
  assert (ND : NoDup (map idx sorted)).
  { apply (Permutation_NoDup (l := seq 0 n)); [symmetry; apply idx_sorted_perm|apply seq_NoDup]. }
  rewrite (NoDup_nth _ 0%nat) in ND. apply ND; rewrite ?map_length, ?sorted_len; try assumption.
  rewrite !(nth_indep _ 0%nat (idx 0)) by (rewrite map_length, sorted_len; assumption).
  rewrite !map_nth. exact E.
Qed.
End Symbols.

Section Heights.
Variable f : list N.
Notation n := (length f).
Hypothesis Hn2 : (2 <= n)%nat.
Hypothesis Hnmax : (n <= N.to_nat MAX_ALPHA_SIZE)%nat.
Let lw := make_leaf_weight f.
Variable t : list (list N).
Hypothesis Ht : length t = S MCL.
Hypothesis Hgood : forall h, (1 <= h)%nat -> (h <= 20)%nat -> (n <= 2 ^ h)%nat -> good_row n h (nth h t []).

Let Hlw : length lw = S n := lw_length f.
Let Hlow := sym_low f Hnmax.
Let Hsym := sym_lt f Hnmax.
Let Hinj := sym_inj f Hnmax.

Lemma shift_cmp h : (N.shiftl 1 (N.of_nat h) <? N.of_nat n) = false <-> (n <= 2 ^ h)%nat.
Proof.
  rewrite N.shiftl_1_l. change 2 with (N.of_nat 2). rewrite <- Nnat.Nat2N.inj_pow.
  rewrite N.ltb_ge. lia.
Qed.

(* deriving the lengths of one good row never fails and writes every entry of length[] *)
Lemma row_lengths_ok h len cost0 : (1 <= h)%nat -> (h <= 20)%nat -> (n <= 2 ^ h)%nat -> length len = n ->
  exists cost', per_depth h 1 (nth h t []) lw n len cost0 0 =
    Ok (apply_writes lw (combine (seq 0 n) (dlist (nth h t []) 1 h)) len, cost', n) /\
    length (dlist (nth h t []) 1 h) = n.
Proof.
  intros H1 H20 Hp Hlen. pose proof (Hgood h H1 H20 Hp) as G.
  pose proof (good_dlist_length n h _ G H1 H20 ltac:(lia) MCL_20) as DL.
  assert (P1 : (1 + h <= length (nth h t []))%nat) by (rewrite (g_len _ _ _ G), MCL_20; lia).
  assert (P2 : forall i, (1 <= i)%nat -> (i < 1 + h)%nat -> nth i (nth h t []) 0 <= nth (i - 1) (nth h t []) 0).
  { intros i Hi _. apply (g_mono _ _ _ G). exact Hi. }
  assert (P3 : (0 + length (dlist (nth h t []) 1 h) <= n)%nat) by (rewrite DL; lia).
  destruct (per_depth_spec lw n Hlw Hlow Hsym Hinj (nth h t []) h 1 len cost0 0 ltac:(lia) P1 P2 P3 Hlen) as [c E].
  exists c. rewrite DL in E. cbn [Nat.add] in E. split; [exact E|exact DL].
Qed.

Lemma heights_loop_ok : forall k height len bc bh, (height + k = S MCL)%nat -> (2 <= height)%nat -> length len = n ->
  exists len' bc' bh', heights_loop k height t lw n len bc bh = Ok (len', bc', bh') /\ length len' = n /\
    (bh' = bh \/ ((2 <= bh')%nat /\ (bh' <= 20)%nat /\ (n <= 2 ^ bh')%nat)).
Proof.
  induction k as [|k IH]; intros height len bc bh Hk Hh Hlen.
  - exists len, bc, bh. cbn [heights_loop]. auto.
  - cbn [heights_loop]. rewrite MCL_20 in Hk.
    destruct (N.shiftl 1 (N.of_nat height) <? N.of_nat n) eqn:Ecmp.
    + apply IH; [rewrite MCL_20|lia|exact Hlen]. lia.
    + apply shift_cmp in Ecmp.
      pose proof (Hgood height ltac:(lia) ltac:(lia) Ecmp) as G.
      rewrite (rd_ok ATree t height []) by (rewrite Ht, MCL_20; lia). cbn [bind].
      rewrite (rd_ok ARow (nth height t []) (height - 1) 0) by (rewrite (g_len _ _ _ G), MCL_20; lia). cbn [bind].
      destruct (nth (height - 1) (nth height t []) 0 =? 0).
      * exists len, bc, bh. auto.
      * unfold height_cost.
        destruct (row_lengths_ok height len 0 ltac:(lia) ltac:(lia) Ecmp Hlen) as [c [E _]].
        rewrite E. cbn [bind].
        set (len1 := apply_writes lw _ len).
        assert (L1 : length len1 = n) by (unfold len1; rewrite apply_writes_length; exact Hlen).
        set (cost := N.land _ MAX32).
        destruct (cost <? bc).
        -- destruct (IH (S height) len1 cost height ltac:(rewrite MCL_20; lia) ltac:(lia) L1)
             as [len' [bc' [bh' [E' [L' B']]]]].
           exists len', bc', bh'. split; [exact E'|]. split; [exact L'|].
           destruct B' as [->|B']; [right; repeat split; lia || assumption|right; exact B'].
        -- destruct (IH (S height) len1 bc bh ltac:(rewrite MCL_20; lia) ltac:(lia) L1)
             as [len' [bc' [bh' [E' [L' B']]]]].
           exists len', bc', bh'. auto.
Qed.
End Heights.

Section Main.
Variable f : list N.
Notation n := (length f).
Hypothesis Hn2 : (2 <= n)%nat.
Hypothesis Hnmax : (n <= N.to_nat MAX_ALPHA_SIZE)%nat.
Hypothesis Hf : Forall (fun x => x < U32) f.
Hypothesis HB : N.of_nat (Nat.max n MCL) * lsum f < U32.

Let lw := make_leaf_weight f.
Let xs := xs_of f.
Let Hxn : length xs = n := xs_length f.
Let Hxn2 : (2 <= length xs)%nat.
Proof. rewrite Hxn. exact Hn2. Qed.
Let Hxs := xs_sorted f Hn2 Hnmax.

(* the rows of the level sequences are good whenever a complete code of that height exists *)
Lemma ideal_row_good h : (1 <= h)%nat -> (h <= 20)%nat -> (n <= 2 ^ h)%nat ->
  good_row n h (ia (ilev xs h (2 * n - 2))).
Proof.
  intros H1 H20 Hp. destruct h as [|d1]; [lia|].
  assert (T : (2 <= 2 * n - 2)%nat) by lia.
  assert (T' : (2 <= 2 * length xs - 2)%nat) by lia.
  pose proof (inv_all xs Hxn2 Hxs d1 _ T') as I. rewrite Hxn in I.
  destruct (final_counts xs Hxn2 Hxs d1) as [FE FP]. rewrite Hxn in FE, FP.
  constructor.
  - apply (inv_len _ _ _ I).
  - intros i Hi. pose proof (row_mono xs Hxn2 Hxs d1 (2 * n - 2) (i - 1) T) as M.
    replace (S (i - 1)) with i in M by lia. exact M.
  - apply (row_zeros xs Hxn2 Hxs d1); lia.
  - rewrite (ia_split xs Hxn2 Hxs (S d1) _ T ltac:(lia)). cbn [nth]. rewrite FE. reflexivity.
  - pose proof (rr_full n d1 ltac:(lia) Hp) as HR.
    pose proof (val_identity xs Hxn2 Hxs d1 ltac:(rewrite MCL_20; lia) (2 * n - 2)%nat T) as V.
    rewrite Hxn in V. specialize (V HR). rewrite V. replace (S d1 - 1)%nat with d1 by lia.
    f_equal. lia.
Qed.

Theorem assign_lengths_ok len0 : length len0 = n ->
  exists r len1, assign_lengths len0 f = Ok r /\ length len1 = n /\
    (1 <= r_height r)%nat /\ (r_height r <= 20)%nat /\ (n <= 2 ^ r_height r)%nat /\
    r_lengths r = apply_writes lw (combine (seq 0 n) (dlist (ia (ilev xs (r_height r) (2 * n - 2))) 1 (r_height r))) len1 /\
    length (dlist (ia (ilev xs (r_height r) (2 * n - 2))) 1 (r_height r)) = n.
Proof.
  intro Hlen0.
  destruct (package_merge_rows f Hn2 Hnmax Hf HB ltac:(rewrite MCL_20; lia)) as [s [EP [Wf Rows]]].
  fold lw xs in EP, Rows.
  assert (Hgood : forall h, (1 <= h)%nat -> (h <= 20)%nat -> (n <= 2 ^ h)%nat -> good_row n h (nth h (tree s) [])).
  { intros h H1 H20 Hp. rewrite Rows by (rewrite ?MCL_20; lia). apply ideal_row_good; assumption. }
  unfold assign_lengths. fold lw. rewrite EP. cbn [bind].
  destruct (heights_loop_ok f Hn2 Hnmax (tree s) (wf_tree s Wf) Hgood (MCL - 1) 2 len0 MAX32 MCL
              ltac:(rewrite MCL_20; lia) ltac:(lia) Hlen0) as [len1 [bc [bh [EH [L1 Bh]]]]].
  fold lw in EH. rewrite EH. cbn [bind].
  assert (Hbh : (1 <= bh)%nat /\ (bh <= 20)%nat /\ (n <= 2 ^ bh)%nat).
  { destruct Bh as [->|Bh]; [|lia]. rewrite MCL_20. repeat split; try lia.
    pose proof Hnmax as Hnm. rewrite MAS_258 in Hnm.
    assert (P9 : (2 ^ 9 <= 2 ^ 20)%nat) by (apply Nat.pow_le_mono_r; lia).
    change (2 ^ 9)%nat with 512%nat in P9. lia. }
  destruct Hbh as [B1 [B20 Bp]].
  rewrite (rd_ok ATree (tree s) bh []) by (rewrite (wf_tree s Wf), MCL_20; lia). cbn [bind].
  destruct (row_lengths_ok f Hn2 Hnmax (tree s) (wf_tree s Wf) Hgood bh len1 0 B1 B20 Bp L1) as [c [E DL]].
  fold lw in E. rewrite E. cbn [bind].
  pose proof (nc_final n bh _ (Hgood bh B1 B20 Bp) B1 B20 ltac:(lia) MCL_20) as NC.
  unfold nc_step in NC. rewrite NC. rewrite N.eqb_refl. cbn [negb]. rewrite Nat.eqb_refl. cbn [negb].
  eexists. exists len1. split; [reflexivity|]. cbn [r_height r_lengths].
  rewrite Rows in DL |- * by (rewrite ?MCL_20; lia). repeat split; auto.
Qed.
End Main.

Definition pm_input_ok (f : list N) : Prop :=
  (2 <= length f)%nat /\ (length f <= N.to_nat MAX_ALPHA_SIZE)%nat /\
  Forall (fun x => x < 2 ^ 32) f /\ MAX_ALPHA_SIZE * lsum f < 2 ^ 32.

Lemma pm_input_bound f : pm_input_ok f -> N.of_nat (Nat.max (length f) MCL) * lsum f < U32.
Proof.
  intros [H2 [Hm [_ HB]]]. rewrite MAS_258 in Hm. rewrite MCL_20.
  assert (N.of_nat (Nat.max (length f) 20) <= MAX_ALPHA_SIZE) by (change MAX_ALPHA_SIZE with 258; lia).
  unfold U32. change (2 ^ 32) with 4294967296 in HB. nia.
Qed.

Theorem assign_lengths_complete f len0 : pm_input_ok f -> length len0 = length f ->
  exists r, assign_lengths len0 f = Ok r /\
    table_ok (length f) (r_lengths r) = true /\
    (1 <= r_height r)%nat /\ (r_height r <= 20)%nat /\
    Forall (fun l => 1 <= l <= N.of_nat (r_height r)) (r_lengths r).
Proof.
  intros Hin Hlen0. pose proof (pm_input_bound f Hin) as HB. destruct Hin as [H2 [Hm [Hf _]]].
  destruct (assign_lengths_ok f H2 Hm Hf HB len0 Hlen0)
    as [r [len1 [E [L1 [B1 [B20 [Bp [EL DL]]]]]]]].
  exists r. split; [exact E|].
  set (dl := dlist (ia (ilev (xs_of f) (r_height r) (2 * length f - 2))) 1 (r_height r)) in *.
  assert (P : Permutation (r_lengths r) dl).
  { rewrite EL. apply full_writes_perm; auto.
    - apply lw_length.
    - apply sym_low; exact Hm.
    - apply sym_lt; exact Hm.
    - apply sym_inj; exact Hm. }
  assert (R : Forall (fun l => 1 <= l <= N.of_nat (r_height r)) (r_lengths r)).
  { apply Forall_forall. intros l Hl. apply (Permutation_in _ P) in Hl.
    pose proof (dlist_range (ia (ilev (xs_of f) (r_height r) (2 * length f - 2))) (r_height r) 1) as DR.
    rewrite Forall_forall in DR. specialize (DR l Hl). lia. }
  assert (K : kraft (r_lengths r) = kraft_full).
  { rewrite kraft_ksum, (ksum_perm _ _ P). unfold dl.
    rewrite (good_ksum (length f) (r_height r) _ (ideal_row_good f H2 Hm HB (r_height r) B1 B20 Bp) B1 B20 ltac:(lia) MCL_20).
    reflexivity. }
  split; [|split; [exact B1|split; [exact B20|exact R]]].
  unfold table_ok. rewrite (Permutation_length P), DL, Nat.eqb_refl. cbn [andb].
  rewrite K, N.eqb_refl, Bool.andb_true_r.
  apply forallb_forall. intros l Hl. rewrite Forall_forall in R. specialize (R l Hl).
  apply andb_true_intro. split; apply N.leb_le; lia.
Qed.

Corollary pm_lengths_complete f : pm_input_ok f ->
  exists r, pm_lengths_res f = Ok r /\
    table_ok (length f) (r_lengths r) = true /\
    (1 <= r_height r)%nat /\ (r_height r <= 20)%nat /\
    Forall (fun l => 1 <= l <= N.of_nat (r_height r)) (r_lengths r).
Proof. intro H. apply (assign_lengths_complete f (repeat 0 (length f)) H). apply repeat_length. Qed.

Corollary pm_lengths_some f : pm_input_ok f ->
  exists lens, pm_lengths f = Some lens /\ table_ok (length f) lens = true.
Proof.
  intro H. destruct (pm_lengths_complete f H) as [r [E [T _]]].
  exists (r_lengths r). unfold pm_lengths. rewrite E. auto.
Qed.
