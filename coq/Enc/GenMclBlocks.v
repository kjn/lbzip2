(* Totality of the model of generate_prefix_code() on the symbol vector of every real block (Enc/GenCompose.v):
   the alphabet of a non-empty block has at least MIN_ALPHA_SIZE = 3 symbols (RUNA, RUNB / one byte value, EOB), so
   Enc/GenMclTotal.v applies: the witness built from the model's result EXISTS - the premise
   "gen_witness .. = GOk w" of computed_block is a theorem. *)
From Coq Require Import List NArith Arith Bool Lia.
From LBZ Require Rle.RleModel.
From LBZ Require Import Gen.Consts Dec.Format Dec.Policies Dec.CrcProofs Enc.EncModel Enc.MtfProofs Enc.RleInvProofs
  Enc.BlockProofs Enc.GenModel Enc.GenProofs Enc.GenCompose Enc.GenMclTotal.
Import ListNotations.
Local Open Scope N_scope.

Lemma blk_syms_alpha_ge3 blk : blk <> [] -> N.of_nat (length blk) <= MAX_BLOCK_SIZE -> Forall (fun c => c < 256) blk ->
  3 <= last (blk_syms blk) 0 + 1.
Proof.
  intros Hne Hlen Hb. destruct (blk_syms_input_ok blk Hne Hlen Hb) as [_ E]. rewrite E.
  assert (H : (1 <= length (used_bytes (bwt_last blk)))%nat).
  { pose proof (bwt_last_length blk) as L. destruct (bwt_last blk) as [|c col] eqn:Ec.
    - destruct blk; [contradiction|discriminate].
    - assert (Hin : In c (used_bytes (c :: col))) by (apply used_bytes_In; left; reflexivity).
      destruct (used_bytes (c :: col)); [contradiction|cbn [length]; lia]. }
  lia.
Qed.

(* generate_prefix_code() on the symbols of a block: a result, never an error value *)
Theorem gen_block_total : forall cf blk,
  1 <= cf -> blk <> [] -> N.of_nat (length blk) <= MAX_BLOCK_SIZE -> Forall (fun c => c < 256) blk ->
  exists r, gen_prefix_code cf (blk_syms blk) = GOk r /\ gen_result_ok (blk_syms blk) r.
Proof.
  intros cf blk Hcf Hne Hlen Hb. apply gen_prefix_code_total; [exact Hcf| |].
  - apply (blk_syms_input_ok blk Hne Hlen Hb).
  - apply blk_syms_alpha_ge3; assumption.
Qed.

Theorem gen_witness_total : forall cf blk idx extra pad crc,
  1 <= cf -> blk <> [] -> N.of_nat (length blk) <= MAX_BLOCK_SIZE -> Forall (fun c => c < 256) blk ->
  exists w, gen_witness make_code_lengths cf blk idx extra pad crc = GOk w.
Proof.
  intros cf blk idx extra pad crc Hcf Hne Hlen Hb.
  destruct (gen_block_total cf blk Hcf Hne Hlen Hb) as [r [E _]].
  unfold gen_witness. unfold gen_prefix_code in E. rewrite E. cbn [gbind]. eexists. reflexivity.
Qed.

(* every admissible input block has a computed witness, for every choice of a valid BWT index and padding *)
Theorem computed_block_exists : forall cf level x c,
  1 <= cf -> 1 <= level <= 9 -> Forall (fun b => b < 256) x -> x <> [] ->
  N.of_nat (length (RleModel.rle1 x)) <= 100000 * level ->
  valid_idxb (RleModel.rle1 x) (c_idx c) = true -> c_pad c <= 3 ->
  exists w, computed_block make_code_lengths cf level x c w.
Proof.
  intros cf level x c Hcf Hl Hx Hne Hlen Hidx Hpad.
  destruct (gen_witness_total cf (RleModel.rle1 x) (c_idx c) (c_extra c) (c_pad c) (N.lxor (crc_bytes mask32 x) mask32)
              Hcf (rle1_nonempty x Hne)) as [w E].
  - change MAX_BLOCK_SIZE with 900000. lia.
  - apply rle1_bytes. exact Hx.
  - exists w. unfold computed_block. repeat split; assumption.
Qed.

(* C01/C02 with computed tables and selectors, without any assumption on the model's success: for all non-empty
   blocks x_1..x_k within the block size of the level and every choice of valid BWT indices and paddings, the
   computed witnesses exist and the stream written with them decodes to x_1 ++ .. ++ x_k *)
Definition block_choice_ok (level : N) (x : list N) (c : choice) : Prop :=
  Forall (fun b => b < 256) x /\ x <> [] /\ N.of_nat (length (RleModel.rle1 x)) <= 100000 * level /\
  valid_idxb (RleModel.rle1 x) (c_idx c) = true /\ c_pad c <= 3.

Theorem gen_stream_total : forall cf level (xs : list (list N)) (cs : list choice),
  1 <= cf -> 1 <= level <= 9 -> Forall2 (block_choice_ok level) xs cs ->
  exists ws,
    Forall2 (fun xc w => computed_block make_code_lengths cf level (fst xc) (snd xc) w) (combine xs cs) ws /\
    lbz_decode (bytes_of_bits (pad_to_byte (write_stream level ws))) = Prog.Ok (concat xs) /\
    ref_noexc_decode (bytes_of_bits (pad_to_byte (write_stream level ws))) = Prog.Ok (concat xs) /\
    ref_decode (bytes_of_bits (pad_to_byte (write_stream level ws))) = Prog.Ok (concat xs).
Proof.
  intros cf level xs cs Hcf Hl HF.
  assert (E : exists ws, Forall2 (fun xc w => computed_block make_code_lengths cf level (fst xc) (snd xc) w)
                                 (combine xs cs) ws).
  { induction HF as [|x c xs cs [H1 [H2 [H3 [H4 H5]]]] _ IH]; [exists []; constructor|].
    destruct IH as [ws IH]. destruct (computed_block_exists cf level x c Hcf Hl H1 H2 H3 H4 H5) as [w Hw].
    exists (w :: ws). cbn [combine]. constructor; [exact Hw|exact IH]. }
  destruct E as [ws E]. exists ws. split; [exact E|].
  apply (gen_stream_roundtrip_real cf level xs cs ws Hcf Hl); [|exact E].
  clear E. induction HF as [|x c xs cs _ _ IH]; cbn [length]; [reflexivity|]. rewrite IH. reflexivity.
Qed.

Print Assumptions computed_block_exists.
Print Assumptions gen_stream_total.
