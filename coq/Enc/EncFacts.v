(* Small facts about the encoder-side model used by the Properties files. *)
From Coq Require Import List NArith Arith Bool Lia.
From LBZ Require Import Common.Bits Dec.Format Enc.EncModel Gen.Consts.
Import ListNotations.
Local Open Scope N_scope.

Lemma table_ok_spec alpha lens : table_ok alpha lens = true ->
  length lens = alpha /\ Forall (fun l => 1 <= l <= 20) lens /\ kraft lens = kraft_full.
Proof.
  unfold table_ok. intro H. apply andb_true_iff in H as [H H3]. apply andb_true_iff in H as [H1 H2].
  split; [apply Nat.eqb_eq; exact H1|]. split; [|apply N.eqb_eq; exact H3].
  rewrite forallb_forall in H2. apply Forall_forall. intros l Hl. specialize (H2 l Hl).
  apply andb_true_iff in H2 as [A B]. apply N.leb_le in A. apply N.leb_le in B. lia.
Qed.

Lemma valid_idxb_valid blk i : valid_idxb blk i = true -> valid_idx blk i.
Proof.
  unfold valid_idxb, valid_idx. destruct (nth_error (sorted_rots blk) (N.to_nat i)) as [r|]; [|discriminate].
  destruct (list_eq_dec N.eq_dec r blk) as [->|]; [reflexivity|discriminate].
Qed.

(* what witness_ok says, as propositions *)
Lemma witness_ok_parts M w : witness_ok M w = true ->
  let col := bwt_last (w_blk w) in
  let alpha := (length (used_bytes col) + 2)%nat in
  let ngroups := ((length (block_syms w) + 49) / 50)%nat in
  w_blk w <> [] /\ (N.of_nat (length (w_blk w)) <= M)%N /\
  Forall (fun c => (c < 256)%N) (w_blk w) /\
  valid_idx (w_blk w) (w_idx w) /\
  (2 <= length (w_tables w) <= 6)%nat /\
  Forall (fun t => table_ok alpha t = true) (w_tables w) /\
  length (w_sels w) = ngroups /\
  Forall (fun s => (s < N.of_nat (length (w_tables w)))%N) (w_sels w) /\
  (N.of_nat ngroups + (if w_extra_sel w then 1 else 0) <= 18002)%N /\
  (w_pad w <= 3)%N /\ (w_crc w < 2 ^ 32)%N.
Proof.
  unfold witness_ok. cbv zeta. rewrite !andb_true_iff.
  intros [[[[[[[[[[[H1 H2] H3] H4] H5] H6] H7] H8] H9] H10] H11] H12]. rewrite forallb_forall in H3, H7, H9.
  repeat split.
  - intro E. rewrite E in H1. discriminate.
  - apply N.leb_le, H2.
  - apply Forall_forall. intros c Hc. apply N.ltb_lt, H3, Hc.
  - apply valid_idxb_valid, H4.
  - apply Nat.leb_le, H5.
  - apply Nat.leb_le, H6.
  - apply Forall_forall, H7.
  - apply Nat.eqb_eq, H8.
  - apply Forall_forall. intros s Hs. apply N.ltb_lt, H9, Hs.
  - apply N.leb_le, H10.
  - apply N.leb_le, H11.
  - apply N.ltb_lt, H12.
Qed.

(* what witness_ok says about the strict-format items of property C02 *)
Lemma witness_ok_spec M w : witness_ok M w = true ->
  w_blk w <> [] /\ N.of_nat (length (w_blk w)) <= M /\
  valid_idx (w_blk w) (w_idx w) /\
  (2 <= length (w_tables w) <= 6)%nat /\
  Forall (fun lens => Forall (fun l => 1 <= l <= 20) lens /\ kraft lens = kraft_full) (w_tables w) /\
  Forall (fun s => s < N.of_nat (length (w_tables w))) (w_sels w) /\
  N.of_nat (length (w_sels w)) + (if w_extra_sel w then 1 else 0) <= 18002 /\
  w_pad w <= 3.
Proof.
  intro H. destruct (witness_ok_parts M w H) as (Hne & Hlen & _ & Hidx & Hnt & Htabs & Hsels & Hsel & Hns & Hpad & _).
  rewrite Hsels. repeat split; try assumption; try apply Hnt.
  eapply Forall_impl; [|exact Htabs]. intros t Ht. apply table_ok_spec in Ht. tauto.
Qed.

Lemma header_rand_facts level ws :
  firstn 32 (write_stream level ws) = put 24 0x425A68 ++ put 8 (0x30 + level) /\
  forall w, firstn 1 (write_body w) = [false].
Proof.
  split.
  - unfold write_stream. rewrite app_assoc. rewrite firstn_app.
    assert (L : length (put 24 4348520 ++ put 8 (48 + level)) = 32%nat)
      by (rewrite app_length; unfold put; rewrite !bits_msb_length; reflexivity).
    rewrite L. rewrite Nat.sub_diag. simpl firstn at 2. rewrite app_nil_r. rewrite <- L at 1. apply firstn_all.
  - intro w. reflexivity.
Qed.
