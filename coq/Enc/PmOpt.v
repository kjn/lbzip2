(* C20 - optimality of the level sequences (correctness of Package-Merge):
   the first t genuine items of level d are a minimum-cost solution of the "coin collector" problem
     minimise  sum_j S(a_j)   subject to   sum_j a_j 2^(d-1-j) >= t 2^(d-1),  0 <= a_j <= n
   where S(k) is the sum of the k lightest leaf frequencies. *)
From Coq Require Import List NArith ZArith Arith Bool Lia ZifyBool ZifyNat.
From LBZ Require Import Enc.PmModel Enc.PmIdeal Enc.PmReal.
Import ListNotations.
Local Open Scope N_scope.

Section Ranges.
Variable F : nat -> N.        (* prefix sums *)
Variable g : nat -> N.        (* increments: F (k+1) = F k + g k for k < B *)
Variable B : nat.
Hypothesis Hstep : forall k, (k < B)%nat -> F (S k) = F k + g k.

Lemma range_lower c : forall a b, (a <= b)%nat -> (b <= B)%nat ->
  (forall i, (a <= i)%nat -> (i < b)%nat -> c <= g i) -> F a + N.of_nat (b - a) * c <= F b.
Proof.
  intros a b Hab. induction Hab as [|b Hab IH]; intros HB Hc.
  - rewrite Nat.sub_diag. lia.
  - rewrite Hstep by lia. specialize (IH ltac:(lia) ltac:(intros; apply Hc; lia)).
    pose proof (Hc b ltac:(lia) ltac:(lia)). replace (S b - a)%nat with (S (b - a)) by lia. lia.
Qed.

Lemma range_upper c : forall a b, (a <= b)%nat -> (b <= B)%nat ->
  (forall i, (a <= i)%nat -> (i < b)%nat -> g i <= c) -> F b <= F a + N.of_nat (b - a) * c.
Proof.
  intros a b Hab. induction Hab as [|b Hab IH]; intros HB Hc.
  - rewrite Nat.sub_diag. lia.
  - rewrite Hstep by lia. specialize (IH ltac:(lia) ltac:(intros; apply Hc; lia)).
    pose proof (Hc b ltac:(lia) ltac:(lia)). replace (S b - a)%nat with (S (b - a)) by lia. lia.
Qed.

Lemma range_mono a b : (a <= b)%nat -> (b <= B)%nat -> F a <= F b.
Proof.
  intros Hab HB. pose proof (range_lower 0 a b Hab HB ltac:(intros; lia)). lia.
Qed.
End Ranges.

(* merging two non-decreasing sequences greedily gives the cheapest way to take at least that many items *)
Section Merge.
Variables (X Y : nat -> N) (x y : nat -> N) (BX BY : nat).
Hypothesis HX : forall k, (k < BX)%nat -> X (S k) = X k + x k.
Hypothesis HY : forall k, (k < BY)%nat -> Y (S k) = Y k + y k.
Hypothesis xmono : forall i j, (i <= j)%nat -> (j < BX)%nat -> x i <= x j.
Hypothesis ymono : forall i j, (i <= j)%nat -> (j < BY)%nat -> y i <= y j.

Lemma greedy_optimal l p l' p' :
  (l <= BX)%nat -> (p <= BY)%nat -> (l' <= BX)%nat -> (p' <= BY)%nat -> (l + p <= l' + p')%nat ->
  ((1 <= l)%nat -> (p < BY)%nat -> x (l - 1) <= y p) ->       (* every taken leaf <= next package *)
  ((1 <= p)%nat -> (l < BX)%nat -> y (p - 1) <= x l) ->       (* every taken package <= next leaf *)
  X l + Y p <= X l' + Y p'.
Proof.
  intros Hl Hp Hl' Hp' Hsum G1 G2.
  destruct (Nat.le_gt_cases l l') as [Hll|Hll]; destruct (Nat.le_gt_cases p p') as [Hpp|Hpp].
  - pose proof (range_mono X x BX HX l l' Hll Hl'). pose proof (range_mono Y y BY HY p p' Hpp Hp'). lia.
  - (* fewer packages, more leaves *)
    assert (Hlx : (l < BX)%nat) by lia.
    pose proof (G2 ltac:(lia) Hlx) as G.
    pose proof (range_lower X x BX HX (x l) l l' Hll Hl' ltac:(intros; apply xmono; lia)) as A.
    pose proof (range_upper Y y BY HY (y (p - 1)) p' p ltac:(lia) Hp ltac:(intros; apply ymono; lia)) as C.
    assert (N.of_nat (p - p') <= N.of_nat (l' - l)) by lia. nia.
  - (* fewer leaves, more packages *)
    assert (Hpy : (p < BY)%nat) by lia.
    pose proof (G1 ltac:(lia) Hpy) as G.
    pose proof (range_upper X x BX HX (x (l - 1)) l' l ltac:(lia) Hl ltac:(intros; apply xmono; lia)) as A.
    pose proof (range_lower Y y BY HY (y p) p p' Hpp Hp' ltac:(intros; apply ymono; lia)) as C.
    assert (N.of_nat (l - l') <= N.of_nat (p' - p)) by lia. nia.
  - lia.
Qed.
End Merge.

Lemma Ssum_mono xs k k' : (k <= k')%nat -> Ssum xs k <= Ssum xs k'.
Proof.
  unfold Ssum. revert k k'; induction xs as [|x r IH]; intros k k' H.
  - rewrite !firstn_nil. lia.
  - destruct k as [|k]; destruct k' as [|k']; cbn [firstn lsum]; try lia.
    specialize (IH k k' ltac:(lia)). lia.
Qed.

Section Opt.
Variable xs : list N.
Notation n := (length xs).
Hypothesis Hn : (2 <= n)%nat.
Hypothesis Hs : forall i j, (i <= j)%nat -> (j < n)%nat -> leafF xs i <= leafF xs j.
Notation L := (ilev xs).
Notation El := (ell xs).
Notation Pk := (pk xs).
Notation R := (rr n).
Let IA := inv_all xs Hn Hs.

(* total weight of the first q packages handed up by level d0+1 *)
Definition Ylow (d0 q : nat) : N := if (q =? 0)%nat then 0 else W xs (S d0) (2 * q).

Lemma Ylow_step d0 q : (S d0 <= S MCL)%nat -> (q < R (S d0) / 2)%nat ->
  Ylow d0 (S q) = Ylow d0 q + ipkg (L (S d0) (2 * q + 2)).
Proof.
  intros Hd Hq. unfold Ylow. replace (S q =? 0)%nat with false by reflexivity.
  replace (2 * S q)%nat with (2 * q + 2)%nat by lia.
  destruct (Nat.eqb_spec q 0) as [->|Hq0].
  - cbn [Nat.mul Nat.add]. rewrite (W_init xs Hn Hs). rewrite ilev_2. unfold il_init; cbn [ipkg]. lia.
  - replace (2 * q + 2)%nat with (S (S (2 * q))) by lia.
    destruct (W_step xs Hn Hs d0 Hd (2 * q)%nat ltac:(lia) ltac:(lia)) as [A1 A2].
    destruct (W_step xs Hn Hs d0 Hd (S (2 * q))%nat ltac:(lia) ltac:(lia)) as [B1 B2].
    rewrite B2, A2, B1. lia.
Qed.

(* the cost of the row of level d0+2 after t takes = leaves + packages *)
Lemma W_decomp d0 t : (2 <= t)%nat -> (S (S d0) <= S MCL)%nat ->
  W xs (S (S d0)) t = Ssum xs (El (S (S d0)) t) + Ylow d0 (Pk (S (S d0)) t).
Proof.
  intros Ht Hd. unfold W at 1. rewrite (ia_split xs Hn Hs (S (S d0)) t Ht ltac:(lia)).
  rewrite Crow_S. cbn [hd tl]. rewrite Nnat.Nat2N.id. f_equal.
  rewrite (inv_h _ _ _ (IA (S d0) t Ht)). cbn [Nat.leb orb]. unfold Ylow.
  destruct (Nat.eqb_spec (Pk (S (S d0)) t) 0) as [Hp|Hp].
  - apply Crow_zeros.
  - replace (S (S d0) - 1)%nat with (S d0) by lia. rewrite Crow_firstn by lia. reflexivity.
Qed.

(* no competitor can ask level d for more than its genuine items *)
Lemma val_bound d1 : forall a, Forall (fun v => v <= N.of_nat n) a ->
  val (S d1) a < (N.of_nat (R (S d1)) + 1) * 2 ^ N.of_nat d1.
Proof.
  induction d1 as [|d0 IH]; intros a Ha.
  - rewrite val_S. cbn [val]. rewrite rr_1. change (2 ^ N.of_nat 0) with 1.
    assert (hd 0 a <= N.of_nat n) by (destruct Ha; cbn [hd]; lia). lia.
  - rewrite val_S. rewrite rr_SS.
    assert (H0 : hd 0 a <= N.of_nat n) by (destruct Ha; cbn [hd]; lia).
    assert (Ht : Forall (fun v => v <= N.of_nat n) (tl a)) by (destruct Ha; cbn [tl]; auto).
    specialize (IH (tl a) Ht).
    rewrite (Nnat.Nat2N.inj_succ d0), N.pow_succ_r'. set (P := 2 ^ N.of_nat d0) in *.
    set (r := R (S d0)) in *.
    assert (N.of_nat r + 1 <= 2 * N.of_nat (r / 2) + 2) by lia.
    assert (N.of_nat (n + r / 2) = N.of_nat n + N.of_nat (r / 2)) by lia.
    nia.
Qed.

Theorem level_optimal d1 : (S d1 <= S MCL)%nat -> forall t a, (2 <= t)%nat -> (t <= R (S d1))%nat ->
  Forall (fun v => v <= N.of_nat n) a -> N.of_nat t * 2 ^ N.of_nat d1 <= val (S d1) a ->
  W xs (S d1) t <= Crow xs (S d1) a.
Proof.
  induction d1 as [|d0 IH]; intros Hd t a Ht Hle Ha Hval.
  - rewrite rr_1 in Hle. rewrite val_S in Hval. cbn [val] in Hval. change (2 ^ N.of_nat 0) with 1 in Hval.
    unfold W. rewrite (ia_split xs Hn Hs 1 t Ht ltac:(lia)). rewrite !Crow_S. cbn [hd tl Crow].
    rewrite Nnat.Nat2N.id, (level1_real xs Hn Hs t Ht ltac:(rewrite rr_1; lia)).
    pose proof (Ssum_mono xs t (N.to_nat (hd 0 a)) ltac:(lia)). lia.
  - rewrite W_decomp by assumption.
    set (l := El (S (S d0)) t). set (p := Pk (S (S d0)) t).
    pose proof (IA (S d0) t Ht) as I.
    pose proof (inv_hi _ _ _ I) as Ihi. pose proof (inv_t _ _ _ I) as It. fold l in Ihi, It.
    assert (Ep : (l + p = t)%nat) by (unfold p; rewrite Pk_unfold; fold l; lia).
    pose proof (R1 xs Hn Hs d0 t Ht Hle) as HR1. fold p in HR1.
    rewrite Crow_S. rewrite val_S in Hval.
    assert (H0 : hd 0 a <= N.of_nat n) by (destruct Ha; cbn [hd]; lia).
    assert (Hta : Forall (fun v => v <= N.of_nat n) (tl a)) by (destruct Ha; cbn [tl]; auto).
    set (A0 := N.to_nat (hd 0 a)) in *. set (p' := (t - A0)%nat).
    (* the rest of the competitor pays for p' packages *)
    assert (Hlow : (2 * p' <= R (S d0))%nat /\ Ylow d0 p' <= Crow xs (S d0) (tl a)).
    { destruct (Nat.eq_dec p' 0) as [E0|N0].
      - rewrite E0. split; [lia|]. unfold Ylow. cbn [Nat.eqb]. lia.
      - pose proof (val_bound d0 (tl a) Hta) as VB.
        rewrite (Nnat.Nat2N.inj_succ d0), N.pow_succ_r' in Hval. set (P := 2 ^ N.of_nat d0) in *.
        assert (HP : 1 <= P) by (unfold P; pose proof (N.pow_nonzero 2 (N.of_nat d0)); lia).
        assert (Hv : N.of_nat (2 * p') * P <= val (S d0) (tl a)).
        { assert (N.of_nat t = N.of_nat A0 + N.of_nat p') by (unfold p' in *; lia).
          assert (hd 0 a = N.of_nat A0) by (unfold A0; lia). nia. }
        assert (H2p : (2 * p' <= R (S d0))%nat) by nia.
        split; [exact H2p|].
        unfold Ylow. replace (p' =? 0)%nat with false by (symmetry; apply Nat.eqb_neq; exact N0).
        apply IH; try assumption; lia. }
    destruct Hlow as [H2p Hlow].
    (* greedy merge of leaves and packages *)
    assert (G : Ssum xs l + Ylow d0 p <= Ssum xs A0 + Ylow d0 p').
    { apply (greedy_optimal (Ssum xs) (Ylow d0) (leafF xs) (fun k => ipkg (L (S d0) (2 * k + 2))) n (R (S d0) / 2)).
      - intros k Hk. apply Ssum_S. exact Hk.
      - intros k Hk. apply Ylow_step; [lia|exact Hk].
      - intros i j Hij Hj. apply Hs; assumption.
      - intros i j Hij Hj. apply (pkg_mono xs Hn Hs); lia.
      - exact Ihi.
      - lia.
      - unfold A0. lia.
      - lia.
      - unfold p'. lia.
      - intros Hl1 Hp1. pose proof (inv_d _ _ _ I) as Id. pose proof (inv_f _ _ _ I ltac:(lia)) as If.
        replace (S (S d0) - 1)%nat with (S d0) in If by lia. fold l in Id. fold p in If. lia.
      - intros Hp1 Hl1. pose proof (inv_g _ _ _ I ltac:(lia)) as Ig. pose proof (inv_c _ _ _ I) as Ic.
        replace (S (S d0) - 1)%nat with (S d0) in Ig by lia. fold p in Ig. fold l in Ic.
        specialize (Ig Hp1). specialize (Ic Hl1).
        replace (2 * (p - 1) + 2)%nat with (2 * p)%nat by lia. lia. }
    fold A0. lia.
Qed.
End Opt.
