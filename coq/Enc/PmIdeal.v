(* C20 - the level sequences computed by (boundary) Package-Merge, as pure arithmetic on frequencies.

   xs = leaf frequencies in ASCENDING order (xs_0 lightest), n = length xs.
   [ilev d t] = the record of level d after t items have been taken at that level (t >= 2; the first two
   items are always the two lightest leaves):
     ia    the row tree[d][0..20]   (head = number of leaves taken at level d)
     ipkg  frequency of the last two items taken (= weight of the next package handed to level d+1)
     iprev frequency of the last item taken.
   A level takes the next package of the level below when its frequency is strictly smaller than the
   next leaf's (ties: leaf first), or when no leaf is left; level 1 has no packages and stops changing
   when its leaves are exhausted.  Arithmetic is unbounded here (no wrap-around). *)
From Coq Require Import List NArith Arith Bool Lia.
From LBZ Require Import Enc.PmModel.
Import ListNotations.
Local Open Scope N_scope.

Record il := mkil { ia : list N; ipkg : N; iprev : N }.

Definition leafF (xs : list N) (l : nat) : N := nth l xs 0.

Definition il_init (xs : list N) : il :=
  mkil (2 :: repeat 0 MCL) (leafF xs 0 + leafF xs 1) (leafF xs 1).

Definition il_leaf (xs : list N) (l : il) : il :=
  let a0 := hd 0 (ia l) in
  let cur := leafF xs (N.to_nat a0) in
  mkil (a0 + 1 :: tl (ia l)) (iprev l + cur) cur.

Definition il_pkg (l lo : il) : il :=
  mkil (hd 0 (ia l) :: firstn MCL (ia lo)) (iprev l + ipkg lo) (ipkg lo).

(* the take number t+1 at a level whose lower level is [lower]; d1 = level - 1 *)
Definition istep (xs : list N) (lower : nat -> il) (d1 : nat) (t : nat) (l : il) : il :=
  let ell := N.to_nat (hd 0 (ia l)) in
  match d1 with
  | O => if (ell <? length xs)%nat then il_leaf xs l else l
  | S _ =>
    let lo := lower (2 * (t - ell) + 2)%nat in
    if (length xs <=? ell)%nat || (ipkg lo <? leafF xs ell) then il_pkg l lo else il_leaf xs l
  end.

Fixpoint irun (xs : list N) (lower : nat -> il) (d1 : nat) (k : nat) : il :=
  match k with
  | O => il_init xs
  | S k' => istep xs lower d1 (k' + 2) (irun xs lower d1 k')
  end.

Fixpoint ilev (xs : list N) (d : nat) : nat -> il :=
  match d with
  | O => fun _ => il_init xs
  | S d1 => fun t => irun xs (ilev xs d1) d1 (t - 2)
  end.

Definition ell (xs : list N) (d t : nat) : nat := N.to_nat (hd 0 (ia (ilev xs d t))).
Definition pk (xs : list N) (d t : nat) : nat := (t - ell xs d t)%nat.

Lemma ilev_2 xs d1 : ilev xs (S d1) 2 = il_init xs.
Proof. reflexivity. Qed.

Lemma ilev_S xs d1 t : (2 <= t)%nat ->
  ilev xs (S d1) (S t) = istep xs (ilev xs d1) d1 t (ilev xs (S d1) t).
Proof.
  intro H. cbn [ilev]. replace (S t - 2)%nat with (S (t - 2)) by lia. cbn [irun].
  replace (t - 2 + 2)%nat with t by lia. reflexivity.
Qed.

(* which of the three things happens at take number t+1 of level d1+1 *)
Lemma istep_cases xs lower d1 t l :
  let ell := N.to_nat (hd 0 (ia l)) in
  let lo := lower (2 * (t - ell) + 2)%nat in
  (istep xs lower d1 t l = l /\ d1 = O /\ (length xs <= ell)%nat) \/
  (istep xs lower d1 t l = il_leaf xs l /\ (ell < length xs)%nat /\ (d1 <> O -> leafF xs ell <= ipkg lo)) \/
  (istep xs lower d1 t l = il_pkg l lo /\ d1 <> O /\ ((length xs <= ell)%nat \/ ipkg lo < leafF xs ell)).
Proof.
  intros ell lo. unfold istep. fold ell. destruct d1 as [|d2].
  - destruct (Nat.ltb_spec ell (length xs)) as [H|H].
    + right; left. repeat split; auto. congruence.
    + left. auto.
  - fold lo. destruct (Nat.leb_spec (length xs) ell) as [H|H]; cbn [orb].
    + right; right. repeat split; auto.
    + destruct (N.ltb_spec (ipkg lo) (leafF xs ell)) as [H2|H2].
      * right; right. repeat split; auto.
      * right; left. repeat split; auto.
Qed.

Section Ideal.
Variable xs : list N.
Notation n := (length xs).
Hypothesis Hn : (2 <= n)%nat.
Hypothesis Hs : forall i j, (i <= j)%nat -> (j < n)%nat -> leafF xs i <= leafF xs j.
Notation L := (ilev xs).
Notation El := (ell xs).
Notation Pk := (pk xs).

Record Inv (d t : nat) : Prop := mkInv {
  inv_len : length (ia (L d t)) = S MCL;
  inv_lo : (2 <= El d t)%nat;
  inv_hi : (El d t <= n)%nat;
  inv_t : (El d t <= t)%nat;
  inv_c : (El d t < n)%nat -> iprev (L d t) <= leafF xs (El d t);
  inv_d : leafF xs (El d t - 1) <= iprev (L d t);
  inv_e1 : iprev (L d t) <= ipkg (L d t);
  inv_e2 : ipkg (L d t) <= 2 * iprev (L d t);
  inv_f : (2 <= d)%nat -> iprev (L d t) <= ipkg (L (d - 1) (2 * Pk d t + 2));
  inv_g : (2 <= d)%nat -> (1 <= Pk d t)%nat -> ipkg (L (d - 1) (2 * Pk d t)) <= iprev (L d t);
  inv_h : tl (ia (L d t)) = if ((d <=? 1) || (Pk d t =? 0))%nat then repeat 0 MCL
                            else firstn MCL (ia (L (d - 1) (2 * Pk d t)));
  inv_i : (2 <= d)%nat -> (1 <= Pk d t)%nat -> (El (d - 1) (2 * Pk d t) <= El d t)%nat
}.

Lemma El_init d1 : El (S d1) 2 = 2%nat.
Proof. reflexivity. Qed.

Lemma inv_init d1 : Inv (S d1) 2.
Proof.
  assert (E : El (S d1) 2 = 2%nat) by reflexivity.
  assert (P : Pk (S d1) 2 = 0%nat) by reflexivity.
  assert (H01 : leafF xs 0 <= leafF xs 1) by (apply Hs; lia).
  constructor; rewrite ?E, ?P; try lia.
  - reflexivity.
  - intro H. change (iprev (L (S d1) 2)) with (leafF xs 1). apply Hs; lia.
  - change (iprev (L (S d1) 2)) with (leafF xs 1). cbn. lia.
  - change (iprev (L (S d1) 2)) with (leafF xs 1). change (ipkg (L (S d1) 2)) with (leafF xs 0 + leafF xs 1). lia.
  - change (iprev (L (S d1) 2)) with (leafF xs 1). change (ipkg (L (S d1) 2)) with (leafF xs 0 + leafF xs 1). lia.
  - intro Hd. destruct d1 as [|d2]; [lia|].
    change (iprev (L (S (S d2)) 2)) with (leafF xs 1).
    change (ipkg (L (S (S d2) - 1) (2 * 0 + 2))) with (leafF xs 0 + leafF xs 1). lia.
  - rewrite Bool.orb_true_r. reflexivity.
Qed.

Lemma El_unfold d t : El d t = N.to_nat (hd 0 (ia (L d t))).
Proof. reflexivity. Qed.

Lemma Pk_unfold d t : Pk d t = (t - El d t)%nat.
Proof. reflexivity. Qed.

(* take number t+1 of level d1+1: nothing (level 1, leaves exhausted), the next leaf, or the next package *)
Lemma take_cases d1 t : (2 <= t)%nat ->
  let l := L (S d1) t in
  let e := El (S d1) t in
  let lo := L d1 (2 * Pk (S d1) t + 2) in
  (L (S d1) (S t) = l /\ El (S d1) (S t) = e /\ d1 = O /\ (n <= e)%nat) \/
  (L (S d1) (S t) = il_leaf xs l /\ El (S d1) (S t) = S e /\ (e < n)%nat /\ (d1 <> O -> leafF xs e <= ipkg lo)) \/
  (L (S d1) (S t) = il_pkg l lo /\ El (S d1) (S t) = e /\ d1 <> O /\ ((n <= e)%nat \/ ipkg lo < leafF xs e)).
Proof.
  intro Ht. cbv zeta. pose proof (istep_cases xs (L d1) d1 t (L (S d1) t)) as C. cbn zeta in C.
  rewrite <- (ilev_S xs d1 t Ht) in C. rewrite <- El_unfold in C. rewrite <- Pk_unfold in C.
  destruct C as [[E H]|[[E H]|[E H]]]; [left|right; left|right; right]; (split; [exact E|]);
    rewrite (El_unfold _ (S t)), E; (split; [|exact H]).
  - reflexivity.
  - unfold il_leaf; cbn [ia hd]. rewrite (El_unfold _ t). lia.
  - reflexivity.
Qed.

Lemma inv_step d1 t : (2 <= t)%nat -> Inv (S d1) t ->
  (d1 <> O -> forall t', (2 <= t')%nat -> Inv d1 t') ->
  (d1 <> O -> forall t', (2 <= t')%nat -> ipkg (L d1 t') <= ipkg (L d1 (S (S t')))) ->
  Inv (S d1) (S t).
Proof.
  intros Ht I Hlow Hmono.
  pose proof (take_cases d1 t Ht) as C. cbv zeta in C. rewrite Pk_unfold in C.
  assert (Esub : (S d1 - 1 = d1)%nat) by lia.
  destruct I as [Ilen Ilo Ihi It Ic Id Ie1 Ie2 If Ig Ih Ii]. rewrite Esub, Pk_unfold in *.
  set (l := L (S d1) t) in *. set (e := El (S d1) t) in *.
  assert (Ehd : hd 0 (ia l) = N.of_nat e) by (unfold e; rewrite El_unfold; fold l; lia).
  destruct C as [[E [E' [D0 Hge]]] | [[E [E' [Hlt Hcmp]]] | [E [E' [D0 Hcmp]]]]].
  - (* no-op: level 1, leaves exhausted *)
    subst d1. constructor; rewrite ?Pk_unfold, ?E', ?E; fold l; try lia; auto.
  - (* leaf *)
    assert (Eia : ia (L (S d1) (S t)) = N.of_nat e + 1 :: tl (ia l)) by (rewrite E; unfold il_leaf; cbn [ia]; rewrite Ehd; reflexivity).
    assert (Epk : ipkg (L (S d1) (S t)) = iprev l + leafF xs e) by (rewrite E; reflexivity).
    assert (Epv : iprev (L (S d1) (S t)) = leafF xs e) by (rewrite E; reflexivity).
    pose proof (Ic Hlt) as Ic'. assert (P' : (S t - S e = t - e)%nat) by reflexivity.
    constructor; rewrite ?Pk_unfold, ?E', ?P', ?Epk, ?Epv, ?Esub; try lia.
    + rewrite Eia. cbn [length]. destruct (ia l); cbn [length tl] in *; lia.
    + intro H. apply Hs; lia.
    + replace (S e - 1)%nat with e by lia. lia.
    + rewrite Eia. cbn [tl]. exact Ih.
  - (* package *)
    set (lo := L d1 (2 * (t - e) + 2)) in *.
    assert (Eia : ia (L (S d1) (S t)) = N.of_nat e :: firstn MCL (ia lo)) by (rewrite E; unfold il_pkg; cbn [ia]; rewrite Ehd; reflexivity).
    assert (Epk : ipkg (L (S d1) (S t)) = iprev l + ipkg lo) by (rewrite E; reflexivity).
    assert (Epv : iprev (L (S d1) (S t)) = ipkg lo) by (rewrite E; reflexivity).
    assert (P' : (S t - e = S (t - e))%nat) by lia.
    assert (Hd2 : (2 <= S d1)%nat) by lia.
    pose proof (If Hd2) as If'. fold lo in If'.
    assert (T2 : (2 <= 2 * (t - e) + 2)%nat) by lia.
    pose proof (Hlow D0 _ T2) as Ilow. fold lo in Ilow.
    destruct Ilow as [Jlen Jlo Jhi Jt Jc Jd Je1 Je2 _ _ _ _].
    constructor; rewrite ?Pk_unfold, ?E', ?P', ?Epk, ?Epv, ?Esub; try lia.
    + rewrite Eia. cbn [length]. rewrite firstn_length. fold lo in Jlen. rewrite Jlen. lia.
    + intros _. replace (2 * S (t - e) + 2)%nat with (S (S (2 * (t - e) + 2))) by lia.
      apply (Hmono D0). lia.
    + intros _ _. replace (2 * S (t - e))%nat with (2 * (t - e) + 2)%nat by lia. fold lo. lia.
    + rewrite Eia. cbn [tl].
      replace ((S d1 <=? 1)%nat) with false by (symmetry; apply Nat.leb_gt; lia).
      cbn [orb Nat.eqb]. replace (2 * S (t - e))%nat with (2 * (t - e) + 2)%nat by lia. reflexivity.
    + intros _ _. replace (2 * S (t - e))%nat with (2 * (t - e) + 2)%nat by lia.
      destruct Hcmp as [Hcmp|Hcmp]; [lia|].
      destruct (Nat.le_gt_cases (El d1 (2 * (t - e) + 2)) e) as [|Hgt]; [assumption|exfalso].
      assert (leafF xs e <= leafF xs (El d1 (2 * (t - e) + 2) - 1)) by (apply Hs; lia).
      fold lo in Jd, Je1. lia.
Qed.

Lemma pkg_step_mono d1 t : (2 <= t)%nat -> Inv (S d1) t -> ipkg (L (S d1) t) <= ipkg (L (S d1) (S t)).
Proof.
  intros Ht I. destruct I as [Ilen Ilo Ihi It Ic Id Ie1 Ie2 If Ig Ih Ii].
  replace (S d1 - 1)%nat with d1 in * by lia.
  destruct (take_cases d1 t Ht) as [[E _] | [[E [_ [Hlt _]]] | [E [_ [D0 _]]]]]; rewrite E.
  - lia.
  - unfold il_leaf; cbn [ipkg]. rewrite <- El_unfold. pose proof (Ic Hlt). lia.
  - unfold il_pkg; cbn [ipkg]. pose proof (If ltac:(lia)). lia.
Qed.

Lemma inv_level d1 : (d1 <> O -> forall t, (2 <= t)%nat -> Inv d1 t) -> forall t, (2 <= t)%nat -> Inv (S d1) t.
Proof.
  intros Hlow t Ht. induction Ht as [|t Ht IHt]; [apply inv_init|].
  apply inv_step; [exact Ht|exact IHt|exact Hlow|].
  intros D0 t' Ht'. destruct d1 as [|d0]; [congruence|].
  apply N.le_trans with (ipkg (L (S d0) (S t'))); apply pkg_step_mono; try lia; apply (Hlow D0); lia.
Qed.

Lemma inv_all d1 : forall t, (2 <= t)%nat -> Inv (S d1) t.
Proof. induction d1 as [|d0 IH]; apply inv_level; [congruence|intros _; exact IH]. Qed.

Lemma pkg_mono d1 t t' : (2 <= t)%nat -> (t <= t')%nat -> ipkg (L (S d1) t) <= ipkg (L (S d1) t').
Proof.
  intros Ht Hle. induction Hle as [|t' Hle IH]; [lia|].
  apply N.le_trans with (ipkg (L (S d1) t')); [exact IH|]. apply pkg_step_mono; [lia|]. apply inv_all. lia.
Qed.

Lemma El_step d1 t : (2 <= t)%nat -> (El (S d1) t <= El (S d1) (S t) <= S (El (S d1) t))%nat.
Proof. intro Ht. destruct (take_cases d1 t Ht) as [[_ [E _]] | [[_ [E _]] | [_ [E _]]]]; rewrite E; lia. Qed.

Lemma El_mono d1 t t' : (2 <= t)%nat -> (t <= t')%nat -> (El (S d1) t <= El (S d1) t')%nat.
Proof.
  intros Ht Hle. induction Hle as [|t' Hle IH]; [lia|].
  pose proof (El_step d1 t' ltac:(lia)). lia.
Qed.

(* level 1 simply takes the leaves in order *)
Lemma El_level1 t : (2 <= t)%nat -> El 1 t = Nat.min t n.
Proof.
  intro Ht. induction Ht as [|t Ht IH]; [rewrite El_init; lia|].
  destruct (take_cases 0 t Ht) as [[_ [E [_ Hge]]] | [[_ [E [Hlt _]]] | [_ [_ [D0 _]]]]]; [| |congruence]; rewrite E; lia.
Qed.

(* K: within the first 2n-2 takes a level takes at most n-2 packages (level 1: idle takes) *)
Lemma K_bound d1 : forall t, (2 <= t)%nat -> (t <= 2 * n - 2)%nat -> (Pk (S d1) t <= n - 2)%nat.
Proof.
  induction d1 as [|d0 IH]; intros t Ht Hle.
  - rewrite Pk_unfold, El_level1 by exact Ht. lia.
  - induction Ht as [|t Ht IHt]; [rewrite Pk_unfold, El_init; lia|]. specialize (IHt ltac:(lia)).
    pose proof (El_step (S d0) t Ht) as Hst.
    rewrite Pk_unfold in *.
    destruct (Nat.eq_dec (t - El (S (S d0)) t) (n - 2)) as [Heq|Hneq]; [|lia].
    (* n-2 packages already: the next package is not lighter than the next leaf *)
    pose proof (inv_all (S d0) t Ht) as I.
    destruct (take_cases (S d0) t Ht) as [[_ [_ [D0 _]]] | [[_ [E _]] | [_ [_ [_ Hcmp]]]]]; [congruence|lia|].
    exfalso. destruct Hcmp as [Hcmp|Hcmp]; [pose proof (inv_t _ _ I); lia|].
    rewrite Pk_unfold, Heq in Hcmp.
    replace (2 * (n - 2) + 2)%nat with (2 * n - 2)%nat in Hcmp by lia.
    assert (T : (2 <= 2 * n - 2)%nat) by lia.
    pose proof (IH (2 * n - 2)%nat T (Nat.le_refl _)) as K1. rewrite Pk_unfold in K1.
    pose proof (inv_all d0 _ T) as J.
    pose proof (inv_hi _ _ J) as Jhi. pose proof (inv_d _ _ J) as Jd. pose proof (inv_e1 _ _ J) as Je.
    assert (Efull : El (S d0) (2 * n - 2) = n) by lia.
    rewrite Efull in Jd.
    assert (leafF xs (El (S (S d0)) t) <= leafF xs (n - 1)) by (apply Hs; pose proof (inv_hi _ _ I); lia).
    lia.
Qed.

(* after 2n-2 takes every level has taken all n leaves and exactly n-2 packages *)
Lemma final_counts d1 : El (S d1) (2 * n - 2) = n /\ Pk (S d1) (2 * n - 2) = (n - 2)%nat.
Proof.
  assert (T : (2 <= 2 * n - 2)%nat) by lia.
  pose proof (K_bound d1 _ T (Nat.le_refl _)) as K. pose proof (inv_hi _ _ (inv_all d1 _ T)) as Hhi.
  rewrite Pk_unfold in *. lia.
Qed.
End Ideal.
