(* Round trip of the code-length tables: what transmit() writes (write_deltas,
   write_table) is read back by the strict bit-by-bit delta reader. *)
From Coq Require Import List NArith Bool Lia.
From LBZ Require Import Dec.Prog Dec.Sim Dec.Format Dec.Delta Dec.Policies Enc.EncModel Enc.LayoutA Gen.Consts.
Import ListNotations.
Local Open Scope N_scope.

(* the regenerated constants, re-checked by computation *)
Lemma min_code_length_eq : MIN_CODE_LENGTH = 1.
Proof. vm_compute. reflexivity. Qed.
Lemma max_code_length_eq : MAX_CODE_LENGTH = 20.
Proof. vm_compute. reflexivity. Qed.

Lemma in_len_range_true c : 1 <= c <= 20 -> in_len_range c = true.
Proof.
  intros [H1 H2]. unfold in_len_range. rewrite min_code_length_eq, max_code_length_eq.
  apply andb_true_iff. split; apply N.leb_le; assumption.
Qed.

Lemma strict_run_tag0 fuel cur b bits : in_len_range cur = true ->
  run (mprog strict_machine (S fuel) (0, cur)) (b :: bits)
  = run (mprog strict_machine fuel (if b then (1, cur) else (2, cur))) bits.
Proof.
  intros H. cbn [mprog mstat strict_machine strict_stat]. change (0 =? 0) with true. cbv iota.
  rewrite H. cbn [run]. change (mstep strict_machine (0, cur) b) with (strict_step (0, cur) b).
  unfold strict_step. change (0 =? 0) with true. cbv iota. rewrite H. reflexivity.
Qed.

Lemma strict_run_tag1 fuel cur b bits :
  run (mprog strict_machine (S fuel) (1, cur)) (b :: bits)
  = run (mprog strict_machine fuel (0, if b then N.pred cur else cur + 1)) bits.
Proof.
  cbn [mprog mstat strict_machine strict_stat]. change (1 =? 0) with false. change (1 =? 1) with true. cbv iota.
  cbn [run]. change (mstep strict_machine (1, cur) b) with (strict_step (1, cur) b).
  unfold strict_step. change (1 =? 0) with false. change (1 =? 1) with true. cbv iota. reflexivity.
Qed.

Lemma strict_run_tag2 fuel cur bits :
  run (mprog strict_machine fuel (2, cur)) bits = Ok (cur, bits).
Proof.
  destruct fuel; cbn [mprog mstat strict_machine strict_stat];
    change (2 =? 0) with false; change (2 =? 1) with false; change (2 =? 2) with true; cbv iota; reflexivity.
Qed.

Lemma flat_map_const_seq {A} (l : list A) k : forall s, flat_map (fun _ => l) (seq s k) = flat_map (fun _ => l) (seq 0 k).
Proof.
  induction k as [|k IH]; intros s; cbn [seq flat_map]; [reflexivity|].
  rewrite (IH (S s)), (IH 1%nat). reflexivity.
Qed.

(* k steps in one direction: "10" raises the length by one, "11" lowers it *)
Definition moved (down : bool) (cur : N) (k : nat) : N := if down then cur - N.of_nat k else cur + N.of_nat k.

Lemma strict_run_steps (down : bool) k : forall fuel cur rest,
  1 <= cur <= 20 -> 1 <= moved down cur k <= 20 ->
  run (mprog strict_machine (2 * k + fuel) (0, cur)) (flat_map (fun _ => [true; down]) (seq 0 k) ++ rest)
  = run (mprog strict_machine fuel (0, moved down cur k)) rest.
Proof.
  induction k as [|k IH]; intros fuel cur rest H1 H2.
  - replace (moved down cur 0) with cur by (unfold moved; destruct down; cbn [N.of_nat]; lia). reflexivity.
  - cbn [seq flat_map]. rewrite flat_map_const_seq.
    replace (2 * S k + fuel)%nat with (S (S (2 * k + fuel))) by lia.
    cbn [app]. rewrite strict_run_tag0 by (apply in_len_range_true; lia).
    rewrite strict_run_tag1, IH by (unfold moved in *; destruct down; lia).
    replace (moved down (if down then N.pred cur else cur + 1) k) with (moved down cur (S k))
      by (unfold moved; destruct down; lia).
    reflexivity.
Qed.

(* one symbol: from current length cur to target c, both in 1..20, then the terminator *)
Lemma strict_delta_symbol : forall fuel cur c rest,
  (1 <= cur <= 20)%N -> (1 <= c <= 20)%N ->
  (2 * N.to_nat (if (cur <? c)%N then c - cur else cur - c)%N + 1 < fuel)%nat ->
  run (strict_delta fuel cur)
      ((if (cur <? c)%N then flat_map (fun _ => [true; false]) (seq 0 (N.to_nat (c - cur)))
        else flat_map (fun _ => [true; true]) (seq 0 (N.to_nat (cur - c)))) ++ [false] ++ rest)
  = Ok (c, rest).
Proof.
  intros fuel cur c rest Hcur Hc Hf. unfold strict_delta.
  set (k := N.to_nat (if cur <? c then c - cur else cur - c)) in *.
  replace (if cur <? c then flat_map (fun _ => [true; false]) (seq 0 (N.to_nat (c - cur)))
           else flat_map (fun _ => [true; true]) (seq 0 (N.to_nat (cur - c))))
    with (flat_map (fun _ => [true; negb (cur <? c)]) (seq 0 k)) by (unfold k; destruct (cur <? c); reflexivity).
  assert (E : moved (negb (cur <? c)) cur k = c) by (unfold moved, k; destruct (N.ltb_spec cur c); cbn [negb]; lia).
  replace fuel with (2 * k + S (fuel - 2 * k - 1))%nat by lia.
  rewrite strict_run_steps, E by (rewrite ?E; assumption).
  cbn [app]. rewrite strict_run_tag0 by (apply in_len_range_true; lia).
  apply strict_run_tag2.
Qed.

Lemma read_lens_roundtrip : forall fuel lens cur rest,
  (1 <= cur <= 20)%N -> Forall (fun l => (1 <= l <= 20)%N) lens -> (64 <= fuel)%nat ->
  run (read_lens ref_noexc_policy fuel (length lens) cur) (write_deltas cur lens ++ rest) = Ok (lens, rest).
Proof.
  intros fuel lens. induction lens as [|c r IH]; intros cur rest Hcur Hall Hf.
  - reflexivity.
  - inversion Hall as [|c' r' Hc Hr]; subst.
    cbn [length read_lens write_deltas]. rewrite run_bind.
    change (delta_reader ref_noexc_policy) with strict_delta.
    rewrite <- !app_assoc.
    rewrite strict_delta_symbol; [|assumption|assumption|destruct (cur <? c); lia].
    rewrite run_bind. rewrite IH by assumption. reflexivity.
Qed.

Lemma table_roundtrip : forall fuel pad lens rest,
  lens <> [] -> Forall (fun l => (1 <= l <= 20)%N) lens -> (pad <= 3)%N -> (64 <= fuel)%nat ->
  run (read_table ref_noexc_policy fuel (length lens)) (write_table pad lens ++ rest) = Ok (lens, rest).
Proof.
  intros fuel pad lens rest Hne Hall Hpad Hf.
  destruct lens as [|l0 r]; [congruence|].
  assert (H0 : 1 <= l0 <= 20) by (inversion Hall; assumption).
  unfold read_table, write_table. cbn [hd].
  set (a := if l0 <? 4 then l0 + pad else l0 - pad).
  assert (Ha : 1 <= a <= 20) by (subst a; destruct (N.ltb_spec l0 4); lia).
  rewrite run_bind, <- app_assoc, take_put by (change (2 ^ N.of_nat 5) with 32; lia).
  apply read_lens_roundtrip; assumption.
Qed.

Print Assumptions strict_delta_symbol.
Print Assumptions read_lens_roundtrip.
Print Assumptions table_roundtrip.
