(* Proofs about Enc/GenModel.v: the tree reordering loop (not_seen bit mask, tmap_old2new /
   tmap_new2old, assign_codes per first-seen tree) and the dummy second tree. *)
From Coq Require Import List NArith Arith Bool Lia.
From LBZ Require Import Gen.Consts Dec.Format Enc.EncModel Enc.HuffProofs Enc.PmModel Enc.PmBasics Enc.PmReal Enc.PmAssign Enc.PmProofs
  Enc.GenModel Enc.GenInit Enc.GenEm.
Import ListNotations.
Local Open Scope N_scope.

Definition Nrange (n : nat) : list N := map N.of_nat (seq 0 n).

Lemma Nrange_in x n : x < N.of_nat n -> In x (Nrange n).
Proof.
  intro H. unfold Nrange. apply in_map_iff. exists (N.to_nat x). split; [apply N2Nat.id|].
  apply in_seq. lia.
Qed.

Lemma Nrange_length n : length (Nrange n) = n.
Proof. unfold Nrange. rewrite map_length, seq_length. reflexivity. Qed.

Lemma Nrange_forallb f n : forallb f (Nrange n) = true -> forall x, x < N.of_nat n -> f x = true.
Proof. intros C x Hx. rewrite forallb_forall in C. apply C, Nrange_in, Hx. Qed.

(* not_seen & (1 << t), not_seen -= 1 << t on 6-bit masks *)
Lemma bits_fact ns t : ns < 64 -> t < 6 ->
  negb (N.land ns (N.shiftl 1 t) =? 0) = N.testbit ns t /\
  (N.testbit ns t = true -> ns - N.shiftl 1 t < 64 /\
     forall u, u < 6 -> N.testbit (ns - N.shiftl 1 t) u = if u =? t then false else N.testbit ns u).
Proof.
  intros Hns Ht.
  assert (C : forallb (fun ns => forallb (fun t =>
    Bool.eqb (negb (N.land ns (N.shiftl 1 t) =? 0)) (N.testbit ns t) &&
    (if N.testbit ns t
     then (ns - N.shiftl 1 t <? 64) &&
          forallb (fun u => Bool.eqb (N.testbit (ns - N.shiftl 1 t) u) (if u =? t then false else N.testbit ns u)) (Nrange 6)
     else true)) (Nrange 6)) (Nrange 64) = true) by (vm_compute; reflexivity).
  apply Nrange_forallb with (x := ns) in C; [|exact Hns]. apply Nrange_forallb with (x := t) in C; [|exact Ht].
  apply andb_prop in C. destruct C as [C1 C2]. apply eqb_prop in C1. split; [exact C1|].
  intro Hb. rewrite Hb in C2. apply andb_prop in C2. destruct C2 as [C2 C3]. split; [apply N.ltb_lt; exact C2|].
  intros u Hu. apply eqb_prop. exact (Nrange_forallb _ 6 C3 u Hu).
Qed.

(* (1 << nt) - 1 *)
Definition init_mask (nt0 : N) : N := u32 (N.shiftl 1 nt0) - 1.

Lemma mask_fact nt0 : nt0 <= 6 -> init_mask nt0 < 64 /\ forall u, u < 6 -> N.testbit (init_mask nt0) u = (u <? nt0).
Proof.
  intro H.
  assert (C : forallb (fun nt0 => (init_mask nt0 <? 64) &&
                forallb (fun u => Bool.eqb (N.testbit (init_mask nt0) u) (u <? nt0)) (Nrange 6)) (Nrange 7) = true)
    by (vm_compute; reflexivity).
  apply Nrange_forallb with (x := nt0) in C; [|lia]. apply andb_prop in C. destruct C as [C1 C2].
  split; [apply N.ltb_lt; exact C1|]. intros u Hu. apply eqb_prop. exact (Nrange_forallb _ 6 C2 u Hu).
Qed.

(* t ^ 1 *)
Lemma lxor1_fact t : t < 6 -> N.lxor t 1 < 6 /\ N.lxor t 1 <> t.
Proof.
  intro H. assert (C : forallb (fun t => (N.lxor t 1 <? 6) && negb (N.lxor t 1 =? t)) (Nrange 6) = true)
    by (vm_compute; reflexivity).
  apply Nrange_forallb with (x := t) in C; [|exact H]. apply andb_prop in C. destruct C as [C1 C2].
  split; [apply N.ltb_lt; exact C1|]. apply N.eqb_neq. apply negb_true_iff. exact C2.
Qed.

(* the dummy tree: cl0 = floor(log2(as)); (2 << cl0) - as codes of cl0 bits, the rest of cl0 + 1 bits.
   Only the bit trick for cl0 is swept over the alphabet sizes; that the tree is complete is arithmetic:
   k 2^(20-c) + (as - k) 2^(19-c) = (k + as) 2^(19-c) = 2^20 for k + as = 2^(c+1). *)
Lemma dummy_fact a : (2 <= a <= 258)%nat ->
  cl0_of (N.of_nat a) = N.log2 (N.of_nat a) /\ dummy_count (N.of_nat a) <= N.of_nat a /\ table_ok a (dummy_row a) = true.
Proof.
  intro H.
  assert (C : forallb (fun a => (cl0_of (N.of_nat a) =? N.log2 (N.of_nat a)) &&
                                (dummy_count (N.of_nat a) + N.of_nat a =? 2 * 2 ^ cl0_of (N.of_nat a)) &&
                                (1 <=? cl0_of (N.of_nat a)) && (cl0_of (N.of_nat a) <=? 8)) (seq 2 257) = true)
    by (vm_compute; reflexivity).
  rewrite forallb_forall in C. specialize (C a). rewrite !andb_true_iff in C.
  destruct C as [[[C1 C2] C3] C4]; [apply in_seq; lia|].
  apply N.eqb_eq in C1, C2. apply N.leb_le in C3, C4.
  destruct (N.log2_spec (N.of_nat a) ltac:(lia)) as [L1 L2]. rewrite <- C1, N.pow_succ_r' in *.
  set (c := cl0_of (N.of_nat a)) in *. set (k := dummy_count (N.of_nat a)) in *.
  split; [reflexivity|]. split; [lia|].
  unfold table_ok, dummy_row. fold c k. rewrite !andb_true_iff. repeat split.
  - apply Nat.eqb_eq. rewrite app_length, !repeat_length. lia.
  - apply forallb_forall. intros l Hl. apply in_app_or in Hl.
    destruct Hl as [Hl|Hl]; apply repeat_spec in Hl; subst l; apply andb_true_intro; split; apply N.leb_le; lia.
  - apply N.eqb_eq. rewrite kraft_ksum, ksum_app, !ksum_repeat. unfold kraft_full. rewrite N.shiftl_1_l.
    replace (20 - c) with (N.succ (20 - (c + 1))) by lia. rewrite N.pow_succ_r'.
    replace 20 with (N.succ (c + (20 - (c + 1)))) at 3 by lia. rewrite N.pow_succ_r', N.pow_add_r.
    set (P := 2 ^ (20 - (c + 1))) in *. set (Q := 2 ^ c) in *.
    replace (N.of_nat (a - N.to_nat k)) with (N.of_nat a - k) by lia. rewrite N2Nat.id.
    rewrite N.mul_sub_distr_r. pose proof (N.mul_le_mono_r k (N.of_nat a) P ltac:(lia)).
    replace (2 * (Q * P)) with ((k + N.of_nat a) * P) by (rewrite C2; lia). lia.
Qed.

Lemma nodup_bound (l : list N) n : NoDup l -> Forall (fun t => t < N.of_nat n) l -> (length l <= n)%nat.
Proof.
  intros Hn Hf. rewrite <- (Nrange_length n). apply NoDup_incl_length; [exact Hn|].
  intros x Hx. apply Nrange_in. rewrite Forall_forall in Hf. apply Hf. exact Hx.
Qed.

Lemma nodup_snoc {A} (l : list A) x : NoDup l -> ~ In x l -> NoDup (l ++ [x]).
Proof.
  induction 1 as [|y l Hy Hl IH]; intro Hx; cbn [app].
  - constructor; [intros []|constructor].
  - constructor.
    + intro Hin. apply in_app_or in Hin. destruct Hin as [Hin|[<-|[]]]; [contradiction|]. apply Hx. left. reflexivity.
    + apply IH. intro Hin. apply Hx. right. exact Hin.
Qed.

Lemma nth_error_upd_same {A} (l : list A) i v : (i < length l)%nat -> nth_error (upd l i v) i = Some v.
Proof.
  revert i. induction l as [|x l IH]; intros i H; [cbn in H; lia|]. destruct i as [|j]; cbn [upd nth_error]; [reflexivity|].
  apply IH. cbn [length] in H. lia.
Qed.

Lemma nth_error_upd_other {A} (l : list A) i j v : i <> j -> nth_error (upd l i v) j = nth_error l j.
Proof.
  revert i j. induction l as [|x l IH]; intros i j H; [destruct i; reflexivity|].
  destruct i as [|i], j as [|j]; cbn [upd nth_error]; try reflexivity; [lia|]. apply IH. lia.
Qed.

Lemma row_input_ok as_ (fr : list (list N)) row : In row fr -> length row = S as_ -> (2 <= as_ <= 258)%nat ->
  MAX_ALPHA_SIZE * lsum (concat fr) < 2 ^ 32 -> pm_input_ok (firstn as_ row).
Proof.
  intros Hin Hl Has Hb. pose proof (lsum_concat_In fr row Hin) as Hs. pose proof (lsum_firstn_le as_ row) as Hf.
  change MAX_ALPHA_SIZE with 258 in *. change (2 ^ 32) with 4294967296 in *.
  unfold pm_input_ok. rewrite firstn_length, Hl. change (N.to_nat MAX_ALPHA_SIZE) with 258%nat.
  change MAX_ALPHA_SIZE with 258. change (2 ^ 32) with 4294967296.
  split; [lia|]. split; [lia|]. split; [|lia].
  apply Forall_forall. intros x Hx. apply In_le_lsum in Hx. lia.
Qed.

Record ro_inv (as_ : nat) (nt0 : N) (s : ro_st) : Prop := {
  ri_lt : ro_not_seen s < 64;
  ri_set : forall u, u < 6 -> N.testbit (ro_not_seen s) u = true -> u < nt0 /\ ~ In u (ro_n2o s);
  ri_clr : forall u, u < nt0 -> N.testbit (ro_not_seen s) u = false -> In u (ro_n2o s);
  ri_cnt : ro_nt s = N.of_nat (length (ro_n2o s));
  ri_nodup : NoDup (ro_n2o s);
  ri_old : Forall (fun t => t < nt0) (ro_n2o s);
  ri_o2n_len : length (ro_o2n s) = NTREES;
  ri_inv : forall j t, nth_error (ro_n2o s) j = Some t -> nth_error (ro_o2n s) (N.to_nat t) = Some (Some (N.of_nat j));
  ri_shape : lens_shape as_ (ro_lens s);
  ri_tabs : Forall (fun t => table_ok as_ (nth (N.to_nat t) (ro_lens s) []) = true) (ro_n2o s)
}.

(* the state after the first occurrence of tree t, given the result of assign_codes for it *)
Definition ro_next (s : ro_st) (t : N) (res : pm_result) : ro_st :=
  mkro (ro_not_seen s - N.shiftl 1 t) (ro_nt s + 1) (upd (ro_o2n s) (N.to_nat t) (Some (ro_nt s))) (ro_n2o s ++ [t])
       (upd (ro_lens s) (N.to_nat t) (r_lengths res)) (u32 (ro_cost s + r_cost res)).

Lemma n2o_short as_ nt0 s t : ro_inv as_ nt0 s -> t < nt0 -> ~ In t (ro_n2o s) -> (length (ro_n2o s) < N.to_nat nt0)%nat.
Proof.
  intros I Ht Hnew.
  assert (Hn : NoDup (ro_n2o s ++ [t])) by (apply nodup_snoc; [apply (ri_nodup _ _ _ I)|exact Hnew]).
  apply (nodup_bound _ (N.to_nat nt0)) in Hn.
  - rewrite app_length in Hn. cbn [length] in Hn. lia.
  - apply Forall_app. split.
    + eapply Forall_impl; [|apply (ri_old _ _ _ I)]. cbn beta. intros; lia.
    + constructor; [lia|constructor].
Qed.

Lemma ro_next_inv as_ nt0 s t res : nt0 <= 6 -> ro_inv as_ nt0 s -> t < nt0 -> N.testbit (ro_not_seen s) t = true ->
  table_ok as_ (r_lengths res) = true -> ro_inv as_ nt0 (ro_next s t res).
Proof.
  intros Hnt0 I Ht Hbit Tok. assert (Ht6 : t < 6) by lia.
  destruct (bits_fact (ro_not_seen s) t (ri_lt _ _ _ I) Ht6) as [_ B2]. destruct (B2 Hbit) as [B3 B4].
  destruct (ri_set _ _ _ I t Ht6 Hbit) as [_ Hnew]. destruct (ri_shape _ _ _ I) as [Hs1 Hs2].
  pose proof (n2o_short _ _ _ _ I Ht Hnew) as Hcnt.
  assert (Hrl : length (r_lengths res) = as_).
  { unfold table_ok in Tok. rewrite !andb_true_iff in Tok. apply Nat.eqb_eq, Tok. }
  constructor; cbn [ro_next ro_not_seen ro_nt ro_o2n ro_n2o ro_lens ro_cost].
  - exact B3.
  - intros u Hu Hbu. rewrite (B4 u Hu) in Hbu. destruct (N.eqb_spec u t) as [->|Hne]; [discriminate|].
    destruct (ri_set _ _ _ I u Hu Hbu) as [X1 X2]. split; [exact X1|].
    intro Hin'. apply in_app_or in Hin'. destruct Hin' as [Hin'|[Hin'|[]]]; [contradiction|]. apply Hne. symmetry. exact Hin'.
  - intros u Hu Hbu. rewrite (B4 u ltac:(lia)) in Hbu. apply in_or_app. destruct (N.eqb_spec u t) as [->|Hne].
    + right. left. reflexivity.
    + left. apply (ri_clr _ _ _ I u Hu Hbu).
  - rewrite app_length, (ri_cnt _ _ _ I). cbn [length]. lia.
  - apply nodup_snoc; [apply (ri_nodup _ _ _ I)|exact Hnew].
  - apply Forall_app. split; [apply (ri_old _ _ _ I)|constructor; [exact Ht|constructor]].
  - rewrite upd_length. apply (ri_o2n_len _ _ _ I).
  - intros j t' Hj. destruct (Nat.lt_ge_cases j (length (ro_n2o s))) as [Hlt|Hge].
    + rewrite nth_error_app1 in Hj by exact Hlt.
      assert (t' <> t) by (intro; subst t'; apply Hnew; eapply nth_error_In; eauto).
      rewrite nth_error_upd_other by lia. apply (ri_inv _ _ _ I). exact Hj.
    + rewrite nth_error_app2 in Hj by exact Hge.
      destruct (j - length (ro_n2o s))%nat as [|k] eqn:Ej; cbn [nth_error] in Hj; [|destruct k; discriminate].
      inversion Hj; subst t'. rewrite nth_error_upd_same by (rewrite (ri_o2n_len _ _ _ I); change NTREES with 6%nat; lia).
      rewrite (ri_cnt _ _ _ I). do 3 f_equal. lia.
  - split; [rewrite upd_length; exact Hs1|]. apply Forall_forall. intros x Hx. apply upd_In in Hx.
    destruct Hx as [->|Hx]; [exact Hrl|]. rewrite Forall_forall in Hs2. apply Hs2. exact Hx.
  - apply Forall_app. split.
    + apply Forall_forall. intros u Hu. assert (u <> t) by (intro; subst u; contradiction).
      rewrite upd_nth_other by lia. pose proof (ri_tabs _ _ _ I) as T. rewrite Forall_forall in T. apply T. exact Hu.
    + constructor; [|constructor]. rewrite upd_nth_same by (rewrite Hs1; change NTREES with 6%nat; lia). exact Tok.
Qed.

(* not_seen = (1 << nt) - 1, nothing mapped yet *)
Definition ro_init (nt0 : N) (lens : list (list N)) : ro_st := mkro (init_mask nt0) 0 (repeat None NTREES) [] lens 0.

Lemma ro_init_inv as_ nt0 lens : 1 <= nt0 <= 6 -> lens_shape as_ lens -> ro_inv as_ nt0 (ro_init nt0 lens).
Proof.
  intros Hnt Hs. destruct (mask_fact nt0 ltac:(lia)) as [M1 M2].
  constructor; cbn [ro_init ro_not_seen ro_nt ro_o2n ro_n2o ro_lens ro_cost].
  - exact M1.
  - intros u Hu Hb. rewrite (M2 u Hu) in Hb. apply N.ltb_lt in Hb. split; [exact Hb|intros []].
  - intros u Hu Hb. rewrite (M2 u ltac:(lia)) in Hb. apply N.ltb_ge in Hb. lia.
  - reflexivity.
  - constructor.
  - constructor.
  - apply repeat_length.
  - intros j t Hj. destruct j; discriminate.
  - exact Hs.
  - constructor.
Qed.

Section Reorder.
Variables (as_ : nat) (nt0 : N) (fr : list (list N)).
Hypothesis Hnt0 : nt0 <= 6.
Hypothesis Has : (2 <= as_ <= 258)%nat.
Hypothesis Hfr : fr_shape as_ (N.to_nat nt0) fr.
Hypothesis Hb : MAX_ALPHA_SIZE * lsum (concat fr) < 2 ^ 32.

(* one selector: every tree has been seen / this tree has been seen / first occurrence: assign_codes on its row *)
Lemma reorder_step t r s : ro_inv as_ nt0 s -> t < nt0 ->
  (ro_not_seen s = 0 /\ reorder as_ fr (t :: r) s = GOk s) \/
  (ro_not_seen s <> 0 /\ N.testbit (ro_not_seen s) t = false /\ reorder as_ fr (t :: r) s = reorder as_ fr r s) \/
  (N.testbit (ro_not_seen s) t = true /\ exists len0 f res,
     nth_error (ro_lens s) (N.to_nat t) = Some len0 /\ nth_error fr (N.to_nat t) = Some f /\
     assign_lengths len0 (firstn as_ f) = Ok res /\ ro_inv as_ nt0 (ro_next s t res) /\
     reorder as_ fr (t :: r) s = reorder as_ fr r (ro_next s t res)).
Proof.
  intros I Ht. destruct Hfr as [Hfr1 Hfr2]. cbn [reorder].
  destruct (N.eqb_spec (ro_not_seen s) 0) as [Z|NZ]; [left; auto|right].
  replace (t <? MAX_TREES) with true by (symmetry; apply N.ltb_lt; change MAX_TREES with 6; lia).
  cbn [negb]. assert (Ht6 : t < 6) by lia.
  destruct (bits_fact (ro_not_seen s) t (ri_lt _ _ _ I) Ht6) as [B1 _]. rewrite B1.
  destruct (N.testbit (ro_not_seen s) t) eqn:Hbit; [right|left; auto].
  split; [reflexivity|].
  destruct (ri_set _ _ _ I t Ht6 Hbit) as [_ Hnew]. pose proof (n2o_short _ _ _ _ I Ht Hnew) as Hcnt.
  unfold gwr. rewrite (ri_o2n_len _ _ _ I).
  replace (N.to_nat t <? NTREES)%nat with true by (symmetry; apply Nat.ltb_lt; change NTREES with 6%nat; lia).
  cbn [gbind negb].
  replace (ro_nt s <? MAX_TREES) with true
    by (symmetry; apply N.ltb_lt; rewrite (ri_cnt _ _ _ I); change MAX_TREES with 6; lia).
  cbn [negb]. destruct (ri_shape _ _ _ I) as [Hs1 Hs2].
  destruct (nth_error (ro_lens s) (N.to_nat t)) as [len0|] eqn:El;
    [|apply nth_error_None in El; rewrite Hs1 in El; change NTREES with 6%nat in El; lia].
  destruct (nth_error fr (N.to_nat t)) as [f|] eqn:Ef; [|apply nth_error_None in Ef; lia].
  unfold grd. rewrite El, Ef. cbn [gbind].
  assert (Hf : length f = S as_) by (rewrite Forall_forall in Hfr2; apply Hfr2; eapply nth_error_In; eauto).
  assert (Hl0 : length len0 = as_) by (rewrite Forall_forall in Hs2; apply Hs2; eapply nth_error_In; eauto).
  assert (Hfl : length (firstn as_ f) = as_) by (rewrite firstn_length, Hf; lia).
  destruct (assign_lengths_complete (firstn as_ f) len0) as [res [Eres [Tok _]]]; [|lia|].
  { apply (row_input_ok as_ fr f); auto. eapply nth_error_In; eauto. }
  rewrite Eres. rewrite Hfl in Tok. exists len0, f, res.
  split; [reflexivity|]. split; [reflexivity|]. split; [exact Eres|]. split; [apply ro_next_inv; assumption|reflexivity].
Qed.

Lemma reorder_spec : forall sels s, Forall (fun t => t < nt0) sels -> ro_inv as_ nt0 s ->
  exists s', reorder as_ fr sels s = GOk s' /\ ro_inv as_ nt0 s' /\
    Forall (fun t => In t (ro_n2o s')) sels /\ (exists ext, ro_n2o s' = ro_n2o s ++ ext).
Proof.
  induction sels as [|t r IH]; intros s Hsels I.
  - exists s. split; [cbn [reorder]; destruct (ro_not_seen s =? 0); reflexivity|]. split; [exact I|].
    split; [constructor|exists []; symmetry; apply app_nil_r].
  - inversion Hsels as [|? ? Ht Hr]; subst.
    destruct (reorder_step t r s I Ht) as [[Z ->]|[[_ [Hbit ->]]|[Hbit [len0 [f [res [_ [_ [_ [I1 ->]]]]]]]]]].
    + (* every tree has been seen *)
      exists s. split; [reflexivity|]. split; [exact I|]. split; [|exists []; symmetry; apply app_nil_r].
      eapply Forall_impl; [|exact Hsels]. cbn beta. intros u Hu. apply (ri_clr _ _ _ I u Hu). rewrite Z. apply N.bits_0.
    + destruct (IH s Hr I) as [s' [E [I' [F' [ext Ext]]]]].
      exists s'. split; [exact E|]. split; [exact I'|]. split; [|exists ext; exact Ext].
      constructor; [|exact F']. rewrite Ext. apply in_or_app. left. apply (ri_clr _ _ _ I t Ht Hbit).
    + destruct (IH _ Hr I1) as [s' [E [I' [F' [ext Ext]]]]]. cbn [ro_next ro_n2o] in Ext. rewrite <- app_assoc in Ext.
      exists s'. split; [exact E|]. split; [exact I'|]. split; [|eexists; exact Ext].
      constructor; [|exact F']. rewrite Ext. apply in_or_app. right. left. reflexivity.
Qed.

(* the first selector is the first tree to get a new number *)
Lemma reorder_head lens sels ro : 1 <= nt0 -> lens_shape as_ lens -> Forall (fun t => t < nt0) sels ->
  reorder as_ fr sels (ro_init nt0 lens) = GOk ro -> hd_error (ro_n2o ro) = hd_error sels.
Proof.
  intros Hnt Hs Hsels H. pose proof (ro_init_inv as_ nt0 lens ltac:(lia) Hs) as I0.
  destruct sels as [|t r]; [cbn [reorder] in H; destruct (_ =? 0) in H; inversion H; reflexivity|].
  inversion Hsels as [|? ? Ht Hr]; subst. destruct (mask_fact nt0 Hnt0) as [_ M2].
  pose proof (M2 t ltac:(lia)) as Bt. apply N.ltb_lt in Ht as Ht'. rewrite Ht' in Bt.
  destruct (reorder_step t r _ I0 Ht) as [[Z _]|[[_ [Z _]]|[_ [len0 [f [res [_ [_ [_ [I1 E]]]]]]]]]].
  - cbn [ro_init ro_not_seen] in Z. rewrite Z, N.bits_0 in Bt. discriminate.
  - cbn [ro_init ro_not_seen] in Z. rewrite Z in Bt. discriminate.
  - rewrite E in H. destruct (reorder_spec r _ Hr I1) as [s' [E' [_ [_ [ext Ext]]]]].
    rewrite H in E'. inversion E'; subst s'. rewrite Ext. reflexivity.
Qed.
End Reorder.

