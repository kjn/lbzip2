(* Corollaries combining the block/stream round trips for the Properties files. *)
From Coq Require Import List NArith Lia.
From LBZ Require Rle.RleModel.
From LBZ Require Import Dec.Prog Dec.Format Dec.Policies Dec.DecProofs Dec.CrcProofs Enc.EncModel Enc.BlockProofs
  Enc.StreamProofs.
Import ListNotations.
Local Open Scope N_scope.

Lemma block_roundtrip_both M level w x fuel rest :
  1 <= level <= 9 -> M = 100000 * level -> witness_ok M w = true -> (64 <= fuel)%nat ->
  Forall (fun c => c < 256) x -> x <> [] -> w_blk w = RleModel.rle1 x ->
  run (read_block ref_noexc_policy fuel) (write_body w ++ rest) = Ok (raw_of w, rest) /\
  decode_block ref_noexc_policy level (raw_of w) = Ok x.
Proof.
  intros Hl HM Hw Hf Hx Hne Hb. split.
  - apply (body_roundtrip M); auto. subst M. lia.
  - eapply block_decodes; eauto.
Qed.

Lemma stream_strict_both level (ws : list witness) (xs : list (list N)) :
  1 <= level <= 9 ->
  Forall2 (fun w x => witness_ok (100000 * level) w = true /\ Forall (fun c => c < 256) x /\ x <> [] /\
                      w_blk w = RleModel.rle1 x /\ w_crc w = N.lxor (crc_bytes mask32 x) mask32) ws xs ->
  ref_noexc_decode (bytes_of_bits (pad_to_byte (write_stream level ws))) = Ok (concat xs) /\
  ref_decode (bytes_of_bits (pad_to_byte (write_stream level ws))) = Ok (concat xs).
Proof.
  intros Hl H. pose proof (stream_roundtrip level ws xs Hl H) as R. split; [exact R|]. apply noexc_sound. exact R.
Qed.
