(* Theorems about Enc/EncodeModel.v (the model of encode() of src/encode.c), for a valid block ([block_ok]):
   - the model returns no error value (every assert() of encode() holds, no uint32_t wrap, no selectorMTF[]
     overflow), tree_pad <= 3, at most one surplus selector, and the witness it builds is GenCompose.gen_witness
     with the computed tree_pad / surplus selector ([encode_block_ok]);
   - byte alignment ([encode_block_aligned]): the bit length of EncModel.write_block on that witness is exactly the cost encode() computed
     (header 123 + generate_prefix_code() + selector MTF + padding + character map), a multiple of 8, and
     out_expect_len is its eighth;
   - the values of `a` transmit() sends / walks through for a table stay within 1..20 (first table: with tree_pad);
   - C01/C02 for streams in which tables, selectors, tree_pad and the surplus selector are all computed. *)
From Coq Require Import List NArith Arith Bool Lia.
From LBZ Require Rle.RleModel.
From LBZ Require Import Common.Bits Gen.Consts Dec.Prog Dec.Format Dec.Policies Dec.CrcProofs
  Enc.EncModel Enc.EncFacts Enc.MtfProofs Enc.RleInvProofs Enc.LayoutA Enc.BlockProofs Enc.StreamProofs Enc.EncCompose Enc.PmModel Enc.PmReal Enc.PmCost Enc.GenModel Enc.GenInit Enc.GenEm
  Enc.GenReorder Enc.GenProofs Enc.GenMcl Enc.GenCompose Enc.GenMclBlocks Enc.EncodePmCost Enc.EncodeGenCost Enc.EncodeModel Enc.EncodeSelMtf Enc.EncodeLayout.
Import ListNotations.
Local Open Scope N_scope.

(* the selector loop of encode() from its initial state 0x543210 *)
Theorem sel_mtf_loop_init nt sels cost : nt <= 6 -> Forall (fun c => c < nt) sels ->
  sel_mtf_loop nt sels SEL_MTF_INIT cost =
    EOk (mtf_encode_sels [0; 1; 2; 3; 4; 5] sels, selcost (mtf_encode_sels [0; 1; 2; 3; 4; 5] sels) cost) /\
  Forall (fun j => j <= 5) (mtf_encode_sels [0; 1; 2; 3; 4; 5] sels).
Proof.
  intros Hnt Hs. rewrite <- pack_init. split; [apply sel_mtf_loop_spec; [exact Hnt|reflexivity|exact Hs]|].
  eapply Forall_impl; [|apply mtf_sels_pos1].
  - cbn [length]. intros j Hj. lia.
  - eapply Forall_impl; [|exact Hs]. cbn beta. intros c Hc. apply (Nrange_in c 6). lia.
Qed.

Definition sel_order0 : list N := [0; 1; 2; 3; 4; 5].

Lemma write_block_length_eq w :
  w_tables w <> [] -> Forall (fun lens => lens <> []) (w_tables w) ->
  (4 <= hd 0 (hd [] (w_tables w)) -> w_pad w <= hd 0 (hd [] (w_tables w))) ->
  N.of_nat (length (write_block w)) =
    HEADER_COST + (16 + 16 * used_ranges (used_bytes (bwt_last (w_blk w)))) +
    (lsum (mtf_encode_sels sel_order0 (w_sels w)) + N.of_nat (length (w_sels w))) + (if w_extra_sel w then 1 else 0) +
    2 * w_pad w + lsum (map tree_cost (w_tables w)) + gbits (tab_of (w_tables w)) (w_sels w) (block_syms w).
Proof.
  intros Hne Hrows Hpad. unfold write_block, write_body. cbv zeta.
  rewrite !app_length, !put_length, !Nat2N.inj_add.
  rewrite write_bitmap_length, selectors_length, mtf_encode_sels_length.
  rewrite (codes_length (w_tables w) (w_sels w) (S (length (block_syms w))) (block_syms w)) by lia.
  pose proof (tables_length (w_pad w) (w_tables w) 0 Hrows (fun _ => Hpad)) as T. cbn [Nat.eqb] in T.
  destruct (w_tables w) as [|t0 tr] eqn:Et; [contradiction|]. rewrite <- Et in *. rewrite T.
  replace (N.of_nat (length (if w_extra_sel w then [false] else []))) with (if w_extra_sel w then 1 else 0)
    by (destruct (w_extra_sel w); reflexivity).
  change HEADER_COST with 123. change (N.of_nat 48) with 48. change (N.of_nat 32) with 32. change (N.of_nat 1) with 1.
  change (N.of_nat 24) with 24. change (N.of_nat 3) with 3. change (N.of_nat 15) with 15. unfold sel_order0. lia.
Qed.

Lemma u8_small x : x < 256 -> u8 x = x.
Proof. intro H. unfold u8. change 255 with (N.ones 8). rewrite N.land_ones. apply N.mod_small. exact H. Qed.

Lemma pad_arith c : let j := N.land (8 - N.land c 7) 7 in
  j < 8 /\ N.land (c + j) 7 = 0 /\ 2 * N.shiftr j 1 + N.land j 1 = j /\ N.shiftr j 1 <= 3 /\ N.land j 1 <= 1.
Proof.
  cbv zeta. rewrite !(N.land_ones _ 3). change (2 ^ 3) with 8. set (m := c mod 8).
  assert (Hm : m < 8) by (apply N.mod_lt; discriminate).
  pose proof (N.div_mod c 8 ltac:(discriminate)) as D. fold m in D.
  set (j := (8 - m) mod 8). assert (Hj : j < 8) by (apply N.mod_lt; discriminate).
  assert (Ej : (m = 0 /\ j = 0) \/ (0 < m /\ j = 8 - m)).
  { destruct (N.eq_dec m 0) as [Z|NZ]; [left|right]; split; try lia;
      unfold j; first [rewrite Z; reflexivity | apply N.mod_small; lia]. }
  split; [exact Hj|]. split.
  - destruct Ej as [[Z ->]|[P ->]].
    + rewrite N.add_0_r. exact Z.
    + replace (c + (8 - m)) with ((c / 8 + 1) * 8) by lia. apply N.mod_mul. discriminate.
  - rewrite N.shiftr_div_pow2, (N.land_ones _ 1). change (2 ^ 1) with 2.
    pose proof (N.div_mod j 2 ltac:(discriminate)) as D2. pose proof (N.mod_lt j 2 ltac:(discriminate)) as M2.
    split; [lia|]. split; [|lia].
    assert (j / 2 < 4) by (apply N.div_lt_upper_bound; lia). lia.
Qed.

Lemma land7_add16 c k : N.land c 7 = 0 -> N.land (c + 16 * k) 7 = 0.
Proof.
  rewrite !(N.land_ones _ 3). change (2 ^ 3) with 8. intro H. replace (c + 16 * k) with (c + (2 * k) * 8) by lia. rewrite N.mod_add by discriminate. exact H.
Qed.

Lemma shiftr3_exact c : N.land c 7 = 0 -> c = 8 * N.shiftr c 3.
Proof.
  rewrite (N.land_ones _ 3), N.shiftr_div_pow2. change (2 ^ 3) with 8. intro H.
  pose proof (N.div_mod c 8 ltac:(discriminate)). lia.
Qed.

Definition block_ok (blk : list N) : Prop :=
  blk <> [] /\ N.of_nat (length blk) <= MAX_BLOCK_SIZE /\ Forall (fun c => c < 256) blk.

Lemma enc_syms_blk_syms blk : enc_syms blk = blk_syms blk.
Proof. reflexivity. Qed.

Record encode_facts (cf : N) (blk : list N) (idx crc : N) (r : enc_result) : Prop := {
  ef_gen : gen_prefix_code cf (enc_syms blk) = GOk (e_gen r) /\ gen_result_ok (enc_syms blk) (e_gen r);
  ef_wit : e_wit r = {| w_blk := blk; w_idx := idx; w_tables := g_tables (e_gen r); w_sels := g_sels (e_gen r);
                        w_extra_sel := w_extra_sel (e_wit r); w_pad := w_pad (e_wit r); w_crc := crc |};
  ef_pad : w_pad (e_wit r) <= 3;
  ef_selmtf : e_selmtf r = mtf_encode_sels sel_order0 (g_sels (e_gen r)) ++ (if w_extra_sel (e_wit r) then [0] else []);
  ef_nsel : e_nsel r = N.of_nat (length (g_sels (e_gen r))) + (if w_extra_sel (e_wit r) then 1 else 0);
  ef_nsel_cap : e_nsel r <= enc_selector_size /\ N.of_nat (length (e_selmtf r)) <= enc_selectorMTF_size;
  ef_cost : e_cost_bits r =
            HEADER_COST + g_cost (e_gen r) +
            (lsum (mtf_encode_sels sel_order0 (g_sels (e_gen r))) + N.of_nat (length (g_sels (e_gen r)))) +
            (2 * w_pad (e_wit r) + (if w_extra_sel (e_wit r) then 1 else 0)) +
            (16 + 16 * used_ranges (used_bytes (bwt_last blk)));
  ef_bits : N.of_nat (length (write_block (e_wit r))) = e_cost_bits r;
  ef_aligned : e_cost_bits r = 8 * e_expect_len r;
  ef_small : e_cost_bits r < 2 ^ 28
}.

Theorem encode_block_full_ok cf blk idx crc : 1 <= cf -> block_ok blk ->
  exists r, encode_block_full cf blk idx crc = EOk r /\ encode_facts cf blk idx crc r.
Proof.
  intros Hcf [Hne [Hlen Hb]].
  destruct (blk_syms_input_ok blk Hne Hlen Hb) as [Hin Has]. rewrite <- enc_syms_blk_syms in *.
  destruct (gen_block_total cf blk Hcf Hne Hlen Hb) as [g [Eg Gok]]. rewrite <- enc_syms_blk_syms in *.
  pose proof (used_nonempty blk Hne) as Hu1.
  pose proof (bwt_last_bytes blk Hb) as Hcol.
  pose proof (used_bytes_le_256 _ Hcol) as Hu2.
  destruct (gen_cost cf (enc_syms blk) g Hcf Hin ltac:(lia) Eg) as [Ecost [Bcost [Hhd [Hold1 Hold2]]]].
  destruct Gok as [G1 G2 G3 G4 G5 G6 G7 G8].
  set (mtfv := enc_syms blk) in *. set (used := used_bytes (bwt_last blk)) in *.
  destruct (sel_mtf_loop_init (g_num_trees g) (g_sels g) (123 + g_cost g) ltac:(lia) G5) as [EJ HJ].
  fold sel_order0 in EJ, HJ. set (J := mtf_encode_sels sel_order0 (g_sels g)) in *.
  assert (LJ : length J = length (g_sels g)) by apply mtf_encode_sels_length.
  assert (SJ : lsum J <= 5 * N.of_nat (length J)).
  { clear - HJ. induction HJ as [|j r Hj _ IH]; cbn [lsum length]; lia. }
  assert (Hng : N.of_nat (length (g_sels g)) <= 18001).
  { rewrite G4. change enc_selector_size with 18002 in G6. lia. }
  set (cost1 := HEADER_COST + g_cost g + lsum J + N.of_nat (length J)).
  destruct (pad_arith cost1) as [Pj [Pal [Psplit [Ppad Pext]]]].
  set (j := N.land (8 - N.land cost1 7) 7) in *.
  set (cost2 := cost1 + j).
  set (cost3 := cost2 + 16 * used_ranges used + 16).
  pose proof (used_ranges_le used) as Hur.
  change (2 ^ 27) with 134217728 in Bcost. change HEADER_COST with 123 in *.
  assert (B3 : cost3 < 2 ^ 28) by (change (2 ^ 28) with 268435456; unfold cost3, cost2, cost1; lia).
  change (2 ^ 28) with 268435456 in B3.
  exists (mkenc {| w_blk := blk; w_idx := idx; w_tables := g_tables g; w_sels := g_sels g;
                   w_extra_sel := negb (N.land j 1 =? 0); w_pad := N.shiftr j 1; w_crc := crc |}
                g (J ++ (if N.land j 1 =? 0 then [] else [0])) (N.of_nat (length (g_sels g)) + N.land j 1)
                cost3 (N.shiftr cost3 3)).
  assert (Hextra : (if negb (N.land j 1 =? 0) then 1 else 0) = N.land j 1).
  { destruct (N.eqb_spec (N.land j 1) 0) as [Z|NZ]; cbn [negb]; lia. }
  assert (Hal3 : N.land cost3 7 = 0).
  { unfold cost3. replace (cost2 + 16 * used_ranges used + 16) with (cost2 + 16 * (used_ranges used + 1)) by lia.
    apply land7_add16. exact Pal. }
  split.
  - unfold encode_block_full. cbv zeta. fold used mtfv. change HEADER_COST with 123.
    replace (length blk =? 0)%nat with false by (destruct blk; [contradiction|reflexivity]).
    replace ((2 <=? N.of_nat (length used) + 1) && (N.of_nat (length used) + 1 <? 258)) with true
      by (symmetry; apply andb_true_intro; split; [apply N.leb_le|apply N.ltb_lt]; lia).
    cbn [negb]. rewrite Eg.
    replace (hd MAX_TREES (g_sels_old g) <? MAX_TREES) with true
      by (symmetry; apply N.ltb_lt; destruct (g_sels_old g); [contradiction|inversion Hold2; assumption]).
    cbn [negb]. rewrite Hhd. cbn [N.eqb negb].
    replace (num_groups (N.of_nat (length mtfv)) <? N.of_nat (length (g_sels g))) with false
      by (symmetry; apply N.ltb_ge; rewrite G4; lia).
    rewrite (u32_small (123 + g_cost g)) by (unfold U32; lia).
    rewrite EJ.
    rewrite selcost_exact by (unfold U32; lia). fold cost1.
    assert (Hm : N.land cost1 7 < 8) by (rewrite (N.land_ones _ 3); apply (N.mod_lt _ 8); discriminate).
    rewrite (u8_small (N.land cost1 7)) by lia. fold j. rewrite (u8_small j) by lia.
    rewrite (u8_small (N.land j 1)) by lia.
    rewrite (u32_small (cost1 + j)) by (unfold U32, cost1; lia). fold cost2.
    rewrite <- G4. rewrite (u32_small (N.of_nat (length (g_sels g)) + N.land j 1)) by (unfold U32; lia).
    replace (enc_selectorMTF_size <? N.of_nat (length (J ++ (if N.land j 1 =? 0 then [] else [0])))) with false.
    2:{ symmetry. apply N.ltb_ge. rewrite app_length, LJ. change enc_selectorMTF_size with 18008.
        destruct (N.land j 1 =? 0); cbn [length]; lia. }
    replace (N.land cost2 7) with 0 by (symmetry; exact Pal). cbn [N.eqb negb].
    rewrite cmap_cost_exact by (change (2 ^ 32) with 4294967296; unfold cost2, cost1; lia).
    rewrite (u32_small (cost2 + 16 * used_ranges used + 16)) by (unfold U32; fold cost3; lia).
    fold cost3. rewrite Hal3. cbn [N.eqb negb]. reflexivity.
  - constructor; cbn [e_wit e_gen e_selmtf e_nsel e_cost_bits e_expect_len w_pad w_extra_sel].
    + split; [exact Eg|constructor; assumption].
    + reflexivity.
    + exact Ppad.
    + fold J. destruct (N.land j 1 =? 0); reflexivity.
    + rewrite Hextra. reflexivity.
    + rewrite app_length, LJ. change enc_selector_size with 18002. change enc_selectorMTF_size with 18008.
      destruct (N.land j 1 =? 0); cbn [length]; lia.
    + fold J used. rewrite Hextra, Psplit. unfold cost3, cost2, cost1. rewrite LJ. change HEADER_COST with 123. lia.
    + rewrite write_block_length_eq; cbn [w_blk w_tables w_sels w_extra_sel w_pad].
      * fold used J. rewrite Hextra. change (block_syms _) with mtfv.
        unfold cost3, cost2, cost1. rewrite Ecost, LJ. change HEADER_COST with 123. lia.
      * intro Z. rewrite Z in G2. cbn [length N.of_nat] in G2. lia.
      * rewrite forallb_forall in G3. apply Forall_forall. intros lens Hl Z. specialize (G3 lens Hl).
        apply table_ok_spec in G3. destruct G3 as [L _]. rewrite Z in L. cbn [length] in L. lia.
      * intros; lia.
    + apply shiftr3_exact. exact Hal3.
    + change (2 ^ 28) with 268435456. exact B3.
Qed.

Theorem encode_block_ok cf blk idx crc : 1 <= cf -> block_ok blk ->
  exists w, encode_block cf blk idx crc = EOk w /\
    w_pad w <= 3 /\ w_blk w = blk /\ w_idx w = idx /\ w_crc w = crc /\
    gen_witness make_code_lengths cf blk idx (w_extra_sel w) (w_pad w) crc = GOk w.
Proof.
  intros Hcf Hb. destruct (encode_block_full_ok cf blk idx crc Hcf Hb) as [r [E F]].
  exists (e_wit r). unfold encode_block. rewrite E. split; [reflexivity|].
  destruct F as [[Eg _] Ew Hp _ _ _ _ _ _ _]. split; [exact Hp|].
  split; [rewrite Ew; reflexivity|]. split; [rewrite Ew; reflexivity|]. split; [rewrite Ew; reflexivity|].
  unfold gen_witness. rewrite <- enc_syms_blk_syms. fold (gen_prefix_code cf (enc_syms blk)). rewrite Eg.
  cbn [gbind]. f_equal. symmetry. exact Ew.
Qed.

Theorem encode_block_witness_ok cf M blk idx crc : 1 <= cf -> M <= MAX_BLOCK_SIZE ->
  blk <> [] -> N.of_nat (length blk) <= M -> Forall (fun c => c < 256) blk ->
  valid_idxb blk idx = true -> crc < 2 ^ 32 ->
  exists w, encode_block cf blk idx crc = EOk w /\ witness_ok M w = true /\ w_blk w = blk /\ w_crc w = crc.
Proof.
  intros Hcf HM Hne Hlen Hb Hidx Hcrc.
  destruct (encode_block_ok cf blk idx crc Hcf) as [w [E [Hp [_ [_ [_ G]]]]]]; [repeat split; auto; lia|].
  exists w. split; [exact E|].
  apply (gen_witness_is_ok is_mcl_err make_code_lengths cf M blk idx _ _ crc w make_code_lengths_wf Hcf HM Hne Hlen Hb
           Hidx Hp Hcrc G).
Qed.

Theorem encode_block_aligned cf blk idx crc : 1 <= cf -> block_ok blk ->
  exists r, encode_block_full cf blk idx crc = EOk r /\
    N.of_nat (length (write_block (e_wit r))) = 8 * e_expect_len r /\
    N.of_nat (length (write_block (e_wit r))) = e_cost_bits r /\
    (length (write_block (e_wit r)) mod 8 = 0)%nat.
Proof.
  intros Hcf Hb. destruct (encode_block_full_ok cf blk idx crc Hcf Hb) as [r [E F]].
  exists r. split; [exact E|]. pose proof (ef_bits _ _ _ _ _ F) as B. pose proof (ef_aligned _ _ _ _ _ F) as A.
  split; [lia|]. split; [exact B|].
  assert (N.of_nat (length (write_block (e_wit r))) mod 8 = 0) by (rewrite B, A, N.mul_comm; apply N.mod_mul; discriminate).
  change 8 with (N.of_nat 8) in H. rewrite <- Nat2N.inj_mod in H. lia.
Qed.

(* out_expect_len, the size of the buffer do_transmit() allocates, is bounded by a constant *)
Theorem encode_block_expect_len cf blk idx crc : 1 <= cf -> block_ok blk ->
  exists r, encode_block_full cf blk idx crc = EOk r /\ e_expect_len r < 2 ^ 25.
Proof.
  intros Hcf Hb. destruct (encode_block_full_ok cf blk idx crc Hcf Hb) as [r [E F]].
  exists r. split; [exact E|].
  pose proof (ef_aligned _ _ _ _ _ F) as A. pose proof (ef_small _ _ _ _ _ F) as S.
  rewrite A in S. change (2 ^ 28) with (8 * 2 ^ 25) in S. apply N.mul_lt_mono_pos_l in S; [exact S|reflexivity].
Qed.

Lemma write_table_walk pad lens :
  write_table pad lens = put 5 (table_start pad lens) ++ write_deltas (table_start pad lens) lens /\
  length (write_deltas (table_start pad lens) lens) = (2 * length (delta_walk (table_start pad lens) lens) + length lens)%nat.
Proof. split; [reflexivity|apply delta_walk_length]. Qed.

Lemma delta_walk_range : forall lens cur, 1 <= cur <= 20 -> Forall (fun l => 1 <= l <= 20) lens ->
  Forall (fun a => 1 <= a <= 20) (delta_walk cur lens).
Proof.
  induction lens as [|c r IH]; intros cur Hc H; [constructor|].
  inversion H as [|? ? H1 H2]; subst. cbn [delta_walk]. apply Forall_app. split; [|apply IH; assumption].
  destruct (N.ltb_spec cur c); apply Forall_forall; intros a Ha; apply in_map_iff in Ha; destruct Ha as [i [<- Hi]];
    apply in_seq in Hi; lia.
Qed.

Theorem table_walk_range pad lens : pad <= 3 -> lens <> [] -> Forall (fun l => 1 <= l <= 20) lens ->
  Forall (fun a => 1 <= a <= 20) (table_walk pad lens).
Proof.
  intros Hp Hne H. destruct lens as [|l0 r]; [contradiction|]. inversion H as [|? ? H0 _]; subst.
  assert (Hs : 1 <= table_start pad (l0 :: r) <= 20).
  { unfold table_start. cbn [hd]. destruct (N.ltb_spec l0 4); lia. }
  unfold table_walk. constructor; [exact Hs|]. apply delta_walk_range; assumption.
Qed.

Theorem encode_block_walks cf blk idx crc : 1 <= cf -> block_ok blk ->
  exists w, encode_block cf blk idx crc = EOk w /\
    forall i lens, nth_error (w_tables w) i = Some lens ->
      Forall (fun a => 1 <= a <= 20) (table_walk (if (i =? 0)%nat then w_pad w else 0) lens).
Proof.
  intros Hcf Hb. destruct (encode_block_full_ok cf blk idx crc Hcf Hb) as [r [E F]].
  exists (e_wit r). unfold encode_block. rewrite E. split; [reflexivity|]. intros i lens Hi.
  destruct F as [[_ Gok] Ew Hp _ _ _ _ _ _ _]. rewrite Ew in Hi. cbn [w_tables] in Hi.
  pose proof (go_tabs _ _ Gok) as T. rewrite forallb_forall in T. specialize (T lens (nth_error_In _ _ Hi)).
  apply table_ok_spec in T. destruct T as [L [R _]].
  destruct (blk_syms_input_ok blk ltac:(apply Hb) ltac:(apply Hb) ltac:(apply Hb)) as [_ Has].
  rewrite <- enc_syms_blk_syms in Has. rewrite Has, Nat2N.id in L.
  apply table_walk_range; [destruct (i =? 0)%nat; [exact Hp|lia]| |exact R].
  intro Z. rewrite Z in L. cbn [length] in L. lia.
Qed.

Definition block_crc (x : list N) : N := N.lxor (crc_bytes mask32 x) mask32.

(* one block of input and its BWT primary index: everything else is computed *)
Definition enc_input_ok (level : N) (x : list N) (idx : N) : Prop :=
  Forall (fun b => b < 256) x /\ x <> [] /\ N.of_nat (length (RleModel.rle1 x)) <= 100000 * level /\
  valid_idxb (RleModel.rle1 x) idx = true.

Definition encoded (cf : N) (xi : list N * N) (w : witness) : Prop :=
  encode_block cf (RleModel.rle1 (fst xi)) (snd xi) (block_crc (fst xi)) = EOk w.

Lemma encoded_exists cf level x idx : 1 <= cf -> 1 <= level <= 9 -> enc_input_ok level x idx ->
  exists w, encoded cf (x, idx) w /\ block_rel level w x /\ (length (write_block w) mod 8 = 0)%nat.
Proof.
  intros Hcf Hl [Hx [Hne [Hlen Hidx]]].
  assert (HM : 100000 * level <= MAX_BLOCK_SIZE) by (change MAX_BLOCK_SIZE with 900000; lia).
  destruct (encode_block_witness_ok cf (100000 * level) (RleModel.rle1 x) idx (block_crc x) Hcf HM
              (RleInvProofs.rle1_nonempty x Hne) Hlen (RleInvProofs.rle1_bytes x Hx) Hidx (block_crc_lt32 x))
    as [w [E [Wok [Wb Wc]]]].
  exists w. split; [exact E|]. split; [repeat split; assumption|].
  destruct (encode_block_aligned cf (RleModel.rle1 x) idx (block_crc x) Hcf) as [r [Er [_ [_ A]]]].
  { split; [apply RleInvProofs.rle1_nonempty; exact Hne|]. split; [lia|apply RleInvProofs.rle1_bytes; exact Hx]. }
  unfold encoded, encode_block in E. cbn [fst snd] in E. rewrite Er in E. inversion E; subst. exact A.
Qed.

Lemma write_stream_aligned level ws : Forall (fun w => (length (write_block w) mod 8 = 0)%nat) ws ->
  (length (write_stream level ws) mod 8 = 0)%nat.
Proof.
  intro H. unfold write_stream. rewrite !app_length, !put_length.
  assert (B : (length (flat_map write_block ws) mod 8 = 0)%nat).
  { induction H as [|w r Hw _ IH]; [reflexivity|]. cbn [flat_map]. rewrite app_length.
    rewrite Nat.add_mod by discriminate. rewrite Hw, IH. reflexivity. }
  apply Nat.mod_divides in B; [|discriminate]. destruct B as [k ->].
  replace (24 + (8 + (8 * k + (48 + 32))))%nat with ((k + 14) * 8)%nat by lia. apply Nat.mod_mul. discriminate.
Qed.

Theorem enc_stream_total : forall cf level (xs : list (list N)) (idxs : list N),
  1 <= cf -> 1 <= level <= 9 -> Forall2 (enc_input_ok level) xs idxs ->
  exists ws,
    Forall2 (encoded cf) (combine xs idxs) ws /\
    Forall (fun w => w_pad w <= 3 /\ (length (write_block w) mod 8 = 0)%nat) ws /\
    pad_to_byte (write_stream level ws) = write_stream level ws /\
    lbz_decode (bytes_of_bits (write_stream level ws)) = Prog.Ok (concat xs) /\
    ref_noexc_decode (bytes_of_bits (write_stream level ws)) = Prog.Ok (concat xs) /\
    ref_decode (bytes_of_bits (write_stream level ws)) = Prog.Ok (concat xs).
Proof.
  intros cf level xs idxs Hcf Hl HF.
  assert (E : exists ws, Forall2 (encoded cf) (combine xs idxs) ws /\ Forall2 (block_rel level) ws xs /\
              Forall (fun w => (length (write_block w) mod 8 = 0)%nat) ws).
  { induction HF as [|x idx xs' idxs' H1 _ IH].
    - exists []. repeat split; constructor.
    - destruct IH as [ws [A [B C]]]. destruct (encoded_exists cf level x idx Hcf Hl H1) as [w [Ew [Rw Aw]]].
      exists (w :: ws). cbn [combine]. repeat split; constructor; assumption. }
  destruct E as [ws [A [B C]]]. exists ws. split; [exact A|].
  assert (Hpad : pad_to_byte (write_stream level ws) = write_stream level ws).
  { unfold pad_to_byte. rewrite (write_stream_aligned level ws C). cbn [Nat.sub Nat.modulo repeat].
    replace ((8 - 0) mod 8)%nat with 0%nat by reflexivity. cbn [repeat]. apply app_nil_r. }
  split.
  - apply Forall_forall. intros w Hw. split.
    + apply (witness_ok_spec (100000 * level)).
      clear - B Hw. induction B as [|w' x' ws' xs' Hwx _ IH]; [destruct Hw|].
      destruct Hw as [<-|Hw]; [apply Hwx|apply IH; exact Hw].
    + rewrite Forall_forall in C. apply C. exact Hw.
  - split; [exact Hpad|]. rewrite <- Hpad.
    split; [apply stream_roundtrip_lbz; assumption|]. apply stream_strict_both; assumption.
Qed.

Print Assumptions encode_block_full_ok.
Print Assumptions encode_block_walks.
Print Assumptions enc_stream_total.
