(* Proofs about Enc/GenModel.v: the exact model of make_code_lengths() is an admissible instance of the
   parameter [mcl] of gen_witness_ok: it keeps the length of the row it is given and all its error values are
   its own (GMcl ..).  That it never returns an error value on the inputs generate_prefix_code() gives it (the
   Huffman tree is at most MAX_HUFF_CODE_LENGTH = 30 deep because the frequencies sum to at most ~900000 - the
   Fibonacci argument of the comment at encode.c l.55 - and the queue discipline of build_tree) is
   Enc/GenMclTotal.v. *)
From Coq Require Import List NArith Arith Bool.
From LBZ Require Import Gen.Consts Enc.PmBasics Enc.GenModel Enc.GenEm.
Import ListNotations.
Local Open Scope N_scope.

Definition mcl_only {A} (x : gres A) : Prop := match x with GOk _ => True | GErr e => is_mcl_err e end.

Lemma mo_ok {A} (a : A) : mcl_only (GOk a). Proof. exact I. Qed.
Lemma mo_err {A} m : mcl_only (@GErr A (GMcl m)). Proof. exists m. reflexivity. Qed.
Lemma mo_bind {A B} (x : gres A) (f : A -> gres B) : mcl_only x -> (forall a, mcl_only (f a)) -> mcl_only (gbind x f).
Proof. destruct x as [a|e]; cbn [gbind]; intros H1 H2; [apply H2|exact H1]. Qed.
Lemma mo_mrd id l i : mcl_only (mrd id l i).
Proof. unfold mrd. destruct (nth_error l i); [apply mo_ok|apply mo_err]. Qed.
Lemma mo_mwr id l i v : mcl_only (mwr id l i v).
Proof. unfold mwr. destruct (i <? length l)%nat; [apply mo_ok|apply mo_err]. Qed.

Ltac mo_step :=
  first [ apply mo_ok | apply mo_err | apply mo_mrd | apply mo_mwr
        | apply mo_bind; [|intros ?]
        | match goal with
          | |- mcl_only (if ?c then _ else _) => destruct c
          | |- mcl_only (match ?x with pair _ _ => _ end) => destruct x
          end ].

Lemma mo_bt_loop t : forall W V r s, mcl_only (bt_loop t W V r s).
Proof. induction t as [|t IH]; intros W V r s; cbn [bt_loop]; repeat first [apply IH | mo_step]. Qed.

Lemma mo_cd_inner fuel : forall V node depth avail used, mcl_only (cd_inner fuel V node depth avail used).
Proof. induction fuel as [|f IH]; intros; cbn [cd_inner]; repeat first [apply IH | mo_step]. Qed.

Lemma mo_cd_outer n : forall as_ V count node depth avail, mcl_only (cd_outer n as_ V count node depth avail).
Proof. induction n as [|n IH]; intros; cbn [cd_outer]; repeat first [apply mo_cd_inner | apply IH | mo_step]. Qed.

Lemma mo_compute_depths V as_ : mcl_only (compute_depths V as_).
Proof. unfold compute_depths. repeat first [apply mo_cd_outer | mo_step]. Qed.

Lemma mo_gl_inner fuel : forall W len i k d, mcl_only (gl_inner fuel W len i k d).
Proof. induction fuel as [|f IH]; intros; cbn [gl_inner]; repeat first [apply IH | mo_step]. Qed.

Lemma mo_gl_outer n : forall as_ W count len i c d, mcl_only (gl_outer n as_ W count len i c d).
Proof. induction n as [|n IH]; intros; cbn [gl_outer]; repeat first [apply mo_gl_inner | apply IH | mo_step]. Qed.

Lemma mo_make_code_lengths old f : mcl_only (make_code_lengths old f).
Proof.
  unfold make_code_lengths. repeat first [apply mo_bt_loop | apply mo_compute_depths | apply mo_gl_outer | mo_step].
Qed.

Lemma gbind_ok {A B} (x : gres A) (f : A -> gres B) b : gbind x f = GOk b -> exists a, x = GOk a /\ f a = GOk b.
Proof. destruct x as [a|e]; cbn [gbind]; intro H; [exists a; auto|discriminate]. Qed.

Lemma gl_inner_length fuel : forall W len i k d len' i', gl_inner fuel W len i k d = GOk (len', i') -> length len' = length len.
Proof.
  induction fuel as [|f IH]; intros W len i k d len' i' H; cbn [gl_inner] in H.
  - destruct (k =? 0); [inversion H; reflexivity|discriminate].
  - destruct (k =? 0); [inversion H; reflexivity|].
    apply gbind_ok in H. destruct H as [w [_ H]]. cbv zeta in H.
    destruct (MAX_ALPHA_SIZE <? N.land w 65535); [discriminate|].
    apply gbind_ok in H. destruct H as [len1 [E1 H]]. apply IH in H. rewrite H.
    unfold mwr in E1. destruct (_ <? _)%nat; [|discriminate]. inversion E1. apply upd_length.
Qed.

Lemma gl_outer_length n : forall as_ W count len i c d len' i' c',
  gl_outer n as_ W count len i c d = GOk (len', i', c') -> length len' = length len.
Proof.
  induction n as [|n IH]; intros as_ W count len i c d len' i' c' H; cbn [gl_outer] in H.
  - inversion H. reflexivity.
  - apply gbind_ok in H. destruct H as [k [_ H]]. apply gbind_ok in H. destruct H as [[len1 i1] [E1 H]].
    apply IH in H. rewrite H. eapply gl_inner_length; eauto.
Qed.

Lemma make_code_lengths_length old f l : make_code_lengths old f = GOk l -> length l = length old.
Proof.
  unfold make_code_lengths. intro H. destruct (_ || _); [discriminate|].
  apply gbind_ok in H. destruct H as [[[[W V] r] s] [_ H]].
  destruct (negb (r =? 2)%nat); [discriminate|]. destruct (negb (s =? 0)%nat); [discriminate|].
  apply gbind_ok in H. destruct H as [count [_ H]]. apply gbind_ok in H. destruct H as [[[len i] c] [E H]].
  destruct (negb (c =? _)); [discriminate|]. destruct (negb (i =? _)%nat); [discriminate|]. inversion H; subst.
  eapply gl_outer_length; eauto.
Qed.

Theorem make_code_lengths_wf : mcl_wf is_mcl_err make_code_lengths.
Proof.
  split.
  - exact make_code_lengths_length.
  - intros old f e H. pose proof (mo_make_code_lengths old f) as M. rewrite H in M. exact M.
Qed.
