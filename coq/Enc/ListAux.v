(* List facts shared by the encoder-stage proofs: strongly sorted lists, flat_map, and moving an element of a list
   to its front (the step of both move-to-front coders: the selectors and the MTF values). *)
From Coq Require Import List NArith Lia Sorted Permutation.
From LBZ Require Import Enc.EncModel.
Import ListNotations.
Local Open Scope N_scope.

Lemma map_flat_map : forall (A B C : Type) (f : B -> C) (g : A -> list B) l,
  map f (flat_map g l) = flat_map (fun x => map f (g x)) l.
Proof.
  induction l as [|a l IH]; cbn [flat_map map]; auto. rewrite map_app, IH. reflexivity.
Qed.

Lemma flat_map_ext_in : forall {A B : Type} (f g : A -> list B) l,
  (forall a, In a l -> f a = g a) -> flat_map f l = flat_map g l.
Proof.
  induction l as [|a l IH]; intros H; cbn [flat_map]; auto.
  rewrite H by (left; auto). rewrite IH; auto. intros; apply H; right; auto.
Qed.

Section Sorted.
  Variable A : Type.
  Variable le : A -> A -> Prop.

  Lemma sorted_perm_eq : (forall a b, le a b -> le b a -> a = b) -> forall l1 l2,
    StronglySorted le l1 -> StronglySorted le l2 -> Permutation l1 l2 -> l1 = l2.
  Proof.
    intro le_antisym. induction l1 as [|a l1 IH]; intros l2 S1 S2 HP.
    - apply Permutation_nil in HP. auto.
    - destruct l2 as [|b l2]; [apply Permutation_sym, Permutation_nil in HP; discriminate|].
      apply StronglySorted_inv in S1. destruct S1 as [S1 F1].
      apply StronglySorted_inv in S2. destruct S2 as [S2 F2].
      assert (Hab : a = b).
      { assert (Ia : In a (b :: l2)) by (eapply Permutation_in; [exact HP|left; reflexivity]).
        assert (Ib : In b (a :: l1)) by (eapply Permutation_in; [apply Permutation_sym; exact HP|left; reflexivity]).
        destruct Ia as [Ia|Ia]; [auto|]. destruct Ib as [Ib|Ib]; [auto|].
        rewrite Forall_forall in F1, F2. apply le_antisym; auto. }
      subst b. f_equal. apply IH; auto. eapply Permutation_cons_inv; eauto.
  Qed.

  Lemma SS_app : forall l1 l2, StronglySorted le l1 -> StronglySorted le l2 ->
    (forall a b, In a l1 -> In b l2 -> le a b) -> StronglySorted le (l1 ++ l2).
  Proof.
    induction l1 as [|a l1 IH]; intros l2 S1 S2 H; cbn [app]; auto.
    apply StronglySorted_inv in S1. destruct S1 as [S1 F1].
    constructor.
    - apply IH; auto. intros; apply H; auto. right; auto.
    - apply Forall_app. split; auto. apply Forall_forall. intros b Hb. apply H; auto. left; auto.
  Qed.

  Lemma SS_filter : forall (f : A -> bool) l, StronglySorted le l -> StronglySorted le (filter f l).
  Proof.
    induction l as [|a l IH]; intros S; cbn [filter]; auto.
    apply StronglySorted_inv in S. destruct S as [S F].
    destruct (f a); auto. constructor; auto.
    rewrite Forall_forall in *. intros x Hx. apply filter_In in Hx. apply F, Hx.
  Qed.

  Lemma SS_map_in : forall (g : A -> A) l,
    (forall a b, In a l -> In b l -> le a b -> le (g a) (g b)) ->
    StronglySorted le l -> StronglySorted le (map g l).
  Proof.
    induction l as [|a l IH]; intros Hg S; cbn [map]; [constructor|].
    apply StronglySorted_inv in S. destruct S as [S F].
    constructor.
    - apply IH; auto. intros; apply Hg; auto; right; auto.
    - rewrite Forall_forall in *. intros y Hy. apply in_map_iff in Hy. destruct Hy as [x [<- Hx]].
      apply Hg; auto; [left; auto|right; auto].
  Qed.
End Sorted.

Lemma SS_lt_of_nat_seq : forall n a, StronglySorted N.lt (map N.of_nat (seq a n)).
Proof.
  induction n as [|n IH]; intros a; cbn [seq map]; constructor; auto.
  apply Forall_forall. intros y Hy. apply in_map_iff in Hy. destruct Hy as [i [<- Hi]].
  apply in_seq in Hi. lia.
Qed.

Lemma StronglySorted_lt_NoDup : forall l, StronglySorted N.lt l -> NoDup l.
Proof.
  induction l as [|x l IH]; intro Hs; [constructor|].
  inversion Hs as [|? ? Hs' Hall]; subst. constructor; [|auto].
  intro Hin. rewrite Forall_forall in Hall. specialize (Hall x Hin). lia.
Qed.

Lemma sorted_same_elems (l1 l2 : list N) :
  StronglySorted N.lt l1 -> StronglySorted N.lt l2 -> (forall x, In x l1 <-> In x l2) -> l1 = l2.
Proof.
  intros S1 S2 H. apply (sorted_perm_eq _ N.lt); [lia|exact S1|exact S2|].
  apply NoDup_Permutation; [apply StronglySorted_lt_NoDup, S1|apply StronglySorted_lt_NoDup, S2|exact H].
Qed.

Definition mtf_move (s : N) (order : list N) : list N :=
  s :: firstn (index_of s order) order ++ skipn (S (index_of s order)) order.

Lemma index_of_lt s l : In s l -> (index_of s l < length l)%nat.
Proof.
  induction l as [|x l IH]; intro H; [destruct H|]. cbn [index_of length].
  destruct (N.eqb_spec x s) as [E|E]; [lia|]. destruct H as [H|H]; [congruence|]. specialize (IH H). lia.
Qed.

Lemma nth_index_of s l d : In s l -> nth (index_of s l) l d = s.
Proof.
  induction l as [|x l IH]; intro H; [destruct H|]. cbn [index_of].
  destruct (N.eqb_spec x s) as [E|E]; [exact E|]. destruct H as [H|H]; [congruence|]. cbn [nth]. apply IH, H.
Qed.

Lemma index_of_app_l s pre suf : In s pre -> index_of s (pre ++ suf) = index_of s pre.
Proof.
  induction pre as [|x pre IH]; intro H; [destruct H|]. cbn [app index_of].
  destruct (N.eqb_spec x s) as [E|E]; [reflexivity|]. destruct H as [H|H]; [congruence|]. f_equal. apply IH, H.
Qed.

Lemma mtf_move_split s l : In s l ->
  exists a b, l = a ++ s :: b /\ mtf_move s l = s :: a ++ b.
Proof.
  intro H. exists (firstn (index_of s l) l), (skipn (S (index_of s l)) l). split; [|reflexivity].
  induction l as [|x l IH]; [destruct H|]. cbn [index_of].
  destruct (N.eqb_spec x s) as [E|E].
  - subst. reflexivity.
  - destruct H as [H|H]; [congruence|]. cbn [firstn skipn app]. f_equal. apply IH, H.
Qed.

Lemma mtf_move_perm s l : In s l -> Permutation (mtf_move s l) l.
Proof.
  intro H. destruct (mtf_move_split s l H) as [a [b [E1 E2]]]. rewrite E2, E1. apply Permutation_middle.
Qed.

Lemma mtf_move_In s l x : In s l -> (In x (mtf_move s l) <-> In x l).
Proof. intro H. split; apply Permutation_in; [|symmetry]; apply mtf_move_perm, H. Qed.

Lemma mtf_move_length s l : In s l -> length (mtf_move s l) = length l.
Proof. intro H. apply Permutation_length, mtf_move_perm, H. Qed.

Lemma mtf_move_NoDup s l : In s l -> NoDup l -> NoDup (mtf_move s l).
Proof. intro H. apply Permutation_NoDup. symmetry. apply mtf_move_perm, H. Qed.
