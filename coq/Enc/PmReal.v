(* C20 - the "real" part of the level sequences: level d has rr d genuine items
   (rr 1 = n, rr (d+1) = n + rr d / 2); within them the rows satisfy the counting identity that gives
   Kraft equality, are non-increasing, and their cost is the total weight taken.  Bounds on all weights. *)
From Coq Require Import List NArith ZArith Arith Bool Lia ZifyBool ZifyNat Sorting.Permutation.
From LBZ Require Import Enc.PmModel Enc.PmIdeal.
Import ListNotations.
Local Open Scope N_scope.

(* number of genuine items of level d *)
Fixpoint rr (n : nat) (d : nat) : nat :=
  match d with
  | O => O
  | S d1 => match d1 with O => n | S _ => (n + rr n d1 / 2)%nat end
  end.

Lemma rr_1 n : rr n 1 = n. Proof. reflexivity. Qed.
Lemma rr_SS n d0 : rr n (S (S d0)) = (n + rr n (S d0) / 2)%nat. Proof. reflexivity. Qed.

Lemma rr_bounds n d1 : (1 <= n)%nat ->
  (n <= rr n (S d1) <= 2 * n - 1)%nat /\ ((2 * n - 1 - rr n (S d1)) * 2 ^ d1 <= n - 1)%nat.
Proof.
  intro Hn. induction d1 as [|d0 [IH1 IH2]].
  - rewrite rr_1. cbn [Nat.pow]. split; lia.
  - rewrite rr_SS. set (r := rr n (S d0)) in *. split; [lia|].
    cbn [Nat.pow]. set (P := (2 ^ d0)%nat) in *.
    assert (E : (2 * (2 * n - 1 - (n + r / 2)) <= 2 * n - 1 - r)%nat) by lia.
    nia.
Qed.

Lemma rr_full n d1 : (1 <= n)%nat -> (n <= 2 ^ S d1)%nat -> (2 * n - 2 <= rr n (S d1))%nat.
Proof.
  intros Hn Hp. destruct (rr_bounds n d1 Hn) as [[H1 H2] H3].
  cbn [Nat.pow] in Hp. set (P := (2 ^ d1)%nat) in *.
  destruct (Nat.le_gt_cases (2 * n - 2) (rr n (S d1))) as [|Hgt]; [assumption|exfalso].
  assert (2 <= 2 * n - 1 - rr n (S d1))%nat by lia. nia.
Qed.

Lemma nth_firstn_N j k (l : list N) : nth j (firstn k l) 0 = if (j <? k)%nat then nth j l 0 else 0.
Proof.
  revert j l; induction k as [|k IH]; intros j l.
  - cbn [firstn]. destruct j; reflexivity.
  - destruct l as [|x l]; cbn [firstn].
    + destruct j; destruct (_ <? _)%nat; reflexivity.
    + destruct j as [|j]; [reflexivity|]. cbn [nth]. rewrite IH.
      replace (S j <? S k)%nat with (j <? k)%nat by (destruct (Nat.ltb_spec j k), (Nat.ltb_spec (S j) (S k)); lia || reflexivity).
      reflexivity.
Qed.

(* sum of the k lightest leaf frequencies; cost of a row = sum over its levels *)
Fixpoint lsum (l : list N) : N := match l with [] => 0 | x :: r => x + lsum r end.
Definition Ssum (xs : list N) (k : nat) : N := lsum (firstn k xs).
Fixpoint Crow (xs : list N) (d : nat) (row : list N) : N :=
  match d with
  | O => 0
  | S d1 => Ssum xs (N.to_nat (hd 0 row)) + Crow xs d1 (tl row)
  end.

Lemma Ssum_S xs k : (k < length xs)%nat -> Ssum xs (S k) = Ssum xs k + leafF xs k.
Proof.
  unfold Ssum, leafF. revert k; induction xs as [|x r IH]; intros k Hk; cbn [length] in Hk; [lia|].
  destruct k as [|k].
  - cbn [firstn lsum nth]. destruct r; cbn [firstn lsum]; lia.
  - change (firstn (S (S k)) (x :: r)) with (x :: firstn (S k) r).
    change (firstn (S k) (x :: r)) with (x :: firstn k r). cbn [lsum nth]. rewrite IH by lia. lia.
Qed.

Lemma Ssum_0 xs : Ssum xs 0 = 0. Proof. reflexivity. Qed.

Lemma lsum_app a b : lsum (a ++ b) = lsum a + lsum b.
Proof. induction a as [|x r IH]; cbn [app lsum]; lia. Qed.

Lemma lsum_perm (a b : list N) : Permutation a b -> lsum a = lsum b.
Proof. induction 1; cbn [lsum]; lia. Qed.

Lemma lsum_firstn_skipn k l : lsum (firstn k l) + lsum (skipn k l) = lsum l.
Proof. rewrite <- lsum_app, firstn_skipn. reflexivity. Qed.

Lemma lsum_firstn_le k l : lsum (firstn k l) <= lsum l.
Proof. pose proof (lsum_firstn_skipn k l). lia. Qed.

Lemma Ssum_le_total xs k : Ssum xs k <= lsum xs.
Proof. apply lsum_firstn_le. Qed.

Lemma In_le_lsum x (l : list N) : In x l -> x <= lsum l.
Proof.
  induction l as [|y r IH]; intro H; [destruct H|]. cbn [lsum].
  destruct H as [->|H]; [lia|]. specialize (IH H). lia.
Qed.

Lemma Crow_S xs d1 row : Crow xs (S d1) row = Ssum xs (N.to_nat (hd 0 row)) + Crow xs d1 (tl row).
Proof. reflexivity. Qed.

Lemma Crow_firstn xs d : forall k row, (d <= k)%nat -> Crow xs d (firstn k row) = Crow xs d row.
Proof.
  induction d as [|d1 IH]; intros k row Hk; [reflexivity|].
  destruct k as [|k]; [lia|]. destruct row as [|x r]; [reflexivity|].
  cbn [firstn]. rewrite !Crow_S. cbn [hd tl]. rewrite IH by lia. reflexivity.
Qed.

Lemma Crow_zeros xs d : forall k, Crow xs d (repeat 0 k) = 0.
Proof.
  induction d as [|d1 IH]; intro k; [reflexivity|].
  rewrite Crow_S. destruct k as [|k]; cbn [repeat hd tl].
  - change (@nil N) with (repeat 0 0). rewrite IH. reflexivity.
  - rewrite IH. reflexivity.
Qed.

Lemma Crow_bound xs d : forall row, Crow xs d row <= N.of_nat d * lsum xs.
Proof.
  induction d as [|d1 IH]; intro row; [cbn; lia|].
  rewrite Crow_S. pose proof (Ssum_le_total xs (N.to_nat (hd 0 row))). specialize (IH (tl row)). lia.
Qed.

Section Real.
Variable xs : list N.
Notation n := (length xs).
Hypothesis Hn : (2 <= n)%nat.
Hypothesis Hs : forall i j, (i <= j)%nat -> (j < n)%nat -> leafF xs i <= leafF xs j.
Notation L := (ilev xs).
Notation El := (ell xs).
Notation Pk := (pk xs).
Notation R := (rr n).

Let IA := inv_all xs Hn Hs.

Lemma Pk_step d1 t : (2 <= t)%nat -> (Pk (S d1) (S t) <= S (Pk (S d1) t))%nat.
Proof. intro Ht. pose proof (El_step xs Hn d1 t Ht). rewrite !Pk_unfold. lia. Qed.

(* within the genuine items a level only takes genuine packages *)
Lemma R1_step d0 :
  (forall t, (2 <= t)%nat -> (R (S d0) <= t)%nat -> El (S d0) t = n) ->
  forall t, (2 <= t)%nat -> (t <= R (S (S d0)))%nat -> (Pk (S (S d0)) t <= R (S d0) / 2)%nat.
Proof.
  intros HW t Ht. induction Ht as [|t Ht IHt]; intro Hle; [rewrite Pk_unfold, El_init; lia|].
  specialize (IHt ltac:(lia)). pose proof (Pk_step (S d0) t Ht) as Hst.
  destruct (Nat.eq_dec (Pk (S (S d0)) t) (R (S d0) / 2)) as [Heq|Hneq]; [|lia].
  pose proof (IA (S d0) t Ht) as I. rewrite rr_SS in Hle.
  destruct (take_cases xs Hn (S d0) t Ht) as [[_ [_ [D0 _]]] | [[_ [E _]] | [_ [_ [_ Hcmp]]]]]; [congruence| |].
  - rewrite !Pk_unfold in *. lia.
  - exfalso. pose proof (inv_t _ _ _ I) as It. pose proof (inv_hi _ _ _ I) as Ihi.
    rewrite Pk_unfold in Heq, Hcmp. destruct Hcmp as [Hcmp|Hcmp]; [lia|].
    set (t2 := (2 * (t - El (S (S d0)) t) + 2)%nat) in *.
    assert (T2 : (2 <= t2)%nat) by (unfold t2; lia).
    assert (F : El (S d0) t2 = n) by (apply HW; unfold t2; lia).
    pose proof (IA d0 t2 T2) as J.
    pose proof (inv_d _ _ _ J) as Jd. pose proof (inv_e1 _ _ _ J) as Je. rewrite F in Jd.
    assert (leafF xs (El (S (S d0)) t) <= leafF xs (n - 1)) by (apply Hs; lia).
    lia.
Qed.

Lemma all_leaves_after_R d1 : forall t, (2 <= t)%nat -> (R (S d1) <= t)%nat -> El (S d1) t = n.
Proof.
  induction d1 as [|d0 IH]; intros t Ht Hle.
  - rewrite rr_1 in Hle. rewrite (El_level1 xs Hn) by assumption. lia.
  - pose proof (rr_bounds n (S d0) ltac:(lia)) as [[B1 B2] _].
    assert (T : (2 <= R (S (S d0)))%nat) by lia.
    pose proof (R1_step d0 IH _ T (Nat.le_refl _)) as P. rewrite Pk_unfold in P.
    pose proof (inv_hi _ _ _ (IA (S d0) _ T)) as Hhi.
    pose proof (inv_hi _ _ _ (IA (S d0) _ Ht)) as Hhi'.
    pose proof (El_mono xs Hn (S d0) _ _ T Hle). rewrite rr_SS in *. lia.
Qed.

Lemma R1 d0 t : (2 <= t)%nat -> (t <= R (S (S d0)))%nat -> (2 * Pk (S (S d0)) t <= R (S d0))%nat.
Proof.
  intros Ht Hle. pose proof (R1_step d0 (all_leaves_after_R d0) t Ht Hle). lia.
Qed.

Lemma level1_real t : (2 <= t)%nat -> (t <= R 1)%nat -> El 1 t = t.
Proof. intros Ht Hle. rewrite rr_1 in Hle. rewrite (El_level1 xs Hn) by assumption. lia. Qed.

Lemma ia_split d t : (2 <= t)%nat -> (1 <= d)%nat -> ia (L d t) = N.of_nat (El d t) :: tl (ia (L d t)).
Proof.
  intros Ht Hd. destruct d as [|d1]; [lia|].
  pose proof (inv_len _ _ _ (IA d1 t Ht)) as Hl. rewrite El_unfold.
  destruct (ia (L (S d1) t)) as [|x r]; [discriminate|]. cbn [hd tl]. f_equal. lia.
Qed.

(* entries at index >= level are zero *)
Lemma row_zeros d1 : forall t j, (2 <= t)%nat -> (S d1 <= j)%nat -> nth j (ia (L (S d1) t)) 0 = 0.
Proof.
  induction d1 as [|d0 IH]; intros t j Ht Hj.
  - rewrite ia_split by lia. destruct j as [|j]; [lia|]. cbn [nth].
    rewrite (inv_h _ _ _ (IA 0 t Ht)). cbn [Nat.leb orb]. apply nth_repeat.
  - rewrite ia_split by lia. destruct j as [|j]; [lia|]. cbn [nth].
    rewrite (inv_h _ _ _ (IA (S d0) t Ht)). cbn [Nat.leb orb].
    destruct (Nat.eqb_spec (Pk (S (S d0)) t) 0) as [Hp|Hp]; [apply nth_repeat|].
    rewrite nth_firstn_N. destruct (j <? MCL)%nat; [|reflexivity].
    replace (S (S d0) - 1)%nat with (S d0) by lia. apply IH; lia.
Qed.

Lemma row_mono d1 : forall t j, (2 <= t)%nat -> nth (S j) (ia (L (S d1) t)) 0 <= nth j (ia (L (S d1) t)) 0.
Proof.
  induction d1 as [|d0 IH]; intros t j Ht.
  - rewrite (row_zeros 0 t (S j)) by lia. lia.
  - rewrite ia_split by lia. cbn [nth].
    pose proof (IA (S d0) t Ht) as I.
    rewrite (inv_h _ _ _ I). cbn [Nat.leb orb].
    destruct (Nat.eqb_spec (Pk (S (S d0)) t) 0) as [Hp|Hp].
    + rewrite nth_repeat. lia.
    + replace (S (S d0) - 1)%nat with (S d0) by lia.
      assert (T2 : (2 <= 2 * Pk (S (S d0)) t)%nat) by lia.
      destruct j as [|j].
      * rewrite nth_firstn_N. destruct (0 <? MCL)%nat; [|lia].
        rewrite (ia_split (S d0)) by lia. cbn [nth].
        pose proof (inv_i _ _ _ I ltac:(lia) ltac:(lia)) as Ii.
        replace (S (S d0) - 1)%nat with (S d0) in Ii by lia. lia.
      * cbn [nth]. rewrite !nth_firstn_N.
        destruct (Nat.ltb_spec (S j) MCL) as [H1|H1]; destruct (Nat.ltb_spec j MCL) as [H2|H2]; try lia.
        apply IH. lia.
Qed.

Fixpoint val (d : nat) (row : list N) : N :=
  match d with
  | O => 0
  | S d1 => hd 0 row * 2 ^ N.of_nat d1 + val d1 (tl row)
  end.

Lemma val_S d1 row : val (S d1) row = hd 0 row * 2 ^ N.of_nat d1 + val d1 (tl row).
Proof. reflexivity. Qed.

Lemma val_firstn d : forall k row, (d <= k)%nat -> val d (firstn k row) = val d row.
Proof.
  induction d as [|d1 IH]; intros k row Hk; [reflexivity|].
  destruct k as [|k]; [lia|]. destruct row as [|x r]; [reflexivity|].
  cbn [firstn val hd tl]. rewrite IH by lia. reflexivity.
Qed.

Lemma val_zeros d : forall k, val d (repeat 0 k) = 0.
Proof.
  induction d as [|d1 IH]; intro k; [reflexivity|].
  destruct k as [|k]; cbn [repeat val hd tl].
  - change (@nil N) with (repeat 0 0). rewrite IH. lia.
  - rewrite IH. lia.
Qed.

Lemma val_identity d1 : (S d1 <= S MCL)%nat -> forall t, (2 <= t)%nat -> (t <= R (S d1))%nat ->
  val (S d1) (ia (L (S d1) t)) = N.of_nat t * 2 ^ N.of_nat d1.
Proof.
  induction d1 as [|d0 IH]; intros Hd t Ht Hle.
  - rewrite ia_split by lia. cbn [val hd tl]. rewrite level1_real by assumption. lia.
  - rewrite ia_split by lia. rewrite val_S. cbn [hd tl].
    pose proof (IA (S d0) t Ht) as I. rewrite (inv_h _ _ _ I). cbn [Nat.leb orb].
    pose proof (inv_t _ _ _ I) as It.
    destruct (Nat.eqb_spec (Pk (S (S d0)) t) 0) as [Hp|Hp].
    + rewrite val_zeros. rewrite Pk_unfold in Hp. replace (El (S (S d0)) t) with t by lia. lia.
    + replace (S (S d0) - 1)%nat with (S d0) by lia.
      rewrite val_firstn by lia.
      rewrite IH; [|lia|lia|apply R1; assumption].
      rewrite Pk_unfold in *. rewrite Nnat.Nat2N.inj_succ, N.pow_succ_r'.
      set (P := 2 ^ N.of_nat d0). nia.
Qed.

(* total weight taken = cost of the row *)
Definition W (d t : nat) : N := Crow xs d (ia (L d t)).

Lemma W_init d1 : W (S d1) 2 = leafF xs 0 + leafF xs 1.
Proof.
  unfold W. rewrite ilev_2. unfold il_init; cbn [ia]. rewrite Crow_S. cbn [hd tl].
  rewrite Crow_zeros. change (N.to_nat 2) with 2%nat.
  rewrite !Ssum_S by lia. rewrite Ssum_0. lia.
Qed.

Lemma W_leaf d1 t : (2 <= t)%nat -> (El (S d1) t < n)%nat -> L (S d1) (S t) = il_leaf xs (L (S d1) t) ->
  ipkg (L (S d1) (S t)) = iprev (L (S d1) t) + iprev (L (S d1) (S t)) /\
  W (S d1) (S t) = W (S d1) t + iprev (L (S d1) (S t)).
Proof.
  intros Ht Hlt E. unfold W. rewrite E. unfold il_leaf; cbn [ia ipkg iprev]. rewrite <- El_unfold.
  split; [reflexivity|].
  rewrite (ia_split (S d1) t) by lia. rewrite !Crow_S. cbn [hd tl].
  replace (N.to_nat (N.of_nat (El (S d1) t) + 1)) with (S (El (S d1) t)) by lia.
  rewrite Nnat.Nat2N.id. rewrite Ssum_S by lia. lia.
Qed.

Lemma W_step d1 : (S d1 <= S MCL)%nat -> forall t, (2 <= t)%nat -> (S t <= R (S d1))%nat ->
  ipkg (L (S d1) (S t)) = iprev (L (S d1) t) + iprev (L (S d1) (S t)) /\
  W (S d1) (S t) = W (S d1) t + iprev (L (S d1) (S t)).
Proof.
  induction d1 as [|d0 IH]; intros Hd t Ht Hle.
  - destruct (take_cases xs Hn 0 t Ht) as [[_ [E' _]] | [[E [_ [Hlt _]]] | [_ [_ [D0 _]]]]]; [|apply W_leaf; assumption|congruence].
    pose proof (level1_real t Ht ltac:(lia)). pose proof (level1_real (S t) ltac:(lia) Hle). lia.
  - destruct (take_cases xs Hn (S d0) t Ht) as [[_ [_ [D0 _]]] | [[E [_ [Hlt _]]] | [E [E' _]]]]; [congruence|apply W_leaf; assumption|].
    pose proof (IA (S d0) t Ht) as I.
    set (p := Pk (S (S d0)) t) in *.
    set (lo := L (S d0) (2 * p + 2)) in *.
    unfold W. rewrite E. unfold il_pkg; cbn [ia ipkg iprev]. split; [reflexivity|].
    rewrite (ia_split (S (S d0)) t) by lia. rewrite !(Crow_S xs (S d0)). cbn [hd tl].
    rewrite Crow_firstn by lia.
    rewrite (inv_h _ _ _ I). cbn [Nat.leb orb]. fold p.
    replace (S (S d0) - 1)%nat with (S d0) by lia.
    (* the package was genuine *)
    assert (Hp1 : (2 * p + 2 <= R (S d0))%nat).
    { pose proof (R1 d0 (S t) ltac:(lia) Hle) as HR. rewrite Pk_unfold, E' in HR.
      pose proof (inv_t _ _ _ I). unfold p. rewrite Pk_unfold. lia. }
    destruct (Nat.eqb_spec p 0) as [Hp|Hp].
    + rewrite Crow_zeros. unfold lo. rewrite Hp. cbn [Nat.mul Nat.add].
      fold (W (S d0) 2). rewrite W_init. rewrite ilev_2. unfold il_init; cbn [ipkg]. lia.
    + rewrite Crow_firstn by lia. unfold lo.
      fold (W (S d0) (2 * p)). fold (W (S d0) (2 * p + 2)).
      replace (2 * p + 2)%nat with (S (S (2 * p))) in * by lia.
      destruct (IH ltac:(lia) (2 * p)%nat ltac:(lia) ltac:(lia)) as [A1 A2].
      destruct (IH ltac:(lia) (S (2 * p))%nat ltac:(lia) ltac:(lia)) as [B1 B2].
      rewrite B2, A2, B1. lia.
Qed.

Lemma pkg_le_W d1 : (S d1 <= S MCL)%nat -> forall t, (2 <= t)%nat -> (t <= R (S d1))%nat ->
  ipkg (L (S d1) t) <= W (S d1) t.
Proof.
  intros Hd t Ht. induction Ht as [|t Ht IHt]; intro Hle.
  - rewrite W_init, ilev_2. unfold il_init; cbn [ipkg]. lia.
  - specialize (IHt ltac:(lia)). destruct (W_step d1 Hd t Ht Hle) as [A1 A2]. rewrite A1, A2.
    pose proof (inv_e1 _ _ _ (IA d1 t Ht)). lia.
Qed.

Lemma leaf_le_w1 e : (e < n)%nat -> leafF xs e <= leafF xs (n - 1).
Proof. intro H. apply Hs; lia. Qed.

(* a level whose packages (if any) come from a level bounded by 2^d1 w1 *)
Lemma tier_level d1 :
  (d1 <> O -> forall t, (2 <= t)%nat -> ipkg (L d1 t) <= 2 ^ N.of_nat d1 * leafF xs (n - 1)) ->
  forall t, (2 <= t)%nat ->
    iprev (L (S d1) t) <= 2 ^ N.of_nat d1 * leafF xs (n - 1) /\
    ipkg (L (S d1) t) <= 2 ^ N.of_nat (S d1) * leafF xs (n - 1).
Proof.
  intros Hlow t Ht. rewrite Nnat.Nat2N.inj_succ, N.pow_succ_r'.
  set (P := 2 ^ N.of_nat d1) in *. set (w1 := leafF xs (n - 1)) in *.
  assert (Hw : w1 <= P * w1) by (pose proof (N.pow_nonzero 2 (N.of_nat d1) ltac:(lia)) as HP; fold P in HP; nia).
  induction Ht as [|t Ht [A B]].
  - rewrite ilev_2. unfold il_init; cbn [ipkg iprev].
    pose proof (leaf_le_w1 0 ltac:(lia)) as L0. pose proof (leaf_le_w1 1 ltac:(lia)) as L1. fold w1 in L0, L1. lia.
  - destruct (take_cases xs Hn d1 t Ht) as [[E _] | [[E [_ [Hlt _]]] | [E [_ [D0 _]]]]]; rewrite E.
    + lia.
    + unfold il_leaf; cbn [ipkg iprev]. rewrite <- El_unfold. pose proof (leaf_le_w1 _ Hlt) as Le. fold w1 in Le. lia.
    + unfold il_pkg; cbn [ipkg iprev]. pose proof (Hlow D0 (2 * Pk (S d1) t + 2)%nat ltac:(lia)). lia.
Qed.

Lemma tier1 d1 : forall t, (2 <= t)%nat ->
  iprev (L (S d1) t) <= 2 ^ N.of_nat d1 * leafF xs (n - 1) /\
  ipkg (L (S d1) t) <= 2 ^ N.of_nat (S d1) * leafF xs (n - 1).
Proof. induction d1 as [|d0 IH]; apply tier_level; [congruence|intros _ t Ht; apply IH, Ht]. Qed.

Lemma w1_le_total : leafF xs (n - 1) <= lsum xs.
Proof. apply In_le_lsum. unfold leafF. apply nth_In. lia. Qed.

(* every package weight that the first 2n-2 takes of a level <= MCL can produce *)
Lemma pkg_bound d1 t : (S d1 <= MCL)%nat -> (2 <= t)%nat -> (t <= 2 * n - 2)%nat ->
  ipkg (L (S d1) t) <= N.of_nat (Nat.max n MCL) * lsum xs.
Proof.
  intros Hd Ht Hle.
  destruct (Nat.le_gt_cases n (2 ^ S d1)) as [Hfull|Hsmall].
  - pose proof (rr_full n d1 ltac:(lia) Hfull) as HR.
    pose proof (pkg_le_W d1 ltac:(lia) t Ht ltac:(lia)) as H1.
    unfold W in H1. pose proof (Crow_bound xs (S d1) (ia (L (S d1) t))) as H2.
    assert (N.of_nat (S d1) <= N.of_nat (Nat.max n MCL)) by lia.
    nia.
  - destruct (tier1 d1 t Ht) as [_ B]. pose proof w1_le_total as Hw.
    assert (E : 2 ^ N.of_nat (S d1) = N.of_nat (2 ^ S d1)) by (rewrite Nnat.Nat2N.inj_pow; reflexivity).
    rewrite E in B.
    assert (N.of_nat (2 ^ S d1) <= N.of_nat (Nat.max n MCL)) by lia.
    nia.
Qed.
End Real.
