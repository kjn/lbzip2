(* C20 - optimality: the code lengths computed by the model of assign_codes() minimise sum f_i * len_i among all
   length vectors with lengths in 1..height whose Kraft sum is at most 1 (height = the height chosen by
   assign_codes; every computed length is <= height). *)
From Coq Require Import List NArith ZArith Arith Bool Lia ZifyBool ZifyNat Sorting.Permutation.
From LBZ Require Import Gen.Consts Dec.Format Enc.EncModel Enc.HuffProofs Enc.PmModel Enc.PmBasics Enc.PmIdeal
  Enc.PmReal Enc.PmRefine Enc.PmAssign Enc.PmProofs Enc.PmOpt Enc.PmCost.
Import ListNotations.
Local Open Scope N_scope.

Lemma dot_as_sum : forall f l, length f = length l ->
  dot f l = lsum (map (fun s => nth s f 0 * nth s l 0) (seq 0 (length f))).
Proof.
  induction f as [|x f IH]; intros [|v l] H; cbn [length] in H; try lia; [reflexivity|].
  cbn [dot length seq map lsum nth]. rewrite <- seq_shift, map_map. cbn [nth]. rewrite <- IH by lia. reflexivity.
Qed.

Lemma dot_reindex n (f lens Fs dl : list N) (sigma : nat -> nat) :
  length f = n -> length lens = n -> length Fs = n -> length dl = n ->
  Permutation (map sigma (seq 0 n)) (seq 0 n) ->
  (forall j, (j < n)%nat -> nth j Fs 0 = nth (sigma j) f 0 /\ nth j dl 0 = nth (sigma j) lens 0) ->
  dot f lens = dot Fs dl.
Proof.
  intros H1 H2 H3 H4 P E.
  rewrite (dot_as_sum f lens) by lia. rewrite (dot_as_sum Fs dl) by lia. rewrite H1, H3.
  rewrite (lsum_perm _ _ (Permutation_map (fun s => nth s f 0 * nth s lens 0) (Permutation_sym P))).
  rewrite map_map. f_equal. apply map_ext_in. intros j Hj. apply in_seq in Hj.
  destruct (E j ltac:(lia)) as [E1 E2]. rewrite E1, E2. reflexivity.
Qed.

(* frequency of the j-th heaviest leaf = frequency of the symbol stored in its low bits *)
Lemma Fof_sorted f j : (length f <= N.to_nat MAX_ALPHA_SIZE)%nat -> (j < length f)%nat ->
  Fof (nth j (sort_desc (labels f)) 0) = nth (symj (make_leaf_weight f) j) f 0.
Proof.
  intros Hm Hj. rewrite symj_idx.
  set (w := nth j (sort_desc (labels f)) 0).
  assert (Hin : In w (labels f)).
  { apply (Permutation_in _ (sort_desc_perm _)). apply nth_In. rewrite sorted_len. exact Hj. }
  apply (In_nth _ _ 0) in Hin. destruct Hin as [j0 [Hj0 E]]. unfold labels in Hj0. rewrite label_from_length in Hj0.
  rewrite <- E. unfold idx. rewrite labels_land by assumption.
  replace (N.to_nat (MAX_ALPHA_SIZE - (MAX_ALPHA_SIZE - N.of_nat j0))) with j0 by lia.
  unfold labels. rewrite label_from_nth by exact Hj0.
  pose proof MAS_lt_2p16 as HM.
  rewrite leaf_label_enc by lia. apply Fof_enc. unfold U32. lia.
Qed.

Lemma rev_xs_of f : rev (xs_of f) = map Fof (sort_desc (labels f)).
Proof. unfold xs_of. rewrite <- map_rev, rev_involutive. reflexivity. Qed.

(* the lengths written through the leaf order: their cost is the dot product with the depth list *)
Lemma dot_writes f dl len : (length f <= N.to_nat MAX_ALPHA_SIZE)%nat -> length dl = length f -> length len = length f ->
  dot f (apply_writes (make_leaf_weight f) (combine (seq 0 (length f)) dl) len) = dot (rev (xs_of f)) dl.
Proof.
  intros Hm Hdl Hlen. set (lw := make_leaf_weight f).
  apply (dot_reindex (length f) _ _ _ _ (symj lw)); try reflexivity.
  - rewrite apply_writes_length. exact Hlen.
  - rewrite rev_length. apply xs_length.
  - exact Hdl.
  - apply sigma_perm; [apply lw_length|apply sym_low; exact Hm|apply sym_lt; exact Hm|apply sym_inj; exact Hm].
  - intros j Hj. split.
    + rewrite rev_xs_of. rewrite (nth_indep _ 0 (Fof 0)) by (rewrite map_length, sorted_len; exact Hj).
      rewrite map_nth. apply Fof_sorted; assumption.
    + symmetry. apply full_writes_nth; auto; [apply lw_length|apply sym_low; exact Hm|apply sym_lt; exact Hm|apply sym_inj; exact Hm].
Qed.

Theorem assign_lengths_optimal f len0 : pm_input_ok f -> length len0 = length f ->
  exists r, assign_lengths len0 f = Ok r /\
    forall lens', length lens' = length f ->
      Forall (fun l => 1 <= l <= N.of_nat (r_height r)) lens' ->
      kraft lens' <= kraft_full ->
      dot f (r_lengths r) <= dot f lens'.
Proof.
  intros Hin Hlen0. pose proof (pm_input_bound f Hin) as HB. destruct Hin as [H2 [Hm [Hf _]]].
  destruct (assign_lengths_ok f H2 Hm Hf HB len0 Hlen0)
    as [r [len1 [E [L1 [B1 [B20 [Bp [EL DL]]]]]]]].
  exists r. split; [exact E|]. intros lens' Hlen' Hrange Hkraft.
  set (n := length f) in *. set (xs := xs_of f) in *. set (h := r_height r) in *.
  set (row := ia (ilev xs h (2 * n - 2))) in *. set (dl := dlist row 1 h) in *.
  set (lw := make_leaf_weight f) in *.
  pose proof (xs_length f) as Hxn. fold xs n in Hxn.
  assert (Hxn2 : (2 <= length xs)%nat) by lia.
  pose proof (xs_sorted f H2 Hm) as Hxs. fold xs in Hxs.
  pose proof (ideal_row_good f H2 Hm HB h B1 B20 Bp) as G. fold xs n row in G.
  (* the cost of the computed lengths is the weight of the first 2n-2 items of level h *)
  assert (A : dot f (r_lengths r) = W xs h (2 * n - 2)).
  { rewrite EL, dot_writes by assumption. unfold W. fold xs row. apply dlist_cost_full.
    - intros i Hi _. apply (g_mono _ _ _ G). exact Hi.
    - apply (g_zero _ _ _ G).
    - rewrite (g_top _ _ _ G), Hxn. lia.
    - rewrite (g_top _ _ _ G), Hxn. reflexivity. }
  rewrite A.
  (* the competitor costs at least the row cost of its level counts, which are feasible *)
  assert (Hasc : asc xs) by (apply asc_of_nth; exact Hxs).
  assert (Pxf : Permutation xs f).
  { etransitivity; [apply (xs_perm f H2 Hm)|]. symmetry. apply Permutation_rev. }
  assert (Hle' : Forall (fun v => v <= N.of_nat h) lens') by (eapply Forall_impl; [|exact Hrange]; cbn beta; intros; lia).
  pose proof (cost_ge_counts xs f lens' h Hasc Pxf (eq_sym Hlen') Hle') as Bc.
  etransitivity; [|exact Bc].
  destruct h as [|d1] eqn:Eh; [lia|].
  apply (level_optimal xs Hxn2 Hxs d1).
  - rewrite MCL_20. lia.
  - lia.
  - rewrite Hxn. apply rr_full; lia.
  - rewrite Hxn, <- Hlen'. apply counts_le.
  - pose proof (kraft_val (S d1) B20 lens' Hrange) as KV. rewrite kraft_ksum in Hkraft.
    unfold kraft_full in Hkraft. rewrite N.shiftl_1_l in Hkraft. rewrite Hlen' in KV. fold n in KV.
    assert (E1 : 2 ^ 20 = 2 ^ N.of_nat (S d1) * 2 ^ N.of_nat (20 - S d1)) by (rewrite <- N.pow_add_r; f_equal; lia).
    rewrite (Nnat.Nat2N.inj_succ d1), N.pow_succ_r' in E1.
    assert (HP : 1 <= 2 ^ N.of_nat (20 - S d1)) by (pose proof (N.pow_nonzero 2 (N.of_nat (20 - S d1))); lia).
    set (P := 2 ^ N.of_nat (20 - S d1)) in *. set (Q := 2 ^ N.of_nat d1) in *.
    set (V := val (S d1) (counts (S d1) lens')) in *. set (K := ksum lens') in *.
    assert (N.of_nat (2 * n - 2) = 2 * N.of_nat n - 2) by lia.
    nia.
Qed.

(* sum over the symbols of frequency times code length *)
Definition pm_cost (freqs lens : list N) : N :=
  fold_left N.add (map (fun p => fst p * snd p) (combine freqs lens)) 0.

Lemma pm_cost_dot f l : pm_cost f l = dot f l.
Proof.
  unfold pm_cost.
  assert (G : forall (c : list (N * N)) a, fold_left N.add (map (fun p => fst p * snd p) c) a =
                                           a + lsum (map (fun p => fst p * snd p) c)).
  { induction c as [|p c IH]; intro a; cbn [map fold_left lsum]; [lia|]. rewrite IH. lia. }
  rewrite G, N.add_0_l. revert l; induction f as [|x f IH]; intros [|v l]; cbn [combine map lsum dot fst snd]; auto.
  rewrite IH. reflexivity.
Qed.

Definition max_len (lens : list N) : N := fold_right N.max 0 lens.

Lemma max_len_le lens b : Forall (fun l => l <= b) lens -> max_len lens <= b.
Proof. induction 1; cbn [max_len fold_right]; [lia|]. fold (max_len l). lia. Qed.

(* C20 for the model: safety, "no code longer than 20 bits", completeness and optimality, for an arbitrary
   initial content of length[0..as-1] (the model's only abstraction of state) *)
Theorem assign_lengths_correct f len0 : pm_input_ok f -> length len0 = length f ->
  exists r, assign_lengths len0 f = Ok r /\
    table_ok (length f) (r_lengths r) = true /\
    forall lens', length lens' = length f ->
      Forall (fun l => 1 <= l <= max_len (r_lengths r)) lens' ->
      kraft lens' <= kraft_full ->
      pm_cost f (r_lengths r) <= pm_cost f lens'.
Proof.
  intros Hin Hl.
  destruct (assign_lengths_complete f len0 Hin Hl) as [r [E [T [B1 [B20 R]]]]].
  destruct (assign_lengths_optimal f len0 Hin Hl) as [r' [E' O]].
  rewrite E in E'. inversion E'; subst r'.
  exists r. split; [exact E|]. split; [exact T|].
  intros lens' Hlen Hrange Hk. rewrite !pm_cost_dot. apply O; auto.
  assert (M : max_len (r_lengths r) <= N.of_nat (r_height r)).
  { apply max_len_le. eapply Forall_impl; [|exact R]. cbn beta. intros; lia. }
  eapply Forall_impl; [|exact Hrange]. cbn beta. intros; lia.
Qed.

Corollary pm_lengths_correct f : pm_input_ok f ->
  exists lens, pm_lengths f = Some lens /\
    table_ok (length f) lens = true /\
    forall lens', length lens' = length f ->
      Forall (fun l => 1 <= l <= max_len lens) lens' ->
      kraft lens' <= kraft_full ->
      pm_cost f lens <= pm_cost f lens'.
Proof.
  intro Hin. destruct (assign_lengths_correct f _ Hin (repeat_length 0 (length f))) as [r [E H]].
  exists (r_lengths r). unfold pm_lengths, pm_lengths_res. rewrite E. split; [reflexivity|exact H].
Qed.

(* the stack of package_merge needs at most MAX_CODE_LENGTH + 1 entries *)
Theorem pm_stack_bound f c : pm_input_ok f -> length c = S MCL ->
  exists s0 s' c', pm_init (make_leaf_weight f) (length f) zero_tree = Ok s0 /\
    pm_widths (length f - 2) (make_leaf_weight f) (N.of_nat (length f)) (set_cnt s0 c) = Ok (set_cnt s' c') /\
    length c' = S MCL.
Proof.
  intros Hin Hc. pose proof (pm_input_bound f Hin) as HB. destruct Hin as [H2 [Hm [Hf _]]].
  apply (package_merge_small_stack f H2 Hm Hf HB ltac:(rewrite MCL_20; lia) c Hc).
Qed.

(* the hypothesis on the sum cannot be weakened to "sum < 2^32": 64-bit package weights then wrap *)
Theorem pm_sum_limit_needed :
  exists f, (2 <= length f)%nat /\ (length f <= N.to_nat MAX_ALPHA_SIZE)%nat /\
            Forall (fun x => x < 2 ^ 32) f /\ lsum f < 2 ^ 32 /\ pm_lengths f = None.
Proof.
  exists [0; 0; 2147483648; 2147483647].
  split; [cbn; lia|]. split; [cbn; lia|]. split; [repeat constructor; cbn; lia|]. split; [cbn; lia|].
  reflexivity.
Qed.
