(* The value RETURNED by the model of assign_codes() (PmModel.assign_lengths, r_cost): for every admissible frequency
   vector with at least 3 entries it is exactly
       5 + as + 2 * sum |length[v-1] - length[v]|  +  sum frequency[v] * length[v]
   over the FINAL lengths (no uint32_t wrap) - the number of bits transmit() needs for the table and for the symbols
   coded with it.  (The C loop evaluates this cost for every admissible height, keeps the minimum and re-derives the
   lengths of the best height afterwards.) *)
From Coq Require Import List NArith ZArith Arith Bool Lia ZifyBool ZifyNat Sorting.Permutation.
From LBZ Require Import Common.ListArr Gen.Consts Dec.Format Enc.EncModel Enc.HuffProofs Enc.PmModel Enc.PmBasics Enc.PmLoop
  Enc.PmIdeal Enc.PmReal Enc.PmRefine Enc.PmAssign Enc.PmProofs Enc.PmOpt Enc.PmCost Enc.PmOptimal.
Import ListNotations.
Local Open Scope N_scope.

Fixpoint sdelta (l : list N) : N :=
  match l with
  | a :: ((b :: _) as r) => (N.max a b - N.min a b) + sdelta r
  | _ => 0
  end.

Definition tree_cost (lens : list N) : N := 5 + N.of_nat (length lens) + 2 * sdelta lens.

Lemma cong_add m a b c : m <> 0 -> a mod m = b mod m -> (a + c) mod m = (b + c) mod m.
Proof. intros Hm H. rewrite <- (N.add_mod_idemp_l a), H, N.add_mod_idemp_l by exact Hm. reflexivity. Qed.

(* one `cost = (cost + x) & MAX32` step of an accumulation whose remaining part adds y *)
Lemma acc_step c c' x y : c' mod U32 = (N.land (c + x) MAX32 + y) mod U32 -> c' mod U32 = (c + (x + y)) mod U32.
Proof.
  intros ->. rewrite N.add_assoc. apply cong_add; [discriminate|]. rewrite land_MAX32. apply N.mod_mod. discriminate.
Qed.

Lemma delta_cost_cons2 a b r cost :
  delta_cost (a :: b :: r) cost = delta_cost (b :: r) (N.land (cost + 2 * (N.max a b - N.min a b)) MAX32).
Proof. reflexivity. Qed.

Lemma sdelta_cons2 a b r : sdelta (a :: b :: r) = (N.max a b - N.min a b) + sdelta (b :: r).
Proof. reflexivity. Qed.

Lemma delta_cost_mod : forall len cost, delta_cost len cost mod U32 = (cost + 2 * sdelta len) mod U32.
Proof.
  induction len as [|a r IH]; intro cost.
  - cbn [delta_cost sdelta]. rewrite N.add_0_r. reflexivity.
  - destruct r as [|b r].
    + cbn [delta_cost sdelta]. rewrite N.add_0_r. reflexivity.
    + rewrite delta_cost_cons2, sdelta_cons2, N.mul_add_distr_l. apply acc_step, IH.
Qed.

Lemma sdelta_bound b : forall l, Forall (fun v => v <= b) l -> sdelta l <= b * N.of_nat (length l).
Proof.
  induction l as [|a r IH]; intro H; [cbn; lia|].
  destruct r as [|c r]; [cbn; lia|].
  inversion H as [|? ? Ha H']; subst. inversion H' as [|? ? Hc _]; subst.
  specialize (IH H'). rewrite sdelta_cons2. cbn [length] in *. lia.
Qed.

Lemma dot_le b : forall f l, Forall (fun v => v <= b) l -> dot f l <= lsum f * b.
Proof.
  induction f as [|x f IH]; intros [|v l] H; cbn [dot lsum]; try lia.
  inversion H; subst. specialize (IH l ltac:(assumption)). nia.
Qed.

Lemma dot_nil_r f : dot f [] = 0.
Proof. destruct f; reflexivity. Qed.

(* [dot] stops at the end of the shorter list, so no length condition is needed *)
Lemma dot_app_r : forall a c d, dot a (c ++ d) = dot a c + dot (skipn (length c) a) d.
Proof.
  induction a as [|x a IH]; intros [|v c] d; try reflexivity.
  cbn [app length skipn dot]. rewrite IH. apply N.add_assoc.
Qed.

(* the frequency field as give_lengths reads it *)
Definition Fq (w : N) : N := N.land (N.shiftr w 32) MAX32.

Section Acc.
Variable lw : list N.
Variable n : nat.

Lemma give_lengths_cost depth : forall avail leaf len cost len' cost' leaf',
  give_lengths avail lw n depth len cost leaf = Ok (len', cost', leaf') ->
  leaf' = (leaf + avail)%nat /\
  cost' mod U32 = (cost + dot (map Fq (skipn (S leaf) lw)) (repeat depth avail)) mod U32.
Proof.
  induction avail as [|a IH]; intros leaf len cost len' cost' leaf' H; cbn [give_lengths] in H.
  - inversion H; subst. cbn [repeat]. rewrite dot_nil_r, N.add_0_r, Nat.add_0_r. split; reflexivity.
  - destruct (leaf <? n)%nat; [|discriminate].
    destruct (rd ALeaf lw (S leaf)) as [w|] eqn:Er; [|discriminate]. cbn [bind] in H. cbv zeta in H.
    destruct (N.land w 65535 <=? MAX_ALPHA_SIZE); [|discriminate].
    destruct (wr ALength len _ depth) as [len1|]; [|discriminate]. cbn [bind] in H.
    apply IH in H. destruct H as [-> H].
    apply (rd_inv _ _ _ _ 0) in Er. destruct Er as [Hlt ->].
    rewrite (skipn_cons_nth lw (S leaf) 0) by exact Hlt. cbn [map repeat dot].
    split; [symmetry; apply Nat.add_succ_r|]. apply acc_step, H.
Qed.

Lemma dlist_S row d1 k : dlist row (S d1) (S k) =
  repeat (N.of_nat (S d1)) (N.to_nat (nth d1 row 0 - nth (S d1) row 0)) ++ dlist row (S (S d1)) k.
Proof. cbn [dlist]. rewrite Nat.sub_succ, Nat.sub_0_r. reflexivity. Qed.

Lemma per_depth_cost row : forall k depth len cost leaf len' cost' leaf',
  per_depth k depth row lw n len cost leaf = Ok (len', cost', leaf') ->
  leaf' = (leaf + length (dlist row depth k))%nat /\
  cost' mod U32 = (cost + dot (map Fq (skipn (S leaf) lw)) (dlist row depth k)) mod U32.
Proof.
  induction k as [|k IH]; intros depth len cost leaf len' cost' leaf' H.
  - cbn [per_depth] in H. inversion H; subst. cbn [dlist length]. rewrite dot_nil_r, N.add_0_r, Nat.add_0_r.
    split; reflexivity.
  - destruct depth as [|d1]; [discriminate|].
    cbn [per_depth] in H.
    destruct (rd ARow row d1) as [hi|] eqn:Ehi; [|discriminate]. cbn [bind] in H.
    destruct (rd ARow row (S d1)) as [lo|] eqn:Elo; [|discriminate]. cbn [bind] in H.
    destruct (lo <=? hi); [|discriminate].
    destruct (give_lengths _ lw n _ len cost leaf) as [[[len1 c1] leaf1]|] eqn:Eg; [|discriminate]. cbn [bind] in H.
    apply give_lengths_cost in Eg. destruct Eg as [-> G].
    apply IH in H. destruct H as [-> H].
    apply (rd_inv _ _ _ _ 0) in Ehi, Elo. destruct Ehi as [_ ->], Elo as [_ ->].
    rewrite dlist_S, app_length, repeat_length, dot_app_r, repeat_length, skipn_map, skipn_add.
    split; [symmetry; apply Nat.add_assoc|].
    rewrite H, N.add_assoc. apply cong_add; [discriminate|exact G].
Qed.
End Acc.

Lemma Fq_shaped w : leaf_shaped w -> Fq w = Fof w.
Proof.
  intros [F [L [-> [HF [HL1 HL2]]]]]. unfold Fq. rewrite land_MAX32, N.shiftr_div_pow2.
  change (2 ^ 32) with U32. fold (Fof (enc F L)). rewrite Fof_enc by (unfold U32; lia).
  apply N.mod_small. exact HF.
Qed.

Lemma val_snoc : forall d row, val (S d) row = 2 * val d row + nth d row 0.
Proof.
  induction d as [|d IH]; intro row.
  - rewrite val_S. cbn [val N.of_nat]. destruct row; cbn [hd nth]; lia.
  - rewrite val_S. rewrite (IH (tl row)). rewrite (val_S d row).
    rewrite (Nnat.Nat2N.inj_succ d), N.pow_succ_r'. destruct row as [|x r]; cbn [hd tl nth]; [destruct d; lia|]. lia.
Qed.

Lemma val_bound nn : forall d row, (forall i, nth i row 0 <= nn) -> val d row + nn <= nn * 2 ^ N.of_nat d.
Proof.
  induction d as [|d IH]; intros row H.
  - cbn [val N.of_nat]. change (2 ^ 0) with 1. lia.
  - rewrite val_snoc. specialize (IH row H). pose proof (H d).
    rewrite (Nnat.Nat2N.inj_succ d), N.pow_succ_r'. lia.
Qed.

(* the first height with as <= 2^height never hits the `break` *)
Lemma top_nonzero n h row : good_row n h row -> (1 <= h)%nat -> (2 ^ (h - 1) < n)%nat -> nth (h - 1) row 0 <> 0.
Proof.
  intros G H1 Hp Z. destruct h as [|d]; [lia|]. replace (S d - 1)%nat with d in * by lia.
  pose proof (g_val _ _ _ G) as V. rewrite val_snoc, Z in V. replace (S d - 1)%nat with d in V by lia.
  assert (B : forall i, nth i row 0 <= N.of_nat n).
  { intro i. induction i as [|i IHi]; [rewrite (g_top _ _ _ G); lia|].
    pose proof (g_mono _ _ _ G (S i) ltac:(lia)) as M. replace (S i - 1)%nat with i in M by lia. lia. }
  pose proof (val_bound (N.of_nat n) d row B) as VB.
  assert (E : N.of_nat (2 ^ d) = 2 ^ N.of_nat d) by (rewrite Nnat.Nat2N.inj_pow; reflexivity).
  assert (N.of_nat (2 ^ d) < N.of_nat n) by lia. nia.
Qed.

Section HeightCost.
Variable f : list N.
Notation n := (length f).
Hypothesis Hn3 : (3 <= n)%nat.
Hypothesis Hnmax : (n <= N.to_nat MAX_ALPHA_SIZE)%nat.
Hypothesis Hf : Forall (fun x => x < U32) f.
Hypothesis HB : MAX_ALPHA_SIZE * lsum f < 2 ^ 32.
Let lw := make_leaf_weight f.
Variable t : list (list N).
Hypothesis Ht : length t = S MCL.
Hypothesis Hgood : forall h, (1 <= h)%nat -> (h <= 20)%nat -> (n <= 2 ^ h)%nat -> good_row n h (nth h t []).

Let Hn2 : (2 <= n)%nat. Proof. lia. Qed.
Let Hlw : length lw = S n := lw_length f.
Let Hlow := sym_low f Hnmax.
Let Hsym := sym_lt f Hnmax.
Let Hinj := sym_inj f Hnmax.

(* the lengths assign_codes derives for height h, and their cost *)
Definition Lc (h : nat) : list N := apply_writes lw (combine (seq 0 n) (dlist (nth h t []) 1 h)) (repeat 0 n).
Definition HC (h : nat) : N := dot f (Lc h) + tree_cost (Lc h).

Lemma writes_indep dl len len' : length dl = n -> length len = n -> length len' = n ->
  apply_writes lw (combine (seq 0 n) dl) len = apply_writes lw (combine (seq 0 n) dl) len'.
Proof.
  intros Hd H1 H2. apply nth_ext with (d := 0) (d' := 0); [rewrite !apply_writes_length; lia|].
  intros s Hs. rewrite apply_writes_length, H1 in Hs.
  pose proof (sigma_perm lw n Hlw Hlow Hsym Hinj) as P.
  assert (Hin : In s (map (symj lw) (seq 0 n))).
  { apply (Permutation_in _ (Permutation_sym P)). apply in_seq. lia. }
  apply in_map_iff in Hin. destruct Hin as [j [<- Hj]]. apply in_seq in Hj.
  rewrite !(full_writes_nth lw n Hlw Hlow Hsym Hinj) by (auto; lia). reflexivity.
Qed.

Section OneHeight.
Variable h : nat.
Hypothesis H1 : (1 <= h)%nat.
Hypothesis H20 : (h <= 20)%nat.
Hypothesis Hp : (n <= 2 ^ h)%nat.

Let dl := dlist (nth h t []) 1 h.
Let Hdl : length dl = n.
Proof. apply (good_dlist_length n h _ (Hgood h H1 H20 Hp) H1 H20 ltac:(lia) MCL_20). Qed.

Lemma Lc_length : length (Lc h) = n.
Proof. unfold Lc. rewrite apply_writes_length. apply repeat_length. Qed.

Lemma Lc_perm : Permutation (Lc h) dl.
Proof. unfold Lc. apply full_writes_perm; auto. apply repeat_length. Qed.

Lemma Lc_range : Forall (fun l => 1 <= l <= N.of_nat h) (Lc h).
Proof.
  apply Forall_forall. intros l Hl. apply (Permutation_in _ Lc_perm) in Hl.
  pose proof (dlist_range (nth h t []) h 1) as DR. rewrite Forall_forall in DR. specialize (DR l Hl). lia.
Qed.

(* the accumulated frequency * depth sum is the dot product with the final lengths *)
Lemma D_eq : dot (map Fq (skipn 1 lw)) dl = dot f (Lc h).
Proof.
  assert (E : map Fq (skipn 1 lw) = rev (xs_of f)).
  { unfold lw, make_leaf_weight. cbn [skipn]. fold (labels f).
    rewrite rev_xs_of. apply map_ext_in. intros w Hw.
    pose proof (sorted_shaped f Hnmax Hf) as S. rewrite Forall_forall in S. apply Fq_shaped. apply S. exact Hw. }
  rewrite E. symmetry. apply dot_writes; [exact Hnmax|exact Hdl|apply repeat_length].
Qed.

Lemma HC_bound2 : HC h <= 20 * lsum f + 10583.
Proof.
  unfold HC, tree_cost. rewrite Lc_length.
  assert (R : Forall (fun v => v <= 20) (Lc h)).
  { eapply Forall_impl; [|apply Lc_range]. cbn beta. intros; lia. }
  pose proof (dot_le 20 f (Lc h) R) as B1. pose proof (sdelta_bound 20 (Lc h) R) as B2. rewrite Lc_length in B2.
  pose proof Hnmax as Hnm. clear - Hnm B1 B2.
  rewrite MAS_258 in Hnm. lia.
Qed.

Lemma HC_bound : HC h < MAX32.
Proof.
  pose proof HC_bound2 as B. pose proof HB as HB'. clear - B HB'.
  change MAX_ALPHA_SIZE with 258 in HB'. change (2 ^ 32) with 4294967296 in HB'.
  change MAX32 with 4294967295. lia.
Qed.

Lemma height_cost_val len : length len = n ->
  height_cost h (nth h t []) lw n len = Ok (Lc h, HC h, n).
Proof.
  intro Hlen. unfold height_cost.
  destruct (row_lengths_ok f Hn2 Hnmax t Ht Hgood h len 0 H1 H20 Hp Hlen) as [c [E _]].
  fold lw in E. fold dl in E. rewrite E. cbn [bind].
  apply per_depth_cost in E. destruct E as [_ E]. fold dl in E. rewrite N.add_0_l, D_eq in E.
  rewrite (writes_indep dl len (repeat 0 n) Hdl Hlen (repeat_length _ _)).
  change (apply_writes lw (combine (seq 0 n) dl) (repeat 0 n)) with (Lc h).
  f_equal. f_equal. f_equal.
  rewrite land_MAX32, <- (N.mod_small (HC h) U32) by (apply (N.lt_trans _ _ _ HC_bound); reflexivity).
  unfold HC, tree_cost. rewrite Lc_length, (N.add_comm (5 + N.of_nat n)), !N.add_assoc.
  do 2 (apply cong_add; [discriminate|]). rewrite delta_cost_mod. apply cong_add; [discriminate|exact E].
Qed.
End OneHeight.

Definition hinv (bc : N) (bh : nat) : Prop := (2 <= bh)%nat /\ (bh <= 20)%nat /\ (n <= 2 ^ bh)%nat /\ bc = HC bh.

(* Until the first height with as <= 2^height the state is the initial one; that height never hits the `break`
   and its cost is below the initial best_cost, so from then on best_cost is the cost of best_height. *)
Lemma heights_inv : forall k height len bc bh len' bc' bh', (height + k = S MCL)%nat -> (2 <= height)%nat ->
  length len = n -> (bc = MAX32 /\ (2 ^ (height - 1) < n)%nat) \/ hinv bc bh ->
  heights_loop k height t lw n len bc bh = Ok (len', bc', bh') -> hinv bc' bh'.
Proof.
  induction k as [|k IH]; intros height len bc bh len' bc' bh' Hk Hh Hlen I H; cbn [heights_loop] in H;
    rewrite MCL_20 in Hk.
  - inversion H; subst. destruct I as [[_ Hlow']|I]; [exfalso|exact I].
    assert (height = 21)%nat by lia. subst height. pose proof Hnmax as Hnm. rewrite MAS_258 in Hnm.
    assert (P9 : (2 ^ 9 <= 2 ^ (21 - 1))%nat) by (apply Nat.pow_le_mono_r; lia).
    change (2 ^ 9)%nat with 512%nat in P9. lia.
  - assert (Hk' : (S height + k = S MCL)%nat) by (rewrite MCL_20; lia).
    destruct (N.shiftl 1 (N.of_nat height) <? N.of_nat n) eqn:Ecmp.
    + apply (IH _ _ _ _ _ _ _ Hk' ltac:(lia) Hlen) in H; [exact H|].
      destruct I as [[Ebc _]|I]; [left|right; exact I]. split; [exact Ebc|].
      replace (S height - 1)%nat with height by lia.
      destruct (Nat.lt_ge_cases (2 ^ height) n) as [L|L]; [exact L|].
      apply (shift_cmp f Hn2 Hnmax t Ht Hgood) in L. rewrite L in Ecmp. discriminate.
    + apply (shift_cmp f Hn2 Hnmax t Ht Hgood) in Ecmp.
      rewrite (rd_ok ATree t height []) in H by (rewrite Ht, MCL_20; lia). cbn [bind] in H.
      pose proof (Hgood height ltac:(lia) ltac:(lia) Ecmp) as G.
      rewrite (rd_ok ARow (nth height t []) (height - 1) 0) in H by (rewrite (g_len _ _ _ G), MCL_20; lia).
      cbn [bind] in H.
      pose proof (HC_bound height ltac:(lia) ltac:(lia) Ecmp) as B.
      assert (Inew : hinv (HC height) height) by (unfold hinv; repeat split; lia || assumption).
      destruct (N.eqb_spec (nth (height - 1) (nth height t []) 0) 0) as [Z|_].
      * inversion H; subst. destruct I as [[_ Hlow']|I]; [|exact I].
        exfalso. exact (top_nonzero n height _ G ltac:(lia) Hlow' Z).
      * rewrite (height_cost_val height ltac:(lia) ltac:(lia) Ecmp len Hlen) in H. cbn [bind] in H.
        assert (L1 : length (Lc height) = n) by (apply Lc_length; lia).
        destruct (N.ltb_spec (HC height) bc) as [Lt|Ge].
        -- apply (IH _ _ _ _ _ _ _ Hk' ltac:(lia) L1) in H; [exact H|right; exact Inew].
        -- apply (IH _ _ _ _ _ _ _ Hk' ltac:(lia) L1) in H; [exact H|right].
           destruct I as [[Ebc _]|I]; [lia|exact I].
Qed.
End HeightCost.

Theorem assign_lengths_cost f len0 r : pm_input_ok f -> (3 <= length f)%nat -> length len0 = length f ->
  assign_lengths len0 f = Ok r ->
  r_cost r = dot f (r_lengths r) + tree_cost (r_lengths r) /\ r_cost r <= 20 * lsum f + 10583.
Proof.
  intros Hin Hn3 Hlen0 H. pose proof (pm_input_bound f Hin) as HB. destruct Hin as [H2 [Hm [Hf HB']]].
  destruct (package_merge_rows f H2 Hm Hf HB ltac:(rewrite MCL_20; lia)) as [s [EP [Wf Rows]]].
  assert (Hgood : forall h, (1 <= h)%nat -> (h <= 20)%nat -> (length f <= 2 ^ h)%nat ->
                            good_row (length f) h (nth h (tree s) [])).
  { intros h H1 H20 Hp. rewrite Rows by (rewrite ?MCL_20; lia). apply ideal_row_good; assumption. }
  pose proof (wf_tree s Wf) as Ht.
  unfold assign_lengths in H. rewrite EP in H. cbn [bind] in H.
  destruct (heights_loop_ok f H2 Hm (tree s) Ht Hgood (MCL - 1) 2 len0 MAX32 MCL
              ltac:(rewrite MCL_20; lia) ltac:(lia) Hlen0) as [len1 [bc [bh [EH [L1 _]]]]].
  rewrite EH in H. cbn [bind] in H.
  pose proof (heights_inv f Hn3 Hm Hf HB' (tree s) Ht Hgood (MCL - 1) 2 len0 MAX32 MCL len1 bc bh
                ltac:(rewrite MCL_20; lia) ltac:(lia) Hlen0 ltac:(left; split; [reflexivity|cbn; lia]) EH)
    as [B2 [B20 [Bp Ebc]]].
  rewrite (rd_ok ATree (tree s) bh []) in H by (rewrite Ht, MCL_20; lia). cbn [bind] in H.
  destruct (row_lengths_ok f H2 Hm (tree s) Ht Hgood bh len1 0 ltac:(lia) B20 Bp L1) as [c [E DL]].
  rewrite E in H. cbn [bind] in H.
  destruct (negb _) in H; [discriminate|]. destruct (negb _) in H; [discriminate|].
  inversion H; subst r. cbn [r_cost r_lengths].
  rewrite (writes_indep f Hn3 Hm HB' (tree s) Ht Hgood _ len1 (repeat 0 (length f)) DL L1 (repeat_length _ _)).
  fold (Lc f (tree s) bh). split; [exact Ebc|].
  rewrite Ebc. apply (HC_bound2 f Hn3 Hm HB' (tree s) Ht Hgood bh); lia || assumption.
Qed.

Print Assumptions assign_lengths_cost.
