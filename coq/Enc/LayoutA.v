(* Reader-after-writer lemmas for the first pieces of the block header:
   fixed-width fields, the in-use bitmap, and the MTF/unary coded selectors. *)
From Coq Require Import List NArith Bool Lia Sorted Permutation.
From LBZ Require Import Common.Bits Common.ListArr Dec.Prog Dec.Sim Dec.Format Dec.CrcProofs Enc.EncModel Enc.ListAux.
Import ListNotations.

Lemma N_of_bits_acc_msb : forall n v acc,
  N_of_bits_acc acc (bits_msb n v) = (acc * 2 ^ N.of_nat n + v mod 2 ^ N.of_nat n)%N.
Proof.
  induction n as [|n IH]; intros v acc.
  - cbn [bits_msb N_of_bits_acc N.of_nat]. rewrite N.pow_0_r, N.mod_1_r. lia.
  - cbn [bits_msb N_of_bits_acc]. rewrite IH.
    rewrite Nat2N.inj_succ, N.pow_succ_r'.
    assert (Hp : (2 ^ N.of_nat n <> 0)%N) by (apply N.pow_nonzero; lia).
    rewrite (N.mul_comm 2 (2 ^ N.of_nat n)).
    rewrite (N.mod_mul_r v (2 ^ N.of_nat n) 2) by (try exact Hp; lia).
    rewrite <- (N.testbit_spec' v (N.of_nat n)).
    destruct (N.testbit v (N.of_nat n)); cbn [N.b2n]; lia.
Qed.

Lemma N_of_bits_msb : forall n v, (v < 2 ^ N.of_nat n)%N -> N_of_bits (bits_msb n v) = v.
Proof.
  intros n v H. unfold N_of_bits. rewrite N_of_bits_acc_msb. rewrite N.mod_small by exact H. lia.
Qed.

Lemma take_put : forall n v rest, (v < 2 ^ N.of_nat n)%N -> run (take n) (put n v ++ rest) = Ok (v, rest).
Proof.
  intros n v rest H. unfold put. rewrite run_take_app0 by apply bits_msb_length.
  rewrite N_of_bits_msb by exact H. reflexivity.
Qed.

Lemma nth_bits_msb16 x j : (j < 16)%nat -> nth j (bits_msb 16 x) false = testbit16 x j.
Proof.
  intro H. unfold testbit16. cbn [bits_msb].
  do 16 (destruct j as [|j]; [reflexivity|]). lia.
Qed.

Lemma testbit16_of_bits bs j : length bs = 16%nat -> (j < 16)%nat ->
  testbit16 (N_of_bits bs) j = nth j bs false.
Proof.
  intros L H. rewrite <- (nth_bits_msb16 _ _ H). rewrite <- L. rewrite bits_msb_N_of_bits. reflexivity.
Qed.

Definition inuse (used : list N) (c : N) : bool := existsb (N.eqb c) used.
Definition cell (i j : nat) : N := (16 * N.of_nat i + N.of_nat j)%N.
Definition smallb (used : list N) (i : nat) : list bool :=
  map (fun j => inuse used (cell i j)) (seq 0 16).
Definition anyb (used : list N) (i : nat) : bool := existsb (fun b : bool => b) (smallb used i).

Lemma write_bitmap_eq used :
  write_bitmap used =
  map (anyb used) (seq 0 16) ++
  flat_map (fun i => if anyb used i then smallb used i else []) (seq 0 16).
Proof. reflexivity. Qed.

Lemma smallb_length used i : length (smallb used i) = 16%nat.
Proof. unfold smallb. rewrite map_length, seq_length. reflexivity. Qed.

Lemma existsb_map_false {A} (g : A -> bool) l :
  existsb (fun b : bool => b) (map g l) = false -> filter g l = [].
Proof.
  induction l as [|x l IH]; cbn [map existsb filter]; intro H; [reflexivity|].
  apply orb_false_iff in H as [H1 H2]. rewrite H1. apply IH, H2.
Qed.

Definition row (used : list N) (i : nat) : list N :=
  map (cell i) (filter (fun j => inuse used (cell i j)) (seq 0 16)).

Lemma read_smalls_run used big rest :
  (forall i, (i < 16)%nat -> testbit16 big i = anyb used i) ->
  forall n i, (i + n = 16)%nat ->
  run (read_smalls big i n)
      (flat_map (fun i => if anyb used i then smallb used i else []) (seq i n) ++ rest)
  = Ok (flat_map (row used) (seq i n), rest).
Proof.
  intros Hbig. induction n as [|n IH]; intros i Hi.
  - reflexivity.
  - change (seq i (S n)) with (i :: seq (S i) n). cbn [read_smalls flat_map]. rewrite Hbig by lia.
    destruct (anyb used i) eqn:E.
    + rewrite <- app_assoc. rewrite run_bind. rewrite run_take_app0 by apply smallb_length.
      rewrite run_bind. rewrite IH by lia. cbn [run]. f_equal. f_equal. f_equal.
      unfold row. change (fun j : nat => (16 * N.of_nat i + N.of_nat j)%N) with (cell i).
      f_equal. apply filter_ext_in. intros j Hj.
      apply in_seq in Hj. rewrite testbit16_of_bits by (try apply smallb_length; lia).
      unfold smallb. apply (nth_map_seq (fun j0 => inuse used (cell i j0))). lia.
    + cbn [app]. rewrite IH by lia. f_equal. f_equal.
      unfold row. unfold anyb, smallb in E. apply existsb_map_false in E. rewrite E. reflexivity.
Qed.

Lemma read_bitmap_run used rest :
  run read_bitmap (write_bitmap used ++ rest) = Ok (flat_map (row used) (seq 0 16), rest).
Proof.
  rewrite write_bitmap_eq. rewrite <- app_assoc. unfold read_bitmap. rewrite run_bind.
  rewrite run_take_app0 by (rewrite map_length, seq_length; reflexivity).
  apply read_smalls_run; [|reflexivity].
  intros i Hi. rewrite testbit16_of_bits by (try (rewrite map_length, seq_length; reflexivity); exact Hi).
  apply (nth_map_seq (anyb used)). exact Hi.
Qed.

Lemma map_filter_comm {A B} (g : A -> B) (f : B -> bool) l :
  map g (filter (fun x => f (g x)) l) = filter f (map g l).
Proof.
  induction l as [|x l IH]; cbn [map filter]; [reflexivity|].
  destruct (f (g x)); cbn [map]; rewrite IH; reflexivity.
Qed.

Lemma flat_map_filter {A B} (f : B -> bool) (h : A -> list B) l :
  flat_map (fun i => filter f (h i)) l = filter f (flat_map h l).
Proof.
  induction l as [|x l IH]; cbn [flat_map]; [reflexivity|].
  rewrite filter_app, IH. reflexivity.
Qed.

Lemma all_cells : flat_map (fun i => map (cell i) (seq 0 16)) (seq 0 16) = map N.of_nat (seq 0 256).
Proof. vm_compute. reflexivity. Qed.

(* what was read is the filter of 0..255 by membership *)
Lemma rows_filter used :
  flat_map (row used) (seq 0 16) = filter (inuse used) (map N.of_nat (seq 0 256)).
Proof.
  rewrite <- all_cells. rewrite <- flat_map_filter. apply flat_map_ext. intro i.
  unfold row. apply map_filter_comm.
Qed.

Lemma inuse_In used c : inuse used c = true <-> In c used.
Proof.
  unfold inuse. rewrite existsb_exists. split.
  - intros [x [Hx E]]. apply N.eqb_eq in E. subst. exact Hx.
  - intro H. exists c. split; [exact H|apply N.eqb_refl].
Qed.

Lemma bitmap_roundtrip : forall used rest,
  StronglySorted N.lt used -> Forall (fun c => (c < 256)%N) used ->
  run read_bitmap (write_bitmap used ++ rest) = Ok (used, rest).
Proof.
  intros used rest Hs Hb. rewrite read_bitmap_run. f_equal. f_equal.
  rewrite rows_filter. apply sorted_same_elems.
  - apply SS_filter, SS_lt_of_nat_seq.
  - exact Hs.
  - intro x. rewrite filter_In, inuse_In. split; [tauto|]. intro Hx. split; [|exact Hx].
    rewrite Forall_forall in Hb. specialize (Hb _ Hx).
    apply in_map_iff. exists (N.to_nat x). split; [apply N2Nat.id|]. apply in_seq. lia.
Qed.

Lemma read_unary_run rest : forall m nt c, (m < nt)%nat ->
  run (read_unary nt c) (repeat true m ++ false :: rest) = Ok ((c + N.of_nat m)%N, rest).
Proof.
  induction m as [|m IH]; intros nt c H; destruct nt as [|nt]; try lia.
  - cbn [repeat app read_unary run N.of_nat]. rewrite N.add_0_r. reflexivity.
  - cbn [repeat app read_unary run]. rewrite IH by lia. f_equal. f_equal. lia.
Qed.

Lemma unary_roundtrip : forall nt k rest, (N.to_nat k < nt)%nat ->
  run (read_unary nt 0) (unary k ++ rest) = Ok (k, rest).
Proof.
  intros nt k rest H. unfold unary. rewrite <- app_assoc. cbn [app].
  rewrite read_unary_run by exact H. rewrite N2Nat.id. reflexivity.
Qed.

Lemma selectors_read : forall nt ks rest, Forall (fun k => (N.to_nat k < nt)%nat) ks ->
  run (repeat_prog (length ks) (read_unary nt 0)) (flat_map unary ks ++ rest) = Ok (ks, rest).
Proof.
  intros nt ks rest H. induction H as [|k ks Hk Hks IH]; [reflexivity|].
  cbn [length repeat_prog flat_map]. rewrite <- app_assoc. rewrite run_bind.
  rewrite unary_roundtrip by exact Hk. rewrite run_bind. rewrite IH. reflexivity.
Qed.

Lemma mtf_encode_sels_cons order s r :
  mtf_encode_sels order (s :: r) = N.of_nat (index_of s order) :: mtf_encode_sels (mtf_move s order) r.
Proof. reflexivity. Qed.

Lemma mtf_sels_pos1 : forall sels order, Forall (fun s => In s order) sels ->
  Forall (fun k => (N.to_nat k < length order)%nat) (mtf_encode_sels order sels).
Proof.
  induction sels as [|s r IH]; intros order H; [constructor|].
  inversion H as [|? ? Hs Hr]; subst. rewrite mtf_encode_sels_cons. constructor.
  - rewrite Nat2N.id. apply index_of_lt, Hs.
  - rewrite <- (mtf_move_length s order Hs). apply IH.
    eapply Forall_impl; [|exact Hr]. intros a Ha. apply mtf_move_In; assumption.
Qed.

(* the invariant behind the second part: the first nt places of the order hold
   exactly the values < nt (so the values >= nt sit untouched behind them) *)
Definition low_front (nt : N) (order : list N) : Prop :=
  exists pre suf, order = pre ++ suf /\ length pre = N.to_nat nt /\ forall s, (s < nt)%N -> In s pre.

Lemma low_front_step nt order s : (s < nt)%N -> low_front nt order ->
  (index_of s order < N.to_nat nt)%nat /\ low_front nt (mtf_move s order).
Proof.
  intros Hs [pre [suf [E [L Hin]]]]. pose proof (Hin s Hs) as Hsp.
  assert (Ei : index_of s order = index_of s pre) by (subst order; apply index_of_app_l, Hsp).
  pose proof (index_of_lt s pre Hsp) as Hlt. split; [lia|].
  exists (mtf_move s pre), suf. split; [|split].
  - unfold mtf_move. rewrite Ei. subst order.
    rewrite firstn_app, skipn_app.
    replace (index_of s pre - length pre)%nat with 0%nat by lia.
    replace (S (index_of s pre) - length pre)%nat with 0%nat by lia.
    cbn [firstn skipn app]. rewrite app_nil_r. rewrite <- app_assoc. reflexivity.
  - rewrite mtf_move_length by exact Hsp. exact L.
  - intros t Ht. apply mtf_move_In; [exact Hsp|]. apply Hin, Ht.
Qed.

Lemma low_front_init nt : (nt <= 6)%N -> low_front nt [0; 1; 2; 3; 4; 5]%N.
Proof.
  intro H. set (k := N.to_nat nt).
  exists (map N.of_nat (seq 0 k)), (map N.of_nat (seq k (6 - k))). split; [|split].
  - rewrite <- map_app. change k with (0 + k)%nat at 2. rewrite <- seq_app.
    replace (k + (6 - k))%nat with 6%nat by lia. reflexivity.
  - rewrite map_length. apply seq_length.
  - intros s Hs. apply in_map_iff. exists (N.to_nat s). split; [apply N2Nat.id|apply in_seq; lia].
Qed.

Lemma mtf_sels_pos2 nt : forall sels order, Forall (fun s => (s < nt)%N) sels -> low_front nt order ->
  Forall (fun k => (N.to_nat k < N.to_nat nt)%nat) (mtf_encode_sels order sels).
Proof.
  induction sels as [|s r IH]; intros order H Hl; [constructor|].
  inversion H as [|? ? Hs Hr]; subst. rewrite mtf_encode_sels_cons.
  destruct (low_front_step nt order s Hs Hl) as [Hi Hl'].
  constructor; [rewrite Nat2N.id; exact Hi|]. apply IH; assumption.
Qed.

Lemma mtf_sels_roundtrip : forall order sels, NoDup order -> Forall (fun s => In s order) sels ->
  unmtf_selectors order (mtf_encode_sels order sels) = sels.
Proof.
  intros order sels. revert order. induction sels as [|s r IH]; intros order Hn H; [reflexivity|].
  inversion H as [|? ? Hs Hr]; subst. rewrite mtf_encode_sels_cons.
  cbn [unmtf_selectors]. unfold mtf_front. rewrite Nat2N.id.
  rewrite (nth_index_of s order 0%N Hs). fold (mtf_move s order). f_equal.
  apply IH; [apply mtf_move_NoDup; assumption|].
  eapply Forall_impl; [|exact Hr]. intros a Ha. apply mtf_move_In; assumption.
Qed.

Print Assumptions N_of_bits_msb.
Print Assumptions take_put.
Print Assumptions bitmap_roundtrip.
Print Assumptions unary_roundtrip.
Print Assumptions selectors_read.
Print Assumptions mtf_sels_roundtrip.
