(* C20 - basic lemmas for the package-merge model (Enc/PmModel.v): error monad, checked accessors,
   binary-fuel iteration, packed 64-bit weights. *)
From Coq Require Import List NArith Arith Bool Lia.
From LBZ Require Import Common.Bits Gen.Consts Enc.PmModel.
Import ListNotations.
Local Open Scope N_scope.

Lemma bind_ok {A B} (x : res A) (f : A -> res B) b :
  bind x f = Ok b -> exists a, x = Ok a /\ f a = Ok b.
Proof. destruct x as [a|e]; cbn [bind]; intro H; [exists a; auto|discriminate]. Qed.

Lemma bind_ok_l {A B} (x : res A) (f : A -> res B) a : x = Ok a -> bind x f = f a.
Proof. intros ->. reflexivity. Qed.

Lemma upd_length {A} (l : list A) i v : length (upd l i v) = length l.
Proof. revert i; induction l as [|x r IH]; intros [|i]; cbn [upd length]; auto. Qed.

Lemma upd_nth_same {A} (l : list A) i v d : (i < length l)%nat -> nth i (upd l i v) d = v.
Proof.
  revert i; induction l as [|x r IH]; intros [|i] H; cbn [upd nth length] in *; try lia; auto.
  apply IH. lia.
Qed.

Lemma upd_nth_other {A} (l : list A) i j v d : i <> j -> nth j (upd l i v) d = nth j l d.
Proof.
  revert i j; induction l as [|x r IH]; intros [|i] [|j] H; cbn [upd nth]; auto; try congruence.
Qed.

Lemma nth_upd {A} (l : list A) i v e d :
  (i < length l)%nat -> nth e (upd l i v) d = if (e =? i)%nat then v else nth e l d.
Proof.
  intro H. destruct (Nat.eqb_spec e i) as [->|Hne].
  - apply upd_nth_same. exact H.
  - apply upd_nth_other. congruence.
Qed.

Lemma rd_ok {A} a (l : list A) i d : (i < length l)%nat -> rd a l i = Ok (nth i l d).
Proof.
  intro H. unfold rd. destruct (nth_error l i) as [x|] eqn:E.
  - f_equal. symmetry. apply nth_error_nth. exact E.
  - apply nth_error_None in E. lia.
Qed.

Lemma rd_inv {A} a (l : list A) i x d : rd a l i = Ok x -> (i < length l)%nat /\ x = nth i l d.
Proof.
  unfold rd. destruct (nth_error l i) as [y|] eqn:E; [|discriminate].
  intro H; inversion H; subst. split.
  - apply nth_error_Some. congruence.
  - symmetry. apply nth_error_nth. exact E.
Qed.

Lemma wr_ok {A} a (l : list A) i v : (i < length l)%nat -> wr a l i v = Ok (upd l i v).
Proof. intro H. unfold wr. destruct (Nat.ltb_spec i (length l)) as [Hlt|Hge]; [reflexivity|lia]. Qed.

Lemma wr_inv {A} a (l : list A) i v l' : wr a l i v = Ok l' -> (i < length l)%nat /\ l' = upd l i v.
Proof. unfold wr. destruct (Nat.ltb_spec i (length l)) as [Hlt|Hge]; [|discriminate]. intro H; inversion H; auto. Qed.

(* unary version of iter2, for proofs only: at most m steps *)
Fixpoint run {X R} (m : nat) (f : X -> res (X + R)) (x : X) : res (X + R) :=
  match m with
  | O => Ok (inl x)
  | S m' => match f x with
            | Ok (inl x') => run m' f x'
            | r => r
            end
  end.

Lemma run_add {X R} (f : X -> res (X + R)) a b x :
  run (a + b) f x = match run a f x with Ok (inl x') => run b f x' | r => r end.
Proof.
  revert x; induction a as [|a IH]; intro x; cbn [run Nat.add]; [reflexivity|].
  destruct (f x) as [[x'|r]|e]; auto.
Qed.

Lemma iter2_run {X R} (f : X -> res (X + R)) k x : iter2 k f x = run (2 ^ k) f x.
Proof.
  revert x; induction k as [|k IH]; intro x.
  - cbn [iter2 Nat.pow run]. destruct (f x) as [[x'|r]|e]; reflexivity.
  - cbn [iter2]. replace (2 ^ S k)%nat with (2 ^ k + 2 ^ k)%nat by (cbn [Nat.pow]; lia).
    rewrite run_add, <- IH. destruct (iter2 k f x) as [[x'|r]|e]; auto.
Qed.

Lemma run_done_mono {X R} (f : X -> res (X + R)) m j x r :
  run m f x = Ok (inr r) -> run (m + j) f x = Ok (inr r).
Proof. intro H. rewrite run_add, H. reflexivity. Qed.

(* a 64-bit weight with frequency field F (top 32 bits) and low part L (low 32 bits) *)
Definition enc (F L : N) : N := F * U32 + L.

Lemma U32_eq : U32 = 2 ^ 32. Proof. reflexivity. Qed.
Lemma U64_eq : U64 = 2 ^ 64. Proof. reflexivity. Qed.
Lemma MAXW_ones : MAXW = N.ones 64. Proof. reflexivity. Qed.
Lemma MAX32_ones : MAX32 = N.ones 32. Proof. reflexivity. Qed.

Lemma land_MAXW x : N.land x MAXW = x mod U64.
Proof. rewrite MAXW_ones, N.land_ones. reflexivity. Qed.

Lemma land_MAX32 x : N.land x MAX32 = x mod U32.
Proof. rewrite MAX32_ones, N.land_ones. reflexivity. Qed.

Lemma enc_lt F L : F < U32 -> L < U32 -> enc F L < U64.
Proof. unfold enc, U32, U64. nia. Qed.

Lemma enc_div F L : L < U32 -> enc F L / U32 = F.
Proof.
  intro H. unfold enc.
  rewrite N.div_add_l by (unfold U32; lia). rewrite N.div_small by exact H. lia.
Qed.

Lemma enc_mod F L : L < U32 -> enc F L mod U32 = L.
Proof.
  intro H. unfold enc. rewrite N.add_comm, N.mod_add by (unfold U32; lia). apply N.mod_small. exact H.
Qed.

Lemma enc_inj F L F' L' : L < U32 -> L' < U32 -> enc F L = enc F' L' -> F = F' /\ L = L'.
Proof.
  intros H H' E. split.
  - rewrite <- (enc_div F L H), <- (enc_div F' L' H'), E. reflexivity.
  - rewrite <- (enc_mod F L H), <- (enc_mod F' L' H'), E. reflexivity.
Qed.

(* comparison of packed weights is lexicographic *)
Lemma enc_le F L F' L' : L < U32 -> L' < U32 -> (enc F L <= enc F' L' <-> F < F' \/ (F = F' /\ L <= L')).
Proof. unfold enc, U32. intros H H'. nia. Qed.

Lemma enc_lt_iff F L F' L' : L < U32 -> L' < U32 -> (enc F L < enc F' L' <-> F < F' \/ (F = F' /\ L < L')).
Proof. unfold enc, U32. intros H H'. nia. Qed.

Lemma depth_field_spec w : depth_field w = ((w / 2 ^ 24) mod 2 ^ 8) * 2 ^ 24.
Proof.
  unfold depth_field.
  replace 4278190080 with (N.shiftl (N.ones 8) 24) by reflexivity.
  apply N.bits_inj. intro k.
  rewrite N.land_spec, <- N.shiftl_mul_pow2, <- N.shiftr_div_pow2, <- N.land_ones.
  destruct (N.ltb_spec k 24) as [Hk|Hk].
  - rewrite !N.shiftl_spec_low by exact Hk. apply andb_false_r.
  - rewrite !N.shiftl_spec_high' by exact Hk.
    rewrite N.land_spec, N.shiftr_spec'. replace (k - 24 + 24) with k by lia.
    reflexivity.
Qed.

Lemma depth_field_enc F L : L < U32 -> depth_field (enc F L) = (L / 2 ^ 24) * 2 ^ 24.
Proof.
  intro H. rewrite depth_field_spec. f_equal. unfold enc.
  replace (F * U32) with (F * 2 ^ 8 * 2 ^ 24) by (unfold U32; lia).
  rewrite N.div_add_l by lia.
  rewrite N.add_comm, N.mod_add by lia. apply N.mod_small.
  apply N.div_lt_upper_bound; [lia|]. unfold U32 in H. lia.
Qed.

(* weight_add on packed weights whose low parts cannot carry into the frequency field *)
Lemma weight_add_enc F1 L1 F2 L2 :
  L1 < 2 ^ 31 -> L2 < 2 ^ 31 -> F1 + F2 < U32 ->
  weight_add (enc F1 L1) (enc F2 L2) = enc (F1 + F2) ((N.max (L1 / 2 ^ 24) (L2 / 2 ^ 24) + 1) * 2 ^ 24).
Proof.
  intros H1 H2 HF. unfold weight_add.
  assert (H1' : L1 < U32) by (unfold U32; lia). assert (H2' : L2 < U32) by (unfold U32; lia).
  rewrite !land_MAXW, N.shiftr_div_pow2, N.shiftl_mul_pow2, <- U32_eq.
  rewrite !depth_field_enc by assumption.
  assert (E : enc F1 L1 + enc F2 L2 = enc (F1 + F2) (L1 + L2)) by (unfold enc; lia).
  rewrite E.
  assert (HL : L1 + L2 < U32) by (unfold U32; lia).
  rewrite (N.mod_small (enc _ _) U64) by (apply enc_lt; assumption).
  rewrite enc_div by exact HL.
  assert (D1 : L1 / 2 ^ 24 < 2 ^ 7) by (apply N.div_lt_upper_bound; lia).
  assert (D2 : L2 / 2 ^ 24 < 2 ^ 7) by (apply N.div_lt_upper_bound; lia).
  set (d1 := L1 / 2 ^ 24) in *. set (d2 := L2 / 2 ^ 24) in *.
  assert (EM : N.max (d1 * 2 ^ 24) (d2 * 2 ^ 24) = N.max d1 d2 * 2 ^ 24) by lia.
  rewrite EM.
  assert (HM : (N.max d1 d2 + 1) * 2 ^ 24 < U32) by (unfold U32; lia).
  replace ((F1 + F2) * U32 + N.max d1 d2 * 2 ^ 24 + 16777216) with (enc (F1 + F2) ((N.max d1 d2 + 1) * 2 ^ 24))
    by (unfold enc; lia).
  apply N.mod_small. apply enc_lt; assumption.
Qed.

Lemma MAS_lt_2p16 : MAX_ALPHA_SIZE < 2 ^ 16.
Proof. reflexivity. Qed.

(* ((uint64_t)f << 32) | 0x10000 | (MAX_ALPHA_SIZE - leaf) *)
Lemma leaf_label_enc f leaf : leaf < MAX_ALPHA_SIZE ->
  leaf_label f leaf = enc f (65536 + (MAX_ALPHA_SIZE - leaf)).
Proof.
  intros Hl. pose proof MAS_lt_2p16 as HM. unfold leaf_label, enc. rewrite N.shiftl_mul_pow2, <- U32_eq.
  unfold U32. change 4294967296 with (2 ^ 32).
  rewrite (lor_disjoint f 32 65536) by lia.
  replace (f * 2 ^ 32 + 65536) with ((f * 2 ^ 16 + 1) * 2 ^ 16) by lia.
  rewrite lor_disjoint by lia. lia.
Qed.
