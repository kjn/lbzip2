(* Round trip of a whole stream: header, blocks (BlockProofs), end-of-stream
   trailer with the combined CRC, zero padding to a byte boundary; decoded by
   the strict-format decoder without lbzip2's two exceptions, hence also by the
   model of lbzip2's own decoder. *)
From Coq Require Import List NArith Arith Bool Lia ZifyNat.
From LBZ Require Rle.RleModel.
From LBZ Require Import Common.Bits Dec.Prog Dec.Sim Dec.Format Dec.Head Dec.Policies Dec.CrcProofs Dec.DecProofs
  Enc.EncModel Enc.EncFacts Enc.LayoutA Enc.BlockProofs.
Import ListNotations.
Local Open Scope N_scope.

Lemma lt_pow2_bits a n : a < 2 ^ n <-> (forall m, n <= m -> N.testbit a m = false).
Proof. split; [apply lt_pow2_testbit | apply testbit_lt_pow2]. Qed.

Lemma mask32_lt : mask32 < 2 ^ 32.
Proof. reflexivity. Qed.

Definition stream_crc (ws : list witness) (cc : N) : N :=
  fold_left (fun cc w => combine_stream_crc cc (w_crc w)) ws cc.

Lemma stream_crc_lt : forall ws cc, cc < 2 ^ 32 -> Forall (fun w => w_crc w < 2 ^ 32) ws -> stream_crc ws cc < 2 ^ 32.
Proof.
  induction ws as [|w r IH]; intros cc Hcc Hall; [exact Hcc|].
  inversion Hall as [|? ? Hw Hr]; subst. cbn [stream_crc fold_left]. apply IH; [|exact Hr].
  apply combine_lt; assumption.
Qed.

Lemma next_stream_short tail : (length tail < 16)%nat -> next_stream (align_drop tail) = None.
Proof.
  intro H. unfold next_stream. rewrite run_take.
  destruct (Nat.ltb_spec (length (align_drop tail)) 16) as [_|L]; [reflexivity|].
  pose proof (align_drop_length tail). lia.
Qed.

Lemma header_bits level : 1 <= level <= 9 ->
  put 24 0x425A68 ++ put 8 (0x30 + level) = put 32 (0x425A6830 + level).
Proof.
  intro H.
  assert (C : level = 1 \/ level = 2 \/ level = 3 \/ level = 4 \/ level = 5 \/ level = 6 \/
              level = 7 \/ level = 8 \/ level = 9) by lia.
  destruct C as [->|[->|[->|[->|[->|[->|[->|[->| ->]]]]]]]]; vm_compute; reflexivity.
Qed.

Lemma magic_lt : block_magic < 2 ^ N.of_nat 48 /\ eos_magic < 2 ^ N.of_nat 48.
Proof. split; reflexivity. Qed.

Lemma decode_from_block_step pol f level ccrc crc body R rb out :
  crc < 2 ^ 32 ->
  run (read_block pol (S (length (put 48 block_magic ++ put 32 crc ++ body ++ R)))) (body ++ R) = Ok (rb, R) ->
  decode_block pol level rb = Ok out ->
  N.lxor (crc_bytes mask32 out) mask32 = crc ->
  decode_from pol (S f) level ccrc (put 48 block_magic ++ put 32 crc ++ body ++ R) =
  match decode_from pol f level (combine_stream_crc ccrc crc) R with
  | Err e => Err e
  | Ok (o, ps) =>
      Ok (out ++ o,
          48%nat :: map (fun p => (length (put 48 block_magic ++ put 32 crc ++ body ++ R) - length R + p)%nat) ps)
  end.
Proof.
  intros Hcrc Hread Hdec Hchk.
  set (bits := put 48 block_magic ++ put 32 crc ++ body ++ R) in *.
  cbn [decode_from]. unfold bits at 1.
  rewrite take_put by apply magic_lt. rewrite N.eqb_refl.
  rewrite take_put by exact Hcrc.
  rewrite Hread, Hdec, Hchk, N.eqb_refl. reflexivity.
Qed.

Lemma decode_from_eos_step pol f level ccrc tail :
  ccrc < 2 ^ 32 -> (length tail < 16)%nat ->
  decode_from pol (S f) level ccrc (put 48 eos_magic ++ put 32 ccrc ++ tail) = Ok ([], [48%nat]).
Proof.
  intros Hcc Ht. cbn [decode_from].
  rewrite take_put by apply magic_lt.
  replace (eos_magic =? block_magic) with false by reflexivity. rewrite N.eqb_refl.
  rewrite take_put by exact Hcc.
  rewrite N.eqb_refl. cbn [negb]. rewrite next_stream_short by exact Ht. reflexivity.
Qed.

Definition block_rel (level : N) (w : witness) (x : list N) : Prop :=
  witness_ok (100000 * level) w = true /\ Forall (fun c => (c < 256)%N) x /\ x <> [] /\
  w_blk w = RleModel.rle1 x /\ w_crc w = N.lxor (crc_bytes mask32 x) mask32.

Lemma write_block_length w : (80 <= length (write_block w))%nat.
Proof. unfold write_block, put. rewrite !app_length, !bits_msb_length. lia. Qed.

Lemma blocks_length : forall ws, (80 * length ws <= length (flat_map write_block ws))%nat.
Proof.
  induction ws as [|w r IH]; [cbn; lia|]. cbn [flat_map length]. rewrite app_length.
  pose proof (write_block_length w). lia.
Qed.

Lemma decode_from_stream level : 1 <= level <= 9 ->
  forall ws xs, Forall2 (block_rel level) ws xs ->
  forall fuel ccrc tail, (length ws < fuel)%nat -> ccrc < 2 ^ 32 -> (length tail < 16)%nat ->
  exists ps,
    decode_from ref_noexc_policy fuel level ccrc
      (flat_map write_block ws ++ put 48 eos_magic ++ put 32 (stream_crc ws ccrc) ++ tail)
    = Ok (concat xs, ps).
Proof.
  intros Hlevel ws xs HF. induction HF as [|w x ws xs Hwx HF IH]; intros fuel ccrc tail Hfuel Hcc Htail.
  - destruct fuel as [|f]; [cbn [length] in Hfuel; lia|].
    cbn [flat_map app stream_crc fold_left concat].
    rewrite decode_from_eos_step by assumption. eexists. reflexivity.
  - destruct fuel as [|f]; [lia|]. cbn [length] in Hfuel.
    destruct Hwx as (Hok & Hx & Hxne & Hblk & Hcrc).
    assert (Hcrc32 : w_crc w < 2 ^ 32).
    { destruct (witness_ok_parts _ _ Hok) as (_ & _ & _ & _ & _ & _ & _ & _ & _ & _ & H). exact H. }
    cbn [flat_map stream_crc fold_left concat]. fold (stream_crc ws (combine_stream_crc ccrc (w_crc w))).
    rewrite <- app_assoc.
    set (R := flat_map write_block ws ++ put 48 eos_magic ++
              put 32 (stream_crc ws (combine_stream_crc ccrc (w_crc w))) ++ tail).
    unfold write_block. rewrite <- !app_assoc.
    destruct (IH f (combine_stream_crc ccrc (w_crc w)) tail ltac:(lia) (combine_lt _ _ Hcc Hcrc32) Htail) as [ps Hps].
    fold R in Hps.
    rewrite (decode_from_block_step ref_noexc_policy f level ccrc (w_crc w) (write_body w) R (raw_of w) x).
    + rewrite Hps. eexists. reflexivity.
    + exact Hcrc32.
    + apply body_roundtrip with (M := 100000 * level); [lia|exact Hok|].
      rewrite app_length. unfold put at 1. rewrite bits_msb_length. rewrite app_length. unfold put at 1.
      rewrite bits_msb_length. lia.
    + apply block_decodes with (M := 100000 * level); auto.
    + symmetry. exact Hcrc.
Qed.

Lemma pad_to_byte_length bits : exists n, length (pad_to_byte bits) = (8 * n)%nat.
Proof.
  unfold pad_to_byte. rewrite app_length, repeat_length.
  exists ((length bits + (8 - length bits mod 8) mod 8) / 8)%nat. lia.
Qed.

Theorem stream_roundtrip : forall level (ws : list witness) (xs : list (list N)),
  (1 <= level <= 9)%N ->
  Forall2 (fun w x => witness_ok (100000 * level) w = true /\ Forall (fun c => (c < 256)%N) x /\ x <> [] /\
                      w_blk w = RleModel.rle1 x /\ w_crc w = N.lxor (crc_bytes mask32 x) mask32) ws xs ->
  ref_noexc_decode (bytes_of_bits (pad_to_byte (write_stream level ws))) = Ok (concat xs).
Proof.
  intros level ws xs Hlevel HF.
  unfold ref_noexc_decode, decode_file, decode_file_info.
  destruct (pad_to_byte_length (write_stream level ws)) as [n Hn].
  rewrite (bits_bytes_bits n _ Hn).
  unfold pad_to_byte. set (k := ((8 - length (write_stream level ws) mod 8) mod 8)%nat).
  assert (Hk : (k < 16)%nat) by (unfold k; lia).
  unfold write_stream. fold (stream_crc ws 0).
  rewrite (app_assoc (put 24 _) (put 8 _)). rewrite header_bits by exact Hlevel.
  rewrite <- !app_assoc.
  unfold decode_bits_info.
  rewrite take_put by (change (2 ^ N.of_nat 32) with 4294967296; lia).
  replace ((0x425A6831 <=? 0x425A6830 + level) && (0x425A6830 + level <=? 0x425A6839)) with true
    by (symmetry; apply andb_true_iff; split; apply N.leb_le; lia).
  replace (0x425A6830 + level - 0x425A6830) with level by lia.
  set (tail := repeat false k).
  destruct (decode_from_stream level Hlevel ws xs HF
              (S (length (flat_map write_block ws ++ put 48 eos_magic ++ put 32 (stream_crc ws 0) ++ tail)))
              0 tail) as [ps Hps].
  - rewrite app_length. pose proof (blocks_length ws). lia.
  - reflexivity.
  - unfold tail. rewrite repeat_length. exact Hk.
  - rewrite Hps. reflexivity.
Qed.

Corollary stream_roundtrip_lbz : forall level (ws : list witness) (xs : list (list N)),
  (1 <= level <= 9)%N ->
  Forall2 (fun w x => witness_ok (100000 * level) w = true /\ Forall (fun c => (c < 256)%N) x /\ x <> [] /\
                      w_blk w = RleModel.rle1 x /\ w_crc w = N.lxor (crc_bytes mask32 x) mask32) ws xs ->
  lbz_decode (bytes_of_bits (pad_to_byte (write_stream level ws))) = Ok (concat xs).
Proof. intros level ws xs Hlevel HF. apply lbz_complete. apply stream_roundtrip; assumption. Qed.

Print Assumptions stream_roundtrip.
Print Assumptions stream_roundtrip_lbz.
