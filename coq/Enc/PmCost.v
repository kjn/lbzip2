(* C20 - list-level cost lemmas for the optimality theorem:
   any length vector costs at least the "row cost" of its level counts ([cost_ge_counts]), and its Kraft sum
   bounds the counting value of those counts ([kraft_val]);
   the depth list of a good row costs exactly the row cost ([dlist_cost_full]). *)
From Coq Require Import List NArith ZArith Arith Bool Lia ZifyBool ZifyNat Sorting.Permutation.
From LBZ Require Import Common.ListArr Enc.HuffProofs Enc.PmIdeal Enc.PmReal Enc.PmAssign.
Import ListNotations.
Local Open Scope N_scope.

(* sum of products *)
Fixpoint dot (f l : list N) : N :=
  match f, l with
  | x :: f', v :: l' => x * v + dot f' l'
  | _, _ => 0
  end.

Lemma lsum_map_add {A} (g1 g2 : A -> N) l :
  lsum (map (fun k => g1 k + g2 k) l) = lsum (map g1 l) + lsum (map g2 l).
Proof. induction l as [|x r IH]; cbn [map lsum]; lia. Qed.

Lemma lsum_map_le {A} (g1 g2 : A -> N) l : (forall k, In k l -> g1 k <= g2 k) -> lsum (map g1 l) <= lsum (map g2 l).
Proof.
  induction l as [|x r IH]; intro H; cbn [map lsum]; [lia|].
  pose proof (H x ltac:(left; reflexivity)). specialize (IH ltac:(intros k Hk; apply H; right; exact Hk)). lia.
Qed.

(* a sub-multiset of the leaves weighs at least as much as the same number of lightest leaves *)
Fixpoint asc (l : list N) : Prop :=
  match l with [] => True | x :: r => (forall y, In y r -> x <= y) /\ asc r end.

Lemma asc_of_nth xs : (forall i j, (i <= j)%nat -> (j < length xs)%nat -> leafF xs i <= leafF xs j) -> asc xs.
Proof.
  induction xs as [|x r IH]; intro H; cbn [asc]; [exact I|]. split.
  - intros y Hy. apply (In_nth _ _ 0) in Hy. destruct Hy as [j [Hj <-]].
    apply (H 0%nat (S j)); cbn [length]; lia.
  - apply IH. intros i j Hij Hj. apply (H (S i) (S j)); cbn [length]; lia.
Qed.

Lemma Ssum_cons x r k : Ssum (x :: r) (S k) = x + Ssum r k.
Proof. reflexivity. Qed.

Lemma Ssum_shift x r : asc (x :: r) -> forall k, (k <= length r)%nat -> Ssum (x :: r) k <= Ssum r k.
Proof.
  revert x. induction r as [|y r' IH]; intros x [Hx Hr] k Hk; cbn [length] in Hk.
  - replace k with 0%nat by lia. cbn. lia.
  - destruct k as [|k]; [cbn; lia|]. rewrite !Ssum_cons.
    pose proof (Hx y ltac:(left; reflexivity)). specialize (IH y Hr k ltac:(lia)). lia.
Qed.

Lemma subset_sum xs : asc xs -> forall g rest, Permutation (g ++ rest) xs -> Ssum xs (length g) <= lsum g.
Proof.
  induction xs as [|x r IH]; intros Ha g rest P.
  - apply Permutation_sym, Permutation_nil in P. apply app_eq_nil in P as [-> _]. cbn. lia.
  - destruct Ha as [Hx Hr].
    destruct (in_dec N.eq_dec x g) as [Hin|Hnin].
    + apply in_split in Hin as [g1 [g2 ->]].
      rewrite <- app_assoc in P. cbn [app] in P.
      apply Permutation_sym, Permutation_cons_app_inv, Permutation_sym in P.
      rewrite app_assoc in P. specialize (IH Hr (g1 ++ g2) rest P).
      rewrite app_length in *. cbn [length]. replace (length g1 + S (length g2))%nat with (S (length g1 + length g2)) by lia.
      rewrite Ssum_cons, !lsum_app in *. cbn [lsum]. lia.
    + assert (Hin : In x rest).
      { assert (In x (g ++ rest)) by (apply (Permutation_in _ (Permutation_sym P)); left; reflexivity).
        apply in_app_or in H as [H|H]; [contradiction|exact H]. }
      apply in_split in Hin as [r1 [r2 ->]].
      rewrite app_assoc in P. apply Permutation_sym, Permutation_cons_app_inv, Permutation_sym in P.
      rewrite <- app_assoc in P. specialize (IH Hr g (r1 ++ r2) P).
      pose proof (Permutation_length P) as PL. rewrite app_length in PL.
      etransitivity; [apply Ssum_shift; [split; assumption|lia]|exact IH].
Qed.

Lemma filter_partition_perm {A} (P : A -> bool) (c : list A) :
  Permutation (filter P c ++ filter (fun a => negb (P a)) c) c.
Proof.
  induction c as [|a r IH]; cbn [filter]; [reflexivity|].
  destruct (P a); cbn [negb app].
  - constructor. exact IH.
  - symmetry. apply Permutation_cons_app. symmetry. exact IH.
Qed.

(* level counts of an arbitrary length vector *)
Definition gtb (k : nat) (v : N) : bool := N.of_nat k <? v.
Definition cg (l : list N) (k : nat) : nat := length (filter (gtb k) l).
Definition sel (k : nat) (f l : list N) : list N := map fst (filter (fun p => gtb k (snd p)) (combine f l)).

(* the competitor row: number of symbols with length > k, for k = 0 .. h-1 *)
Definition counts (h : nat) (l : list N) : list N := map (fun k => N.of_nat (cg l k)) (seq 0 h).

Lemma sel_cons k x f v l : sel k (x :: f) (v :: l) = if gtb k v then x :: sel k f l else sel k f l.
Proof. unfold sel. cbn [combine filter snd]. destruct (gtb k v); reflexivity. Qed.

Lemma cg_cons l v k : cg (v :: l) k = ((if gtb k v then 1 else 0) + cg l k)%nat.
Proof. unfold cg. cbn [filter]. destruct (gtb k v); reflexivity. Qed.

Lemma sel_length k : forall f l, length f = length l -> length (sel k f l) = cg l k.
Proof.
  induction f as [|x f IH]; intros [|v l] H; cbn [length] in H; try lia; [reflexivity|].
  rewrite sel_cons, cg_cons. destruct (gtb k v); cbn [length]; rewrite IH by lia; cbv iota; lia.
Qed.

Lemma sel_perm k f l : length f = length l -> exists rest, Permutation (sel k f l ++ rest) f.
Proof.
  intro H. exists (map fst (filter (fun p => negb (gtb k (snd p))) (combine f l))).
  unfold sel. rewrite <- map_app.
  rewrite <- (map_fst_combine_eq f l H) at 3. apply Permutation_map.
  apply (filter_partition_perm (fun p => gtb k (snd p))).
Qed.

Lemma ind_sum x v h : lsum (map (fun k => if gtb k v then x else 0) (seq 0 h)) = x * N.min v (N.of_nat h).
Proof.
  induction h as [|h IH]; [cbn; lia|].
  rewrite seq_S, map_app, lsum_app, IH. cbn [map lsum Nat.add]. unfold gtb.
  destruct (N.ltb_spec (N.of_nat h) v); [rewrite !N.min_r by lia|rewrite !N.min_l by lia]; nia.
Qed.

Lemma lsum_map_zero {A} (l : list A) : lsum (map (fun _ => 0) l) = 0.
Proof. induction l; cbn [map lsum]; lia. Qed.

(* layer cake: cost = sum over levels of the weight of the symbols deeper than that level *)
Lemma layers h : forall f l, Forall (fun v => v <= N.of_nat h) l ->
  dot f l = lsum (map (fun k => lsum (sel k f l)) (seq 0 h)).
Proof.
  induction f as [|x f IH]; intros l Hl.
  - cbn [dot]. unfold sel. cbn [combine filter map lsum]. rewrite lsum_map_zero. reflexivity.
  - destruct l as [|v l].
    + cbn [dot]. unfold sel. cbn [combine filter map lsum]. rewrite lsum_map_zero. reflexivity.
    + inversion Hl as [|? ? Hv Hl']; subst. cbn [dot]. rewrite (IH l Hl').
      rewrite <- (N.min_l v (N.of_nat h)) at 1 by exact Hv. rewrite <- ind_sum, <- lsum_map_add.
      f_equal. apply map_ext. intro k. rewrite sel_cons. destruct (gtb k v); cbn [lsum]; lia.
Qed.

Fixpoint valf (h k0 : nat) (g : nat -> N) : N :=
  match h with O => 0 | S d => g k0 * 2 ^ N.of_nat d + valf d (S k0) g end.

Lemma val_map h : forall k0 g, val h (map g (seq k0 h)) = valf h k0 g.
Proof. induction h as [|d IH]; intros k0 g; [reflexivity|]. cbn [seq map]. rewrite val_S. cbn [hd tl valf]. rewrite IH. reflexivity. Qed.

Lemma valf_add h : forall k0 g1 g2, valf h k0 (fun k => g1 k + g2 k) = valf h k0 g1 + valf h k0 g2.
Proof. induction h as [|d IH]; intros k0 g1 g2; cbn [valf]; [lia|]. rewrite IH. lia. Qed.

Lemma valf_ext h : forall k0 g1 g2, (forall k, g1 k = g2 k) -> valf h k0 g1 = valf h k0 g2.
Proof. induction h as [|d IH]; intros k0 g1 g2 H; cbn [valf]; [reflexivity|]. rewrite H, (IH _ g1 g2 H). reflexivity. Qed.

(* a symbol of length v (as nat) contributes 2^h - 2^(h-m) where m = number of levels k0..k0+h-1 below v *)
Lemma valf_ind h : forall k0 v, (v <= k0 + h)%nat ->
  valf h k0 (fun k => if (k <? v)%nat then 1 else 0) + 2 ^ N.of_nat (h - (v - k0)) = 2 ^ N.of_nat h.
Proof.
  induction h as [|d IH]; intros k0 v Hv; cbn [valf].
  - cbn. lia.
  - specialize (IH (S k0) v ltac:(lia)).
    destruct (Nat.ltb_spec k0 v) as [Hlt|Hge].
    + replace (S d - (v - k0))%nat with (d - (v - S k0))%nat by lia.
      rewrite (Nnat.Nat2N.inj_succ d), N.pow_succ_r'. lia.
    + replace (v - S k0)%nat with 0%nat in IH by lia. replace (v - k0)%nat with 0%nat by lia.
      rewrite Nat.sub_0_r in *. lia.
Qed.

Lemma Crow_map xs h : forall k0 (g : nat -> N),
  Crow xs h (map g (seq k0 h)) = lsum (map (fun k => Ssum xs (N.to_nat (g k))) (seq k0 h)).
Proof.
  induction h as [|d IH]; intros k0 g; [reflexivity|]. cbn [seq map lsum]. rewrite Crow_S. cbn [hd tl].
  rewrite IH. reflexivity.
Qed.

(* Kraft's sum of a length vector against the counting value of its level counts *)
Lemma kraft_val h : (h <= 20)%nat -> forall l, Forall (fun v => 1 <= v <= N.of_nat h) l ->
  val h (counts h l) * 2 ^ N.of_nat (20 - h) + ksum l = N.of_nat (length l) * 2 ^ 20.
Proof.
  intros Hh l Hl. unfold counts. rewrite val_map.
  induction Hl as [|v l Hv Hl IH]; cbn [length ksum].
  - assert (Z : forall d k0, valf d k0 (fun _ => 0) = 0) by (induction d; intros; cbn [valf]; [|rewrite IHd]; lia).
    rewrite (valf_ext h 0 _ (fun _ => 0)) by reflexivity. rewrite Z. lia.
  - rewrite (valf_ext h 0 _ (fun k => (if (k <? N.to_nat v)%nat then 1 else 0) + N.of_nat (cg l k))).
    + rewrite valf_add.
      pose proof (valf_ind h 0 (N.to_nat v) ltac:(lia)) as VI. rewrite Nat.sub_0_r in VI.
      rewrite N.shiftl_1_l.
      assert (E1 : 2 ^ 20 = 2 ^ N.of_nat h * 2 ^ N.of_nat (20 - h)) by (rewrite <- N.pow_add_r; f_equal; lia).
      assert (E2 : 2 ^ (20 - v) = 2 ^ N.of_nat (h - N.to_nat v) * 2 ^ N.of_nat (20 - h)) by (rewrite <- N.pow_add_r; f_equal; lia).
      rewrite E2. rewrite E1 in *.
      set (P := 2 ^ N.of_nat (20 - h)) in *. set (A := valf h 0 (fun k => if (k <? N.to_nat v)%nat then 1 else 0)) in *.
      set (Bv := 2 ^ N.of_nat (h - N.to_nat v)) in *. set (H2 := 2 ^ N.of_nat h) in *. nia.
    + intro k. rewrite cg_cons. unfold gtb.
      destruct (N.ltb_spec (N.of_nat k) v); destruct (Nat.ltb_spec k (N.to_nat v)); lia.
Qed.

Lemma counts_le h l : Forall (fun v => v <= N.of_nat (length l)) (counts h l).
Proof.
  unfold counts. apply Forall_forall. intros a Ha. apply in_map_iff in Ha as [k [<- _]].
  unfold cg. pose proof (filter_len_le (gtb k) l). lia.
Qed.

(* the cost of any length vector is at least the row cost of its level counts *)
Lemma cost_ge_counts xs f l h : asc xs -> Permutation xs f -> length f = length l ->
  Forall (fun v => v <= N.of_nat h) l -> Crow xs h (counts h l) <= dot f l.
Proof.
  intros Ha P Hlen Hl. rewrite (layers h f l Hl). unfold counts. rewrite Crow_map.
  apply lsum_map_le. intros k _. rewrite Nnat.Nat2N.id.
  destruct (sel_perm k f l Hlen) as [rest PR].
  rewrite <- (sel_length k f l Hlen). apply (subset_sum xs Ha _ rest).
  rewrite PR. symmetry. exact P.
Qed.

Lemma dot_app : forall a b c d, length a = length c -> dot (a ++ b) (c ++ d) = dot a c + dot b d.
Proof.
  induction a as [|x a IH]; intros b c d H; destruct c as [|v c]; cbn [length] in H; try lia; [reflexivity|].
  cbn [app dot]. rewrite IH by lia. lia.
Qed.

Lemma dot_repeat a v : dot a (repeat v (length a)) = lsum a * v.
Proof. induction a as [|x a IH]; cbn [length repeat dot lsum]; [lia|]. rewrite IH. lia. Qed.

Lemma lsum_rev l : lsum (rev l) = lsum l.
Proof. apply lsum_perm. symmetry. apply Permutation_rev. Qed.

Lemma firstn_split_rev (xs : list N) lo hi : (lo <= hi)%nat ->
  rev (firstn hi xs) = rev (skipn lo (firstn hi xs)) ++ rev (firstn lo xs).
Proof.
  intro H. rewrite <- rev_app_distr. f_equal.
  rewrite <- (firstn_skipn lo (firstn hi xs)) at 1. f_equal.
  rewrite firstn_firstn. f_equal. lia.
Qed.

Lemma Ssum_split (xs : list N) lo hi : (lo <= hi)%nat ->
  Ssum xs hi = lsum (skipn lo (firstn hi xs)) + Ssum xs lo.
Proof.
  intro H. unfold Ssum. rewrite <- (firstn_skipn lo (firstn hi xs)) at 1. rewrite lsum_app.
  rewrite firstn_firstn. replace (Nat.min lo hi) with lo by lia. lia.
Qed.

Section RowCost.
Variable xs : list N.
Variable row : list N.
Variable h : nat.
Hypothesis Hmono : forall i, (1 <= i)%nat -> (i <= h)%nat -> nth i row 0 <= nth (i - 1) row 0.
Hypothesis Hzero : nth h row 0 = 0.
Hypothesis Htop : nth 0 row 0 <= N.of_nat (length xs).

Lemma row_le_n i : (i <= h)%nat -> nth i row 0 <= N.of_nat (length xs).
Proof.
  induction i as [|i IH]; intro Hi; [exact Htop|].
  pose proof (Hmono (S i) ltac:(lia) Hi) as M. replace (S i - 1)%nat with i in M by lia.
  specialize (IH ltac:(lia)). lia.
Qed.

Lemma dlist_cost : forall k depth, (1 <= depth)%nat -> (depth + k = S h)%nat ->
  dot (rev (firstn (N.to_nat (nth (depth - 1) row 0)) xs)) (dlist row depth k) =
  N.of_nat (depth - 1) * Ssum xs (N.to_nat (nth (depth - 1) row 0)) + Crow xs k (skipn (depth - 1) row).
Proof.
  induction k as [|k IH]; intros depth Hd Hk.
  - replace (depth - 1)%nat with h by lia. rewrite Hzero. cbn. lia.
  - cbn [dlist]. specialize (IH (S depth) ltac:(lia) ltac:(lia)).
    replace (S depth - 1)%nat with depth in IH by lia.
    pose proof (Hmono depth Hd ltac:(lia)) as M.
    pose proof (row_le_n (depth - 1) ltac:(lia)) as Hhi.
    set (a := nth (depth - 1) row 0) in *. set (b := nth depth row 0) in *.
    assert (Hlo : (N.to_nat b <= N.to_nat a)%nat) by lia.
    rewrite (firstn_split_rev xs _ _ Hlo).
    set (M' := skipn (N.to_nat b) (firstn (N.to_nat a) xs)).
    assert (LM : length (rev M') = N.to_nat (a - b)).
    { unfold M'. rewrite rev_length, skipn_length, firstn_length. lia. }
    rewrite <- LM. rewrite dot_app by (rewrite repeat_length; reflexivity).
    rewrite dot_repeat, lsum_rev, IH.
    rewrite Crow_S, hd_skipn, tl_skipn. fold a. replace (S (depth - 1)) with depth by lia.
    rewrite (Ssum_split xs _ _ Hlo). fold M'.
    assert (N.of_nat depth = N.of_nat (depth - 1) + 1) by lia. nia.
Qed.

(* the depth list of a good row costs exactly the row cost *)
Lemma dlist_cost_full : nth 0 row 0 = N.of_nat (length xs) ->
  dot (rev xs) (dlist row 1 h) = Crow xs h row.
Proof.
  intro H0. pose proof (dlist_cost h 1 ltac:(lia) ltac:(lia)) as D.
  replace (1 - 1)%nat with 0%nat in D by lia. rewrite H0, Nnat.Nat2N.id, firstn_all in D.
  cbn [skipn N.of_nat] in D. lia.
Qed.
End RowCost.
