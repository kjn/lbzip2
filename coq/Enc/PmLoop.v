(* C20 - the explicit-stack loop of package_merge() is the recursive procedure [take]:
   one "take the next item at level d" = compare the next package of level d-1 with the next leaf;
   a package costs two further takes at level d-1.  Also: fuel and stack bounds of the loop. *)
From Coq Require Import List NArith Arith Bool Lia.
From LBZ Require Import Gen.Consts Enc.PmModel Enc.PmBasics.
Import ListNotations.
Local Open Scope N_scope.

Fixpoint take (lw : list N) (as_ : N) (d : nat) (s : pm_st) : res pm_st :=
  match d with
  | O => Err (Underflow 1)
  | S d1 =>
    do pw <- rd APkg (pkgw s) d1;
    do cw <- rd ACurr (currw s) (S d1);
    if pw <=? cw then
      match d1 with
      | O => Ok s
      | S _ => do s1 <- pm_take_pkg s (S d1) d1 pw; do s2 <- take lw as_ d1 s1; take lw as_ d1 s2
      end
    else pm_take_leaf lw as_ s (S d1) cw
  end.

(* body of the width loop, recursive form *)
Definition width_spec (lw : list N) (as_ : N) (s : pm_st) : res pm_st :=
  do s1 <- take lw as_ MCL s; take lw as_ MCL s1.

Fixpoint widths_spec (n : nat) (lw : list N) (as_ : N) (s : pm_st) : res pm_st :=
  match n with
  | O => Ok s
  | S n' => do s' <- width_spec lw as_ s; widths_spec n' lw as_ s'
  end.

Lemma set_cnt_set_cnt s c c' : set_cnt (set_cnt s c) c' = set_cnt s c'.
Proof. reflexivity. Qed.

Lemma pm_take_pkg_cnt s c depth d1 pw :
  pm_take_pkg (set_cnt s c) depth d1 pw = do s1 <- pm_take_pkg s depth d1 pw; Ok (set_cnt s1 c).
Proof.
  unfold pm_take_pkg, set_cnt. cbn [tree pkgw prevw currw cnt].
  destruct (copy_row (tree s) depth d1) as [t'|e]; cbn [bind]; [|reflexivity].
  destruct (rd APrev (prevw s) depth) as [vw|e]; cbn [bind]; [|reflexivity].
  destruct (wr APkg (pkgw s) depth (weight_add vw pw)) as [p'|e]; cbn [bind]; [|reflexivity].
  destruct (wr APrev (prevw s) depth pw) as [v'|e]; cbn [bind]; reflexivity.
Qed.

Lemma pm_take_leaf_cnt lw as_ s c depth cw :
  pm_take_leaf lw as_ (set_cnt s c) depth cw = do s1 <- pm_take_leaf lw as_ s depth cw; Ok (set_cnt s1 c).
Proof.
  unfold pm_take_leaf, set_cnt. cbn [tree pkgw prevw currw cnt].
  destruct (rd2 (tree s) depth 0) as [t0|e]; cbn [bind]; [|reflexivity].
  destruct (wr2 (tree s) depth 0 (t0 + 1)) as [t'|e]; cbn [bind]; [|reflexivity].
  destruct (rd APrev (prevw s) depth) as [vw|e]; cbn [bind]; [|reflexivity].
  destruct (wr APkg (pkgw s) depth (weight_add vw cw)) as [p'|e]; cbn [bind]; [|reflexivity].
  destruct (wr APrev (prevw s) depth cw) as [v'|e]; cbn [bind]; [|reflexivity].
  destruct (t0 + 1 <=? as_); [|reflexivity].
  destruct (rd ALeaf lw (N.to_nat (as_ - (t0 + 1)))) as [nw|e]; cbn [bind]; [|reflexivity].
  destruct (wr ACurr (currw s) depth nw) as [c'|e]; cbn [bind]; reflexivity.
Qed.

Lemma pm_take_pkg_keeps_cnt s depth d1 pw s1 : pm_take_pkg s depth d1 pw = Ok s1 -> cnt s1 = cnt s.
Proof.
  unfold pm_take_pkg. intro H.
  apply bind_ok in H as [t' [_ H]]. apply bind_ok in H as [vw [_ H]].
  apply bind_ok in H as [p' [_ H]]. apply bind_ok in H as [v' [_ H]].
  inversion H; subst. reflexivity.
Qed.

Section Exec.
Variable lw : list N.
Variable as_ : N.
Notation STEP := (pm_iter lw as_).

Lemma exec : forall d s s', take lw as_ d s = Ok s' ->
  forall c nd, (nd + d <= length c)%nat ->
  exists m c', (1 <= m)%nat /\ (m + 1 <= 2 ^ d)%nat /\ length c' = length c /\
    (forall i, (i < nd)%nat -> nth i c' 0 = nth i c 0) /\
    forall j, run (m + j) STEP (set_cnt s c, d, nd) =
              match pm_pop (set_cnt s' c') nd with Ok (inl x') => run j STEP x' | r => r end.
Proof.
  induction d as [|d1 IH]; intros s s' HT c nd Hnd; [discriminate|].
  cbn [take] in HT.
  apply bind_ok in HT as [pw [Epw HT]]. apply bind_ok in HT as [cw [Ecw HT]].
  assert (STEP1 : forall X (k : N -> N -> res X),
            (do pw0 <- rd APkg (pkgw (set_cnt s c)) d1; do cw0 <- rd ACurr (currw (set_cnt s c)) (S d1); k pw0 cw0) = k pw cw).
  { intros X k. unfold set_cnt; cbn [pkgw currw]. rewrite Epw; cbn [bind]. rewrite Ecw; cbn [bind]. reflexivity. }
  destruct (pw <=? cw) eqn:Ecmp.
  - destruct d1 as [|d2].
    + (* depth 1: nothing happens *)
      inversion HT; subst s'. exists 1%nat, c.
      split; [lia|]. split; [cbn [Nat.pow]; lia|]. split; [reflexivity|]. split; [auto|].
      intro j. cbn [run Nat.add]. unfold pm_iter at 1. rewrite STEP1, Ecmp. reflexivity.
    + (* package: two takes one level down *)
      apply bind_ok in HT as [s1 [E1 HT]]. apply bind_ok in HT as [s2 [E2 E3]].
      set (c1 := upd c nd (N.of_nat (S d2))).
      assert (Lc1 : length c1 = length c) by apply upd_length.
      destruct (IH s1 s2 E2 c1 (S nd)) as [m1 [c2 [M1 [B1 [L2 [A2 R1]]]]]]; [lia|].
      destruct (IH s2 s' E3 c2 nd) as [m2 [c3 [M2 [B2 [L3 [A3 R2]]]]]]; [lia|].
      exists (1 + m1 + m2)%nat, c3.
      split; [lia|]. split; [cbn [Nat.pow] in *; lia|]. split; [lia|]. split.
      * intros i Hi. rewrite A3 by exact Hi. rewrite A2 by lia. unfold c1. apply upd_nth_other. lia.
      * intro j. replace (1 + m1 + m2 + j)%nat with (S (m1 + (m2 + j)))%nat by lia. cbn [run].
        unfold pm_iter at 1. rewrite STEP1, Ecmp.
        rewrite pm_take_pkg_cnt, E1. cbn [bind]. unfold set_cnt at 1; cbn [cnt].
        rewrite wr_ok by lia. cbn [bind]. rewrite set_cnt_set_cnt. fold c1.
        rewrite R1. unfold pm_pop at 1. unfold set_cnt at 1; cbn [cnt].
        rewrite (rd_ok ACount c2 nd 0) by lia. cbn [bind].
        rewrite A2 by lia. unfold c1. rewrite upd_nth_same by lia. rewrite Nnat.Nat2N.id.
        apply R2.
  - (* leaf *)
    exists 1%nat, c. pose proof (Nat.pow_nonzero 2 d1 ltac:(lia)) as Hp.
    split; [lia|]. split; [cbn [Nat.pow]; lia|]. split; [reflexivity|]. split; [auto|].
    intro j. cbn [run Nat.add]. unfold pm_iter at 1. rewrite STEP1, Ecmp.
    rewrite pm_take_leaf_cnt, HT. cbn [bind]. reflexivity.
Qed.

(* one value of width: the loop terminates within the binary fuel and equals two takes at the top level *)
Lemma pm_width_spec s s' : width_spec lw as_ s = Ok s' ->
  forall c, (S MCL <= length c)%nat ->
  exists c', length c' = length c /\ pm_width lw as_ (set_cnt s c) = Ok (set_cnt s' c').
Proof.
  unfold width_spec. intros H c Hc. apply bind_ok in H as [s1 [E1 E2]].
  unfold pm_width. unfold set_cnt at 1; cbn [cnt]. rewrite wr_ok by lia. cbn [bind].
  rewrite set_cnt_set_cnt. set (c0 := upd c 0 MAX_CODE_LENGTH).
  assert (L0 : length c0 = length c) by apply upd_length.
  destruct (exec MCL s s1 E1 c0 1%nat) as [m1 [c1 [M1 [B1 [L1 [A1 R1]]]]]]; [lia|].
  destruct (exec MCL s1 s' E2 c1 0%nat) as [m2 [c2 [M2 [B2 [L2 [A2 R2]]]]]]; [lia|].
  exists c2. split; [lia|].
  rewrite iter2_run.
  assert (HF : (2 ^ PM_FUEL = m1 + (m2 + (2 ^ PM_FUEL - m1 - m2)))%nat).
  { (* not [cbn [Nat.pow]]: the kernel would then compare 2 ^ PM_FUEL with the result by evaluating both in unary *)
    unfold PM_FUEL. rewrite !Nat.pow_succ_r'. lia. }
  rewrite HF, R1. unfold pm_pop at 1. unfold set_cnt at 1; cbn [cnt].
  rewrite (rd_ok ACount c1 0 0) by lia. cbn [bind].
  rewrite A1 by lia. unfold c0. rewrite upd_nth_same by lia.
  replace (N.to_nat MAX_CODE_LENGTH) with MCL by reflexivity.
  rewrite R2. cbn [pm_pop]. reflexivity.
Qed.

Lemma pm_widths_spec n : forall s s', widths_spec n lw as_ s = Ok s' ->
  forall c, (S MCL <= length c)%nat ->
  exists c', length c' = length c /\ pm_widths n lw as_ (set_cnt s c) = Ok (set_cnt s' c').
Proof.
  induction n as [|n IH]; intros s s' H c Hc; cbn [widths_spec pm_widths] in *.
  - inversion H; subst. exists c. auto.
  - apply bind_ok in H as [s1 [E1 E2]].
    destruct (pm_width_spec s s1 E1 c Hc) as [c1 [L1 W1]].
    destruct (IH s1 s' E2 c1) as [c2 [L2 W2]]; [lia|].
    exists c2. split; [lia|]. rewrite W1. cbn [bind]. exact W2.
Qed.
End Exec.

Lemma set_cnt_self s : set_cnt s (cnt s) = s.
Proof. destruct s; reflexivity. Qed.

(* package_merge = initialisation followed by the recursive width steps (cnt aside) *)
Lemma package_merge_spec lw as_ s0 s' :
  pm_init lw as_ zero_tree = Ok s0 -> (S MCL <= length (cnt s0))%nat ->
  widths_spec (as_ - 2) lw (N.of_nat as_) s0 = Ok s' ->
  exists c', package_merge lw as_ = Ok (set_cnt s' c').
Proof.
  intros HI HL HW. unfold package_merge. rewrite HI. cbn [bind].
  destruct (pm_widths_spec lw (N.of_nat as_) (as_ - 2) s0 s' HW (cnt s0) HL) as [c' [_ W]].
  rewrite set_cnt_self in W. exists c'. exact W.
Qed.
