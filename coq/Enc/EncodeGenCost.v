(* The value RETURNED by the model of generate_prefix_code() (GenModel.gen_prefix_code, g_cost): exactly the number
   of bits transmit() spends on the prefix tables (without tree_pad) and on the prefix codes of the symbols,
       sum_i tree_cost (table_i)  +  sum_groups sum_{s in group} length[selector(group)][s]
   without uint32_t wrap; the first transmitted selector is tree 0; selector[] entries are < MAX_TREES.

   Ingredients: EncodePmCost.assign_lengths_cost (value returned by assign_codes); the frequency rows of the last
   E step count the symbols of the groups that selected the tree (the dummy symbol `as` completing the last group
   has length 0 in every table); the reordering loop adds the assign_codes() value of exactly the trees that end
   up in tmap_new2old; the dummy second tree costs as + 5 (+ 2 when it has two different lengths). *)
From Coq Require Import List NArith Arith Bool Lia Sorting.Permutation.
From LBZ Require Import Common.ListArr Gen.Consts Dec.Format Enc.EncModel Enc.PmModel Enc.PmBasics Enc.PmReal Enc.PmProofs Enc.PmCost
  Enc.GenModel Enc.GenInit Enc.GenEm Enc.GenReorder Enc.GenProofs Enc.GenMcl Enc.EncodePmCost.
Import ListNotations.
Local Open Scope N_scope.

(* sum over the symbols of a list of the length a table gives them *)
Definition symcost (tab : list N) (g : list N) : N := lsum (map (fun s => nth (N.to_nat s) tab 0) g).

(* the bits of the prefix codes of [l], cut into groups of GS symbols, group i coded with table L (sels[i]) *)
Fixpoint gbits (L : N -> list N) (sels : list N) (l : list N) : N :=
  match sels with
  | [] => 0
  | t :: r => symcost (L t) (firstn GS l) + gbits L r (skipn GS l)
  end.

Fixpoint gsum (L : N -> list N) (sels : list N) (groups : list (list N)) : N :=
  match sels, groups with
  | t :: ss, g :: gs => symcost (L t) g + gsum L ss gs
  | _, _ => 0
  end.

Fixpoint dots (L : N -> list N) (k : N) (fr : list (list N)) : N :=
  match fr with
  | [] => 0
  | row :: r => dot row (L k) + dots L (k + 1) r
  end.

Lemma symcost_app tab a b : symcost tab (a ++ b) = symcost tab a + symcost tab b.
Proof. unfold symcost. rewrite map_app, lsum_app. reflexivity. Qed.

Lemma gsum_chunk L : forall sels l, gsum L sels (chunk (length sels) l) = gbits L sels l.
Proof. induction sels as [|t r IH]; intro l; cbn [length chunk gsum gbits]; [reflexivity|]. rewrite IH. reflexivity. Qed.

Lemma firstn_app' {A} n (a b : list A) : firstn n (a ++ b) = firstn n a ++ firstn (n - length a) b.
Proof. apply firstn_app. Qed.

Lemma gbits_pad L (P : N -> Prop) : (forall t p, P p -> nth (N.to_nat p) (L t) 0 = 0) ->
  forall sels l pad, Forall P pad -> gbits L sels (l ++ pad) = gbits L sels l.
Proof.
  intros HP. induction sels as [|t r IH]; intros l pad Hpad; cbn [gbits]; [reflexivity|].
  rewrite firstn_app, skipn_app, symcost_app.
  rewrite (IH (skipn GS l) (skipn (GS - length l) pad)) by (apply Forall_skipn; exact Hpad).
  assert (Z : symcost (L t) (firstn (GS - length l) pad) = 0).
  { assert (F : Forall P (firstn (GS - length l) pad)) by (apply Forall_firstn; exact Hpad).
    unfold symcost. induction F as [|p q Hp _ IHq]; cbn [map lsum]; [reflexivity|]. rewrite (HP t p Hp), IHq. reflexivity. }
  rewrite Z. lia.
Qed.

Lemma gbits_ext L1 L2 : forall sels1 sels2 l, Forall2 (fun a b => L1 a = L2 b) sels1 sels2 ->
  gbits L1 sels1 l = gbits L2 sels2 l.
Proof.
  intros sels1 sels2 l H. revert l. induction H as [|a b r1 r2 Hab _ IH]; intro l; cbn [gbits]; [reflexivity|].
  rewrite Hab, IH. reflexivity.
Qed.

Lemma bump_dot id : forall row i row' l, bump id row i = GOk row' -> dot row' l = dot row l + nth i l 0.
Proof.
  induction row as [|x r IH]; intros i row' l H; [destruct i; discriminate|].
  destruct i as [|j]; cbn [bump] in H.
  - inversion H; subst. destruct l as [|v l]; cbn [dot nth]; lia.
  - destruct (bump id r j) as [r'|] eqn:E; [|discriminate]. inversion H; subst.
    destruct l as [|v l]; cbn [dot nth]; [reflexivity|]. rewrite (IH j r' l E). lia.
Qed.

Lemma bump_all_dot id : forall g row row' l, bump_all id row g = GOk row' -> dot row' l = dot row l + symcost l g.
Proof.
  induction g as [|s g IH]; intros row row' l H; cbn [bump_all] in H.
  - inversion H; subst. unfold symcost. cbn. lia.
  - destruct (bump id row (N.to_nat s)) as [r1|] eqn:E; [|discriminate]. cbn [gbind] in H.
    rewrite (IH r1 row' l H), (bump_dot id row _ r1 l E). unfold symcost. cbn [map lsum]. lia.
Qed.

Lemma dots_upd L : forall fr k t row row', nth_error fr t = Some row ->
  dots L k (upd fr t row') + dot row (L (k + N.of_nat t)) = dots L k fr + dot row' (L (k + N.of_nat t)).
Proof.
  induction fr as [|r0 fr IH]; intros k t row row' H; [destruct t; discriminate|].
  destruct t as [|t]; cbn [nth_error] in H; cbn [upd dots].
  - inversion H; subst. rewrite N.add_0_r. lia.
  - specialize (IH (k + 1) t row row' H). replace (k + N.of_nat (S t)) with (k + 1 + N.of_nat t) by lia. lia.
Qed.

Lemma e_step_count L nt lp : forall groups fr sels fr', e_step nt lp groups fr = GOk (sels, fr') ->
  dots L 0 fr' = dots L 0 fr + gsum L sels groups.
Proof.
  induction groups as [|g groups IH]; intros fr sels fr' H; cbn [e_step] in H.
  - inversion H; subst. cbn [gsum]. lia.
  - destruct (find_best_tree g nt lp) as [t|]; [|discriminate]. cbn [gbind] in H.
    destruct (negb (t <? N.of_nat nt)); [discriminate|].
    unfold grd in H. destruct (nth_error fr (N.to_nat t)) as [row|] eqn:En; [|discriminate]. cbn [gbind] in H.
    destruct (bump_all 7 row g) as [row'|] eqn:Eb; [|discriminate]. cbn [gbind] in H.
    destruct (e_step nt lp groups (upd fr (N.to_nat t) row')) as [[ss fr1]|] eqn:Ee; [|discriminate]. cbn [gbind] in H.
    inversion H; subst. rewrite (IH _ _ _ Ee). cbn [gsum].
    pose proof (dots_upd L fr 0 (N.to_nat t) row row' En) as U. rewrite N.add_0_l, N2Nat.id in U.
    rewrite (bump_all_dot 7 g row row' (L t) Eb) in U. lia.
Qed.

Lemma dot_zeros l : forall k, dot (repeat 0 k) l = 0.
Proof. induction l as [|v l IH]; intros [|k]; cbn [repeat dot]; try reflexivity. rewrite IH. lia. Qed.

Lemma dots_zeros L m : forall n k, dots L k (repeat (repeat 0 m) n) = 0.
Proof. induction n as [|n IH]; intro k; cbn [repeat dots]; [reflexivity|]. rewrite dot_zeros, IH. reflexivity. Qed.

Lemma dot_firstn : forall k f l, (length l <= k)%nat -> dot (firstn k f) l = dot f l.
Proof.
  induction k as [|k IH]; intros f l H.
  - destruct l; [|cbn in H; lia]. destruct f; reflexivity.
  - destruct f as [|x f]; [reflexivity|]. destruct l as [|v l]; [reflexivity|]. cbn [firstn dot]. rewrite IH by (cbn in H; lia).
    reflexivity.
Qed.

Lemma dots_as_sum L : forall fr k,
  dots L k fr = lsum (map (fun i => dot (nth i fr []) (L (k + N.of_nat i))) (seq 0 (length fr))).
Proof.
  induction fr as [|row fr IH]; intro k; cbn [dots length seq map lsum]; [reflexivity|].
  rewrite N.add_0_r. f_equal. rewrite IH. rewrite <- seq_shift, map_map. f_equal. apply map_ext. intro i.
  cbn [nth]. f_equal. f_equal. lia.
Qed.

Lemma sum_indicator (h : nat -> N) t : forall m a, (a <= t < a + m)%nat ->
  lsum (map (fun k => if (k =? t)%nat then h k else 0) (seq a m)) = h t.
Proof.
  induction m as [|m IH]; intros a H; [lia|]. cbn [seq map lsum].
  destruct (Nat.eqb_spec a t) as [->|Hne].
  - assert (Z : lsum (map (fun k => if (k =? t)%nat then h k else 0) (seq (S t) m)) = 0).
    { transitivity (lsum (map (fun _ : nat => 0) (seq (S t) m))); [|apply lsum_map_zero].
      f_equal. apply map_ext_in. intros k Hk. apply in_seq in Hk.
      destruct (Nat.eqb_spec k t); [lia|reflexivity]. }
    rewrite Z. lia.
  - rewrite IH by lia. lia.
Qed.

Lemma sum_select (h : nat -> N) m : forall S, NoDup S -> Forall (fun t => (t < m)%nat) S ->
  lsum (map (fun k => if existsb (Nat.eqb k) S then h k else 0) (seq 0 m)) = lsum (map h S).
Proof.
  induction S as [|t S IH]; intros Hnd Hlt.
  - cbn [existsb map lsum]. apply lsum_map_zero.
  - inversion Hnd as [|? ? Hnot Hnd']; subst. inversion Hlt as [|? ? Ht Hlt']; subst. cbn [map lsum].
    rewrite <- (IH Hnd' Hlt'), <- (sum_indicator h t m 0) by lia. rewrite <- lsum_map_add.
    f_equal. apply map_ext. intro k. cbn [existsb]. destruct (Nat.eqb_spec k t) as [->|Hne]; cbn [orb]; [|lia].
    replace (existsb (Nat.eqb t) S) with false; [lia|]. symmetry. apply not_true_is_false. intro E.
    apply existsb_exists in E. destruct E as [x [Hx Ex]]. apply Nat.eqb_eq in Ex. subst x. contradiction.
Qed.

Section Reorder.
Variable as_ : nat.
Variable nt0 : N.
Variable fr : list (list N).
Hypothesis Hnt0 : nt0 <= 6.
Hypothesis Has : (3 <= as_ <= 258)%nat.
Hypothesis Hfr : fr_shape as_ (N.to_nat nt0) fr.
Hypothesis Hb : MAX_ALPHA_SIZE * lsum (concat fr) < 2 ^ 32.

Let Has2 : (2 <= as_ <= 258)%nat. Proof. lia. Qed.

Definition BT : N := 20 * lsum (concat fr) + 10583.

Definition tcost (lens : list (list N)) (t : N) : N :=
  dot (firstn as_ (nth (N.to_nat t) fr [])) (nth (N.to_nat t) lens []) + tree_cost (nth (N.to_nat t) lens []).

Definition cinv (s : ro_st) : Prop :=
  ro_cost s = lsum (map (tcost (ro_lens s)) (ro_n2o s)) /\ ro_cost s <= N.of_nat (length (ro_n2o s)) * BT.

Lemma BT_6 : 6 * BT < 2 ^ 32.
Proof. unfold BT. change MAX_ALPHA_SIZE with 258 in Hb. change (2 ^ 32) with 4294967296 in *. lia. Qed.

Lemma n2o_le6 s : ro_inv as_ nt0 s -> (length (ro_n2o s) <= 6)%nat.
Proof.
  intro I. pose proof (nodup_bound _ (N.to_nat nt0) (ri_nodup _ _ _ I)) as B. rewrite N2Nat.id in B.
  specialize (B (ri_old _ _ _ I)). lia.
Qed.

Lemma reorder_cost : forall sels s s', Forall (fun t => t < nt0) sels -> ro_inv as_ nt0 s -> cinv s ->
  reorder as_ fr sels s = GOk s' -> cinv s'.
Proof.
  induction sels as [|t r IH]; intros s s' Hsels I C H.
  - cbn [reorder] in H. destruct (ro_not_seen s =? 0) in H; inversion H; subst; exact C.
  - inversion Hsels as [|? ? Ht Hr]; subst.
    destruct (reorder_step as_ nt0 fr Hnt0 Has2 Hfr Hb t r s I Ht)
      as [[_ E]|[[_ [_ E]]|[Hbit [len0 [f [res [El [Ef [Er [I1 E]]]]]]]]]]; rewrite E in H.
    + inversion H; subst. exact C.
    + eapply IH; eauto.
    + apply (IH _ _ Hr I1); [|exact H]. clear IH H E.
      destruct Hfr as [Hfr1 Hfr2]. destruct (ri_shape _ _ _ I) as [Hs1 Hs2].
      assert (Hf : length f = S as_) by (rewrite Forall_forall in Hfr2; apply Hfr2; eapply nth_error_In; eauto).
      assert (Hl0 : length len0 = as_) by (rewrite Forall_forall in Hs2; apply Hs2; eapply nth_error_In; eauto).
      assert (Hin : pm_input_ok (firstn as_ f)).
      { apply (row_input_ok as_ fr f); auto. eapply nth_error_In; eauto. }
      assert (Hfl : length (firstn as_ f) = as_) by (rewrite firstn_length, Hf; lia).
      destruct (assign_lengths_cost (firstn as_ f) len0 res Hin ltac:(lia) ltac:(lia) Er) as [Ec Eb].
      assert (Eb' : r_cost res <= BT).
      { unfold BT. pose proof (lsum_firstn_le as_ f). pose proof (lsum_concat_In fr f ltac:(eapply nth_error_In; eauto)). lia. }
      destruct C as [C1 C2]. pose proof (n2o_le6 _ I1) as L6. pose proof BT_6 as B6.
      assert (Ht6 : t < 6) by lia.
      destruct (ri_set _ _ _ I t Ht6 Hbit) as [_ Hnew].
      unfold cinv, ro_next in *. cbn [ro_cost ro_n2o ro_lens] in *. rewrite app_length in *. cbn [length] in *.
      rewrite u32_small by (unfold U32; nia). split; [|nia].
      rewrite map_app, lsum_app. cbn [map lsum]. rewrite N.add_0_r. f_equal.
      * rewrite C1. f_equal. apply map_ext_in. intros u Hu. unfold tcost.
        assert (N.to_nat u <> N.to_nat t) by (intro E; apply N2Nat.inj in E; subst u; contradiction).
        rewrite upd_nth_other by lia. reflexivity.
      * unfold tcost. rewrite upd_nth_same by (rewrite Hs1; change NTREES with 6%nat; lia).
        rewrite (nth_error_nth _ _ [] Ef). exact Ec.
Qed.
End Reorder.

Lemma sdelta_repeat v : forall k, sdelta (v :: repeat v k) = 0.
Proof. induction k as [|k IH]; [reflexivity|]. cbn [repeat]. rewrite sdelta_cons2, IH. lia. Qed.

(* two neighbouring lengths: one step of 1, if the longer length occurs at all *)
Lemma sdelta_repeat2 c m : forall k, sdelta (c :: repeat c k ++ repeat (c + 1) m) = N.min 1 (N.of_nat m).
Proof.
  induction k as [|k IH]; cbn [repeat app].
  - destruct m as [|m]; [reflexivity|]. cbn [repeat]. rewrite sdelta_cons2, sdelta_repeat. lia.
  - rewrite sdelta_cons2, IH. lia.
Qed.

(* (2 << cl0) - as > 0 because cl0 = floor(log2(as)) *)
Lemma dummy_count_pos a : (2 <= a <= 258)%nat -> 0 < dummy_count (N.of_nat a).
Proof.
  intro H. unfold dummy_count. destruct (dummy_fact a H) as [-> _].
  assert (P : 0 < N.of_nat a) by lia. apply N.log2_spec in P. rewrite N.pow_succ_r' in P.
  rewrite N.shiftl_mul_pow2. set (p := 2 ^ N.log2 (N.of_nat a)) in *.
  rewrite u32_small, sub32_exact by (unfold U32; lia). lia.
Qed.

Lemma dummy_cost a : (2 <= a <= 258)%nat ->
  tree_cost (dummy_row a) = N.of_nat a + 5 + (if dummy_count (N.of_nat a) <? N.of_nat a then 2 else 0).
Proof.
  intro H. destruct (dummy_fact a H) as [_ [Hle _]]. pose proof (dummy_count_pos a H) as Hpos.
  unfold tree_cost, dummy_row. cbv zeta. set (d := dummy_count (N.of_nat a)) in *.
  rewrite app_length, !repeat_length.
  destruct (N.to_nat d) as [|k] eqn:Ek; [lia|]. cbn [repeat app]. rewrite sdelta_repeat2.
  destruct (N.ltb_spec d (N.of_nat a)); lia.
Qed.

Lemma Forall2_In_impl {A B} (R1 R2 : A -> B -> Prop) : forall l1 l2, Forall2 R1 l1 l2 ->
  (forall a b, In a l1 -> R1 a b -> R2 a b) -> Forall2 (fun b a => R2 a b) l2 l1.
Proof.
  induction 1 as [|a b l1 l2 Hab _ IH]; intro K; constructor.
  - apply K; [left; reflexivity|exact Hab].
  - apply IH. intros a' b' Hin. apply K. right. exact Hin.
Qed.

Lemma existsb_N_nat t l : existsb (N.eqb (N.of_nat t)) l = existsb (Nat.eqb t) (map N.to_nat l).
Proof.
  induction l as [|x l IH]; cbn [existsb map]; [reflexivity|]. rewrite IH. f_equal.
  destruct (N.eqb_spec (N.of_nat t) x) as [<-|Hne]; [rewrite Nat2N.id; symmetry; apply Nat.eqb_refl|].
  symmetry. apply Nat.eqb_neq. lia.
Qed.

Lemma NoDup_map_to_nat (l : list N) : NoDup l -> NoDup (map N.to_nat l).
Proof.
  induction 1 as [|x l Hx _ IH]; cbn [map]; constructor; [|exact IH].
  intro Hin. apply in_map_iff in Hin. destruct Hin as [y [E Hy]]. apply N2Nat.inj in E. subst y. contradiction.
Qed.

(* the key identity: frequency rows x final lengths of the used trees = bits of the prefix codes *)
Definition Lsel (n2o : list N) (lens : list (list N)) (t : N) : list N :=
  if existsb (N.eqb t) n2o then nth (N.to_nat t) lens [] else [].

Lemma used_rows_bits as_ nt lp mtfv asN sels fr n2o lens :
  let groups := groups_of mtfv asN in
  N.to_nat asN = as_ ->
  e_step nt lp groups (repeat (repeat 0 (S as_)) nt) = GOk (sels, fr) ->
  length sels = length groups -> length fr = nt ->
  NoDup n2o -> Forall (fun t => (N.to_nat t < nt)%nat) n2o ->
  Forall (fun row => length row = as_) lens ->
  lsum (map (fun t => dot (firstn as_ (nth (N.to_nat t) fr [])) (nth (N.to_nat t) lens [])) n2o)
  = gbits (Lsel n2o lens) sels mtfv.
Proof.
  intros groups Eas ES Ls Lf Hnd Hlt Hsh.
  assert (Hrow : forall i, (length (nth i lens []) <= as_)%nat).
  { intro i. destruct (Nat.lt_ge_cases i (length lens)) as [L|L].
    - rewrite Forall_forall in Hsh. rewrite (Hsh (nth i lens [])) by (apply nth_In; exact L). lia.
    - rewrite nth_overflow by exact L. cbn. lia. }
  pose proof (e_step_count (Lsel n2o lens) nt lp groups _ sels fr ES) as C. rewrite dots_zeros, N.add_0_l in C.
  unfold groups, groups_of in C. cbv zeta in C.
  replace (N.to_nat (num_groups (N.of_nat (length mtfv)))) with (length sels) in C
    by (rewrite Ls; unfold groups, groups_of; apply chunk_length).
  rewrite gsum_chunk in C.
  rewrite (gbits_pad (Lsel n2o lens) (fun p => p = asN)) in C.
  2:{ intros t p ->. unfold Lsel. destruct (existsb _ _); [|destruct (N.to_nat asN); reflexivity].
      apply nth_overflow. rewrite Eas. apply Hrow. }
  2:{ apply Forall_forall. intros x Hx. apply repeat_spec in Hx. exact Hx. }
  rewrite <- C. rewrite dots_as_sum, Lf.
  transitivity (lsum (map (fun i => dot (nth i fr []) (nth i lens [])) (map N.to_nat n2o))).
  { rewrite map_map. f_equal. apply map_ext. intro t. apply dot_firstn. apply Hrow. }
  rewrite <- (sum_select (fun i => dot (nth i fr []) (nth i lens [])) nt (map N.to_nat n2o)).
  - f_equal. apply map_ext. intro i. rewrite N.add_0_l. unfold Lsel. rewrite existsb_N_nat.
    destruct (existsb _ _); [rewrite Nat2N.id; reflexivity|symmetry; apply dot_nil_r].
  - apply NoDup_map_to_nat. exact Hnd.
  - apply Forall_forall. intros x Hx. apply in_map_iff in Hx. destruct Hx as [y [<- Hy]].
    rewrite Forall_forall in Hlt. apply Hlt. exact Hy.
Qed.

Definition tab_of (tabs : list (list N)) (c : N) : list N := nth (N.to_nat c) tabs [].

Theorem gen_cost cf mtfv r : 1 <= cf -> gen_input_ok mtfv -> 3 <= last mtfv 0 + 1 ->
  gen_prefix_code cf mtfv = GOk r ->
  g_cost r = lsum (map tree_cost (g_tables r)) + gbits (tab_of (g_tables r)) (g_sels r) mtfv /\
  g_cost r < 2 ^ 27 /\
  hd 1 (g_sels r) = 0 /\ g_sels_old r <> [] /\ Forall (fun t => t < MAX_TREES) (g_sels_old r).
Proof.
  intros Hcf Hin Has3 H.
  pose proof (gen_with_run _ is_mcl_err make_code_lengths cf mtfv (mcl_wf_on_all _ _ make_code_lengths_wf) Hcf Hin
                (fun _ _ _ _ _ => I)) as R.
  fold (gen_prefix_code cf mtfv) in R. rewrite H in R. destruct Hin as [Hnm [Has Hsym]].
  destruct R as (lens0 & lens & sels & fr & lp & ro & sels' & R). cbv zeta in R.
  set (nm := N.of_nat (length mtfv)) in *. set (asN := last mtfv 0 + 1) in *. set (as_ := N.to_nat asN) in *.
  set (nt0 := choose_nt nt_thresholds nm) in *. set (groups := groups_of mtfv asN) in *.
  destruct R as (_ & ES & (Sh & sf & Esf & Q1 & Q2 & Q3 & Q4) & Ero & I & Hd & FL & Fr & ->).
  injection Esf as <-. cbn [fst snd] in Sh, Q1, Q2, Q3, Q4. rewrite N2Nat.id in Q2.
  cbn [g_cost g_tables g_sels g_sels_old].
  assert (HasN : N.of_nat as_ = asN) by (unfold as_; apply N2Nat.id).
  assert (Has' : (3 <= as_ <= 258)%nat) by (unfold as_; change MAX_ALPHA_SIZE with 258 in Has; lia).
  assert (Has2 : (2 <= as_ <= 258)%nat) by lia.
  pose proof (choose_nt_range nm) as Hnt0. fold nt0 in Hnt0. assert (Hnt6 : nt0 <= 6) by lia.
  pose proof (groups_of_spec mtfv asN Hsym) as G. cbv zeta in G. fold groups nm in G. destruct G as [G1 [_ G3]].
  assert (Hb : MAX_ALPHA_SIZE * lsum (concat fr) < 2 ^ 32).
  { pose proof (total_ok nm ltac:(lia)). rewrite Q4. change MAX_ALPHA_SIZE with 258 in *. lia. }
  assert (HT : lsum (concat fr) <= 900099).
  { rewrite Q4. unfold GEN_MAX_NM in Hnm. change MAX_BLOCK_SIZE with 900000 in Hnm. change GROUP_SIZE with 50 in *. lia. }
  pose proof (ro_init_inv as_ nt0 lens Hnt0 Sh) as I0.
  (* the cost accumulated by the reordering loop, and the bits of the prefix codes *)
  destruct (reorder_cost as_ nt0 fr Hnt6 Has' Q3 Hb sels _ ro Q2 I0 ltac:(split; cbn; lia) Ero) as [C1 C2].
  destruct (reorder_spec as_ nt0 fr Hnt6 Has2 Q3 Hb sels _ Q2 I0) as [ro' [Ero' [_ [Fin _]]]].
  rewrite Ero in Ero'. injection Ero' as <-.
  destruct Q3 as [Q3a Q3b]. destruct (ri_shape _ _ _ I) as [Sh1 Sh2].
  assert (K := used_rows_bits as_ (N.to_nat nt0) lp mtfv asN sels fr (ro_n2o ro) (ro_lens ro)
                 eq_refl ES Q1 Q3a (ri_nodup _ _ _ I)).
  specialize (K ltac:(eapply Forall_impl; [|apply (ri_old _ _ _ I)]; cbn beta; intros; lia) Sh2).
  unfold tcost in C1. rewrite lsum_map_add, K in C1.
  pose proof (n2o_le6 as_ nt0 fr Hnt6 Has' Hb ro I) as L6.
  assert (HBT : BT fr <= 18012563) by (unfold BT; lia).
  (* the first selector is the first entry of tmap_new2old *)
  destruct sels as [|t0 r0]; [exfalso; cbn [length] in Q1; rewrite G1 in Q1;
                               pose proof (num_groups_ge nm); change GROUP_SIZE with 50 in *; lia|].
  destruct (ro_n2o ro) as [|t0' ext] eqn:Hext; [discriminate|]. injection Hd as ->.
  (* the final state (ro itself, or ro with the dummy second tree): its cost is that of its tables plus the bits,
     tree t0 keeps number 0, and the tables of the trees ro used are unchanged *)
  set (ro2 := ro_last asN ro) in *. set (tab2 := fun t => nth (N.to_nat t) (ro_lens ro2) []) in *.
  assert (D : ro_cost ro2 = lsum (map tree_cost (map tab2 (ro_n2o ro2))) + gbits (Lsel (t0 :: ext) (ro_lens ro)) (t0 :: r0) mtfv /\
              ro_cost ro2 < 2 ^ 27 /\ nth_error (ro_n2o ro2) 0 = Some t0 /\
              forall t, In t (t0 :: ext) -> tab2 t = nth (N.to_nat t) (ro_lens ro) []).
  { unfold tab2, ro2, ro_last. rewrite (ri_cnt _ _ _ I), Hext.
    destruct (N.eqb_spec (N.of_nat (length (t0 :: ext))) 1) as [One|_].
    - destruct ext; [|cbn [length] in One; lia]. clear One.
      pose proof (ri_old _ _ _ I) as O. rewrite Hext in O. inversion O as [|? ? Hfirst _]; subst.
      destruct (lxor1_fact t0 ltac:(lia)) as [X1 X2].
      unfold ro_dummy. rewrite Hext. cbn [hd app ro_cost ro_n2o ro_lens map lsum nth_error length N.of_nat] in *.
      rewrite upd_nth_other by lia. rewrite upd_nth_same by (rewrite Sh1; change NTREES with 6%nat; lia).
      pose proof (dummy_cost as_ Has2) as DC. rewrite HasN in DC. fold as_. rewrite DC.
      set (d := if dummy_count asN <? asN then 2 else 0) in *.
      assert (Hd : d <= 2) by (subst d; destruct (dummy_count asN <? asN); lia). clearbody d.
      change MAX_ALPHA_SIZE with 258 in Has. change (2 ^ 27) with 134217728.
      rewrite (u32_small (ro_cost ro + d)), u32_small by (unfold U32; lia).
      split; [lia|]. split; [lia|]. split; [reflexivity|]. intros t [<-|[]]. apply upd_nth_other. lia.
    - rewrite Hext. cbn [nth_error]. rewrite map_map. fold tab2.
      split; [rewrite N.add_comm; exact C1|]. split; [change (2 ^ 27) with 134217728; nia|]. split; reflexivity. }
  destruct D as (D1 & D2 & D3 & D4).
  split; [|split; [exact D2|split; [|split; [discriminate|]]]].
  - rewrite D1. f_equal. symmetry. apply gbits_ext. apply (Forall2_In_impl _ _ _ _ Fr). intros t c Ht [Htc _].
    pose proof (rf_sels _ _ _ FL) as F2. rewrite Forall_forall in F2, Fin.
    destruct (In_nth_error _ _ (F2 t Ht)) as [j Hj]. rewrite (rf_inv _ _ _ FL j t Hj) in Htc. injection Htc as <-.
    unfold tab_of, Lsel. rewrite Nat2N.id, (nth_error_nth _ _ [] (map_nth_error tab2 j _ Hj)), D4 by (apply Fin, Ht).
    replace (existsb (N.eqb t) (t0 :: ext)) with true; [reflexivity|].
    symmetry. apply existsb_exists. exists t. split; [apply Fin, Ht|apply N.eqb_refl].
  - inversion Fr as [|? c0 ? cs [Hc0 _] _]; subst. cbn [hd].
    rewrite (rf_inv _ _ _ FL 0%nat t0 D3) in Hc0. injection Hc0 as <-. reflexivity.
  - eapply Forall_impl; [|exact Q2]. cbn beta. change MAX_TREES with 6. intros; lia.
Qed.

Print Assumptions gen_cost.
