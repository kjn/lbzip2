(* C20 - the array program [take] (Enc/PmLoop.v) computes the level sequences [ilev] (Enc/PmIdeal.v):
   array-level frame lemmas, facts about leaf_weight[], the refinement invariant and its preservation. *)
From Coq Require Import List NArith ZArith Arith Bool Lia ZifyBool ZifyNat Sorting.Sorted Sorting.Permutation.
From LBZ Require Import Gen.Consts Enc.PmModel Enc.PmBasics Enc.PmLoop Enc.PmIdeal Enc.PmReal.
Import ListNotations.
Local Open Scope N_scope.

Record wf (s : pm_st) : Prop := mkwf {
  wf_tree : length (tree s) = S MCL;
  wf_rows : forall e, (e <= MCL)%nat -> length (nth e (tree s) []) = S MCL;
  wf_pkg : length (pkgw s) = S MCL;
  wf_prev : length (prevw s) = S MCL;
  wf_curr : length (currw s) = S MCL;
  wf_pkg0 : nth 0 (pkgw s) 0 = MAXW
}.

Lemma MCL_pos : (1 <= MCL)%nat. Proof. vm_compute. lia. Qed.

Definition set_level (s : pm_st) (d : nat) (row : list N) (pw vw cw : N) : pm_st :=
  mkst (upd (tree s) d row) (upd (pkgw s) d pw) (upd (prevw s) d vw) (upd (currw s) d cw) (cnt s).

Definition agree_at (e : nat) (s s' : pm_st) : Prop :=
  nth e (tree s) [] = nth e (tree s') [] /\ nth e (pkgw s) 0 = nth e (pkgw s') 0 /\
  nth e (prevw s) 0 = nth e (prevw s') 0 /\ nth e (currw s) 0 = nth e (currw s') 0.

Lemma agree_refl e s : agree_at e s s.
Proof. repeat split. Qed.

Lemma agree_trans e s1 s2 s3 : agree_at e s1 s2 -> agree_at e s2 s3 -> agree_at e s1 s3.
Proof.
  intros [A1 [A2 [A3 A4]]] [B1 [B2 [B3 B4]]]. unfold agree_at.
  rewrite A1, A2, A3, A4. auto.
Qed.

Lemma set_level_frame s s' d row pw vw cw : s' = set_level s d row pw vw cw ->
  wf s -> (1 <= d <= MCL)%nat -> length row = S MCL ->
  wf s' /\ (forall e, e <> d -> agree_at e s s') /\
  nth d (tree s') [] = row /\ nth d (pkgw s') 0 = pw /\ nth d (prevw s') 0 = vw /\ nth d (currw s') 0 = cw.
Proof.
  intros -> [W1 W2 W3 W4 W5 W6] Hd Hrow. unfold set_level. split; [|split].
  - constructor; cbn [tree pkgw prevw currw]; rewrite ?upd_length; auto.
    + intros e He. rewrite nth_upd by lia. destruct (e =? d)%nat; [exact Hrow|apply W2; exact He].
    + rewrite upd_nth_other by lia. exact W6.
  - intros e He. unfold agree_at; cbn [tree pkgw prevw currw]. rewrite !upd_nth_other by congruence. repeat split.
  - cbn [tree pkgw prevw currw]. rewrite !upd_nth_same by lia. repeat split.
Qed.

Lemma upd_nth_id {A} (l : list A) d : forall i, upd l i (nth i l d) = l.
Proof. induction l as [|x l IH]; intros [|i]; cbn [upd nth]; try reflexivity. rewrite IH. reflexivity. Qed.

(* explicit result of the package update *)
Lemma take_pkg_ok s d1 pw : wf s -> (S d1 <= MCL)%nat ->
  pm_take_pkg s (S d1) d1 pw =
  Ok (set_level s (S d1) (hd 0 (nth (S d1) (tree s) []) :: firstn MCL (nth d1 (tree s) []))
                (weight_add (nth (S d1) (prevw s) 0) pw) pw (nth (S d1) (currw s) 0)).
Proof.
  intros [Ht Hr Hp Hv Hc _] Hd. unfold set_level. rewrite upd_nth_id. unfold pm_take_pkg, copy_row.
  rewrite (rd_ok ATree (tree s) d1 []) by lia. cbn [bind].
  rewrite (rd_ok ATree (tree s) (S d1) []) by lia. cbn [bind].
  pose proof (Hr d1 ltac:(lia)) as L1. pose proof (Hr (S d1) Hd) as L2.
  destruct (Nat.leb_spec MCL (length (nth d1 (tree s) []))) as [_|H]; [|lia].
  destruct (nth (S d1) (tree s) []) as [|x tlr] eqn:E; [discriminate|]. cbn [length] in L2.
  destruct (Nat.leb_spec MCL (length tlr)) as [_|H]; [|lia].
  rewrite wr_ok by lia. cbn [bind].
  rewrite (rd_ok APrev (prevw s) (S d1) 0) by lia. cbn [bind].
  rewrite wr_ok by lia. cbn [bind]. rewrite wr_ok by lia. cbn [bind].
  rewrite skipn_all2 by lia. rewrite app_nil_r. reflexivity.
Qed.

(* explicit result of the leaf update *)
Lemma take_leaf_ok lw as_ s d cw : wf s -> (d <= MCL)%nat ->
  let t0 := hd 0 (nth d (tree s) []) in
  t0 + 1 <= as_ -> (N.to_nat (as_ - (t0 + 1)) < length lw)%nat ->
  pm_take_leaf lw as_ s d cw =
  Ok (set_level s d (t0 + 1 :: tl (nth d (tree s) [])) (weight_add (nth d (prevw s) 0) cw) cw
                (nth (N.to_nat (as_ - (t0 + 1))) lw 0)).
Proof.
  intros [Ht Hr Hp Hv Hc _] Hd t0 Has Hlw. unfold pm_take_leaf, rd2, wr2.
  rewrite (rd_ok ATree (tree s) d []) by lia. cbn [bind].
  pose proof (Hr d Hd) as L2.
  destruct (nth d (tree s) []) as [|x tlr] eqn:E; [discriminate|]. cbn [length] in L2.
  subst t0. cbn [hd tl] in *.
  rewrite (rd_ok ARow (x :: tlr) 0 0) by (cbn [length]; lia). cbn [bind nth].
  cbn [bind].
  rewrite wr_ok by (cbn [length]; lia). cbn [bind upd].
  rewrite wr_ok by lia. cbn [bind].
  rewrite (rd_ok APrev (prevw s) d 0) by lia. cbn [bind].
  rewrite wr_ok by lia. cbn [bind]. rewrite wr_ok by lia. cbn [bind].
  destruct (N.leb_spec (x + 1) as_) as [_|H]; [|lia].
  rewrite (rd_ok ALeaf lw _ 0) by exact Hlw. cbn [bind].
  rewrite wr_ok by lia. cbn [bind]. reflexivity.
Qed.

Definition geR (a b : N) : Prop := b <= a.

Lemma insert_desc_perm t l : Permutation (insert_desc t l) (t :: l).
Proof.
  induction l as [|x r IH]; cbn [insert_desc]; [reflexivity|].
  destruct (x <? t); [reflexivity|].
  rewrite IH. apply perm_swap.
Qed.

Lemma insert_desc_sorted t l : StronglySorted geR l -> StronglySorted geR (insert_desc t l).
Proof.
  induction l as [|x r IH]; intro H; cbn [insert_desc].
  - constructor; constructor.
  - inversion H as [|? ? Hr Hx]; subst.
    destruct (N.ltb_spec x t) as [Hlt|Hge].
    + constructor; [exact H|]. constructor; [unfold geR; lia|].
      eapply Forall_impl; [|exact Hx]. unfold geR. intros; lia.
    + constructor; [apply IH; exact Hr|].
      apply Forall_forall. intros y Hy.
      apply (Permutation_in _ (insert_desc_perm t r)) in Hy. destruct Hy as [<-|Hy]; [exact Hge|].
      rewrite Forall_forall in Hx. apply Hx. exact Hy.
Qed.

Lemma sort_desc_gen l : forall acc, StronglySorted geR acc ->
  StronglySorted geR (fold_left (fun a t => insert_desc t a) l acc) /\
  Permutation (fold_left (fun a t => insert_desc t a) l acc) (l ++ acc).
Proof.
  induction l as [|x r IH]; intros acc Hacc; cbn [fold_left app]; [split; [exact Hacc|reflexivity]|].
  destruct (IH (insert_desc x acc) (insert_desc_sorted x acc Hacc)) as [S1 P1]. split; [exact S1|].
  rewrite P1. rewrite insert_desc_perm. symmetry. apply Permutation_middle.
Qed.

Lemma sort_desc_sorted l : StronglySorted geR (sort_desc l).
Proof. apply sort_desc_gen. constructor. Qed.

Lemma sort_desc_perm l : Permutation (sort_desc l) l.
Proof. destruct (sort_desc_gen l [] ltac:(constructor)) as [_ P]. rewrite app_nil_r in P. exact P. Qed.

Lemma ssorted_nth l : StronglySorted geR l -> forall i j, (i <= j)%nat -> (j < length l)%nat -> nth j l 0 <= nth i l 0.
Proof.
  induction 1 as [|x r Hr IH Hx]; intros i j Hij Hj; cbn [length] in Hj; [lia|].
  destruct i as [|i], j as [|j]; cbn [nth]; try lia.
  - rewrite Forall_forall in Hx. apply Hx. apply nth_In. lia.
  - apply IH; lia.
Qed.

Definition Fof (w : N) : N := w / U32.

Definition labels (f : list N) : list N := label_from 0 f.

(* the ascending frequency list that the proofs work with *)
Definition xs_of (f : list N) : list N := map Fof (rev (sort_desc (labels f))).

Lemma label_from_length k f : length (label_from k f) = length f.
Proof. revert k; induction f as [|x r IH]; intro k; cbn [label_from length]; auto. Qed.

Lemma label_from_nth f : forall k j, (j < length f)%nat ->
  nth j (label_from k f) 0 = leaf_label (nth j f 0) (k + N.of_nat j).
Proof.
  induction f as [|x r IH]; intros k j Hj; cbn [length] in Hj; [lia|].
  destruct j as [|j]; cbn [label_from nth].
  - f_equal. lia.
  - rewrite IH by lia. f_equal. lia.
Qed.

Definition leaf_shaped (w : N) : Prop :=
  exists F L, w = enc F L /\ F < U32 /\ 65536 < L /\ L < 2 ^ 17.

Lemma labels_shaped f : (length f <= N.to_nat MAX_ALPHA_SIZE)%nat -> Forall (fun x => x < U32) f ->
  Forall leaf_shaped (labels f).
Proof.
  intros Hn Hf. apply Forall_forall. intros w Hw.
  apply (In_nth _ _ 0) in Hw. destruct Hw as [j [Hj <-]].
  unfold labels in *. rewrite label_from_length in Hj. rewrite label_from_nth by exact Hj.
  pose proof MAS_lt_2p16 as HM.
  rewrite leaf_label_enc by lia.
  exists (nth j f 0), (65536 + (MAX_ALPHA_SIZE - (0 + N.of_nat j))).
  split; [reflexivity|]. split; [|lia].
  rewrite Forall_forall in Hf. apply Hf. apply nth_In. exact Hj.
Qed.

Lemma Fof_enc F L : L < U32 -> Fof (enc F L) = F.
Proof. apply enc_div. Qed.

Lemma Fof_mono a b : a <= b -> Fof a <= Fof b.
Proof. intro H. unfold Fof. apply N.div_le_mono; [unfold U32; lia|exact H]. Qed.

Section LeafWeight.
Variable f : list N.
Notation n := (length f).
Hypothesis Hn2 : (2 <= n)%nat.
Hypothesis Hnmax : (n <= N.to_nat MAX_ALPHA_SIZE)%nat.
Hypothesis Hf : Forall (fun x => x < U32) f.

Let sorted := sort_desc (labels f).
Let lw := make_leaf_weight f.
Let xs := xs_of f.

Lemma sorted_length : length sorted = n.
Proof. unfold sorted. rewrite (Permutation_length (sort_desc_perm _)). apply label_from_length. Qed.

Lemma lw_length : length lw = S n.
Proof. unfold lw, make_leaf_weight. cbn [length]. change (sort_desc (label_from 0 f)) with sorted. rewrite sorted_length. reflexivity. Qed.

Lemma xs_length : length xs = n.
Proof. unfold xs, xs_of. rewrite map_length, rev_length. apply sorted_length. Qed.

Lemma lw_0 : nth 0 lw 0 = MAXW.
Proof. reflexivity. Qed.

Lemma sorted_shaped : Forall leaf_shaped sorted.
Proof.
  apply Forall_forall. intros w Hw. apply (Permutation_in _ (sort_desc_perm _)) in Hw.
  pose proof (labels_shaped f Hnmax Hf) as H. rewrite Forall_forall in H. apply H. exact Hw.
Qed.

(* leaf_weight[n - e] is the packed weight of the (e+1)-th lightest leaf *)
Lemma lw_leaf e : (e < n)%nat ->
  exists L, nth (n - e) lw 0 = enc (leafF xs e) L /\ leafF xs e < U32 /\ 65536 < L /\ L < 2 ^ 17.
Proof.
  intro He. unfold lw, make_leaf_weight. change (sort_desc (label_from 0 f)) with sorted.
  replace (n - e)%nat with (S (n - 1 - e)) by lia. cbn [nth].
  pose proof sorted_length as SL.
  assert (Hin : In (nth (n - 1 - e) sorted 0) sorted) by (apply nth_In; lia).
  pose proof sorted_shaped as SS. rewrite Forall_forall in SS.
  destruct (SS _ Hin) as [F [L [E [HF [HL1 HL2]]]]].
  exists L. rewrite E.
  assert (EF : leafF xs e = F).
  { unfold leafF, xs, xs_of. fold sorted.
    rewrite (nth_indep _ 0 (Fof 0)) by (rewrite map_length, rev_length; lia).
    rewrite map_nth. rewrite rev_nth by lia. rewrite SL.
    replace (n - S e)%nat with (n - 1 - e)%nat by lia.
    rewrite E. apply Fof_enc. unfold U32; lia. }
  rewrite EF. auto.
Qed.

Lemma xs_sorted : forall i j, (i <= j)%nat -> (j < length xs)%nat -> leafF xs i <= leafF xs j.
Proof.
  intros i j Hij Hj. rewrite xs_length in Hj. pose proof sorted_length as SL.
  unfold leafF, xs, xs_of. fold sorted.
  assert (G : forall k, (k < n)%nat -> nth k (map Fof (rev sorted)) 0 = Fof (nth (n - S k) sorted 0)).
  { intros k Hk. rewrite (nth_indep _ 0 (Fof 0)) by (rewrite map_length, rev_length; lia).
    rewrite map_nth. rewrite rev_nth by lia. rewrite SL. reflexivity. }
  rewrite !G by lia.
  apply Fof_mono. apply ssorted_nth; [apply sort_desc_sorted|lia|lia].
Qed.

Lemma xs_perm : Permutation xs (rev f).
Proof.
  unfold xs, xs_of.
  assert (E : f = map Fof (labels f)).
  { apply nth_ext with (d := 0) (d' := Fof 0).
    - rewrite map_length. unfold labels. rewrite label_from_length. reflexivity.
    - intros j Hj. rewrite map_nth. unfold labels. rewrite label_from_nth by exact Hj.
      pose proof MAS_lt_2p16 as HM.
      rewrite leaf_label_enc by lia. rewrite Fof_enc by (unfold U32; lia). reflexivity. }
  rewrite E at 2. rewrite <- map_rev. apply Permutation_map. rewrite <- !Permutation_rev.
  apply sort_desc_perm.
Qed.

Lemma xs_total : lsum xs = lsum f.
Proof. rewrite (lsum_perm _ _ xs_perm). apply lsum_perm. symmetry. apply Permutation_rev. Qed.
End LeafWeight.

Lemma wadd_shape d Fv Lv Fx Lx :
  Lv < d * 2 ^ 24 -> Lx < d * 2 ^ 24 -> d <= 20 -> Fv + Fx < U32 ->
  exists D, weight_add (enc Fv Lv) (enc Fx Lx) = enc (Fv + Fx) (D * 2 ^ 24) /\ 1 <= D <= d.
Proof.
  intros H1 H2 Hd HF.
  rewrite weight_add_enc by (try assumption; lia).
  exists (N.max (Lv / 2 ^ 24) (Lx / 2 ^ 24) + 1). split; [reflexivity|].
  assert (Lv / 2 ^ 24 < d) by (apply N.div_lt_upper_bound; lia).
  assert (Lx / 2 ^ 24 < d) by (apply N.div_lt_upper_bound; lia).
  lia.
Qed.

Lemma take_SS lw as_ d0 s :
  take lw as_ (S (S d0)) s =
  do pw <- rd APkg (pkgw s) (S d0);
  do cw <- rd ACurr (currw s) (S (S d0));
  if pw <=? cw then (do s1 <- pm_take_pkg s (S (S d0)) (S d0) pw; do s2 <- take lw as_ (S d0) s1; take lw as_ (S d0) s2)
  else pm_take_leaf lw as_ s (S (S d0)) cw.
Proof. reflexivity. Qed.

Section Refine.
Variable f : list N.
Notation n := (length f).
Hypothesis Hn2 : (2 <= n)%nat.
Hypothesis Hnmax : (n <= N.to_nat MAX_ALPHA_SIZE)%nat.
Hypothesis Hf : Forall (fun x => x < U32) f.
Hypothesis HB : N.of_nat (Nat.max n MCL) * lsum f < U32.
Hypothesis HMCL : (MCL <= 20)%nat.

Let lw := make_leaf_weight f.
Let xs := xs_of f.
Notation L := (ilev xs).
Notation El := (ell xs).
Notation Pk := (pk xs).

Let Hxn : length xs = n := xs_length f.
Let Hxn2 : (2 <= length xs)%nat.
Proof. rewrite Hxn. exact Hn2. Qed.
Let Hxs := xs_sorted f Hn2 Hnmax.
Let IA := inv_all xs Hxn2 Hxs.

Definition lvl_ok (s : pm_st) (d : nat) (I : il) : Prop :=
  nth d (tree s) [] = ia I /\
  (exists D, nth d (pkgw s) 0 = enc (ipkg I) (D * 2 ^ 24) /\ 1 <= D <= N.of_nat d) /\
  (exists Lv, nth d (prevw s) 0 = enc (iprev I) Lv /\ Lv < N.of_nat d * 2 ^ 24) /\
  nth d (currw s) 0 = nth (n - N.to_nat (hd 0 (ia I))) lw 0.

Fixpoint Cons (d : nat) (s : pm_st) (t : nat) : Prop :=
  match d with
  | O => True
  | S d1 => (2 <= t)%nat /\ (t <= 2 * n - 2)%nat /\ lvl_ok s (S d1) (L (S d1) t) /\
            Cons d1 s (2 * Pk (S d1) t + 2)
  end.

Lemma lvl_ok_agree s s' d I : agree_at d s s' -> lvl_ok s d I -> lvl_ok s' d I.
Proof. intros [A1 [A2 [A3 A4]]] H. unfold lvl_ok in *. rewrite <- A1, <- A2, <- A3, <- A4. exact H. Qed.

Lemma Cons_agree d : forall s s' t, (forall e, (e <= d)%nat -> agree_at e s s') -> Cons d s t -> Cons d s' t.
Proof.
  induction d as [|d1 IH]; intros s s' t HA H; [exact I|].
  cbn [Cons] in *. destruct H as [H1 [H2 [H3 H4]]].
  split; [exact H1|]. split; [exact H2|]. split.
  - eapply lvl_ok_agree; [apply HA; lia|exact H3].
  - eapply IH; [|exact H4]. intros e He. apply HA. lia.
Qed.

Lemma pkg_lt_U32 d1 t : (S d1 <= MCL)%nat -> (2 <= t)%nat -> (t <= 2 * n - 2)%nat -> ipkg (L (S d1) t) < U32.
Proof.
  intros Hd Ht Hle.
  pose proof (pkg_bound xs Hxn2 Hxs d1 t Hd Ht) as H. rewrite Hxn in H. specialize (H Hle).
  unfold xs in H. rewrite (xs_total f Hn2 Hnmax) in H. fold xs in H. lia.
Qed.

Lemma hd_ia d1 t : (2 <= t)%nat -> hd 0 (ia (L (S d1) t)) = N.of_nat (El (S d1) t).
Proof. intro Ht. rewrite El_unfold. lia. Qed.

(* a leaf is taken at level d *)
Lemma leaf_step s d1 t : wf s -> (S d1 <= MCL)%nat -> (2 <= t)%nat -> (S t <= 2 * n - 2)%nat ->
  lvl_ok s (S d1) (L (S d1) t) -> (El (S d1) t < n)%nat -> L (S d1) (S t) = il_leaf xs (L (S d1) t) ->
  exists s', pm_take_leaf lw (N.of_nat n) s (S d1) (nth (S d1) (currw s) 0) = Ok s' /\ wf s' /\
             lvl_ok s' (S d1) (L (S d1) (S t)) /\ (forall e, e <> S d1 -> agree_at e s s') /\ cnt s' = cnt s.
Proof.
  intros Hwf Hd Ht Hle [Htree [[D [Epkg HD]] [[Lv [Eprev HLv]] Ecurr]]] Hlt Hnext.
  pose proof (hd_ia d1 t Ht) as Hhd. set (e := El (S d1) t) in *. set (I := L (S d1) t) in *.
  pose proof (lw_length f) as Hlw. fold lw in Hlw.
  destruct (lw_leaf f Hn2 Hnmax Hf e Hlt) as [Lc [Ecw [HF [HL1 HL2]]]]. fold lw xs in Ecw, HF.
  rewrite Hhd, Nnat.Nat2N.id in Ecurr. rewrite Ecw in Ecurr.
  pose proof (take_leaf_ok lw (N.of_nat n) s (S d1) (nth (S d1) (currw s) 0) Hwf Hd) as TL.
  cbn zeta in TL. rewrite Htree, Hhd in TL.
  specialize (TL ltac:(lia) ltac:(lia)).
  eexists. split; [exact TL|].
  pose proof (inv_len _ _ _ (IA d1 t Ht)) as Ilen. fold I in Ilen.
  assert (Hsum : iprev I + leafF xs e < U32).
  { pose proof (pkg_lt_U32 d1 (S t) Hd ltac:(lia) Hle) as H. rewrite Hnext in H.
    unfold il_leaf in H; cbn [ipkg] in H. rewrite Hhd, Nnat.Nat2N.id in H. exact H. }
  remember (set_level _ _ _ _ _ _) as s' eqn:Es'.
  destruct (set_level_frame _ _ _ _ _ _ _ Es' Hwf ltac:(lia)) as (W' & Ag & R1 & R2 & R3 & R4).
  { cbn [length]. destruct (ia I); cbn [length tl] in *; lia. }
  split; [exact W'|]. split; [|split; [exact Ag|rewrite Es'; reflexivity]].
  unfold lvl_ok. rewrite R1, R2, R3, R4, Hnext. unfold il_leaf; cbn [ia ipkg iprev hd].
  rewrite Hhd, Nnat.Nat2N.id. split; [reflexivity|]. split; [|split].
  - rewrite Eprev, Ecurr.
    destruct (wadd_shape (N.of_nat (S d1)) (iprev I) Lv (leafF xs e) Lc) as [D' [E' HD']]; try lia.
    exists D'. split; [exact E'|lia].
  - exists Lc. split; [exact Ecurr|lia].
  - f_equal. lia.
Qed.

(* a package is taken at level d0+2 *)
Lemma pkg_step s d0 t lo : wf s -> (S (S d0) <= MCL)%nat -> (2 <= t)%nat -> (S t <= 2 * n - 2)%nat ->
  lvl_ok s (S (S d0)) (L (S (S d0)) t) -> lvl_ok s (S d0) lo -> ipkg lo < U32 ->
  L (S (S d0)) (S t) = il_pkg (L (S (S d0)) t) lo ->
  exists s', pm_take_pkg s (S (S d0)) (S d0) (nth (S d0) (pkgw s) 0) = Ok s' /\ wf s' /\
             lvl_ok s' (S (S d0)) (L (S (S d0)) (S t)) /\ (forall e, e <> S (S d0) -> agree_at e s s') /\ cnt s' = cnt s.
Proof.
  intros Hwf Hd Ht Hle [Htree [[D [Epkg HD]] [[Lv [Eprev HLv]] Ecurr]]]
         [Ltree [[Dl [Lpkg HDl]] _]] Hlo Hnext.
  set (I := L (S (S d0)) t) in *.
  pose proof (take_pkg_ok s (S d0) (nth (S d0) (pkgw s) 0) Hwf Hd) as TP.
  eexists. split; [exact TP|].
  assert (Hsum : iprev I + ipkg lo < U32).
  { pose proof (pkg_lt_U32 (S d0) (S t) Hd ltac:(lia) Hle) as H. rewrite Hnext in H. exact H. }
  remember (set_level _ _ _ _ _ _) as s' eqn:Es'.
  destruct (set_level_frame _ _ _ _ _ _ _ Es' Hwf ltac:(lia)) as (W' & Ag & R1 & R2 & R3 & R4).
  { cbn [length]. rewrite firstn_length. pose proof (wf_rows s Hwf (S d0) ltac:(lia)). lia. }
  split; [exact W'|]. split; [|split; [exact Ag|rewrite Es'; reflexivity]].
  unfold lvl_ok. rewrite R1, R2, R3, R4, Hnext. unfold il_pkg; cbn [ia ipkg iprev hd].
  rewrite Htree, Ltree. split; [reflexivity|]. split; [|split].
  - rewrite Eprev, Lpkg.
    destruct (wadd_shape (N.of_nat (S (S d0))) (iprev I) Lv (ipkg lo) (Dl * 2 ^ 24)) as [D' [E' HD']]; try lia.
    exists D'. split; [exact E'|lia].
  - exists (Dl * 2 ^ 24). split; [exact Lpkg|lia].
  - exact Ecurr.
Qed.

Lemma leaf_lt_MAXW F Lc : F < U32 -> Lc < 2 ^ 17 -> enc F Lc < MAXW.
Proof. unfold enc, U32, MAXW. lia. Qed.

(* a leaf is taken at level d1+1: the levels below are untouched *)
Lemma leaf_ref s d1 t : wf s -> Cons (S d1) s t -> (S d1 <= MCL)%nat -> (S t <= 2 * n - 2)%nat ->
  (El (S d1) t < n)%nat -> El (S d1) (S t) = S (El (S d1) t) -> L (S d1) (S t) = il_leaf xs (L (S d1) t) ->
  exists s', pm_take_leaf lw (N.of_nat n) s (S d1) (nth (S d1) (currw s) 0) = Ok s' /\ wf s' /\ Cons (S d1) s' (S t) /\
             (forall e, (S d1 < e)%nat -> agree_at e s s') /\ cnt s' = cnt s.
Proof.
  intros Hwf HC Hd Hle Hlt E' E. cbn [Cons] in HC. destruct HC as [Ht [Ht2 [Hlv Hlow]]].
  destruct (leaf_step s d1 t Hwf Hd Ht Hle Hlv Hlt E) as [s' [E1 [W' [Lv' [Ag Cn]]]]].
  exists s'. split; [exact E1|]. split; [exact W'|]. split; [|split; [intros e He; apply Ag; lia|exact Cn]].
  cbn [Cons]. split; [lia|]. split; [lia|]. split; [exact Lv'|].
  replace (Pk (S d1) (S t)) with (Pk (S d1) t) by (rewrite !Pk_unfold, E'; lia).
  eapply Cons_agree; [|exact Hlow]. intros e He. apply Ag. lia.
Qed.

(* one take at level d1+1, all levels below consistent: the array program follows the level sequences *)
Lemma take_ref d1 : forall s t, wf s -> Cons (S d1) s t -> (S d1 <= MCL)%nat -> (S t <= 2 * n - 2)%nat ->
  exists s', take lw (N.of_nat n) (S d1) s = Ok s' /\ wf s' /\ Cons (S d1) s' (S t) /\
             (forall e, (S d1 < e)%nat -> agree_at e s s') /\ cnt s' = cnt s.
Proof.
  induction d1 as [|d0 IH]; intros s t Hwf HC Hd Hle; pose proof HC as HC0; cbn [Cons] in HC.
  - (* level 1: pkg_weight[0] = MAXW exceeds every leaf, and equals the sentinel leaf_weight[0] *)
    destruct HC as [Ht [Ht2 [Hlv _]]]. pose proof Hlv as [_ [_ [_ Ecurr]]].
    rewrite (hd_ia 0 t Ht), Nnat.Nat2N.id in Ecurr.
    cbn [take]. rewrite (rd_ok APkg (pkgw s) 0 0) by (rewrite (wf_pkg s Hwf); lia). cbn [bind].
    rewrite (rd_ok ACurr (currw s) 1 0) by (rewrite (wf_curr s Hwf); lia). cbn [bind].
    rewrite (wf_pkg0 s Hwf), Ecurr.
    destruct (take_cases xs Hxn2 0 t Ht) as [[E [_ [_ Hge]]] | [[E [E' [Hlt _]]] | [_ [_ [D0 _]]]]]; [| |congruence];
      rewrite Hxn in *.
    + replace (n - El 1 t)%nat with 0%nat by lia. change (nth 0 lw 0) with MAXW. rewrite N.leb_refl.
      exists s. split; [reflexivity|]. split; [exact Hwf|]. split; [|split; [intros; apply agree_refl|reflexivity]].
      cbn [Cons]. rewrite E. split; [lia|]. split; [lia|]. split; [exact Hlv|exact I].
    + destruct (lw_leaf f Hn2 Hnmax Hf _ Hlt) as [Lc [Ecw [HF [HL1 HL2]]]]. fold lw xs in Ecw, HF.
      replace (MAXW <=? nth (n - El 1 t) lw 0) with false
        by (symmetry; rewrite Ecw; apply N.leb_gt, leaf_lt_MAXW; assumption).
      rewrite <- Ecurr. apply (leaf_ref s 0 t); assumption.
  - (* level d0 + 2 *)
    destruct HC as [Ht [Ht2 [Hlv [Ht3 [Ht4 [Hlo HClow]]]]]].
    set (p := Pk (S (S d0)) t) in *. set (lo := L (S d0) (2 * p + 2)) in *.
    pose proof Hlv as [_ [_ [_ Ecurr]]]. pose proof Hlo as [_ [[Dl [Lpkg HDl]] _]].
    rewrite (hd_ia (S d0) t Ht), Nnat.Nat2N.id in Ecurr.
    pose proof (IA (S d0) t Ht) as Inv0.
    pose proof (inv_hi _ _ _ Inv0) as Ihi. rewrite Hxn in Ihi. pose proof (inv_t _ _ _ Inv0) as It.
    assert (Hlo32 : ipkg lo < U32) by (apply pkg_lt_U32; lia).
    rewrite take_SS. rewrite (rd_ok APkg (pkgw s) (S d0) 0) by (rewrite (wf_pkg s Hwf); lia). cbn [bind].
    rewrite (rd_ok ACurr (currw s) (S (S d0)) 0) by (rewrite (wf_curr s Hwf); lia). cbn [bind].
    rewrite Lpkg, Ecurr.
    destruct (take_cases xs Hxn2 (S d0) t Ht) as [[_ [_ [D0 _]]] | [[E [E' [Hlt Hcmp]]] | [E [E' [_ Hcmp]]]]];
      [congruence| |]; rewrite Hxn in *; fold p lo in Hcmp.
    + (* leaf: the packed comparison says "package heavier or equal" *)
      destruct (lw_leaf f Hn2 Hnmax Hf _ Hlt) as [Lc [Ecw [HF [HL1 HL2]]]]. fold lw xs in Ecw, HF.
      replace (enc (ipkg lo) (Dl * 2 ^ 24) <=? nth (n - El (S (S d0)) t) lw 0) with false
        by (symmetry; rewrite Ecw; apply N.leb_gt, enc_lt_iff; unfold U32; specialize (Hcmp ltac:(lia)); lia).
      rewrite <- Ecurr. apply (leaf_ref s (S d0) t); assumption.
    + (* package, then two takes one level down *)
      replace (enc (ipkg lo) (Dl * 2 ^ 24) <=? nth (n - El (S (S d0)) t) lw 0) with true.
      2:{ symmetry. apply N.leb_le. destruct (Nat.le_gt_cases n (El (S (S d0)) t)) as [Hge|Hlt'].
          - replace (n - El (S (S d0)) t)%nat with 0%nat by lia. change (nth 0 lw 0) with MAXW.
            assert (enc (ipkg lo) (Dl * 2 ^ 24) < U64) by (apply enc_lt; unfold U32 in *; lia).
            unfold MAXW, U64 in *. lia.
          - destruct (lw_leaf f Hn2 Hnmax Hf (El (S (S d0)) t) Hlt') as [Lc [Ecw [HF [HL1 HL2]]]].
            fold lw xs in Ecw, HF. rewrite Ecw. apply enc_le; unfold U32; lia. }
      destruct (pkg_step s d0 t lo Hwf Hd Ht Hle Hlv Hlo Hlo32 E) as [s1 [E1 [W1 [Lv1 [Ag1 Cn1]]]]].
      rewrite <- Lpkg, E1. cbn [bind].
      assert (Pk' : Pk (S (S d0)) (S t) = S p) by (rewrite Pk_unfold, E'; unfold p; rewrite Pk_unfold; lia).
      pose proof (K_bound xs Hxn2 Hxs (S d0) (S t) ltac:(lia)) as HK. rewrite Hxn in HK.
      specialize (HK Hle). rewrite Pk' in HK.
      assert (C1 : Cons (S d0) s1 (2 * p + 2)).
      { eapply Cons_agree; [|cbn [Cons]; split; [exact Ht3|split; [exact Ht4|split; [exact Hlo|exact HClow]]]].
        intros e He. apply Ag1. lia. }
      destruct (IH s1 (2 * p + 2)%nat W1 C1 ltac:(lia) ltac:(lia)) as [s2 [E2 [W2 [C2 [Ag2 Cn2]]]]].
      rewrite E2. cbn [bind].
      destruct (IH s2 (S (2 * p + 2)) W2 C2 ltac:(lia) ltac:(lia)) as [s3 [E3 [W3 [C3 [Ag3 Cn3]]]]].
      exists s3. split; [exact E3|]. split; [exact W3|]. split; [|split].
      * cbn [Cons]. split; [lia|]. split; [lia|]. split.
        -- eapply lvl_ok_agree; [|exact Lv1]. eapply agree_trans; [apply Ag2|apply Ag3]; lia.
        -- rewrite Pk'. replace (2 * S p + 2)%nat with (S (S (2 * p + 2))) by lia. exact C3.
      * intros e He. eapply agree_trans; [apply Ag1; lia|]. eapply agree_trans; [apply Ag2|apply Ag3]; lia.
      * congruence.
Qed.

Definition init_row : list N := 2 :: repeat 0 MCL.

Lemma zero_tree_row e : (e <= MCL)%nat -> nth e zero_tree [] = repeat 0 (S MCL).
Proof.
  intro He. unfold zero_tree. remember (repeat 0 (S MCL)) as z.
  assert (G : forall k e0, (e0 < k)%nat -> nth e0 (repeat z k) [] = z).
  { induction k as [|k IHk]; intros [|e0] H; cbn [repeat nth]; try lia; auto. apply IHk. lia. }
  apply G. lia.
Qed.

Lemma init_loop_ok (as2 : nat) (wa wb wc : N) : n = S (S as2) ->
  nth (S (S as2)) lw 0 = wa -> nth (S as2) lw 0 = wb -> nth as2 lw 0 = wc ->
  forall k depth s, (depth + k = S MCL)%nat -> (1 <= depth)%nat -> wf s ->
  (forall e, (depth <= e)%nat -> (e <= MCL)%nat -> nth e (tree s) [] = repeat 0 (S MCL)) ->
  exists s', pm_init_loop k depth lw (S (S as2)) s = Ok s' /\ wf s' /\ cnt s' = cnt s /\
    (forall e, (e < depth)%nat -> agree_at e s s') /\
    (forall e, (depth <= e)%nat -> (e <= MCL)%nat ->
       nth e (tree s') [] = init_row /\ nth e (pkgw s') 0 = weight_add wa wb /\
       nth e (prevw s') 0 = wb /\ nth e (currw s') 0 = wc).
Proof.
  intros En Ea Eb Ec. pose proof (lw_length f) as Hlw. fold lw in Hlw.
  induction k as [|k IHk]; intros depth s Hk Hd1 Hwf Hz.
  - exists s. cbn [pm_init_loop]. split; [reflexivity|]. split; [exact Hwf|]. split; [reflexivity|].
    split; [intros; apply agree_refl|]. intros e H1 H2. lia.
  - cbn [pm_init_loop]. pose proof Hwf as [W1 W2 W3 W4 W5 W6].
    unfold wr2. rewrite (rd_ok ATree (tree s) depth []) by lia. cbn [bind].
    rewrite (Hz depth ltac:(lia) ltac:(lia)).
    rewrite wr_ok by (rewrite repeat_length; lia). cbn [bind].
    rewrite wr_ok by lia. cbn [bind].
    rewrite (rd_ok ALeaf lw (S (S as2)) 0) by lia. cbn [bind].
    rewrite (rd_ok ALeaf lw (S as2) 0) by lia. cbn [bind].
    rewrite (rd_ok ALeaf lw as2 0) by lia. cbn [bind].
    rewrite Ea, Eb, Ec.
    rewrite wr_ok by lia. cbn [bind]. rewrite wr_ok by lia. cbn [bind]. rewrite wr_ok by lia. cbn [bind].
    change (mkst _ _ _ _ _) with (set_level s depth init_row (weight_add wa wb) wb wc).
    destruct (set_level_frame s _ depth init_row (weight_add wa wb) wb wc eq_refl Hwf ltac:(lia)) as (Wf1 & Ag & R1 & R2 & R3 & R4);
      [unfold init_row; cbn [length]; rewrite repeat_length; reflexivity|].
    set (s1 := set_level _ _ _ _ _ _) in *.
    destruct (IHk (S depth) s1 ltac:(lia) ltac:(lia) Wf1) as [s' [E' [W' [C' [A' R']]]]].
    { intros e H1 H2. destruct (Ag e ltac:(lia)) as [<- _]. apply Hz; lia. }
    exists s'. split; [exact E'|]. split; [exact W'|]. split; [rewrite C'; reflexivity|]. split.
    + intros e He. eapply agree_trans; [apply Ag; lia|apply A'; lia].
    + intros e H1 H2. destruct (Nat.eq_dec e depth) as [->|Hne]; [|apply R'; lia].
      destruct (A' depth ltac:(lia)) as [B1 [B2 [B3 B4]]]. rewrite <- B1, <- B2, <- B3, <- B4. auto.
Qed.

Lemma pm_init_ok : exists s0, pm_init lw n zero_tree = Ok s0 /\ wf s0 /\ length (cnt s0) = COUNT_LEN /\
  forall d, (d <= MCL)%nat -> Cons d s0 2.
Proof.
  assert (exists as2, n = S (S as2)) as [as2 En] by (exists (n - 2)%nat; lia).
  pose proof (lw_length f) as Hlw. fold lw in Hlw.
  unfold pm_init. rewrite wr_ok by (rewrite repeat_length; lia). cbn [bind].
  set (s00 := mkst _ _ _ _ _).
  assert (Wf0 : wf s00).
  { constructor; unfold s00; cbn [tree pkgw prevw currw]; rewrite ?upd_length, ?repeat_length; auto.
    all: try (unfold zero_tree; apply repeat_length).
    all: try (intros e He; rewrite zero_tree_row by exact He; apply repeat_length). }
  destruct (init_loop_ok as2 _ _ _ En eq_refl eq_refl eq_refl MCL 1%nat s00 ltac:(lia) ltac:(lia) Wf0)
    as [s0 [E0 [W0 [C0 [_ R0]]]]].
  { intros e _ He. unfold s00; cbn [tree]. apply zero_tree_row. exact He. }
  rewrite <- En in E0, R0.
  exists s0. split; [exact E0|]. split; [exact W0|]. split; [rewrite C0; unfold s00; cbn [cnt]; apply repeat_length|].
  (* the two lightest leaves *)
  destruct (lw_leaf f Hn2 Hnmax Hf 0%nat ltac:(lia)) as [L0 [E0w [HF0 [HL01 HL02]]]].
  destruct (lw_leaf f Hn2 Hnmax Hf 1%nat ltac:(lia)) as [L1 [E1w [HF1 [HL11 HL12]]]].
  fold lw xs in E0w, E1w, HF0, HF1. rewrite Nat.sub_0_r in E0w.
  replace (n - 1)%nat with (S as2) in E1w by lia.
  assert (Hsum : leafF xs 0 + leafF xs 1 < U32).
  { pose proof (pkg_lt_U32 0 2 MCL_pos ltac:(lia) ltac:(lia)) as H. rewrite ilev_2 in H. exact H. }
  assert (Hlvl : forall d1, (S d1 <= MCL)%nat -> lvl_ok s0 (S d1) (il_init xs)).
  { intros d1 Hd. destruct (R0 (S d1) ltac:(lia) Hd) as [T1 [T2 [T3 T4]]].
    unfold lvl_ok, il_init; cbn [ia ipkg iprev hd]. split; [exact T1|]. split; [|split].
    - rewrite T2, E0w, E1w.
      destruct (wadd_shape (N.of_nat (S d1)) (leafF xs 0) L0 (leafF xs 1) L1) as [D' [E' HD']]; try lia.
      exists D'. split; [exact E'|lia].
    - exists L1. rewrite T3, E1w. split; [reflexivity|lia].
    - rewrite T4. f_equal. change (N.to_nat 2) with 2%nat. lia. }
  induction d as [|d1 IHd]; intro Hd; [exact I|].
  cbn [Cons]. split; [lia|]. split; [lia|]. split.
  - rewrite ilev_2. apply Hlvl. exact Hd.
  - rewrite Pk_unfold, El_init. cbn [Nat.sub Nat.mul Nat.add]. apply IHd. lia.
Qed.

Lemma widths_ok k : forall s t, wf s -> Cons MCL s t -> (t + 2 * k = 2 * n - 2)%nat ->
  exists s', widths_spec k lw (N.of_nat n) s = Ok s' /\ wf s' /\ Cons MCL s' (2 * n - 2) /\ cnt s' = cnt s.
Proof.
  assert (EM : MCL = S (MCL - 1)) by (pose proof MCL_pos; lia).
  induction k as [|k IHk]; intros s t Hwf HC Ht.
  - exists s. cbn [widths_spec]. replace (2 * n - 2)%nat with t by lia. auto.
  - cbn [widths_spec]. unfold width_spec.
    rewrite EM in HC |- *.
    destruct (take_ref (MCL - 1) s t Hwf HC ltac:(lia) ltac:(lia)) as [s1 [E1 [W1 [C1 [_ N1]]]]].
    rewrite E1. cbn [bind].
    destruct (take_ref (MCL - 1) s1 (S t) W1 C1 ltac:(lia) ltac:(lia)) as [s2 [E2 [W2 [C2 [_ N2]]]]].
    rewrite E2. cbn [bind]. rewrite <- EM in *.
    destruct (IHk s2 (S (S t)) W2 C2 ltac:(lia)) as [s' [E' [W' [C' N']]]].
    exists s'. split; [exact E'|]. split; [exact W'|]. split; [exact C'|congruence].
Qed.

Lemma Cons_rows d : forall s, Cons d s (2 * n - 2) ->
  forall h, (1 <= h)%nat -> (h <= d)%nat -> nth h (tree s) [] = ia (L h (2 * n - 2)).
Proof.
  induction d as [|d1 IHd]; intros s HC h H1 H2; [lia|].
  cbn [Cons] in HC. destruct HC as [_ [_ [[Htree _] Hlow]]].
  destruct (Nat.eq_dec h (S d1)) as [->|Hne]; [exact Htree|].
  destruct (final_counts xs Hxn2 Hxs d1) as [_ P]. rewrite Hxn in P. rewrite P in Hlow.
  replace (2 * (n - 2) + 2)%nat with (2 * n - 2)%nat in Hlow by lia.
  apply IHd; [exact Hlow|lia|lia].
Qed.

(* package_merge never fails and leaves the rows of the level sequences in tree[1..MCL] *)
Theorem package_merge_rows :
  exists s, package_merge lw n = Ok s /\ wf s /\
    forall h, (1 <= h)%nat -> (h <= MCL)%nat -> nth h (tree s) [] = ia (L h (2 * n - 2)).
Proof.
  destruct pm_init_ok as [s0 [E0 [W0 [L0 C0]]]].
  destruct (widths_ok (n - 2) s0 2 W0 (C0 MCL (Nat.le_refl _)) ltac:(lia)) as [s' [E' [W' [C' _]]]].
  assert (HCL : (S MCL <= COUNT_LEN)%nat) by (vm_compute; lia).
  destruct (package_merge_spec lw n s0 s' E0 ltac:(lia) E') as [c' EP].
  exists (set_cnt s' c'). split; [exact EP|]. split.
  - destruct W'. constructor; auto.
  - intros h H1 H2. unfold set_cnt; cbn [tree]. apply (Cons_rows MCL s' C' h H1 H2).
Qed.

(* the explicit stack count[] never needs more than MAX_CODE_LENGTH+1 entries: the width loop run on a
   count[] array of exactly that length (all accesses bounds-checked) succeeds *)
Theorem package_merge_small_stack c : length c = S MCL ->
  exists s0 s' c', pm_init lw n zero_tree = Ok s0 /\
    pm_widths (n - 2) lw (N.of_nat n) (set_cnt s0 c) = Ok (set_cnt s' c') /\ length c' = S MCL.
Proof.
  intro Hc. destruct pm_init_ok as [s0 [E0 [W0 [L0 C0]]]].
  destruct (widths_ok (n - 2) s0 2 W0 (C0 MCL (Nat.le_refl _)) ltac:(lia)) as [s' [E' _]].
  destruct (pm_widths_spec lw (N.of_nat n) (n - 2) s0 s' E' c ltac:(lia)) as [c' [Lc' W]].
  exists s0, s', c'. split; [exact E0|]. split; [exact W|lia].
Qed.
End Refine.
