(* C01/C02 with the tables and selectors COMPUTED by the model of generate_prefix_code() (Enc/GenModel.v):
   the free choices of the witness are the BWT primary index (divbwt.c) and the padding choices of encode() (tree_pad
   and the surplus selector).  Premise: the model of make_code_lengths() returned no error value, which
   Enc/GenMclBlocks.v discharges. *)
From Coq Require Import List NArith Arith Bool Lia.
From LBZ Require Rle.RleModel.
From LBZ Require Import Common.Bits Gen.Consts Dec.Format Dec.Policies Dec.CrcProofs Enc.EncModel Enc.MtfProofs
  Enc.RleInvProofs Enc.BlockProofs Enc.StreamProofs Enc.EncCompose Enc.GenModel Enc.GenEm Enc.GenReorder Enc.GenProofs
  Enc.GenMcl.
Import ListNotations.
Local Open Scope N_scope.

(* the MTF/zero-run symbols of a block, EOB included: what generate_prefix_code() is run on *)
Definition blk_syms (blk : list N) : list N :=
  let col := bwt_last blk in mtf_zrle col ++ [N.of_nat (length (used_bytes col)) + 1].

Lemma block_syms_blk w : block_syms w = blk_syms (w_blk w).
Proof. reflexivity. Qed.

(* the witness built from the model's result and the free choices (BWT index, surplus selector, tree padding) *)
Definition gen_witness (mcl : list N -> list N -> gres (list N)) (cf : N)
  (blk : list N) (idx : N) (extra : bool) (pad crc : N) : gres witness :=
  gdo r <- gen_prefix_code_with mcl cf (blk_syms blk);
  GOk {| w_blk := blk; w_idx := idx; w_tables := g_tables r; w_sels := g_sels r;
         w_extra_sel := extra; w_pad := pad; w_crc := crc |}.

Lemma zrun_digits_nonempty k : k <> 0 -> zrun_digits k <> [].
Proof. intro H. unfold zrun_digits. cbn [zrun]. replace (k =? 0) with false by (symmetry; apply N.eqb_neq; exact H). discriminate. Qed.

Lemma mtf_go_nonempty : forall rest order k, k <> 0 \/ rest <> [] -> mtf_go order k rest <> [].
Proof.
  induction rest as [|c r IH]; intros order k H; cbn [mtf_go].
  - destruct H as [H|H]; [apply zrun_digits_nonempty; exact H|contradiction].
  - destruct (index_of c order) as [|i].
    + apply IH. left. lia.
    + intro E. apply app_eq_nil in E. destruct E as [_ E]. discriminate.
Qed.

Lemma used_bytes_le_256 col : Forall (fun c => c < 256) col -> (length (used_bytes col) <= 256)%nat.
Proof.
  intro H. apply (nodup_bound _ 256); [apply used_bytes_NoDup|].
  apply Forall_forall. intros c Hc. apply (proj1 (used_bytes_In col c)) in Hc. rewrite Forall_forall in H. apply H in Hc.
  change (N.of_nat 256) with 256. exact Hc.
Qed.

Lemma last_snoc (l : list N) x d : last (l ++ [x]) d = x.
Proof. induction l as [|y l IH]; [reflexivity|]. cbn [app]. destruct (l ++ [x]) eqn:E; [destruct l; discriminate|]. cbn [last]. exact IH. Qed.

Lemma blk_syms_input_ok blk : blk <> [] -> N.of_nat (length blk) <= MAX_BLOCK_SIZE -> Forall (fun c => c < 256) blk ->
  gen_input_ok (blk_syms blk) /\ last (blk_syms blk) 0 + 1 = N.of_nat (length (used_bytes (bwt_last blk)) + 2).
Proof.
  intros Hne Hlen Hb. unfold gen_input_ok, blk_syms. cbv zeta. set (col := bwt_last blk).
  assert (Hcol : Forall (fun c => c < 256) col).
  { apply Forall_forall. intros c Hc. apply bwt_last_In in Hc. rewrite Forall_forall in Hb. apply Hb. exact Hc. }
  assert (Hcl : length col = length blk) by apply bwt_last_length.
  pose proof (used_bytes_le_256 col Hcol) as Hu.
  pose proof (mtf_zrle_length col) as Hml.
  assert (Hmn : mtf_zrle col <> []).
  { unfold mtf_zrle. apply mtf_go_nonempty. right. intro E. rewrite E in Hcl. destruct blk; [contradiction|discriminate]. }
  rewrite last_snoc, app_length. cbn [length].
  split; [|lia]. split; [|split].
  - destruct (mtf_zrle col); [contradiction|]. cbn [length] in *. unfold GEN_MAX_NM.
    change MAX_BLOCK_SIZE with 900000 in *. change GROUP_SIZE with 50. lia.
  - change MAX_ALPHA_SIZE with 258. lia.
  - apply Forall_app. split.
    + apply Forall_forall. intros s Hs. apply mtf_zrle_symbols_in_range in Hs. lia.
    + constructor; [lia|constructor].
Qed.

Theorem gen_witness_is_ok : forall E mcl cf M blk idx extra pad crc w,
  mcl_wf E mcl -> 1 <= cf -> M <= MAX_BLOCK_SIZE ->
  blk <> [] -> N.of_nat (length blk) <= M -> Forall (fun c => c < 256) blk ->
  valid_idxb blk idx = true -> pad <= 3 -> crc < 2 ^ 32 ->
  gen_witness mcl cf blk idx extra pad crc = GOk w ->
  witness_ok M w = true /\ w_blk w = blk /\ w_crc w = crc.
Proof.
  intros E mcl cf M blk idx extra pad crc w W Hcf HM Hne Hlen Hb Hidx Hpad Hcrc Hw.
  destruct (blk_syms_input_ok blk Hne ltac:(lia) Hb) as [Hin Has].
  pose proof (gen_witness_ok_gen E mcl cf (blk_syms blk) W Hcf Hin) as G.
  unfold gen_witness in Hw. destruct (gen_prefix_code_with mcl cf (blk_syms blk)) as [r|e]; [|discriminate].
  cbn [gbind] in Hw. inversion Hw; subst w. clear Hw. cbv beta iota delta [err_only] in G.
  split; [|split; reflexivity].
  destruct G as [G1 G2 G3 G4 G5 G6 _ _].
  unfold witness_ok. cbn [w_blk w_idx w_tables w_sels w_extra_sel w_pad w_crc]. rewrite block_syms_blk. cbn [w_blk].
  rewrite Has in G3. rewrite Nat2N.id in G3.
  assert (Hng : N.of_nat ((length (blk_syms blk) + 49) / 50) = num_groups (N.of_nat (length (blk_syms blk)))).
  { unfold num_groups. change GROUP_SIZE with 50. rewrite Nat2N.inj_div, Nat2N.inj_add. f_equal. lia. }
  repeat (apply andb_true_intro; split).
  - apply negb_true_iff. apply N.eqb_neq. destruct blk; [contradiction|cbn [length]; lia].
  - apply N.leb_le. exact Hlen.
  - apply forallb_forall. intros c Hc. apply N.ltb_lt. rewrite Forall_forall in Hb. apply Hb. exact Hc.
  - exact Hidx.
  - apply Nat.leb_le. lia.
  - apply Nat.leb_le. lia.
  - exact G3.
  - apply Nat.eqb_eq. apply Nat2N.inj. rewrite Hng. exact G4.
  - apply forallb_forall. intros s Hs. apply N.ltb_lt. rewrite Forall_forall in G5. rewrite G2. apply G5. exact Hs.
  - apply N.leb_le. rewrite Hng. destruct extra; lia.
  - apply N.leb_le. exact Hpad.
  - apply N.ltb_lt. exact Hcrc.
Qed.

Lemma crc_table_lt32 i : nth i Gen.CrcTab.crc_table 0 < 2 ^ 32.
Proof.
  assert (H : forallb (fun x => x <? 2 ^ 32) Gen.CrcTab.crc_table = true) by (vm_compute; reflexivity).
  rewrite forallb_forall in H.
  destruct (Nat.lt_ge_cases i (length Gen.CrcTab.crc_table)) as [L|L].
  - apply N.ltb_lt, H, nth_In, L.
  - rewrite nth_overflow by exact L. reflexivity.
Qed.

Lemma crc_step_lt32 s x : crc_step s x < 2 ^ 32.
Proof.
  unfold crc_step. apply lxor_lt_pow2; [|apply crc_table_lt32].
  change mask32 with (N.ones 32). rewrite N.land_ones. apply N.mod_lt. discriminate.
Qed.

Lemma crc_bytes_lt32 : forall l s, s < 2 ^ 32 -> crc_bytes s l < 2 ^ 32.
Proof.
  induction l as [|x l IH]; intros s Hs; [exact Hs|].
  unfold crc_bytes in *. cbn [fold_left]. apply IH, crc_step_lt32.
Qed.

Lemma block_crc_lt32 x : N.lxor (crc_bytes mask32 x) mask32 < 2 ^ 32.
Proof. apply lxor_lt_pow2; [apply crc_bytes_lt32|]; apply mask32_lt. Qed.

(* the per-block free choices: BWT index, surplus selector, tree padding *)
Record choice := { c_idx : N; c_extra : bool; c_pad : N }.

Definition computed_block (mcl : list N -> list N -> gres (list N)) (cf level : N) (x : list N) (c : choice) (w : witness) : Prop :=
  Forall (fun b => b < 256) x /\ x <> [] /\
  N.of_nat (length (RleModel.rle1 x)) <= 100000 * level /\
  valid_idxb (RleModel.rle1 x) (c_idx c) = true /\ c_pad c <= 3 /\
  gen_witness mcl cf (RleModel.rle1 x) (c_idx c) (c_extra c) (c_pad c) (N.lxor (crc_bytes mask32 x) mask32) = GOk w.

Lemma computed_block_ok E mcl cf level x c w : mcl_wf E mcl -> 1 <= cf -> 1 <= level <= 9 ->
  computed_block mcl cf level x c w ->
  witness_ok (100000 * level) w = true /\ Forall (fun b => b < 256) x /\ x <> [] /\
  w_blk w = RleModel.rle1 x /\ w_crc w = N.lxor (crc_bytes mask32 x) mask32.
Proof.
  intros W Hcf Hl [Hx [Hne [Hlen [Hidx [Hpad Hw]]]]].
  assert (HM : 100000 * level <= MAX_BLOCK_SIZE) by (change MAX_BLOCK_SIZE with 900000; lia).
  destruct (gen_witness_is_ok E mcl cf (100000 * level) _ _ _ _ _ w W Hcf HM (rle1_nonempty x Hne) Hlen
              (rle1_bytes x Hx) Hidx Hpad (block_crc_lt32 x) Hw) as [K1 [K2 K3]].
  auto.
Qed.

Lemma computed_blocks_ok E mcl cf level : mcl_wf E mcl -> 1 <= cf -> 1 <= level <= 9 ->
  forall xs cs ws, Forall2 (fun xc w => computed_block mcl cf level (fst xc) (snd xc) w) (combine xs cs) ws ->
  length cs = length xs ->
  Forall2 (fun w x => witness_ok (100000 * level) w = true /\ Forall (fun c => c < 256) x /\ x <> [] /\
                      w_blk w = RleModel.rle1 x /\ w_crc w = N.lxor (crc_bytes mask32 x) mask32) ws xs.
Proof.
  intros W Hcf Hl. induction xs as [|x xs IH]; intros cs ws HF HL.
  - cbn [combine] in HF. inversion HF. constructor.
  - destruct cs as [|c cs]; [discriminate|]. cbn [combine] in HF. inversion HF as [|? w ? ws' H1 H2]; subst.
    constructor.
    + cbn [fst snd] in H1. eapply computed_block_ok; eauto.
    + apply IH with (cs := cs); [exact H2|]. cbn [length] in HL. lia.
Qed.

(* C01/C02 with computed tables and selectors *)
Theorem gen_stream_roundtrip : forall mcl cf level (xs : list (list N)) (cs : list choice) (ws : list witness),
  mcl_wf is_mcl_err mcl -> 1 <= cf -> 1 <= level <= 9 -> length cs = length xs ->
  Forall2 (fun xc w => computed_block mcl cf level (fst xc) (snd xc) w) (combine xs cs) ws ->
  lbz_decode (bytes_of_bits (pad_to_byte (write_stream level ws))) = Prog.Ok (concat xs) /\
  ref_noexc_decode (bytes_of_bits (pad_to_byte (write_stream level ws))) = Prog.Ok (concat xs) /\
  ref_decode (bytes_of_bits (pad_to_byte (write_stream level ws))) = Prog.Ok (concat xs).
Proof.
  intros mcl cf level xs cs ws W Hcf Hl HL HF.
  pose proof (computed_blocks_ok is_mcl_err mcl cf level W Hcf Hl xs cs ws HF HL) as H.
  split; [apply stream_roundtrip_lbz; assumption|]. apply stream_strict_both; assumption.
Qed.

(* the instance with the exact model of make_code_lengths *)
Corollary gen_stream_roundtrip_real : forall cf level (xs : list (list N)) (cs : list choice) (ws : list witness),
  1 <= cf -> 1 <= level <= 9 -> length cs = length xs ->
  Forall2 (fun xc w => computed_block make_code_lengths cf level (fst xc) (snd xc) w) (combine xs cs) ws ->
  lbz_decode (bytes_of_bits (pad_to_byte (write_stream level ws))) = Prog.Ok (concat xs) /\
  ref_noexc_decode (bytes_of_bits (pad_to_byte (write_stream level ws))) = Prog.Ok (concat xs) /\
  ref_decode (bytes_of_bits (pad_to_byte (write_stream level ws))) = Prog.Ok (concat xs).
Proof. intros cf level xs cs ws. apply gen_stream_roundtrip. exact make_code_lengths_wf. Qed.
