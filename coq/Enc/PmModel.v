(* C20 - executable model of the length-limited prefix-code construction of src/encode.c:
     sort_alphabet()  (l.553)   insertion sort, descending
     weight_add()     (l.652)   macro on packed 64-bit weights
     package_merge()  (l.660)   lazy ("boundary") Package-Merge for all heights 1..MAX_CODE_LENGTH at once
     assign_codes()   (l.882)   up to the point where length[] is final (the canonical code values
                                 code[] = base_code[length]++ are NOT modelled here; see Enc/EncModel.v)

   Conventions.  Data are N, indices/depths/fuel are nat.  Every C array is a list whose length is the
   number of entries the C code may legally touch:
     leaf_weight : as+1 entries (the C array has MAX_ALPHA_SIZE+1; the model bound is the tighter one)
     tree        : (MAX_CODE_LENGTH+1) rows of (MAX_CODE_LENGTH+1) entries (uint16_t, no wrap modelled:
                   PmProofs shows every entry is <= as)
     pkg_weight, prev_weight, curr_weight : MAX_CODE_LENGTH+1 entries (uint64_t, arithmetic mod 2^64)
     count       : MAX_HUFF_CODE_LENGTH+2 entries (the explicit stack of package_merge)
     length      : as entries (the C array has MAX_ALPHA_SIZE+1)
   Every access goes through a bounds-checked accessor; a miss is the value Err (Oob..).  Unsigned
   subtractions that would wrap in C and then be used as an index or loop count (as - tree[depth][0],
   depth - 1, tree[h][d-1] - tree[h][d], MAX_ALPHA_SIZE - (w & 0xFFFF)) are checked: a wrap is
   Err (Underflow ..).  The assert()s of assign_codes are checked (Err (AssertFail ..)).
   The inner `for (;;)` of package_merge runs on binary fuel: [iter2 k] performs at most 2^k
   iterations, running out is Err OutOfFuel.

   What is abstracted: (1) the initial content of length[] (whatever the caller left there) is a
   parameter [len0] of [assign_lengths]; [pm_lengths] instantiates it with zeros.  (2) frequency[] entries
   are uint32_t: the model takes arbitrary N and the theorems assume < 2^32.  (3) uint32_t `cost`
   arithmetic is mod 2^32 as in C; the (int) casts in the transmission cost are exact because
   length[] entries are <= 20.  No proofs in this file. *)
From Coq Require Import List NArith Arith Bool.
From LBZ Require Import Gen.Consts.
Import ListNotations.
Local Open Scope N_scope.

Inductive pm_arr := ALeaf | ATree | ARow | APkg | APrev | ACurr | ACount | ALength | AFreq.

Inductive pm_err :=
| OobRead (a : pm_arr)
| OobWrite (a : pm_arr)
| Underflow (id : N)     (* 1: depth-1, 2: as - tree[depth][0], 3: tree[h][d-1]-tree[h][d], 4: MAX_ALPHA_SIZE-(w&0xFFFF), 5: as-1/as-2 *)
| AssertFail (id : N)    (* 1: leaf < as, 2: next_code == 1 << (best_height+1), 3: leaf == as *)
| OutOfFuel.

Inductive res (A : Type) := Ok (a : A) | Err (e : pm_err).
Arguments Ok {A} a.
Arguments Err {A} e.

Definition bind {A B} (x : res A) (f : A -> res B) : res B :=
  match x with Ok a => f a | Err e => Err e end.
Notation "'do' x <- e ; f" := (bind e (fun x => f)) (at level 200, x pattern, e at level 100, f at level 200).

(* ---- checked array accessors ------------------------------------------------------------------ *)
Definition rd {A} (a : pm_arr) (l : list A) (i : nat) : res A :=
  match nth_error l i with Some x => Ok x | None => Err (OobRead a) end.

Fixpoint upd {A} (l : list A) (i : nat) (v : A) : list A :=
  match l, i with
  | [], _ => []
  | _ :: r, O => v :: r
  | x :: r, S j => x :: upd r j v
  end.

Definition wr {A} (a : pm_arr) (l : list A) (i : nat) (v : A) : res (list A) :=
  if (i <? length l)%nat then Ok (upd l i v) else Err (OobWrite a).

(* ---- constants ---------------------------------------------------------------------------------- *)
Definition MCL : nat := N.to_nat MAX_CODE_LENGTH.              (* 20 *)
Definition COUNT_LEN : nat := N.to_nat (MAX_HUFF_CODE_LENGTH + 2).
Definition U64 : N := 18446744073709551616.                     (* 2^64 *)
Definition U32 : N := 4294967296.                               (* 2^32 *)
Definition MAXW : N := 18446744073709551615.                    (* (uint64_t)-1 = 2^64 - 1 = N.ones 64 *)
Definition MAX32 : N := 4294967295.                             (* 2^32 - 1 = N.ones 32 *)

(* ---- weights ------------------------------------------------------------------------------------ *)
(* ((uint64_t)frequency[leaf] << 32) | 0x10000 | (MAX_ALPHA_SIZE - leaf) *)
Definition leaf_label (f : N) (leaf : N) : N :=
  N.lor (N.lor (N.shiftl f 32) 65536) (MAX_ALPHA_SIZE - leaf).

(* w & 0xFF000000 *)
Definition depth_field (w : N) : N := N.land w 4278190080.

(* ((w1 + w2) & ~0xFFFFFFFF) + max(w1 & 0xFF000000, w2 & 0xFF000000) + 0x01000000, in uint64_t *)
Definition weight_add (w1 w2 : N) : N :=
  N.land (N.shiftl (N.shiftr (N.land (w1 + w2) MAXW) 32) 32 + N.max (depth_field w1) (depth_field w2) + 16777216) MAXW.

(* ---- sort_alphabet: insertion sort, descending ------------------------------------------------- *)
(* [insert_desc t l]: l is the already sorted (descending) part; the C loop moves t to the left past
   every element strictly smaller than t.  On a descending l this is: put t in front of the first x < t. *)
Fixpoint insert_desc (t : N) (l : list N) : list N :=
  match l with
  | [] => [t]
  | x :: r => if x <? t then t :: x :: r else x :: insert_desc t r
  end.

Definition sort_desc (l : list N) : list N := fold_left (fun acc t => insert_desc t acc) l [].

Fixpoint label_from (leaf : N) (freq : list N) : list N :=
  match freq with [] => [] | f :: r => leaf_label f leaf :: label_from (leaf + 1) r end.

(* leaf_weight[0..as] as assign_codes hands it to package_merge *)
Definition make_leaf_weight (freq : list N) : list N := MAXW :: sort_desc (label_from 0 freq).

(* ---- package_merge ------------------------------------------------------------------------------ *)
Record pm_st := mkst {
  tree : list (list N);
  pkgw : list N;
  prevw : list N;
  currw : list N;
  cnt : list N
}.

Definition zero_tree : list (list N) := repeat (repeat 0 (S MCL)) (S MCL).

Definition rd2 (t : list (list N)) (i j : nat) : res N :=
  do row <- rd ATree t i; rd ARow row j.

Definition wr2 (t : list (list N)) (i j : nat) (v : N) : res (list (list N)) :=
  do row <- rd ATree t i; do row' <- wr ARow row j v; wr ATree t i row'.

(* memcpy(&tree[depth][1], &tree[depth-1][0], MAX_CODE_LENGTH * sizeof(uint16_t)) *)
Definition copy_row (t : list (list N)) (depth d1 : nat) : res (list (list N)) :=
  do src <- rd ATree t d1;
  do dst <- rd ATree t depth;
  if (MCL <=? length src)%nat then
    match dst with
    | [] => Err (OobWrite ARow)
    | x :: tl => if (MCL <=? length tl)%nat
                 then wr ATree t depth (x :: firstn MCL src ++ skipn MCL tl)
                 else Err (OobWrite ARow)
    end
  else Err (OobRead ARow).

(* first loop: for (depth = 1; depth <= MAX_CODE_LENGTH; depth++) { ... } *)
Fixpoint pm_init_loop (n : nat) (depth : nat) (lw : list N) (as_ : nat) (s : pm_st) : res pm_st :=
  match n with
  | O => Ok s
  | S n' =>
    match as_ with
    | S (S as2) =>
      do t' <- wr2 (tree s) depth 0 2;
      do wa <- rd ALeaf lw as_;
      do wb <- rd ALeaf lw (S as2);
      do wc <- rd ALeaf lw as2;
      do p' <- wr APkg (pkgw s) depth (weight_add wa wb);
      do v' <- wr APrev (prevw s) depth wb;
      do c' <- wr ACurr (currw s) depth wc;
      pm_init_loop n' (S depth) lw as_ (mkst t' p' v' c' (cnt s))
    | _ => Err (Underflow 5)
    end
  end.

Definition pm_init (lw : list N) (as_ : nat) (t0 : list (list N)) : res pm_st :=
  let z := repeat 0 (S MCL) in
  do p0 <- wr APkg z 0 MAXW;                        (* pkg_weight[0] = -1 *)
  pm_init_loop MCL 1 lw as_ (mkst t0 p0 z z (repeat 0 COUNT_LEN)).

(* loop state of the inner for(;;): (arrays, depth, next_depth) *)
Definition pm_loop := (pm_st * nat * nat)%type.

(* the tail of the loop body: if (next_depth == 0) break; next_depth--; depth = count[next_depth]; *)
Definition pm_pop (s : pm_st) (nd : nat) : res (pm_loop + pm_st) :=
  match nd with
  | O => Ok (inr s)
  | S nd' => do d <- rd ACount (cnt s) nd'; Ok (inl (s, N.to_nat d, nd'))
  end.

Definition set_cnt (s : pm_st) (c : list N) : pm_st := mkst (tree s) (pkgw s) (prevw s) (currw s) c.

(* the `if (likely(depth != 1)) { memcpy; pkg_weight[depth] = ...; prev_weight[depth] = ...; }` part *)
Definition pm_take_pkg (s : pm_st) (depth d1 : nat) (pw : N) : res pm_st :=
  do t' <- copy_row (tree s) depth d1;
  do vw <- rd APrev (prevw s) depth;
  do p' <- wr APkg (pkgw s) depth (weight_add vw pw);
  do v' <- wr APrev (prevw s) depth pw;
  Ok (mkst t' p' v' (currw s) (cnt s)).

(* the else part: tree[depth][0]++; pkg_weight[depth] = ...; prev_weight[depth] = ...; curr_weight[depth] = ... *)
Definition pm_take_leaf (lw : list N) (as_ : N) (s : pm_st) (depth : nat) (cw : N) : res pm_st :=
  do t0 <- rd2 (tree s) depth 0;
  do t' <- wr2 (tree s) depth 0 (t0 + 1);
  do vw <- rd APrev (prevw s) depth;
  do p' <- wr APkg (pkgw s) depth (weight_add vw cw);
  do v' <- wr APrev (prevw s) depth cw;
  if t0 + 1 <=? as_ then
    do nw <- rd ALeaf lw (N.to_nat (as_ - (t0 + 1)));
    do c' <- wr ACurr (currw s) depth nw;
    Ok (mkst t' p' v' c' (cnt s))
  else Err (Underflow 2).

(* one iteration of the inner for(;;) *)
Definition pm_iter (lw : list N) (as_ : N) (x : pm_loop) : res (pm_loop + pm_st) :=
  let '(s, depth, nd) := x in
  match depth with
  | O => Err (Underflow 1)
  | S d1 =>
    do pw <- rd APkg (pkgw s) d1;
    do cw <- rd ACurr (currw s) depth;
    if pw <=? cw then
      match d1 with
      | O => pm_pop s nd                                           (* depth == 1: nothing happens *)
      | S _ =>
        do s1 <- pm_take_pkg s depth d1 pw;
        do c' <- wr ACount (cnt s1) nd (N.of_nat d1);              (* count[next_depth++] = depth (after depth--) *)
        Ok (inl (set_cnt s1 c', d1, S nd))
      end
    else
      do s1 <- pm_take_leaf lw as_ s depth cw;
      pm_pop s1 nd
  end.

(* at most 2^k iterations of a step function *)
Fixpoint iter2 {X R} (k : nat) (f : X -> res (X + R)) (x : X) : res (X + R) :=
  match k with
  | O => f x
  | S k' => match iter2 k' f x with
            | Ok (inl x') => iter2 k' f x'
            | r => r
            end
  end.

Definition PM_FUEL : nat := S (S MCL).     (* 2^22 iterations per value of width; 2^21 - 2 are enough *)

(* body of: for (width = 2; width < as; width++) *)
Definition pm_width (lw : list N) (as_ : N) (s : pm_st) : res pm_st :=
  do c' <- wr ACount (cnt s) 0 MAX_CODE_LENGTH;                   (* count[0] = MAX_CODE_LENGTH *)
  match iter2 PM_FUEL (pm_iter lw as_) (set_cnt s c', MCL, 1%nat) with
  | Ok (inr s') => Ok s'
  | Ok (inl _) => Err OutOfFuel
  | Err e => Err e
  end.

Fixpoint pm_widths (n : nat) (lw : list N) (as_ : N) (s : pm_st) : res pm_st :=
  match n with
  | O => Ok s
  | S n' => do s' <- pm_width lw as_ s; pm_widths n' lw as_ s'
  end.

(* package_merge(tree, count, leaf_weight, as) on a zeroed tree; returns the final arrays *)
Definition package_merge (lw : list N) (as_ : nat) : res pm_st :=
  do s0 <- pm_init lw as_ zero_tree;
  pm_widths (as_ - 2) lw (N.of_nat as_) s0.

(* ---- assign_codes -------------------------------------------------------------------------------- *)
(* for (avail = tree[h][depth-1] - tree[h][depth]; avail > 0; avail--) { assert(leaf < as); ... leaf++ }
   returns (length[], cost, leaf) *)
Fixpoint give_lengths (avail : nat) (lw : list N) (as_ : nat) (depth : N) (len : list N) (cost : N) (leaf : nat)
  : res (list N * N * nat) :=
  match avail with
  | O => Ok (len, cost, leaf)
  | S a' =>
    if (leaf <? as_)%nat then
      do w <- rd ALeaf lw (S leaf);
      let low := N.land w 65535 in
      if low <=? MAX_ALPHA_SIZE then
        do len' <- wr ALength len (N.to_nat (MAX_ALPHA_SIZE - low)) depth;
        give_lengths a' lw as_ depth len' (N.land (cost + N.land (N.shiftr w 32) MAX32 * depth) MAX32) (S leaf)
      else Err (Underflow 4)
    else Err (AssertFail 1)
  end.

(* for (depth = 1; depth <= height; depth++) ...   (n = number of depths still to do) *)
Fixpoint per_depth (n : nat) (depth : nat) (row : list N) (lw : list N) (as_ : nat) (len : list N) (cost : N) (leaf : nat)
  : res (list N * N * nat) :=
  match n with
  | O => Ok (len, cost, leaf)
  | S n' =>
    match depth with
    | O => Err (Underflow 1)
    | S d1 =>
      do hi <- rd ARow row d1;
      do lo <- rd ARow row depth;
      if lo <=? hi then
        do r <- give_lengths (N.to_nat (hi - lo)) lw as_ (N.of_nat depth) len cost leaf;
        let '(len', cost', leaf') := r in
        per_depth n' (S depth) row lw as_ len' cost' leaf'
      else Err (Underflow 3)
    end
  end.

(* for (symbol = 1; symbol < as; symbol++) cost += 2 * |length[symbol-1] - length[symbol]| *)
Fixpoint delta_cost (len : list N) (cost : N) : N :=
  match len with
  | a :: ((b :: _) as r) => delta_cost r (N.land (cost + 2 * (N.max a b - N.min a b)) MAX32)
  | _ => cost
  end.

Definition height_cost (height : nat) (row : list N) (lw : list N) (as_ : nat) (len : list N)
  : res (list N * N * nat) :=
  do r <- per_depth height 1 row lw as_ len 0 0%nat;
  let '(len', cost, leaf) := r in
  Ok (len', N.land (delta_cost len' cost + 5 + N.of_nat as_) MAX32, leaf).

(* for (height = 2; height <= MAX_CODE_LENGTH; height++) { ... }   state: (length[], best_cost, best_height) *)
Fixpoint heights_loop (n : nat) (height : nat) (t : list (list N)) (lw : list N) (as_ : nat)
  (len : list N) (best_cost : N) (best_height : nat) : res (list N * N * nat) :=
  match n with
  | O => Ok (len, best_cost, best_height)
  | S n' =>
    if N.shiftl 1 (N.of_nat height) <? N.of_nat as_
    then heights_loop n' (S height) t lw as_ len best_cost best_height          (* continue *)
    else
      do row <- rd ATree t height;
      do top <- rd ARow row (height - 1);
      if top =? 0 then Ok (len, best_cost, best_height)                          (* break *)
      else
        do r <- height_cost height row lw as_ len;
        let '(len', cost, _) := r in
        if cost <? best_cost
        then heights_loop n' (S height) t lw as_ len' cost height
        else heights_loop n' (S height) t lw as_ len' best_cost best_height
  end.

Record pm_result := mkres { r_lengths : list N; r_height : nat; r_cost : N; r_tree : list (list N); r_lw : list N }.

(* assign_codes(code, length, frequency, as) up to (and including) the two assert()s that follow the
   final length assignment.  [len0] is the content of length[0..as-1] on entry. *)
Definition assign_lengths (len0 : list N) (freq : list N) : res pm_result :=
  let as_ := length freq in
  let lw := make_leaf_weight freq in
  do s <- package_merge lw as_;
  do r <- heights_loop (MCL - 1) 2 (tree s) lw as_ len0 MAX32 MCL;
  let '(len1, best_cost, best_height) := r in
  do row <- rd ATree (tree s) best_height;
  do r2 <- per_depth best_height 1 row lw as_ len1 0 0%nat;
  let '(len2, _, leaf) := r2 in
  (* next_code after the loop is 2 * sum_{depth} avail_depth * 2^(best_height - depth)  (uint32_t) *)
  let next_code :=
    fold_left (fun nc depth => N.land ((nc + (nth (depth - 1) row 0 - nth depth row 0)) * 2) MAX32)
              (seq 1 best_height) 0 in
  if negb (next_code =? N.shiftl 1 (N.of_nat (S best_height))) then Err (AssertFail 2)
  else if negb (leaf =? as_)%nat then Err (AssertFail 3)
  else Ok (mkres len2 best_height best_cost (tree s) lw).

Definition pm_lengths_res (freq : list N) : res pm_result :=
  assign_lengths (repeat 0 (length freq)) freq.

Definition pm_lengths (freq : list N) : option (list N) :=
  match pm_lengths_res freq with Ok r => Some (r_lengths r) | Err _ => None end.
