(* Totality of the exact model of make_code_lengths() (Enc/GenModel.v): build_tree().
   On a descending array of labelled leaf weights (frequency >= 1 in bits 32..63, depth byte 0) whose frequencies sum
   to T < fib 33 = 3524578, bt_loop never returns an error value (every weight[]/V[] index in range, no underflow of
   r / s), ends with r = 2, s = 0 and leaves BtPost (Enc/GenMclDefs.v): parent pointers V[i] < i for the internal
   nodes 2..as-1, monotone (the internal nodes leave their FIFO queue in creation order), at most two internal
   children per node, the depth byte of weight[i] is the height of node i, strictly increasing towards the root,
   and the root is at most 30 high.
   Invariant [Inv]: two-queue discipline (leaves [0,s), internal queue (t,r), s + r = 2t + 2), both queues sorted
   by FREQUENCY (the full-word comparisons of the C code are used only through w <= w' -> fq w <= fq w'; the
   tie-breaking fields - depth byte, leaf counter, stale label - play no role), the two nodes merged are
   frequency-minimal, frequencies of the available nodes sum to T, and the Fibonacci certificates:
   a node of height h has frequency >= fib (h + 2), and fib (h + 1) <= M where M (the larger child of the last
   internal node created) is a lower bound of every available frequency.  Hence height <= 30 for every node,
   the depth byte never carries into the frequency field, and (w1 + w2) never leaves 64 bits. *)
From Coq Require Import List NArith Arith Bool Lia.
From LBZ Require Import Common.Bits Enc.PmModel Enc.PmBasics Enc.GenModel Enc.GenMclDefs.
Import ListNotations.
Local Open Scope N_scope.

Lemma lo_lt w : lo w < U32.
Proof. unfold lo. apply N.mod_lt. discriminate. Qed.

Lemma enc_fq_lo w : w = enc (fq w) (lo w).
Proof. unfold enc, fq, lo. pose proof (N.div_mod w U32 ltac:(discriminate)). lia. Qed.

Lemma fq_enc F L : L < U32 -> fq (enc F L) = F.
Proof. apply enc_div. Qed.

Lemma lo_enc F L : L < U32 -> lo (enc F L) = L.
Proof. apply enc_mod. Qed.

Lemma fq_mono a b : a <= b -> fq a <= fq b.
Proof. intro H. unfold fq. apply N.div_le_mono; [discriminate|exact H]. Qed.

Lemma land_shl_ones z k n : N.land z (N.shiftl (N.ones n) k) = ((z / 2 ^ k) mod 2 ^ n) * 2 ^ k.
Proof.
  apply N.bits_inj. intro i.
  rewrite N.land_spec, <- N.shiftl_mul_pow2, <- N.shiftr_div_pow2, <- N.land_ones.
  destruct (N.ltb_spec i k) as [Hk|Hk].
  - rewrite !N.shiftl_spec_low by exact Hk. apply andb_false_r.
  - rewrite !N.shiftl_spec_high' by exact Hk.
    rewrite N.land_spec, N.shiftr_spec'. replace (i - k + k) with i by lia. reflexivity.
Qed.

Lemma depth_field_hg w : depth_field w = hg w * 2 ^ 24.
Proof. rewrite (enc_fq_lo w) at 1. rewrite depth_field_enc by apply lo_lt. reflexivity. Qed.

Lemma hg_lo_bound w h : hg w <= h -> lo w < (h + 1) * 2 ^ 24.
Proof.
  unfold hg. intro H. pose proof (N.div_mod (lo w) (2 ^ 24) ltac:(lia)) as D.
  pose proof (N.mod_lt (lo w) (2 ^ 24) ltac:(lia)). nia.
Qed.

(* the new internal node *)
Lemma bt_weight_spec wt w1 w2 :
  fq w1 + fq w2 < U32 -> lo w1 < 2 ^ 31 -> lo w2 < 2 ^ 31 ->
  exists c, c < 2 ^ 8 /\
    bt_weight wt w1 w2 = enc (fq w1 + fq w2) ((N.max (hg w1) (hg w2) + 1) * 2 ^ 24 + c * 2 ^ 16 + wt mod 2 ^ 16).
Proof.
  intros HF H1 H2. unfold bt_weight, u64.
  set (z := w1 + w2).
  assert (Ez : z = enc (fq w1 + fq w2) (lo w1 + lo w2)).
  { unfold z. rewrite (enc_fq_lo w1) at 1. rewrite (enc_fq_lo w2) at 1. unfold enc. lia. }
  assert (HL : lo w1 + lo w2 < U32) by (unfold U32; lia).
  assert (Hz : z < U64) by (rewrite Ez; apply enc_lt; assumption).
  rewrite (land_MAXW z), (N.mod_small z U64) by exact Hz.
  change 18446744069431296000 with (N.lor (N.shiftl (N.ones 32) 32) (N.shiftl (N.ones 8) 16)).
  rewrite N.land_lor_distr_r, !land_shl_ones.
  assert (E1 : (z / 2 ^ 32) mod 2 ^ 32 = fq w1 + fq w2).
  { rewrite Ez. change (2 ^ 32) with U32. rewrite enc_div by exact HL. apply N.mod_small. exact HF. }
  rewrite E1. set (c := (z / 2 ^ 16) mod 2 ^ 8).
  assert (Hc : c < 2 ^ 8) by (apply N.mod_lt; lia).
  (* from here on lia need not know what c and z stand for *)
  clearbody c. clear E1 Ez Hz. clearbody z.
  rewrite lor_disjoint by lia.
  rewrite (N.land_ones _ 16), !depth_field_hg.
  assert (G1 : hg w1 < 2 ^ 7) by (unfold hg; apply N.div_lt_upper_bound; lia).
  assert (G2 : hg w2 < 2 ^ 7) by (unfold hg; apply N.div_lt_upper_bound; lia).
  assert (EM : N.max (hg w1 * 2 ^ 24) (hg w2 * 2 ^ 24) = N.max (hg w1) (hg w2) * 2 ^ 24) by lia.
  rewrite EM. exists c. split; [exact Hc|].
  pose proof (N.mod_lt wt (2 ^ 16) ltac:(lia)) as Hr.
  set (r := wt mod 2 ^ 16) in *. set (mx := N.max (hg w1) (hg w2)) in *.
  assert (Hmx : mx < 2 ^ 7) by (unfold mx; lia). clearbody r mx.
  replace (r + ((fq w1 + fq w2) * 2 ^ 32 + c * 2 ^ 16) + mx * 2 ^ 24 + 16777216)
    with (enc (fq w1 + fq w2) ((mx + 1) * 2 ^ 24 + c * 2 ^ 16 + r)) by (unfold enc, U32; lia).
  rewrite land_MAXW. apply N.mod_small. apply enc_lt; [exact HF|]. unfold U32. lia.
Qed.

Lemma bt_weight_fields wt w1 w2 :
  fq w1 + fq w2 < U32 -> lo w1 < 2 ^ 31 -> lo w2 < 2 ^ 31 ->
  fq (bt_weight wt w1 w2) = fq w1 + fq w2 /\
  hg (bt_weight wt w1 w2) = N.max (hg w1) (hg w2) + 1 /\
  N.land (bt_weight wt w1 w2) 65535 = N.land wt 65535.
Proof.
  intros HF H1 H2. destruct (bt_weight_spec wt w1 w2 HF H1 H2) as [c [Hc E]]. rewrite E.
  assert (G1 : hg w1 < 2 ^ 7) by (unfold hg; apply N.div_lt_upper_bound; lia).
  assert (G2 : hg w2 < 2 ^ 7) by (unfold hg; apply N.div_lt_upper_bound; lia).
  pose proof (N.mod_lt wt (2 ^ 16) ltac:(lia)) as Hr.
  rewrite !(N.land_ones _ 16).
  set (r := wt mod 2 ^ 16) in *. set (mx := N.max (hg w1) (hg w2)) in *.
  assert (Hmx : mx < 2 ^ 7) by (unfold mx; lia). clearbody r mx.
  assert (HL : (mx + 1) * 2 ^ 24 + c * 2 ^ 16 + r < U32) by (unfold U32; lia).
  split; [apply fq_enc; exact HL|]. split.
  - unfold hg. rewrite lo_enc by exact HL.
    replace ((mx + 1) * 2 ^ 24 + c * 2 ^ 16 + r) with ((c * 2 ^ 16 + r) + (mx + 1) * 2 ^ 24) by lia.
    rewrite N.div_add by lia. rewrite N.div_small by lia. lia.
  - unfold enc.
    replace ((fq w1 + fq w2) * U32 + ((mx + 1) * 2 ^ 24 + c * 2 ^ 16 + r))
      with (r + ((fq w1 + fq w2) * 2 ^ 16 + (mx + 1) * 2 ^ 8 + c) * 2 ^ 16) by (unfold U32; lia).
    rewrite N.mod_add by lia. apply N.mod_small. exact Hr.
Qed.

Fixpoint sumr (g : nat -> N) (a n : nat) : N :=
  match n with O => 0 | S n' => g a + sumr g (S a) n' end.

Lemma sumr_ext g g' n : forall a, (forall i, (a <= i < a + n)%nat -> g i = g' i) -> sumr g a n = sumr g' a n.
Proof.
  induction n as [|n IH]; intros a H; cbn [sumr]; [reflexivity|].
  rewrite (H a) by lia. rewrite (IH (S a)); [reflexivity|]. intros i Hi. apply H. lia.
Qed.

Lemma sumr_snoc g n : forall a, sumr g a (S n) = sumr g a n + g (a + n)%nat.
Proof.
  induction n as [|n IH]; intro a.
  - cbn [sumr]. rewrite Nat.add_0_r. lia.
  - change (sumr g a (S (S n))) with (g a + sumr g (S a) (S n)). rewrite IH. cbn [sumr].
    replace (S a + n)%nat with (a + S n)%nat by lia. lia.
Qed.

Lemma merge_arith M fa fb ha hb :
  1 <= M -> M <= fa -> M <= fb -> fib (ha + 2) <= fa -> fib (hb + 2) <= fb ->
  (1 <= ha -> fib (ha + 1) <= M) -> (1 <= hb -> fib (hb + 1) <= M) ->
  fib (N.max ha hb + 1 + 2) <= fa + fb /\ fib (N.max ha hb + 1 + 1) <= N.max fa fb.
Proof.
  intros H1 Ha Hb Fa Fb Ca Cb.
  assert (Ka : fib (ha + 1) <= M).
  { destruct (N.eq_dec ha 0) as [->|Z]; [change (fib (0 + 1)) with 1; exact H1|apply Ca; lia]. }
  assert (Kb : fib (hb + 1) <= M).
  { destruct (N.eq_dec hb 0) as [->|Z]; [change (fib (0 + 1)) with 1; exact H1|apply Cb; lia]. }
  destruct (N.max_spec ha hb) as [[Hlt E]|[Hge E]]; rewrite E.
  - pose proof (fib_SS (hb + 1)) as S1.
    replace (hb + 1 + 1) with (hb + 2) in * by lia. split; lia.
  - pose proof (fib_SS (ha + 1)) as S1.
    replace (ha + 1 + 1) with (ha + 2) in * by lia. split; lia.
Qed.

Definition gq (W : list N) (i : nat) : N := fq (wn W i).

(* The invariant at the head of the iteration with loop variable t (t = 0: after the loop), in three parts.
   Leaves still available: indices [0, s); internal nodes in the queue: (t, r); nodes [r, as) have their parent. *)
Definition InvA (as_ t r s : nat) : Prop :=
  (t + 1 <= r <= as_)%nat /\ (s + r = 2 * t + 2)%nat /\ (r = t + 1 -> r = as_)%nat.

(* the weights; M: a lower bound of all available frequencies that is at least the larger child of every internal
   node created so far *)
Record InvW (as_ : nat) (W0 : list N) (T : N) (t : nat) (W : list N) (r s : nat) (M : N) : Prop := {
  iLW : length W = as_;
  iLow : forall i, (i < as_)%nat -> N.land (wn W i) 65535 = N.land (wn W0 i) 65535;
  iLeaf : forall i, (i < s)%nat -> wn W i = wn W0 i;
  iM1 : 1 <= M;
  iQM : forall i, (i < s \/ t < i < r)%nat -> M <= gq W i;
  iQint : forall i, (t < i < r)%nat ->
            gq W i <= 2 * M /\ fib (hg (wn W i) + 1) <= M /\ fib (hg (wn W i) + 2) <= gq W i;
  iQh : forall i, (t < i < as_)%nat -> 1 <= hg (wn W i);
  iQsort : forall i j, (t < i)%nat -> (i <= j)%nat -> (j < r)%nat -> gq W j <= gq W i;
  iSum : sumr (gq W) 0 s + sumr (gq W) (t + 1) (r - (t + 1)) = T
}.
Arguments iLW {as_ W0 T t W r s M}.
Arguments iLow {as_ W0 T t W r s M}.
Arguments iLeaf {as_ W0 T t W r s M}.
Arguments iM1 {as_ W0 T t W r s M}.
Arguments iQM {as_ W0 T t W r s M}.
Arguments iQint {as_ W0 T t W r s M}.
Arguments iQh {as_ W0 T t W r s M}.
Arguments iQsort {as_ W0 T t W r s M}.
Arguments iSum {as_ W0 T t W r s M}.

(* the parent pointers *)
Record InvV (as_ t : nat) (W V : list N) (r : nat) : Prop := {
  iLV : length V = as_;
  iVp : forall i, (r <= i < as_)%nat -> (t < vn V i < i)%nat /\ hg (wn W i) + 1 <= hg (wn W (vn V i));
  iVmono : forall i j, (r <= i)%nat -> (i <= j)%nat -> (j < as_)%nat -> (vn V i <= vn V j)%nat;
  iV2 : forall i, (r <= i)%nat -> (i + 2 < as_)%nat -> (vn V i < vn V (i + 2))%nat
}.
Arguments iLV {as_ t W V r}.
Arguments iVp {as_ t W V r}.
Arguments iVmono {as_ t W V r}.
Arguments iV2 {as_ t W V r}.

(* Node S t is made of the items a and b; the queue shrinks to (t, r'), the leaves to [0, s').
   The three lemmas below keep the weights apart from the pointers: every lia sees only what it needs. *)
Lemma merge_A as_ t r s r' s' : InvA as_ (S t) r s ->
  (r' <= r)%nat -> (s' + r' = 2 * t + 2)%nat -> (t + 2 <= r')%nat -> InvA as_ t r' s'.
Proof. unfold InvA. lia. Qed.

Lemma merge_W as_ W0 T t W r s M r' s' a b new :
  InvA as_ (S t) r s -> InvW as_ W0 T (S t) W r s M ->
  (s' <= s)%nat -> (r' <= r)%nat -> (s' + r' = 2 * t + 2)%nat -> (t + 2 <= r')%nat ->
  (forall i, (i < s' \/ S t < i < r')%nat -> gq W a <= gq W i /\ gq W b <= gq W i) ->
  sumr (gq W) 0 s' + sumr (gq W) (t + 2) (r' - (t + 2)) + gq W a + gq W b
    = sumr (gq W) 0 s + sumr (gq W) (t + 2) (r - (t + 2)) ->
  M <= gq W a -> M <= gq W b -> fq new = gq W a + gq W b -> 1 <= hg new ->
  N.land new 65535 = N.land (wn W (S t)) 65535 ->
  fib (hg new + 2) <= fq new -> fib (hg new + 1) <= N.max (gq W a) (gq W b) ->
  InvW as_ W0 T t (upd W (S t) new) r' s' (N.max (gq W a) (gq W b)).
Proof.
  intros [R2 [R3 _]] I Hs' Hr' Hsr Htr Hmin Hsum Ma Mb Nf Nh Nl A1 A2.
  pose proof (iLW I) as LW. pose proof (iM1 I) as M1.
  assert (Ew : forall i, wn (upd W (S t) new) i = if (i =? S t)%nat then new else wn W i)
    by (intro i; apply wn_upd; lia).
  assert (Eg : forall i, gq (upd W (S t) new) i = if (i =? S t)%nat then gq W a + gq W b else gq W i).
  { intro i. unfold gq at 1. rewrite Ew. destruct (i =? S t)%nat; [exact Nf|reflexivity]. }
  constructor.
  - rewrite upd_length. exact LW.
  - intros i Hi. rewrite Ew. destruct (Nat.eqb_spec i (S t)) as [->|Ne]; [rewrite Nl|]; apply (iLow I); exact Hi.
  - intros i Hi. rewrite Ew. destruct (Nat.eqb_spec i (S t)) as [->|Ne]; [lia|]. apply (iLeaf I). lia.
  - lia.
  - intros i Hi. rewrite Eg. destruct (Nat.eqb_spec i (S t)) as [->|Ne]; [lia|].
    apply N.max_lub; apply Hmin; lia.
  - intros i Hi. rewrite Eg, Ew. destruct (Nat.eqb_spec i (S t)) as [->|Ne].
    + rewrite <- Nf. split; [rewrite Nf; lia|]. split; assumption.
    + destruct (iQint I i ltac:(lia)) as [Q1 [Q2 Q3]]. split; [lia|]. split; [lia|exact Q3].
  - intros i Hi. rewrite Ew. destruct (Nat.eqb_spec i (S t)) as [->|Ne]; [exact Nh|]. apply (iQh I). lia.
  - intros i j Hi Hij Hj. rewrite !Eg.
    destruct (Nat.eqb_spec i (S t)) as [->|Ne]; destruct (Nat.eqb_spec j (S t)) as [->|Ne']; try lia.
    + destruct (iQint I j ltac:(lia)) as [Q1 _]. lia.
    + apply (iQsort I); lia.
  - pose proof (iSum I) as SumI. replace (S t + 1)%nat with (t + 2)%nat in SumI by lia.
    replace (r' - (t + 1))%nat with (S (r' - (t + 2))) by lia. cbn [sumr].
    replace (S (t + 1)) with (t + 2)%nat by lia.
    rewrite (sumr_ext (gq (upd W (S t) new)) (gq W) s' 0).
    2:{ intros i Hi. rewrite Eg. destruct (Nat.eqb_spec i (S t)); [lia|reflexivity]. }
    rewrite (sumr_ext (gq (upd W (S t) new)) (gq W) _ (t + 2)).
    2:{ intros i Hi. rewrite Eg. destruct (Nat.eqb_spec i (S t)); [lia|reflexivity]. }
    rewrite Eg. replace (t + 1 =? S t)%nat with true by (symmetry; apply Nat.eqb_eq; lia). lia.
Qed.

Lemma merge_V as_ t W V r r' a b V' new :
  InvV as_ (S t) W V r -> (S t < length W)%nat -> (t + 2 <= r')%nat -> (r' <= r)%nat -> (r <= r' + 2)%nat -> (r <= as_)%nat ->
  (forall i, (r' <= i < r)%nat -> i = a \/ i = b) ->
  hg (wn W a) + 1 <= hg new -> hg (wn W b) + 1 <= hg new ->
  length V' = as_ ->
  (forall i, (r <= i < as_)%nat -> vn V' i = vn V i) ->
  (forall i, (r' <= i < r)%nat -> vn V' i = S t) ->
  InvV as_ t (upd W (S t) new) V' r'.
Proof.
  intros I HSt Htr Hr' Hr2 Hras Hcons Ha Hb HLV' Vsame Vnew.
  assert (Ew : forall i, wn (upd W (S t) new) i = if (i =? S t)%nat then new else wn W i)
    by (intro i; apply wn_upd; exact HSt).
  constructor.
  - exact HLV'.
  - intros i Hi. destruct (Nat.lt_ge_cases i r) as [Hlt|Hge].
    + rewrite (Vnew i ltac:(lia)). split; [lia|]. rewrite !Ew, Nat.eqb_refl.
      destruct (Nat.eqb_spec i (S t)); [lia|].
      destruct (Hcons i ltac:(lia)) as [-> | ->]; assumption.
    + rewrite (Vsame i ltac:(lia)). destruct (iVp I i ltac:(lia)) as [P1 P2].
      split; [lia|]. rewrite !Ew.
      destruct (Nat.eqb_spec i (S t)); [lia|]. destruct (Nat.eqb_spec (vn V i) (S t)); [lia|]. exact P2.
  - intros i j Hi Hij Hj.
    destruct (Nat.lt_ge_cases i r) as [Hlt|Hge]; destruct (Nat.lt_ge_cases j r) as [Hlt'|Hge']; try lia.
    + rewrite (Vnew i), (Vnew j) by lia. lia.
    + rewrite (Vnew i), (Vsame j) by lia. destruct (iVp I j ltac:(lia)). lia.
    + rewrite (Vsame i), (Vsame j) by lia. apply (iVmono I); lia.
  - intros i Hi Hi2. rewrite (Vsame (i + 2)%nat) by lia.
    destruct (Nat.lt_ge_cases i r) as [Hlt|Hge].
    + rewrite (Vnew i) by lia. destruct (iVp I (i + 2)%nat ltac:(lia)). lia.
    + rewrite (Vsame i) by lia. apply (iV2 I); lia.
Qed.

Section Bt.
Variable as_ : nat.
Variable W0 : list N.
Variable T : N.
Hypothesis Has : (2 <= as_)%nat.
Hypothesis HW0len : length W0 = as_.
Hypothesis Hleaf : forall i, (i < as_)%nat -> hg (wn W0 i) = 0 /\ 1 <= fq (wn W0 i).
Hypothesis Hsorted : forall i j, (i <= j)%nat -> (j < as_)%nat -> fq (wn W0 j) <= fq (wn W0 i).
Hypothesis HT : T < fib 33.
Hypothesis HsumT : sumr (gq W0) 0 as_ = T.

Record Inv (t : nat) (W V : list N) (r s : nat) (M : N) : Prop := {
  iA : InvA as_ t r s;
  iW : InvW as_ W0 T t W r s M;
  iV : InvV as_ t W V r
}.
Arguments iA {t W V r s M}.
Arguments iW {t W V r s M}.
Arguments iV {t W V r s M}.

(* every available item carries a Fibonacci certificate *)
Lemma item_cert t W V r s M i : Inv t W V r s M -> (i < s \/ t < i < r)%nat ->
  M <= gq W i /\ fib (hg (wn W i) + 2) <= gq W i /\ (1 <= hg (wn W i) -> fib (hg (wn W i) + 1) <= M).
Proof.
  intros I Hi. split; [apply (iQM (iW I)); exact Hi|]. destruct (iA I) as [R2 [R3 _]].
  destruct (Nat.lt_ge_cases t i) as [Hti|Hti].
  - destruct (iQint (iW I) i ltac:(lia)) as [_ [Q2 Q3]]. split; [exact Q3|intros _; exact Q2].
  - unfold gq. rewrite (iLeaf (iW I) i ltac:(lia)).
    destruct (Hleaf i ltac:(lia)) as [L1 L2]. rewrite L1. change (fib (0 + 2)) with 1. split; [exact L2|lia].
Qed.

(* the node made of two available items whose frequencies sum to at most T *)
Lemma merge_cert t W V r s M a b new : Inv (S t) W V r s M -> (a < s \/ S t < a < r)%nat -> (b < s \/ S t < b < r)%nat ->
  gq W a + gq W b <= T -> new = bt_weight (wn W (S t)) (wn W a) (wn W b) ->
  M <= gq W a /\ M <= gq W b /\ fq new = gq W a + gq W b /\ hg new = N.max (hg (wn W a)) (hg (wn W b)) + 1 /\
  N.land new 65535 = N.land (wn W (S t)) 65535 /\
  fib (hg new + 2) <= fq new /\ fib (hg new + 1) <= N.max (gq W a) (gq W b).
Proof.
  intros I Ha Hb Hab ->.
  destruct (item_cert _ _ _ _ _ _ a I Ha) as [Ma [Fa Ca]].
  destruct (item_cert _ _ _ _ _ _ b I Hb) as [Mb [Fb Cb]].
  assert (T33 : fib 33 = 3524578) by reflexivity.
  assert (Ha30 : hg (wn W a) <= 30) by (apply (fib_height_bound _ (gq W a)); lia).
  assert (Hb30 : hg (wn W b) <= 30) by (apply (fib_height_bound _ (gq W b)); lia).
  pose proof (hg_lo_bound (wn W a) 30 Ha30) as La. pose proof (hg_lo_bound (wn W b) 30 Hb30) as Lb.
  destruct (bt_weight_fields (wn W (S t)) (wn W a) (wn W b)) as [Nf [Nh Nl]];
    [fold (gq W a) (gq W b); unfold U32; lia|lia|lia|].
  rewrite Nf, Nh. fold (gq W a) (gq W b).
  destruct (merge_arith M _ _ _ _ (iM1 (iW I)) Ma Mb Fa Fb Ca Cb) as [A1 A2]. auto 10.
Qed.

Lemma merge_inv t W V r s M r' s' a b V' :
  Inv (S t) W V r s M ->
  (s' <= s)%nat -> (r' <= r)%nat -> (r <= r' + 2)%nat -> (s' + r' = 2 * t + 2)%nat -> (t + 2 <= r')%nat ->
  (a < s \/ S t < a < r)%nat -> (b < s \/ S t < b < r)%nat ->
  (forall i, (i < s' \/ S t < i < r')%nat -> gq W a <= gq W i /\ gq W b <= gq W i) ->
  (forall i, (r' <= i < r)%nat -> i = a \/ i = b) ->
  length V' = as_ ->
  (forall i, (r <= i < as_)%nat -> vn V' i = vn V i) ->
  (forall i, (r' <= i < r)%nat -> vn V' i = S t) ->
  sumr (gq W) 0 s' + sumr (gq W) (t + 2) (r' - (t + 2)) + gq W a + gq W b
    = sumr (gq W) 0 s + sumr (gq W) (t + 2) (r - (t + 2)) ->
  Inv t (upd W (S t) (bt_weight (wn W (S t)) (wn W a) (wn W b))) V' r' s' (N.max (gq W a) (gq W b)).
Proof.
  intros I Hs' Hr' Hr2 Hsr Htr Ha Hb Hmin Hcons HLV' Vsame Vnew Hsum.
  destruct (iA I) as [R2 [R3 R4]].
  assert (Hab : gq W a + gq W b <= T).
  { pose proof (iSum (iW I)) as SumI. replace (S t + 1)%nat with (t + 2)%nat in SumI by lia. lia. }
  destruct (merge_cert _ _ _ _ _ _ a b _ I Ha Hb Hab eq_refl) as (Ma & Mb & Nf & Nh & Nl & A1 & A2).
  constructor.
  - exact (merge_A _ _ _ _ _ _ (iA I) Hr' Hsr Htr).
  - apply (merge_W _ _ _ _ _ _ _ _ _ _ _ _ _ (iA I) (iW I)); try assumption. rewrite Nh. lia.
  - apply (merge_V _ _ _ _ _ _ a b _ _ (iV I)); try assumption; try (rewrite Nh; lia). rewrite (iLW (iW I)). lia. lia.
Qed.

Lemma leaf_sorted t W V r s M i j : Inv t W V r s M -> (i <= j)%nat -> (j < s)%nat -> gq W j <= gq W i.
Proof.
  intros I Hij Hj. destruct (iA I) as [R2 [R3 _]].
  unfold gq. rewrite !(iLeaf (iW I)) by lia. apply Hsorted; lia.
Qed.

(* two internal nodes *)
Lemma inv_II t W V r s M :
  Inv (S t) W V r s M ->
  (s = 0)%nat \/ ((S t + 2 < r)%nat /\ wn W (r - 2) < wn W (s - 1)) ->
  Inv t (upd W (S t) (bt_weight (wn W (S t)) (wn W (r - 1)) (wn W (r - 2))))
        (upd (upd V (r - 1) (N.of_nat (S t))) (r - 2) (N.of_nat (S t))) (r - 2) s
        (N.max (gq W (r - 1)) (gq W (r - 2))).
Proof.
  intros I C. destruct (iA I) as [R2 [R3 _]].
  pose proof (iLV (iV I)) as LV.
  assert (Hr : (t + 4 <= r)%nat) by (destruct C as [C|[C _]]; lia).
  apply (merge_inv t W V r s M (r - 2) s (r - 1) (r - 2));
    [exact I|lia|lia|lia|lia|lia|right; lia|right; lia| | | | | | ].
  - intros i Hi.
    assert (S1 : gq W (r - 1) <= gq W (r - 2)) by (apply (iQsort (iW I)); lia).
    destruct (Nat.lt_ge_cases (S t) i) as [Hint|Hlf].
    + assert (gq W (r - 2) <= gq W i) by (apply (iQsort (iW I)); lia). lia.
    + destruct C as [C|[C1 C2]]; [lia|].
      apply N.lt_le_incl, fq_mono in C2. fold (gq W (r - 2)) (gq W (s - 1)) in C2.
      pose proof (leaf_sorted _ _ _ _ _ _ i (s - 1)%nat I ltac:(lia) ltac:(lia)). lia.
  - intros i Hi. lia.
  - rewrite !upd_length. exact LV.
  - intros i Hi. rewrite !vn_upd by (rewrite ?upd_length; lia).
    destruct (Nat.eqb_spec i (r - 2)); [lia|]. destruct (Nat.eqb_spec i (r - 1)); [lia|]. reflexivity.
  - intros i Hi. rewrite !vn_upd by (rewrite ?upd_length; lia). rewrite Nat2N.id.
    destruct (Nat.eqb_spec i (r - 2)); [reflexivity|]. destruct (Nat.eqb_spec i (r - 1)); [reflexivity|lia].
  - replace (r - (t + 2))%nat with (S (S (r - 2 - (t + 2)))) by lia. rewrite !sumr_snoc.
    replace (t + 2 + (r - 2 - (t + 2)))%nat with (r - 2)%nat by lia.
    replace (t + 2 + S (r - 2 - (t + 2)))%nat with (r - 1)%nat by lia. lia.
Qed.

(* two leaves *)
Lemma inv_LL t W V r s M :
  Inv (S t) W V r s M -> (1 <= s)%nat ->
  (r < S t + 2)%nat \/ ((1 < s)%nat /\ wn W (s - 2) <= wn W (r - 1)) ->
  Inv t (upd W (S t) (bt_weight (wn W (S t)) (wn W (s - 1)) (wn W (s - 2)))) V r (s - 2)
        (N.max (gq W (s - 1)) (gq W (s - 2))).
Proof.
  intros I Hs1 C. destruct (iA I) as [R2 [R3 R4]]. pose proof (iLV (iV I)) as LV.
  assert (Hs : (2 <= s)%nat) by (destruct C as [C|[C _]]; lia).
  apply (merge_inv t W V r s M r (s - 2) (s - 1) (s - 2));
    [exact I|lia|lia|lia|lia|lia|left; lia|left; lia| | | | | | ].
  - intros i Hi.
    assert (S1 : gq W (s - 1) <= gq W (s - 2)) by (apply (leaf_sorted _ _ _ _ _ _ _ _ I); lia).
    destruct (Nat.lt_ge_cases (S t) i) as [Hint|Hlf].
    + destruct C as [C|[C1 C2]]; [lia|].
      apply fq_mono in C2. fold (gq W (s - 2)) (gq W (r - 1)) in C2.
      assert (gq W (r - 1) <= gq W i) by (apply (iQsort (iW I)); lia). lia.
    + assert (gq W (s - 2) <= gq W i) by (apply (leaf_sorted _ _ _ _ _ _ _ _ I); lia). lia.
  - intros i Hi. lia.
  - exact LV.
  - intros i Hi. reflexivity.
  - intros i Hi. lia.
  - pose proof (sumr_snoc (gq W) (s - 2) 0) as E1. pose proof (sumr_snoc (gq W) (S (s - 2)) 0) as E2.
    replace (S (S (s - 2))) with s in E2 by lia. cbn [Nat.add] in E1, E2.
    replace (S (s - 2)) with (s - 1)%nat in E1, E2 by lia. lia.
Qed.

(* one internal node and one leaf *)
Lemma inv_IL t W V r s M :
  Inv (S t) W V r s M -> (1 <= s)%nat -> (S t + 2 <= r)%nat ->
  (r <= S t + 2)%nat \/ wn W (s - 1) <= wn W (r - 2) ->
  (s <= 1)%nat \/ wn W (r - 1) < wn W (s - 2) ->
  Inv t (upd W (S t) (bt_weight (wn W (S t)) (wn W (r - 1)) (wn W (s - 1))))
        (upd V (r - 1) (N.of_nat (S t))) (r - 1) (s - 1)
        (N.max (gq W (r - 1)) (gq W (s - 1))).
Proof.
  intros I Hs1 Hr C1 C2. destruct (iA I) as [R2 [R3 _]].
  pose proof (iLV (iV I)) as LV.
  apply (merge_inv t W V r s M (r - 1) (s - 1) (r - 1) (s - 1));
    [exact I|lia|lia|lia|lia|lia|right; lia|left; lia| | | | | | ].
  - intros i Hi. destruct (Nat.lt_ge_cases (S t) i) as [Hint|Hlf].
    + destruct C1 as [C1|C1]; [lia|].
      apply fq_mono in C1. fold (gq W (s - 1)) (gq W (r - 2)) in C1.
      assert (gq W (r - 2) <= gq W i) by (apply (iQsort (iW I)); lia).
      assert (gq W (r - 1) <= gq W i) by (apply (iQsort (iW I)); lia). lia.
    + destruct C2 as [C2|C2]; [lia|].
      apply N.lt_le_incl, fq_mono in C2. fold (gq W (r - 1)) (gq W (s - 2)) in C2.
      assert (gq W (s - 2) <= gq W i) by (apply (leaf_sorted _ _ _ _ _ _ _ _ I); lia).
      assert (gq W (s - 1) <= gq W i) by (apply (leaf_sorted _ _ _ _ _ _ _ _ I); lia). lia.
  - intros i Hi. lia.
  - rewrite upd_length. exact LV.
  - intros i Hi. rewrite vn_upd by lia. destruct (Nat.eqb_spec i (r - 1)); [lia|]. reflexivity.
  - intros i Hi. rewrite vn_upd by lia. rewrite Nat2N.id. destruct (Nat.eqb_spec i (r - 1)); [reflexivity|lia].
  - pose proof (sumr_snoc (gq W) (s - 1) 0) as E1. replace (S (s - 1)) with s in E1 by lia. cbn [Nat.add] in E1.
    pose proof (sumr_snoc (gq W) (r - 1 - (t + 2)) (t + 2)) as E2.
    replace (S (r - 1 - (t + 2))) with (r - (t + 2))%nat in E2 by lia.
    replace (t + 2 + (r - 1 - (t + 2)))%nat with (r - 1)%nat in E2 by lia. lia.
Qed.

Lemma bt_step t W V r s M : Inv (S t) W V r s M ->
  exists W' V' r' s' M', bt_loop (S t) W V r s = bt_loop t W' V' r' s' /\ Inv t W' V' r' s' M'.
Proof.
  intro I. destruct (iA I) as [R2 [R3 R4]].
  pose proof (iLV (iV I)) as LV. pose proof (iLW (iW I)) as LW.
  cbn [bt_loop]. rewrite !mrd_ok by lia. fold (wn W (r - 2)) (wn W (s - 1)) (wn W (s - 2)) (wn W (r - 1)).
  (* the two tests select the case whose precondition holds *)
  assert (C1 : exists c1,
    (if (s <? 1)%nat then GOk true
     else if (S t + 2 <? r)%nat then gdo a <- GOk (wn W (r - 2)); gdo b <- GOk (wn W (s - 1)); GOk (a <? b)
     else GOk false) = GOk c1 /\
    if c1 then (s = 0)%nat \/ ((S t + 2 < r)%nat /\ wn W (r - 2) < wn W (s - 1))
    else (1 <= s)%nat /\ ((r <= S t + 2)%nat \/ wn W (s - 1) <= wn W (r - 2))).
  { destruct (Nat.ltb_spec s 1); [exists true; split; [reflexivity|left; lia]|].
    destruct (Nat.ltb_spec (S t + 2) r); [|exists false; split; [reflexivity|split; [lia|left; lia]]].
    cbn [gbind]. destruct (N.ltb_spec (wn W (r - 2)) (wn W (s - 1))); eexists; (split; [reflexivity|]);
      [right; split; assumption|split; [lia|right; assumption]]. }
  destruct C1 as [c1 [-> H1]]. cbn [gbind]. destruct c1.
  - (* two internal nodes *)
    assert (Hr : (t + 4 <= r)%nat) by (destruct H1 as [H1|[H1 _]]; lia).
    destruct (Nat.ltb_spec r 2); [lia|].
    rewrite mwr_ok by lia. cbn [gbind]. rewrite mwr_ok by (rewrite upd_length; lia). cbn [gbind].
    rewrite mwr_ok by lia. cbn [gbind].
    do 5 eexists. split; [reflexivity|exact (inv_II _ _ _ _ _ _ I H1)].
  - destruct H1 as [Hs1 H1].
    assert (C2 : exists c2,
      (if (r <? S t + 2)%nat then GOk true
       else if (1 <? s)%nat then GOk (wn W (s - 2) <=? wn W (r - 1))
       else GOk false) = GOk c2 /\
      if c2 then (r < S t + 2)%nat \/ ((1 < s)%nat /\ wn W (s - 2) <= wn W (r - 1))
      else (S t + 2 <= r)%nat /\ ((s <= 1)%nat \/ wn W (r - 1) < wn W (s - 2))).
    { destruct (Nat.ltb_spec r (S t + 2)); [exists true; split; [reflexivity|left; lia]|].
      destruct (Nat.ltb_spec 1 s); [|exists false; split; [reflexivity|split; [lia|left; lia]]].
      destruct (N.leb_spec (wn W (s - 2)) (wn W (r - 1))); eexists; (split; [reflexivity|]);
        [right; split; assumption|split; [lia|right; assumption]]. }
    destruct C2 as [c2 [-> H2]]. cbn [gbind]. destruct c2.
    + (* two leaves *)
      assert (Hs : (2 <= s)%nat) by (destruct H2 as [H2|[H2 _]]; lia).
      destruct (Nat.ltb_spec s 2); [lia|]. cbn [gbind]. rewrite mwr_ok by lia. cbn [gbind].
      do 5 eexists. split; [reflexivity|exact (inv_LL _ _ _ _ _ _ I Hs1 H2)].
    + (* one internal node and one leaf *)
      destruct H2 as [Hr H2].
      destruct (Nat.ltb_spec r 1); [lia|]. destruct (Nat.ltb_spec s 1); [lia|]. cbn [orb].
      rewrite mwr_ok by lia. cbn [gbind]. rewrite mwr_ok by lia. cbn [gbind].
      do 5 eexists. split; [reflexivity|exact (inv_IL _ _ _ _ _ _ I Hs1 Hr H1 H2)].
Qed.

Lemma bt_loop_ok t : forall W V r s M, Inv t W V r s M ->
  exists W' V' M', bt_loop t W V r s = GOk (W', V', 2%nat, 0%nat) /\ Inv 0 W' V' 2 0 M'.
Proof.
  induction t as [|t IH]; intros W V r s M I.
  - destruct (iA I) as [R2 [R3 R4]].
    assert (r = 2 /\ s = 0)%nat as [-> ->] by lia.
    exists W, V, M. split; [reflexivity|exact I].
  - destruct (bt_step t W V r s M I) as [W1 [V1 [r1 [s1 [M1 [E I1]]]]]]. rewrite E. apply (IH _ _ _ _ _ I1).
Qed.

Lemma inv_init : Inv (as_ - 1) W0 (repeat 0 as_) as_ as_ 1.
Proof.
  constructor; [unfold InvA; lia| |]; constructor.
  - exact HW0len.
  - reflexivity.
  - reflexivity.
  - lia.
  - intros i Hi. apply Hleaf. lia.
  - intros i Hi. lia.
  - intros i Hi. lia.
  - intros i j H1 H2 H3. lia.
  - replace (as_ - (as_ - 1 + 1))%nat with 0%nat by lia. cbn [sumr]. rewrite N.add_0_r. exact HsumT.
  - apply repeat_length.
  - intros i Hi. lia.
  - intros i j H1 H2 H3. lia.
  - intros i H1 H2. lia.
Qed.

Theorem build_tree_ok :
  exists W V, bt_loop (as_ - 1) W0 (repeat 0 as_) as_ as_ = GOk (W, V, 2%nat, 0%nat) /\ BtPost as_ W0 W V.
Proof.
  destruct (bt_loop_ok _ _ _ _ _ _ inv_init) as [W [V [M [E I]]]]. exists W, V. split; [exact E|].
  unfold BtPost. split; [exact (iLW (iW I))|]. split; [exact (iLV (iV I))|].
  split; [exact (iLow (iW I))|].
  split; [intros i Hi; destruct (iVp (iV I) i ltac:(lia)) as [P1 P2]; split; [lia|exact P2]|].
  split; [intros i Hi; apply (iQh (iW I)); lia|].
  split; [intros i j H1 H2 H3; apply (iVmono (iV I)); lia|].
  split; [intros i H1 H2; apply (iV2 (iV I)); lia|].
  destruct (iQint (iW I) 1%nat ltac:(lia)) as [_ [_ Q3]].
  pose proof (iSum (iW I)) as S. cbn [sumr Nat.add Nat.sub] in S.
  apply (fib_height_bound _ (gq W 1)); [exact Q3|lia].
Qed.
End Bt.
