(* Proofs about Enc/GenModel.v: the groups, len_pack / find_best_tree, the E and M steps, the EM loop.
   Whatever make_code_lengths ([mcl]) returns (as long as it keeps the row length and its only error values
   are its own), after >= 1 iterations: one selector < nt per group, nt frequency rows of as+1 entries whose
   grand total is the number of (padded) symbols, MAX_TREES length rows of as entries. *)
From Coq Require Import List NArith Arith Bool Lia.
From LBZ Require Import Common.ListArr Gen.Consts Enc.PmModel Enc.PmBasics Enc.PmReal Enc.GenModel Enc.GenInit.
Import ListNotations.
Local Open Scope N_scope.

Lemma chunk_length n l : length (chunk n l) = n.
Proof. revert l. induction n as [|n IH]; intro l; cbn [chunk length]; [reflexivity|]. rewrite IH. reflexivity. Qed.

Lemma chunk_Forall (P : N -> Prop) n : forall l, Forall P l -> Forall (Forall P) (chunk n l).
Proof.
  induction n as [|n IH]; intros l H; cbn [chunk]; constructor.
  - apply Forall_firstn. exact H.
  - apply IH. apply Forall_skipn. exact H.
Qed.

Lemma chunk_total n : forall l, (length (concat (chunk n l)) <= length l)%nat.
Proof.
  induction n as [|n IH]; intro l; cbn [chunk concat]; [cbn; lia|].
  rewrite app_length. specialize (IH (skipn GS l)).
  rewrite <- (firstn_skipn GS l) at 3. rewrite app_length. lia.
Qed.

Lemma num_groups_mul nm : num_groups nm * GROUP_SIZE <= nm + GROUP_SIZE - 1.
Proof.
  unfold num_groups. change GROUP_SIZE with 50.
  pose proof (N.mul_div_le (nm + 50 - 1) 50). lia.
Qed.

Lemma num_groups_ge nm : nm <= num_groups nm * GROUP_SIZE.
Proof.
  unfold num_groups. change GROUP_SIZE with 50.
  pose proof (N.div_mod (nm + 50 - 1) 50). pose proof (N.mod_lt (nm + 50 - 1) 50). lia.
Qed.

Lemma num_groups_mono a b : a <= b -> num_groups a <= num_groups b.
Proof. intro H. unfold num_groups. apply N.div_le_mono; [discriminate|]. change GROUP_SIZE with 50. lia. Qed.

Lemma groups_of_spec mtfv asN : Forall (fun s => s < asN) mtfv ->
  let groups := groups_of mtfv asN in
  length groups = N.to_nat (num_groups (N.of_nat (length mtfv))) /\
  Forall (Forall (fun s => s <= asN)) groups /\
  N.of_nat (length (concat groups)) <= N.of_nat (length mtfv) + GROUP_SIZE - 1.
Proof.
  intros H groups. unfold groups, groups_of. split; [apply chunk_length|]. split.
  - apply chunk_Forall. apply Forall_app. split.
    + eapply Forall_impl; [|exact H]. cbn beta. intros; lia.
    + apply Forall_forall. intros x Hx. apply repeat_spec in Hx. lia.
  - set (nm := N.of_nat (length mtfv)).
    match goal with |- N.of_nat (length (concat (chunk ?n ?l))) <= _ => pose proof (chunk_total n l) as Ht end.
    rewrite app_length, repeat_length in Ht. fold nm in Ht.
    pose proof (num_groups_mul nm). pose proof (num_groups_ge nm). change GROUP_SIZE with 50 in *. lia.
Qed.

Lemma zip_pack_length row : forall acc, length row = length acc -> length (zip_pack row acc) = length acc.
Proof.
  induction row as [|l r IH]; intros [|a c] H; cbn [zip_pack length] in *; try lia.
  rewrite IH; lia.
Qed.

Lemma len_pack_length as_ lens : Forall (fun row => length row = as_) lens -> length (len_pack lens as_) = S as_.
Proof.
  intro H. unfold len_pack. rewrite app_length. cbn [length].
  assert (E : length (fold_right zip_pack (repeat 0 as_) lens) = as_).
  { induction H as [|row lens Hr Hl IH]; cbn [fold_right]; [apply repeat_length|].
    rewrite zip_pack_length; rewrite IH; auto. }
  lia.
Qed.

Lemma sum_pack_ok lp g : Forall (fun s => (N.to_nat s < length lp)%nat) g ->
  forall cp, exists cp', sum_pack lp g cp = GOk cp'.
Proof.
  induction 1 as [|s g Hs Hg IH]; intro cp; cbn [sum_pack]; [eexists; reflexivity|].
  destruct (nth_error lp (N.to_nat s)) as [x|] eqn:E.
  - apply IH.
  - apply nth_error_None in E. lia.
Qed.

Lemma best_loop_bound n : forall t cp bc bt, bt < t -> best_loop n t cp bc bt < t + N.of_nat n.
Proof.
  induction n as [|n IH]; intros t cp bc bt H; cbn [best_loop]; [lia|].
  destruct (_ <? bc).
  - specialize (IH (t + 1) (N.shiftr cp 10) (N.land (N.shiftr cp 10) 1023) t). lia.
  - specialize (IH (t + 1) (N.shiftr cp 10) bc bt). lia.
Qed.

Lemma find_best_tree_ok g nt lp : (1 <= nt)%nat -> Forall (fun s => (N.to_nat s < length lp)%nat) g ->
  exists t, find_best_tree g nt lp = GOk t /\ t < N.of_nat nt.
Proof.
  intros Hnt Hg. unfold find_best_tree. destruct (sum_pack_ok lp g Hg 0) as [cp E]. rewrite E. cbn [gbind].
  eexists. split; [reflexivity|].
  pose proof (best_loop_bound (nt - 1) 1 cp (N.land cp 1023) 0). lia.
Qed.

Definition fr_shape (as_ nt : nat) (fr : list (list N)) : Prop :=
  length fr = nt /\ Forall (fun row => length row = S as_) fr.

Lemma upd_In {A} (l : list A) i v x : In x (upd l i v) -> x = v \/ In x l.
Proof.
  revert i. induction l as [|y l IH]; intros i H; [destruct i; contradiction|].
  destruct i as [|j]; cbn [upd] in H.
  - destruct H as [<-|H]; [left; reflexivity|right; right; exact H].
  - destruct H as [<-|H]; [right; left; reflexivity|]. apply IH in H. destruct H; [left|right; right]; assumption.
Qed.

Lemma upd_concat_sum (fr : list (list N)) : forall t row row', nth_error fr t = Some row ->
  lsum (concat (upd fr t row')) + lsum row = lsum (concat fr) + lsum row'.
Proof.
  induction fr as [|r0 fr IH]; intros t row row' H; [destruct t; discriminate|].
  destruct t as [|t]; cbn [nth_error] in H; cbn [upd concat]; rewrite !lsum_app.
  - inversion H; subst. lia.
  - specialize (IH t row row' H). lia.
Qed.

Lemma concat_repeat_zero k n : lsum (concat (repeat (repeat 0 k) n)) = 0.
Proof. induction n as [|n IH]; cbn [repeat concat]; [reflexivity|]. rewrite lsum_app, lsum_repeat0, IH. reflexivity. Qed.

Lemma e_step_ok as_ nt lp : (1 <= nt)%nat -> length lp = S as_ ->
  forall groups fr, Forall (Forall (fun s => s <= N.of_nat as_)) groups -> fr_shape as_ nt fr ->
  exists sels fr', e_step nt lp groups fr = GOk (sels, fr') /\ length sels = length groups /\
    Forall (fun t => t < N.of_nat nt) sels /\ fr_shape as_ nt fr' /\
    lsum (concat fr') = lsum (concat fr) + N.of_nat (length (concat groups)).
Proof.
  intros Hnt Hlp. induction groups as [|g groups IH]; intros fr Hg Hfr.
  - exists [], fr. cbn. repeat split; try apply Hfr; try constructor. lia.
  - inversion Hg as [|? ? Hg1 Hg2]; subst. cbn [e_step].
    assert (Hr : Forall (fun s => (N.to_nat s < S as_)%nat) g).
    { eapply Forall_impl; [|exact Hg1]. cbn beta. intros; lia. }
    destruct (find_best_tree_ok g nt lp Hnt) as [t [Et Ht]]; [rewrite Hlp; exact Hr|].
    rewrite Et. cbn [gbind]. replace (t <? N.of_nat nt) with true by (symmetry; apply N.ltb_lt; exact Ht).
    cbn [negb]. destruct Hfr as [Hf1 Hf2].
    destruct (nth_error fr (N.to_nat t)) as [row|] eqn:En; [|apply nth_error_None in En; lia].
    unfold grd. rewrite En. cbn [gbind].
    assert (Hrow : length row = S as_).
    { rewrite Forall_forall in Hf2. apply Hf2. eapply nth_error_In; eauto. }
    destruct (bump_all_ok 7 g row) as [row' [Eb [Lb Sb]]]; [rewrite Hrow; exact Hr|].
    rewrite Eb. cbn [gbind].
    destruct (IH (upd fr (N.to_nat t) row') Hg2) as [sels [fr' [E [L1 [L2 [L3 L4]]]]]].
    { split; [rewrite upd_length; exact Hf1|]. apply Forall_forall. intros x Hx. apply upd_In in Hx.
      destruct Hx as [->|Hx]; [lia|]. rewrite Forall_forall in Hf2. apply Hf2. exact Hx. }
    rewrite E. cbn [gbind]. exists (t :: sels), fr'. split; [reflexivity|].
    split; [cbn [length]; lia|]. split; [constructor; assumption|]. split; [exact L3|].
    rewrite L4. cbn [concat]. rewrite app_length.
    pose proof (upd_concat_sum fr (N.to_nat t) row row' En). lia.
Qed.

(* [E]: the error values make_code_lengths may return (fun _ => False: none; is_mcl_err: its own) *)
Definition mcl_wf (E : gen_err -> Prop) (mcl : list N -> list N -> gres (list N)) : Prop :=
  (forall old f l, mcl old f = GOk l -> length l = length old) /\
  (forall old f e, mcl old f = GErr e -> E e).

(* a result satisfying P, or one of those error values *)
Definition err_only {A} (E : gen_err -> Prop) (x : gres A) (P : A -> Prop) : Prop :=
  match x with GOk a => P a | GErr e => E e end.

Definition is_mcl_err (e : gen_err) : Prop := exists m, e = GMcl m.

(* the same, required only of the calls (old row, frequencies) that satisfy Pre *)
Definition mcl_wf_on (Pre : list N -> list N -> Prop) (E : gen_err -> Prop) (mcl : list N -> list N -> gres (list N)) : Prop :=
  forall old f, Pre old f -> err_only E (mcl old f) (fun l => length l = length old).

Lemma mcl_wf_on_all E mcl : mcl_wf E mcl -> mcl_wf_on (fun _ _ => True) E mcl.
Proof. intros [W1 W2] old f _. destruct (mcl old f) as [l|e] eqn:Em; [exact (W1 _ _ _ Em)|exact (W2 _ _ _ Em)]. Qed.

Lemma m_step_ok Pre E mcl as_ : mcl_wf_on Pre E mcl -> forall fr lens, (length fr <= length lens)%nat ->
  (forall l f, In l lens -> In f fr -> Pre l (firstn as_ f)) ->
  err_only E (m_step mcl as_ lens fr) (fun lens' => map (@length N) lens' = map (@length N) lens).
Proof.
  intro W. induction fr as [|f fr IH]; intros lens Hl HP.
  - destruct lens; reflexivity.
  - destruct lens as [|l lens]; [cbn in Hl; lia|]. cbn [m_step length] in *.
    pose proof (W l (firstn as_ f) (HP l f (or_introl eq_refl) (or_introl eq_refl))) as Wl.
    specialize (IH lens ltac:(lia) (fun l' f' Hl' Hf' => HP l' f' (or_intror Hl') (or_intror Hf'))).
    destruct (mcl l (firstn as_ f)) as [l'|e]; cbn [gbind]; [|exact Wl].
    destruct (m_step mcl as_ lens fr) as [rest|e]; cbn [gbind]; [|exact IH].
    cbv beta iota delta [err_only] in *. cbn [map]. rewrite Wl, IH. reflexivity.
Qed.

Lemma shape_of_map as_ (l l' : list (list N)) : map (@length N) l' = map (@length N) l -> lens_shape as_ l -> lens_shape as_ l'.
Proof.
  intros E [H1 H2]. split.
  - rewrite <- H1. rewrite <- (map_length (@length N) l'), E, map_length. reflexivity.
  - apply Forall_forall. intros row Hin. apply (in_map (@length N)) in Hin. rewrite E in Hin.
    apply in_map_iff in Hin. destruct Hin as [r0 [<- Hr0]]. rewrite Forall_forall in H2. apply H2. exact Hr0.
Qed.

Definition sel_fr_ok (as_ nt : nat) (groups : list (list N)) (sf : list N * list (list N)) : Prop :=
  length (fst sf) = length groups /\ Forall (fun t => t < N.of_nat nt) (fst sf) /\ fr_shape as_ nt (snd sf) /\
  lsum (concat (snd sf)) = N.of_nat (length (concat groups)).

Definition em_pre (as_ : nat) (st : em_state) : Prop := lens_shape as_ (fst st).
Definition em_post (as_ nt : nat) (groups : list (list N)) (st : em_state) : Prop :=
  lens_shape as_ (fst st) /\ exists sf, snd st = Some sf /\ sel_fr_ok as_ nt groups sf.

Lemma lsum_concat_In (fr : list (list N)) row : In row fr -> lsum row <= lsum (concat fr).
Proof.
  induction fr as [|r0 fr IH]; [intros []|]. cbn [concat]. rewrite lsum_app. intros [->|H]; [lia|].
  specialize (IH H). lia.
Qed.

Section Em.
Variables (Pre : list N -> list N -> Prop) (E : gen_err -> Prop) (mcl : list N -> list N -> gres (list N)).
Variables (as_ nt : nat) (groups : list (list N)).
Hypothesis W : mcl_wf_on Pre E mcl.
Hypothesis Hnt : (1 <= nt <= NTREES)%nat.
Hypothesis Hg : Forall (Forall (fun s => s <= N.of_nat as_)) groups.
(* what the M step hands to make_code_lengths: a length row, and the first as_ frequencies of a row of the E step *)
Hypothesis HP : forall l g, length l = as_ -> length g = as_ -> lsum g <= N.of_nat (length (concat groups)) -> Pre l g.

Lemma em_iter_ok st : err_only E st (em_pre as_) -> err_only E (em_iter mcl as_ nt groups st) (em_post as_ nt groups).
Proof.
  intro Hst. unfold em_iter. destruct st as [[lens o]|e]; cbn [gbind]; [|exact Hst].
  cbn [err_only] in Hst. unfold em_pre in Hst. cbn [fst] in *. destruct Hst as [Hs1 Hs2].
  destruct (e_step_ok as_ nt (len_pack lens as_)) with (groups := groups) (fr := repeat (repeat 0 (S as_)) nt)
    as [sels [fr [Ee [L1 [L2 [[L3 L3'] L4]]]]]]; try lia.
  - apply len_pack_length. exact Hs2.
  - exact Hg.
  - split; [apply repeat_length|]. apply Forall_forall. intros x Hx. apply repeat_spec in Hx. subst x. apply repeat_length.
  - rewrite Ee. cbn [gbind]. rewrite L1, Nat.eqb_refl. cbn [negb].
    rewrite concat_repeat_zero, N.add_0_l in L4. rewrite Forall_forall in Hs2, L3'.
    pose proof (m_step_ok Pre E mcl as_ W fr lens ltac:(lia)) as M.
    assert (HM : forall l f, In l lens -> In f fr -> Pre l (firstn as_ f)).
    { intros l f Hl Hf. apply HP; [apply Hs2, Hl|rewrite firstn_length, (L3' f Hf); lia|].
      pose proof (lsum_firstn_le as_ f). pose proof (lsum_concat_In fr f Hf). lia. }
    specialize (M HM).
    destruct (m_step mcl as_ lens fr) as [lens'|e]; cbn [gbind err_only] in *; [|exact M].
    split; cbn [fst snd].
    + apply (shape_of_map as_ lens lens' M). split; [exact Hs1|apply Forall_forall; exact Hs2].
    + exists (sels, fr). split; [reflexivity|]. repeat split; cbn [fst snd]; try assumption.
      apply Forall_forall. exact L3'.
Qed.

Lemma em_loop_on cf lens0 : 1 <= cf -> lens_shape as_ lens0 ->
  err_only E (N.iter cf (em_iter mcl as_ nt groups) (GOk (lens0, None))) (em_post as_ nt groups).
Proof.
  intros Hcf H0. replace cf with (N.succ (N.pred cf)) by lia. rewrite N.iter_succ.
  apply em_iter_ok. apply N.iter_invariant; [|exact H0].
  intros st Hst. pose proof (em_iter_ok st Hst) as H1.
  destruct (em_iter mcl as_ nt groups st) as [s|e]; unfold err_only in *; [apply H1|exact H1].
Qed.

End Em.

(* the selectors and frequencies the loop ends with are those of an E step *)
Lemma em_last mcl as_ nt groups cf lens0 lens sels fr : 1 <= cf ->
  N.iter cf (em_iter mcl as_ nt groups) (GOk (lens0, None)) = GOk (lens, Some (sels, fr)) ->
  exists lp, e_step nt lp groups (repeat (repeat 0 (S as_)) nt) = GOk (sels, fr).
Proof.
  intros Hcf H. replace cf with (N.succ (N.pred cf)) in H by lia. rewrite N.iter_succ in H.
  unfold em_iter at 1 in H. destruct (N.iter (N.pred cf) _ _) as [[lp o]|]; [|discriminate]. cbn [gbind fst] in H.
  destruct (e_step nt _ groups _) as [[ss ff]|] eqn:Ee; [|discriminate]. cbn [gbind] in H.
  destruct (negb _) in H; [discriminate|].
  destruct (m_step mcl as_ lp ff) as [l'|]; [|discriminate]. cbn [gbind] in H. inversion H; subst.
  eexists. exact Ee.
Qed.
