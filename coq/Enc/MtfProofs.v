(* MTF + zero-run coding: the decoder's unmtf_block inverts the encoder's
   mtf_zrle over the sorted list of used bytes. *)
From Coq Require Import List NArith Lia Sorted.
From LBZ Require Import Dec.Prog Dec.Format Enc.EncModel Enc.ListAux.
Import ListNotations.
Local Open Scope N_scope.

Lemma insert_sorted_In c x : forall l, In x (insert_sorted c l) <-> x = c \/ In x l.
Proof.
  induction l as [|y l IH]; cbn [insert_sorted In].
  - intuition.
  - destruct (N.ltb_spec c y) as [Hlt|Hge].
    + cbn [In]. intuition.
    + destruct (N.eqb_spec c y) as [->|Hne].
      * cbn [In]. intuition.
      * cbn [In]. rewrite IH. intuition.
Qed.

Lemma insert_sorted_sorted c : forall l,
  StronglySorted N.lt l -> StronglySorted N.lt (insert_sorted c l).
Proof.
  induction l as [|y l IH]; intro Hs; cbn [insert_sorted].
  - constructor; constructor.
  - destruct (N.ltb_spec c y) as [Hlt|Hge].
    + constructor; [exact Hs|].
      inversion Hs as [|? ? Hs' Hall]; subst.
      constructor; [exact Hlt|].
      rewrite Forall_forall in *. intros z Hz. specialize (Hall z Hz). lia.
    + destruct (N.eqb_spec c y) as [->|Hne]; [exact Hs|].
      inversion Hs as [|? ? Hs' Hall]; subst.
      constructor; [apply IH; exact Hs'|].
      rewrite Forall_forall in *. intros z Hz.
      apply insert_sorted_In in Hz. destruct Hz as [->|Hz]; [lia|auto].
Qed.

Lemma fold_insert_In x : forall l acc,
  In x (fold_left (fun acc c => insert_sorted c acc) l acc) <-> In x l \/ In x acc.
Proof.
  induction l as [|c l IH]; intro acc; cbn [fold_left In].
  - intuition.
  - rewrite IH, insert_sorted_In. intuition.
Qed.

Lemma fold_insert_sorted : forall l acc,
  StronglySorted N.lt acc ->
  StronglySorted N.lt (fold_left (fun acc c => insert_sorted c acc) l acc).
Proof.
  induction l as [|c l IH]; intros acc Hs; cbn [fold_left]; [exact Hs|].
  apply IH, insert_sorted_sorted, Hs.
Qed.

Lemma used_bytes_In : forall col c, In c (used_bytes col) <-> In c col.
Proof.
  intros col c. unfold used_bytes. rewrite fold_insert_In. cbn [In]. intuition.
Qed.

Lemma used_bytes_nonempty col : col <> [] -> (1 <= length (used_bytes col))%nat.
Proof.
  destruct col as [|c col]; [congruence|]. intros _.
  assert (Hc : In c (used_bytes (c :: col))) by (apply used_bytes_In; left; reflexivity).
  destruct (used_bytes (c :: col)); [destruct Hc|cbn [length]; lia].
Qed.

Lemma used_bytes_StronglySorted : forall col, StronglySorted N.lt (used_bytes col).
Proof. intro col. unfold used_bytes. apply fold_insert_sorted. constructor. Qed.

Lemma used_bytes_Sorted : forall col, Sorted N.lt (used_bytes col).
Proof. intro col. apply StronglySorted_Sorted, used_bytes_StronglySorted. Qed.

Lemma used_bytes_NoDup : forall col, NoDup (used_bytes col).
Proof. intro col. apply StronglySorted_lt_NoDup, used_bytes_StronglySorted. Qed.

Lemma used_bytes_sorted_nodup : forall col,
  StronglySorted N.lt (used_bytes col) /\ NoDup (used_bytes col) /\
  (forall c, In c (used_bytes col) <-> In c col).
Proof.
  intro col. split; [apply used_bytes_StronglySorted|].
  split; [apply used_bytes_NoDup|apply used_bytes_In].
Qed.

Lemma index_of_0_hd c d : forall l, In c l -> index_of c l = 0%nat -> hd d l = c.
Proof.
  intros [|x l] Hin H0; [destruct Hin|]. cbn [index_of] in H0. cbn [hd].
  destruct (N.eqb_spec x c) as [->|Hne]; [reflexivity|discriminate].
Qed.

Lemma land1_le x : N.land x 1 <= 1.
Proof. rewrite (N.land_ones _ 1). pose proof (N.mod_upper_bound x (2 ^ 1)). lia. Qed.

Lemma run_split k : k <> 0 ->
  k = 2 * N.shiftr (k - 1) 1 + N.land (k - 1) 1 + 1 /\ N.land (k - 1) 1 <= 1.
Proof.
  intro Hk. split; [|apply land1_le].
  rewrite (N.land_ones _ 1), N.shiftr_div_pow2. change (2 ^ 1) with 2.
  pose proof (N.div_mod (k - 1) 2). lia.
Qed.

Lemma zrun_all_le1 : forall fuel k s, In s (zrun fuel k) -> s <= 1.
Proof.
  induction fuel as [|f IH]; intros k s Hin; cbn [zrun] in Hin; [destruct Hin|].
  destruct (N.eqb_spec k 0) as [->|Hk]; [destruct Hin|].
  destruct Hin as [<-|Hin]; [apply land1_le|eauto].
Qed.

Lemma zrun_length : forall fuel k, N.of_nat (length (zrun fuel k)) <= k.
Proof.
  induction fuel as [|f IH]; intro k; cbn [zrun]; [cbn; lia|].
  destruct (N.eqb_spec k 0) as [->|Hk]; [cbn; lia|].
  cbn [length]. rewrite Nat2N.inj_succ.
  specialize (IH (N.shiftr (k - 1) 1)). destruct (run_split k Hk) as [Hs Hd]. lia.
Qed.

Lemma fuel_enough k : k + 1 < 2 ^ N.of_nat (S (N.to_nat (N.log2 (k + 1)))).
Proof.
  rewrite Nat2N.inj_succ, N2Nat.id.
  apply N.log2_spec. lia.
Qed.

Lemma unmtf_digits limit order size acc tail : forall fuel k run shift,
  k + 1 < 2 ^ N.of_nat fuel ->
  unmtf limit order run shift size acc (zrun fuel k ++ tail) =
  unmtf limit order (run + k * 2 ^ shift) (shift + N.of_nat (length (zrun fuel k))) size acc tail.
Proof.
  induction fuel as [|f IH]; intros k run shift Hf.
  - cbn in Hf. lia.
  - cbn [zrun]. destruct (N.eqb_spec k 0) as [->|Hk].
    + cbn [app length]. f_equal; cbn; lia.
    + destruct (run_split k Hk) as [Hs Hd].
      set (d := N.land (k - 1) 1) in *. set (q := N.shiftr (k - 1) 1) in *.
      cbn [app unmtf]. replace (d <=? 1) with true by (symmetry; apply N.leb_le; exact Hd).
      rewrite Nat2N.inj_succ, N.pow_succ_r' in Hf.
      rewrite IH by lia.
      cbn [length]. rewrite Nat2N.inj_succ.
      f_equal; [|lia].
      rewrite N.shiftl_mul_pow2, N.pow_add_r. change (2 ^ 1) with 2.
      clearbody d q. rewrite Hs. ring.
Qed.

Lemma unmtf_zrun_digits limit order size acc tail k run :
  exists shift',
  unmtf limit order run 0 size acc (zrun_digits k ++ tail) =
  unmtf limit order (run + k) shift' size acc tail.
Proof.
  unfold zrun_digits. eexists. rewrite unmtf_digits by apply fuel_enough.
  change (2 ^ 0) with 1. rewrite N.mul_1_r. reflexivity.
Qed.

Lemma expand_runs_app : forall a b, expand_runs (a ++ b) = expand_runs a ++ expand_runs b.
Proof.
  induction a as [|[c n] a IH]; intro b; cbn [app expand_runs]; [reflexivity|].
  rewrite IH, app_assoc. reflexivity.
Qed.

Lemma expand_runs_snoc acc c n :
  expand_runs (rev ((c, n) :: acc)) = expand_runs (rev acc) ++ repeat c (N.to_nat n).
Proof.
  cbn [rev]. rewrite expand_runs_app. cbn [expand_runs]. rewrite app_nil_r. reflexivity.
Qed.

(* Encoder state (order, k, rest): k copies of the front byte seen but not yet
   emitted.  Decoder state (order, r0, shift 0): r0 copies of the front byte
   already accounted for (0 at the start of the block, 1 after an MTF position). *)
Lemma unmtf_mtf_go limit : forall rest order k r0 size acc,
  Forall (fun c => In c order) rest ->
  size + r0 + k + N.of_nat (length rest) <= limit ->
  exists runs sz,
    unmtf limit order r0 0 size acc (mtf_go order k rest) = Ok (runs, sz) /\
    expand_runs (rev runs) =
    expand_runs (rev acc) ++ repeat (hd 0 order) (N.to_nat (r0 + k)) ++ rest.
Proof.
  induction rest as [|c r IH]; intros order k r0 size acc Hall Hlim.
  - cbn [mtf_go]. cbn [length] in Hlim.
    destruct (unmtf_zrun_digits limit order size acc [] k r0) as [sh Hd].
    rewrite app_nil_r in Hd. rewrite Hd. cbn [unmtf].
    replace (limit <? size + (r0 + k)) with false by (symmetry; apply N.ltb_ge; lia).
    eexists. eexists. split; [reflexivity|].
    rewrite expand_runs_snoc, app_nil_r. reflexivity.
  - inversion Hall as [|? ? Hc Hall']; subst. cbn [length] in Hlim. rewrite Nat2N.inj_succ in Hlim.
    cbn [mtf_go]. destruct (index_of c order) as [|i] eqn:Hidx.
    + pose proof (index_of_0_hd c 0 order Hc Hidx) as Hhd.
      destruct (IH order (k + 1) r0 size acc Hall') as (runs & sz & Hrun & Hexp); [lia|].
      exists runs, sz. split; [exact Hrun|]. rewrite Hexp. f_equal.
      replace (N.to_nat (r0 + (k + 1))) with (S (N.to_nat (r0 + k))) by lia.
      cbn [repeat]. rewrite repeat_cons, <- app_assoc, Hhd. reflexivity.
    + pose proof (nth_index_of c order 0 Hc) as Hnth. rewrite Hidx in Hnth.
      assert (Em : c :: firstn (S i) order ++ skipn (S (S i)) order = mtf_move c order)
        by (unfold mtf_move; rewrite Hidx; reflexivity).
      rewrite Em.
      destruct (unmtf_zrun_digits limit order size acc ([N.of_nat (S i) + 1] ++ mtf_go (mtf_move c order) 0 r) k r0)
        as [sh Hd].
      rewrite Hd. cbn [app unmtf].
      replace (N.of_nat (S i) + 1 <=? 1) with false by (symmetry; apply N.leb_gt; lia).
      replace (limit <? size + (r0 + k)) with false by (symmetry; apply N.ltb_ge; lia).
      replace (N.of_nat (S i) + 1 - 1) with (N.of_nat (S i)) by lia.
      rewrite Nat2N.id. unfold mtf_front. rewrite Hnth, Em.
      destruct (IH (mtf_move c order) 0 1 (size + (r0 + k)) ((hd 0 order, r0 + k) :: acc))
        as (runs & sz & Hrun & Hexp).
      * eapply Forall_impl; [|exact Hall']. intros x Hx. apply mtf_move_In; assumption.
      * lia.
      * exists runs, sz. split; [exact Hrun|]. rewrite Hexp, expand_runs_snoc.
        rewrite <- app_assoc. reflexivity.
Qed.

Theorem mtf_roundtrip : forall (col : list N) (limit : N),
  col <> [] -> (N.of_nat (length col) <= limit)%N ->
  unmtf_block limit (used_bytes col) (mtf_zrle col) = Ok col.
Proof.
  intros col limit _ Hlim. unfold unmtf_block, mtf_zrle.
  destruct (unmtf_mtf_go limit col (used_bytes col) 0 0 0 []) as (runs & sz & Hrun & Hexp).
  - rewrite Forall_forall. intros c Hc. apply used_bytes_In. exact Hc.
  - lia.
  - rewrite Hrun, Hexp. reflexivity.
Qed.

Lemma mtf_go_range : forall rest order k s,
  Forall (fun c => In c order) rest -> (1 <= length order)%nat ->
  In s (mtf_go order k rest) -> s <= N.of_nat (length order).
Proof.
  induction rest as [|c r IH]; intros order k s Hall Hne Hin; cbn [mtf_go] in Hin.
  - apply zrun_all_le1 in Hin. lia.
  - inversion Hall as [|? ? Hc Hall']; subst.
    destruct (index_of c order) as [|i] eqn:Hidx; [eauto|].
    pose proof (index_of_lt c order Hc) as Hlt. rewrite Hidx in Hlt.
    assert (Em : c :: firstn (S i) order ++ skipn (S (S i)) order = mtf_move c order)
      by (unfold mtf_move; rewrite Hidx; reflexivity).
    rewrite Em in Hin.
    apply in_app_or in Hin. destruct Hin as [Hin|Hin]; [apply zrun_all_le1 in Hin; lia|].
    apply in_app_or in Hin. destruct Hin as [Hin|Hin].
    + destruct Hin as [<-|[]]. lia.
    + rewrite <- (mtf_move_length c order Hc).
      apply (IH _ 0); [| rewrite mtf_move_length; assumption | exact Hin].
      eapply Forall_impl; [|exact Hall']. intros x Hx. apply mtf_move_In; assumption.
Qed.

Lemma mtf_zrle_symbols_in_range : forall col s,
  In s (mtf_zrle col) -> (s <= N.of_nat (length (used_bytes col)))%N.
Proof.
  intros [|c col] s Hin; [destruct Hin|].
  unfold mtf_zrle in Hin. eapply mtf_go_range; [| |exact Hin].
  - rewrite Forall_forall. intros x Hx. apply used_bytes_In. exact Hx.
  - apply used_bytes_nonempty. discriminate.
Qed.

Lemma mtf_go_length : forall rest order k,
  N.of_nat (length (mtf_go order k rest)) <= k + N.of_nat (length rest).
Proof.
  induction rest as [|c r IH]; intros order k; cbn [mtf_go].
  - unfold zrun_digits. pose proof (zrun_length (S (N.to_nat (N.log2 (k + 1)))) k). cbn [length]. lia.
  - cbn [length]. rewrite Nat2N.inj_succ. destruct (index_of c order) as [|i].
    + specialize (IH order (k + 1)). lia.
    + rewrite !app_length. cbn [length].
      specialize (IH (c :: firstn (S i) order ++ skipn (S (S i)) order) 0).
      pose proof (zrun_length (S (N.to_nat (N.log2 (k + 1)))) k). unfold zrun_digits. lia.
Qed.

Lemma mtf_zrle_length : forall col, (length (mtf_zrle col) <= length col)%nat.
Proof.
  intro col. unfold mtf_zrle. pose proof (mtf_go_length col (used_bytes col) 0). lia.
Qed.

Print Assumptions mtf_roundtrip.
Print Assumptions used_bytes_sorted_nodup.
Print Assumptions mtf_zrle_symbols_in_range.
Print Assumptions mtf_zrle_length.
