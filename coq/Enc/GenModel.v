(* Executable model of generate_prefix_code() of src/encode.c (l.1006-1137) and of the functions it calls:
     generate_initial_trees()  (l.780)   initial equivalence classes of symbols
     find_best_tree()          (l.847)   packed 6 x 10-bit cost comparison
     make_code_lengths()       (l.714)   sort_alphabet + build_tree (l.575) + compute_depths (l.620): plain Huffman
                                          construction with depth <= MAX_HUFF_CODE_LENGTH, used ONLY inside the EM
                                          iterations (its lengths are never transmitted)
     assign_codes()            (l.882)   reused from Enc/PmModel.v ([assign_lengths])
   No proofs in this file (Enc/GenProofs.v).

   Input: mtfv[0..nm-1] (MTF/zero-run symbols, the last one is EOB = as-1) and s->cluster_factor (set once in
   encoder_init(), l.126, which asserts 0 < cluster_factor <= 65535).
   The symbol frequencies that do_mtf() leaves in s->u.s.code[0][0..as-1] (read by generate_initial_trees) are
   COMPUTED here from mtfv ([sym_freq]: code[0][v] = number of v among mtfv[0..nm-1]; do_mtf increments
   mtffreq[x] exactly when it stores x).

   Conventions (as in PmModel.v).  Data are N, indices/counters that drive recursion are nat.  Every C array is a
   list whose length is the number of entries the C code may legally touch - in most cases a TIGHTER bound than
   the C declaration, so "no error value" is stronger than "no out-of-bounds access in C":
     code[0] (symbol frequencies)  as entries                       (C: MAX_ALPHA_SIZE+1)
     length[t], t < MAX_TREES      MAX_TREES rows of as entries     (C: MAX_TREES rows of MAX_ALPHA_SIZE+1;
                                   the stores length[t][as] = 0 / code[t][as] = 0 of l.1108-1109 concern the
                                   sentinel column, which is not part of the model; code[] is modelled in EncModel.v)
     frequency[t], t < nt          nt rows of as+1 entries (column as = the dummy symbol completing the last group)
     len_pack                      as+1 entries
     selector                      enc_selector_size entries: ngroups + 1 (sentinel) must fit
     tmap_old2new, tmap_new2old    MAX_TREES entries; old2new is a list of OPTIONS: None = never written (the C array
                                   holds garbage there); reading None is the error GUnset
     weight, V (make_code_lengths) as entries                       (C: MAX_ALPHA_SIZE)
     count (make_code_lengths)     MAX_HUFF_CODE_LENGTH+2 entries
   A miss of a bounds-checked accessor is GErr (GOob ..) (GErr (GMcl (MOob ..)) inside make_code_lengths); a failed
   assert() is GErr (GAssert ..) / GErr (GMcl (MAssert ..)); errors of assign_codes are GErr (GPm ..).
   uint32_t arithmetic that can wrap is written with [u32]/[sub32] (exact C semantics), uint64_t with [u64].
   Not wrapped (cannot reach 2^32 for nm < 2^32): the increments of frequency[][] and code[0][] entries.
   uint8_t length[][] entries: the model stores what make_code_lengths/assign_codes computed (<= 30), no truncation.

   The EM loop is parametric in the function [mcl] standing for make_code_lengths (old row, frequencies) so that
   the theorems can quantify over it; [make_code_lengths] below is the exact model, [gen_prefix_code] the instance. *)
From Coq Require Import List NArith Arith Bool.
From LBZ Require Import Gen.Consts Enc.PmModel.
Import ListNotations.
Local Open Scope N_scope.

Inductive mcl_err :=
| MOob (id : N)        (* 1: weight[] read, 2: weight[] write, 3: V[] read, 4: V[] write, 5: count[], 6: length[] write *)
| MUnderflow (id : N)  (* 1: r < 2 when two internal nodes are taken, 2: r < 1 / s < 1, 3: MAX_ALPHA_SIZE - (w & 0xFFFF), 4: s < 2 *)
| MAssert (id : N).    (* 1: MIN_ALPHA_SIZE <= as <= MAX_ALPHA_SIZE, 2: r == 2, 3: s == 0, 4: avail > used, 5: avail == 0,
                          6: i < as, 7: c == 1 << (MAX_HUFF_CODE_LENGTH+1), 8: i == as *)

Inductive gen_err :=
| GOob (id : N)        (* 1: code[0] (sym_freq), 2: code[0] first scan, 3: code[0] class growth, 4: code[0] class start,
                          5: len_pack[], 6: frequency[t], 7: frequency[t][v], 8: length[t] row, 9: selector[] capacity,
                          10: tmap_new2old[], 11: tmap_old2new[], 12: length[t][a..b) memset, 13: length[dummy][v] *)
| GAssert (id : N)     (* 1: nm >= 2, 2: cum == nm, 3: nm > 0, 4: as >= nt, 5: a < b, 6: cum > 0, 7: cum <= nm, 8: as >= nt-1,
                          9: as == 0, 10: nm == 0, 11: t < nt, 12: sp - selector == num_selectors, 13: nt >= 1 *)
| GUnset (id : N)      (* 1: selector[] never written (cluster_factor = 0), 2: tmap_old2new[c] never written *)
| GPm (e : pm_err)
| GMcl (e : mcl_err).

Inductive gres (A : Type) := GOk (a : A) | GErr (e : gen_err).
Arguments GOk {A} a.
Arguments GErr {A} e.

Definition gbind {A B} (x : gres A) (f : A -> gres B) : gres B :=
  match x with GOk a => f a | GErr e => GErr e end.
Notation "'gdo' x <- e ; f" := (gbind e (fun x => f)) (at level 200, x pattern, e at level 100, f at level 200).

Definition u32 (x : N) : N := N.land x MAX32.
Definition u64 (x : N) : N := N.land x MAXW.
(* a - b in uint32_t, for a, b < 2^32 *)
Definition sub32 (a b : N) : N := u32 (a + U32 - b).

Definition NTREES : nat := N.to_nat MAX_TREES.                 (* 6 *)

Definition grd {A} (id : N) (l : list A) (i : nat) : gres A :=
  match nth_error l i with Some x => GOk x | None => GErr (GOob id) end.
Definition gwr {A} (id : N) (l : list A) (i : nat) (v : A) : gres (list A) :=
  if (i <? length l)%nat then GOk (upd l i v) else GErr (GOob id).

(* l[i]++ with bounds check *)
Fixpoint bump (id : N) (l : list N) (i : nat) : gres (list N) :=
  match l, i with
  | [], _ => GErr (GOob id)
  | x :: r, O => GOk (x + 1 :: r)
  | x :: r, S j => match bump id r j with GOk r' => GOk (x :: r') | GErr e => GErr e end
  end.

Fixpoint bump_all (id : N) (row : list N) (syms : list N) : gres (list N) :=
  match syms with
  | [] => GOk row
  | s :: r => gdo row' <- bump id row (N.to_nat s); bump_all id row' r
  end.

(* what do_mtf leaves in code[0][0..as-1] *)
Definition sym_freq (mtfv : list N) (as_ : nat) : gres (list N) := bump_all 1 (repeat 0 as_) mtfv.

(* ---- number of trees ------------------------------------------------------------------------------------ *)
Fixpoint choose_nt (ths : list (N * N)) (nm : N) : N :=
  match ths with
  | [] => nt_default
  | (th, v) :: r => if th <? nm then v else choose_nt r nm
  end.

(* ---- generate_initial_trees ------------------------------------------------------------------------------ *)
(* for (a = 0, cum = 0; cum < nm; a++) { freq = code[0][a]; cum += freq; as += min(freq, 1); }   -> (cum, as) *)
Fixpoint git_scan (F : list N) (nm cum ase : N) : gres (N * N) :=
  match F with
  | [] => if cum <? nm then GErr (GOob 2) else GOk (cum, ase)
  | f :: r => if cum <? nm then git_scan r nm (u32 (cum + f)) (u32 (ase + N.min f 1)) else GOk (cum, ase)
  end.

(* while (as > nt-1 && cum * nt < nm) { freq = code[0][b]; cum += freq; as -= min(freq, 1); b++; }
   [rest] = code[0][b..], k = b - a.  Result (as, cum, freq, k). *)
Fixpoint ec_grow (rest : list N) (nt nm ase cum freq : N) (k : nat) : gres (N * N * N * nat) :=
  let cont := (sub32 nt 1 <? ase) && (u32 (cum * nt) <? nm) in
  match rest with
  | [] => if cont then GErr (GOob 3) else GOk (ase, cum, freq, k)
  | f :: r => if cont then ec_grow r nt nm (sub32 ase (N.min f 1)) (u32 (cum + f)) f (S k)
              else GOk (ase, cum, freq, k)
  end.

(* for (t = 0; nt > 0; t++, nt--) { ... }: [n] = nt as recursion counter, [cur] = code[0][a..].
   Result: the classes (a, b-a) in order, and the final (nm, as). *)
Fixpoint git_classes (n : nat) (as_ : nat) (cur : list N) (a : nat) (nt nm ase : N)
  : gres (list (nat * nat) * N * N) :=
  match n with
  | O => GOk ([], nm, ase)
  | S n' =>
    if nm =? 0 then GErr (GAssert 3)
    else if ase <? nt then GErr (GAssert 4)
    else match cur with
    | [] => GErr (GOob 4)
    | f0 :: r0 =>
      gdo g <- ec_grow r0 nt nm (sub32 ase (N.min f0 1)) f0 f0 1%nat;
      let '(ase1, cum1, freq1, k1) := g in
      (* if (cum > freq && (2*cum - freq) * nt > 2*nm) { cum -= freq; as += min(freq, 1); b--; } *)
      let retreat := (freq1 <? cum1) && (u32 (2 * nm) <? u32 (sub32 (u32 (2 * cum1)) freq1 * nt)) in
      let cum2 := if retreat then sub32 cum1 freq1 else cum1 in
      let ase2 := if retreat then u32 (ase1 + N.min freq1 1) else ase1 in
      let k2 := if retreat then pred k1 else k1 in
      if (k2 =? 0)%nat then GErr (GAssert 5)
      else if cum2 =? 0 then GErr (GAssert 6)
      else if nm <? cum2 then GErr (GAssert 7)
      else if ase2 <? sub32 nt 1 then GErr (GAssert 8)
      else if (as_ <? a + k2)%nat then GErr (GOob 12)
      else
        gdo r <- git_classes n' as_ (skipn k2 cur) (a + k2)%nat (sub32 nt 1) (sub32 nm cum2) ase2;
        let '(cls, nmf, asef) := r in
        GOk ((a, k2) :: cls, nmf, asef)
    end
  end.

(* memset(length, 1, sizeof length); then memset(&length[t][a], 0, b - a) per class *)
Definition class_row (as_ : nat) (c : nat * nat) : list N :=
  repeat 1 (fst c) ++ repeat 0 (snd c) ++ repeat 1 (as_ - fst c - snd c).

Definition init_lengths (as_ : nat) (cls : list (nat * nat)) : list (list N) :=
  map (class_row as_) cls ++ repeat (repeat 1 as_) (NTREES - length cls).

Definition generate_initial_trees (F : list N) (as_ : nat) (nm nt : N) : gres (list (list N)) :=
  gdo sc <- git_scan F nm 0 0;
  let '(cum, ase) := sc in
  if negb (cum =? nm) then GErr (GAssert 2)
  else
    let nt' := N.min nt ase in
    gdo r <- git_classes (N.to_nat nt') as_ F 0%nat nt' nm ase;
    let '(cls, nmf, asef) := r in
    if negb (asef =? 0) then GErr (GAssert 9)
    else if negb (nmf =? 0) then GErr (GAssert 10)
    else if (NTREES <? length cls)%nat then GErr (GOob 8)
    else GOk (init_lengths as_ cls).

(* ---- len_pack and find_best_tree -------------------------------------------------------------------------- *)
Fixpoint zip_pack (row acc : list N) : list N :=
  match row, acc with
  | l :: r, a :: c => u64 (l + N.shiftl a 10) :: zip_pack r c
  | _, _ => []
  end.

(* len_pack[v] = sum_t length[t][v] << (10 t), v < as;  len_pack[as] = 0 *)
Definition len_pack (lens : list (list N)) (as_ : nat) : list N :=
  fold_right zip_pack (repeat 0 as_) lens ++ [0].

(* cp = 0; for (i = 0; i < GROUP_SIZE; i++) cp += len_pack[gs[i]]; *)
Fixpoint sum_pack (lp : list N) (g : list N) (cp : N) : gres N :=
  match g with
  | [] => GOk cp
  | s :: r => match nth_error lp (N.to_nat s) with
              | Some x => sum_pack lp r (u64 (cp + x))
              | None => GErr (GOob 5)
              end
  end.

(* for (t = 1; t < nt; t++) { cp >>= 10; c = cp & 0x3ff; if (c < bc) bc = c, bt = t; }   [n] = nt - t *)
Fixpoint best_loop (n : nat) (t cp bc bt : N) : N :=
  match n with
  | O => bt
  | S n' => let cp' := N.shiftr cp 10 in
            let c := N.land cp' 1023 in
            if c <? bc then best_loop n' (t + 1) cp' c t else best_loop n' (t + 1) cp' bc bt
  end.

Definition find_best_tree (g : list N) (nt : nat) (lp : list N) : gres N :=
  gdo cp <- sum_pack lp g 0;
  GOk (best_loop (nt - 1) 1 cp (N.land cp 1023) 0).

(* ---- the groups ------------------------------------------------------------------------------------------- *)
Definition GS : nat := N.to_nat GROUP_SIZE.                    (* 50 *)

Fixpoint chunk (n : nat) (l : list N) : list (list N) :=
  match n with
  | O => []
  | S n' => firstn GS l :: chunk n' (skipn GS l)
  end.

Definition num_groups (nm : N) : N := (nm + GROUP_SIZE - 1) / GROUP_SIZE.

(* mtfv completed with the dummy symbol `as` up to num_selectors * GROUP_SIZE, cut into groups *)
Definition groups_of (mtfv : list N) (as_ : N) : list (list N) :=
  let nm := N.of_nat (length mtfv) in
  let ng := num_groups nm in
  chunk (N.to_nat ng) (mtfv ++ repeat as_ (N.to_nat (ng * GROUP_SIZE - nm))).

(* ---- one EM iteration ------------------------------------------------------------------------------------- *)
(* (E) for every group: t = find_best_tree(); assert(t < nt); *sp++ = t; frequency[t][gs[i]]++ *)
Fixpoint e_step (nt : nat) (lp : list N) (groups : list (list N)) (fr : list (list N))
  : gres (list N * list (list N)) :=
  match groups with
  | [] => GOk ([], fr)
  | g :: r =>
    gdo t <- find_best_tree g nt lp;
    if negb (t <? N.of_nat nt) then GErr (GAssert 11)
    else
      gdo row <- grd 6 fr (N.to_nat t);
      gdo row' <- bump_all 7 row g;
      gdo x <- e_step nt lp r (upd fr (N.to_nat t) row');
      let '(sels, fr') := x in
      GOk (t :: sels, fr')
  end.

Section WithMcl.
(* make_code_lengths(length[t], frequency[t], as): old content of length[t][0..as-1], frequency[t][0..as-1] *)
Variable mcl : list N -> list N -> gres (list N).

(* (M) for (t = 0; t < nt; t++) make_code_lengths(length[t], frequency[t], as);  [fr] has nt rows *)
Fixpoint m_step (as_ : nat) (lens fr : list (list N)) : gres (list (list N)) :=
  match fr with
  | [] => GOk lens
  | f :: fr' =>
    match lens with
    | [] => GErr (GOob 8)
    | l :: lens' =>
      gdo l' <- mcl l (firstn as_ f);
      gdo rest <- m_step as_ lens' fr';
      GOk (l' :: rest)
    end
  end.

(* state between iterations: length[][], and (selector[], frequency[][]) once written *)
Definition em_state := (list (list N) * option (list N * list (list N)))%type.

Definition em_iter (as_ nt : nat) (groups : list (list N)) (st : gres em_state) : gres em_state :=
  gdo s <- st;
  let lens := fst s in
  let lp := len_pack lens as_ in
  gdo x <- e_step nt lp groups (repeat (repeat 0 (S as_)) nt);
  let '(sels, fr) := x in
  if negb (length sels =? length groups)%nat then GErr (GAssert 12)
  else
    gdo lens' <- m_step as_ lens fr;
    GOk (lens', Some (sels, fr)).

(* ---- tree reordering --------------------------------------------------------------------------------------- *)
Record ro_st := mkro {
  ro_not_seen : N;
  ro_nt : N;                        (* the new nt *)
  ro_o2n : list (option N);         (* tmap_old2new *)
  ro_n2o : list N;                  (* tmap_new2old[0..nt-1] *)
  ro_lens : list (list N);
  ro_cost : N
}.

(* while (not_seen > 0 && (t = *sp++) < MAX_TREES) { if (not_seen & (1 << t)) { ... } }
   the list ends where the sentinel MAX_TREES stands *)
Fixpoint reorder (as_ : nat) (fr : list (list N)) (sels : list N) (s : ro_st) : gres ro_st :=
  if ro_not_seen s =? 0 then GOk s
  else match sels with
  | [] => GOk s
  | t :: r =>
    if negb (t <? MAX_TREES) then GOk s
    else if negb (N.land (ro_not_seen s) (N.shiftl 1 t) =? 0) then
      gdo o2n' <- gwr 11 (ro_o2n s) (N.to_nat t) (Some (ro_nt s));
      if negb (ro_nt s <? MAX_TREES) then GErr (GOob 10)
      else
        gdo len0 <- grd 8 (ro_lens s) (N.to_nat t);
        gdo f <- grd 6 fr (N.to_nat t);
        match assign_lengths len0 (firstn as_ f) with
        | Err e => GErr (GPm e)
        | Ok res =>
          reorder as_ fr r
            (mkro (ro_not_seen s - N.shiftl 1 t) (ro_nt s + 1) o2n' (ro_n2o s ++ [t])
                  (upd (ro_lens s) (N.to_nat t) (r_lengths res)) (u32 (ro_cost s + r_cost res)))
        end
    else reorder as_ fr r s
  end.

(* cl0 = (((0xffffaa50 >> ((as < 0x20 ? as : (as >> 4)) & 0x1e)) & 0x3) + (as < 0x20 ? 1 : 5)) *)
Definition cl0_of (as_ : N) : N :=
  N.land (N.shiftr 4294945360 (N.land (if as_ <? 32 then as_ else N.shiftr as_ 4) 30)) 3
  + (if as_ <? 32 then 1 else 5).

(* for (v = 0; v < (2 << cl0) - as; v++) length[t][v] = cl0;  for (; v < as; v++) length[t][v] = cl0 + 1; *)
Definition dummy_count (as_ : N) : N := sub32 (u32 (N.shiftl 2 (cl0_of as_))) as_.
Definition dummy_row (as_ : nat) : list N :=
  let c := cl0_of (N.of_nat as_) in
  let k := N.to_nat (dummy_count (N.of_nat as_)) in
  repeat c k ++ repeat (c + 1) (as_ - k).

Record gen_result := mkgen {
  g_num_trees : N;
  g_sels_old : list N;              (* selector[0..num_selectors-1], old numbering *)
  g_o2n : list (option N);          (* tmap_old2new *)
  g_n2o : list N;                   (* tmap_new2old[0..num_trees-1] *)
  g_sels : list N;                  (* tmap_old2new[selector[i]]: what encode()/transmit() use *)
  g_tables : list (list N);         (* length[tmap_new2old[i]][0..as-1], i < num_trees: what transmit() sends *)
  g_cost : N
}.

Fixpoint remap (o2n : list (option N)) (sels : list N) : gres (list N) :=
  match sels with
  | [] => GOk []
  | t :: r =>
    gdo c <- grd 11 o2n (N.to_nat t);
    match c with
    | None => GErr (GUnset 2)
    | Some c' => gdo r' <- remap o2n r; GOk (c' :: r')
    end
  end.

Fixpoint tables_of (lens : list (list N)) (n2o : list N) : gres (list (list N)) :=
  match n2o with
  | [] => GOk []
  | t :: r => gdo row <- grd 8 lens (N.to_nat t); gdo rest <- tables_of lens r; GOk (row :: rest)
  end.

Definition gen_prefix_code_with (cluster_factor : N) (mtfv : list N) : gres gen_result :=
  let nm := N.of_nat (length mtfv) in
  if nm <? 2 then GErr (GAssert 1)
  else
    let asN := last mtfv 0 + 1 in                 (* as = mtfv[nm - 1] + 1 *)
    let as_ := N.to_nat asN in
    let ng := num_groups nm in
    if enc_selector_size <? ng + 1 then GErr (GOob 9)       (* selector[0..ng-1] and the sentinel *)
    else
      let nt0 := choose_nt nt_thresholds nm in
      let groups := groups_of mtfv asN in
      gdo F <- sym_freq mtfv as_;
      gdo lens0 <- generate_initial_trees F as_ nm nt0;
      gdo st <- N.iter cluster_factor (em_iter as_ (N.to_nat nt0) groups) (GOk (lens0, None));
      let '(lens, sf) := st in
      match sf with
      | None => GErr (GUnset 1)
      | Some (sels, fr) =>
        gdo ro <- reorder as_ fr sels
                   (mkro (u32 (N.shiftl 1 nt0) - 1) 0 (repeat None NTREES) [] lens 0);
        if ro_nt ro <? 1 then GErr (GAssert 13)
        else
          gdo ro2 <-
            (if ro_nt ro =? 1 then
               (* the dummy second tree *)
               let t := N.lxor (hd 0 (ro_n2o ro)) 1 in
               gdo o2n' <- gwr 11 (ro_o2n ro) (N.to_nat t) (Some 1);
               if asN <? dummy_count asN then GErr (GOob 13)
               else
                 gdo lens' <- gwr 8 (ro_lens ro) (N.to_nat t) (dummy_row as_);
                 GOk (mkro (ro_not_seen ro) 2 o2n' (ro_n2o ro ++ [t]) lens'
                           (u32 (u32 (ro_cost ro + (if dummy_count asN <? asN then 2 else 0)) + asN + 5)))
             else GOk ro);
          gdo sels' <- remap (ro_o2n ro2) sels;
          gdo tabs <- tables_of (ro_lens ro2) (ro_n2o ro2);
          GOk (mkgen (ro_nt ro2) sels (ro_o2n ro2) (ro_n2o ro2) sels' tabs (ro_cost ro2))
      end.
End WithMcl.

(* ---- make_code_lengths: the exact model -------------------------------------------------------------------- *)
Definition mrd (id : N) (l : list N) (i : nat) : gres N :=
  match nth_error l i with Some x => GOk x | None => GErr (GMcl (MOob id)) end.
Definition mwr (id : N) (l : list N) (i : nat) (v : N) : gres (list N) :=
  if (i <? length l)%nat then GOk (upd l i v) else GErr (GMcl (MOob id)).

(* ((uint64_t)max(frequency[i], 1u) << 32) | 0x10000 | (MAX_ALPHA_SIZE - i) *)
Fixpoint mcl_label_from (i : N) (freq : list N) : list N :=
  match freq with
  | [] => []
  | f :: r => N.lor (N.lor (N.shiftl (N.max f 1) 32) 65536) (MAX_ALPHA_SIZE - i) :: mcl_label_from (i + 1) r
  end.

(* (weight[t] & 0xFFFF) + ((w1 + w2) & ~(uint64_t)0xFF00FFFF) + max(w1 & 0xFF000000, w2 & 0xFF000000) + 0x01000000 *)
Definition bt_weight (wt w1 w2 : N) : N :=
  u64 (N.land wt 65535 + N.land (u64 (w1 + w2)) 18446744069431296000
       + N.max (depth_field w1) (depth_field w2) + 16777216).

(* for (t = as-1; t > 0; t--) { ... }   [t] counts down; state (weight, V, r, s) *)
Fixpoint bt_loop (t : nat) (W V : list N) (r s : nat) : gres (list N * list N * nat * nat) :=
  match t with
  | O => GOk (W, V, r, s)
  | S t' =>
    gdo c1 <- (if (s <? 1)%nat then GOk true
               else if (t + 2 <? r)%nat then
                 gdo a <- mrd 1 W (r - 2); gdo b <- mrd 1 W (s - 1); GOk (a <? b)
               else GOk false);
    gdo sel <-
      (if (c1 : bool) then
         (* two internal nodes *)
         if (r <? 2)%nat then GErr (GMcl (MUnderflow 1))
         else
           gdo V1 <- mwr 4 V (r - 1) (N.of_nat t);
           gdo V2 <- mwr 4 V1 (r - 2) (N.of_nat t);
           gdo w1 <- mrd 1 W (r - 1);
           gdo w2 <- mrd 1 W (r - 2);
           GOk (V2, w1, w2, (r - 2)%nat, s)
       else
         gdo c2 <- (if (r <? t + 2)%nat then GOk true
                    else if (1 <? s)%nat then
                      gdo a <- mrd 1 W (s - 2); gdo b <- mrd 1 W (r - 1); GOk (a <=? b)
                    else GOk false);
         if (c2 : bool) then
           (* two leaves *)
           if (s <? 2)%nat then GErr (GMcl (MUnderflow 4))
           else
             gdo w1 <- mrd 1 W (s - 1);
             gdo w2 <- mrd 1 W (s - 2);
             GOk (V, w1, w2, r, (s - 2)%nat)
         else
           (* one internal node and one leaf *)
           if ((r <? 1) || (s <? 1))%nat then GErr (GMcl (MUnderflow 2))
           else
             gdo V1 <- mwr 4 V (r - 1) (N.of_nat t);
             gdo w1 <- mrd 1 W (r - 1);
             gdo w2 <- mrd 1 W (s - 1);
             GOk (V1, w1, w2, (r - 1)%nat, (s - 1)%nat));
    let '(V', w1, w2, r', s') := sel in
    gdo wt <- mrd 1 W t;
    gdo W' <- mwr 2 W t (bt_weight wt w1 w2);
    bt_loop t' W' V' r' s'
  end.

(* while (node < as && tree[tree[node]] + 1 == depth) { assert(avail > used); used++; tree[node++] = depth; }
   [fuel] = as - node *)
Fixpoint cd_inner (fuel : nat) (V : list N) (node : nat) (depth avail used : N) : gres (list N * nat * N) :=
  match fuel with
  | O => GOk (V, node, used)
  | S f =>
    gdo p <- mrd 3 V node;
    gdo dp <- mrd 3 V (N.to_nat p);
    if u32 (dp + 1) =? depth then
      if avail <=? used then GErr (GMcl (MAssert 4))
      else
        gdo V' <- mwr 4 V node depth;
        cd_inner f V' (S node) depth avail (u32 (used + 1))
    else GOk (V, node, used)
  end.

(* while (depth <= MAX_HUFF_CODE_LENGTH) { ... }   [n] = MAX_HUFF_CODE_LENGTH + 1 - depth *)
Fixpoint cd_outer (n : nat) (as_ : nat) (V count : list N) (node : nat) (depth avail : N)
  : gres (list N * N) :=
  match n with
  | O => GOk (count, avail)
  | S n' =>
    gdo x <- cd_inner (as_ - node) V node depth avail 0;
    let '(V', node', used) := x in
    gdo count' <- mwr 5 count (N.to_nat depth) (sub32 avail used);
    cd_outer n' as_ V' count' node' (depth + 1) (u32 (N.shiftl used 1))
  end.

Definition compute_depths (V : list N) (as_ : nat) : gres (list N) :=
  gdo V1 <- mwr 4 V 1 0;
  gdo c0 <- mwr 5 (repeat 0 COUNT_LEN) 0 0;
  gdo x <- cd_outer (N.to_nat MAX_HUFF_CODE_LENGTH) as_ V1 c0 2 1 2;
  let '(count, avail) := x in
  if negb (avail =? 0) then GErr (GMcl (MAssert 5)) else GOk count.

(* while (k != 0) { assert(i < as); length[MAX_ALPHA_SIZE - (weight[i] & 0xFFFF)] = d; i++; k--; }   [fuel] = as - i *)
Fixpoint gl_inner (fuel : nat) (W len : list N) (i : nat) (k d : N) : gres (list N * nat) :=
  if k =? 0 then GOk (len, i)
  else match fuel with
  | O => GErr (GMcl (MAssert 6))
  | S f =>
    gdo w <- mrd 1 W i;
    let low := N.land w 65535 in
    if MAX_ALPHA_SIZE <? low then GErr (GMcl (MUnderflow 3))
    else
      gdo len' <- mwr 6 len (N.to_nat (MAX_ALPHA_SIZE - low)) d;
      gl_inner f W len' (S i) (k - 1) d
  end.

(* for (d = 0; d <= MAX_HUFF_CODE_LENGTH; d++) { k = count[d]; c = (c + k) << 1; ... }   [n] = remaining values of d *)
Fixpoint gl_outer (n : nat) (as_ : nat) (W count len : list N) (i : nat) (c d : N) : gres (list N * nat * N) :=
  match n with
  | O => GOk (len, i, c)
  | S n' =>
    gdo k <- mrd 5 count (N.to_nat d);
    gdo x <- gl_inner (as_ - i) W len i k d;
    let '(len', i') := x in
    gl_outer n' as_ W count len' i' (u32 (N.shiftl (u32 (c + k)) 1)) (d + 1)
  end.

Definition make_code_lengths (old freq : list N) : gres (list N) :=
  let as_ := length freq in
  let asN := N.of_nat as_ in
  if (asN <? MIN_ALPHA_SIZE) || (MAX_ALPHA_SIZE <? asN) then GErr (GMcl (MAssert 1))
  else
    let W0 := sort_desc (mcl_label_from 0 freq) in
    gdo b <- bt_loop (as_ - 1) W0 (repeat 0 as_) as_ as_;
    let '(W, V, r, s) := b in
    if negb (r =? 2)%nat then GErr (GMcl (MAssert 2))
    else if negb (s =? 0)%nat then GErr (GMcl (MAssert 3))
    else
      gdo count <- compute_depths V as_;
      gdo x <- gl_outer (S (N.to_nat MAX_HUFF_CODE_LENGTH)) as_ W count old 0 0 0;
      let '(len, i, c) := x in
      if negb (c =? N.shiftl 1 (MAX_HUFF_CODE_LENGTH + 1)) then GErr (GMcl (MAssert 7))
      else if negb (i =? as_)%nat then GErr (GMcl (MAssert 8))
      else GOk len.

(* ---- the instance ------------------------------------------------------------------------------------------ *)
Definition gen_prefix_code (cluster_factor : N) (mtfv : list N) : gres gen_result :=
  gen_prefix_code_with make_code_lengths cluster_factor mtfv.
