(* Proofs about Enc/GenModel.v: the theorem gen_witness_ok.
   For every symbol vector generate_prefix_code() can be called on, every cluster_factor >= 1 and EVERY
   function standing for make_code_lengths (keeping row lengths; its own error values allowed), the model
   either returns that function's error or a result satisfying the table/selector conjuncts of
   EncModel.witness_ok. *)
From Coq Require Import List NArith Arith Bool Lia.
From LBZ Require Import Gen.Consts Enc.EncModel Enc.PmModel Enc.PmBasics Enc.PmReal Enc.GenModel Enc.GenInit Enc.GenEm
  Enc.GenReorder.
Import ListNotations.
Local Open Scope N_scope.

Definition GEN_MAX_NM : N := MAX_BLOCK_SIZE + GROUP_SIZE.       (* 900050; encode() produces nm <= MAX_BLOCK_SIZE + 1 *)

Definition gen_input_ok (mtfv : list N) : Prop :=
  let asN := last mtfv 0 + 1 in
  2 <= N.of_nat (length mtfv) <= GEN_MAX_NM /\ 2 <= asN <= MAX_ALPHA_SIZE /\ Forall (fun s => s < asN) mtfv.

Record gen_result_ok (mtfv : list N) (r : gen_result) : Prop := {
  go_nt : 2 <= g_num_trees r <= 6;
  go_ntabs : N.of_nat (length (g_tables r)) = g_num_trees r;
  go_tabs : forallb (table_ok (N.to_nat (last mtfv 0 + 1))) (g_tables r) = true;
  go_nsel : N.of_nat (length (g_sels r)) = num_groups (N.of_nat (length mtfv));
  go_sels : Forall (fun s => s < g_num_trees r) (g_sels r);
  go_cap : num_groups (N.of_nat (length mtfv)) + 1 <= enc_selector_size;
  go_old : length (g_sels_old r) = length (g_sels r);
  go_n2o : N.of_nat (length (g_n2o r)) = g_num_trees r
}.

Lemma choose_nt_range_gen ths nm : Forall (fun p => 1 <= snd p <= 6) ths -> 1 <= nt_default <= 6 ->
  1 <= choose_nt ths nm <= 6.
Proof.
  intros H D. induction H as [|[th v] ths Hp Hr IH]; cbn [choose_nt]; [exact D|].
  destruct (th <? nm); [exact Hp|exact IH].
Qed.

Lemma choose_nt_range nm : 1 <= choose_nt nt_thresholds nm <= 6.
Proof.
  apply choose_nt_range_gen; [|vm_compute; split; discriminate].
  unfold nt_thresholds. repeat constructor; cbn; lia.
Qed.

Lemma cap_ok nm : nm <= GEN_MAX_NM -> num_groups nm + 1 <= enc_selector_size.
Proof.
  intro H. pose proof (num_groups_mono nm GEN_MAX_NM H) as M.
  assert (E : num_groups GEN_MAX_NM + 1 <= enc_selector_size) by (vm_compute; discriminate). lia.
Qed.

Lemma total_ok nm : nm <= GEN_MAX_NM -> MAX_ALPHA_SIZE * (nm + GROUP_SIZE - 1) < 2 ^ 32.
Proof.
  intro H. assert (E : MAX_ALPHA_SIZE * (GEN_MAX_NM + GROUP_SIZE - 1) < 2 ^ 32) by (vm_compute; reflexivity).
  change MAX_ALPHA_SIZE with 258 in *. change GROUP_SIZE with 50 in *. lia.
Qed.

Lemma nm_lim nm : nm <= GEN_MAX_NM -> nm < NM_LIM.
Proof. intro H. assert (GEN_MAX_NM < NM_LIM) by (vm_compute; reflexivity). lia. Qed.

Definition ro_dummy (asN : N) (ro : ro_st) : ro_st :=
  let t := N.lxor (hd 0 (ro_n2o ro)) 1 in
  mkro (ro_not_seen ro) 2 (upd (ro_o2n ro) (N.to_nat t) (Some 1)) (ro_n2o ro ++ [t])
       (upd (ro_lens ro) (N.to_nat t) (dummy_row (N.to_nat asN)))
       (u32 (u32 (ro_cost ro + (if dummy_count asN <? asN then 2 else 0)) + asN + 5)).

Definition ro_last (asN : N) (ro : ro_st) : ro_st := if ro_nt ro =? 1 then ro_dummy asN ro else ro.

(* what remap and the extraction of the tables need of the final state *)
Record ro_fin (as_ : nat) (sels : list N) (s : ro_st) : Prop := {
  rf_cnt : ro_nt s = N.of_nat (length (ro_n2o s));
  rf_nt : 2 <= ro_nt s <= 6;
  rf_inv : forall j t, nth_error (ro_n2o s) j = Some t -> nth_error (ro_o2n s) (N.to_nat t) = Some (Some (N.of_nat j));
  rf_sels : Forall (fun t => In t (ro_n2o s)) sels;
  rf_tabs : Forall (fun t => (N.to_nat t < length (ro_lens s))%nat /\
                             table_ok as_ (nth (N.to_nat t) (ro_lens s) []) = true) (ro_n2o s)
}.

Lemma ro_inv_fin as_ nt0 sels ro : nt0 <= 6 -> ro_inv as_ nt0 ro -> Forall (fun t => In t (ro_n2o ro)) sels ->
  2 <= ro_nt ro -> ro_fin as_ sels ro.
Proof.
  intros Hnt0 I Fin H2. constructor; [apply (ri_cnt _ _ _ I)| |apply (ri_inv _ _ _ I)|exact Fin|].
  - pose proof (nodup_bound _ (N.to_nat nt0) (ri_nodup _ _ _ I)) as B. rewrite N2Nat.id in B.
    specialize (B (ri_old _ _ _ I)). rewrite (ri_cnt _ _ _ I) in *. lia.
  - pose proof (ri_tabs _ _ _ I) as T. pose proof (ri_old _ _ _ I) as O. destruct (ri_shape _ _ _ I) as [L1 _].
    rewrite Forall_forall in *. intros t Ht. split; [|apply T; exact Ht].
    specialize (O t Ht). rewrite L1. change NTREES with 6%nat. lia.
Qed.

(* the block between the reordering loop and remap: only a single used tree needs work *)
Lemma last_stage {A} (K : ro_st -> gres A) asN nt0 sels ro : nt0 <= 6 -> 2 <= asN <= MAX_ALPHA_SIZE ->
  ro_inv (N.to_nat asN) nt0 ro -> sels <> [] -> Forall (fun t => In t (ro_n2o ro)) sels ->
  (if ro_nt ro <? 1 then GErr (GAssert 13)
   else gbind
          (if ro_nt ro =? 1 then
             gdo o2n' <- gwr 11 (ro_o2n ro) (N.to_nat (N.lxor (hd 0 (ro_n2o ro)) 1)) (Some 1);
             if asN <? dummy_count asN then GErr (GOob 13)
             else
               gdo lens' <- gwr 8 (ro_lens ro) (N.to_nat (N.lxor (hd 0 (ro_n2o ro)) 1)) (dummy_row (N.to_nat asN));
               GOk (mkro (ro_not_seen ro) 2 o2n' (ro_n2o ro ++ [N.lxor (hd 0 (ro_n2o ro)) 1]) lens'
                         (u32 (u32 (ro_cost ro + (if dummy_count asN <? asN then 2 else 0)) + asN + 5)))
           else GOk ro) K) = K (ro_last asN ro) /\ ro_fin (N.to_nat asN) sels (ro_last asN ro).
Proof.
  intros Hnt0 Has I Hne Fin. set (as_ := N.to_nat asN).
  assert (Has' : (2 <= as_ <= 258)%nat) by (unfold as_; change MAX_ALPHA_SIZE with 258 in Has; lia).
  assert (Hn1 : 1 <= ro_nt ro).
  { rewrite (ri_cnt _ _ _ I). destruct sels as [|t0 r0]; [contradiction|]. inversion Fin as [|? ? H0 _]; subst.
    destruct (ro_n2o ro); [contradiction|cbn [length]; lia]. }
  replace (ro_nt ro <? 1) with false by (symmetry; apply N.ltb_ge; exact Hn1).
  unfold ro_last. destruct (N.eqb_spec (ro_nt ro) 1) as [One|NotOne];
    [|split; [reflexivity|apply (ro_inv_fin _ nt0); [assumption..|lia]]].
  rewrite (ri_cnt _ _ _ I) in One.
  destruct (ro_n2o ro) as [|first [|]] eqn:En; cbn [length] in One; try lia. clear One Hn1.
  pose proof (ri_old _ _ _ I) as O. rewrite En in O. inversion O as [|? ? Hfirst _]; subst.
  destruct (lxor1_fact first ltac:(lia)) as [X1 X2].
  destruct (dummy_fact as_ Has') as [_ [D2 D3]]. unfold as_ in D2. rewrite N2Nat.id in D2.
  destruct (ri_shape _ _ _ I) as [L1 L2].
  pose proof (ri_inv _ _ _ I 0%nat first ltac:(rewrite En; reflexivity)) as Inv0.
  pose proof (ri_tabs _ _ _ I) as T. rewrite En in T. inversion T as [|? ? T1 _]; subst.
  unfold ro_dummy. rewrite En. cbn [hd app]. set (td := N.lxor first 1) in *. split.
  - unfold gwr. rewrite (ri_o2n_len _ _ _ I), L1.
    replace (N.to_nat td <? NTREES)%nat with true by (symmetry; apply Nat.ltb_lt; change NTREES with 6%nat; lia).
    replace (asN <? dummy_count asN) with false by (symmetry; apply N.ltb_ge; exact D2).
    reflexivity.
  - constructor; cbn [ro_nt ro_o2n ro_n2o ro_lens length]; [reflexivity|lia| | |].
    + intros j t Hj. destruct j as [|[|j]]; cbn [nth_error] in Hj; [| |destruct j; discriminate]; injection Hj as <-.
      * rewrite nth_error_upd_other by lia. exact Inv0.
      * apply nth_error_upd_same. rewrite (ri_o2n_len _ _ _ I). change NTREES with 6%nat. lia.
    + eapply Forall_impl; [|exact Fin]. cbn beta. intros t Ht. left. destruct Ht as [<-|[]]. reflexivity.
    + rewrite upd_length, L1. change NTREES with 6%nat.
      constructor; [|constructor; [|constructor]]; (split; [lia|]).
      * rewrite upd_nth_other by lia. exact T1.
      * rewrite upd_nth_same by (rewrite L1; change NTREES with 6%nat; lia). exact D3.
Qed.

Lemma remap_fin as_ sels s : ro_fin as_ sels s ->
  exists sels', remap (ro_o2n s) sels = GOk sels' /\
    Forall2 (fun t c => nth_error (ro_o2n s) (N.to_nat t) = Some (Some c) /\ c < ro_nt s) sels sels'.
Proof.
  intro F. pose proof (rf_sels _ _ _ F) as Fin. pose proof (rf_inv _ _ _ F) as Inv. pose proof (rf_cnt _ _ _ F) as Cnt.
  clear F. induction Fin as [|t r Ht _ IH]; cbn [remap]; [exists []; split; constructor|].
  destruct IH as [r' [E' F']]. apply In_nth_error in Ht. destruct Ht as [j Hj].
  unfold grd. rewrite (Inv j t Hj). cbn [gbind]. rewrite E'. cbn [gbind].
  exists (N.of_nat j :: r'). split; [reflexivity|]. constructor; [|exact F'].
  split; [apply (Inv j t Hj)|]. rewrite Cnt.
  assert (j < length (ro_n2o s))%nat by (apply nth_error_Some; rewrite Hj; discriminate). lia.
Qed.

Lemma tables_of_fin as_ sels s : ro_fin as_ sels s ->
  tables_of (ro_lens s) (ro_n2o s) = GOk (map (fun t => nth (N.to_nat t) (ro_lens s) []) (ro_n2o s)).
Proof.
  intro F. pose proof (rf_tabs _ _ _ F) as T.
  induction T as [|t r [Hl _] _ IH]; cbn [tables_of map]; [reflexivity|].
  unfold grd. destruct (nth_error (ro_lens s) (N.to_nat t)) as [row|] eqn:En; [|apply nth_error_None in En; lia].
  cbn [gbind]. rewrite IH. cbn [gbind]. rewrite (nth_error_nth _ _ [] En). reflexivity.
Qed.

Definition gen_run (mcl : list N -> list N -> gres (list N)) (cf : N) (mtfv : list N) (r : gen_result) : Prop :=
  let asN := last mtfv 0 + 1 in
  let as_ := N.to_nat asN in
  let nt0 := choose_nt nt_thresholds (N.of_nat (length mtfv)) in
  let groups := groups_of mtfv asN in
  exists lens0 lens sels fr lp ro sels',
    let ro2 := ro_last asN ro in
    N.iter cf (em_iter mcl as_ (N.to_nat nt0) groups) (GOk (lens0, None)) = GOk (lens, Some (sels, fr)) /\
    e_step (N.to_nat nt0) lp groups (repeat (repeat 0 (S as_)) (N.to_nat nt0)) = GOk (sels, fr) /\
    em_post as_ (N.to_nat nt0) groups (lens, Some (sels, fr)) /\
    reorder as_ fr sels (ro_init nt0 lens) = GOk ro /\ ro_inv as_ nt0 ro /\ hd_error (ro_n2o ro) = hd_error sels /\
    ro_fin as_ sels ro2 /\
    Forall2 (fun t c => nth_error (ro_o2n ro2) (N.to_nat t) = Some (Some c) /\ c < ro_nt ro2) sels sels' /\
    r = mkgen (ro_nt ro2) sels (ro_o2n ro2) (ro_n2o ro2) sels'
              (map (fun t => nth (N.to_nat t) (ro_lens ro2) []) (ro_n2o ro2)) (ro_cost ro2).

(* [Pre]: what make_code_lengths may rely on - a length row and a frequency vector of as entries whose sum is at most
   the number of symbols of the padded groups *)
Theorem gen_with_run : forall Pre E mcl cf mtfv,
  mcl_wf_on Pre E mcl -> 1 <= cf -> gen_input_ok mtfv ->
  (forall l g, length l = N.to_nat (last mtfv 0 + 1) -> length g = length l ->
               lsum g <= GEN_MAX_NM + GROUP_SIZE - 1 -> Pre l g) ->
  err_only E (gen_prefix_code_with mcl cf mtfv) (gen_run mcl cf mtfv).
Proof.
  intros Pre E mcl cf mtfv W Hcf [Hnm [Has Hsym]] HP. unfold gen_prefix_code_with, gen_run.
  set (nm := N.of_nat (length mtfv)) in *. set (asN := last mtfv 0 + 1) in *. set (as_ := N.to_nat asN) in *.
  assert (HasN : N.of_nat as_ = asN) by (unfold as_; apply N2Nat.id).
  assert (Has' : (2 <= as_ <= 258)%nat) by (unfold as_; change MAX_ALPHA_SIZE with 258 in Has; lia).
  replace (nm <? 2) with false by (symmetry; apply N.ltb_ge; lia).
  pose proof (cap_ok nm ltac:(lia)) as Hcap.
  replace (enc_selector_size <? num_groups nm + 1) with false by (symmetry; apply N.ltb_ge; exact Hcap).
  (* symbol frequencies *)
  destruct (sym_freq_ok mtfv as_) as [F [EqF [LF SF]]].
  { eapply Forall_impl; [|exact Hsym]. cbn beta. intros a Ha. unfold as_. lia. }
  rewrite EqF. cbn [gbind]. fold nm in SF.
  (* initial trees *)
  pose proof (choose_nt_range nm) as Hnt0. set (nt0 := choose_nt nt_thresholds nm) in *.
  destruct (generate_initial_trees_ok F as_ nm nt0 LF SF ltac:(lia) (nm_lim nm ltac:(lia)) Hnt0) as [lens0 [E0 S0]].
  { rewrite HasN. change MAX_ALPHA_SIZE with 258 in Has. change (2 ^ 31) with 2147483648. lia. }
  rewrite E0. cbn [gbind].
  (* the groups *)
  pose proof (groups_of_spec mtfv asN Hsym) as G. cbv zeta in G. set (groups := groups_of mtfv asN) in *.
  destruct G as [G1 [G2 G3]]. fold nm in G1, G3. rewrite <- HasN in G2.
  (* EM iterations *)
  pose proof (em_loop_on Pre E mcl as_ (N.to_nat nt0) groups W ltac:(change NTREES with 6%nat; lia) G2) as EM.
  specialize (EM ltac:(intros l g Hl Hg Hs; apply HP; [exact Hl|lia|change GROUP_SIZE with 50 in *; lia]) cf lens0 Hcf S0).
  destruct (N.iter cf (em_iter mcl as_ (N.to_nat nt0) groups) (GOk (lens0, None))) as [[lens sf]|e] eqn:EI; cbn [gbind];
    [|exact EM].
  cbv beta iota delta [err_only] in EM. pose proof EM as [Sh [sf' [Esf [Q1 [Q2 [Q3 Q4]]]]]].
  cbn [fst snd] in Sh, Esf. subst sf. destruct sf' as [sels fr]. cbn [fst snd] in Q1, Q2, Q3, Q4.
  rewrite N2Nat.id in Q2.
  destruct (em_last mcl as_ (N.to_nat nt0) groups cf lens0 lens sels fr Hcf EI) as [lp ES].
  (* reordering *)
  assert (Hb : MAX_ALPHA_SIZE * lsum (concat fr) < 2 ^ 32).
  { pose proof (total_ok nm ltac:(lia)). rewrite Q4. change MAX_ALPHA_SIZE with 258 in *. lia. }
  destruct (reorder_spec as_ nt0 fr ltac:(lia) Has' Q3 Hb sels _ Q2 (ro_init_inv as_ nt0 lens Hnt0 Sh))
    as [ro [Ero [I [Fin _]]]].
  change (mkro (u32 (N.shiftl 1 nt0) - 1) 0 (repeat None NTREES) [] lens 0) with (ro_init nt0 lens).
  rewrite Ero. cbn [gbind].
  assert (Hsne : sels <> []).
  { intro Z. subst sels. cbn [length] in Q1. rewrite G1 in Q1.
    pose proof (num_groups_ge nm). change GROUP_SIZE with 50 in *. lia. }
  (* dummy tree, remap, tables *)
  match goal with |- err_only _ (if _ then _ else gbind _ ?K) _ =>
    destruct (last_stage K asN nt0 sels ro ltac:(lia) Has I Hsne Fin) as [EL FL] end.
  fold as_ in EL, FL. rewrite EL. destruct (remap_fin _ _ _ FL) as [sels' [Er Fr]]. rewrite Er. cbn [gbind].
  rewrite (tables_of_fin _ _ _ FL). cbn [gbind]. cbv beta iota delta [err_only].
  exists lens0, lens, sels, fr, lp, ro, sels'. cbv zeta.
  pose proof (reorder_head as_ nt0 fr ltac:(lia) Has' Q3 Hb lens sels ro ltac:(lia) Sh Q2 Ero) as Hd.
  auto 10.
Qed.

Lemma Forall2_right {A B} (R : A -> B -> Prop) (P : B -> Prop) l l' :
  Forall2 R l l' -> (forall a b, R a b -> P b) -> length l = length l' /\ Forall P l'.
Proof.
  intros H K. induction H as [|a b l l' Hab _ [IH1 IH2]]; [split; constructor|].
  cbn [length]. split; [lia|constructor; eauto].
Qed.

Lemma gen_run_ok mcl cf mtfv r : gen_input_ok mtfv -> gen_run mcl cf mtfv r -> gen_result_ok mtfv r.
Proof.
  intros [Hnm [Has Hsym]] (lens0 & lens & sels & fr & lp & ro & sels' & R). cbv zeta in R.
  destruct R as (_ & _ & (_ & sf & Esf & Q1 & _) & _ & _ & _ & FL & Fr & ->).
  inversion Esf; subst sf. cbn [fst] in Q1.
  destruct (groups_of_spec mtfv _ Hsym) as [G1 _].
  destruct (Forall2_right _ (fun c => c < ro_nt (ro_last (last mtfv 0 + 1) ro)) _ _ Fr) as [Lr Fc]; [tauto|].
  constructor; cbn [g_num_trees g_sels_old g_o2n g_n2o g_sels g_tables g_cost].
  - apply (rf_nt _ _ _ FL).
  - rewrite map_length. symmetry. apply (rf_cnt _ _ _ FL).
  - apply forallb_forall. intros row Hrow. apply in_map_iff in Hrow. destruct Hrow as [t [<- Ht]].
    pose proof (rf_tabs _ _ _ FL) as T. rewrite Forall_forall in T. apply (T t Ht).
  - rewrite <- Lr, Q1, G1. apply N2Nat.id.
  - exact Fc.
  - apply cap_ok. lia.
  - exact Lr.
  - symmetry. apply (rf_cnt _ _ _ FL).
Qed.

Theorem gen_witness_ok_gen : forall E mcl cf mtfv,
  mcl_wf E mcl -> 1 <= cf -> gen_input_ok mtfv ->
  err_only E (gen_prefix_code_with mcl cf mtfv) (gen_result_ok mtfv).
Proof.
  intros E mcl cf mtfv W Hcf Hin.
  pose proof (gen_with_run _ E mcl cf mtfv (mcl_wf_on_all E mcl W) Hcf Hin (fun _ _ _ _ _ => I)) as R.
  destruct (gen_prefix_code_with mcl cf mtfv) as [r|e]; [|exact R]. exact (gen_run_ok mcl cf mtfv r Hin R).
Qed.

(* whatever make_code_lengths returns (row length kept; its own error values allowed) *)
Theorem gen_witness_ok : forall mcl cf mtfv,
  mcl_wf is_mcl_err mcl -> 1 <= cf -> gen_input_ok mtfv ->
  match gen_prefix_code_with mcl cf mtfv with
  | GOk r => gen_result_ok mtfv r
  | GErr e => exists m, e = GMcl m
  end.
Proof. intros mcl cf mtfv W Hcf Hin. exact (gen_witness_ok_gen is_mcl_err mcl cf mtfv W Hcf Hin). Qed.

(* when make_code_lengths never fails the model never returns an error value *)
Corollary gen_witness_ok_total : forall mcl cf mtfv,
  (forall old f, exists l, mcl old f = GOk l /\ length l = length old) ->
  1 <= cf -> gen_input_ok mtfv ->
  exists r, gen_prefix_code_with mcl cf mtfv = GOk r /\ gen_result_ok mtfv r.
Proof.
  intros mcl cf mtfv T Hcf Hin.
  assert (W : mcl_wf (fun _ => False) mcl).
  { split.
    - intros old f l E. destruct (T old f) as [l' [E' L']]. rewrite E in E'. inversion E'; subst. exact L'.
    - intros old f e E. destruct (T old f) as [l' [E' _]]. rewrite E in E'. discriminate. }
  pose proof (gen_witness_ok_gen _ mcl cf mtfv W Hcf Hin) as G.
  destruct (gen_prefix_code_with mcl cf mtfv) as [r|e]; cbv beta iota delta [err_only] in G; [|contradiction].
  exists r. split; [reflexivity|exact G].
Qed.
