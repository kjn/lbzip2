(* Totality of the exact model of make_code_lengths() (Enc/GenModel.v): the theorem.
   On every input generate_prefix_code() can hand to it (MIN_ALPHA_SIZE <= as <= MAX_ALPHA_SIZE frequencies summing
   to at most MCL_SUM_MAX = fib 33 - 259 = 3524319; lbzip2: at most 900050) the model returns no error value:
   no failing assert() of make_code_lengths / build_tree / compute_depths (as range, r == 2, s == 0, avail > used,
   avail == 0, i < as, c == 1 << (MAX_HUFF_CODE_LENGTH + 1), i == as), no access outside weight[0..as-1],
   V[0..as-1], count[0..MAX_HUFF_CODE_LENGTH+1], length[0..as-1], no unsigned underflow of r / s.
   The file also holds the facts about the sorted labelled weights that the theorem needs, and the unconditional
   statement about gen_prefix_code:
   every call of make_code_lengths() in generate_prefix_code() is admissible (rows of as entries, 3 <= as <= 258,
   frequency total = number of padded symbols <= 900099 <= MCL_SUM_MAX). *)
From Coq Require Import List NArith Arith Bool Lia Sorting.Permutation.
From LBZ Require Import Gen.Consts Enc.PmModel Enc.PmBasics Enc.PmReal Enc.PmRefine Enc.GenModel Enc.GenProofs
  Enc.GenMcl Enc.GenMclDefs Enc.GenEm Enc.GenMclBt Enc.GenMclCd.
Import ListNotations.
Local Open Scope N_scope.

Definition is_leafw (as_ : nat) (w : N) : Prop :=
  exists f i, (i < as_)%nat /\ w = enc (N.max f 1) (65536 + (MAX_ALPHA_SIZE - N.of_nat i)).

Lemma mcl_label_from_length freq : forall i0, length (mcl_label_from i0 freq) = length freq.
Proof. induction freq as [|f r IH]; intro i0; cbn [mcl_label_from length]; [reflexivity|]. rewrite IH. reflexivity. Qed.

Lemma mcl_label_from_leaf as_ freq : (as_ <= 258)%nat -> forall i0, (N.to_nat i0 + length freq <= as_)%nat ->
  Forall (is_leafw as_) (mcl_label_from i0 freq).
Proof.
  intro Has. induction freq as [|f r IH]; intros i0 H; cbn [mcl_label_from]; [constructor|].
  cbn [length] in H. constructor.
  - exists f, (N.to_nat i0). split; [lia|].
    change (N.lor (N.lor (N.shiftl (N.max f 1) 32) 65536) (MAX_ALPHA_SIZE - i0)) with (leaf_label (N.max f 1) i0).
    rewrite leaf_label_enc; [rewrite N2Nat.id; reflexivity|change MAX_ALPHA_SIZE with 258; lia].
  - apply IH. lia.
Qed.

Lemma mcl_label_from_sum freq : forall i0, (N.to_nat i0 + length freq <= 258)%nat ->
  lsum (map fq (mcl_label_from i0 freq)) = lsum (map (fun f => N.max f 1) freq).
Proof.
  induction freq as [|f r IH]; intros i0 H; cbn [mcl_label_from map lsum]; [reflexivity|].
  cbn [length] in H. rewrite IH by lia. f_equal.
  change (N.lor (N.lor (N.shiftl (N.max f 1) 32) 65536) (MAX_ALPHA_SIZE - i0)) with (leaf_label (N.max f 1) i0).
  rewrite leaf_label_enc by (change MAX_ALPHA_SIZE with 258; lia).
  apply fq_enc. change MAX_ALPHA_SIZE with 258. unfold U32. lia.
Qed.

Lemma lsum_max1 l : lsum (map (fun f => N.max f 1) l) <= lsum l + N.of_nat (length l).
Proof. induction l as [|x l IH]; cbn [map lsum length]; lia. Qed.

Lemma is_leafw_facts as_ w : (as_ <= 258)%nat -> is_leafw as_ w ->
  hg w = 0 /\ 1 <= fq w /\ N.land w 65535 <= MAX_ALPHA_SIZE /\ (N.to_nat (MAX_ALPHA_SIZE - N.land w 65535) < as_)%nat.
Proof.
  intros Has [f [i [Hi ->]]]. change MAX_ALPHA_SIZE with 258.
  assert (HL : 65536 + (258 - N.of_nat i) < U32) by (unfold U32; lia).
  split; [unfold hg; rewrite lo_enc by exact HL; apply N.div_small; lia|].
  split; [rewrite fq_enc by exact HL; lia|].
  assert (E : N.land (enc (N.max f 1) (65536 + (258 - N.of_nat i))) 65535 = 258 - N.of_nat i).
  { rewrite (N.land_ones _ 16). unfold enc.
    replace (N.max f 1 * U32 + (65536 + (258 - N.of_nat i)))
      with ((258 - N.of_nat i) + (N.max f 1 * 2 ^ 16 + 1) * 2 ^ 16) by (unfold U32; lia).
    rewrite N.mod_add by lia. apply N.mod_small. lia. }
  rewrite E. split; lia.
Qed.

Lemma sumr_nth (g : N -> N) l : forall a, sumr (fun i => g (nth (i - a) l 0)) a (length l) = lsum (map g l).
Proof.
  induction l as [|x l IH]; intro a; cbn [length sumr map lsum]; [reflexivity|].
  rewrite Nat.sub_diag. cbn [nth]. f_equal. rewrite <- (IH (S a)). apply sumr_ext.
  intros i Hi. replace (i - a)%nat with (S (i - S a)) by lia. reflexivity.
Qed.

Lemma sumr_gq W : sumr (gq W) 0 (length W) = lsum (map fq W).
Proof.
  rewrite <- (sumr_nth fq W 0). apply sumr_ext. intros i Hi. unfold gq, wn. rewrite Nat.sub_0_r. reflexivity.
Qed.

Theorem make_code_lengths_total :
  forall old f, mcl_input_ok old f -> exists l, make_code_lengths old f = GOk l /\ length l = length old.
Proof.
  intros old f [H1 [H2 H3]].
  assert (E : exists l, make_code_lengths old f = GOk l).
  { unfold make_code_lengths. set (as_ := length f) in *.
    replace ((N.of_nat as_ <? MIN_ALPHA_SIZE) || (MAX_ALPHA_SIZE <? N.of_nat as_)) with false.
    2:{ symmetry. apply orb_false_iff. change MIN_ALPHA_SIZE with 3. change MAX_ALPHA_SIZE with 258.
        split; apply N.ltb_ge; lia. }
    set (W0 := sort_desc (mcl_label_from 0 f)).
    pose proof (sort_desc_perm (mcl_label_from 0 f)) as Perm. fold W0 in Perm.
    assert (L0 : length W0 = as_).
    { rewrite (Permutation_length Perm). apply mcl_label_from_length. }
    assert (Leafs : Forall (is_leafw as_) W0).
    { eapply Permutation_Forall; [apply Permutation_sym; exact Perm|].
      apply mcl_label_from_leaf; [lia|]. change (N.to_nat 0) with 0%nat. fold as_. lia. }
    assert (Lf : forall i, (i < as_)%nat -> is_leafw as_ (wn W0 i)).
    { intros i Hi. rewrite Forall_forall in Leafs. apply Leafs. unfold wn. apply nth_In. lia. }
    set (T := lsum (map (fun x => N.max x 1) f)).
    assert (HT : T < fib 33).
    { pose proof (lsum_max1 f). fold as_ in H. unfold T, MCL_SUM_MAX in *. rewrite fib_33. lia. }
    assert (HS : sumr (gq W0) 0 as_ = T).
    { rewrite <- L0, sumr_gq. rewrite (lsum_perm _ _ (Permutation_map fq Perm)).
      apply mcl_label_from_sum. change (N.to_nat 0) with 0%nat. fold as_. lia. }
    destruct (build_tree_ok as_ W0 T ltac:(lia) L0) as [W [V [EB P]]].
    - intros i Hi. destruct (is_leafw_facts as_ _ ltac:(lia) (Lf i Hi)) as [F1 [F2 _]]. split; assumption.
    - intros i j Hij Hj. apply fq_mono. unfold wn. apply ssorted_nth; [apply sort_desc_sorted|exact Hij|lia].
    - exact HT.
    - exact HS.
    - rewrite EB. cbn [gbind]. cbn [Nat.eqb negb].
      destruct (cd_gl_total as_ W0 W V old ltac:(lia) P) as [count [len [E1 E2]]].
      + intros i Hi. destruct (is_leafw_facts as_ _ ltac:(lia) (Lf i Hi)) as [_ [_ [F3 F4]]]. split; [exact F3|lia].
      + rewrite E1. cbn [gbind]. rewrite E2. cbn [gbind]. rewrite N.eqb_refl, Nat.eqb_refl. cbn [negb].
        exists len. reflexivity. }
  destruct E as [l E]. exists l. split; [exact E|]. exact (make_code_lengths_length old f l E).
Qed.

(* the form with lbzip2's bound: sum of the frequencies = number of (padded) symbols <= 900050 *)
Corollary make_code_lengths_total_lbzip2 :
  forall old f, length old = length f -> (3 <= length f <= 258)%nat -> lsum f <= GEN_MAX_NM ->
    exists l, make_code_lengths old f = GOk l /\ length l = length old.
Proof.
  intros old f H1 H2 H3. apply make_code_lengths_total. split; [lia|]. split; [exact H2|].
  assert (GEN_MAX_NM <= MCL_SUM_MAX) by (vm_compute; discriminate). lia.
Qed.

(* generate_prefix_code(): no error value at all, for every alphabet size as >= MIN_ALPHA_SIZE *)
Theorem gen_prefix_code_total :
  forall cf mtfv, 1 <= cf -> gen_input_ok mtfv -> 3 <= last mtfv 0 + 1 ->
    exists r, gen_prefix_code cf mtfv = GOk r /\ gen_result_ok mtfv r.
Proof.
  intros cf mtfv Hcf Hin H3.
  assert (W : mcl_wf_on mcl_input_ok (fun _ => False) make_code_lengths).
  { intros old f Hok. destruct (make_code_lengths_total old f Hok) as [l [-> L]]. exact L. }
  assert (HP : forall l g, length l = N.to_nat (last mtfv 0 + 1) -> length g = length l ->
                           lsum g <= GEN_MAX_NM + GROUP_SIZE - 1 -> mcl_input_ok l g).
  { intros l g Hl Hg Hs. destruct Hin as [_ [Has _]]. change MAX_ALPHA_SIZE with 258 in Has.
    assert (GEN_MAX_NM + GROUP_SIZE - 1 <= MCL_SUM_MAX) by (vm_compute; discriminate).
    unfold mcl_input_ok. lia. }
  pose proof (gen_with_run _ _ _ cf mtfv W Hcf Hin HP) as R. unfold gen_prefix_code.
  destruct (gen_prefix_code_with make_code_lengths cf mtfv) as [r|e]; [|contradiction].
  exists r. split; [reflexivity|exact (gen_run_ok _ _ _ _ Hin R)].
Qed.

Print Assumptions make_code_lengths_total.
Print Assumptions gen_prefix_code_total.
