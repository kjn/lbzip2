(* C20 - the part of assign_codes() that turns a row of tree[][] into code lengths:
   give_lengths / per_depth / heights_loop never fail on good rows, and the resulting length[] is a
   permutation of the depth list of the row, whose Kraft sum is exactly full. *)
From Coq Require Import List NArith ZArith Arith Bool Lia ZifyBool ZifyNat Sorting.Permutation.
From LBZ Require Import Common.ListArr Gen.Consts Enc.HuffProofs Enc.PmModel Enc.PmBasics Enc.PmReal.
Import ListNotations.
Local Open Scope N_scope.

(* the code lengths in leaf order (heaviest leaf first) that per_depth derives from a row *)
Fixpoint dlist (row : list N) (depth k : nat) : list N :=
  match k with
  | O => []
  | S k' => repeat (N.of_nat depth) (N.to_nat (nth (depth - 1) row 0 - nth depth row 0)) ++ dlist row (S depth) k'
  end.

Lemma combine_app_eq {A B} (l1 l2 : list A) (r1 r2 : list B) : length l1 = length r1 ->
  combine (l1 ++ l2) (r1 ++ r2) = combine l1 r1 ++ combine l2 r2.
Proof.
  revert r1; induction l1 as [|x l IH]; intros [|y r] H; cbn [length] in H; try lia; [reflexivity|].
  cbn [app combine]. f_equal. apply IH. lia.
Qed.

Lemma combine_repeat {A B} (l : list A) (v : B) : combine l (repeat v (length l)) = map (fun j => (j, v)) l.
Proof. induction l as [|x l IH]; cbn [length repeat combine map]; [reflexivity|]. f_equal. exact IH. Qed.

Lemma map_fst_combine_eq {A B} (l : list A) (r : list B) : length l = length r -> map fst (combine l r) = l.
Proof.
  revert r; induction l as [|x l IH]; intros [|y r] H; cbn [length] in H; try lia; [reflexivity|].
  cbn [combine map fst]. f_equal. apply IH. lia.
Qed.

Lemma map_nth_seq_id (R : list N) : map (fun s => nth s R 0) (seq 0 (length R)) = R.
Proof.
  apply nth_ext with (d := 0) (d' := 0).
  - rewrite map_length, seq_length. reflexivity.
  - intros j Hj. rewrite map_length, seq_length in Hj. rewrite nth_map_seq by lia. reflexivity.
Qed.

Lemma dlist_length row : forall k depth, (1 <= depth)%nat ->
  (forall i, (depth <= i)%nat -> (i < depth + k)%nat -> nth i row 0 <= nth (i - 1) row 0) ->
  length (dlist row depth k) = N.to_nat (nth (depth - 1) row 0 - nth (depth + k - 1) row 0).
Proof.
  induction k as [|k IH]; intros depth Hd Hm.
  - cbn [dlist length]. replace (depth + 0 - 1)%nat with (depth - 1)%nat by lia. lia.
  - cbn [dlist]. rewrite app_length, repeat_length. rewrite IH; [|lia|intros i H1 H2; apply Hm; lia].
    replace (S depth - 1)%nat with depth by lia. replace (S depth + k - 1)%nat with (depth + S k - 1)%nat by lia.
    pose proof (Hm depth ltac:(lia) ltac:(lia)) as M1.
    assert (M2 : nth (depth + S k - 1) row 0 <= nth depth row 0).
    { clear IH M1. induction k as [|k IHk].
      - replace (depth + 1 - 1)%nat with depth by lia. lia.
      - etransitivity; [|apply IHk; intros i H1 H2; apply Hm; lia].
        replace (depth + S (S k) - 1)%nat with (S (depth + S k - 1)) by lia.
        pose proof (Hm (S (depth + S k - 1)) ltac:(lia) ltac:(lia)) as H.
        replace (S (depth + S k - 1) - 1)%nat with (depth + S k - 1)%nat in H by lia. exact H. }
    lia.
Qed.

Section Writes.
Variable lw : list N.
Variable n : nat.
Hypothesis Hlw : length lw = S n.

Definition symj (j : nat) : nat := N.to_nat (MAX_ALPHA_SIZE - N.land (nth (S j) lw 0) 65535).

Hypothesis Hlow : forall j, (j < n)%nat -> N.land (nth (S j) lw 0) 65535 <= MAX_ALPHA_SIZE.
Hypothesis Hsym : forall j, (j < n)%nat -> (symj j < n)%nat.
Hypothesis Hinj : forall i j, (i < n)%nat -> (j < n)%nat -> symj i = symj j -> i = j.

Definition apply_writes (ps : list (nat * N)) (len : list N) : list N :=
  fold_left (fun l p => upd l (symj (fst p)) (snd p)) ps len.

Lemma apply_writes_app ps qs len : apply_writes (ps ++ qs) len = apply_writes qs (apply_writes ps len).
Proof. unfold apply_writes. apply fold_left_app. Qed.

Lemma apply_writes_length ps len : length (apply_writes ps len) = length len.
Proof.
  revert len; induction ps as [|p r IH]; intro len; [reflexivity|].
  cbn [apply_writes fold_left]. fold (apply_writes r (upd len (symj (fst p)) (snd p))).
  rewrite IH. apply upd_length.
Qed.

Lemma give_lengths_spec depth : forall avail leaf len cost, (leaf + avail <= n)%nat -> length len = n ->
  exists cost', give_lengths avail lw n depth len cost leaf =
                Ok (apply_writes (map (fun j => (j, depth)) (seq leaf avail)) len, cost', (leaf + avail)%nat).
Proof.
  induction avail as [|a IH]; intros leaf len cost Hle Hlen.
  - exists cost. cbn [give_lengths seq map apply_writes fold_left]. rewrite Nat.add_0_r. reflexivity.
  - cbn [give_lengths]. destruct (Nat.ltb_spec leaf n) as [Hlt|Hge]; [|lia].
    rewrite (rd_ok ALeaf lw (S leaf) 0) by lia. cbn [bind]. cbn zeta.
    destruct (N.leb_spec (N.land (nth (S leaf) lw 0) 65535) MAX_ALPHA_SIZE) as [Hl|Hl]; [|pose proof (Hlow leaf Hlt); lia].
    fold (symj leaf). rewrite wr_ok by (rewrite Hlen; apply Hsym; exact Hlt). cbn [bind].
    destruct (IH (S leaf) (upd len (symj leaf) depth)
                 (N.land (cost + N.land (N.shiftr (nth (S leaf) lw 0) 32) MAX32 * depth) MAX32)
                 ltac:(lia) ltac:(rewrite upd_length; exact Hlen)) as [cost' E].
    exists cost'. rewrite E. cbn [seq map apply_writes fold_left fst snd].
    replace (S leaf + a)%nat with (leaf + S a)%nat by lia. reflexivity.
Qed.

Lemma per_depth_spec row : forall k depth len cost leaf, (1 <= depth)%nat -> (depth + k <= length row)%nat ->
  (forall i, (depth <= i)%nat -> (i < depth + k)%nat -> nth i row 0 <= nth (i - 1) row 0) ->
  (leaf + length (dlist row depth k) <= n)%nat -> length len = n ->
  exists cost', per_depth k depth row lw n len cost leaf =
    Ok (apply_writes (combine (seq leaf (length (dlist row depth k))) (dlist row depth k)) len, cost',
        (leaf + length (dlist row depth k))%nat).
Proof.
  induction k as [|k IH]; intros depth len cost leaf Hd Hk Hm Hle Hlen.
  - exists cost. cbn [per_depth dlist length seq combine apply_writes fold_left]. rewrite Nat.add_0_r. reflexivity.
  - cbn [per_depth]. destruct depth as [|d1]; [lia|].
    rewrite (rd_ok ARow row d1 0) by lia. cbn [bind].
    rewrite (rd_ok ARow row (S d1) 0) by lia. cbn [bind].
    pose proof (Hm (S d1) ltac:(lia) ltac:(lia)) as M1. replace (S d1 - 1)%nat with d1 in M1 by lia.
    destruct (N.leb_spec (nth (S d1) row 0) (nth d1 row 0)) as [_|H]; [|lia].
    cbn [dlist] in Hle |- *. replace (S d1 - 1)%nat with d1 in * by lia.
    set (av := N.to_nat (nth d1 row 0 - nth (S d1) row 0)) in *.
    set (rest := dlist row (S (S d1)) k) in *.
    rewrite app_length, repeat_length in Hle.
    destruct (give_lengths_spec (N.of_nat (S d1)) av leaf len cost ltac:(lia) Hlen) as [c1 E1].
    rewrite E1. cbn [bind].
    destruct (IH (S (S d1)) (apply_writes (map (fun j => (j, N.of_nat (S d1))) (seq leaf av)) len) c1 (leaf + av)%nat
                 ltac:(lia) ltac:(lia)) as [c2 E2].
    { intros i H1 H2. apply Hm; lia. }
    { fold rest. lia. }
    { rewrite apply_writes_length. exact Hlen. }
    exists c2. fold rest in E2. rewrite E2. f_equal. f_equal; [f_equal|].
    + rewrite app_length, repeat_length. fold av.
      rewrite seq_app. rewrite combine_app_eq by (rewrite seq_length, repeat_length; reflexivity).
      rewrite apply_writes_app. f_equal.
      f_equal. rewrite <- combine_repeat. rewrite seq_length. reflexivity.
    + rewrite app_length, repeat_length. fold av. lia.
Qed.

(* what a sequence of writes with distinct leaf indices leaves in length[] *)
Lemma apply_writes_nth ps : forall len, length len = n -> NoDup (map fst ps) ->
  (forall p, In p ps -> (fst p < n)%nat) ->
  forall j v, In (j, v) ps -> nth (symj j) (apply_writes ps len) 0 = v.
Proof.
  induction ps as [|q r IH] using rev_ind; intros len Hlen Hnd Hlt j v Hin; [destruct Hin|].
  rewrite apply_writes_app. cbn [apply_writes fold_left].
  rewrite map_app in Hnd. cbn [map] in Hnd.
  apply in_app_or in Hin. destruct Hin as [Hin|[Heq|[]]].
  - assert (Hj : (j < n)%nat) by (apply (Hlt (j, v)); apply in_or_app; left; exact Hin).
    assert (Hq : (fst q < n)%nat) by (apply Hlt; apply in_or_app; right; left; reflexivity).
    assert (Hne : fst q <> j).
    { intro E. apply NoDup_remove_2 in Hnd. rewrite app_nil_r in Hnd. apply Hnd.
      rewrite E. change j with (fst (j, v)). apply in_map. exact Hin. }
    rewrite upd_nth_other by (intro E; apply Hne; apply Hinj; assumption).
    apply IH; auto.
    + apply NoDup_remove_1 in Hnd. rewrite app_nil_r in Hnd. exact Hnd.
    + intros p Hp. apply Hlt. apply in_or_app. left. exact Hp.
  - subst q. cbn [fst snd]. apply upd_nth_same. rewrite apply_writes_length, Hlen. apply Hsym.
    apply (Hlt (j, v)). apply in_or_app. right. left. reflexivity.
Qed.

(* when every leaf is written once, leaf j receives entry j of the depth list *)
Lemma full_writes_nth dl len : length dl = n -> length len = n ->
  forall j, (j < n)%nat -> nth (symj j) (apply_writes (combine (seq 0 n) dl) len) 0 = nth j dl 0.
Proof.
  intros Hdl Hlen j Hj. apply apply_writes_nth; auto.
  - rewrite map_fst_combine_eq by (rewrite seq_length; lia). apply seq_NoDup.
  - intros p Hp. destruct p as [a b]. apply in_combine_l in Hp. apply in_seq in Hp. cbn [fst]. lia.
  - replace (j, nth j dl 0) with (nth j (combine (seq 0 n) dl) (0%nat, 0)).
    + apply nth_In. rewrite combine_length, seq_length. lia.
    + rewrite combine_nth by (rewrite seq_length; lia). rewrite seq_nth by lia. reflexivity.
Qed.

Lemma sigma_perm : Permutation (map symj (seq 0 n)) (seq 0 n).
Proof.
  apply NoDup_Permutation_bis.
  - apply (NoDup_nth _ 0%nat). intros a b Ha Hb E.
    rewrite map_length, seq_length in Ha, Hb. rewrite !nth_map_seq in E by lia. apply Hinj; assumption.
  - rewrite map_length, !seq_length. lia.
  - intros s Hs. apply in_map_iff in Hs as [j [<- Hj]]. apply in_seq in Hj.
    apply in_seq. pose proof (Hsym j ltac:(lia)). lia.
Qed.

(* when every leaf is written once, length[] becomes a permutation of the depth list *)
Lemma full_writes_perm dl len : length dl = n -> length len = n ->
  Permutation (apply_writes (combine (seq 0 n) dl) len) dl.
Proof.
  intros Hdl Hlen. set (R := apply_writes (combine (seq 0 n) dl) len).
  assert (LR : length R = n) by (unfold R; rewrite apply_writes_length; exact Hlen).
  pose proof (full_writes_nth dl len Hdl Hlen) as Hnth. fold R in Hnth.
  assert (E1 : map (fun s => nth s R 0) (map symj (seq 0 n)) = dl).
  { rewrite map_map.
    apply nth_ext with (d := 0) (d' := 0).
    - rewrite map_length, seq_length. lia.
    - intros j Hj. rewrite map_length, seq_length in Hj.
      rewrite nth_map_seq by lia. apply Hnth. lia. }
  assert (E2 : map (fun s => nth s R 0) (seq 0 n) = R).
  { rewrite <- LR. apply map_nth_seq_id. }
  rewrite <- E1, <- E2 at 1. apply Permutation_map. symmetry. exact sigma_perm.
Qed.
End Writes.

(* Kraft sum of the depth list of a good row *)
Lemma ksum_app a b : ksum (a ++ b) = ksum a + ksum b.
Proof. induction a as [|x r IH]; cbn [app ksum]; lia. Qed.

Lemma ksum_repeat d m : ksum (repeat d m) = N.of_nat m * 2 ^ (20 - d).
Proof.
  induction m as [|m IH]; cbn [repeat ksum]; [lia|]. rewrite IH, N.shiftl_1_l. lia.
Qed.

Lemma ksum_perm a b : Permutation a b -> ksum a = ksum b.
Proof. induction 1; cbn [ksum]; lia. Qed.

Lemma hd_skipn (row : list N) j : hd 0 (skipn j row) = nth j row 0.
Proof. revert row; induction j as [|j IH]; intros [|x r]; cbn [skipn hd nth]; auto. Qed.

Lemma tl_skipn (row : list N) j : tl (skipn j row) = skipn (S j) row.
Proof.
  revert row. induction j as [|j IH]; intros [|x r]; try reflexivity.
  change (skipn (S j) (x :: r)) with (skipn j r). change (skipn (S (S j)) (x :: r)) with (skipn (S j) r). apply IH.
Qed.

Lemma val_skipn m j row : val (S m) (skipn j row) = nth j row 0 * 2 ^ N.of_nat m + val m (skipn (S j) row).
Proof. rewrite val_S, hd_skipn, tl_skipn. reflexivity. Qed.

Section Kraft.
Variable row : list N.
Variable h : nat.
Hypothesis Hh : (h <= 20)%nat.
Hypothesis Hmono : forall i, (1 <= i)%nat -> (i <= h)%nat -> nth i row 0 <= nth (i - 1) row 0.
Hypothesis Hzero : nth h row 0 = 0.

Definition vv (j : nat) : N := val (h - j) (skipn j row).

(* Abel summation: the run lengths a(i-1) - a(i) weighted 2^(20-i), plus the tail of the row, telescope *)
Lemma kraft_partial : forall k depth, (1 <= depth)%nat -> (depth + k = S h)%nat ->
  ksum (dlist row depth k) + 2 ^ N.of_nat (20 - h) * vv depth = nth (depth - 1) row 0 * 2 ^ N.of_nat (20 - depth).
Proof.
  induction k as [|k IH]; intros depth Hd Hk.
  - cbn [dlist ksum]. unfold vv. replace (h - depth)%nat with 0%nat by lia.
    replace (depth - 1)%nat with h by lia. rewrite Hzero. cbn [val]. lia.
  - cbn [dlist]. rewrite ksum_app, ksum_repeat, Nnat.N2Nat.id.
    specialize (IH (S depth) ltac:(lia) ltac:(lia)). replace (S depth - 1)%nat with depth in IH by lia.
    replace (20 - N.of_nat depth) with (N.of_nat (20 - depth)) by lia.
    rewrite N.mul_sub_distr_r.
    pose proof (N.mul_le_mono_r _ _ (2 ^ N.of_nat (20 - depth)) (Hmono depth Hd ltac:(lia))) as M.
    destruct (Nat.eq_dec depth h) as [->|Nh].
    + unfold vv at 1. rewrite Nat.sub_diag, Hzero in *. cbn [val]. lia.
    + unfold vv at 1. replace (h - depth)%nat with (S (h - S depth)) by lia. rewrite val_skipn. fold (vv (S depth)).
      replace (20 - depth)%nat with (S (20 - h + (h - S depth)))%nat in * by lia.
      replace (20 - S depth)%nat with (20 - h + (h - S depth))%nat in IH by lia.
      rewrite Nnat.Nat2N.inj_succ, N.pow_succ_r' in *. rewrite Nnat.Nat2N.inj_add, N.pow_add_r in *.
      lia.
Qed.

Lemma kraft_of_row nn : nth 0 row 0 = nn -> (1 <= h)%nat ->
  val h row = (2 * nn - 2) * 2 ^ N.of_nat (h - 1) -> 1 <= nn ->
  ksum (dlist row 1 h) = 2 ^ 20.
Proof.
  intros H0 Hh1 Hval Hnn.
  pose proof (kraft_partial h 1 ltac:(lia) ltac:(lia)) as KP. change (1 - 1)%nat with 0%nat in KP. rewrite H0 in KP.
  assert (E0 : val h row = nn * 2 ^ N.of_nat (h - 1) + vv 1).
  { unfold vv. replace h with (S (h - 1)) at 1 by lia. rewrite <- H0. apply (val_skipn _ 0). }
  rewrite Hval in E0. apply (f_equal (N.mul (2 ^ N.of_nat (20 - h)))) in E0.
  replace (20 - 1)%nat with (20 - h + (h - 1))%nat in KP by lia. rewrite Nnat.Nat2N.inj_add, N.pow_add_r in KP.
  replace 20 with (1 + (N.of_nat (20 - h) + N.of_nat (h - 1))) by lia. rewrite N.pow_add_r, N.pow_add_r.
  lia.
Qed.
End Kraft.

Record good_row (n h : nat) (row : list N) : Prop := mkgood {
  g_len : length row = S MCL;
  g_mono : forall i, (1 <= i)%nat -> nth i row 0 <= nth (i - 1) row 0;
  g_zero : nth h row 0 = 0;
  g_top : nth 0 row 0 = N.of_nat n;
  g_val : val h row = (2 * N.of_nat n - 2) * 2 ^ N.of_nat (h - 1)
}.

Lemma dlist_split row : forall k m depth, dlist row depth (k + m) = dlist row depth k ++ dlist row (depth + k) m.
Proof.
  induction k as [|k IH]; intros m depth; cbn [Nat.add dlist app].
  - rewrite Nat.add_0_r. reflexivity.
  - rewrite IH, app_assoc. do 2 f_equal. lia.
Qed.

Lemma dlist_range row : forall k depth, Forall (fun l => N.of_nat depth <= l < N.of_nat (depth + k)) (dlist row depth k).
Proof.
  induction k as [|k IH]; intro depth; cbn [dlist]; [constructor|].
  apply Forall_app. split.
  - apply Forall_forall. intros x Hx. apply repeat_spec in Hx. subst. lia.
  - eapply Forall_impl; [|apply IH]. cbn beta. intros; lia.
Qed.

Section Good.
Variables (n h : nat) (row : list N).
Hypothesis G : good_row n h row.
Hypothesis Hh1 : (1 <= h)%nat.
Hypothesis Hh20 : (h <= 20)%nat.
Hypothesis Hn1 : (1 <= n)%nat.
Hypothesis HM : MCL = 20%nat.

Lemma good_dlist_length : length (dlist row 1 h) = n.
Proof.
  rewrite dlist_length; [|lia|intros i H1 H2; apply (g_mono _ _ _ G); lia].
  replace (1 - 1)%nat with 0%nat by lia. replace (1 + h - 1)%nat with h by lia.
  rewrite (g_top _ _ _ G), (g_zero _ _ _ G). lia.
Qed.

Lemma good_ksum : ksum (dlist row 1 h) = 2 ^ 20.
Proof.
  apply (kraft_of_row row h Hh20) with (nn := N.of_nat n); try lia.
  - intros i H1 H2. apply (g_mono _ _ _ G). exact H1.
  - apply (g_zero _ _ _ G).
  - apply (g_top _ _ _ G).
  - apply (g_val _ _ _ G).
Qed.

Definition nc_step (nc : N) (depth : nat) : N := N.land ((nc + (nth (depth - 1) row 0 - nth depth row 0)) * 2) MAX32.

Lemma nc_exact : forall k, (k <= h)%nat ->
  fold_left nc_step (seq 1 k) 0 * 2 ^ N.of_nat (20 - k) = 2 * ksum (dlist row 1 k).
Proof.
  induction k as [|k IH]; intro Hk.
  - cbn [seq fold_left dlist ksum]. lia.
  - specialize (IH ltac:(lia)).
    rewrite seq_S, fold_left_app. cbn [fold_left Nat.add]. set (F := fold_left nc_step (seq 1 k) 0) in *.
    replace (S k) with (k + 1)%nat at 3 by lia. rewrite dlist_split. cbn [dlist]. rewrite app_nil_r, ksum_app, ksum_repeat.
    replace (1 + k)%nat with (S k) by lia. replace (S k - 1)%nat with k by lia.
    pose proof (g_mono _ _ _ G (S k) ltac:(lia)) as M. replace (S k - 1)%nat with k in M by lia.
    set (a := nth k row 0) in *. set (b := nth (S k) row 0) in *.
    rewrite Nnat.N2Nat.id.
    assert (EP : 2 ^ N.of_nat (20 - k) = 2 * 2 ^ N.of_nat (20 - S k)).
    { replace (20 - k)%nat with (S (20 - S k)) by lia. rewrite Nnat.Nat2N.inj_succ, N.pow_succ_r'. reflexivity. }
    assert (EQ : 2 ^ (20 - N.of_nat (S k)) = 2 ^ N.of_nat (20 - S k)) by (f_equal; lia).
    rewrite EQ. rewrite EP in IH. set (P := 2 ^ N.of_nat (20 - S k)) in *.
    assert (Exact : (F + (a - b)) * 2 * P = 2 * (ksum (dlist row 1 k) + (a - b) * P)) by nia.
    (* the uint32 wrap does not happen: the partial Kraft sum is at most the full one *)
    assert (Hle : ksum (dlist row 1 k) + (a - b) * P <= 2 ^ 20).
    { rewrite <- good_ksum.
      assert (Eh : h = (k + S (h - S k))%nat) by lia.
      rewrite Eh at 1. rewrite dlist_split. cbn [dlist]. rewrite !ksum_app, ksum_repeat.
      replace (1 + k)%nat with (S k) by lia. replace (S k - 1)%nat with k by lia. fold a b.
      rewrite Nnat.N2Nat.id, EQ. fold P. lia. }
    assert (HP : 1 <= P) by (unfold P; pose proof (N.pow_nonzero 2 (N.of_nat (20 - S k))); lia).
    assert (Hsmall : (F + (a - b)) * 2 < U32) by (unfold U32; nia).
    unfold nc_step at 1. replace (S k - 1)%nat with k by lia. fold a b. rewrite land_MAX32, N.mod_small by exact Hsmall. exact Exact.
Qed.

Lemma nc_final : fold_left nc_step (seq 1 h) 0 = N.shiftl 1 (N.of_nat (S h)).
Proof.
  pose proof (nc_exact h (Nat.le_refl _)) as E. rewrite good_ksum in E.
  rewrite N.shiftl_1_l.
  assert (EP : 2 * 2 ^ 20 = 2 ^ N.of_nat (S h) * 2 ^ N.of_nat (20 - h)).
  { rewrite <- N.pow_add_r. change (2 * 2 ^ 20) with (2 ^ 21). f_equal. lia. }
  rewrite EP in E. apply N.mul_cancel_r in E; [exact E|]. apply N.pow_nonzero. lia.
Qed.
End Good.
