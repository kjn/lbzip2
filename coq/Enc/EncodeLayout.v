(* Field lengths of EncModel.write_block (the bit layout of transmit()): character map, selectors, prefix tables
   with tree_pad, prefix codes. *)
From Coq Require Import List NArith Arith Lia.
From LBZ Require Import Common.Bits Common.ListArr Enc.EncModel Enc.PmModel Enc.PmReal Enc.PmCost Enc.GenModel
  Enc.GenInit Enc.EncodePmCost Enc.EncodeGenCost Enc.EncodeModel.
Import ListNotations.
Local Open Scope N_scope.

Lemma put_length n v : length (put n v) = n.
Proof. apply bits_msb_length. Qed.

Lemma flat_map_length_sum {A B} (f : A -> list B) (l : list A) :
  N.of_nat (length (flat_map f l)) = lsum (map (fun x => N.of_nat (length (f x))) l).
Proof. induction l as [|x l IH]; cbn [flat_map map lsum length]; [reflexivity|]. rewrite app_length. lia. Qed.

(* character map: 16 bits, and 16 more per 16-byte range that holds a used byte *)
Definition used_ranges (used : list N) : N := N.of_nat (length (filter (range_used used) (seq 0 16))).

Lemma bitmap_rows_length used : forall l,
  N.of_nat (length (flat_map (fun i => if range_used used i
                                       then map (fun j => existsb (N.eqb (16 * N.of_nat i + N.of_nat j)) used) (seq 0 16)
                                       else []) l))
  = 16 * N.of_nat (length (filter (range_used used) l)).
Proof.
  induction l as [|i l IH]; cbn [flat_map filter]; [reflexivity|].
  rewrite app_length, Nat2N.inj_add, IH. destruct (range_used used i); cbn [length].
  - rewrite map_length, seq_length. lia.
  - lia.
Qed.

Lemma write_bitmap_length used : N.of_nat (length (write_bitmap used)) = 16 + 16 * used_ranges used.
Proof.
  unfold write_bitmap, used_ranges. cbv zeta. rewrite app_length, map_length, seq_length, Nat2N.inj_add.
  change (N.of_nat 16) with 16. f_equal. apply (bitmap_rows_length used (seq 0 16)).
Qed.

Lemma cmap_cost_exact used cost : cost + 256 < 2 ^ 32 -> cmap_cost used cost = cost + 16 * used_ranges used.
Proof.
  unfold cmap_cost, used_ranges. intro H.
  assert (G : forall l c, c + 16 * N.of_nat (length l) < 2 ^ 32 ->
            fold_left (fun c i => u32 (c + N.shiftl (if range_used used i then 1 else 0) 4)) l c
            = c + 16 * N.of_nat (length (filter (range_used used) l)) /\
            (length (filter (range_used used) l) <= length l)%nat).
  { induction l as [|i l IH]; intros c Hc; cbn [fold_left filter length] in *; [split; lia|].
    destruct (range_used used i); cbn [length].
    - change (N.shiftl 1 4) with 16. rewrite u32_small by (unfold U32; lia). destruct (IH (c + 16) ltac:(lia)) as [E L]. rewrite E. split; lia.
    - change (N.shiftl 0 4) with 0. rewrite u32_small by (unfold U32; lia). destruct (IH (c + 0) ltac:(lia)) as [E L]. rewrite E. split; lia. }
  apply G. rewrite seq_length. change (N.of_nat 16) with 16. lia.
Qed.

Lemma used_ranges_le used : used_ranges used <= 16.
Proof.
  unfold used_ranges. pose proof (filter_len_le (range_used used) (seq 0 16)) as H. rewrite seq_length in H. lia.
Qed.

(* selectors: MTF position j in unary, j + 1 bits *)
Lemma unary_length k : N.of_nat (length (unary k)) = k + 1.
Proof. unfold unary. rewrite app_length, repeat_length. cbn [length]. lia. Qed.

Lemma selectors_length js : N.of_nat (length (flat_map unary js)) = lsum js + N.of_nat (length js).
Proof.
  rewrite flat_map_length_sum. induction js as [|j r IH]; cbn [map lsum length]; [reflexivity|].
  rewrite unary_length, IH. lia.
Qed.

(* prefix tables: tree_cost bits each, and 2 * tree_pad more on the first *)
Lemma flat_map_const_length {A B} (l : list B) (s : list A) :
  length (flat_map (fun _ => l) s) = (length l * length s)%nat.
Proof. induction s as [|x s IH]; cbn [flat_map length]; [lia|]. rewrite app_length, IH. lia. Qed.

Lemma write_deltas_length : forall lens cur,
  N.of_nat (length (write_deltas cur lens)) =
  2 * (N.max cur (hd cur lens) - N.min cur (hd cur lens)) + 2 * sdelta lens + N.of_nat (length lens).
Proof.
  induction lens as [|c r IH]; intro cur; [cbn [write_deltas length hd sdelta]; lia|].
  cbn [write_deltas]. rewrite !app_length. cbn [length hd].
  rewrite !Nat2N.inj_add, IH. change (N.of_nat 1) with 1.
  assert (E : N.of_nat (length (if cur <? c
                then flat_map (fun _ : nat => [true; false]) (seq 0 (N.to_nat (c - cur)))
                else flat_map (fun _ : nat => [true; true]) (seq 0 (N.to_nat (cur - c)))))
              = 2 * (N.max cur c - N.min cur c)).
  { destruct (N.ltb_spec cur c); rewrite flat_map_const_length, seq_length; cbn [length]; lia. }
  rewrite E. destruct r as [|d r]; [cbn [hd sdelta length]|rewrite sdelta_cons2; cbn [hd length]]; lia.
Qed.

Lemma write_table_length pad lens : lens <> [] -> (4 <= hd 0 lens -> pad <= hd 0 lens) ->
  N.of_nat (length (write_table pad lens)) = 2 * pad + tree_cost lens.
Proof.
  intros Hne Hp. unfold write_table, tree_cost. cbv zeta. rewrite app_length, put_length, Nat2N.inj_add, write_deltas_length.
  destruct lens as [|l0 r]; [contradiction|]. cbn [hd] in *. change (N.of_nat 5) with 5.
  destruct (N.ltb_spec l0 4); lia.
Qed.

Lemma delta_walk_length : forall lens cur,
  length (write_deltas cur lens) = (2 * length (delta_walk cur lens) + length lens)%nat.
Proof.
  induction lens as [|c r IH]; intro cur; [reflexivity|].
  cbn [write_deltas delta_walk]. rewrite !app_length, IH. cbn [length].
  destruct (cur <? c); rewrite flat_map_const_length, map_length, seq_length; cbn [length]; lia.
Qed.

Lemma tables_length pad : forall (tabs : list (list N)) k,
  Forall (fun lens => lens <> []) tabs -> (k = 0%nat -> 4 <= hd 0 (hd [] tabs) -> pad <= hd 0 (hd [] tabs)) ->
  N.of_nat (length (flat_map (fun p => write_table (if fst p =? 0 then pad else 0) (snd p))
                             (combine (map N.of_nat (seq k (length tabs))) tabs)))
  = (if (k =? 0)%nat then match tabs with [] => 0 | _ => 2 * pad end else 0) + lsum (map tree_cost tabs).
Proof.
  induction tabs as [|t r IH]; intros k Hne Hp; cbn [length seq map combine flat_map lsum].
  - destruct (k =? 0)%nat; reflexivity.
  - inversion Hne as [|? ? H1 H2]; subst. rewrite app_length, Nat2N.inj_add. cbn [fst snd].
    rewrite (IH (S k) H2 ltac:(discriminate)). cbn [Nat.eqb]. rewrite N.add_0_l.
    destruct k as [|k]; cbn [Nat.eqb N.of_nat].
    + cbn [N.eqb]. rewrite write_table_length; [lia|exact H1|]. cbn [hd] in Hp. apply Hp. reflexivity.
    + replace (N.pos (Pos.of_succ_nat k) =? 0) with false by reflexivity.
      rewrite write_table_length; [lia|exact H1|lia].
Qed.

(* prefix codes: each symbol takes the length its group's table gives it *)
Lemma sym_bits_length lens s : N.of_nat (length (sym_bits lens s)) = nth (N.to_nat s) lens 0.
Proof. unfold sym_bits. rewrite bits_msb_length. apply N2Nat.id. Qed.

Lemma group_bits_length lens g : N.of_nat (length (flat_map (sym_bits lens) g)) = symcost lens g.
Proof.
  rewrite flat_map_length_sum. unfold symcost. f_equal. apply map_ext. intro s. apply sym_bits_length.
Qed.

Lemma codes_length (tabs : list (list N)) : forall sels fuel l, (length l < fuel)%nat ->
  N.of_nat (length (flat_map (fun p => flat_map (sym_bits (nth (N.to_nat (fst p)) tabs [])) (snd p))
                             (combine sels (chunks50 fuel l))))
  = gbits (tab_of tabs) sels l.
Proof.
  induction sels as [|c r IH]; intros fuel l Hf; [reflexivity|].
  destruct fuel as [|f]; [lia|]. cbn [chunks50 gbits].
  destruct l as [|x l'].
  - cbn [combine flat_map length]. change GS with 50%nat. cbn [firstn skipn].
    assert (Z : forall r', gbits (tab_of tabs) r' [] = 0).
    { induction r' as [|c' r' IHr]; cbn [gbits]; [reflexivity|]. change GS with 50%nat. cbn [firstn skipn]. rewrite IHr. reflexivity. }
    rewrite Z. reflexivity.
  - cbn [combine flat_map]. rewrite app_length, Nat2N.inj_add. cbn [fst snd].
    rewrite group_bits_length. change GS with 50%nat. unfold tab_of at 1. f_equal.
    apply IH. rewrite skipn_length. cbn [length] in *. lia.
Qed.
