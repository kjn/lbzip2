(* Totality of the exact model of make_code_lengths() (Enc/GenModel.v), compute_depths() and the length assignment:
   from the post-condition of build_tree() (BtPost, Enc/GenMclDefs.v) compute_depths() passes its asserts
   (avail > used, avail == 0) and the length assignment loop of make_code_lengths() passes its own
   (i < as, no underflow of MAX_ALPHA_SIZE - (w & 0xFFFF), in-bounds stores) and ends with
   i == as and c == 1 << (MAX_HUFF_CODE_LENGTH + 1). *)
From Coq Require Import List NArith Arith Bool Lia.
From LBZ Require Import Gen.Consts Enc.PmModel Enc.PmBasics Enc.PmReal Enc.GenModel Enc.GenInit Enc.GenMclDefs.
Import ListNotations.
Local Open Scope N_scope.

(* the Kraft sum of count[]: index j of a list of 32 entries weighs 2^(31 - j) *)
Fixpoint kraft (l : list N) : N :=
  match l with
  | [] => 0
  | x :: r => x * 2 ^ N.of_nat (length r) + kraft r
  end.

Lemma lsum_upd0 : forall (l : list N) j x, (j < length l)%nat -> nth j l 0 = 0 -> lsum (upd l j x) = lsum l + x.
Proof.
  induction l as [|a l IH]; intros [|j] x Hj H0; cbn [upd lsum length nth] in *; try lia.
  rewrite IH by (try lia; exact H0). lia.
Qed.

Lemma kraft_upd0 : forall (l : list N) j x, (j < length l)%nat -> nth j l 0 = 0 ->
  kraft (upd l j x) = kraft l + x * 2 ^ N.of_nat (length l - 1 - j).
Proof.
  induction l as [|a l IH]; intros [|j] x Hj H0; cbn [upd kraft length nth] in *; try lia.
  - subst a. replace (S (length l) - 1 - 0)%nat with (length l) by lia. lia.
  - rewrite upd_length, IH by (try lia; exact H0).
    replace (S (length l) - 1 - S j)%nat with (length l - 1 - j)%nat by lia. lia.
Qed.

Lemma pow2_S n : 2 ^ N.of_nat (S n) = 2 * 2 ^ N.of_nat n.
Proof. rewrite Nat2N.inj_succ, N.pow_succ_r'. reflexivity. Qed.

Lemma pow2_pos n : 1 <= 2 ^ N.of_nat n.
Proof. pose proof (N.pow_nonzero 2 (N.of_nat n)). lia. Qed.

Section CD.
Variables (as_ : nat) (W V : list N).
Hypothesis Has : (3 <= as_ <= 258)%nat.
Hypothesis HlenV : length V = as_.
Hypothesis Hpar : forall i, (2 <= i < as_)%nat -> (1 <= vn V i < i)%nat /\ hg (wn W i) + 1 <= hg (wn W (vn V i)).
Hypothesis Hhg1 : forall i, (1 <= i < as_)%nat -> 1 <= hg (wn W i).
Hypothesis Hmono : forall i j, (2 <= i)%nat -> (i <= j)%nat -> (j < as_)%nat -> (vn V i <= vn V j)%nat.
Hypothesis Hstep2 : forall i, (2 <= i)%nat -> (i + 2 < as_)%nat -> (vn V i < vn V (i + 2))%nat.
Hypothesis Hroot : hg (wn W 1) <= 30.

Lemma P_half : forall k i, (2 <= i)%nat -> (i + 2 * k < as_)%nat -> (vn V i + k <= vn V (i + 2 * k))%nat.
Proof.
  induction k as [|k IH]; intros i Hi Hk.
  - replace (i + 2 * 0)%nat with i by lia. lia.
  - specialize (IH i Hi ltac:(lia)). pose proof (Hstep2 (i + 2 * k)%nat ltac:(lia) ltac:(lia)) as H2.
    replace (i + 2 * S k)%nat with (i + 2 * k + 2)%nat by lia. lia.
Qed.

Lemma P_gap i u : (2 <= i)%nat -> (i + u < as_)%nat -> (u + 2 * vn V i <= 2 * vn V (i + u) + 1)%nat.
Proof.
  intros Hi Hu. destruct (Nat.Even_or_Odd u) as [[k ->]|[k ->]].
  - pose proof (P_half k i Hi Hu). lia.
  - pose proof (P_half k i Hi ltac:(lia)).
    pose proof (Hmono (i + 2 * k)%nat (i + (2 * k + 1))%nat ltac:(lia) ltac:(lia) Hu). lia.
Qed.

(* state of V[] inside level d: nodes [n0, node) have just received depth d, nodes [lo_, n0) are the previous level,
   nodes from [node] on still hold their parent index *)
Record InI (lo_ n0 : nat) (d : N) (V' : list N) (node : nat) : Prop := {
  iLen : length V' = as_;
  iNode : (n0 <= node <= as_)%nat;
  iRest : forall i, (node <= i < as_)%nat -> nth i V' 0 = nth i V 0;
  iCur : forall i, (n0 <= i < node)%nat -> nth i V' 0 = d;
  iPrev : forall i, (lo_ <= i < n0)%nat -> nth i V' 0 + 1 = d;
  iOlder : forall i, (1 <= i < lo_)%nat -> nth i V' 0 + 1 < d;
  iDh : forall i, (1 <= i < node)%nat -> nth i V' 0 + hg (wn W i) <= hg (wn W 1)
}.
Arguments iLen {lo_ n0 d V' node}.
Arguments iNode {lo_ n0 d V' node}.
Arguments iRest {lo_ n0 d V' node}.
Arguments iCur {lo_ n0 d V' node}.
Arguments iPrev {lo_ n0 d V' node}.
Arguments iOlder {lo_ n0 d V' node}.
Arguments iDh {lo_ n0 d V' node}.

Lemma cd_inner_ok : forall fuel lo_ n0 d avail V' node,
  (1 <= lo_ <= n0)%nat -> (2 <= n0)%nat -> 1 <= d <= 31 ->
  avail = 2 * N.of_nat (n0 - lo_) ->
  (n0 < as_ -> lo_ <= vn V n0)%nat ->
  InI lo_ n0 d V' node -> fuel = (as_ - node)%nat ->
  N.of_nat (node - n0) <= avail ->
  exists V'' node'',
    cd_inner fuel V' node d avail (N.of_nat (node - n0)) = GOk (V'', node'', N.of_nat (node'' - n0)) /\
    InI lo_ n0 d V'' node'' /\ (node'' < as_ -> n0 <= vn V node'')%nat /\ N.of_nat (node'' - n0) <= avail.
Proof.
  induction fuel as [|f IH]; intros lo_ n0 d avail V' node Hlo Hn0 Hd Hav Hp0 HI Hf Hu;
    pose proof (iLen HI) as HL; pose proof (iNode HI) as Hnd.
  - exists V', node. cbn [cd_inner]. split; [reflexivity|]. split; [exact HI|]. split; [lia|exact Hu].
  - assert (Hlt : (node < as_)%nat) by lia.
    destruct (Hpar node ltac:(lia)) as [Hpn Hhn].
    cbn [cd_inner]. rewrite mrd_ok by lia. cbn [gbind].
    rewrite (iRest HI node ltac:(lia)). change (N.to_nat (nth node V 0)) with (vn V node).
    rewrite mrd_ok by lia. cbn [gbind].
    assert (Hpm : (n0 < as_ -> vn V n0 <= vn V node)%nat).
    { intro. apply Hmono; lia. }
    destruct (Nat.lt_ge_cases (vn V node) n0) as [Hin|Hout].
    + (* the parent is on the previous level *)
      pose proof (iPrev HI (vn V node) ltac:(lia)) as Hq2. rewrite Hq2.
      rewrite u32_small by (rewrite U32_val; lia). rewrite N.eqb_refl.
      pose proof (P_gap n0 (node - n0) Hn0 ltac:(lia)) as Hg.
      replace (n0 + (node - n0))%nat with node in Hg by lia.
      destruct (N.leb_spec avail (N.of_nat (node - n0))) as [Hbad|Hgood]; [lia|].
      rewrite mwr_ok by lia. cbn [gbind].
      rewrite u32_small by (rewrite U32_val; lia).
      replace (N.of_nat (node - n0) + 1) with (N.of_nat (S node - n0)) by lia.
      apply (IH lo_ n0 d avail (upd V' node d) (S node)); try assumption; try lia.
      constructor; [rewrite upd_length; exact HL|lia|..]; intros i Hi.
      * rewrite upd_nth_other by lia. apply (iRest HI). lia.
      * rewrite nth_upd by lia. destruct (Nat.eqb_spec i node); [reflexivity|]. apply (iCur HI). lia.
      * rewrite upd_nth_other by lia. apply (iPrev HI). lia.
      * rewrite upd_nth_other by lia. apply (iOlder HI). lia.
      * rewrite nth_upd by lia. destruct (Nat.eqb_spec i node) as [->|Hne]; [|apply (iDh HI); lia].
        pose proof (iDh HI (vn V node) ltac:(lia)) as Hq. lia.
    + (* the parent is on the current level: the loop exits *)
      rewrite (iCur HI (vn V node) ltac:(lia)).
      rewrite u32_small by (rewrite U32_val; lia).
      destruct (N.eqb_spec (d + 1) d) as [Hbad|_]; [lia|].
      exists V', node. split; [reflexivity|]. split; [exact HI|]. split; [intros; lia|exact Hu].
Qed.

Definition CntInv (n : nat) (d : N) (count : list N) (node lo_ : nat) (avail : N) : Prop :=
  length count = 32%nat /\
  (forall j, (N.to_nat d <= j)%nat -> nth j count 0 = 0) /\
  lsum count + N.of_nat node = 2 * N.of_nat lo_ /\
  kraft count + avail * 2 ^ N.of_nat n = 2147483648.

Lemma cd_outer_ok : forall n d lo_ node V' count avail,
  N.of_nat n + d = 31 -> 1 <= d ->
  (1 <= lo_ <= node)%nat -> (2 <= node)%nat ->
  avail = 2 * N.of_nat (node - lo_) ->
  (node < as_ -> lo_ <= vn V node)%nat ->
  InI lo_ node d V' node ->
  CntInv n d count node lo_ avail ->
  exists count', cd_outer n as_ V' count node d avail = GOk (count', 0) /\
    length count' = 32%nat /\ nth 31 count' 0 = 0 /\ lsum count' = N.of_nat as_ /\ kraft count' = 2147483648.
Proof.
  induction n as [|n IH]; intros d lo_ node V' count avail Hnd Hd1 Hlo Hn2 Hav Hp0 HI HC.
  - assert (Hd : d = 31) by lia. subst d.
    destruct HC as (HCl & HCz & HS1 & HS2). pose proof (iNode HI) as Hnd'.
    assert (Heq : node = lo_).
    { destruct (Nat.eq_dec node lo_) as [E|NE]; [exact E|exfalso].
      pose proof (iPrev HI lo_ ltac:(lia)) as H1. pose proof (iDh HI lo_ ltac:(lia)) as H2.
      pose proof (Hhg1 lo_ ltac:(lia)) as H3. lia. }
    assert (Hend : node = as_).
    { destruct (Nat.eq_dec node as_) as [E|NE]; [exact E|exfalso].
      destruct (Hpar node ltac:(lia)) as [H1 _]. specialize (Hp0 ltac:(lia)). lia. }
    cbn [cd_outer]. exists count. replace avail with 0 by lia.
    split; [reflexivity|]. split; [exact HCl|]. split; [apply HCz; cbn; lia|].
    split; [lia|]. replace avail with 0 in HS2 by lia. lia.
  - assert (Hd : d <= 30) by lia.
    pose proof (cd_inner_ok (as_ - node) lo_ node d avail V' node Hlo Hn2 ltac:(lia) Hav Hp0 HI eq_refl) as Hin.
    rewrite Nat.sub_diag in Hin. cbn [N.of_nat] in Hin.
    destruct (Hin ltac:(lia)) as (V'' & node'' & Hrun & HI' & Hp' & Hu'). clear Hin.
    cbn [cd_outer]. rewrite Hrun. cbn [gbind].
    destruct HC as (HCl & HCz & HS1 & HS2). pose proof (iNode HI') as Hnd'.
    rewrite mwr_ok by lia. cbn [gbind].
    rewrite sub32_exact by (rewrite ?U32_val; lia).
    rewrite N.shiftl_mul_pow2. change (2 ^ 1) with 2.
    rewrite u32_small by (rewrite U32_val; lia).
    apply (IH (d + 1) node node'' V'' _ _); try lia; try assumption.
    + constructor; [exact (iLen HI')|lia|exact (iRest HI')|intros; lia| | |exact (iDh HI')].
      * intros i Hi. rewrite (iCur HI' i Hi). reflexivity.
      * intros i Hi. destruct (Nat.lt_ge_cases i lo_) as [Ha|Hb].
        -- pose proof (iOlder HI' i ltac:(lia)). lia.
        -- pose proof (iPrev HI' i ltac:(lia)). lia.
    + unfold CntInv. rewrite upd_length. split; [exact HCl|].
      assert (Hz : nth (N.to_nat d) count 0 = 0) by (apply HCz; lia).
      split; [|split].
      * intros j Hj. rewrite nth_upd by lia. destruct (Nat.eqb_spec j (N.to_nat d)); [lia|]. apply HCz. lia.
      * rewrite lsum_upd0 by (try lia; exact Hz). lia.
      * rewrite kraft_upd0 by (try lia; exact Hz). rewrite HCl.
        replace (32 - 1 - N.to_nat d)%nat with (S n) by lia.
        rewrite pow2_S in HS2 |- *.
        set (X := 2 ^ N.of_nat n) in *. set (t := avail - N.of_nat (node'' - node)).
        assert (Ha : avail = N.of_nat (node'' - node) + t) by (unfold t; lia).
        rewrite Ha in HS2. lia.
Qed.

Lemma compute_depths_ok :
  exists count, compute_depths V as_ = GOk count /\
    length count = 32%nat /\ nth 31 count 0 = 0 /\ lsum count = N.of_nat as_ /\ kraft count = 2147483648.
Proof.
  unfold compute_depths. rewrite mwr_ok by lia. cbn [gbind].
  change (mwr 5 (repeat 0 COUNT_LEN) 0 0) with (GOk (A := list N) (repeat 0 32)). cbn [gbind].
  change (N.to_nat MAX_HUFF_CODE_LENGTH) with 30%nat.
  destruct (cd_outer_ok 30 1 1 2 (upd V 1 0) (repeat 0 32) 2) as (count & Hrun & Hres); try lia.
  - intros _. destruct (Hpar 2%nat ltac:(lia)) as [H _]. lia.
  - constructor; [rewrite upd_length; exact HlenV|lia|..]; intros i Hi; try lia; rewrite nth_upd by lia.
    + destruct (Nat.eqb_spec i 1); [lia|]. reflexivity.
    + destruct (Nat.eqb_spec i 1); [reflexivity|lia].
    + destruct (Nat.eqb_spec i 1) as [->|]; [lia|lia].
  - unfold CntInv. split; [reflexivity|]. split; [|split].
    + intros j _. apply nth_repeat.
    + rewrite lsum_repeat0. reflexivity.
    + reflexivity.
  - rewrite Hrun. cbn [gbind N.eqb negb]. exists count. split; [reflexivity|exact Hres].
Qed.

End CD.

Section GL.
Variables (as_ : nat) (W old : list N).
Hypothesis HlenW : length W = as_.
Hypothesis Hlow : forall i, (i < as_)%nat ->
  N.land (wn W i) 65535 <= 258 /\ (N.to_nat (258 - N.land (wn W i) 65535) < length old)%nat.

Lemma gl_inner_ok d : forall k fuel len i,
  fuel = (as_ - i)%nat -> (i + k <= as_)%nat -> length len = length old ->
  exists len', gl_inner fuel W len i (N.of_nat k) d = GOk (len', (i + k)%nat) /\ length len' = length old.
Proof.
  induction k as [|k IH]; intros fuel len i Hf Hk HL.
  - exists len. rewrite Nat.add_0_r. destruct fuel; cbn [gl_inner N.of_nat N.eqb]; auto.
  - destruct fuel as [|f]; [lia|]. cbn [gl_inner].
    destruct (N.eqb_spec (N.of_nat (S k)) 0) as [Hbad|_]; [lia|].
    rewrite mrd_ok by lia. cbn [gbind]. fold (wn W i).
    destruct (Hlow i ltac:(lia)) as [Hl1 Hl2]. change MAX_ALPHA_SIZE with 258.
    destruct (N.ltb_spec 258 (N.land (wn W i) 65535)) as [Hbad|_]; [lia|].
    rewrite mwr_ok by lia. cbn [gbind].
    replace (N.of_nat (S k) - 1) with (N.of_nat k) by lia.
    destruct (IH f (upd len (N.to_nat (258 - N.land (wn W i) 65535)) d) (S i)) as (len' & Hrun & HL');
      try lia.
    + rewrite upd_length. exact HL.
    + exists len'. rewrite Hrun. replace (S i + k)%nat with (i + S k)%nat by lia. auto.
Qed.

Lemma gl_outer_ok : forall n pre rest len i c,
  length rest = S n -> nth n rest 0 = 0 ->
  N.of_nat i + lsum rest = N.of_nat as_ ->
  c * (2 * 2 ^ N.of_nat n) + 2 * kraft rest = 4294967296 ->
  length len = length old ->
  exists len', gl_outer n as_ W (pre ++ rest) len i c (N.of_nat (length pre)) = GOk (len', as_, 2147483648).
Proof.
  induction n as [|n IH]; intros pre rest len i c Hlen Hlast Hsum Hkr HL.
  - destruct rest as [|x [|y r]]; cbn [length] in Hlen; try lia.
    cbn [nth] in Hlast. subst x. cbn [lsum kraft length N.of_nat] in *. change (2 ^ 0) with 1 in Hkr.
    cbn [gl_outer]. exists len. f_equal. f_equal; [f_equal; lia|lia].
  - destruct rest as [|k rest]; cbn [length] in Hlen; [lia|].
    cbn [nth] in Hlast. cbn [lsum] in Hsum. cbn [kraft] in Hkr.
    replace (length rest) with (S n) in Hkr by lia. rewrite !pow2_S in Hkr.
    pose proof (pow2_pos n) as HX. set (X := 2 ^ N.of_nat n) in *.
    cbn [gl_outer]. rewrite Nat2N.id.
    rewrite mrd_ok by (rewrite app_length; cbn [length]; lia). cbn [gbind].
    rewrite nth_middle.
    destruct (gl_inner_ok (N.of_nat (length pre)) (N.to_nat k) (as_ - i) len i eq_refl ltac:(lia) HL)
      as (len' & Hrun & HL').
    rewrite N2Nat.id in Hrun. rewrite Hrun. cbn [gbind].
    assert (Hck : c + k <= 1073741824) by nia.
    rewrite (u32_small (c + k)) by (rewrite U32_val; lia).
    rewrite N.shiftl_mul_pow2. change (2 ^ 1) with 2.
    rewrite u32_small by (rewrite U32_val; lia).
    destruct (IH (pre ++ [k]) rest len' (i + N.to_nat k)%nat ((c + k) * 2)) as (len'' & Hrun2);
      try assumption; try lia.
    rewrite <- app_assoc in Hrun2. cbn [app] in Hrun2.
    replace (N.of_nat (length (pre ++ [k]))) with (N.of_nat (length pre) + 1) in Hrun2
      by (rewrite app_length; cbn [length]; lia).
    exists len''. exact Hrun2.
Qed.

End GL.

Theorem cd_gl_total : forall as_ W0 W V old,
  (3 <= as_ <= 258)%nat -> BtPost as_ W0 W V ->
  (forall i, (i < as_)%nat -> N.land (wn W0 i) 65535 <= MAX_ALPHA_SIZE /\
                              (N.to_nat (MAX_ALPHA_SIZE - N.land (wn W0 i) 65535) < length old)%nat) ->
  exists count len, compute_depths V as_ = GOk count /\
    gl_outer (S (N.to_nat MAX_HUFF_CODE_LENGTH)) as_ W count old 0 0 0
      = GOk (len, as_, N.shiftl 1 (MAX_HUFF_CODE_LENGTH + 1)).
Proof.
  intros as_ W0 W V old Has (HlenW & HlenV & Hlow & Hpar & Hhg1 & Hmono & Hstep2 & Hroot) Hold.
  destruct (compute_depths_ok as_ W V Has HlenV Hpar Hhg1 Hmono Hstep2 Hroot)
    as (count & Hcd & Hcl & Hc31 & Hcs & Hck).
  assert (Hlow' : forall i, (i < as_)%nat ->
            N.land (wn W i) 65535 <= 258 /\ (N.to_nat (258 - N.land (wn W i) 65535) < length old)%nat).
  { intros i Hi. rewrite (Hlow i Hi). exact (Hold i Hi). }
  change (S (N.to_nat MAX_HUFF_CODE_LENGTH)) with 31%nat.
  change (N.shiftl 1 (MAX_HUFF_CODE_LENGTH + 1)) with 2147483648.
  destruct (gl_outer_ok as_ W old HlenW Hlow' 31 [] count old 0%nat 0) as (len & Hrun); try assumption; try lia.
  exists count, len. split; [exact Hcd|exact Hrun].
Qed.

Print Assumptions cd_gl_total.
