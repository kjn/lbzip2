(* Totality of the exact model of make_code_lengths() (Enc/GenModel.v): shared definitions.
     fq / lo / hg      the three fields of a packed 64-bit weight that matter (frequency, low word, depth byte)
     mcl_input_ok      what generate_prefix_code() guarantees at the call site of make_code_lengths()
     BtPost            what build_tree() leaves in weight[] and V[] (interface between Enc/GenMclBt.v, which proves it,
                       and Enc/GenMclCd.v, which derives from it that compute_depths() and the length assignment
                       loop pass all their asserts) *)
From Coq Require Import List NArith Arith Bool Lia.
From LBZ Require Import Enc.PmModel Enc.PmBasics Enc.PmReal Enc.GenModel.
Import ListNotations.
Local Open Scope N_scope.

Definition fq (w : N) : N := w / U32.                  (* bits 32..63: (sum of) frequencies *)
Definition lo (w : N) : N := w mod U32.                (* bits 0..31 *)
Definition hg (w : N) : N := lo w / 2 ^ 24.            (* bits 24..31: height of the subtree *)
Definition wn (W : list N) (i : nat) : N := nth i W 0.
Definition vn (V : list N) (i : nat) : nat := N.to_nat (nth i V 0).

(* Fibonacci numbers: fib 0 = 0, fib 1 = 1, fib 33 = 3524578 *)
Definition fib_step (p : N * N) : N * N := (snd p, fst p + snd p).
Definition fib (n : N) : N := fst (N.iter n fib_step (0, 1)).

(* sum f <= fib 33 - 1 - MAX_ALPHA_SIZE: then sum max(f_i, 1) < fib 33 and the Huffman tree is at most 30 deep.
   lbzip2 calls make_code_lengths() with sum f = 50 * number of groups <= 900050. *)
Definition MCL_SUM_MAX : N := 3524319.

Definition mcl_input_ok (old f : list N) : Prop :=
  (length f <= length old)%nat /\ (3 <= length f <= 258)%nat /\ lsum f <= MCL_SUM_MAX.

(* state of weight[] / V[] after build_tree(); W0 = the sorted labelled weights *)
Definition BtPost (as_ : nat) (W0 W V : list N) : Prop :=
  length W = as_ /\ length V = as_ /\
  (forall i, (i < as_)%nat -> N.land (wn W i) 65535 = N.land (wn W0 i) 65535) /\
  (forall i, (2 <= i < as_)%nat -> (1 <= vn V i < i)%nat /\ hg (wn W i) + 1 <= hg (wn W (vn V i))) /\
  (forall i, (1 <= i < as_)%nat -> 1 <= hg (wn W i)) /\
  (forall i j, (2 <= i)%nat -> (i <= j)%nat -> (j < as_)%nat -> (vn V i <= vn V j)%nat) /\
  (forall i, (2 <= i)%nat -> (i + 2 < as_)%nat -> (vn V i < vn V (i + 2))%nat) /\
  hg (wn W 1) <= 30.

Lemma mrd_ok id l i : (i < length l)%nat -> mrd id l i = GOk (nth i l 0).
Proof.
  intro H. unfold mrd. destruct (nth_error l i) as [x|] eqn:E.
  - rewrite (nth_error_nth _ _ 0 E). reflexivity.
  - apply nth_error_None in E. lia.
Qed.

Lemma mwr_ok id l i v : (i < length l)%nat -> mwr id l i v = GOk (upd l i v).
Proof. intro H. unfold mwr. destruct (Nat.ltb_spec i (length l)); [reflexivity|lia]. Qed.

Lemma wn_upd W i v e : (i < length W)%nat -> wn (upd W i v) e = if (e =? i)%nat then v else wn W e.
Proof. apply nth_upd. Qed.

Lemma vn_upd V i v e : (i < length V)%nat -> vn (upd V i v) e = if (e =? i)%nat then N.to_nat v else vn V e.
Proof. intro H. unfold vn. rewrite nth_upd by exact H. destruct (e =? i)%nat; reflexivity. Qed.

Lemma fib_pair n : N.iter n fib_step (0, 1) = (fib n, fib (n + 1)).
Proof.
  unfold fib. replace (n + 1) with (N.succ n) by lia. rewrite N.iter_succ.
  destruct (N.iter n fib_step (0, 1)) as [a b]. reflexivity.
Qed.

Lemma fib_SS n : fib (n + 2) = fib n + fib (n + 1).
Proof.
  unfold fib at 1. replace (n + 2) with (N.succ (N.succ n)) by lia. rewrite !N.iter_succ, fib_pair. reflexivity.
Qed.

Lemma fib_0 : fib 0 = 0. Proof. reflexivity. Qed.
Lemma fib_1 : fib 1 = 1. Proof. reflexivity. Qed.
Lemma fib_2 : fib 2 = 1. Proof. reflexivity. Qed.
Lemma fib_33 : fib 33 = 3524578. Proof. reflexivity. Qed.

Lemma fib_mono_S n : fib n <= fib (n + 1).
Proof.
  induction n as [|n IH] using N.peano_ind; [rewrite fib_0; lia|].
  replace (N.succ n + 1) with (n + 2) by lia. rewrite fib_SS. replace (N.succ n) with (n + 1) by lia. lia.
Qed.

Lemma fib_mono a b : a <= b -> fib a <= fib b.
Proof.
  intro H. replace b with (a + (b - a)) by lia. generalize (b - a). intro k.
  induction k as [|k IH] using N.peano_ind; [rewrite N.add_0_r; lia|].
  replace (a + N.succ k) with (a + k + 1) by lia. pose proof (fib_mono_S (a + k)). lia.
Qed.

(* a node of height h and frequency below fib 33 with fib (h + 2) <= frequency has h <= 30 *)
Lemma fib_height_bound h f : fib (h + 2) <= f -> f < fib 33 -> h <= 30.
Proof.
  intros H1 H2. destruct (N.le_gt_cases h 30) as [L|G]; [exact L|].
  pose proof (fib_mono 33 (h + 2) ltac:(lia)). lia.
Qed.
