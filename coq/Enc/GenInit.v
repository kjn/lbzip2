(* Proofs about Enc/GenModel.v: arithmetic/list basics, sym_freq, generate_initial_trees.
   Result: on the symbol frequencies of a vector of 1 <= nm < 2^28 symbols ([NM_LIM]), generate_initial_trees() never
   returns an error value (all its assert()s hold, no read outside code[0][0..as-1], no write outside
   length[t][0..as-1], t < MAX_TREES) and yields MAX_TREES rows of as entries. *)
From Coq Require Import List NArith Arith Bool Lia.
From LBZ Require Import Enc.PmModel Enc.PmBasics Enc.PmReal Enc.GenModel.
Import ListNotations.
Local Open Scope N_scope.

Lemma u32_small x : x < U32 -> u32 x = x.
Proof. intro H. unfold u32. rewrite land_MAX32. apply N.mod_small. exact H. Qed.

Lemma u32_lt x : u32 x < U32.
Proof. unfold u32. rewrite land_MAX32. apply N.mod_lt. discriminate. Qed.

Lemma sub32_exact a b : b <= a -> a < U32 -> sub32 a b = a - b.
Proof.
  intros Hb Ha. unfold sub32, u32. rewrite land_MAX32.
  replace (a + U32 - b) with ((a - b) + 1 * U32) by lia.
  rewrite N.mod_add by discriminate. apply N.mod_small. lia.
Qed.

Lemma U32_val : U32 = 4294967296. Proof. reflexivity. Qed.

Definition nnz (l : list N) : N := lsum (map (fun f => N.min f 1) l).

Lemma nnz_cons f r : nnz (f :: r) = N.min f 1 + nnz r.
Proof. reflexivity. Qed.

Lemma nnz_le_lsum l : nnz l <= lsum l.
Proof. induction l as [|x l IH]; [cbn; lia|]. rewrite nnz_cons. cbn [lsum]. lia. Qed.

Lemma lsum_zero_nnz l : lsum l = 0 -> nnz l = 0.
Proof. pose proof (nnz_le_lsum l). lia. Qed.

Lemma nnz_zero_lsum l : nnz l = 0 -> lsum l = 0.
Proof.
  induction l as [|x l IH]; [reflexivity|]. rewrite nnz_cons. cbn [lsum]. intro H.
  assert (x = 0) by lia. assert (nnz l = 0) by lia. rewrite IH by assumption. lia.
Qed.

Lemma nnz_le_length l : nnz l <= N.of_nat (length l).
Proof. induction l as [|x l IH]; [cbn; lia|]. rewrite nnz_cons. cbn [length]. lia. Qed.

Lemma lsum_repeat0 n : lsum (repeat 0 n) = 0.
Proof. induction n; cbn [repeat lsum]; lia. Qed.

(* skipn k l = f :: r: one more element can be consumed *)
Lemma skipn_cons_step {A} (k : nat) (l : list A) f r d : skipn k l = f :: r ->
  (k < length l)%nat /\ skipn (S k) l = r /\ nth k l d = f /\ firstn (S k) l = firstn k l ++ [f].
Proof.
  revert l. induction k as [|k IH]; intros l H.
  - cbn [skipn] in H. subst l. cbn. repeat split; lia.
  - destruct l as [|x l]; [discriminate|]. cbn [skipn] in H. destruct (IH l H) as [H1 [H2 [H3 H4]]].
    repeat split.
    + cbn [length]. lia.
    + exact H2.
    + exact H3.
    + cbn [firstn app]. f_equal. exact H4.
Qed.

Lemma skipn_nil_len {A} (k : nat) (l : list A) : skipn k l = [] -> (length l <= k)%nat.
Proof.
  revert l. induction k as [|k IH]; intros l H.
  - cbn in H. subst l. cbn. lia.
  - destruct l as [|x l]; [cbn; lia|]. cbn [skipn] in H. apply IH in H. cbn [length]. lia.
Qed.

Lemma bump_ok id l i : (i < length l)%nat ->
  exists l', bump id l i = GOk l' /\ length l' = length l /\ lsum l' = lsum l + 1.
Proof.
  revert i. induction l as [|x l IH]; intros i H; [cbn in H; lia|].
  destruct i as [|j].
  - exists (x + 1 :: l). cbn [bump length lsum]. repeat split; lia.
  - cbn [length] in H. destruct (IH j) as [l' [E [L S]]]; [lia|].
    exists (x :: l'). cbn [bump]. rewrite E. cbn [length lsum]. repeat split; lia.
Qed.

Lemma bump_all_ok id syms : forall row, Forall (fun s => (N.to_nat s < length row)%nat) syms ->
  exists row', bump_all id row syms = GOk row' /\ length row' = length row /\
               lsum row' = lsum row + N.of_nat (length syms).
Proof.
  induction syms as [|s syms IH]; intros row H.
  - exists row. cbn. repeat split; lia.
  - inversion H as [|? ? Hs Hr]; subst.
    destruct (bump_ok id row (N.to_nat s) Hs) as [r1 [E1 [L1 S1]]].
    destruct (IH r1) as [r2 [E2 [L2 S2]]].
    { eapply Forall_impl; [|exact Hr]. cbn beta. intros a Ha. rewrite L1. exact Ha. }
    exists r2. cbn [bump_all gbind]. rewrite E1. cbn [gbind]. rewrite E2. cbn [length].
    repeat split; lia.
Qed.

Lemma sym_freq_ok mtfv as_ : Forall (fun s => (N.to_nat s < as_)%nat) mtfv ->
  exists F, sym_freq mtfv as_ = GOk F /\ length F = as_ /\ lsum F = N.of_nat (length mtfv).
Proof.
  intro H. unfold sym_freq.
  destruct (bump_all_ok 1 mtfv (repeat 0 as_)) as [F [E [L S]]].
  { eapply Forall_impl; [|exact H]. cbn beta. intros a Ha. rewrite repeat_length. exact Ha. }
  exists F. rewrite repeat_length in L. rewrite lsum_repeat0 in S. repeat split; auto.
Qed.

Lemma git_scan_ok F : forall nm cum ase, cum + lsum F = nm -> nm < U32 -> ase + N.of_nat (length F) < U32 ->
  git_scan F nm cum ase = GOk (nm, ase + nnz F).
Proof.
  induction F as [|f r IH]; intros nm cum ase Hs Hnm Hase.
  - cbn [lsum] in Hs. cbn [git_scan]. replace (cum <? nm) with false by (symmetry; apply N.ltb_ge; lia).
    f_equal. f_equal; [lia|cbn; lia].
  - cbn [lsum] in Hs. cbn [length] in Hase. cbn [git_scan]. destruct (N.ltb_spec cum nm) as [Hlt|Hge].
    + rewrite (u32_small (cum + f)) by lia.
      rewrite (u32_small (ase + N.min f 1)) by lia.
      rewrite IH; [|lia|lia|lia]. rewrite nnz_cons. f_equal. f_equal. lia.
    + assert (f = 0) by lia. assert (lsum r = 0) by lia.
      rewrite nnz_cons, (lsum_zero_nnz r) by assumption. subst f. f_equal. f_equal; lia.
Qed.

Definition NM_LIM : N := 268435456.      (* 2^28: 12 * nm stays below 2^32 *)

Lemma ec_grow_spec cur nt nm : lsum cur = nm -> nm < NM_LIM -> 1 <= nt <= 6 ->
  forall rest k, (1 <= k <= length cur)%nat -> rest = skipn k cur -> nt - 1 <= nnz rest ->
  exists k', ec_grow rest nt nm (nnz rest) (lsum (firstn k cur)) (nth (k - 1) cur 0) k
             = GOk (nnz (skipn k' cur), lsum (firstn k' cur), nth (k' - 1) cur 0, k') /\
    (k <= k' <= length cur)%nat /\
    nt - 1 <= nnz (skipn k' cur) /\
    (nnz (skipn k' cur) <= nt - 1 \/ nm <= lsum (firstn k' cur) * nt).
Proof.
  intros Hsum Hnm Hnt. unfold NM_LIM in Hnm.
  induction rest as [|f r IH]; intros k Hk Hrest Hlow.
  - exists k. cbn [ec_grow]. rewrite (sub32_exact nt 1) by (rewrite ?U32_val; lia).
    replace (nt - 1 <? nnz []) with false by (symmetry; apply N.ltb_ge; cbn; lia).
    cbn [andb]. rewrite <- Hrest. repeat split; try lia. left. cbn. lia.
  - symmetry in Hrest. destruct (skipn_cons_step k cur f r 0 Hrest) as [Hkl [Hsk [Hnth Hfn]]].
    pose proof (lsum_firstn_skipn k cur) as Hc. rewrite Hsum, Hrest in Hc.
    pose proof (nnz_le_lsum (f :: r)) as Hnl.
    cbn [ec_grow]. rewrite (sub32_exact nt 1) by (rewrite ?U32_val; lia).
    rewrite (u32_small (lsum (firstn k cur) * nt)) by (rewrite ?U32_val; nia).
    destruct (N.ltb_spec (nt - 1) (nnz (f :: r))) as [Ha|Ha]; cbn [andb].
    + destruct (N.ltb_spec (lsum (firstn k cur) * nt) nm) as [Hb|Hb].
      * (* the loop continues *)
        assert (Hmin : N.min f 1 <= nnz (f :: r)) by (rewrite nnz_cons; lia).
        rewrite (sub32_exact (nnz (f :: r)) (N.min f 1)) by (rewrite ?U32_val; lia).
        cbn [lsum] in Hc.
        rewrite (u32_small (lsum (firstn k cur) + f)) by (rewrite ?U32_val; lia).
        replace (nnz (f :: r) - N.min f 1) with (nnz r) by (rewrite nnz_cons; lia).
        replace (lsum (firstn k cur) + f) with (lsum (firstn (S k) cur))
          by (rewrite Hfn, lsum_app; cbn [lsum]; lia).
        destruct (IH (S k)) as [k' [E [Hk' [Hl' Hx]]]]; [lia|symmetry; exact Hsk| rewrite nnz_cons in Ha; lia|].
        exists k'. split; [replace (nth (S k - 1) cur 0) with f in E by (rewrite <- Hnth; f_equal; lia); exact E|]. repeat split; try lia; assumption.
      * exists k. rewrite Hrest. repeat split; try lia.
    + exists k. rewrite Hrest. repeat split; try lia.
Qed.

Lemma nnz_app a b : nnz (a ++ b) = nnz a + nnz b.
Proof. unfold nnz. rewrite map_app, lsum_app. reflexivity. Qed.

Lemma nnz_firstn_skipn k l : nnz (firstn k l) + nnz (skipn k l) = nnz l.
Proof. rewrite <- nnz_app, firstn_skipn. reflexivity. Qed.

Lemma split_pred {A} (k : nat) (l : list A) d : (1 <= k <= length l)%nat ->
  firstn k l = firstn (k - 1) l ++ [nth (k - 1) l d] /\ skipn (k - 1) l = nth (k - 1) l d :: skipn k l.
Proof.
  intros Hk. destruct k as [|k]; [lia|]. replace (S k - 1)%nat with k by lia.
  destruct (skipn k l) as [|f r] eqn:E.
  - apply skipn_nil_len in E. lia.
  - destruct (skipn_cons_step k l f r d E) as [_ [H2 [H3 H4]]]. rewrite H3, H2, H4. split; reflexivity.
Qed.

(* the choice between b and b-1 made after the growth loop *)
Lemma class_choice cur nt nm ase k' :
  lsum cur = nm -> nnz cur = ase -> nm < NM_LIM -> 1 <= nt <= 6 -> nt <= ase ->
  (1 <= k' <= length cur)%nat ->
  nt - 1 <= nnz (skipn k' cur) ->
  (nnz (skipn k' cur) <= nt - 1 \/ nm <= lsum (firstn k' cur) * nt) ->
  let cum1 := lsum (firstn k' cur) in
  let freq1 := nth (k' - 1) cur 0 in
  let ase1 := nnz (skipn k' cur) in
  let retreat := (freq1 <? cum1) && (u32 (2 * nm) <? u32 (sub32 (u32 (2 * cum1)) freq1 * nt)) in
  exists k2, (if retreat then pred k' else k') = k2 /\ (1 <= k2 <= length cur)%nat /\
    (if retreat then sub32 cum1 freq1 else cum1) = lsum (firstn k2 cur) /\
    (if retreat then u32 (ase1 + N.min freq1 1) else ase1) = nnz (skipn k2 cur) /\
    0 < lsum (firstn k2 cur) /\ nt - 1 <= nnz (skipn k2 cur) /\
    (nt = 1 -> lsum (firstn k2 cur) = nm /\ nnz (skipn k2 cur) = 0).
Proof.
  intros Hsum Hnnz Hnm Hnt Hase Hk Hlow Hexit cum1 freq1 ase1 retreat. unfold NM_LIM in Hnm.
  destruct (split_pred k' cur 0 Hk) as [Hf Hs]. fold freq1 in Hf, Hs.
  pose proof (lsum_firstn_skipn k' cur) as Hc. rewrite Hsum in Hc. fold cum1 in Hc.
  pose proof (nnz_firstn_skipn k' cur) as Hn. rewrite Hnnz in Hn. fold ase1 in Hn, Hlow, Hexit.
  pose proof (nnz_le_lsum (firstn k' cur)) as Hnl. fold cum1 in Hnl, Hexit.
  pose proof (nnz_le_lsum (skipn k' cur)) as Hnl2. fold ase1 in Hnl2.
  assert (Hcf : cum1 = lsum (firstn (k' - 1) cur) + freq1).
  { unfold cum1. rewrite Hf, lsum_app. cbn [lsum]. lia. }
  assert (Hpos : 0 < cum1).
  { destruct Hexit as [He|He]; [lia|]. destruct (N.eq_dec cum1 0) as [Z|Z]; [rewrite Z in He; lia|lia]. }
  assert (Hone : nt = 1 -> cum1 = nm /\ ase1 = 0).
  { intro H1. subst nt. destruct Hexit as [He|He].
    - assert (Z : ase1 = 0) by lia. split; [|exact Z]. apply nnz_zero_lsum in Z. lia.
    - assert (Z : lsum (skipn k' cur) = 0) by lia. split; [lia|]. apply lsum_zero_nnz. exact Z. }
  assert (E1 : u32 (2 * nm) = 2 * nm) by (apply u32_small; rewrite U32_val; lia).
  assert (E2 : u32 (2 * cum1) = 2 * cum1) by (apply u32_small; rewrite U32_val; lia).
  assert (E3 : sub32 (2 * cum1) freq1 = 2 * cum1 - freq1) by (apply sub32_exact; rewrite ?U32_val; lia).
  assert (E4 : u32 ((2 * cum1 - freq1) * nt) = (2 * cum1 - freq1) * nt) by (apply u32_small; rewrite U32_val; nia).
  unfold retreat. rewrite E1, E2, E3, E4.
  destruct (N.ltb_spec freq1 cum1) as [Hlt|Hge]; cbn [andb].
  - destruct (N.ltb_spec (2 * nm) ((2 * cum1 - freq1) * nt)) as [Hr|Hr].
    + (* retreat *)
      assert (Hk2 : (2 <= k')%nat).
      { destruct (Nat.eq_dec k' 1) as [->|]; [|lia]. cbn [Nat.sub firstn lsum] in Hcf. lia. }
      exists (pred k'). replace (pred k') with (k' - 1)%nat by lia.
      split; [reflexivity|]. split; [lia|].
      split; [rewrite sub32_exact by (rewrite ?U32_val; lia); lia|].
      split.
      { rewrite Hs, nnz_cons. rewrite u32_small by (rewrite U32_val; lia). fold ase1. lia. }
      split; [lia|]. split.
      { rewrite Hs, nnz_cons. fold ase1. lia. }
      intro H1. destruct (Hone H1) as [Ha Hb]. subst nt. lia.
    + exists k'. repeat split; try lia; try (apply Hone; assumption).
  - exists k'. repeat split; try lia; try (apply Hone; assumption).
Qed.

Lemma git_classes_ok as_ : forall n cur a nt nm ase,
  nt = N.of_nat n -> (n <= 6)%nat -> lsum cur = nm -> nnz cur = ase -> nm < NM_LIM -> nt <= ase ->
  (a + length cur = as_)%nat ->
  exists cls, git_classes n as_ cur a nt nm ase
              = GOk (cls, match n with O => nm | S _ => 0 end, match n with O => ase | S _ => 0 end) /\
    length cls = n /\ Forall (fun c => (fst c + snd c <= as_)%nat) cls.
Proof.
  induction n as [|n' IH]; intros cur a nt nm ase Hnt Hn6 Hsum Hnnz Hnm Hase Hlen.
  - exists []. cbn [git_classes]. repeat split. constructor.
  - assert (Hnt1 : 1 <= nt <= 6) by lia.
    pose proof (nnz_le_lsum cur) as Hnl.
    cbn [git_classes].
    replace (nm =? 0) with false by (symmetry; apply N.eqb_neq; lia).
    replace (ase <? nt) with false by (symmetry; apply N.ltb_ge; lia).
    destruct cur as [|f0 r0]; [cbn in Hnnz; lia|].
    assert (Hm : N.min f0 1 <= ase) by (rewrite <- Hnnz, nnz_cons; lia).
    assert (Hase32 : ase < U32) by (unfold NM_LIM in Hnm; rewrite U32_val; lia).
    rewrite (sub32_exact ase (N.min f0 1)) by assumption.
    destruct (ec_grow_spec (f0 :: r0) nt nm Hsum Hnm Hnt1 r0 1%nat) as [k' [E [Hk' [Hlow Hexit]]]].
    { cbn [length]. lia. }
    { reflexivity. }
    { rewrite nnz_cons in Hnnz. lia. }
    replace (nnz r0) with (ase - N.min f0 1) in E by (rewrite nnz_cons in Hnnz; lia).
    replace (lsum (firstn 1 (f0 :: r0))) with f0 in E by (cbn; lia).
    change (nth (1 - 1) (f0 :: r0) 0) with f0 in E.
    rewrite E. cbn [gbind].
    assert (Hk'' : (1 <= k' <= length (f0 :: r0))%nat) by lia.
    pose proof (class_choice (f0 :: r0) nt nm ase k' Hsum Hnnz Hnm Hnt1 Hase Hk'' Hlow Hexit) as CC.
    cbv zeta in CC. destruct CC as [k2 [Ek [Hk2 [Ec [Ea [Hpos [Hlo Hone]]]]]]].
    rewrite Ek, Ec, Ea.
    pose proof (lsum_firstn_skipn k2 (f0 :: r0)) as Hc. rewrite Hsum in Hc.
    replace (k2 =? 0)%nat with false by (symmetry; apply Nat.eqb_neq; lia).
    replace (lsum (firstn k2 (f0 :: r0)) =? 0) with false by (symmetry; apply N.eqb_neq; lia).
    replace (nm <? lsum (firstn k2 (f0 :: r0))) with false by (symmetry; apply N.ltb_ge; lia).
    rewrite (sub32_exact nt 1) by (rewrite ?U32_val; lia).
    replace (nnz (skipn k2 (f0 :: r0)) <? nt - 1) with false by (symmetry; apply N.ltb_ge; lia).
    replace (as_ <? a + k2)%nat with false by (symmetry; apply Nat.ltb_ge; lia).
    rewrite (sub32_exact nm) by (unfold NM_LIM in Hnm; rewrite ?U32_val; lia).
    destruct (IH (skipn k2 (f0 :: r0)) (a + k2)%nat (nt - 1) (nm - lsum (firstn k2 (f0 :: r0)))
                 (nnz (skipn k2 (f0 :: r0)))) as [cls [Er [Lc Fc]]]; try lia.
    { rewrite skipn_length. lia. }
    rewrite Er. cbn [gbind].
    exists ((a, k2) :: cls). split.
    + destruct n' as [|n''].
      * assert (H1 : nt = 1) by lia. destruct (Hone H1) as [Hx Hy]. rewrite Hx, Hy.
        rewrite N.sub_diag. reflexivity.
      * reflexivity.
    + split; [cbn [length]; lia|]. constructor; [cbn [fst snd]; lia|exact Fc].
Qed.

Definition lens_shape (as_ : nat) (lens : list (list N)) : Prop :=
  length lens = NTREES /\ Forall (fun row => length row = as_) lens.

Lemma class_row_length as_ c : (fst c + snd c <= as_)%nat -> length (class_row as_ c) = as_.
Proof. intro H. unfold class_row. rewrite !app_length, !repeat_length. lia. Qed.

Lemma init_lengths_shape as_ cls : (length cls <= NTREES)%nat -> Forall (fun c => (fst c + snd c <= as_)%nat) cls ->
  lens_shape as_ (init_lengths as_ cls).
Proof.
  intros Hl Hc. unfold lens_shape, init_lengths. split.
  - rewrite app_length, map_length, repeat_length. lia.
  - apply Forall_app. split.
    + apply Forall_forall. intros row Hin. apply in_map_iff in Hin. destruct Hin as [c [<- Hin]].
      apply class_row_length. rewrite Forall_forall in Hc. apply Hc. exact Hin.
    + apply Forall_forall. intros row Hin. apply repeat_spec in Hin. subst row. apply repeat_length.
Qed.

Theorem generate_initial_trees_ok F as_ nm nt :
  length F = as_ -> lsum F = nm -> 1 <= nm -> nm < NM_LIM -> 1 <= nt <= 6 -> N.of_nat as_ < 2 ^ 31 ->
  exists lens, generate_initial_trees F as_ nm nt = GOk lens /\ lens_shape as_ lens.
Proof.
  intros HL HS H1 Hlim Hnt Has. unfold generate_initial_trees.
  rewrite (git_scan_ok F nm 0 0); [|lia|unfold NM_LIM in Hlim; rewrite U32_val; lia|rewrite HL, U32_val; change (2 ^ 31) with 2147483648 in Has; lia].
  cbn [gbind]. rewrite N.eqb_refl. cbn [negb]. rewrite N.add_0_l.
  assert (Hz : 1 <= nnz F).
  { destruct (N.eq_dec (nnz F) 0) as [Z|Z]; [apply nnz_zero_lsum in Z; lia|lia]. }
  set (nt' := N.min nt (nnz F)).
  destruct (git_classes_ok as_ (N.to_nat nt') F 0%nat nt' nm (nnz F)) as [cls [E [Lc Fc]]]; try (unfold nt'; lia).
  rewrite E. cbn [gbind].
  destruct (N.to_nat nt') as [|k] eqn:Ek; [unfold nt' in Ek; lia|].
  cbn [N.eqb negb].
  replace (NTREES <? length cls)%nat with false
    by (symmetry; apply Nat.ltb_ge; rewrite Lc; change NTREES with 6%nat; unfold nt' in Ek; lia).
  eexists. split; [reflexivity|]. apply init_lengths_shape; [|exact Fc].
  rewrite Lc. change NTREES with 6%nat. unfold nt' in Ek. lia.
Qed.
