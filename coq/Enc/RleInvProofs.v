(* The decoder's run-length expansion [unrle] (Dec/Format.v) inverts the
   encoder-side specification [rle1] (Rle/RleModel.v) on byte strings. *)
From Coq Require Import List NArith Bool Lia.
From LBZ Require Import Dec.Prog Dec.Format Gen.Consts Rle.RleModel.
Import ListNotations.
Local Open Scope N_scope.

(* side conditions on the regenerated constant, discharged by computation;
   everything below uses MAX_RUN_LENGTH only through these two facts *)
Lemma inv_max_run_gt4 : 4 < MAX_RUN_LENGTH.
Proof. reflexivity. Qed.
Lemma inv_max_run_count_is_byte : MAX_RUN_LENGTH - 4 < 256.
Proof. reflexivity. Qed.

Local Opaque MAX_RUN_LENGTH.

(* a forward (head-recursive) characterisation of [runs]: the runs of [repeat c n ++ x] when (c, n) is the run
   being built *)
Fixpoint go (c n : N) (x : list N) : list run :=
  match x with
  | [] => [(c, n)]
  | d :: x' => if (d =? c) && (n <? MAX_RUN_LENGTH) then go c (n + 1) x'
               else (c, n) :: go d 1 x'
  end.

Lemma fold_push_go : forall x c n t,
  rev (fold_left push_byte x ((c, n) :: t)) = rev t ++ go c n x.
Proof.
  induction x as [|d x IH]; intros c n t.
  - reflexivity.
  - cbn [fold_left go push_byte].
    destruct ((d =? c) && (n <? MAX_RUN_LENGTH)).
    + apply IH.
    + rewrite IH. cbn [rev]. rewrite <- app_assoc. reflexivity.
Qed.

Lemma runs_nil : runs [] = [].
Proof. reflexivity. Qed.

Lemma runs_cons d x : runs (d :: x) = go d 1 x.
Proof.
  unfold runs, runs_rev. cbn [fold_left push_byte]. rewrite fold_push_go. reflexivity.
Qed.

Definition hd_ne (p : N) (rs : list run) : Prop :=
  match rs with [] => True | (d, _) :: _ => d <> p end.

(* every run has a byte value and a length in 1..MAX_RUN_LENGTH; a run shorter
   than four is followed by a run of a different byte *)
Fixpoint wf (rs : list run) : Prop :=
  match rs with
  | [] => True
  | (c, n) :: t => c < 256 /\ 1 <= n /\ n <= MAX_RUN_LENGTH /\ (4 <= n \/ hd_ne c t) /\ wf t
  end.

Definition expand (r : run) : list N := let (c, n) := r in repeat c (N.to_nat n).

Lemma go_hd : forall x c n, exists t, go c n x = (c, n) :: t \/
  exists n', go c n x = (c, n') :: t.
Proof.
  induction x as [|d x IH]; intros c n.
  - exists []. left. reflexivity.
  - cbn [go]. destruct ((d =? c) && (n <? MAX_RUN_LENGTH)).
    + destruct (IH c (n + 1)) as (t & [E | (n' & E)]); exists t; right; eauto.
    + exists (go d 1 x). left. reflexivity.
Qed.

Lemma go_wf : forall x c n,
  Forall (fun d => d < 256) x -> c < 256 -> 1 <= n -> n <= MAX_RUN_LENGTH ->
  wf (go c n x).
Proof.
  pose proof inv_max_run_gt4 as HM.
  induction x as [|d x IH]; intros c n HF Hc Hn1 Hn2.
  - cbn [go wf hd_ne]. repeat split; auto.
  - inversion HF as [|? ? Hd HFx]; subst. cbn [go].
    destruct (N.eqb_spec d c) as [E | NE]; destruct (N.ltb_spec n MAX_RUN_LENGTH) as [L | L];
      cbn [andb].
    + apply IH; auto; lia.
    + cbn [wf]. repeat split; auto; [left; lia | apply IH; auto; lia].
    + cbn [wf]. repeat split; auto; [| apply IH; auto; lia].
      right. destruct (go_hd x d 1) as (t & [E | (n' & E)]); rewrite E; exact NE.
    + cbn [wf]. repeat split; auto; [left; lia | apply IH; auto; lia].
Qed.

Lemma go_expand : forall x c n,
  flat_map expand (go c n x) = repeat c (N.to_nat n) ++ x.
Proof.
  induction x as [|d x IH]; intros c n.
  - cbn [go flat_map expand]. reflexivity.
  - cbn [go]. destruct (N.eqb_spec d c) as [E | NE]; cbn [andb].
    + destruct (n <? MAX_RUN_LENGTH).
      * rewrite IH. subst d. rewrite N.add_1_r, N2Nat.inj_succ. cbn [repeat].
        rewrite repeat_cons, <- app_assoc. reflexivity.
      * cbn [flat_map expand]. rewrite IH. reflexivity.
    + cbn [flat_map expand]. rewrite IH. reflexivity.
Qed.

Lemma unrle_lit s prev cnt c r : cnt <> 4 ->
  unrle s prev cnt (c :: r) =
  rbind (unrle s c (if c =? prev then cnt + 1 else 1) r) (fun o => Ok (c :: o)).
Proof.
  intro H. cbn [unrle]. apply N.eqb_neq in H. rewrite H. reflexivity.
Qed.

Lemma unrle_cnt s prev c r :
  unrle s prev 4 (c :: r) =
  rbind (unrle s 256 0 r) (fun o => Ok (repeat prev (N.to_nat c) ++ o)).
Proof. reflexivity. Qed.

Lemma unrle_first s prev cnt c r : cnt <> 4 -> c <> prev ->
  unrle s prev cnt (c :: r) = rbind (unrle s c 1 r) (fun o => Ok (c :: o)).
Proof.
  intros H NE. rewrite unrle_lit by exact H. apply N.eqb_neq in NE. rewrite NE. reflexivity.
Qed.

Lemma unrle_same s cnt c r : cnt <> 4 ->
  unrle s c cnt (c :: r) = rbind (unrle s c (cnt + 1) r) (fun o => Ok (c :: o)).
Proof.
  intros H. rewrite unrle_lit by exact H. rewrite N.eqb_refl. reflexivity.
Qed.

(* k further copies of the byte just seen, as long as the count stays within 4 *)
Lemma unrle_same_run s c r : forall k cnt, cnt + N.of_nat k <= 4 ->
  unrle s c cnt (repeat c k ++ r) = rbind (unrle s c (cnt + N.of_nat k) r) (fun o => Ok (repeat c k ++ o)).
Proof.
  induction k as [|k IH]; intros cnt H.
  - cbn [repeat app N.of_nat]. rewrite N.add_0_r. destruct (unrle s c cnt r); reflexivity.
  - cbn [repeat app]. rewrite unrle_same, IH by lia.
    replace (cnt + 1 + N.of_nat k) with (cnt + N.of_nat (S k)) by lia.
    destruct (unrle s c (cnt + N.of_nat (S k)) r); reflexivity.
Qed.

Lemma emit_run_eq c n :
  emit_run (c, n) = if n <? 4 then repeat c (N.to_nat n) else [c; c; c; c; n - 4].
Proof. reflexivity. Qed.

Lemma unrle_runs : forall rs prev cnt,
  wf rs -> cnt < 4 -> hd_ne prev rs ->
  unrle true prev cnt (flat_map emit_run rs) = Ok (flat_map expand rs).
Proof.
  induction rs as [|[c n] t IH]; intros prev cnt W Hc HN.
  - cbn [flat_map unrle]. replace (cnt =? 4) with false by (symmetry; apply N.eqb_neq; lia).
    reflexivity.
  - cbn [wf] in W. destruct W as (Hb & Hn1 & Hn2 & Hnext & Wt). cbn [hd_ne] in HN.
    cbn [flat_map expand]. rewrite emit_run_eq.
    destruct (N.ltb_spec n 4) as [L | L].
    + (* literal run of 1..3 bytes; the next run has a different byte *)
      destruct Hnext as [? | Hnext]; [lia|].
      replace (N.to_nat n) with (S (N.to_nat (n - 1))) by lia. cbn [repeat app].
      rewrite unrle_first, unrle_same_run by (auto; lia).
      rewrite (IH c _ Wt) by (auto; lia). reflexivity.
    + (* four copies and a count; the decoder restarts with no previous byte *)
      change ([c; c; c; c; n - 4] ++ flat_map emit_run t) with (c :: repeat c 3 ++ (n - 4) :: flat_map emit_run t).
      rewrite unrle_first, unrle_same_run by (auto; cbn; lia). change (1 + N.of_nat 3) with 4.
      rewrite unrle_cnt.
      assert (HN' : hd_ne 256 t).
      { destruct t as [|[d m] t']; cbn [hd_ne]; [exact I|].
        cbn [wf] in Wt. destruct Wt as (Hd & _). lia. }
      rewrite (IH 256 0 Wt) by (auto; lia). cbn [rbind].
      replace (N.to_nat n) with (4 + N.to_nat (n - 4))%nat by lia.
      cbn [repeat Nat.add app]. reflexivity.
Qed.

Theorem unrle_rle1 : forall (x : list N),
  Forall (fun c => (c < 256)%N) x ->
  unrle true 256 0 (rle1 x) = Ok x.
Proof.
  intros x HF. unfold rle1. destruct x as [|d x].
  - reflexivity.
  - inversion HF as [|? ? Hd HFx]; subst. rewrite runs_cons.
    pose proof inv_max_run_gt4 as HM.
    assert (W : wf (go d 1 x)) by (apply go_wf; auto; lia).
    assert (HN : hd_ne 256 (go d 1 x)).
    { destruct (go_hd x d 1) as (t & [E | (n' & E)]); rewrite E; cbn [hd_ne]; lia. }
    rewrite (unrle_runs _ 256 0 W) by (auto; lia).
    rewrite go_expand. reflexivity.
Qed.

Lemma emit_run_bytes c n : c < 256 -> n <= MAX_RUN_LENGTH ->
  Forall (fun c => c < 256) (emit_run (c, n)).
Proof.
  intros Hc Hn. pose proof inv_max_run_count_is_byte as HB. unfold emit_run.
  destruct (n <? 4).
  - apply Forall_forall. intros y Hy. apply repeat_spec in Hy. subst. exact Hc.
  - repeat constructor; try exact Hc. lia.
Qed.

Lemma wf_out_bytes : forall rs, wf rs -> Forall (fun c => c < 256) (flat_map emit_run rs).
Proof.
  induction rs as [|[c n] t IH]; intro W.
  - constructor.
  - cbn [wf] in W. destruct W as (Hb & Hn1 & Hn2 & _ & Wt). cbn [flat_map].
    apply Forall_app. split; [apply emit_run_bytes; auto | apply IH; exact Wt].
Qed.

Lemma rle1_bytes : forall x,
  Forall (fun c => (c < 256)%N) x -> Forall (fun c => (c < 256)%N) (rle1 x).
Proof.
  intros x HF. unfold rle1. destruct x as [|d x].
  - constructor.
  - inversion HF as [|? ? Hd HFx]; subst. rewrite runs_cons.
    pose proof inv_max_run_gt4 as HM.
    apply wf_out_bytes. apply go_wf; auto; lia.
Qed.

Lemma emit_run_nonempty c n : 1 <= n -> emit_run (c, n) <> [].
Proof.
  intro Hn. unfold emit_run. destruct (n <? 4); [|discriminate].
  destruct (N.to_nat n) as [|k] eqn:E; [lia|]. discriminate.
Qed.

Lemma go_out_nonempty : forall x c n, 1 <= n -> flat_map emit_run (go c n x) <> [].
Proof.
  induction x as [|d x IH]; intros c n Hn.
  - cbn [go flat_map]. rewrite app_nil_r. apply emit_run_nonempty. exact Hn.
  - cbn [go]. destruct ((d =? c) && (n <? MAX_RUN_LENGTH)).
    + apply IH. lia.
    + cbn [flat_map]. intro E. apply app_eq_nil in E. destruct E as (E & _).
      revert E. apply emit_run_nonempty. exact Hn.
Qed.

Lemma rle1_nonempty : forall x, x <> [] -> rle1 x <> [].
Proof.
  intros x Hx. destruct x as [|d x]; [congruence|].
  unfold rle1. rewrite runs_cons. apply go_out_nonempty. lia.
Qed.

(* sanity checks: runs of 3, 4, 5, 259, 260, 518, and a count byte equal to the
   byte of the run that follows it *)
Goal rle1 [7;7;7;9] = [7;7;7;9]. Proof. vm_compute. reflexivity. Qed.
Goal rle1 [7;7;7;7;9] = [7;7;7;7;0;9]. Proof. vm_compute. reflexivity. Qed.
Goal rle1 [1;1;1;1;1] = [1;1;1;1;1]. Proof. vm_compute. reflexivity. Qed.
Goal rle1 (repeat 5 259) = [5;5;5;5;255]. Proof. vm_compute. reflexivity. Qed.
Goal rle1 (repeat 5 260) = [5;5;5;5;255;5]. Proof. vm_compute. reflexivity. Qed.
Goal rle1 (repeat 5 518) = [5;5;5;5;255;5;5;5;5;255]. Proof. vm_compute. reflexivity. Qed.
Goal unrle true 256 0 (rle1 (repeat 5 518 ++ repeat 255 7 ++ [3;3;3;3;3;3;3;3;3;3;3]))
   = Ok (repeat 5 518 ++ repeat 255 7 ++ [3;3;3;3;3;3;3;3;3;3;3]).
Proof. vm_compute. reflexivity. Qed.

Print Assumptions unrle_rle1.
Print Assumptions rle1_bytes.
Print Assumptions rle1_nonempty.
