(* Canonical prefix codes: what the encoder model writes for a symbol
   ([sym_bits]) is read back by the decoder model ([decode_sym]) as that
   symbol, consuming exactly those bits.  Only "lengths in 1..20" and
   "Kraft sum <= full" are used (see [sym_roundtrip_le]); completeness of the
   code is not needed for this direction. *)
From Coq Require Import List NArith Arith Bool Lia.
From LBZ Require Import Common.Bits Dec.Prog Dec.Sim Dec.Format Enc.EncModel.
Import ListNotations.
Local Open Scope N_scope.

Definition cnt (lens : list N) (j : nat) : N := count_len lens (N.of_nat j).

(* FF lens n = first code of length n+1 *)
Definition FF (lens : list N) (n : nat) : N :=
  fold_left (fun acc k => 2 * (acc + count_len lens k)) (map N.of_nat (seq 1 n)) 0.

Lemma FF_S lens n : FF lens (S n) = 2 * (FF lens n + cnt lens (S n)).
Proof. unfold FF. rewrite seq_S, map_app, fold_left_app. reflexivity. Qed.

Lemma FF_mono lens k j : 2 ^ N.of_nat j * FF lens k <= FF lens (k + j).
Proof.
  induction j as [|j IH].
  - rewrite Nat.add_0_r. cbn [N.of_nat]. rewrite N.pow_0_r. lia.
  - rewrite Nat.add_succ_r, FF_S, Nat2N.inj_succ, N.pow_succ_r'.
    rewrite <- N.mul_assoc. lia.
Qed.

(* weighted number of codes of length <= n, in units of 2^-n *)
Fixpoint W (lens : list N) (n : nat) : N :=
  match lens with
  | [] => 0
  | x :: r => (if (1 <=? x) && (x <=? N.of_nat n) then 2 ^ (N.of_nat n - x) else 0) + W r n
  end.

Lemma count_len_cons x r l :
  count_len (x :: r) l = (if N.eqb l x then 1 else 0) + count_len r l.
Proof. unfold count_len. cbn [filter]. destruct (N.eqb l x); cbn [length]; lia. Qed.

Lemma W_0 lens : W lens 0 = 0.
Proof.
  induction lens as [|x r IH]; [reflexivity|]. cbn [W]. rewrite IH.
  destruct (N.leb_spec 1 x) as [H1|H1]; cbn [andb]; [|reflexivity].
  destruct (N.leb_spec x (N.of_nat 0)) as [H2|H2]; [|reflexivity].
  cbn [N.of_nat] in H2. lia.
Qed.

Lemma W_S lens n : W lens (S n) = 2 * W lens n + cnt lens (S n).
Proof.
  induction lens as [|x r IH]; [reflexivity|].
  unfold cnt in *. cbn [W]. rewrite count_len_cons, IH.
  destruct (N.leb_spec 1 x) as [H1|H1]; cbn [andb].
  - destruct (N.leb_spec x (N.of_nat n)) as [H2|H2].
    + assert (E1 : x <=? N.of_nat (S n) = true) by (apply N.leb_le; lia). rewrite E1.
      assert (E2 : N.of_nat (S n) =? x = false) by (apply N.eqb_neq; lia). rewrite E2.
      replace (N.of_nat (S n) - x) with (N.succ (N.of_nat n - x)) by lia.
      rewrite N.pow_succ_r'. lia.
    + destruct (N.eqb_spec (N.of_nat (S n)) x) as [E|E].
      * subst x. rewrite N.leb_refl, N.sub_diag, N.pow_0_r. lia.
      * assert (E1 : x <=? N.of_nat (S n) = false) by (apply N.leb_gt; lia). rewrite E1. lia.
  - assert (E2 : N.of_nat (S n) =? x = false) by (apply N.eqb_neq; lia). rewrite E2. lia.
Qed.

Lemma FF_W lens n : FF lens n = 2 * W lens n.
Proof.
  induction n as [|n IH]; [rewrite W_0; reflexivity|].
  rewrite FF_S, W_S, IH. lia.
Qed.

Fixpoint ksum (lens : list N) : N :=
  match lens with [] => 0 | x :: r => N.shiftl 1 (20 - x) + ksum r end.

Lemma kraft_ksum lens : kraft lens = ksum lens.
Proof.
  unfold kraft.
  assert (G : forall a, fold_left (fun acc l => acc + N.shiftl 1 (20 - l)) lens a = a + ksum lens).
  { induction lens as [|x r IH]; intros a; cbn [fold_left ksum]; [lia|]. rewrite IH. lia. }
  rewrite G. lia.
Qed.

Lemma W_ksum lens n : (n <= 20)%nat -> W lens n * 2 ^ (20 - N.of_nat n) <= ksum lens.
Proof.
  intros Hn. induction lens as [|x r IH]; cbn [W ksum]; [lia|].
  rewrite N.mul_add_distr_r, N.shiftl_1_l.
  destruct (N.leb_spec 1 x) as [H1|H1]; cbn [andb]; [|lia].
  destruct (N.leb_spec x (N.of_nat n)) as [H2|H2]; [|lia].
  rewrite <- N.pow_add_r. replace (N.of_nat n - x + (20 - N.of_nat n)) with (20 - x) by lia. lia.
Qed.

(* no over-subscription up to length n: first_n + count_n <= 2^n *)
Lemma W_bound lens n : (n <= 20)%nat -> kraft lens <= kraft_full -> W lens n <= 2 ^ N.of_nat n.
Proof.
  intros Hn HK. pose proof (W_ksum lens n Hn) as H. rewrite <- kraft_ksum in H.
  unfold kraft_full in HK. rewrite N.shiftl_1_l in HK.
  assert (E : 2 ^ 20 = 2 ^ N.of_nat n * 2 ^ (20 - N.of_nat n)).
  { rewrite <- N.pow_add_r. f_equal. lia. }
  rewrite E in HK.
  assert (P : 0 < 2 ^ (20 - N.of_nat n)) by (apply N.neq_0_lt_0, N.pow_nonzero; discriminate).
  apply N.mul_le_mono_pos_r with (p := 2 ^ (20 - N.of_nat n)); [exact P|]. lia.
Qed.

Lemma filter_combine_length (f : N -> bool) (lens : list N) : forall a,
  length (filter (fun p : nat * N => f (snd p)) (combine (seq a (length lens)) lens)) = length (filter f lens).
Proof.
  induction lens as [|x r IH]; intros a; [reflexivity|].
  cbn [length seq combine filter snd]. destruct (f x); cbn [length]; rewrite IH; reflexivity.
Qed.

Lemma syms_of_len_length lens l : N.of_nat (length (syms_of_len lens l)) = count_len lens l.
Proof. unfold syms_of_len, count_len. rewrite map_length, filter_combine_length. reflexivity. Qed.

Definition IDX (lens : list N) (k : nat) : N :=
  N.of_nat (length (flat_map (syms_of_len lens) (map N.of_nat (seq 1 k)))).

Lemma IDX_S lens k : IDX lens (S k) = IDX lens k + cnt lens (S k).
Proof.
  unfold IDX, cnt. rewrite seq_S, map_app, flat_map_app, app_length.
  cbn [map flat_map]. rewrite app_nil_r, Nat2N.inj_add, syms_of_len_length. reflexivity.
Qed.

Lemma nth_syms (lens : list N) : forall a s l, (s < length lens)%nat -> nth s lens 0 = l ->
  nth (length (filter (N.eqb l) (firstn s lens)))
      (map (fun p : nat * N => N.of_nat (fst p))
           (filter (fun p : nat * N => N.eqb l (snd p)) (combine (seq a (length lens)) lens))) 0
  = N.of_nat (a + s).
Proof.
  induction lens as [|x r IH]; intros a s l Hs Hl; [cbn [length] in Hs; lia|].
  destruct s as [|s].
  - cbn [nth] in Hl. subst x. cbn [firstn filter length seq combine snd].
    rewrite N.eqb_refl. cbn [map nth fst]. rewrite Nat.add_0_r. reflexivity.
  - cbn [nth] in Hl. cbn [length] in Hs.
    cbn [firstn filter length seq combine snd].
    replace (a + S s)%nat with (S a + s)%nat by lia.
    destruct (N.eqb l x); cbn [length map nth]; apply IH; try lia; exact Hl.
Qed.

Lemma rank_lt (f : N -> bool) (lens : list N) : forall s, (s < length lens)%nat ->
  f (nth s lens 0) = true ->
  (length (filter f (firstn s lens)) < length (filter f lens))%nat.
Proof.
  induction lens as [|x r IH]; intros s Hs Hf; [cbn [length] in Hs; lia|].
  destruct s as [|s].
  - cbn [nth] in Hf. cbn [firstn filter]. rewrite Hf. cbn [length]. lia.
  - cbn [nth] in Hf. cbn [length] in Hs. cbn [firstn filter].
    assert (H := IH s ltac:(lia) Hf).
    destruct (f x); cbn [length]; lia.
Qed.

Lemma seq_split ln : (1 <= ln <= 20)%nat ->
  seq 1 20 = seq 1 (ln - 1) ++ [ln] ++ seq (S ln) (20 - ln).
Proof.
  intros H. transitivity (seq 1 ((ln - 1) + S (20 - ln))); [f_equal; lia|].
  rewrite seq_app. cbn [seq app]. replace (1 + (ln - 1))%nat with ln by lia. reflexivity.
Qed.

Lemma sorted_nth lens s : (s < length lens)%nat ->
  let l := nth s lens 0 in
  (1 <= N.to_nat l <= 20)%nat ->
  nth (N.to_nat (IDX lens (N.to_nat l - 1) + N.of_nat (length (filter (N.eqb l) (firstn s lens)))))
      (sorted_syms lens) 0 = N.of_nat s.
Proof.
  intros Hs l Hl. unfold sorted_syms, len_range, max_len, IDX.
  rewrite (seq_split (N.to_nat l) Hl), !map_app, !flat_map_app.
  rewrite <- Nat2N.inj_add, Nat2N.id, app_nth2_plus.
  cbn [map flat_map]. rewrite app_nil_r, N2Nat.id.
  rewrite app_nth1.
  - unfold syms_of_len. apply (nth_syms lens 0%nat s l Hs eq_refl).
  - pose proof (syms_of_len_length lens l) as E. unfold count_len in E.
    pose proof (rank_lt (N.eqb l) lens s Hs (N.eqb_refl _)) as R. lia.
Qed.

Lemma shiftr_step C m :
  N.shiftr C (N.of_nat m) =
  2 * N.shiftr C (N.of_nat (S m)) + (if N.testbit C (N.of_nat m) then 1 else 0).
Proof.
  rewrite Nat2N.inj_succ, <- N.add_1_r, <- N.shiftr_shiftr, <- N.div2_spec.
  set (D := N.shiftr C (N.of_nat m)).
  assert (E : N.testbit C (N.of_nat m) = N.odd D).
  { unfold D. rewrite <- N.bit0_odd, N.shiftr_spec'. reflexivity. }
  rewrite E. rewrite (N.div2_odd D) at 1. destruct (N.odd D); reflexivity.
Qed.

Lemma dsym_run lens sorted C ln rest :
  (ln <= 20)%nat ->
  FF lens (ln - 1) <= C < FF lens (ln - 1) + cnt lens ln ->
  forall m k, (k + m = ln)%nat -> (1 <= m)%nat ->
  run (dsym (map (cnt lens) (seq (S k) (20 - k))) sorted
            (2 * N.shiftr C (N.of_nat m)) (FF lens k) (IDX lens k))
      (bits_msb m C ++ rest)
  = Ok (nth (N.to_nat (IDX lens (ln - 1) + (C - FF lens (ln - 1)))) sorted 0, rest).
Proof.
  intros Hln HC. induction m as [|m IH]; intros k Hk Hm; [lia|].
  replace (20 - k)%nat with (S (19 - k)) by lia.
  cbn [seq map dsym bits_msb app run].
  rewrite <- shiftr_step.
  destruct m as [|m'].
  - cbn [N.of_nat]. rewrite N.shiftr_0_r.
    replace (ln - 1)%nat with k in * by lia. replace ln with (S k) in HC by lia.
    assert (E : C <? FF lens k + cnt lens (S k) = true) by (apply N.ltb_lt; lia).
    rewrite E. cbn [run bits_msb app]. reflexivity.
  - assert (E : N.shiftr C (N.of_nat (S m')) <? FF lens k + cnt lens (S k) = false).
    { apply N.ltb_ge. rewrite N.shiftr_div_pow2.
      apply N.div_le_lower_bound; [apply N.pow_nonzero; discriminate|].
      pose proof (FF_mono lens (S k) m') as M.
      replace (S k + m')%nat with (ln - 1)%nat in M by lia.
      rewrite FF_S in M. rewrite Nat2N.inj_succ, N.pow_succ_r'.
      rewrite N.mul_assoc, (N.mul_comm (2 ^ N.of_nat m') 2) in M. lia. }
    rewrite E.
    replace (2 * (FF lens k + cnt lens (S k))) with (FF lens (S k)) by (rewrite FF_S; reflexivity).
    rewrite <- IDX_S.
    replace (19 - k)%nat with (20 - S k)%nat by lia.
    apply IH; lia.
Qed.

Lemma counts_cnt lens : counts lens = map (cnt lens) (seq 1 20).
Proof. unfold counts, len_range, max_len. rewrite map_map. reflexivity. Qed.

Theorem sym_roundtrip_le : forall (lens : list N) (s : N) (rest : list bool),
  forallb (fun l => (1 <=? l) && (l <=? 20)) lens = true -> kraft lens <= kraft_full ->
  (N.to_nat s < length lens)%nat ->
  run (decode_sym lens) (sym_bits lens s ++ rest) = Ok (s, rest).
Proof.
  intros lens s rest Hr HK Hs.
  set (sn := N.to_nat s) in *.
  set (l := nth sn lens 0).
  assert (Hl : 1 <= l <= 20).
  { rewrite forallb_forall in Hr. specialize (Hr l (nth_In lens 0 Hs)).
    apply andb_true_iff in Hr as [A B]. apply N.leb_le in A, B. lia. }
  set (ln := N.to_nat l).
  assert (Hln : (1 <= ln <= 20)%nat) by (unfold ln; lia).
  set (rk := N.of_nat (length (filter (N.eqb l) (firstn sn lens)))).
  assert (Hrk : rk < cnt lens ln).
  { unfold rk, cnt, ln. rewrite N2Nat.id. unfold count_len.
    pose proof (rank_lt (N.eqb l) lens sn Hs (N.eqb_refl _)) as R. lia. }
  assert (EC : code_of lens sn = FF lens (ln - 1) + rk) by reflexivity.
  set (C := code_of lens sn) in *.
  assert (HC2 : C < 2 ^ N.of_nat ln).
  { pose proof (W_bound lens ln ltac:(lia) HK) as B.
    replace ln with (S (ln - 1)) in B at 1 by lia. rewrite W_S in B.
    replace (S (ln - 1)) with ln in B by lia.
    rewrite FF_W in EC. lia. }
  unfold decode_sym, sym_bits. fold sn. fold l. fold ln. fold C.
  rewrite counts_cnt.
  pose proof (dsym_run lens (sorted_syms lens) C ln rest ltac:(lia) ltac:(lia) ln 0%nat
                ltac:(lia) ltac:(lia)) as R.
  assert (Z : N.shiftr C (N.of_nat ln) = 0).
  { rewrite N.shiftr_div_pow2. apply N.div_small. exact HC2. }
  rewrite Z in R. cbn [N.mul] in R.
  change (FF lens 0) with 0 in R. change (IDX lens 0) with 0 in R.
  change (20 - 0)%nat with 20%nat in R.
  rewrite R. f_equal. f_equal.
  replace (C - FF lens (ln - 1)) with rk by lia.
  unfold rk, ln, l. rewrite sorted_nth; [apply N2Nat.id|exact Hs|exact Hln].
Qed.

Theorem sym_roundtrip : forall (alpha : nat) (lens : list N) (s : N) (rest : list bool),
  table_ok alpha lens = true -> (N.to_nat s < alpha)%nat ->
  run (decode_sym lens) (sym_bits lens s ++ rest) = Ok (s, rest).
Proof.
  intros alpha lens s rest Hok Hs. unfold table_ok in Hok.
  apply andb_true_iff in Hok as [Hok HK]. apply andb_true_iff in Hok as [HL HR].
  apply Nat.eqb_eq in HL. apply N.eqb_eq in HK.
  apply sym_roundtrip_le; [exact HR|lia|lia].
Qed.

Lemma syms_roundtrip : forall alpha lens syms rest,
  table_ok alpha lens = true -> Forall (fun s => (N.to_nat s < alpha)%nat) syms ->
  run (repeat_prog (length syms) (decode_sym lens)) (flat_map (sym_bits lens) syms ++ rest)
  = Ok (syms, rest).
Proof.
  intros alpha lens syms rest Hok. induction syms as [|a r IH]; intros HF; [reflexivity|].
  inversion HF as [|? ? Ha Hr]; subst.
  cbn [length repeat_prog flat_map]. rewrite <- app_assoc, run_bind.
  rewrite (sym_roundtrip alpha lens a _ Hok Ha), run_bind, (IH Hr). reflexivity.
Qed.

(* a group that ends with the end-of-block symbol before its size limit *)
Lemma read_group_eob : forall alpha lens eob syms rest n,
  table_ok alpha lens = true -> (N.to_nat eob < alpha)%nat ->
  Forall (fun s => (N.to_nat s < alpha)%nat) syms -> Forall (fun s => s <> eob) syms ->
  (length syms < n)%nat ->
  run (read_group lens eob n) (flat_map (sym_bits lens) (syms ++ [eob]) ++ rest)
  = Ok ((syms, true), rest).
Proof.
  intros alpha lens eob syms rest n Hok He. revert n.
  induction syms as [|a r IH]; intros n HF HN Hn.
  - destruct n as [|n]; [cbn [length] in Hn; lia|].
    cbn [app flat_map read_group]. rewrite app_nil_r, run_bind.
    rewrite (sym_roundtrip alpha lens eob _ Hok He), N.eqb_refl. reflexivity.
  - destruct n as [|n]; [cbn [length] in Hn; lia|].
    inversion HF as [|? ? Ha Hr]; subst. inversion HN as [|? ? Na Nr]; subst.
    cbn [length] in Hn.
    cbn [app flat_map read_group]. rewrite <- app_assoc, run_bind.
    rewrite (sym_roundtrip alpha lens a _ Hok Ha).
    apply N.eqb_neq in Na. rewrite Na, run_bind.
    rewrite (IH n Hr Nr ltac:(lia)). reflexivity.
Qed.

(* a full group: exactly n symbols, none of them end-of-block *)
Lemma read_group_full : forall alpha lens eob syms rest,
  table_ok alpha lens = true ->
  Forall (fun s => (N.to_nat s < alpha)%nat) syms -> Forall (fun s => s <> eob) syms ->
  run (read_group lens eob (length syms)) (flat_map (sym_bits lens) syms ++ rest)
  = Ok ((syms, false), rest).
Proof.
  intros alpha lens eob syms rest Hok.
  induction syms as [|a r IH]; intros HF HN; [reflexivity|].
  inversion HF as [|? ? Ha Hr]; subst. inversion HN as [|? ? Na Nr]; subst.
  cbn [length flat_map read_group]. rewrite <- app_assoc, run_bind.
  rewrite (sym_roundtrip alpha lens a _ Hok Ha).
  apply N.eqb_neq in Na. rewrite Na, run_bind.
  rewrite (IH Hr Nr). reflexivity.
Qed.

Print Assumptions sym_roundtrip.
Print Assumptions syms_roundtrip.
Print Assumptions read_group_eob.
Print Assumptions read_group_full.
