(* Round trip of a whole block: what transmit() writes (EncModel.write_body) is
   read back by the strict-format block reader as EncModel.raw_of, and that raw
   block decodes to the original (pre run-length) bytes.  Pure assembly of the
   field-level lemmas of HuffProofs, MtfProofs, LayoutA, LayoutB, RleInvProofs
   and BwtProofs. *)
From Coq Require Import List NArith Arith Bool Lia ZifyNat.
From LBZ Require Rle.RleModel.
From LBZ Require Import Dec.Prog Dec.Sim Dec.Format Dec.Policies Gen.DecTabs Enc.EncModel Enc.EncFacts Enc.HuffProofs
  Enc.MtfProofs Enc.LayoutA Enc.LayoutB Enc.RleInvProofs Enc.BwtProofs.
Import ListNotations.

(* a regenerated constant, re-checked by computation *)
Lemma sel_clamp_value_eq : sel_clamp_value = 18001%N.
Proof. reflexivity. Qed.

Lemma bwt_last_length blk : length (bwt_last blk) = length blk.
Proof. unfold bwt_last. rewrite map_length. apply sorted_rots_length. Qed.

Lemma bwt_last_In blk c : In c (bwt_last blk) -> In c blk.
Proof.
  unfold bwt_last. intro H. apply in_map_iff in H. destruct H as [r [<- Hr]].
  destruct (sorted_rots_row blk r Hr) as [Hl Hin]. apply Hin.
  apply (last_In r). intros ->. cbn [length] in Hl.
  assert (Hs : length (sorted_rots blk) = length blk) by apply sorted_rots_length.
  destruct (sorted_rots blk); [destruct Hr|]. rewrite <- Hl in Hs. discriminate.
Qed.

Lemma bwt_last_bytes blk : Forall (fun c => (c < 256)%N) blk -> Forall (fun c => (c < 256)%N) (bwt_last blk).
Proof. intro H. apply Forall_forall. intros c Hc. rewrite Forall_forall in H. apply H, bwt_last_In, Hc. Qed.

Lemma used_nonempty blk : blk <> [] -> (1 <= length (used_bytes (bwt_last blk)))%nat.
Proof.
  intro H. apply used_bytes_nonempty. intro E. apply H. apply length_zero_iff_nil.
  rewrite <- bwt_last_length, E. reflexivity.
Qed.

Lemma valid_idx_lt blk i : valid_idx blk i -> (N.to_nat i < length blk)%nat.
Proof.
  unfold valid_idx. intro H. rewrite <- (sorted_rots_length blk). apply nth_error_Some. rewrite H. discriminate.
Qed.

Lemma chunks50_nil {A} f : @chunks50 A f [] = [].
Proof. destruct f; reflexivity. Qed.

Lemma complete_only_ok alpha lens : table_ok alpha lens = true -> complete_only lens = Ok tt.
Proof.
  unfold table_ok, complete_only. intro H. apply andb_true_iff in H as [_ H]. rewrite H. reflexivity.
Qed.

Lemma read_groups_run tables alpha eob :
  (N.to_nat eob < alpha)%nat ->
  Forall (fun t => table_ok alpha t = true) tables ->
  forall f syms sels extra rest,
  (length syms < f)%nat ->
  Forall (fun s => (s < eob)%N) syms ->
  length sels = ((length syms + 1 + 49) / 50)%nat ->
  Forall (fun s => (N.to_nat s < length tables)%nat) sels ->
  run (read_groups ref_noexc_policy tables eob (sels ++ extra))
      (flat_map (fun p => flat_map (sym_bits (nth (N.to_nat (fst p)) tables [])) (snd p))
                (combine sels (chunks50 f (syms ++ [eob]))) ++ rest)
  = Ok (syms, rest).
Proof.
  intros Heob Htabs. induction f as [|f IH]; intros syms sels extra rest Hf Hsy Hlen Hsel; [lia|].
  assert (Hne : syms ++ [eob] <> []) by (destruct syms; discriminate).
  cbn [chunks50]. destruct (syms ++ [eob]) as [|h0 t0] eqn:E; [congruence|]. rewrite <- E. clear h0 t0 E Hne.
  assert (Hlt : Forall (fun s => (N.to_nat s < alpha)%nat) syms).
  { eapply Forall_impl; [|exact Hsy]. cbv beta. intros a Ha. lia. }
  assert (Hneq : Forall (fun s => s <> eob) syms).
  { eapply Forall_impl; [|exact Hsy]. cbv beta. intros a Ha. lia. }
  destruct sels as [|t sels']; [cbn [length] in Hlen; lia|].
  inversion Hsel as [|? ? Ht Hsel']; subst.
  assert (Hok : table_ok alpha (nth (N.to_nat t) tables []) = true).
  { rewrite Forall_forall in Htabs. apply Htabs. apply nth_In. exact Ht. }
  cbn [app combine flat_map fst snd read_groups]. change (table_check ref_noexc_policy) with complete_only.
  rewrite (complete_only_ok alpha _ Hok), <- app_assoc, run_bind. unfold group_size.
  destruct (Nat.lt_ge_cases (length syms) 50) as [Hs|Hs].
  - (* the final group *)
    assert (sels' = []) by (destruct sels'; [reflexivity|cbn [length] in Hlen; lia]). subst sels'.
    rewrite firstn_all2 by (rewrite app_length; cbn [length]; lia).
    rewrite skipn_all2 by (rewrite app_length; cbn [length]; lia).
    rewrite chunks50_nil. cbn [combine flat_map app].
    rewrite (read_group_eob alpha _ eob syms rest 50 Hok Heob Hlt Hneq Hs). reflexivity.
  - (* a full group, more follow *)
    rewrite firstn_app, skipn_app.
    replace (50 - length syms)%nat with 0%nat by lia.
    change (firstn 0 [eob]) with (@nil N). change (skipn 0 [eob]) with [eob]. rewrite app_nil_r.
    assert (L50 : length (firstn 50 syms) = 50%nat) by (rewrite firstn_length; lia).
    rewrite <- (firstn_skipn 50 syms) in Hsy, Hlt, Hneq. apply Forall_app in Hsy, Hlt, Hneq.
    rewrite <- L50 at 1. rewrite (read_group_full alpha) by (exact Hok || tauto).
    cbn [snd fst]. rewrite run_bind, (IH (skipn 50 syms) sels' extra rest).
    + rewrite firstn_skipn. reflexivity.
    + rewrite skipn_length. lia.
    + tauto.
    + cbn [length] in Hlen. rewrite skipn_length. lia.
    + exact Hsel'.
Qed.

Lemma tables_read fuel alpha pad : (64 <= fuel)%nat -> (pad <= 3)%N -> (1 <= alpha)%nat ->
  forall tables k rest, Forall (fun t => table_ok alpha t = true) tables ->
  run (repeat_prog (length tables) (read_table ref_noexc_policy fuel alpha))
      (flat_map (fun p => write_table (if (fst p =? 0)%N then pad else 0%N) (snd p))
         (combine (map N.of_nat (seq k (length tables))) tables) ++ rest) = Ok (tables, rest).
Proof.
  intros Hf Hpad Ha. induction tables as [|t r IH]; intros k rest Hall; [reflexivity|].
  inversion Hall as [|? ? Ht Hr]; subst.
  destruct (table_ok_spec _ _ Ht) as [Hl [Hrange _]].
  assert (Hne : t <> []) by (intros ->; cbn [length] in Hl; lia).
  assert (E : forall p R, (p <= 3)%N ->
            run (read_table ref_noexc_policy fuel (length t)) (write_table p t ++ R) = Ok (t, R)).
  { intros p R Hp. apply table_roundtrip; assumption. }
  rewrite Hl in E.
  cbn [length seq map combine flat_map repeat_prog fst snd]. rewrite <- app_assoc, run_bind.
  rewrite E by (destruct (N.of_nat k =? 0)%N; lia).
  rewrite run_bind. rewrite (IH (S k) rest Hr). reflexivity.
Qed.

Definition sel_order : list N := [0; 1; 2; 3; 4; 5]%N.

Lemma mtf_encode_sels_length : forall sels order, length (mtf_encode_sels order sels) = length sels.
Proof. induction sels as [|s r IH]; intros order; cbn [mtf_encode_sels length]; [reflexivity|]. rewrite IH. reflexivity. Qed.

Lemma sel_order_NoDup : NoDup sel_order.
Proof. unfold sel_order. repeat constructor; cbn [In]; intuition discriminate. Qed.

Lemma sel_order_In nt sels : (nt <= 6)%N -> Forall (fun s => (s < nt)%N) sels -> Forall (fun s => In s sel_order) sels.
Proof.
  intros Hnt Hs. eapply Forall_impl; [|exact Hs]. cbv beta. intros a Ha. unfold sel_order. cbn [In].
  assert (C : (a = 0 \/ a = 1 \/ a = 2 \/ a = 3 \/ a = 4 \/ a = 5)%N) by lia. intuition.
Qed.

Lemma sels_step nt sels (extra : bool) R :
  Forall (fun s => (s < nt)%N) sels -> (2 <= nt <= 6)%N ->
  run (repeat_prog (N.to_nat (N.of_nat (length sels) + (if extra then 1 else 0))) (read_unary (N.to_nat nt) 0))
      (flat_map unary (mtf_encode_sels sel_order sels) ++ (if extra then [false] else []) ++ R)
  = Ok (mtf_encode_sels sel_order sels ++ (if extra then [0%N] else []), R).
Proof.
  intros Hs Hnt.
  set (ks := mtf_encode_sels sel_order sels ++ (if extra then [0%N] else [])).
  assert (E1 : N.to_nat (N.of_nat (length sels) + (if extra then 1 else 0)) = length ks).
  { unfold ks. rewrite app_length, mtf_encode_sels_length. destruct extra; cbn [length]; lia. }
  assert (E2 : flat_map unary (mtf_encode_sels sel_order sels) ++ (if extra then [false] else []) ++ R
               = flat_map unary ks ++ R).
  { unfold ks. rewrite flat_map_app, <- app_assoc. f_equal. destruct extra; reflexivity. }
  rewrite E1, E2. apply selectors_read.
  unfold ks. apply Forall_app. split.
  - apply mtf_sels_pos2; [exact Hs|apply low_front_init; lia].
  - destruct extra; repeat constructor. lia.
Qed.

Lemma unmtf_selectors_app : forall a order b,
  exists c, unmtf_selectors order (a ++ b) = unmtf_selectors order a ++ c.
Proof.
  induction a as [|s a IH]; intros order b.
  - exists (unmtf_selectors order b). reflexivity.
  - cbn [app unmtf_selectors]. unfold mtf_front.
    destruct (IH (nth (N.to_nat s) order 0%N :: firstn (N.to_nat s) order ++ skipn (S (N.to_nat s)) order) b) as [c Hc].
    exists c. rewrite Hc. reflexivity.
Qed.

Lemma sels_clamp nt sels (extra : bool) :
  (N.of_nat (length sels) <= 18001)%N -> Forall (fun s => (s < nt)%N) sels -> (nt <= 6)%N ->
  exists ex, unmtf_selectors sel_order
               (firstn (N.to_nat sel_clamp_value) (mtf_encode_sels sel_order sels ++ (if extra then [0%N] else [])))
             = sels ++ ex.
Proof.
  intros Hl Hs Hnt.
  rewrite firstn_app. rewrite firstn_all2 by (rewrite mtf_encode_sels_length, sel_clamp_value_eq; lia).
  destruct (unmtf_selectors_app (mtf_encode_sels sel_order sels) sel_order
              (firstn (N.to_nat sel_clamp_value - length (mtf_encode_sels sel_order sels))
                      (if extra then [0%N] else []))) as [c Hc].
  exists c. rewrite Hc, mtf_sels_roundtrip; [reflexivity|apply sel_order_NoDup|apply (sel_order_In nt); assumption].
Qed.

Lemma run_guard_true {A} (c : bool) e (f : unit -> prog A) bits :
  c = true -> run (bind (guard c e) f) bits = run (f tt) bits.
Proof. intros ->. reflexivity. Qed.

(* the block reader reads back what transmit() wrote *)
Theorem body_roundtrip : forall M w fuel rest,
  (M <= 900000)%N -> witness_ok M w = true -> (64 <= fuel)%nat ->
  run (read_block ref_noexc_policy fuel) (write_body w ++ rest) = Ok (raw_of w, rest).
Proof.
  intros M w fuel rest HM Hok Hfuel.
  destruct (witness_ok_parts M w Hok) as (Hne & Hlen & Hbytes & Hidx & Hnt & Htabs & Hsels & Hsel & Hns & Hpad & Hcrc).
  unfold block_syms in *.
  unfold write_body, raw_of, read_block, block_syms.
  fold sel_order.
  set (col := bwt_last (w_blk w)) in *.
  set (used := used_bytes col) in *.
  set (mtfv := mtf_zrle col) in *.
  set (tables := w_tables w) in *.
  set (sels := w_sels w) in *.
  assert (Hcl : length col = length (w_blk w)) by apply bwt_last_length.
  assert (Hcol_b : Forall (fun c => (c < 256)%N) col) by apply bwt_last_bytes, Hbytes.
  assert (Hused_b : Forall (fun c => (c < 256)%N) used).
  { apply Forall_forall. intros c Hc. rewrite Forall_forall in Hcol_b. apply Hcol_b. apply used_bytes_In. exact Hc. }
  assert (Hused_ne : (1 <= length used)%nat) by apply used_nonempty, Hne.
  assert (Hmtf_len : (length mtfv <= length col)%nat) by apply mtf_zrle_length.
  assert (Hmtf_rng : Forall (fun s => (s < N.of_nat (length used) + 1)%N) mtfv).
  { apply Forall_forall. intros s Hs. pose proof (mtf_zrle_symbols_in_range col s Hs). fold used in H. lia. }
  pose proof (valid_idx_lt _ _ Hidx) as Hidx_lt.
  rewrite app_length in Hsels, Hns. cbn [length] in Hsels, Hns.
  assert (Hnsel : (N.of_nat (length sels) <= 18001)%N) by lia.
  rewrite <- !app_assoc.
  (* randomised bit, primary index *)
  rewrite run_bind, take_put by (cbn; lia).
  rewrite run_bind, take_put by (change (2 ^ N.of_nat 24)%N with 16777216%N; lia).
  (* bitmap *)
  rewrite run_bind, bitmap_roundtrip by (try apply used_bytes_StronglySorted; assumption).
  rewrite run_guard_true by (apply negb_true_iff, N.eqb_neq; lia).
  (* number of tables, number of selectors *)
  rewrite run_bind, take_put by (change (2 ^ N.of_nat 3)%N with 8%N; lia).
  rewrite run_guard_true by (apply andb_true_iff; split; apply N.leb_le; lia).
  rewrite run_bind, take_put by (change (2 ^ N.of_nat 15)%N with 32768%N; destruct (w_extra_sel w); lia).
  rewrite run_guard_true by (apply negb_true_iff, N.eqb_neq; destruct (w_extra_sel w); lia).
  (* selectors *)
  rewrite run_bind, sels_step by (try assumption; lia).
  (* tables *)
  rewrite Nat2N.id.
  rewrite run_bind, tables_read by (try assumption; lia).
  (* groups *)
  destruct (sels_clamp (N.of_nat (length tables)) sels (w_extra_sel w) Hnsel Hsel ltac:(lia)) as [ex Hex].
  change (sel_clamp ref_noexc_policy) with sel_clamp_value.
  rewrite Hex. rewrite run_bind.
  replace (N.of_nat (length used + 2) - 1)%N with (N.of_nat (length used) + 1)%N by lia.
  rewrite (read_groups_run tables (length used + 2) (N.of_nat (length used) + 1)%N).
  - cbn [run]. reflexivity.
  - lia.
  - exact Htabs.
  - rewrite app_length. cbn [length]. lia.
  - exact Hmtf_rng.
  - exact Hsels.
  - eapply Forall_impl; [|exact Hsel]. cbv beta. intros a Ha. lia.
Qed.

(* the raw block decodes to the bytes that went into the initial run-length coder *)
Theorem block_decodes : forall M level w x,
  (1 <= level <= 9)%N -> M = (100000 * level)%N -> witness_ok M w = true ->
  Forall (fun c => (c < 256)%N) x -> x <> [] -> w_blk w = RleModel.rle1 x ->
  decode_block ref_noexc_policy level (raw_of w) = Ok x.
Proof.
  intros M level w x Hlevel HM Hok Hx Hxne Hblk.
  destruct (witness_ok_parts M w Hok) as (Hne & Hlen & Hbytes & Hidx & _).
  pose proof (valid_idx_lt _ _ Hidx) as Hidx_lt.
  pose proof (bwt_last_length (w_blk w)) as Hcl.
  unfold decode_block, raw_of. cbn [rb_used rb_mtfv rb_idx rb_rand].
  rewrite mtf_roundtrip.
  - cbn [rbind].
    replace (N.of_nat (length (bwt_last (w_blk w))) =? 0)%N with false
      by (symmetry; apply N.eqb_neq; destruct (w_blk w); [congruence|cbn [length] in Hcl; lia]).
    replace (N.of_nat (length (bwt_last (w_blk w))) <=? w_idx w)%N with false
      by (symmetry; apply N.leb_gt; lia).
    rewrite (ibwt_bwt _ _ Hne Hbytes Hidx).
    change (runlen_strict ref_noexc_policy) with true.
    rewrite Hblk. apply unrle_rle1. exact Hx.
  - intro E. rewrite E in Hcl. cbn [length] in Hcl. destruct (w_blk w); [congruence|discriminate].
  - rewrite Hcl. lia.
Qed.

Print Assumptions body_roundtrip.
Print Assumptions block_decodes.
