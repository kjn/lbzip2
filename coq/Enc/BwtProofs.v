(* ibwt (the linked-list inverse BWT of decode()) inverts the specification-level
   BWT (last column of the sorted rotation matrix). *)
From Coq Require Import List NArith Arith Lia Sorted Permutation.
From LBZ Require Import Dec.Format Enc.EncModel Enc.ListAux.
Import ListNotations.
Local Open Scope N_scope.

Definition lle (a b : list N) : Prop := is_true (lex_leb a b).

Lemma lex_leb_trans : forall a b c, lex_leb a b = true -> lex_leb b c = true -> lex_leb a c = true.
Proof.
  induction a as [|x a IH]; intros [|y b] [|z c]; cbn [lex_leb]; auto; try discriminate.
  destruct (N.ltb_spec x y) as [Hxy|Hxy].
  - intros _. destruct (N.ltb_spec y z) as [Hyz|Hyz].
    + intros _. destruct (N.ltb_spec x z); auto. lia.
    + destruct (N.ltb_spec z y) as [Hzy|Hzy]; [discriminate|].
      intros _. destruct (N.ltb_spec x z); auto. lia.
  - destruct (N.ltb_spec y x) as [Hyx|Hyx]; [discriminate|].
    assert (x = y) by lia. subst y. intros Hab.
    destruct (N.ltb_spec x z) as [Hxz|Hxz]; auto.
    destruct (N.ltb_spec z x) as [Hzx|Hzx]; [discriminate|].
    intros Hbc. eapply IH; eauto.
Qed.

Lemma lex_leb_antisym : forall a b, lex_leb a b = true -> lex_leb b a = true -> a = b.
Proof.
  induction a as [|x a IH]; intros [|y b]; cbn [lex_leb]; auto; try discriminate.
  destruct (N.ltb_spec x y) as [Hxy|Hxy].
  - intros _. destruct (N.ltb_spec y x) as [Hyx|Hyx]; [lia|discriminate].
  - destruct (N.ltb_spec y x) as [Hyx|Hyx]; [discriminate|].
    intros H1 H2. assert (x = y) by lia. subst y. f_equal. auto.
Qed.

Lemma lle_trans : Relations_1.Transitive lle.
Proof. intros a b c. unfold lle, is_true. apply lex_leb_trans. Qed.

Lemma lex_leb_cons_same : forall c a b, lex_leb (c :: a) (c :: b) = lex_leb a b.
Proof. intros. cbn [lex_leb]. rewrite N.ltb_irrefl. reflexivity. Qed.

Lemma lex_leb_cons_lt : forall c d a b, c < d -> lex_leb (c :: a) (d :: b) = true.
Proof. intros c d a b H. cbn [lex_leb]. apply N.ltb_lt in H. rewrite H. reflexivity. Qed.

Lemma lex_leb_snoc : forall c a b, length a = length b ->
  lex_leb (a ++ [c]) (b ++ [c]) = true -> lex_leb a b = true.
Proof.
  induction a as [|x a IH]; intros [|y b] Hlen; cbn [length] in Hlen; try discriminate; auto.
  cbn [app lex_leb].
  destruct (x <? y); auto. destruct (y <? x); auto.
Qed.

Definition rotr (r : list N) : list N := last r 0 :: removelast r.

Lemma rot_app : forall (l1 l2 : list N), rot (length l1) (l1 ++ l2) = l2 ++ l1.
Proof.
  intros. unfold rot. rewrite skipn_app, firstn_app, skipn_all, firstn_all, Nat.sub_diag.
  cbn [skipn firstn app]. rewrite app_nil_r. reflexivity.
Qed.

Lemma rot_0 : forall (l : list N), rot 0 l = l.
Proof. intros. unfold rot. cbn [skipn firstn]. apply app_nil_r. Qed.

Lemma rotr_snoc : forall l x, rotr (l ++ [x]) = x :: l.
Proof. intros. unfold rotr. rewrite last_last, removelast_last. reflexivity. Qed.

Lemma rotr_rot_S : forall i (l : list N), (i < length l)%nat -> rotr (rot (S i) l) = rot i l.
Proof.
  intros i l Hi.
  assert (Hsplit : exists l1 x l2, l = l1 ++ x :: l2 /\ length l1 = i).
  { exists (firstn i l). destruct (skipn i l) as [|x l2] eqn:Hs.
    - apply (f_equal (@length N)) in Hs. rewrite skipn_length in Hs. cbn [length] in Hs. lia.
    - exists x, l2. split.
      + rewrite <- Hs. symmetry. apply firstn_skipn.
      + apply firstn_length_le. lia. }
  destruct Hsplit as [l1 [x [l2 [-> Hl1]]]]. subst i.
  rewrite rot_app.
  replace (S (length l1)) with (length (l1 ++ [x])) by (rewrite app_length; cbn [length]; lia).
  replace (l1 ++ x :: l2) with ((l1 ++ [x]) ++ l2) by (rewrite <- app_assoc; reflexivity).
  rewrite rot_app, app_assoc, rotr_snoc. reflexivity.
Qed.

Lemma rot_length : forall i (l : list N), length (rot i l) = length l.
Proof.
  intros. unfold rot. rewrite app_length, Nat.add_comm, <- app_length, firstn_skipn. reflexivity.
Qed.

Lemma rot_In : forall i (l : list N) x, In x (rot i l) -> In x l.
Proof.
  intros i l x H. unfold rot in H. rewrite <- (firstn_skipn i l).
  apply in_app_or in H. apply in_or_app. tauto.
Qed.

Lemma rotations_length : forall (l : list N), length (rotations l) = length l.
Proof. intros. unfold rotations. rewrite map_length, seq_length. reflexivity. Qed.

Lemma rotations_rotr_perm : forall (l : list N), Permutation (map rotr (rotations l)) (rotations l).
Proof.
  intros l. destruct l as [|y l0]; [constructor|].
  destruct (@exists_last _ (y :: l0)) as [l1 [x Hl]]; [discriminate|].
  rewrite Hl. clear Hl y l0. unfold rotations. rewrite map_map.
  rewrite app_length. cbn [length]. rewrite Nat.add_1_r.
  set (l := l1 ++ [x]). set (m := length l1).
  assert (Hlen : length l = S m) by (unfold l, m; rewrite app_length; cbn [length]; lia).
  rewrite seq_S at 2. cbn [seq map]. rewrite map_app. cbn [map Nat.add].
  assert (H0 : rotr (rot 0 l) = rot m l).
  { rewrite rot_0. unfold l, m. rewrite rot_app, rotr_snoc. reflexivity. }
  rewrite H0. rewrite <- seq_shift, map_map.
  rewrite (map_ext_in (fun i => rotr (rot (S i) l)) (fun i => rot i l)).
  - apply Permutation_cons_append.
  - intros i Hi. apply in_seq in Hi. apply rotr_rot_S. lia.
Qed.

(* the stable counting sort by last byte, on rows ([stab]) and on indices ([Pn], which is stable_perm) *)
Definition bytes : list N := map N.of_nat (seq 0 256).
Definition lastb (r : list N) : N := last r 0.

(* rows of R bucketed by their last byte (stable), last byte moved to the front *)
Definition stab (R : list (list N)) : list (list N) :=
  flat_map (fun c => map rotr (filter (fun r => N.eqb c (lastb r)) R)) bytes.

(* stable_perm with nat indices *)
Definition Pn (tt : list N) : list nat :=
  flat_map (fun c => map fst (filter (fun p : nat * N => N.eqb c (snd p)) (combine (seq 0 (length tt)) tt))) bytes.

Lemma stable_perm_Pn : forall tt, stable_perm tt = map N.of_nat (Pn tt).
Proof.
  intros. unfold stable_perm, Pn, bytes. rewrite map_flat_map.
  apply flat_map_ext. intros c. rewrite map_map. reflexivity.
Qed.

Lemma Pn_bound : forall tt i, In i (Pn tt) -> (i < length tt)%nat.
Proof.
  intros tt i H. unfold Pn in H. apply in_flat_map in H. destruct H as [c [_ H]].
  apply in_map_iff in H. destruct H as [[i' v] [Hi H]]. cbn [fst] in Hi. subst i'.
  apply filter_In in H. destruct H as [H _]. apply in_combine_l in H. apply in_seq in H. lia.
Qed.

Lemma idx_filter : forall (f : N -> bool) (g : list N -> N) (R : list (list N)) k,
  map (fun p : nat * N => nth (fst p - k) R [])
      (filter (fun p => f (snd p)) (combine (seq k (length R)) (map g R)))
  = filter (fun r => f (g r)) R.
Proof.
  intros f g. induction R as [|r R IH]; intros k; [reflexivity|].
  cbn [length seq map combine filter snd].
  assert (Hrest : map (fun p : nat * N => nth (fst p - k) (r :: R) [])
                    (filter (fun p => f (snd p)) (combine (seq (S k) (length R)) (map g R)))
                  = filter (fun r => f (g r)) R).
  { rewrite <- (IH (S k)). apply map_ext_in. intros p Hp.
    apply filter_In in Hp. destruct Hp as [Hp _]. destruct p as [i v].
    apply in_combine_l in Hp. apply in_seq in Hp. cbn [fst].
    replace (i - k)%nat with (S (i - S k)) by lia. reflexivity. }
  destruct (f (g r)).
  - cbn [map fst]. rewrite Nat.sub_diag. cbn [nth]. f_equal. exact Hrest.
  - exact Hrest.
Qed.

Lemma stab_Pn : forall R, map (fun i => rotr (nth i R [])) (Pn (map lastb R)) = stab R.
Proof.
  intros R. unfold Pn, stab. rewrite map_flat_map. apply flat_map_ext. intros c.
  rewrite map_map, map_length.
  rewrite <- (idx_filter (N.eqb c) lastb R 0), map_map.
  apply map_ext. intros p. rewrite Nat.sub_0_r. reflexivity.
Qed.

Lemma bytes_In : forall c, In c bytes <-> c < 256.
Proof.
  intros c. unfold bytes. rewrite in_map_iff. split.
  - intros [i [<- Hi]]. apply in_seq in Hi. lia.
  - intros H. exists (N.to_nat c). split; [apply N2Nat.id|]. apply in_seq. lia.
Qed.

Lemma bytes_SS : StronglySorted N.lt bytes.
Proof. apply SS_lt_of_nat_seq. Qed.

(* bucketing by key is a permutation *)
Lemma bucket_perm_cons : forall (key : list N -> N) (x : list N) (X : list (list N)) ks,
  StronglySorted N.lt ks -> In (key x) ks ->
  Permutation (flat_map (fun c => filter (fun r => N.eqb c (key r)) (x :: X)) ks)
              (x :: flat_map (fun c => filter (fun r => N.eqb c (key r)) X) ks).
Proof.
  intros key x X. induction ks as [|k ks IH]; intros SS Hin; [destruct Hin|].
  apply StronglySorted_inv in SS. destruct SS as [SS Fk].
  cbn [flat_map filter]. destruct (N.eqb_spec k (key x)) as [E|E].
  - cbn [app]. constructor. apply Permutation_app_head.
    rewrite (flat_map_ext_in (fun c => filter (fun r => N.eqb c (key r)) (x :: X))
                             (fun c => filter (fun r => N.eqb c (key r)) X)); [reflexivity|].
    intros c Hc. cbn [filter]. rewrite Forall_forall in Fk. specialize (Fk c Hc).
    destruct (N.eqb_spec c (key x)); [lia|reflexivity].
  - destruct Hin as [Hin|Hin]; [congruence|].
    eapply Permutation_trans; [apply Permutation_app_head; apply IH; auto|].
    apply Permutation_sym, Permutation_middle.
Qed.

Lemma bucket_perm : forall (key : list N -> N) ks (X : list (list N)),
  StronglySorted N.lt ks -> (forall x, In x X -> In (key x) ks) ->
  Permutation (flat_map (fun c => filter (fun r => N.eqb c (key r)) X) ks) X.
Proof.
  intros key ks X SS. induction X as [|x X IH]; intros Hin.
  - cbn [filter]. clear. induction ks as [|k ks IHk]; cbn [flat_map app]; auto.
  - eapply Permutation_trans; [apply bucket_perm_cons; auto; apply Hin; left; auto|].
    constructor. apply IH. intros; apply Hin; right; auto.
Qed.

Lemma stab_perm : forall R, (forall r, In r R -> lastb r < 256) -> Permutation (stab R) (map rotr R).
Proof.
  intros R H. unfold stab. rewrite <- map_flat_map. apply Permutation_map.
  apply bucket_perm; [apply bytes_SS|]. intros x Hx. apply bytes_In. auto.
Qed.

Lemma rotr_mono : forall a b, a <> [] -> b <> [] -> length a = length b -> lastb a = lastb b ->
  lex_leb a b = true -> lex_leb (rotr a) (rotr b) = true.
Proof.
  intros a b Ha Hb Hlen Hlast Hle.
  destruct (exists_last Ha) as [a' [x ->]]. destruct (exists_last Hb) as [b' [y ->]].
  unfold lastb in Hlast. rewrite !last_last in Hlast. subst y.
  rewrite !rotr_snoc, lex_leb_cons_same. apply lex_leb_snoc with (c := x); auto.
  rewrite !app_length in Hlen. cbn [length] in Hlen. lia.
Qed.

Lemma stab_sorted_gen : forall n R ks,
  StronglySorted lle R -> (forall r, In r R -> length r = S n) ->
  StronglySorted N.lt ks ->
  StronglySorted lle (flat_map (fun c => map rotr (filter (fun r => N.eqb c (lastb r)) R)) ks).
Proof.
  intros n R ks SR Hlen. induction ks as [|c ks IH]; intros SS; cbn [flat_map]; [constructor|].
  apply StronglySorted_inv in SS. destruct SS as [SS Fc].
  assert (Hne : forall r, In r R -> r <> []).
  { intros r Hr E. apply Hlen in Hr. subst r. discriminate. }
  apply SS_app; auto.
  - apply SS_map_in; [|apply SS_filter; exact SR].
    intros a b Ia Ib Hab. apply filter_In in Ia, Ib. destruct Ia as [Ia Ea], Ib as [Ib Eb].
    apply N.eqb_eq in Ea, Eb. unfold lle, is_true in *.
    apply rotr_mono; auto; try congruence. rewrite (Hlen a Ia), (Hlen b Ib). reflexivity.
  - intros a b Ia Ib. apply in_map_iff in Ia. destruct Ia as [ra [<- Ia]].
    apply filter_In in Ia. destruct Ia as [Ia Ea]. apply N.eqb_eq in Ea.
    apply in_flat_map in Ib. destruct Ib as [d [Hd Ib]].
    apply in_map_iff in Ib. destruct Ib as [rb [<- Ib]].
    apply filter_In in Ib. destruct Ib as [Ib Eb]. apply N.eqb_eq in Eb.
    rewrite Forall_forall in Fc. specialize (Fc d Hd).
    unfold lle, is_true, rotr. fold (lastb ra). fold (lastb rb). rewrite <- Ea, <- Eb.
    apply lex_leb_cons_lt. exact Fc.
Qed.

Lemma stab_sorted : forall n R,
  StronglySorted lle R -> (forall r, In r R -> length r = S n) -> StronglySorted lle (stab R).
Proof. intros. eapply stab_sorted_gen; eauto. apply bytes_SS. Qed.

(* the sorted rotation matrix is a fixpoint of [stab]; following the permutation walks through its rows *)
Lemma sorted_rots_SS : forall blk, StronglySorted lle (sorted_rots blk).
Proof.
  intros. apply Sorted_StronglySorted; [apply lle_trans|]. apply LexSort.Sorted_sort.
Qed.

Lemma sorted_rots_length : forall blk, length (sorted_rots blk) = length blk.
Proof.
  intros. unfold sorted_rots. rewrite <- (Permutation_length (LexSort.Permuted_sort _)).
  apply rotations_length.
Qed.

Lemma sorted_rots_row : forall blk r, In r (sorted_rots blk) ->
  length r = length blk /\ (forall x, In x r -> In x blk).
Proof.
  intros blk r H. unfold sorted_rots in H.
  apply (Permutation_in _ (Permutation_sym (LexSort.Permuted_sort _))) in H.
  unfold rotations in H. apply in_map_iff in H. destruct H as [i [<- _]].
  split; [apply rot_length|apply rot_In].
Qed.

Lemma last_In : forall (r : list N), r <> [] -> In (lastb r) r.
Proof.
  intros r H. destruct (exists_last H) as [r' [x ->]]. unfold lastb. rewrite last_last.
  apply in_or_app. right. left. reflexivity.
Qed.

Lemma sorted_rots_fix : forall blk, blk <> [] -> Forall (fun c => c < 256) blk ->
  stab (sorted_rots blk) = sorted_rots blk.
Proof.
  intros blk Hne Hb.
  assert (Hlen : exists n, length blk = S n).
  { destruct blk as [|x b]; [congruence|]. exists (length b). reflexivity. }
  destruct Hlen as [n Hn].
  apply sorted_perm_eq with (le := lle).
  - intros a b. unfold lle, is_true. apply lex_leb_antisym.
  - apply stab_sorted with (n := n); [apply sorted_rots_SS|].
    intros r Hr. apply sorted_rots_row in Hr. lia.
  - apply sorted_rots_SS.
  - eapply Permutation_trans; [apply stab_perm|].
    + intros r Hr. apply sorted_rots_row in Hr. destruct Hr as [Hl Hin].
      rewrite Forall_forall in Hb. apply Hb, Hin, last_In. intros ->. cbn [length] in Hl. lia.
    + unfold sorted_rots.
      eapply Permutation_trans;
        [apply Permutation_map, Permutation_sym, LexSort.Permuted_sort|].
      eapply Permutation_trans; [apply rotations_rotr_perm|apply LexSort.Permuted_sort].
Qed.

Lemma bwt_last_lastb : forall blk, bwt_last blk = map lastb (sorted_rots blk).
Proof. reflexivity. Qed.

Section Walk.
  Variable blk : list N.
  Hypothesis Hne : blk <> [].
  Hypothesis Hb : Forall (fun c => c < 256) blk.

  Let R := sorted_rots blk.
  Let L := bwt_last blk.
  Let n := length blk.

  Lemma Pn_map_R : map (fun i => rotr (nth i R [])) (Pn L) = R.
  Proof.
    unfold L. rewrite bwt_last_lastb. fold R. rewrite stab_Pn. apply sorted_rots_fix; auto.
  Qed.

  Lemma Pn_length : length (Pn L) = n.
  Proof.
    rewrite <- (map_length (fun i => rotr (nth i R [])) (Pn L)), Pn_map_R.
    apply sorted_rots_length.
  Qed.

  Lemma L_length : length L = n.
  Proof. unfold L, bwt_last. rewrite map_length. apply sorted_rots_length. Qed.

  Lemma row_step : forall j, (j < n)%nat ->
    (nth j (Pn L) 0 < n)%nat /\ nth j R [] = rotr (nth (nth j (Pn L) 0%nat) R []).
  Proof.
    intros j Hj. split.
    - rewrite <- L_length. apply Pn_bound. apply nth_In. rewrite Pn_length. exact Hj.
    - transitivity (nth j (map (fun i => rotr (nth i R [])) (Pn L)) []).
      { rewrite Pn_map_R. reflexivity. }
      rewrite (nth_indep _ [] (rotr (nth 0%nat R [])))
        by (rewrite map_length, Pn_length; exact Hj).
      exact (map_nth (fun i => rotr (nth i R [])) (Pn L) 0%nat j).
  Qed.

  Lemma follow_rows : forall k j, (N.to_nat j < n)%nat -> (k <= n)%nat ->
    follow k (stable_perm L) L j = firstn k (nth (N.to_nat j) R []).
  Proof.
    induction k as [|k IH]; intros j Hj Hk; [reflexivity|].
    cbn [follow].
    destruct (row_step (N.to_nat j) Hj) as [Hj1 Hrow].
    set (j1 := nth (N.to_nat j) (Pn L) 0%nat) in *.
    assert (E1 : nth (N.to_nat j) (stable_perm L) 0 = N.of_nat j1).
    { rewrite stable_perm_Pn. change 0 with (N.of_nat 0). rewrite map_nth. reflexivity. }
    rewrite E1, Nat2N.id.
    assert (E2 : nth j1 L 0 = lastb (nth j1 R [])).
    { unfold L. rewrite bwt_last_lastb. fold R. change 0 with (lastb []). rewrite map_nth. reflexivity. }
    rewrite E2, Hrow.
    assert (Hr1 : In (nth j1 R []) R).
    { apply nth_In. unfold R. rewrite sorted_rots_length. exact Hj1. }
    apply sorted_rots_row in Hr1. destruct Hr1 as [Hl1 _]. fold n in Hl1.
    assert (Hne1 : nth j1 R [] <> []).
    { intros E. rewrite E in Hl1. cbn [length] in Hl1. lia. }
    rewrite (IH (N.of_nat j1)) by (rewrite ?Nat2N.id; lia). rewrite Nat2N.id.
    destruct (exists_last Hne1) as [r1 [x Er]]. rewrite Er in *.
    rewrite rotr_snoc. unfold lastb. rewrite last_last. cbn [firstn]. f_equal.
    rewrite app_length in Hl1. cbn [length] in Hl1.
    rewrite firstn_app. replace (k - length r1)%nat with 0%nat by lia.
    cbn [firstn]. apply app_nil_r.
  Qed.
End Walk.

Theorem ibwt_bwt : forall (blk : list N) (i : N),
  blk <> [] -> Forall (fun c => (c < 256)%N) blk -> valid_idx blk i ->
  ibwt (bwt_last blk) i = blk.
Proof.
  intros blk i Hne Hb Hv. unfold ibwt. unfold valid_idx in Hv.
  assert (Hi : (N.to_nat i < length blk)%nat).
  { rewrite <- (sorted_rots_length blk). apply nth_error_Some. rewrite Hv. discriminate. }
  rewrite L_length.
  rewrite follow_rows; auto.
  rewrite (nth_error_nth _ _ _ Hv). apply firstn_all.
Qed.

Print Assumptions ibwt_bwt.
