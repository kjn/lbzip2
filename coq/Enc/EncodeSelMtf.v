(* The selector MTF of encode() (src/encode.c l.473-511): the whole MTF state packed into one 32-bit integer, updated
   with xor / add / and / ctz only.  Checked by computation on all 720 orders x 6 selectors: the step yields the
   move-to-front position of the selector and the packed state of the new order. *)
From Coq Require Import List NArith Bool Lia Permutation.
From LBZ Require Import Enc.EncModel Enc.ListAux Enc.LayoutA Enc.PmModel Enc.PmReal Enc.GenModel Enc.GenInit
  Enc.GenReorder Enc.EncodeModel.
Import ListNotations.
Local Open Scope N_scope.

(* nibble i of the state holds the tree at MTF position i *)
Definition pack (order : list N) : N := fold_right (fun x acc => x + 16 * acc) 0 order.

Fixpoint insert_all (x : N) (l : list N) : list (list N) :=
  match l with
  | [] => [[x]]
  | y :: r => (x :: l) :: map (cons y) (insert_all x r)
  end.

Fixpoint perms (l : list N) : list (list N) :=
  match l with
  | [] => [[]]
  | x :: r => flat_map (insert_all x) (perms r)
  end.

Lemma insert_all_in x : forall a b, In (a ++ x :: b) (insert_all x (a ++ b)).
Proof.
  induction a as [|y a IH]; intro b; cbn [app insert_all].
  - destruct b; left; reflexivity.
  - right. apply in_map, IH.
Qed.

Lemma perms_complete : forall l o, Permutation l o -> In o (perms l).
Proof.
  induction l as [|x l IH]; intros o P.
  - apply Permutation_nil in P. subst. left. reflexivity.
  - destruct (in_split x o) as [a [b ->]]; [apply (Permutation_in _ P); left; reflexivity|].
    apply Permutation_cons_app_inv in P. cbn [perms]. apply in_flat_map. exists (a ++ b).
    split; [apply IH, P|apply insert_all_in].
Qed.

Lemma pack_init : pack [0; 1; 2; 3; 4; 5] = SEL_MTF_INIT.
Proof. reflexivity. Qed.

Lemma sel_mtf_sweep :
  forallb (fun o => forallb (fun c =>
    let '(p', j) := sel_mtf_step (pack o) c in (p' =? pack (mtf_move c o)) && (j =? N.of_nat (index_of c o)))
    (Nrange 6)) (perms [0; 1; 2; 3; 4; 5]) = true.
Proof. vm_compute. reflexivity. Qed.

Lemma sel_mtf_step_spec o c : Permutation [0; 1; 2; 3; 4; 5] o -> c < 6 ->
  sel_mtf_step (pack o) c = (pack (mtf_move c o), N.of_nat (index_of c o)).
Proof.
  intros Ho Hc. pose proof sel_mtf_sweep as C. rewrite forallb_forall in C.
  specialize (C o (perms_complete _ _ Ho)). rewrite forallb_forall in C. specialize (C c (Nrange_in c 6 Hc)).
  destruct (sel_mtf_step (pack o) c) as [p' j]. apply andb_prop in C. destruct C as [C1 C2].
  apply N.eqb_eq in C1, C2. subst. reflexivity.
Qed.

(* cost after the loop: cost += j + 1 per selector, in uint32_t *)
Definition selcost (js : list N) (cost : N) : N := fold_left (fun c j => u32 (c + j + 1)) js cost.

Lemma sel_mtf_loop_spec nt : nt <= 6 -> forall sels o cost, Permutation [0; 1; 2; 3; 4; 5] o -> Forall (fun c => c < nt) sels ->
  sel_mtf_loop nt sels (pack o) cost = EOk (mtf_encode_sels o sels, selcost (mtf_encode_sels o sels) cost).
Proof.
  intro Hnt. induction sels as [|c r IH]; intros o cost Ho Hs; [reflexivity|].
  inversion Hs as [|? ? Hc Hr]; subst. cbn [sel_mtf_loop].
  replace (c <? nt) with true by (symmetry; apply N.ltb_lt; exact Hc). cbn [negb].
  assert (Hc6 : c < 6) by lia. rewrite (sel_mtf_step_spec o c Ho Hc6).
  rewrite IH, mtf_encode_sels_cons; [reflexivity| |exact Hr].
  rewrite mtf_move_perm; [exact Ho|]. apply (Permutation_in _ Ho), (Nrange_in c 6 Hc6).
Qed.

Lemma selcost_exact : forall js cost, cost + lsum js + N.of_nat (length js) < 2 ^ 32 ->
  selcost js cost = cost + lsum js + N.of_nat (length js).
Proof.
  induction js as [|j r IH]; intros cost H; cbn [selcost fold_left lsum length] in *; [lia|].
  rewrite u32_small by (unfold U32; lia). fold (selcost r (cost + j + 1)). rewrite IH by lia. lia.
Qed.
